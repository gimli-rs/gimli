(* Properties/C01_conv.v — C01 instances (never panics / terminates / stops) for the read-to-write line converter
   (Model/ConvertLine.v), the per-unit glue of read/dwarf.rs (Model/UnitGlue.v), the conversion filter's bounds rule
   (Model/FilterAttrs.v) and the whole-evaluator refinement (Proofs/OpEvalRefine.v). Same shape as
   Properties/C01.v: each theorem is the statement of the owning property's theorem, closed by it.
   Companion file: built, audited and listed with Properties/C01.v by ./check. *)
Require GV.Properties.C07 GV.Properties.C12 GV.Properties.C17 GV.Properties.C19.

(* ConvertLineProgram::read_row: no panic, no fuel exhaustion, invariant kept, progress on every event *)
Theorem c01_c12_line_convert_no_panic : ltac:(let t := type of C12.line_convert_no_panic in exact t).
Proof. exact C12.line_convert_no_panic. Qed.

(* driving read_row to the end terminates for any program bytes *)
Theorem c01_c12_line_convert_events_terminate : ltac:(let t := type of C12.line_convert_events_terminate in exact t).
Proof. exact C12.line_convert_events_terminate. Qed.

(* ConvertLineProgram::new establishes the invariant the two theorems above start from *)
Theorem c01_c12_line_convert_new_ok : ltac:(let t := type of C12.line_convert_new_ok in exact t).
Proof. exact C12.line_convert_new_ok. Qed.

(* DW_LNE_define_file entries convert to a file id or a specific error *)
Theorem c01_c12_line_convert_define_file_safe : ltac:(let t := type of C12.line_convert_define_file_safe in exact t).
Proof. exact C12.line_convert_define_file_safe. Qed.

(* expression conversion: input length + 1 steps suffice *)
Theorem c01_c12_expr_fuel_suffices : ltac:(let t := type of C12.expr_fuel_suffices in exact t).
Proof. exact C12.expr_fuel_suffices. Qed.

(* Unit::new, attr_string, attr_address, unit_ranges over any sections and any root attribute list *)
Theorem c01_c17_unit_glue_no_panic : ltac:(let t := type of C17.unit_glue_no_panic in exact t).
Proof. exact C17.unit_glue_no_panic. Qed.

(* the conversion filter's is_in_bounds guard followed by the unchecked usize addition never panics or wraps *)
Theorem c01_c19_bounds_rule_exact : ltac:(let t := type of C19.bounds_rule_exact in exact t).
Proof. exact C19.bounds_rule_exact. Qed.

(* model evaluator and specification machine run out of fuel together (so "does not hang under an iteration
   limit", C07.iteration_bound, transfers between them) *)
Theorem c01_c07_refines_out_of_fuel : ltac:(let t := type of C07.refines_out_of_fuel in exact t).
Proof. exact C07.refines_out_of_fuel. Qed.

Check c01_c12_line_convert_no_panic. Check c01_c12_line_convert_events_terminate. Check c01_c12_line_convert_new_ok.
Check c01_c12_line_convert_define_file_safe. Check c01_c12_expr_fuel_suffices. Check c01_c17_unit_glue_no_panic.
Check c01_c19_bounds_rule_exact. Check c01_c07_refines_out_of_fuel.
