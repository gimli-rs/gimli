(* Properties/C04_tie.v — translator tie (DESIGN §1.2 item 2) for C04: the opcode -> variant tables of LineInstruction::parse
   (src/read/line.rs), regenerated into coq/Gen/LineTable.v from the source text on every ./check run, against
   Model/LineRd.v parse_insn.  standard_agree / extended_agree (Proofs/GenAgreeLineTable.v) run the model on the opcode
   followed by benign operands and compare the constructor name with the arm of the regenerated table. *)
From Coq Require Import List NArith Bool String.
From Coq.Strings Require Import Byte.
Require Import GV.Base.Res GV.Proofs.GenSweep GV.Model.LineRd GV.Proofs.GenAgreeLineTable.
Require GV.Gen.LineTable GV.Gen.Constants.
Import ListNotations.
Local Open Scope string_scope.
Local Open Scope N_scope.

(* all 256 opcode bytes, DWARF 4 and 5, opcode_base 1/10/13/14/40/255: Model/LineRd.v parse_insn builds a variant that the arm of LineInstruction::parse for that opcode builds (Special from opcode_base on; UnknownStandard0/1/N for unlisted standard opcodes) *)
Theorem c04_tie_line_standard :
  forall version ob opcode,
  In version [4; 5] -> In ob [1; 10; 13; 14; 40; 255] -> opcode < 256 -> standard_agree version ob opcode = true.
Proof.
  intros version ob opcode Hv Hob H.
  pose proof (forallb_In _ _ _ gen_line_standard_sweep version Hv) as S. cbv beta in S.
  pose proof (forallb_In _ _ _ S ob Hob) as S'. cbv beta zeta in S'.
  exact (sweep_lt _ _ S' opcode H).
Qed.

(* all 256 extended opcodes *)
Theorem c04_tie_line_extended :
  forall version sub, In version [4; 5] -> sub < 256 -> extended_agree version sub = true.
Proof.
  intros version sub Hv H.
  pose proof (forallb_In _ _ _ gen_line_extended_sweep version Hv) as S. cbv beta zeta in S.
  exact (sweep_lt _ _ S sub H).
Qed.

(* DW_LNE_define_file: DefineFile up to version 4, UnknownExtended in version 5 *)
Theorem c04_tie_line_define_file :
  lookup_l Constants.DW_LNE_define_file LineTable.extended_table = Some ["DefineFile"; "UnknownExtended"] /\
  map (fun v => match parse_insn false false (hdr v 13) (x00 :: x0c :: x03 :: removelast tail) with
                | Ok (i, _) => insn_ctor i | _ => "" end) [2; 3; 4; 5] =
    ["DefineFile"; "DefineFile"; "DefineFile"; "UnknownExtended"].
Proof. split; reflexivity. Qed.

(* every DW_LNS_* constant of constants.rs has an arm, in order; the extended keys are DW_LNE_* constants *)
Theorem c04_tie_line_table_keys :
  map fst LineTable.standard_table = Constants.DwLns_values /\
  forallb (fun k => existsb (N.eqb k) Constants.DwLne_values) (map fst LineTable.extended_table) = true.
Proof. split; reflexivity. Qed.

(* statement pins *)
Check c04_tie_line_standard :
  forall version ob opcode,
  In version [4; 5] -> In ob [1; 10; 13; 14; 40; 255] -> opcode < 256 -> standard_agree version ob opcode = true.
Check c04_tie_line_extended :
  forall version sub, In version [4; 5] -> sub < 256 -> extended_agree version sub = true.
Check c04_tie_line_define_file :
  lookup_l Constants.DW_LNE_define_file LineTable.extended_table = Some ["DefineFile"; "UnknownExtended"] /\
  map (fun v => match parse_insn false false (hdr v 13) (x00 :: x0c :: x03 :: removelast tail) with
                | Ok (i, _) => insn_ctor i | _ => "" end) [2; 3; 4; 5] =
    ["DefineFile"; "DefineFile"; "DefineFile"; "UnknownExtended"].
Check c04_tie_line_table_keys :
  map fst LineTable.standard_table = Constants.DwLns_values /\
  forallb (fun k => existsb (N.eqb k) Constants.DwLne_values) (map fst LineTable.extended_table) = true.
