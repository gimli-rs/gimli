(* Properties/C06.v — "Unwind table rows equal DWARF call-frame semantics".
   The development behind the statements is Proofs/CfiRunProofs.v.
   Reading guide:
     fde_rows dbg caps f cx      the model of `fde.rows(section, bases, ctx)` + `next_row` until the end, for an
                                 already-parsed CIE/FDE [f] (Model/CfiRun.v mirrors src/read/cfi.rs);
                                 returns ((rows delivered, how it ended), context left behind)
     spec_unl dbg f              the DWARF call-frame machine without storage limits (Spec/CfaSpec.v run_spec)
                                 on the same decoded instruction streams
     spec_of dbg caps f          the same machine with the storage limits layered on as a guard on ITS OWN
                                 occupancy (remembered states + 1 + 1 if the CIE left > 1 rule; number of
                                 registers with a non-default rule)
     within_limits dbg caps f    that occupancy never exceeds caps along the unlimited run
     row_equiv r sr              same [start,end), cfa, args_size, and the same rule for EVERY register
   All theorems hold for every byte string in the CIE and in the FDE, every alignment factor, address size,
   byte order, vendor, storage capacity, and both build modes ([dbg]). *)
From Coq Require Import List NArith ZArith Bool.
From Coq.Strings Require Import Byte.
Require Import GV.Base.Res GV.Base.Byt GV.Base.Ints GV.Spec.LebSpec GV.Model.Leb GV.Model.Prim.
Require Import GV.Spec.CfaSpec GV.Model.CfiRun GV.Proofs.CfiRunProofs.
Import ListNotations.
Local Open Scope N_scope.

(* Decoding, for every DW_CFA opcode form and both vendors.
   enc_wire: the spec encoder of every wire form (high-2-bit forms, extended forms, GNU args_size,
   AArch64 negate_ra_state); wire_ok: operands in range; decode_expect: the instruction the form denotes,
   except that negate_ra_state is UnknownCallFrameInstruction unless the vendor is AArch64.
   LEB128 operands are written by the spec encoders enc_uleb / enc_sleb and read by the model of
   leb128::read::{unsigned,signed}. *)
Theorem insn_decode : forall dbg be asize aarch64 off w rest,
  valid_asize asize = true -> wire_ok asize w = true ->
  parse_insn dbg be asize aarch64 off (enc_wire be asize w ++ rest) = decode_expect aarch64 off w rest.
Proof. exact insn_decode_thm. Qed.

(* the LEB128 operand codecs used above, for the record *)
Theorem uleb_operand_roundtrip : forall dbg v rest,
  v < two64 -> read_uleb128 dbg (enc_uleb v ++ rest) = Ok (v, rest).
Proof. exact LebProofs.read_uleb128_enc. Qed.
Theorem sleb_operand_roundtrip : forall dbg z rest,
  in_i64 z = true -> read_sleb128 dbg (enc_sleb z ++ rest) = Ok (z, rest).
Proof. exact enc_sleb_read. Qed.

(* Shape of the rows, for ALL instruction byte strings:
   contiguous from the FDE's initial address; every row but the final one has start <= end; when the table
   ends normally its last row ends at the FDE's end address — also for the rows delivered before an error *)
Theorem rows_shape : forall dbg caps f cx,
  shape (f_init f) (end_address f)
        (map mspan (fst (fst (fde_rows dbg caps f cx)))) (snd (fst (fde_rows dbg caps f cx))).
Proof. exact rows_shape_thm. Qed.

Theorem rows_starts_nondecreasing : forall dbg caps f cx,
  nondec (map r_start (fst (fst (fde_rows dbg caps f cx)))).
Proof.
  intros. pose proof (shape_nondec _ _ _ _ (rows_shape dbg caps f cx)) as H. rewrite map_map in H. exact H.
Qed.

Theorem model_is_guarded_spec : forall dbg caps f cx,
  valid_asize (f_asize f) = true -> cap_full (max_stack caps) 0 = false ->
  Forall2 row_equiv (fst (fst (fde_rows dbg caps f cx))) (fst (spec_of dbg caps f)) /\
  snd (fst (fde_rows dbg caps f cx)) = snd (spec_of dbg caps f).
Proof. exact model_eq_spec. Qed.

Theorem refines : forall dbg caps f cx rows,
  fst (fde_rows dbg caps f cx) = (rows, Done) ->
  exists rows', spec_unl dbg f = (rows', Done) /\ Forall2 row_equiv rows rows'.
Proof.
  intros dbg caps f cx rows H.
  destruct (valid_asize (f_asize f)) eqn:Hv; [|rewrite (fde_rows_invalid dbg caps f cx Hv) in H; discriminate].
  destruct (cap_full (max_stack caps) 0) eqn:Hc; [rewrite (fde_rows_nocap dbg caps f cx Hv Hc) in H; discriminate|].
  destruct (model_vs_unlimited dbg caps f cx Hv Hc) as [(_ & H1 & H2)|(_ & [L|L] & _)];
    rewrite H in *; cbn [fst snd] in *; try discriminate.
  exists (fst (spec_unl dbg f)). split; [|exact H1]. rewrite H2. apply surjective_pairing.
Qed.

Theorem error_is_specific : forall dbg caps f cx rows e,
  fst (fde_rows dbg caps f cx) = (rows, Fail e) ->
  (* the FDE could not have been parsed with this address size *)
  (valid_asize (f_asize f) = false /\ e = EUnsupportedAddressSize /\ rows = []) \/
  (* the DWARF machine itself fails with this error, after the same rows *)
  (exists rows', spec_unl dbg f = (rows', Fail e) /\ Forall2 row_equiv rows rows') \/
  (* a storage limit, and the spec-side occupancy really exceeds it; the rows so far are right *)
  ((e = EStackFull \/ e = ETooManyRegisterRules) /\ within_limits dbg caps f = false /\
   exists rows', Forall2 row_equiv rows rows' /\ prefix rows' (fst (spec_unl dbg f))).
Proof.
  intros dbg caps f cx rows e H.
  destruct (valid_asize (f_asize f)) eqn:Hv.
  2: { rewrite (fde_rows_invalid dbg caps f cx Hv) in H. inversion H; subst. left. auto. }
  destruct (cap_full (max_stack caps) 0) eqn:Hc; [rewrite (fde_rows_nocap dbg caps f cx Hv Hc) in H; discriminate|].
  right. destruct (model_vs_unlimited dbg caps f cx Hv Hc) as [(_ & H1 & H2)|(F & L & P)];
    rewrite H in *; cbn [fst snd] in *; [left|right].
  - exists (fst (spec_unl dbg f)). split; [|exact H1]. rewrite H2. apply surjective_pairing.
  - split; [destruct L as [L|L]; inversion L; auto|]. split; [exact F|exact P].
Qed.

Theorem no_silent_limit : forall dbg caps f cx,
  valid_asize (f_asize f) = true -> cap_full (max_stack caps) 0 = false ->
  within_limits dbg caps f = true ->
  Forall2 row_equiv (fst (fst (fde_rows dbg caps f cx))) (fst (spec_unl dbg f)) /\
  snd (fst (fde_rows dbg caps f cx)) = snd (spec_unl dbg f).
Proof. exact no_silent_limit_thm. Qed.

(* no panic, and the model's fuel suffices: every input, both build modes *)

Theorem no_panic : forall dbg caps f cx,
  cap_full (max_stack caps) 0 = false ->
  snd (fst (fde_rows dbg caps f cx)) <> Crash /\ snd (fst (fde_rows dbg caps f cx)) <> Fuel.
Proof. exact no_panic_thm. Qed.

(* the instruction parser alone: an error or a strictly shorter rest, never a panic *)
Theorem parse_insn_total : forall dbg be asize aarch64 off bs,
  tame bs (parse_insn dbg be asize aarch64 off bs).
Proof. exact parse_insn_tame. Qed.

(* impl PartialEq for RegisterRuleMap (used by UnwindTableRow ==): with unique registers, `==` holds exactly
   when every register has the same rule — the order of the entries (swap_remove!) does not matter *)
Theorem rule_map_eq_order_insensitive : forall a b,
  nodup a -> nodup b -> (rm_eq a b = true <-> same_map a b).
Proof.
  intros a b Ha Hb. unfold rm_eq. rewrite andb_true_iff, !half_eq. split.
  - intros [H1 H2] r. destruct (lookup r a) as [x|] eqn:Ea.
    + symmetry. apply H1. apply lookup_in. exact Ea.
    + destruct (lookup r b) as [y|] eqn:Eb; [|reflexivity].
      apply lookup_in in Eb. apply H2 in Eb. congruence.
  - intros Hs. split; intros r x Hi.
    + rewrite <- Hs. apply in_lookup; assumption.
    + rewrite Hs. apply in_lookup; assumption.
Qed.

(* the hypotheses are satisfiable by non-trivial instances, and the limits are hit exactly *)

Definition heap : caps := {| max_stack := Some 4%nat; max_rules := Some 192%nat |}.
Definition enc (l : list wire) : list byte := concat (map (enc_wire false 8) l).
Definition mk (cie fde : list wire) : fde_in :=
  {| f_caf := 1; f_daf := -8; f_asize := 8; f_be := false; f_aarch64 := false; f_init := 4096; f_range := 256;
     f_cie_off := 20; f_cie := enc cie; f_fde_off := 60; f_fde := enc fde |}.
Definition any_ctx : ctx := {| c_stack := []; c_initial_rule := None; c_init := true |}.

Definition ex_cie := [WDefCfa 7 8; WOffset0 16 1; WOffset0 3 2].
Definition ex_fde := [WAdvanceLoc0 4; WRememberState; WDefCfaOffset 16; WAdvanceLoc1 10; WRestoreState;
                      WRestore0 3; WAdvanceLoc0 1; WNop].

Example refines_applies :
  exists rows, fst (fde_rows true heap (mk ex_cie ex_fde) any_ctx) = (rows, Done) /\ length rows = 4%nat.
Proof. eexists. vm_compute. split; reflexivity. Qed.

Example hypotheses_hold :
  valid_asize (f_asize (mk ex_cie ex_fde)) = true /\ cap_full (max_stack heap) 0 = false /\
  within_limits true heap (mk ex_cie ex_fde) = true.
Proof. vm_compute. repeat split. Qed.

(* error_is_specific, second disjunct: restore inside the CIE's initial instructions *)
Example spec_error_case :
  fst (fde_rows true heap (mk [WRestore0 3] []) any_ctx) = ([], Fail ECfiInstructionInInvalidContext) /\
  spec_unl true (mk [WRestore0 3] []) = ([], Fail ECfiInstructionInInvalidContext).
Proof. vm_compute. split; reflexivity. Qed.

(* the stack limit (4 rows on the heap storage) is reached exactly and exceeded by one *)
Example stack_limit_exact :
  within_limits true heap (mk [] [WRememberState; WRememberState; WRememberState]) = true /\
  within_limits true heap (mk [] [WRememberState; WRememberState; WRememberState; WRememberState]) = false /\
  snd (fst (fde_rows true heap (mk [] [WRememberState; WRememberState; WRememberState; WRememberState]) any_ctx))
    = Fail EStackFull /\
  (* with more than one initial rule the saved row takes one of the four *)
  within_limits true heap (mk [WOffset0 1 1; WOffset0 2 1] [WRememberState; WRememberState; WRememberState]) = false.
Proof. vm_compute. repeat split. Qed.

(* the rule limit (192 on the heap storage) is reached exactly and exceeded by one *)
Definition many (k : nat) : list wire := map (fun i => WSameValue (N.of_nat i)) (seq 0 k).
Example rule_limit_exact :
  within_limits true heap (mk [] (many 192)) = true /\
  snd (fst (fde_rows true heap (mk [] (many 192)) any_ctx)) = Done /\
  within_limits true heap (mk [] (many 193)) = false /\
  snd (fst (fde_rows true heap (mk [] (many 193)) any_ctx)) = Fail ETooManyRegisterRules.
Proof. vm_compute. repeat split. Qed.

Example decode_hypotheses_hold :
  wire_ok 8 (WExpression 65535 [x01; x02]) = true /\
  wire_ok 8 (WDefCfaSf 7 (-9223372036854775808)) = true /\
  wire_ok 1 (WSetLoc 255) = true /\ wire_ok 1 (WSetLoc 256) = false.
Proof. repeat split. Qed.

Example rule_map_eq_example :
  nodup [(1, ROffset 8); (2, RSameValue)] /\ nodup [(2, RSameValue); (1, ROffset 8)] /\
  rm_eq [(1, ROffset 8); (2, RSameValue)] [(2, RSameValue); (1, ROffset 8)] = true.
Proof. repeat split; repeat constructor; cbn; intuition discriminate. Qed.

Check insn_decode : forall dbg be asize aarch64 off w rest,
  valid_asize asize = true -> wire_ok asize w = true ->
  parse_insn dbg be asize aarch64 off (enc_wire be asize w ++ rest) = decode_expect aarch64 off w rest.
Check rows_shape : forall dbg caps f cx,
  shape (f_init f) (end_address f)
        (map mspan (fst (fst (fde_rows dbg caps f cx)))) (snd (fst (fde_rows dbg caps f cx))).
Check refines : forall dbg caps f cx rows,
  fst (fde_rows dbg caps f cx) = (rows, Done) ->
  exists rows', spec_unl dbg f = (rows', Done) /\ Forall2 row_equiv rows rows'.
Check no_silent_limit : forall dbg caps f cx,
  valid_asize (f_asize f) = true -> cap_full (max_stack caps) 0 = false ->
  within_limits dbg caps f = true ->
  Forall2 row_equiv (fst (fst (fde_rows dbg caps f cx))) (fst (spec_unl dbg f)) /\
  snd (fst (fde_rows dbg caps f cx)) = snd (spec_unl dbg f).
Check no_panic : forall dbg caps f cx,
  cap_full (max_stack caps) 0 = false ->
  snd (fst (fde_rows dbg caps f cx)) <> Crash /\ snd (fst (fde_rows dbg caps f cx)) <> Fuel.
