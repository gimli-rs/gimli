(* Properties/C16.v — Written range and location lists read back as the same lists.

   Model: GV.Model.ListsWr (write/range.rs, write/loc.rs, the list part of write/unit.rs Unit::write) as repaired by
   /repo commits 85ffc95 (entries that would read back as base-address selections are rejected; the address size is
   validated before the marker is computed) and e67c31b (StartLength sums are checked). No unchecked arithmetic is
   left in these functions, so the model writers have no `dbg` argument: the statements hold for debug and release
   builds alike (the correspondence streams still run both). Range lists are written as `map loc_of_range l` with
   loc = false (the two Rust files are the same code).
   Spec: GV.Spec.ListWrSpec (meaning of a written list, `rejected`, decoders dec5 / dec4 of the emitted bytes).
   Inputs are values of the Rust types: `wf loc x` / `wloc_wf x` say that numbers are u64 / i64 / usize and
   that a range entry carries no expression (it is `loc_of_range r`).

   The inputs on which gimli before 85ffc95 / e67c31b wrote a list that reads back differently (DESIGN §8 F8) or
   panicked in debug builds are cases of the Example `rejects_unit_ex`: each is an Err (known_findings.txt:
   `fixed: property=C16 …`). *)
From Coq Require Import List NArith ZArith Bool Lia.
From Coq.Strings Require Import Byte.
Require Import GV.Base.Res GV.Base.Byt GV.Base.Ints GV.Model.Leb GV.Model.Prim.
Require Import GV.Spec.ListWrSpec GV.Model.ListsWr GV.Proofs.ListsWrProofs GV.Proofs.ListsRoundtrip.
Require GV.Spec.ListSpec GV.Model.ListsRd.
Import ListNotations.
Local Open Scope N_scope.

(* ------------------------------------------------------------------ (1) rejects *)

(* DWARF 2-4, both writers: scan the list with the running "a base address is in force" flag (the unit's flag,
   set by every BaseAddress entry). The FIRST entry that is
     - an empty range (begin = end, length 0)                                   -> InvalidRange
     - an OffsetPair without a base                                             -> MissingBaseAddress
     - a StartEnd / StartLength with a base                                     -> UnexpectedBaseAddress
     - an entry whose first word is the all-ones base-selection marker          -> InvalidRange      (/repo 85ffc95)
     - a StartLength whose end does not fit u64 (constant) / i64 (symbolic)     -> ValueTooLarge     (/repo e67c31b)
     - a DefaultLocation                                                        -> InvalidRange
   decides the result, exactly as `rejected` says (tests in the order of the code), provided the entries before it
   are writable at this address size (`plain_until_reject`; otherwise an earlier ValueTooLarge/InvalidAddress wins). *)
Theorem rejects_v4 : forall (loc be : bool) (version asz : N) (l : list wloc) (hb : bool) (e : error),
  size_ok asz -> version <= 4 -> Forall wloc_wf l ->
  rejected asz hb l = Some e -> plain_until_reject asz hb l = true ->
  write_list_v4 loc be version asz (marker asz) hb l = Err e.
Proof. intros loc be version asz l hb e Hs Hv _. exact (lw_rejects loc be version asz Hs Hv l hb e). Qed.

Example rejects_v4_ex :
  size_ok 4 /\ rejected 4 false [LStartEnd (AConst 1) (AConst 2) [x9c]; LBase (AConst 7); LStartLength (AConst 16) 4 []]
               = Some WUnexpectedBaseAddress /\
  plain_until_reject 4 false [LStartEnd (AConst 1) (AConst 2) [x9c]; LBase (AConst 7); LStartLength (AConst 16) 4 []] = true /\
  rejected 4 false [LOffsetPair 1 2 []] = Some WMissingBaseAddress /\
  rejected 4 true [LOffsetPair 5 5 []] = Some WInvalidRange /\ rejected 4 true [LDefault [x9c]] = Some WInvalidRange /\
  rejected 4 true [LOffsetPair 4294967295 32 []] = Some WInvalidRange /\
  rejected 4 false [LStartEnd (AConst 4294967295) (AConst 32) []] = Some WInvalidRange /\
  rejected 8 false [LStartLength (AConst (2 ^ 64 - 1)) 1 []] = Some WValueTooLarge /\
  rejected 8 true [LStartLength (ASym 0 (2 ^ 63 - 1)) 1 []] = Some WValueTooLarge.
Proof. vm_compute. repeat split; auto. Qed.

(* ... and never bytes: whenever a pre-v5 writer returns Ok, no entry of the list was in a rejected class. *)
Theorem rejected_never_bytes : forall (loc be : bool) (version asz : N) (l : list wloc) (hb : bool) (bs : list byte),
  write_list_v4 loc be version asz (marker asz) hb l = Ok bs -> Forall (wf loc) l -> rejected asz hb l = None.
Proof. intros loc be version asz l hb bs H _. exact (lw_never_bytes loc be version asz l hb bs H). Qed.

Example rejected_never_bytes_ex :
  exists bs, write_list_v4 true false 4 4 (marker 4) false [LStartEnd (AConst 1) (AConst 2) [x9c]] = Ok bs /\
    Forall (wf true) [LStartEnd (AConst 1) (AConst 2) [x9c]].
Proof. eexists. split; [vm_compute; reflexivity|]. repeat constructor; try discriminate; vm_compute; reflexivity. Qed.

(* the same through Unit::write (have_base_address derived from the root DIE), one list in the unit:
   this is the value the `c16.rej` stream expects *)
Theorem rejects_unit_rng : forall be fmt64 version asz attrs rstart lstart (l : list wrange) e,
  size_ok asz -> 2 <= version <= 4 -> Forall wloc_wf (map loc_of_range l) ->
  rejected asz (have_base_address attrs) (map loc_of_range l) = Some e ->
  plain_until_reject asz (have_base_address attrs) (map loc_of_range l) = true ->
  unit_write_lists be fmt64 version asz attrs rstart lstart [l] [] = Err e.
Proof.
  intros be fmt64 version asz attrs rstart lstart l e Hs Hv _ Hr Hp. unfold unit_write_lists.
  destruct (negb ((2 <=? version) && (version <=? 5))) eqn:E; [lia|]. cbn [map].
  now rewrite (lw_rejects_table false be fmt64 version asz _ rstart _ e Hs Hv Hr Hp).
Qed.

Theorem rejects_unit_loc : forall be fmt64 version asz attrs rstart lstart (l : list wloc) e,
  size_ok asz -> 2 <= version <= 4 -> Forall wloc_wf l ->
  rejected asz (have_base_address attrs) l = Some e ->
  plain_until_reject asz (have_base_address attrs) l = true ->
  unit_write_lists be fmt64 version asz attrs rstart lstart [] [l] = Err e.
Proof.
  intros be fmt64 version asz attrs rstart lstart l e Hs Hv _ Hr Hp. unfold unit_write_lists.
  destruct (negb ((2 <=? version) && (version <=? 5))) eqn:E; [lia|]. cbn [map]. unfold table_write at 1. cbn [bind].
  now rewrite (lw_rejects_table true be fmt64 version asz _ lstart _ e Hs Hv Hr Hp).
Qed.

(* an address size outside 1..8 is refused with UnsupportedWordSize before anything is written, whatever the
   lists are (/repo 85ffc95; sizes 3,5,6,7 are refused by the first word written) *)
Theorem rejects_bad_address_size : forall be fmt64 version asz attrs rstart lstart
    (rtbl : list (list wrange)) (ltbl : list (list wloc)),
  2 <= version <= 4 -> ~ (1 <= asz <= 8) -> rtbl <> [] \/ ltbl <> [] ->
  unit_write_lists be fmt64 version asz attrs rstart lstart rtbl ltbl = Err WUnsupportedWordSize.
Proof.
  intros be fmt64 version asz attrs rstart lstart rtbl ltbl Hv Ha Ht. unfold unit_write_lists.
  destruct (negb ((2 <=? version) && (version <=? 5))) eqn:E; [lia|].
  destruct rtbl as [|l r].
  - cbn [map table_write bind]. destruct Ht as [Ht|Ht]; [contradiction|].
    now rewrite (lw_rejects_bad_address_size true be fmt64 version asz _ lstart ltbl Hv Ha Ht).
  - now rewrite (lw_rejects_bad_address_size false be fmt64 version asz _ rstart (map (map loc_of_range) (l :: r)) Hv Ha)
      by (cbn [map]; discriminate).
Qed.

(* Unit::write on lists that must be rejected; from the third case on, inputs that gimli before 85ffc95 / e67c31b
   accepted and wrote ambiguously, or panicked on in debug builds *)
Example rejects_unit_ex :
  unit_write_lists false false 4 8 [(DW_AT_low_pc, VAddress (AConst 4096))] 0 0
    [[RStartEnd (AConst 1) (AConst 2)]] [] = Err WUnexpectedBaseAddress /\
  unit_write_lists false false 3 8 [(DW_AT_low_pc, VAddress (AConst 0))] 0 0
    [] [[LOffsetPair 1 2 [x9c]]] = Err WMissingBaseAddress /\
  (* DESIGN §8 F8 *)
  unit_write_lists false false 4 4 [(DW_AT_low_pc, VAddress (AConst 4096))] 0 0
    [[ROffsetPair 4294967295 32; ROffsetPair 48 64]] [] = Err WInvalidRange /\
  unit_write_lists false false 4 4 [] 0 0 [] [[LStartEnd (AConst 4294967295) (AConst 32) [x9c]]] = Err WInvalidRange /\
  unit_write_lists false false 4 8 [] 0 0 [[RStartLength (AConst (2 ^ 64 - 1)) 33]] [] = Err WValueTooLarge /\
  unit_write_lists false false 4 8 [] 0 0 [[RStartLength (AConst (2 ^ 64 - 1)) 1]] [] = Err WValueTooLarge /\
  unit_write_lists false false 4 8 [] 0 0 [] [[LStartLength (ASym 0 (2 ^ 63 - 1)) 1 []]] = Err WValueTooLarge /\
  unit_write_lists false false 4 16 [] 0 0 [[RBase (AConst 1)]] [] = Err WUnsupportedWordSize /\
  unit_write_lists false false 4 0 [] 0 0 [[RBase (AConst 1)]] [] = Err WUnsupportedWordSize /\
  unit_write_lists false false 4 32 [] 0 0 [[RBase (AConst 1)]] [] = Err WUnsupportedWordSize.
Proof. vm_compute. repeat split; reflexivity. Qed.

(* ------------------------------------------------------------------ (2) ambiguity *)

(* Whenever a pre-v5 writer returns Ok it has emitted exactly the pair encoding of `pairs_of l` followed by
   the (0,0) terminator; no emitted non-terminator pair is (0,0) and no emitted non-base pair begins with the
   all-ones marker. *)
Theorem ambiguity : forall (loc be : bool) (version asz : N) (hb : bool) (l : list wloc) (bs : list byte),
  write_list_v4 loc be version asz (marker asz) hb l = Ok bs -> version <= 4 -> Forall (wf loc) l ->
  exists ps, pairs_of l = Some ps /\ bs = enc_list4 loc be asz ps /\
    Forall (fun p => match p with EPair b e _ => ~ (b = 0 /\ e = 0) /\ b <> amod asz - 1 | _ => True end) ps.
Proof.
  intros loc be version asz hb l bs H Hv Hwf.
  destruct (write_list_v4_pairs _ _ _ _ _ _ _ H Hv Hwf) as [_ [ps [_ [Hp [_ [Hb [Hok [Hnm _]]]]]]]].
  exists ps. split; [exact Hp|]. split; [exact Hb|].
  rewrite Forall_forall in *. intros p Hin. specialize (Hok p Hin). specialize (Hnm p Hin).
  destruct p; cbn [pair_ok pair_nomark] in *; try exact I. split; [tauto|exact Hnm].
Qed.

Example ambiguity_ex :
  exists bs, write_list_v4 false false 4 4 (marker 4) false [LBase (AConst 4096); LOffsetPair 4294967294 32 []] = Ok bs /\
    pairs_of [LBase (AConst 4096); LOffsetPair 4294967294 32 []] = Some [EBase 4096; EPair 4294967294 32 []].
Proof. eexists. split; vm_compute; reflexivity. Qed.

(* ------------------------------------------------------------------ (3) write_read_v5 *)

(* Unit::write for a DWARF 5 unit, all lists of both tables: at the offset recorded for the list's id
   (offsets.get(id)) the section decodes to EXACTLY the entries of the written list (raw read-back), and therefore
   resolves, relative to any base address, to the meaning of the written list. rsec/lsec = what .debug_rnglists /
   .debug_loclists held before this unit. *)
Theorem write_read_v5 : forall (dbg' be fmt64 : bool) (asz : N) attrs (rstart lstart : N)
    (rtbl : list (list wrange)) (ltbl : list (list wloc)) rb ro lb lo (rsec lsec : list byte) (base : N),
  unit_write_lists be fmt64 5 asz attrs rstart lstart rtbl ltbl = Ok ((rb, ro), (lb, lo)) ->
  N.of_nat (length rsec) = rstart -> N.of_nat (length lsec) = lstart -> unit_wf rtbl ltbl ->
  (forall i l, nth_error rtbl i = Some l ->
     exists o es rest, nth_error ro i = Some o /\
       dec5 dbg' false be asz (at_offset o (rsec ++ rb)) = Ok (es, rest) /\
       ents_of (map loc_of_range l) = Some es /\
       meaning_rng asz base l = Some (map fst (resolve asz base es))) /\
  (forall i l, nth_error ltbl i = Some l ->
     exists o es rest, nth_error lo i = Some o /\
       dec5 dbg' true be asz (at_offset o (lsec ++ lb)) = Ok (es, rest) /\
       ents_of l = Some es /\
       meaning_loc asz base l = Some (resolve asz base es)).
Proof.
  intros dbg' be fmt64 asz attrs rstart lstart rtbl ltbl rb ro lb lo rsec lsec base H Hrs Hls [Hwr Hwl].
  destruct (lw_unit_tables _ _ _ _ _ _ _ _ _ _ _ H) as [Hr Hl]. split; intros i l Hi.
  - destruct (lw_table_read_v5 dbg' _ _ _ _ _ _ _ _ _ rsec Hr Hrs (lw_wf_map_range _ Hwr) i _ (map_nth_error _ _ _ Hi))
      as [o [es [rest [Ho [He Hd]]]]].
    exists o, es, rest. repeat split; try assumption. unfold meaning_rng. now rewrite He.
  - destruct (lw_table_read_v5 dbg' _ _ _ _ _ _ _ _ _ lsec Hl Hls Hwl i l Hi) as [o [es [rest [Ho [He Hd]]]]].
    exists o, es, rest. repeat split; try assumption. unfold meaning_loc. now rewrite He.
Qed.

Example write_read_v5_ex :
  exists out, unit_write_lists false false 5 4 [(DW_AT_low_pc, VAddress (AConst 4096))] 0 0
      [[RBase (AConst 8192); ROffsetPair 16 32; RStartLength (AConst 64) 8]]
      [[LDefault [x9c]; LStartEnd (AConst 1) (AConst 2) [x50; x51]]] = Ok out /\
  unit_wf [[RBase (AConst 8192); ROffsetPair 16 32; RStartLength (AConst 64) 8]]
          [[LDefault [x9c]; LStartEnd (AConst 1) (AConst 2) [x50; x51]]] /\
  meaning_rng 4 4096 [RBase (AConst 8192); ROffsetPair 16 32; RStartLength (AConst 64) 8] = Some [(8208, 8224); (64, 72)].
Proof.
  eexists. split; [vm_compute; reflexivity|]. split; [|vm_compute; reflexivity].
  split; repeat constructor; try discriminate; try (vm_compute; reflexivity).
Qed.

(* ------------------------------------------------------------------ (4) write_read_v4 *)

(* Unit::write for a DWARF 2-4 unit, EVERY list of both tables: at the offset recorded for its id the pair
   decoder yields pairs that resolve, through the unit base address that the READER derives from the root DIE
   (`unit_base attrs`), to exactly the meaning of the written list. *)
Theorem write_read_v4 : forall (dbg' be fmt64 : bool) (version asz : N) attrs (rstart lstart : N)
    (rtbl : list (list wrange)) (ltbl : list (list wloc)) rb ro lb lo (rsec lsec : list byte),
  unit_write_lists be fmt64 version asz attrs rstart lstart rtbl ltbl = Ok ((rb, ro), (lb, lo)) ->
  2 <= version <= 4 ->
  N.of_nat (length rsec) = rstart -> N.of_nat (length lsec) = lstart -> unit_wf rtbl ltbl ->
  (forall i l, nth_error rtbl i = Some l ->
     exists o ps rest, nth_error ro i = Some o /\
       dec4 dbg' false be asz (at_offset o (rsec ++ rb)) = Ok (ps, rest) /\
       meaning_rng asz (unit_base attrs) l = Some (map fst (resolve asz (unit_base attrs) ps))) /\
  (forall i l, nth_error ltbl i = Some l ->
     exists o ps rest, nth_error lo i = Some o /\
       dec4 dbg' true be asz (at_offset o (lsec ++ lb)) = Ok (ps, rest) /\
       meaning_loc asz (unit_base attrs) l = Some (resolve asz (unit_base attrs) ps)).
Proof.
  intros dbg' be fmt64 version asz attrs rstart lstart rtbl ltbl rb ro lb lo rsec lsec H Hv Hrs Hls [Hwr Hwl].
  destruct (lw_unit_tables _ _ _ _ _ _ _ _ _ _ _ H) as [Hr Hl]. pose proof (lw_base_from_root attrs) as Hb.
  split; intros i l Hi.
  - destruct (lw_table_read_v4 dbg' _ _ _ _ _ _ _ _ _ _ _ rsec Hr Hv Hrs (lw_wf_map_range _ Hwr) Hb i _ (map_nth_error _ _ _ Hi))
      as [o [ps [es [rest [Ho [He [Hd Hres]]]]]]].
    exists o, ps, rest. repeat split; try assumption. unfold meaning_rng. now rewrite He, Hres.
  - destruct (lw_table_read_v4 dbg' _ _ _ _ _ _ _ _ _ _ _ lsec Hl Hv Hls Hwl Hb i l Hi)
      as [o [ps [es [rest [Ho [He [Hd Hres]]]]]]].
    exists o, ps, rest. repeat split; try assumption. unfold meaning_loc. now rewrite He, Hres.
Qed.

Example write_read_v4_ex :
  exists out, unit_write_lists true false 3 8 [(DW_AT_low_pc, VAddress (AConst 4096))] 5 0
      [[ROffsetPair 16 32; RBase (AConst 8192); ROffsetPair 1 2]]
      [[LOffsetPair 16 32 [x9c; x50]]] = Ok out /\
  unit_wf [[ROffsetPair 16 32; RBase (AConst 8192); ROffsetPair 1 2]] [[LOffsetPair 16 32 [x9c; x50]]] /\
  meaning_rng 8 4096 [ROffsetPair 16 32; RBase (AConst 8192); ROffsetPair 1 2] = Some [(4112, 4128); (8193, 8194)].
Proof.
  eexists. split; [vm_compute; reflexivity|]. split; [|vm_compute; reflexivity].
  split; repeat constructor; try discriminate; try (vm_compute; reflexivity).
Qed.

(* ------------------------------------------------------------------ composed with the list READER model (C08) *)

(* The writer model composed with GV.Model.ListsRd (the model of read/rnglists.rs + read/loclists.rs that property C08
   proves correct against GV.Spec.ListSpec and ties to gimli's reader by its own streams).
   `tr_ent` / `tr_loc` translate ListWrSpec.ent to the reader's raw entry (ListSpec.lent, with the expression bytes
   for location lists); `rd_cfg be asz version` is the unit encoding as the reader sees it; `other` is whatever the
   section of the other format holds; x = the reader's .debug_addr context (irrelevant: no indexed entry is written).
   Proof route: the writer's bytes ARE C08's spec encoding of the translated entries (rt_list5 / rt_list4), those are
   well formed in C08's sense (for DWARF 2-4 this is exactly `ambiguity`), the two resolution specs agree
   (rt_resolve_rng / rt_resolve_loc), then C08's raw_roundtrip_* / resolve_refines_* apply.

   DWARF 5, every list of both tables of a unit with a real address size (1,2,4,8 — the reader refuses others):
   the reader's RAW iterator started at offsets.get(id) yields exactly the written entries (expression bytes
   unchanged), and its RESOLVING iterator yields exactly ListWrSpec's meaning of the written list, for every base
   address, in both build modes. Together with write_read_v5 (same `es`): dec5 and the reader model agree on
   everything write_rnglists / write_loclists can produce. *)
Theorem write_read_by_reader_v5 : forall dbg be fmt64 asz attrs rstart lstart rtbl ltbl rb ro lb lo (rsec lsec other : list byte),
  unit_write_lists be fmt64 5 asz attrs rstart lstart rtbl ltbl = Ok ((rb, ro), (lb, lo)) -> size_ok asz ->
  N.of_nat (length rsec) = rstart -> N.of_nat (length lsec) = lstart -> unit_wf rtbl ltbl ->
  (forall i l, nth_error rtbl i = Some l ->
     exists o es, nth_error ro i = Some o /\ ents_of (map loc_of_range l) = Some es /\
       ListsRd.raw_ranges_all dbg (rd_cfg be asz 5) other (rsec ++ rb) o = Ok (map ListsRd.EvItem (map tr_ent es)) /\
       forall x base, N.of_nat (length (ListsRd.x_addr x)) < two64 ->
         exists rs, meaning_rng asz base l = Some rs /\
           ListsRd.ranges_all dbg (rd_cfg be asz 5) x other (rsec ++ rb) o base = Ok (map ListsRd.EvItem rs)) /\
  (forall i l, nth_error ltbl i = Some l ->
     exists o es, nth_error lo i = Some o /\ ents_of l = Some es /\
       ListsRd.raw_locations_all dbg (rd_cfg be asz 5) false other (lsec ++ lb) o = Ok (map ListsRd.EvItem (map tr_loc es)) /\
       forall x base, N.of_nat (length (ListsRd.x_addr x)) < two64 ->
         exists rs, meaning_loc asz base l = Some rs /\
           ListsRd.locations_all dbg (rd_cfg be asz 5) false x other (lsec ++ lb) o base = Ok (map ListsRd.EvItem rs)).
Proof. exact rt_unit_reader_v5. Qed.

(* DWARF 2-4, every list of both tables: the RAW iterator yields exactly the pairs the list is written as
   (`pairs_of`: base selections and address-or-offset pairs, expression bytes unchanged); the RESOLVING iterator,
   started with the base address the reader derives from the root DIE, yields exactly the meaning of the written
   list. Together with write_read_v4: dec4 and the reader model agree on everything write_ranges / write_loc emit. *)
Theorem write_read_by_reader_v4 : forall dbg be fmt64 version asz attrs rstart lstart rtbl ltbl rb ro lb lo (rsec lsec other : list byte),
  unit_write_lists be fmt64 version asz attrs rstart lstart rtbl ltbl = Ok ((rb, ro), (lb, lo)) -> 2 <= version <= 4 ->
  N.of_nat (length rsec) = rstart -> N.of_nat (length lsec) = lstart -> unit_wf rtbl ltbl ->
  (forall i l, nth_error rtbl i = Some l ->
     exists o ps, nth_error ro i = Some o /\ pairs_of (map loc_of_range l) = Some ps /\
       ListsRd.raw_ranges_all dbg (rd_cfg be asz version) (rsec ++ rb) other o = Ok (map ListsRd.EvItem (map tr_ent ps)) /\
       forall x, N.of_nat (length (ListsRd.x_addr x)) < two64 ->
         exists rs, meaning_rng asz (unit_base attrs) l = Some rs /\
           ListsRd.ranges_all dbg (rd_cfg be asz version) x (rsec ++ rb) other o (unit_base attrs) = Ok (map ListsRd.EvItem rs)) /\
  (forall i l, nth_error ltbl i = Some l ->
     exists o ps, nth_error lo i = Some o /\ pairs_of l = Some ps /\
       ListsRd.raw_locations_all dbg (rd_cfg be asz version) false (lsec ++ lb) other o = Ok (map ListsRd.EvItem (map tr_loc ps)) /\
       forall x, N.of_nat (length (ListsRd.x_addr x)) < two64 ->
         exists rs, meaning_loc asz (unit_base attrs) l = Some rs /\
           ListsRd.locations_all dbg (rd_cfg be asz version) false x (lsec ++ lb) other o (unit_base attrs) = Ok (map ListsRd.EvItem rs)).
Proof. exact rt_unit_reader_v4. Qed.

Example write_read_by_reader_ex :
  let attrs := [(DW_AT_low_pc, VAddress (AConst 4096))] in
  (* v4: offsets relative to low_pc, then a base selection *)
  unit_write_lists false false 4 4 attrs 0 0 [[ROffsetPair 16 32; RBase (AConst 8192); ROffsetPair 1 2]] []
    = Ok (([x10; x00; x00; x00; x20; x00; x00; x00; xff; xff; xff; xff; x00; x20; x00; x00;
            x01; x00; x00; x00; x02; x00; x00; x00; x00; x00; x00; x00; x00; x00; x00; x00], [0]), ([], [])) /\
  ListsRd.ranges_all true (rd_cfg false 4 4) no_addr_table
    [x10; x00; x00; x00; x20; x00; x00; x00; xff; xff; xff; xff; x00; x20; x00; x00;
     x01; x00; x00; x00; x02; x00; x00; x00; x00; x00; x00; x00; x00; x00; x00; x00] [] 0 (unit_base attrs)
    = Ok [ListsRd.EvItem (4112, 4128); ListsRd.EvItem (8193, 8194)] /\
  meaning_rng 4 (unit_base attrs) [ROffsetPair 16 32; RBase (AConst 8192); ROffsetPair 1 2] = Some [(4112, 4128); (8193, 8194)] /\
  (* v5 location list: expression bytes come back unchanged *)
  unit_write_lists false false 5 4 attrs 0 0 [] [[LDefault [x9c]; LStartLength (AConst 64) 8 [x50; x51]]]
    = Ok (([], []), ([x15; x00; x00; x00; x05; x00; x04; x00; x00; x00; x00; x00;
                      x05; x01; x9c; x08; x40; x00; x00; x00; x08; x02; x50; x51; x00], [12])) /\
  ListsRd.raw_locations_all false (rd_cfg false 4 5) false []
    [x15; x00; x00; x00; x05; x00; x04; x00; x00; x00; x00; x00;
     x05; x01; x9c; x08; x40; x00; x00; x00; x08; x02; x50; x51; x00] 12
    = Ok [ListsRd.EvItem (ListSpec.LDefault, [x9c]); ListsRd.EvItem (ListSpec.LStartLength 64 8, [x50; x51])].
Proof. vm_compute. repeat split; reflexivity. Qed.

(* ------------------------------------------------------------------ (5) dedup *)

(* RangeListTable::add over a sequence of lists: the table holds every distinct list exactly once, the id returned
   for the k-th add points at that list, and two adds return the same id iff their lists are equal.
   (Each table element is then emitted once, in table order, and offsets.get(id) is where it starts: that is the
   `nth_error ro i = Some o` part of write_read_v5 / write_read_v4 — one offset per table element.) *)
Theorem dedup_rng : forall (xs : list (list wrange)) t ids,
  rng_add_all [] xs = (t, ids) ->
  NoDup t /\ length ids = length xs /\
  (forall k x, nth_error xs k = Some x -> exists i, nth_error ids k = Some i /\ nth_error t i = Some x) /\
  (forall k1 k2 x1 x2 i1 i2, nth_error xs k1 = Some x1 -> nth_error xs k2 = Some x2 ->
     nth_error ids k1 = Some i1 -> nth_error ids k2 = Some i2 -> (x1 = x2 <-> i1 = i2)) /\
  (forall y, In y t <-> In y xs).
Proof. exact (lw_dedup _ (lw_list_eqb_spec _ lw_wrange_eqb_spec)). Qed.

Theorem dedup_loc : forall (xs : list (list wloc)) t ids,
  loc_add_all [] xs = (t, ids) ->
  NoDup t /\ length ids = length xs /\
  (forall k x, nth_error xs k = Some x -> exists i, nth_error ids k = Some i /\ nth_error t i = Some x) /\
  (forall k1 k2 x1 x2 i1 i2, nth_error xs k1 = Some x1 -> nth_error xs k2 = Some x2 ->
     nth_error ids k1 = Some i1 -> nth_error ids k2 = Some i2 -> (x1 = x2 <-> i1 = i2)) /\
  (forall y, In y t <-> In y xs).
Proof. exact (lw_dedup _ (lw_list_eqb_spec _ lw_wloc_eqb_spec)). Qed.

Example dedup_ex :
  rng_add_all [] [[ROffsetPair 1 2]; [RBase (AConst 3)]; [ROffsetPair 1 2]; []; [RBase (AConst 3)]] =
  ([[ROffsetPair 1 2]; [RBase (AConst 3)]; []], [0; 1; 0; 2; 1]%nat).
Proof. vm_compute. reflexivity. Qed.

(* one emitted copy per table element, in table order; the offsets are the running positions *)
Theorem one_copy_v4 : forall loc be version asz hb pos tbl body offs,
  write_tbl_v4 loc be version asz hb pos tbl = Ok (body, offs) ->
  exists bss, Forall2 (fun l bs => write_list_v4 loc be version asz (marker asz) hb l = Ok bs) tbl bss /\
    body = concat bss /\ offs = offsets_from pos bss.
Proof.
  intros loc be version asz hb pos tbl body offs H. unfold write_tbl_v4 in H. bind_ok H.
  destruct (lw_marker_of_ok _ _ E) as [_ ->]. rewrite lw_lists_v4_gen in H. exact (lw_tbl_gen_char _ _ _ _ _ H).
Qed.

Theorem one_copy_v5 : forall loc be version asz pos tbl body offs,
  write_lists_v5 loc be version asz pos tbl = Ok (body, offs) ->
  exists bss, Forall2 (fun l bs => write_list_v5 loc be version asz l = Ok bs) tbl bss /\
    body = concat bss /\ offs = offsets_from pos bss.
Proof.
  intros loc be version asz pos tbl body offs H. rewrite lw_lists_v5_gen in H. exact (lw_tbl_gen_char _ _ _ _ _ H).
Qed.

(* ------------------------------------------------------------------ end to end: add ... add; Unit::write; read *)

(* Any sequence of unit.ranges.add / unit.locations.add calls followed by Unit::write (DWARF 5): for the k-th
   added list, the id returned by add indexes an offset (offsets.get(id)) at which the section decodes to exactly
   that list, which therefore means what was written, for every base address. Combines dedup and write_read_v5. *)
Theorem added_lists_read_back_v5 :
  forall (dbg' be fmt64 : bool) (asz : N) attrs (rstart lstart : N)
    (rxs : list (list wrange)) (lxs : list (list wloc)) rtbl rids ltbl lids rb ro lb lo (rsec lsec : list byte) (base : N),
  rng_add_all [] rxs = (rtbl, rids) -> loc_add_all [] lxs = (ltbl, lids) ->
  unit_write_lists be fmt64 5 asz attrs rstart lstart rtbl ltbl = Ok ((rb, ro), (lb, lo)) ->
  N.of_nat (length rsec) = rstart -> N.of_nat (length lsec) = lstart -> unit_wf rtbl ltbl ->
  (forall k x, nth_error rxs k = Some x ->
     exists id o es rest, nth_error rids k = Some id /\ offsets_get ro id = Ok o /\
       dec5 dbg' false be asz (at_offset o (rsec ++ rb)) = Ok (es, rest) /\
       ents_of (map loc_of_range x) = Some es /\
       meaning_rng asz base x = Some (map fst (resolve asz base es))) /\
  (forall k x, nth_error lxs k = Some x ->
     exists id o es rest, nth_error lids k = Some id /\ offsets_get lo id = Ok o /\
       dec5 dbg' true be asz (at_offset o (lsec ++ lb)) = Ok (es, rest) /\
       ents_of x = Some es /\
       meaning_loc asz base x = Some (resolve asz base es)).
Proof.
  intros dbg' be fmt64 asz attrs rstart lstart rxs lxs rtbl rids ltbl lids rb ro lb lo rsec lsec base
    Hra Hla Hw Hrs Hls Hwf.
  destruct (dedup_rng _ _ _ Hra) as [_ [_ [Hrk _]]]. destruct (dedup_loc _ _ _ Hla) as [_ [_ [Hlk _]]].
  destruct (write_read_v5 dbg' _ _ _ _ _ _ _ _ _ _ _ _ rsec lsec base Hw Hrs Hls Hwf) as [Hr Hl].
  split; intros k x Hx.
  - destruct (Hrk k x Hx) as [id [Hid Ht]]. destruct (Hr id x Ht) as [o [es [rest [Ho [Hd [He Hm]]]]]].
    exists id, o, es, rest. repeat split; try assumption. now apply lw_offsets_get.
  - destruct (Hlk k x Hx) as [id [Hid Ht]]. destruct (Hl id x Ht) as [o [es [rest [Ho [Hd [He Hm]]]]]].
    exists id, o, es, rest. repeat split; try assumption. now apply lw_offsets_get.
Qed.

(* The same for DWARF 2-4, relative to the base address the reader derives from the root DIE. *)
Theorem added_lists_read_back_v4 :
  forall (dbg' be fmt64 : bool) (version asz : N) attrs (rstart lstart : N)
    (rxs : list (list wrange)) (lxs : list (list wloc)) rtbl rids ltbl lids rb ro lb lo (rsec lsec : list byte),
  rng_add_all [] rxs = (rtbl, rids) -> loc_add_all [] lxs = (ltbl, lids) ->
  unit_write_lists be fmt64 version asz attrs rstart lstart rtbl ltbl = Ok ((rb, ro), (lb, lo)) ->
  2 <= version <= 4 ->
  N.of_nat (length rsec) = rstart -> N.of_nat (length lsec) = lstart -> unit_wf rtbl ltbl ->
  (forall k x, nth_error rxs k = Some x ->
     exists id o ps rest, nth_error rids k = Some id /\ offsets_get ro id = Ok o /\
       dec4 dbg' false be asz (at_offset o (rsec ++ rb)) = Ok (ps, rest) /\
       meaning_rng asz (unit_base attrs) x = Some (map fst (resolve asz (unit_base attrs) ps))) /\
  (forall k x, nth_error lxs k = Some x ->
     exists id o ps rest, nth_error lids k = Some id /\ offsets_get lo id = Ok o /\
       dec4 dbg' true be asz (at_offset o (lsec ++ lb)) = Ok (ps, rest) /\
       meaning_loc asz (unit_base attrs) x = Some (resolve asz (unit_base attrs) ps)).
Proof.
  intros dbg' be fmt64 version asz attrs rstart lstart rxs lxs rtbl rids ltbl lids rb ro lb lo rsec lsec
    Hra Hla Hw Hv Hrs Hls Hwf.
  destruct (dedup_rng _ _ _ Hra) as [_ [_ [Hrk _]]]. destruct (dedup_loc _ _ _ Hla) as [_ [_ [Hlk _]]].
  destruct (write_read_v4 dbg' _ _ _ _ _ _ _ _ _ _ _ _ _ rsec lsec Hw Hv Hrs Hls Hwf) as [Hr Hl].
  split; intros k x Hx.
  - destruct (Hrk k x Hx) as [id [Hid Ht]]. destruct (Hr id x Ht) as [o [ps [rest [Ho [Hd Hm]]]]].
    exists id, o, ps, rest. repeat split; try assumption. now apply lw_offsets_get.
  - destruct (Hlk k x Hx) as [id [Hid Ht]]. destruct (Hl id x Ht) as [o [ps [rest [Ho [Hd Hm]]]]].
    exists id, o, ps, rest. repeat split; try assumption. now apply lw_offsets_get.
Qed.

Example added_lists_read_back_ex :
  exists rtbl rids out,
    rng_add_all [] [[ROffsetPair 1 2]; [ROffsetPair 1 2]; [RStartEnd (AConst 3) (AConst 4)]] = (rtbl, rids) /\
    rids = [0; 0; 1]%nat /\
    unit_write_lists false true 5 8 [] 0 0 rtbl [] = Ok out.
Proof. do 3 eexists. split; [vm_compute; reflexivity|]. split; [reflexivity|vm_compute; reflexivity]. Qed.

(* ------------------------------------------------------------------ (6) base_from_root *)

(* the writer's have_base_address flag: the root DIE has a DW_AT_low_pc whose value is anything other than
   Address::Constant(0) ... *)
Theorem base_from_root_iff : forall attrs,
  have_base_address attrs = true <-> exists v, In (DW_AT_low_pc, v) attrs /\ v <> VAddress (AConst 0).
Proof.
  intros attrs. unfold have_base_address. rewrite existsb_exists. split.
  - intros [[n v] [Hin H]]. cbn [fst snd] in H. apply andb_prop in H. destruct H as [Hn Hv].
    apply N.eqb_eq in Hn. subst n. exists v. split; [exact Hin|].
    intros Hc. apply lw_is_const0 in Hc. rewrite Hc in Hv. discriminate.
  - intros [v [Hin Hv]]. exists (DW_AT_low_pc, v). split; [exact Hin|]. cbn [fst snd].
    rewrite N.eqb_refl. cbn [andb]. destruct (is_address_const0 v) eqn:E; [|reflexivity].
    apply lw_is_const0 in E. contradiction.
Qed.

(* ... and it is consistent with the reader: when the flag is false the base address the reader derives from the
   same root DIE is 0, so the address pairs the writer then insists on are read as absolute addresses. *)
Theorem base_from_root : forall attrs, have_base_address attrs = false -> unit_base attrs = 0.
Proof. exact lw_base_from_root. Qed.

Example base_from_root_ex :
  have_base_address [(3, VOther); (DW_AT_low_pc, VAddress (AConst 0))] = false /\
  have_base_address [(DW_AT_low_pc, VAddress (AConst 4096))] = true /\ unit_base [(DW_AT_low_pc, VAddress (AConst 4096))] = 4096 /\
  have_base_address [(DW_AT_low_pc, VUdata 0)] = true /\ unit_base [(DW_AT_low_pc, VUdata 7)] = 0.
Proof. vm_compute. repeat split; reflexivity. Qed.

(* ------------------------------------------------------------------ no_panic *)

(* Unit::write's list part never panics (and the model never runs out of fuel) for ANY input of the Rust
   types: all versions, formats, byte orders, address sizes 0..255, root attributes, section positions, lists.
   The model has no build-mode parameter because the code has no unchecked arithmetic (/repo 85ffc95, e67c31b); the
   inputs that panicked in debug builds before those commits get errors (rejects_unit_ex). *)
Theorem no_panic : forall be fmt64 version asz attrs rstart lstart (rtbl : list (list wrange)) (ltbl : list (list wloc)),
  unit_wf rtbl ltbl ->
  unit_write_lists be fmt64 version asz attrs rstart lstart rtbl ltbl <> Panic /\
  unit_write_lists be fmt64 version asz attrs rstart lstart rtbl ltbl <> OutOfFuel.
Proof. intros be fmt64 version asz attrs rstart lstart rtbl ltbl H. now apply lw_np_unit. Qed.

Example no_panic_ex :
  unit_wf [[RStartLength (AConst (2 ^ 64 - 1)) 1; RBase (AConst 5)]] [[LStartLength (ASym 3 (- 2 ^ 63)) (2 ^ 64 - 1) [x9c]]].
Proof. split; repeat constructor; try discriminate; try (vm_compute; reflexivity); try (vm_compute; discriminate). Qed.

(* ------------------------------------------------------------------ pins *)
Check rejects_v4 : forall loc be version asz l hb e, size_ok asz -> version <= 4 -> Forall wloc_wf l ->
  rejected asz hb l = Some e -> plain_until_reject asz hb l = true -> write_list_v4 loc be version asz (marker asz) hb l = Err e.
Check rejected_never_bytes : forall loc be version asz l hb bs,
  write_list_v4 loc be version asz (marker asz) hb l = Ok bs -> Forall (wf loc) l -> rejected asz hb l = None.
Check base_from_root : forall attrs, have_base_address attrs = false -> unit_base attrs = 0.
Check no_panic : forall be fmt64 version asz attrs rstart lstart rtbl ltbl, unit_wf rtbl ltbl ->
  unit_write_lists be fmt64 version asz attrs rstart lstart rtbl ltbl <> Panic /\
  unit_write_lists be fmt64 version asz attrs rstart lstart rtbl ltbl <> OutOfFuel.

(* ================================================================ GLUE with C11 (the DIE side) — Model/UnitGlueWr.v, stream c11.glue
   The value Unit::write puts into DW_AT_ranges = RangeListRef(id) / DW_AT_location = LocationListRef(id) is
   offsets.get(id), the number RangeListTable::write / LocationListTable::write returned for that list (UnitWr.av_write
   with wc_rng / wc_loc = those results: that is how Model/UnitGlueWr.gunit_write builds the DIE writer's context).
   Compositions of C11 attr_read_by_reader, C03's Attribute::value() model and the theorems above
   (Proofs/WriterGlueProofs.v). *)
Require GV.Spec.UnitWrSpec GV.Model.UnitWr GV.Proofs.UnitRoundtrip GV.Proofs.AttrProofs GV.Spec.FormSpec GV.Model.Attr
        GV.Model.OpWr GV.Model.UnitGlueWr GV.Proofs.WriterGlueProofs.

(* the attribute step: C03's reader (Attr.parse_attribute under the specification the writer stores: sec_offset, or
   data4/data8 in DWARF 2/3) reads the written bytes back, Attribute::value() makes it RangeListsRef(o) /
   LocationListsRef(o), and C08's Dwarf::attr_ranges_offset / attr_locations_offset return o = the list writer's offset
   of list i *)
Theorem ranges_attr_roundtrip : forall (dbg dbg' : bool) (cx : UnitWr.wcx) (i : nat) (ops : list UnitWr.wop)
    (rest : list byte) (u : ListsRd.uctx),
  UnitWr.av_write dbg cx (UnitWr.AvRangeListRef i) = Ok ops ->
  (forall o, nth_error (UnitWr.wc_rng cx) i = Some o -> o < 2 ^ 64) ->
  AttrProofs.addr_size_ok (UnitRoundtrip.renc cx) -> ListsRd.u_dwo u = false ->
  exists o val,
    nth_error (UnitWr.wc_rng cx) i = Some o /\
    Attr.parse_attribute dbg' (UnitRoundtrip.renc cx)
       (Attr.mkSpec 85 (fst (UnitWr.av_form (UnitWr.wc_enc cx) (UnitWr.AvRangeListRef i))) 0)
       (UnitWr.ops_bytes ops ++ rest) = Ok (val, rest) /\
    ListsRd.attr_ranges_offset u (WriterGlueProofs.lrd_aval (Attr.attr_normalise 85 val)) = Ok (Some o).
Proof. exact (fun dbg dbg' cx i ops rest u => WriterGlueProofs.list_ref_attr_offset dbg dbg' cx false i ops rest u). Qed.

Theorem locations_attr_roundtrip : forall (dbg dbg' : bool) (cx : UnitWr.wcx) (i : nat) (ops : list UnitWr.wop)
    (rest : list byte) (u : ListsRd.uctx),
  UnitWr.av_write dbg cx (UnitWr.AvLocationListRef i) = Ok ops ->
  (forall o, nth_error (UnitWr.wc_loc cx) i = Some o -> o < 2 ^ 64) ->
  AttrProofs.addr_size_ok (UnitRoundtrip.renc cx) -> ListsRd.u_dwo u = false ->
  exists o val,
    nth_error (UnitWr.wc_loc cx) i = Some o /\
    Attr.parse_attribute dbg' (UnitRoundtrip.renc cx)
       (Attr.mkSpec 2 (fst (UnitWr.av_form (UnitWr.wc_enc cx) (UnitWr.AvLocationListRef i))) 0)
       (UnitWr.ops_bytes ops ++ rest) = Ok (val, rest) /\
    ListsRd.attr_locations_offset u (WriterGlueProofs.lrd_aval (Attr.attr_normalise 2 val)) = Ok (Some o).
Proof. exact (fun dbg dbg' cx i ops rest u => WriterGlueProofs.list_ref_attr_offset dbg dbg' cx true i ops rest u). Qed.

(* composed with write_read_by_reader_v5: from the DIE attribute to the supplied list, DWARF 5.  The DIE writer's
   context carries the list writers' results (Hcx); the offsets fit the address space (Hfit). *)
Theorem ranges_locations_attr_roundtrip_v5 : forall (dbg dbg' rdbg be fmt64 : bool) (asz : N) attrs (rstart lstart : N)
    rtbl ltbl (rb lb : list byte) (ro lo : list N) (rsec lsec other : list byte) (cx : UnitWr.wcx) (u : ListsRd.uctx),
  unit_write_lists be fmt64 5 asz attrs rstart lstart rtbl ltbl = Ok ((rb, ro), (lb, lo)) ->
  N.of_nat (length rsec) = rstart -> N.of_nat (length lsec) = lstart -> unit_wf rtbl ltbl ->
  UnitWr.wc_enc cx = UnitWrSpec.mkEnc 5 fmt64 asz /\ UnitWr.wc_be cx = be /\ UnitWr.wc_rng cx = ro /\ UnitWr.wc_loc cx = lo ->
  Forall (fun o => o < 2 ^ 64) (ro ++ lo) ->
  AttrProofs.addr_size_ok (UnitRoundtrip.renc cx) -> ListsRd.u_dwo u = false -> size_ok asz ->
  (forall i l ops rest, nth_error rtbl i = Some l -> UnitWr.av_write dbg cx (UnitWr.AvRangeListRef i) = Ok ops ->
     exists o val es,
       Attr.parse_attribute dbg' (UnitRoundtrip.renc cx)
          (Attr.mkSpec 85 (fst (UnitWr.av_form (UnitWr.wc_enc cx) (UnitWr.AvRangeListRef i))) 0)
          (UnitWr.ops_bytes ops ++ rest) = Ok (val, rest) /\
       ListsRd.attr_ranges_offset u (WriterGlueProofs.lrd_aval (Attr.attr_normalise 85 val)) = Ok (Some o) /\
       ents_of (map loc_of_range l) = Some es /\
       ListsRd.raw_ranges_all rdbg (rd_cfg be asz 5) other (rsec ++ rb) o = Ok (map ListsRd.EvItem (map tr_ent es)) /\
       forall x base, N.of_nat (length (ListsRd.x_addr x)) < two64 ->
         exists rs, meaning_rng asz base l = Some rs /\
           ListsRd.ranges_all rdbg (rd_cfg be asz 5) x other (rsec ++ rb) o base = Ok (map ListsRd.EvItem rs)) /\
  (forall i l ops rest, nth_error ltbl i = Some l -> UnitWr.av_write dbg cx (UnitWr.AvLocationListRef i) = Ok ops ->
     exists o val es,
       Attr.parse_attribute dbg' (UnitRoundtrip.renc cx)
          (Attr.mkSpec 2 (fst (UnitWr.av_form (UnitWr.wc_enc cx) (UnitWr.AvLocationListRef i))) 0)
          (UnitWr.ops_bytes ops ++ rest) = Ok (val, rest) /\
       ListsRd.attr_locations_offset u (WriterGlueProofs.lrd_aval (Attr.attr_normalise 2 val)) = Ok (Some o) /\
       ents_of l = Some es /\
       ListsRd.raw_locations_all rdbg (rd_cfg be asz 5) false other (lsec ++ lb) o = Ok (map ListsRd.EvItem (map tr_loc es)) /\
       forall x base, N.of_nat (length (ListsRd.x_addr x)) < two64 ->
         exists rs, meaning_loc asz base l = Some rs /\
           ListsRd.locations_all rdbg (rd_cfg be asz 5) false x other (lsec ++ lb) o base = Ok (map ListsRd.EvItem rs)).
Proof.
  intros dbg dbg' rdbg be fmt64 asz attrs rstart lstart rtbl ltbl rb lb ro lo rsec lsec other cx u Hw Hrs Hls Hwf Hcx Hfit HA Hd Hs.
  exact (WriterGlueProofs.list_attrs_roundtrip_v5_lemma dbg dbg' rdbg be fmt64 5 asz attrs rstart lstart rtbl ltbl rb lb ro lo
           rsec lsec other cx u Hw Hrs Hls Hwf Hcx Hfit HA Hd eq_refl Hs).
Qed.

(* the same for DWARF 2-4 (.debug_ranges / .debug_loc), relative to the base address the reader derives from the root DIE *)
Theorem ranges_locations_attr_roundtrip_v4 : forall (dbg dbg' rdbg be fmt64 : bool) (version asz : N) attrs (rstart lstart : N)
    rtbl ltbl (rb lb : list byte) (ro lo : list N) (rsec lsec other : list byte) (cx : UnitWr.wcx) (u : ListsRd.uctx),
  unit_write_lists be fmt64 version asz attrs rstart lstart rtbl ltbl = Ok ((rb, ro), (lb, lo)) ->
  N.of_nat (length rsec) = rstart -> N.of_nat (length lsec) = lstart -> unit_wf rtbl ltbl ->
  UnitWr.wc_enc cx = UnitWrSpec.mkEnc version fmt64 asz /\ UnitWr.wc_be cx = be /\ UnitWr.wc_rng cx = ro /\ UnitWr.wc_loc cx = lo ->
  Forall (fun o => o < 2 ^ 64) (ro ++ lo) ->
  AttrProofs.addr_size_ok (UnitRoundtrip.renc cx) -> ListsRd.u_dwo u = false -> 2 <= version <= 4 ->
  (forall i l ops rest, nth_error rtbl i = Some l -> UnitWr.av_write dbg cx (UnitWr.AvRangeListRef i) = Ok ops ->
     exists o val ps,
       Attr.parse_attribute dbg' (UnitRoundtrip.renc cx)
          (Attr.mkSpec 85 (fst (UnitWr.av_form (UnitWr.wc_enc cx) (UnitWr.AvRangeListRef i))) 0)
          (UnitWr.ops_bytes ops ++ rest) = Ok (val, rest) /\
       ListsRd.attr_ranges_offset u (WriterGlueProofs.lrd_aval (Attr.attr_normalise 85 val)) = Ok (Some o) /\
       pairs_of (map loc_of_range l) = Some ps /\
       ListsRd.raw_ranges_all rdbg (rd_cfg be asz version) (rsec ++ rb) other o = Ok (map ListsRd.EvItem (map tr_ent ps)) /\
       forall x, N.of_nat (length (ListsRd.x_addr x)) < two64 ->
         exists rs, meaning_rng asz (unit_base attrs) l = Some rs /\
           ListsRd.ranges_all rdbg (rd_cfg be asz version) x (rsec ++ rb) other o (unit_base attrs) = Ok (map ListsRd.EvItem rs)) /\
  (forall i l ops rest, nth_error ltbl i = Some l -> UnitWr.av_write dbg cx (UnitWr.AvLocationListRef i) = Ok ops ->
     exists o val ps,
       Attr.parse_attribute dbg' (UnitRoundtrip.renc cx)
          (Attr.mkSpec 2 (fst (UnitWr.av_form (UnitWr.wc_enc cx) (UnitWr.AvLocationListRef i))) 0)
          (UnitWr.ops_bytes ops ++ rest) = Ok (val, rest) /\
       ListsRd.attr_locations_offset u (WriterGlueProofs.lrd_aval (Attr.attr_normalise 2 val)) = Ok (Some o) /\
       pairs_of l = Some ps /\
       ListsRd.raw_locations_all rdbg (rd_cfg be asz version) false (lsec ++ lb) other o = Ok (map ListsRd.EvItem (map tr_loc ps)) /\
       forall x, N.of_nat (length (ListsRd.x_addr x)) < two64 ->
         exists rs, meaning_loc asz (unit_base attrs) l = Some rs /\
           ListsRd.locations_all rdbg (rd_cfg be asz version) false x (lsec ++ lb) other o (unit_base attrs) = Ok (map ListsRd.EvItem rs)).
Proof.
  intros dbg dbg' rdbg be fmt64 version asz attrs rstart lstart rtbl ltbl rb lb ro lo rsec lsec other cx u Hw Hrs Hls Hwf Hcx Hfit HA Hd Hv.
  exact (WriterGlueProofs.list_attrs_roundtrip_v4_lemma dbg dbg' rdbg be fmt64 version asz attrs rstart lstart rtbl ltbl rb lb ro lo
           rsec lsec other cx u Hw Hrs Hls Hwf Hcx Hfit HA Hd Hv).
Qed.

(* a DWARF 4 unit: two range lists, the second referenced by DW_AT_ranges: data written = 32 = the list writer's offset *)
Definition gx_cx : UnitWr.wcx := UnitWr.mkWcx (UnitWrSpec.mkEnc 4 false 8) false 0 0 [] [] None [] [] [0; 32] [] 2.
Example ranges_attr_roundtrip_ex :
  (exists rb lb, unit_write_lists false false 4 8 [(DW_AT_low_pc, VAddress (AConst 4096))] 0 0
                   [[ROffsetPair 1 2]; [ROffsetPair 3 9]] [] = Ok ((rb, [0; 32]), (lb, []))) /\
  UnitWr.av_write true gx_cx (UnitWr.AvRangeListRef 1) = Ok [UnitWr.WB [x20; x00; x00; x00]] /\
  Attr.attr_normalise 85 (FormSpec.VSecOffset 32) = FormSpec.VRangeListsRef 32 /\
  AttrProofs.addr_size_ok (UnitRoundtrip.renc gx_cx).
Proof.
  split; [eexists; eexists; vm_compute; reflexivity|]. split; [vm_compute; reflexivity|].
  split; [reflexivity|vm_compute; reflexivity].
Qed.

(* LocationListTable::write of the composed model (real expressions, fix-ups) = table_write of this property's model on the
   raw view of the table (each expression replaced by the bytes it is written as: WriterGlueProofs.raw_rel): same bytes,
   same LocationListOffsets.  Hence every theorem above about table_write / unit_write_lists applies to the location
   lists the composed model writes. *)
Theorem loc_table_write_composed : forall dbg oe uo hb start tbl bytes offs fx,
  UnitGlueWr.gloc_table_write dbg oe uo hb start tbl = Ok (bytes, offs, fx) -> start + 20 + OpWr.blen bytes < 2 ^ 64 ->
  exists rtbl, Forall2 (Forall2 (WriterGlueProofs.raw_rel dbg oe uo)) tbl rtbl /\
    table_write true (OpWr.e_be oe) (OpWr.e_fmt64 oe) (OpWr.e_version oe) (OpWr.e_asize oe) hb start rtbl = Ok (bytes, offs).
Proof. exact WriterGlueProofs.gloc_table_write_raw. Qed.
