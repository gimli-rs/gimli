(* Properties/C17_tie_loader.v — translator tie (DESIGN §1.2 item 2) for the loader-wiring clause of C17: the struct definitions,
   `impl Section` blocks and struct literals of src/read/dwarf.rs, regenerated into coq/Gen/Loader.v from the source
   text on every ./check run.  load_ok / borrow_ok / from_sections_ok / kind_ok are the decidable wiring statements
   defined in Proofs/GenAgreeLoader.v (forallb over the generated lists). *)
From Coq Require Import List NArith Bool String.
Require Import GV.Proofs.GenSweep GV.Proofs.GenAgreeSections GV.Proofs.GenAgreeLoader.
Require GV.Gen.Loader GV.Gen.SectionNames GV.Model.IndexRd.
Import ListNotations.
Local Open Scope string_scope.

(* DwarfSections::load: every field, in declaration order, loaded from the SectionId of its own type, whose ELF name is "." ++ field; no id twice *)
Theorem c17_tie_dwarf_sections_load :
  load_ok Loader.dwarf_sections_fields Loader.dwarf_sections_load = true.
Proof. vm_compute. reflexivity. Qed.

(* DwarfPackageSections::load: the same (cu_index / tu_index: ".debug_" ++ field) *)
Theorem c17_tie_package_sections_load :
  load_ok Loader.package_sections_fields Loader.package_sections_load = true.
Proof. vm_compute. reflexivity. Qed.

(* what load_ok says, field by field, for every field of the two sections structs *)
Theorem c17_tie_load_ok_field :
  forall fields l, load_ok fields l = true ->
  map fst l = map fst fields /\
  forall f, In f (map fst l) ->
    exists n, field_section_name fields f = Some n /\ (n = "." ++ f \/ n = ".debug_" ++ f).
Proof.
  intros fields l H. unfold load_ok in H.
  apply andb_prop in H. destruct H as [H _]. apply andb_prop in H. destruct H as [H1 H2].
  split; [apply slist_eqb_eq; exact H1|].
  intros f I. apply in_map_iff in I. destruct I as [e [<- I]].
  pose proof (forallb_In _ _ _ H2 e I) as S. unfold load_entry_ok in S.
  apply andb_prop in S. destruct S as [_ S].
  destruct (field_section_name fields (fst e)) as [n|]; [|discriminate]. exists n. split; [reflexivity|].
  apply orb_prop in S. destruct S as [S|S]; apply String.eqb_eq in S; [left|right]; exact S.
Qed.

(* DwarfSections::borrow: every field borrows the field of the same name *)
Theorem c17_tie_dwarf_sections_borrow :
  borrow_ok Loader.dwarf_sections_fields Loader.dwarf_sections_borrow = true.
Proof. vm_compute. reflexivity. Qed.

Theorem c17_tie_package_sections_borrow :
  borrow_ok Loader.package_sections_fields Loader.package_sections_borrow = true.
Proof. vm_compute. reflexivity. Qed.

(* Dwarf::from_sections (hence Dwarf::load, DwarfSections::borrow): every Dwarf field assigned, section fields moved from the field of the same name and type, every loaded section used exactly once *)
Theorem c17_tie_dwarf_from_sections :
  from_sections_ok Loader.dwarf_sections_fields Loader.dwarf_fields Loader.dwarf_from_sections = true /\
  sassoc "locations" Loader.dwarf_from_sections
    = Some ("LocationLists::new(sections.debug_loc,sections.debug_loclists)", ["debug_loc"; "debug_loclists"]) /\
  sassoc "ranges" Loader.dwarf_from_sections
    = Some ("RangeLists::new(sections.debug_ranges,sections.debug_rnglists)", ["debug_ranges"; "debug_rnglists"]).
Proof. repeat apply conj; vm_compute; reflexivity. Qed.

(* DwarfPackage::from_sections (hence DwarfPackage::load, DwarfPackageSections::borrow) *)
Theorem c17_tie_package_from_sections :
  from_sections_ok Loader.package_sections_fields Loader.package_fields Loader.package_from_sections = true /\
  sassoc "cu_index" Loader.package_from_sections = Some ("sections.cu_index.index()?", ["cu_index"]) /\
  sassoc "tu_index" Loader.package_from_sections = Some ("sections.tu_index.index()?", ["tu_index"]).
Proof. repeat apply conj; vm_compute; reflexivity. Qed.

(* Dwarf::borrow (deprecated) *)
Theorem c17_tie_dwarf_borrow :
  slist_eqb (map fst Loader.dwarf_borrow) (map fst Loader.dwarf_fields) = true /\
  forallb dwarf_borrow_entry_ok Loader.dwarf_borrow = true.
Proof. repeat apply conj; vm_compute; reflexivity. Qed.

(* DwarfPackage::sections: kind K is cut (dwp_range) from the package section with id section_id(K); an arm and own variables per kind; calls in the order of IndexRd.pkg_order *)
Theorem c17_tie_package_unit_kinds :
  forallb kind_ok Loader.package_kind_vars = true /\
  sperm (map fst Loader.package_kind_vars) SectionNames.index_section_ids = true /\
  snodup (map snd Loader.package_kind_vars) = true /\
  List.length Loader.package_ranges = List.length Loader.package_kind_vars /\
  map range_kind Loader.package_ranges = map isect_name IndexRd.pkg_order.
Proof. repeat apply conj; vm_compute; reflexivity. Qed.

(* the rest of a package unit: .debug_str shared, .debug_addr / .debug_ranges / sup from the parent, the three sections
   a package never holds are empty, file type Dwo; every field of Dwarf is assigned (the wiring as built, stated literally) *)
Theorem c17_tie_package_unit_rest :
  Loader.package_lets =
    [ ("debug_str", "self.debug_str.clone()"); ("debug_addr", "parent.debug_addr.clone()");
      ("debug_ranges", "parent.ranges.debug_ranges().clone()"); ("debug_aranges", "self.empty.clone().into()");
      ("debug_line_str", "self.empty.clone().into()"); ("debug_names", "self.empty.clone().into()") ] /\
  map fst Loader.package_unit_literal = map fst Loader.dwarf_fields /\
  forallb (fun e => match sassoc (fst e) Loader.dwarf_fields with
                    | Some t => if is_section_type t then String.eqb (snd e) (fst e) else true
                    | None => false end) Loader.package_unit_literal = true /\
  sassoc "locations" Loader.package_unit_literal = Some "LocationLists::new(debug_loc,debug_loclists)" /\
  sassoc "ranges" Loader.package_unit_literal = Some "RangeLists::new(debug_ranges,debug_rnglists)" /\
  sassoc "file_type" Loader.package_unit_literal = Some "DwarfFileType::Dwo" /\
  sassoc "sup" Loader.package_unit_literal = Some "parent.sup.clone()".
Proof. repeat apply conj; vm_compute; reflexivity. Qed.

(* statement pins *)
Check c17_tie_dwarf_sections_load :
  load_ok Loader.dwarf_sections_fields Loader.dwarf_sections_load = true.
Check c17_tie_package_sections_load :
  load_ok Loader.package_sections_fields Loader.package_sections_load = true.
Check c17_tie_load_ok_field :
  forall fields l, load_ok fields l = true ->
  map fst l = map fst fields /\
  forall f, In f (map fst l) ->
    exists n, field_section_name fields f = Some n /\ (n = "." ++ f \/ n = ".debug_" ++ f).
Check c17_tie_dwarf_sections_borrow :
  borrow_ok Loader.dwarf_sections_fields Loader.dwarf_sections_borrow = true.
Check c17_tie_package_sections_borrow :
  borrow_ok Loader.package_sections_fields Loader.package_sections_borrow = true.
Check c17_tie_dwarf_from_sections :
  from_sections_ok Loader.dwarf_sections_fields Loader.dwarf_fields Loader.dwarf_from_sections = true /\
  sassoc "locations" Loader.dwarf_from_sections
    = Some ("LocationLists::new(sections.debug_loc,sections.debug_loclists)", ["debug_loc"; "debug_loclists"]) /\
  sassoc "ranges" Loader.dwarf_from_sections
    = Some ("RangeLists::new(sections.debug_ranges,sections.debug_rnglists)", ["debug_ranges"; "debug_rnglists"]).
Check c17_tie_package_from_sections :
  from_sections_ok Loader.package_sections_fields Loader.package_fields Loader.package_from_sections = true /\
  sassoc "cu_index" Loader.package_from_sections = Some ("sections.cu_index.index()?", ["cu_index"]) /\
  sassoc "tu_index" Loader.package_from_sections = Some ("sections.tu_index.index()?", ["tu_index"]).
Check c17_tie_dwarf_borrow :
  slist_eqb (map fst Loader.dwarf_borrow) (map fst Loader.dwarf_fields) = true /\
  forallb dwarf_borrow_entry_ok Loader.dwarf_borrow = true.
Check c17_tie_package_unit_kinds :
  forallb kind_ok Loader.package_kind_vars = true /\
  sperm (map fst Loader.package_kind_vars) SectionNames.index_section_ids = true /\
  snodup (map snd Loader.package_kind_vars) = true /\
  List.length Loader.package_ranges = List.length Loader.package_kind_vars /\
  map range_kind Loader.package_ranges = map isect_name IndexRd.pkg_order.
Check c17_tie_package_unit_rest :
  Loader.package_lets =
    [ ("debug_str", "self.debug_str.clone()"); ("debug_addr", "parent.debug_addr.clone()");
      ("debug_ranges", "parent.ranges.debug_ranges().clone()"); ("debug_aranges", "self.empty.clone().into()");
      ("debug_line_str", "self.empty.clone().into()"); ("debug_names", "self.empty.clone().into()") ] /\
  map fst Loader.package_unit_literal = map fst Loader.dwarf_fields /\
  forallb (fun e => match sassoc (fst e) Loader.dwarf_fields with
                    | Some t => if is_section_type t then String.eqb (snd e) (fst e) else true
                    | None => false end) Loader.package_unit_literal = true /\
  sassoc "locations" Loader.package_unit_literal = Some "LocationLists::new(debug_loc,debug_loclists)" /\
  sassoc "ranges" Loader.package_unit_literal = Some "RangeLists::new(debug_ranges,debug_rnglists)" /\
  sassoc "file_type" Loader.package_unit_literal = Some "DwarfFileType::Dwo" /\
  sassoc "sup" Loader.package_unit_literal = Some "parent.sup.clone()".
