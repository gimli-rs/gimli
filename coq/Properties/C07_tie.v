(* Properties/C07_tie.v — translator tie (DESIGN §1.2 item 2) for C07: the opcode -> variant / operand-layout table of
   Operation::parse (src/read/op.rs), regenerated into coq/Gen/OpTable.v from the source text on every ./check run,
   against Model/OpDec.v parse_opcode.  opcode_agree (Proofs/GenAgreeOpTable.v) runs the model on the opcode byte
   followed by a benign operand tail (every LEB128/length/register = 1) and compares the constructor name and the
   number of bytes consumed with the arm of the regenerated table; arm_allows: the variant is one the arm builds. *)
From Coq Require Import List NArith Bool String.
From Coq.Strings Require Import Byte.
Require Import GV.Base.Res GV.Base.Byt GV.Proofs.GenSweep GV.Model.OpDec GV.Proofs.GenAgreeOpTable.
Require GV.Gen.OpTable GV.Gen.Constants.
Import ListNotations.
Local Open Scope string_scope.
Local Open Scope N_scope.

(* all 256 opcode bytes (DWARF version 4 and 2 encodings): Model/OpDec.v decodes the byte to a variant that the arm of that opcode in Operation::parse builds and consumes exactly the operands the arm reads; no arm = InvalidExpression in both *)
Theorem c07_tie_op_table :
  forall opc, opc < 256 -> opcode_agree enc4 opc = true /\ opcode_agree enc2 opc = true.
Proof.
  intros opc H. destruct gen_op_table_sweep as [S4 S2].
  split; [exact (sweep_lt _ _ S4 opc H)|exact (sweep_lt _ _ S2 opc H)].
Qed.

(* the DW_OP_WASM_location arm and its four sub-opcodes *)
Theorem c07_tie_op_wasm :
  map (fun sub => match parse_opcode false enc4 xed (sub :: tail) with Ok (op, _) => op_ctor op | _ => "" end)
      [x00; x01; x02; x03] = ["WasmLocal"; "WasmGlobal"; "WasmStack"; "WasmGlobal"] /\
  option_map fst (lookup_op Constants.DW_OP_WASM_location OpTable.op_table) = Some ["WasmLocal"; "WasmGlobal"; "WasmStack"].
Proof. split; reflexivity. Qed.

(* every arm is keyed by a DW_OP_* constant of constants.rs, none twice *)
Theorem c07_tie_op_table_keys :
  forallb (fun k => existsb (N.eqb k) Constants.DwOp_values) (map fst OpTable.op_table) = true /\
  nnodup (map fst OpTable.op_table) = true.
Proof. split; reflexivity. Qed.

(* for ALL operand bytes, encodings and both build modes: whenever the model decodes an operation, its variant is one the arm of that opcode in Operation::parse builds *)
Theorem c07_tie_op_table_all_inputs :
  forall dbg e opc r op r', parse_opcode dbg e opc r = Ok (op, r') -> arm_allows opc op = true.
Proof.
  intros dbg e opc r. change (builds (fun op => arm_allows opc op = true) (parse_opcode dbg e opc r)).
  destruct opc; cbn [parse_opcode]; try apply builds_err; try unfold parse_wasm;
    repeat (apply builds_bind; intros [? ?]).
  all: repeat (apply builds_if; [intros _; apply builds_bind; intros [? ?]|]).
  all: try (apply builds_ok; vm_compute; reflexivity).
  - destruct (_ <? _); [apply builds_ok; reflexivity|apply builds_err].
  - apply builds_err.
Qed.

(* an opcode without an arm in Operation::parse is InvalidExpression in the model whatever follows *)
Theorem c07_tie_op_table_no_arm :
  forall dbg e opc r,
  lookup_op (b2n opc) OpTable.op_table = None -> parse_opcode dbg e opc r = Err EInvalidExpression.
Proof. intros dbg e opc r H. destruct opc; vm_compute in H; try discriminate H; reflexivity. Qed.

(* statement pins *)
Check c07_tie_op_table :
  forall opc, opc < 256 -> opcode_agree enc4 opc = true /\ opcode_agree enc2 opc = true.
Check c07_tie_op_wasm :
  map (fun sub => match parse_opcode false enc4 xed (sub :: tail) with Ok (op, _) => op_ctor op | _ => "" end)
      [x00; x01; x02; x03] = ["WasmLocal"; "WasmGlobal"; "WasmStack"; "WasmGlobal"] /\
  option_map fst (lookup_op Constants.DW_OP_WASM_location OpTable.op_table) = Some ["WasmLocal"; "WasmGlobal"; "WasmStack"].
Check c07_tie_op_table_keys :
  forallb (fun k => existsb (N.eqb k) Constants.DwOp_values) (map fst OpTable.op_table) = true /\
  nnodup (map fst OpTable.op_table) = true.
Check c07_tie_op_table_all_inputs :
  forall dbg e opc r op r', parse_opcode dbg e opc r = Ok (op, r') -> arm_allows opc op = true.
Check c07_tie_op_table_no_arm :
  forall dbg e opc r,
  lookup_op (b2n opc) OpTable.op_table = None -> parse_opcode dbg e opc r = Err EInvalidExpression.
