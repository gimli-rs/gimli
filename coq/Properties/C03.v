(* Properties/C03.v — "Every attribute form decodes to its DWARF value; skipping equals reading".
   Model: Model/Attr.v (mirrors src/read/unit.rs parse_attribute / skip_attributes /
   allow_section_offset / Attribute::value and helpers, src/read/abbrev.rs get_attribute_size).
   Specification: Spec/FormSpec.v (form table, layouts, values, encoders).
   Every statement quantifies over ALL byte lists / specifications / encodings and both build modes
   (dbg = overflow checks on). The only side conditions are the ones written in the statements:
     - `N.of_nat (length bs) < two64` in skip_eq_read: a Rust slice never exceeds isize::MAX bytes;
     - `value_in_range v`: the numbers fit the field types of gimli's AttributeValue
       (parsed_values_in_range shows that everything the reader returns satisfies it). *)
From Coq Require Import List NArith ZArith Bool Lia.
From Coq.Strings Require Import Byte.
Require Import GV.Base.Res GV.Base.Byt GV.Base.Ints GV.Model.Leb GV.Model.Prim
               GV.Spec.LebSpec GV.Spec.FormSpec GV.Model.Attr GV.Proofs.AttrProofs GV.Proofs.GenAgree.
Require GV.Gen.FormCodes GV.Gen.FormSize GV.Gen.AllowSecOffset GV.Gen.AttrValueTable.
Import ListNotations.
Local Open Scope N_scope.

(* ------------------------------------------------------------------ *)
(* (1) the advertised fixed size of a form is what reading consumes, and it is the size of the
       form's DWARF layout *)

Theorem fixed_size_is_consumed : forall dbg e spec bs v r n,
  get_attribute_size (at_form spec) e = Some n ->
  parse_attribute dbg e spec bs = Ok (v, r) ->
  N.of_nat (length bs) = N.of_nat (length r) + n.
Proof. exact AttrProofs.fixed_size_is_consumed. Qed.

Example fixed_size_is_consumed_ex :
  let e := mkEnc 2 false 8 true in
  let spec := mkSpec 17 DW_FORM_ref_addr 0 in     (* DWARF 2: ref_addr is address sized *)
  get_attribute_size (at_form spec) e = Some 8 /\
  parse_attribute true e spec [x00;x00;x00;x00;x00;x00;x01;x02;xaa]%byte = Ok (VDebugInfoRef 258, [xaa]%byte).
Proof. split; reflexivity. Qed.

Theorem fixed_size_is_layout : forall c e,
  get_attribute_size c e =
  match form_of_code c with Some f => layout_fixed_size (form_layout f e) | None => None end.
Proof.
  intros c e. destruct (form_of_code c) as [f|] eqn:E.
  - apply form_of_code_some in E. subst. apply get_attribute_size_known.
  - apply get_attribute_size_unknown. assumption.
Qed.

(* ------------------------------------------------------------------ *)
(* (2) skipping consumes exactly the bytes that reading consumes — any specification list, so the
       accumulated fixed skip crosses variable forms, indirect forms and the checked addition *)

Theorem skip_eq_read : forall dbg e specs bs vs r,
  N.of_nat (length bs) < two64 ->
  read_attributes dbg e specs bs = Ok (vs, r) ->
  skip_attributes dbg e specs bs = Ok r.
Proof. exact AttrProofs.skip_eq_read. Qed.

Example skip_eq_read_ex :
  let e := mkEnc 4 false 4 false in
  let specs := [mkSpec 3 DW_FORM_data2 0; mkSpec 2 DW_FORM_block1 0; mkSpec 11 DW_FORM_data1 0;
                mkSpec 73 DW_FORM_indirect 0; mkSpec 58 DW_FORM_implicit_const 7; mkSpec 3 DW_FORM_string 0] in
  let bs := [x01;x02; x02;xaa;xbb; x05; x0f;x80;x01; x61;x00; xee]%byte in
  read_attributes true e specs bs =
    Ok ([VData2 513; VBlock [xaa;xbb]%byte; VData1 5; VUdata 128; VSdata 7; VString [x61]%byte], [xee]%byte)
  /\ skip_attributes true e specs bs = Ok [xee]%byte.
Proof. split; reflexivity. Qed.

(* the side condition is the only reason skipping can fail where reading succeeds: reading never
   returns more input than it was given *)
Theorem read_consumes_prefix : forall dbg e spec bs v r,
  parse_attribute dbg e spec bs = Ok (v, r) -> (length r <= length bs)%nat.
Proof. exact AttrProofs.parse_attribute_length. Qed.

(* ------------------------------------------------------------------ *)
(* (3) every form decodes to its DWARF value: parse (encode v) = v, for every form, any depth of
       DW_FORM_indirect, implicit constants from the abbreviation, 3-byte indices, DWARF 2 ref_addr,
       legacy data4/data8 section offsets (all inside form_layout / form_value of the spec) *)

Theorem attr_roundtrip : forall dbg e name implicit depth f d payload v rest,
  f <> F_indirect ->
  addr_size_ok e ->
  (f = F_implicit_const -> depth = O) ->
  raw_fits (form_layout f e) d ->
  enc_layout (form_layout f e) (be e) d = Some payload ->
  form_value e name implicit f d = Some v ->
  parse_attribute dbg e (mkSpec name (spec_form depth f) implicit) (enc_hops depth f ++ payload ++ rest)
  = Ok (v, rest).
Proof. exact AttrProofs.attr_roundtrip. Qed.

Example attr_roundtrip_ex :     (* DW_AT_stmt_list as DW_FORM_data4 in 32-bit DWARF 3, two indirect hops *)
  let e := mkEnc 3 false 4 true in
  F_data4 <> F_indirect /\ addr_size_ok e /\ (F_data4 = F_implicit_const -> 2%nat = O) /\
  raw_fits (form_layout F_data4 e) (RNum 66051) /\
  enc_layout (form_layout F_data4 e) (be e) (RNum 66051) = Some [x00;x01;x02;x03]%byte /\
  form_value e 16 0 F_data4 (RNum 66051) = Some (VSecOffset 66051) /\
  enc_hops 2 F_data4 = [x16;x06]%byte.
Proof. repeat split; try reflexivity; discriminate. Qed.

Example attr_roundtrip_ex_strx3 :
  let e := mkEnc 5 true 8 false in
  enc_layout (form_layout F_strx3 e) (be e) (RNum 197121) = Some [x01;x02;x03]%byte /\
  form_value e 3 0 F_strx3 (RNum 197121) = Some (VDebugStrOffsetsIndex 197121).
Proof. split; reflexivity. Qed.

(* the converse direction: whatever the reader returns for a (non-indirect) form is the spec value
   of the data read according to the spec layout, or the guard error; unknown codes are rejected *)
Theorem parse_is_spec : forall dbg e spec bs,
  at_form spec <> DW_FORM_indirect ->
  parse_attribute dbg e spec bs =
  match form_of_code (at_form spec) with
  | Some f => decode_by_layout dbg e spec f bs
  | None => Err EUnknownForm
  end.
Proof.
  intros dbg e spec bs H. unfold parse_attribute. rewrite parse_form_direct by assumption.
  apply parse_direct_spec. assumption.
Qed.

Example parse_is_spec_ex :    (* a guard error: DW_FORM_addr with an address size the reader refuses *)
  parse_attribute false (mkEnc 4 false 3 false) (mkSpec 17 DW_FORM_addr 0) [x01;x02;x03]%byte
  = Err EUnsupportedAddressSize.
Proof. reflexivity. Qed.

Example parse_indirect_ex :   (* indirect -> indirect -> data1; indirect -> implicit_const is refused *)
  parse_attribute true (mkEnc 4 false 4 false) (mkSpec 3 DW_FORM_indirect 9) [x16;x0b;x2a;xee]%byte
  = Ok (VData1 42, [xee]%byte) /\
  parse_attribute true (mkEnc 5 false 4 false) (mkSpec 3 DW_FORM_indirect 9) [x21;xee]%byte
  = Err EInvalidImplicitConst.
Proof. split; reflexivity. Qed.

Theorem parse_indirect : forall dbg e spec bs,
  at_form spec = DW_FORM_indirect ->
  parse_attribute dbg e spec bs =
  let* (c, r) := read_uleb128_u16 bs in
  if c =? DW_FORM_implicit_const then Err EInvalidImplicitConst
  else parse_attribute dbg e (mkSpec (at_name spec) c (at_implicit spec)) r.
Proof.
  intros dbg e spec bs H. unfold parse_attribute. rewrite H, parse_form_indirect.
  destruct (read_uleb128_u16 bs) as [[c r]| | |] eqn:R; cbn [bind]; try reflexivity.
  apply read_u16leb_shrinks in R. cbn [at_form].
  (* the fuel left after the hop and the fuel of a fresh call both exceed the input *)
  rewrite (parse_form_fuel (length bs) (S (length r))) by lia.
  destruct (N.eqb_spec c DW_FORM_implicit_const) as [->|Hc].
  - rewrite parse_form_direct by discriminate.
    unfold parse_direct, implicit_const_value. rewrite H. reflexivity.
  - apply parse_form_spec_irrelevant; [reflexivity|].
    unfold implicit_const_value. cbn [at_form]. rewrite H.
    apply N.eqb_neq in Hc. rewrite Hc. reflexivity.
Qed.

Theorem unknown_form_rejected : forall dbg e spec bs,
  form_of_code (at_form spec) = None ->
  parse_attribute dbg e spec bs = Err EUnknownForm /\
  skip_attributes dbg e [spec] bs = Err EUnknownForm.
Proof.
  intros dbg e spec bs Hn.
  assert (Hi : at_form spec <> DW_FORM_indirect) by (intros E; rewrite E in Hn; discriminate Hn).
  split.
  - rewrite parse_is_spec by assumption. rewrite Hn. reflexivity.
  - unfold skip_attributes. cbn [skip_specs skip_form].
    rewrite get_attribute_size_unknown by assumption. cbn [N.eqb bind].
    apply N.eqb_neq in Hi. rewrite Hi. rewrite skip_var_unknown by assumption. reflexivity.
Qed.

Example unknown_form_ex : form_of_code 2 = None /\ form_of_code 45 = None /\ form_of_code 65535 = None.
Proof. repeat split; reflexivity. Qed.

Theorem allow_section_offset_is_legacy_list : forall name ver,
  allow_section_offset name ver = legacy_section_offset name ver.
Proof. exact AttrProofs.allow_section_offset_spec. Qed.

(* ------------------------------------------------------------------ *)
(* (4) normalisation by attribute name never changes the numeric payload / target — every name
       (not only the 65 536 that fit DwAt), every raw value *)

Theorem normalise_payload : forall name v,
  value_in_range v ->
  payload_of (attr_normalise name v) = payload_of v /\ value_in_range (attr_normalise name v).
Proof. exact AttrProofs.normalise_payload. Qed.

Example normalise_payload_ex :
  value_in_range (VData2 300) /\
  attr_normalise 19 (VData2 300) = VLanguage 300 /\       (* DW_AT_language *)
  attr_normalise 62 (VData2 300) = VData2 300 /\          (* DW_AT_encoding: does not fit u8, unchanged *)
  attr_normalise 56 (VSdata (-1)) = VSdata (-1) /\        (* data_member_location: negative, unchanged *)
  attr_normalise 16 (VSecOffset 9) = VDebugLineRef 9.
Proof. repeat split; reflexivity. Qed.

Example parsed_values_in_range_ex :
  let spec := mkSpec 58 DW_FORM_implicit_const (-5) in
  (-9223372036854775808 <= at_implicit spec < 9223372036854775808)%Z /\
  parse_attribute true (mkEnc 5 false 8 false) spec [x01]%byte = Ok (VSdata (-5), [x01]%byte).
Proof. cbn [at_implicit]. split; [split; [discriminate|reflexivity]|reflexivity]. Qed.

Theorem parsed_values_in_range : forall dbg e spec bs v r,
  (-9223372036854775808 <= at_implicit spec < 9223372036854775808)%Z ->
  parse_attribute dbg e spec bs = Ok (v, r) -> value_in_range v.
Proof.
  intros dbg e spec bs v r I P. apply parse_form_ok in P. destruct P as (c & bs' & P & _).
  apply parse_direct_ok in P. destruct P as (f & d & _ & _ & G & R & V).
  apply read_layout_range in R. eapply form_value_range; eauto.
Qed.

(* ------------------------------------------------------------------ *)
(* (5) sign rules of udata_value / sdata_value: DW_FORM_data<n> zero-extends for the unsigned and
       sign-extends from its own width for the signed reading; sdata -> unsigned only when >= 0;
       udata -> signed only when <= i64::MAX *)

Theorem udata_sdata : forall v,
  value_in_range v ->
  udata_value v = unsigned_reading v /\ sdata_value v = signed_reading v.
Proof. exact AttrProofs.udata_sdata. Qed.

Example udata_sdata_ex :
  sdata_value (VData1 255) = Some (-1)%Z /\ udata_value (VData1 255) = Some 255 /\
  sdata_value (VData2 32768) = Some (-32768)%Z /\ sdata_value (VData4 2147483647) = Some 2147483647%Z /\
  udata_value (VSdata (-1)) = None /\ sdata_value (VUdata 9223372036854775808) = None /\
  sdata_value (VUdata 9223372036854775807) = Some 9223372036854775807%Z.
Proof. repeat split; reflexivity. Qed.

Example udata_sdata_agree_ex :
  value_in_range (VData1 127) /\ udata_value (VData1 127) = Some 127 /\
  sdata_value (VData1 127) = Some 127%Z /\ (0 <= 127)%Z.
Proof. repeat split; try reflexivity; discriminate. Qed.

Theorem udata_sdata_agree : forall v u s,
  value_in_range v -> udata_value v = Some u -> sdata_value v = Some s -> (0 <= s)%Z -> Z.of_N u = s.
Proof.
  intros v u s R. rewrite udata_value_spec, sdata_value_spec by assumption.
  destruct v; cbn [value_in_range unsigned_reading signed_reading] in *; intros U S P; try discriminate.
  1-4: inversion U; inversion S; subst; symmetry; apply twos_nonneg; assumption.
  - destruct (Z.leb_spec 0 z); inversion U; inversion S; subst. lia.
  - destruct (n <? two63); inversion U; inversion S; subst; reflexivity.
Qed.

(* ------------------------------------------------------------------ *)
(* no_panic: no input makes reading or skipping panic (both build modes), the model's fuel always
   suffices, and the build mode does not influence any result *)

Theorem no_panic : forall dbg e spec specs bs,
  (parse_attribute dbg e spec bs <> Panic /\ parse_attribute dbg e spec bs <> OutOfFuel) /\
  (read_attributes dbg e specs bs <> Panic /\ read_attributes dbg e specs bs <> OutOfFuel) /\
  (skip_attributes dbg e specs bs <> Panic /\ skip_attributes dbg e specs bs <> OutOfFuel).
Proof. exact AttrProofs.no_panic. Qed.

Theorem build_mode_irrelevant : forall dbg e spec specs bs,
  parse_attribute dbg e spec bs = parse_attribute false e spec bs /\
  skip_attributes dbg e specs bs = skip_attributes false e specs bs.
Proof. intros. split; [apply parse_attribute_dbg|apply skip_attributes_dbg]. Qed.

(* ------------------------------------------------------------------ *)
(* the line-table variant (src/read/line.rs parse_attribute): on the forms it shares with the DIE
   reader it returns the same value and the same rest as reading a nameless attribute; data16 is
   handed out as its 16 bytes; every other code is UnknownForm; it cannot panic *)

Theorem line_parse_is_die_parse : forall dbg e f bs, In f line_forms ->
  line_parse_attribute dbg e (form_code f) bs = parse_attribute dbg e (mkSpec 0 (form_code f) 0) bs.
Proof.
  intros dbg e f bs H. unfold parse_attribute. cbn [at_form].
  rewrite parse_form_direct by (intros C; apply form_code_indirect in C; subst f; cbn in H; intuition discriminate).
  unfold line_forms in H. cbn [In] in H.
  repeat (destruct H as [<-|H]; [try reflexivity|]); try contradiction.
  (* data4, data8: a nameless attribute is never a legacy section offset *)
  all: unfold line_parse_attribute, parse_direct; cbn [form_code N.eqb Pos.eqb orb at_name];
    unfold_forms; cbn [N.eqb Pos.eqb orb];
    replace (allow_section_offset 0 (version e)) with false by reflexivity;
    rewrite andb_false_r; reflexivity.
Qed.

Example line_forms_ex : In F_strx3 line_forms /\ In F_data4 line_forms /\ ~ In F_addr line_forms.
Proof. cbn. intuition discriminate. Qed.

Theorem line_parse_other : forall dbg e c bs, existsb (N.eqb c) line_codes = false ->
  line_parse_attribute dbg e c bs = Err EUnknownForm.
Proof.
  intros dbg e c bs H. unfold line_codes, line_forms in H. cbn [map form_code existsb] in H.
  unfold line_parse_attribute. unfold_forms.
  repeat (apply orb_false_iff in H; let H1 := fresh in destruct H as [H1 H]; rewrite ?H1).
  reflexivity.
Qed.

Example line_parse_other_ex : existsb (N.eqb 1) line_codes = false /\ existsb (N.eqb 22) line_codes = false.
Proof. split; reflexivity. Qed.

Theorem line_parse_no_panic : forall dbg e c bs,
  line_parse_attribute dbg e c bs <> Panic /\ line_parse_attribute dbg e c bs <> OutOfFuel.
Proof.
  intros dbg e c bs. destruct (existsb (N.eqb c) line_codes) eqn:E.
  - apply existsb_exists in E. destruct E as (k & Hin & Hk). apply N.eqb_eq in Hk. subst k.
    unfold line_codes in Hin. apply in_map_iff in Hin. destruct Hin as (f & <- & [<-|Hf]).
    + (* DW_FORM_data16 is handed out as the 16 bytes themselves *)
      change (line_parse_attribute dbg e (form_code F_data16) bs)
        with (let* (b, r) := split_n 16 bs in Ok (VBlock b, r)).
      destruct (split_n_res bs 16) as [H1 H2].
      destruct (split_n 16 bs) as [[? ?]| | |]; cbn [bind]; split; congruence.
    + rewrite line_parse_is_die_parse by assumption. apply parse_attribute_res.
  - rewrite line_parse_other by assumption. split; discriminate.
Qed.

(* ------------------------------------------------------------------ *)
(* translator tie: the tables regenerated from the Rust source text on every run (coq/Gen/*.v,
   translate/tables.py) are the tables of the model the theorems above are about *)

Theorem translator_tie :
  (forall f, FormCodes.rust_form_code f = form_code f) /\
  (forall c e, FormSize.get_attribute_size c e = Attr.get_attribute_size c e) /\
  (forall name ver, AllowSecOffset.allow_section_offset name ver = Attr.allow_section_offset name ver) /\
  (forall name, name < 65536 -> AttrValueTable.name_convs name = Attr.name_convs name).
Proof. exact GenAgree.translator_tie. Qed.

(* statement pins *)
Check fixed_size_is_consumed : forall dbg e spec bs v r n,
  get_attribute_size (at_form spec) e = Some n -> parse_attribute dbg e spec bs = Ok (v, r) ->
  N.of_nat (length bs) = N.of_nat (length r) + n.
Check skip_eq_read : forall dbg e specs bs vs r,
  N.of_nat (length bs) < two64 -> read_attributes dbg e specs bs = Ok (vs, r) ->
  skip_attributes dbg e specs bs = Ok r.
Check normalise_payload : forall name v, value_in_range v ->
  payload_of (attr_normalise name v) = payload_of v /\ value_in_range (attr_normalise name v).
