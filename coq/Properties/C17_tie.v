(* Properties/C17_tie.v — translator tie (DESIGN §1.2 item 2) for C17: the section-identifier tables of src/common.rs and
   src/read/index.rs, regenerated into coq/Gen/SectionNames.v from the source text on every ./check run, against
   Model/IndexRd.v and Spec/LookupSpec.v.  isect_name : the Rust name of each IndexRd.isect constructor. *)
From Coq Require Import List NArith Bool String.
Require Import GV.Proofs.GenSweep GV.Model.IndexRd GV.Proofs.GenAgreeSections.
Require GV.Gen.SectionNames GV.Gen.Constants GV.Spec.LookupSpec.
Import ListNotations.
Local Open Scope string_scope.
Local Open Scope N_scope.

(* the DW_SECT_V2 column match of UnitIndex::parse regenerated from the source = IndexRd.sect_v2, EVERY column code: both test it against the same numerals in the same order *)
Theorem c17_tie_sect_v2 :
  forall n, option_map isect_name (sect_v2 n) = lookupN n SectionNames.sect_v2_table.
Proof.
  intros n. unfold sect_v2, SectionNames.sect_v2_table. cbn [lookupN].
  repeat (destruct (n =? _); [reflexivity|]). reflexivity.
Qed.

(* the DW_SECT (version 5) column match = IndexRd.sect_v5, every column code *)
Theorem c17_tie_sect_v5 :
  forall n, option_map isect_name (sect_v5 n) = lookupN n SectionNames.sect_v5_table.
Proof.
  intros n. unfold sect_v5, SectionNames.sect_v5_table. cbn [lookupN].
  repeat (destruct (n =? _); [reflexivity|]). reflexivity.
Qed.

(* ... and they are the specification's DW_SECT tables *)
Theorem c17_tie_sect_spec_tables :
  map (fun p => (fst p, code_name (snd p))) LookupSpec.DW_SECT_V2 = SectionNames.sect_v2_table /\
  map (fun p => (fst p, code_name (snd p))) LookupSpec.DW_SECT_V5 = SectionNames.sect_v5_table.
Proof. split; reflexivity. Qed.

(* every DW_SECT_V2_* / DW_SECT_* constant of constants.rs has an arm, in order *)
Theorem c17_tie_sect_values :
  map fst SectionNames.sect_v2_table = Constants.DwSectV2_values /\
  map fst SectionNames.sect_v5_table = Constants.DwSect_values.
Proof. split; reflexivity. Qed.

(* enum IndexSectionId has exactly the constructors of IndexRd.isect, in order *)
Theorem c17_tie_index_section_ids :
  SectionNames.index_section_ids = map isect_name all_isect.
Proof. reflexivity. Qed.

Theorem c17_tie_section_count_max :
  SectionNames.SECTION_COUNT_MAX = IndexRd.SECTION_COUNT_MAX.
Proof. reflexivity. Qed.

(* IndexSectionId::section_id: one arm per variant, each to the SectionId of the same name *)
Theorem c17_tie_section_id_identity :
  forallb (fun v => match sassoc v SectionNames.section_id_table with Some id => String.eqb id v && smem id SectionNames.section_ids | None => false end)
          SectionNames.index_section_ids = true /\
  sperm (map fst SectionNames.section_id_table) SectionNames.index_section_ids = true.
Proof. split; vm_compute; reflexivity. Qed.

(* IndexSectionId::dwo_name (= section_id().dwo_name().unwrap()) cannot panic *)
Theorem c17_tie_index_dwo_name_total :
  forall s, index_dwo_name (isect_name s) <> None.
Proof.
  intros s. destruct s; discriminate.
Qed.

(* SectionId::name/dwo_name/xcoff_name: total resp. partial maps on the 23 ids, injective, `.dwo` suffix rule *)
Theorem c17_tie_section_names :
  map fst SectionNames.name_table = SectionNames.section_ids /\
  snodup SectionNames.section_ids = true /\
  snodup (map snd SectionNames.name_table) = true /\
  snodup (map snd SectionNames.dwo_name_table) = true /\
  snodup (map snd SectionNames.xcoff_name_table) = true /\
  snodup (map fst SectionNames.dwo_name_table) = true /\
  snodup (map fst SectionNames.xcoff_name_table) = true /\
  forallb (fun p => smem (fst p) SectionNames.section_ids) (SectionNames.dwo_name_table ++ SectionNames.xcoff_name_table) = true /\
  forallb dwo_ok SectionNames.dwo_name_table = true.
Proof. repeat apply conj; vm_compute; reflexivity. Qed.

(* statement pins *)
Check c17_tie_sect_v2 :
  forall n, option_map isect_name (sect_v2 n) = lookupN n SectionNames.sect_v2_table.
Check c17_tie_sect_v5 :
  forall n, option_map isect_name (sect_v5 n) = lookupN n SectionNames.sect_v5_table.
Check c17_tie_sect_spec_tables :
  map (fun p => (fst p, code_name (snd p))) LookupSpec.DW_SECT_V2 = SectionNames.sect_v2_table /\
  map (fun p => (fst p, code_name (snd p))) LookupSpec.DW_SECT_V5 = SectionNames.sect_v5_table.
Check c17_tie_sect_values :
  map fst SectionNames.sect_v2_table = Constants.DwSectV2_values /\
  map fst SectionNames.sect_v5_table = Constants.DwSect_values.
Check c17_tie_index_section_ids :
  SectionNames.index_section_ids = map isect_name all_isect.
Check c17_tie_section_count_max :
  SectionNames.SECTION_COUNT_MAX = IndexRd.SECTION_COUNT_MAX.
Check c17_tie_section_id_identity :
  forallb (fun v => match sassoc v SectionNames.section_id_table with Some id => String.eqb id v && smem id SectionNames.section_ids | None => false end)
          SectionNames.index_section_ids = true /\
  sperm (map fst SectionNames.section_id_table) SectionNames.index_section_ids = true.
Check c17_tie_index_dwo_name_total :
  forall s, index_dwo_name (isect_name s) <> None.
Check c17_tie_section_names :
  map fst SectionNames.name_table = SectionNames.section_ids /\
  snodup SectionNames.section_ids = true /\
  snodup (map snd SectionNames.name_table) = true /\
  snodup (map snd SectionNames.dwo_name_table) = true /\
  snodup (map snd SectionNames.xcoff_name_table) = true /\
  snodup (map fst SectionNames.dwo_name_table) = true /\
  snodup (map fst SectionNames.xcoff_name_table) = true /\
  forallb (fun p => smem (fst p) SectionNames.section_ids) (SectionNames.dwo_name_table ++ SectionNames.xcoff_name_table) = true /\
  forallb dwo_ok SectionNames.dwo_name_table = true.
