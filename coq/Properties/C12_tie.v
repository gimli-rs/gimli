(* Properties/C12_tie.v — translator tie (DESIGN §1.2 item 2) for C12: every DW_* numeral that Model/ConvertExpr.v defines is the constant of the same
   name in /repo/src/constants.rs, regenerated into coq/Gen/Constants.v from the source text on every ./check run. *)
From Coq Require Import NArith.
Require GV.Gen.Constants GV.Model.ConvertExpr.
Local Open Scope N_scope.

(* the 29 DW_* numerals of Model/ConvertExpr.v *)
Theorem c12_tie_constants :
  Constants.DW_OP_drop = ConvertExpr.DW_OP_drop /\
  Constants.DW_OP_swap = ConvertExpr.DW_OP_swap /\
  Constants.DW_OP_rot = ConvertExpr.DW_OP_rot /\
  Constants.DW_OP_abs = ConvertExpr.DW_OP_abs /\
  Constants.DW_OP_and = ConvertExpr.DW_OP_and /\
  Constants.DW_OP_div = ConvertExpr.DW_OP_div /\
  Constants.DW_OP_minus = ConvertExpr.DW_OP_minus /\
  Constants.DW_OP_mod = ConvertExpr.DW_OP_mod /\
  Constants.DW_OP_mul = ConvertExpr.DW_OP_mul /\
  Constants.DW_OP_neg = ConvertExpr.DW_OP_neg /\
  Constants.DW_OP_not = ConvertExpr.DW_OP_not /\
  Constants.DW_OP_or = ConvertExpr.DW_OP_or /\
  Constants.DW_OP_plus = ConvertExpr.DW_OP_plus /\
  Constants.DW_OP_shl = ConvertExpr.DW_OP_shl /\
  Constants.DW_OP_shr = ConvertExpr.DW_OP_shr /\
  Constants.DW_OP_shra = ConvertExpr.DW_OP_shra /\
  Constants.DW_OP_xor = ConvertExpr.DW_OP_xor /\
  Constants.DW_OP_eq = ConvertExpr.DW_OP_eq /\
  Constants.DW_OP_ge = ConvertExpr.DW_OP_ge /\
  Constants.DW_OP_gt = ConvertExpr.DW_OP_gt /\
  Constants.DW_OP_le = ConvertExpr.DW_OP_le /\
  Constants.DW_OP_lt = ConvertExpr.DW_OP_lt /\
  Constants.DW_OP_ne = ConvertExpr.DW_OP_ne /\
  Constants.DW_OP_nop = ConvertExpr.DW_OP_nop /\
  Constants.DW_OP_push_object_address = ConvertExpr.DW_OP_push_object_address /\
  Constants.DW_OP_form_tls_address = ConvertExpr.DW_OP_form_tls_address /\
  Constants.DW_OP_call_frame_cfa = ConvertExpr.DW_OP_call_frame_cfa /\
  Constants.DW_OP_stack_value = ConvertExpr.DW_OP_stack_value /\
  Constants.DW_OP_GNU_uninit = ConvertExpr.DW_OP_GNU_uninit.
Proof. repeat split; reflexivity. Qed.

(* statement pins *)
Check c12_tie_constants :
  Constants.DW_OP_drop = ConvertExpr.DW_OP_drop /\
  Constants.DW_OP_swap = ConvertExpr.DW_OP_swap /\
  Constants.DW_OP_rot = ConvertExpr.DW_OP_rot /\
  Constants.DW_OP_abs = ConvertExpr.DW_OP_abs /\
  Constants.DW_OP_and = ConvertExpr.DW_OP_and /\
  Constants.DW_OP_div = ConvertExpr.DW_OP_div /\
  Constants.DW_OP_minus = ConvertExpr.DW_OP_minus /\
  Constants.DW_OP_mod = ConvertExpr.DW_OP_mod /\
  Constants.DW_OP_mul = ConvertExpr.DW_OP_mul /\
  Constants.DW_OP_neg = ConvertExpr.DW_OP_neg /\
  Constants.DW_OP_not = ConvertExpr.DW_OP_not /\
  Constants.DW_OP_or = ConvertExpr.DW_OP_or /\
  Constants.DW_OP_plus = ConvertExpr.DW_OP_plus /\
  Constants.DW_OP_shl = ConvertExpr.DW_OP_shl /\
  Constants.DW_OP_shr = ConvertExpr.DW_OP_shr /\
  Constants.DW_OP_shra = ConvertExpr.DW_OP_shra /\
  Constants.DW_OP_xor = ConvertExpr.DW_OP_xor /\
  Constants.DW_OP_eq = ConvertExpr.DW_OP_eq /\
  Constants.DW_OP_ge = ConvertExpr.DW_OP_ge /\
  Constants.DW_OP_gt = ConvertExpr.DW_OP_gt /\
  Constants.DW_OP_le = ConvertExpr.DW_OP_le /\
  Constants.DW_OP_lt = ConvertExpr.DW_OP_lt /\
  Constants.DW_OP_ne = ConvertExpr.DW_OP_ne /\
  Constants.DW_OP_nop = ConvertExpr.DW_OP_nop /\
  Constants.DW_OP_push_object_address = ConvertExpr.DW_OP_push_object_address /\
  Constants.DW_OP_form_tls_address = ConvertExpr.DW_OP_form_tls_address /\
  Constants.DW_OP_call_frame_cfa = ConvertExpr.DW_OP_call_frame_cfa /\
  Constants.DW_OP_stack_value = ConvertExpr.DW_OP_stack_value /\
  Constants.DW_OP_GNU_uninit = ConvertExpr.DW_OP_GNU_uninit.
