(* Properties/C17.v — Accelerated lookups and section plumbing agree with exhaustive scans.

   Theorem clauses (all about the Gallina models of Model/{IndexRd,NamesRd,ArangesRd,UnitGlue}.v, tied to gimli by
   the c17.* correspondence streams): unit-index hash probe (termination, panic freedom, = table contents),
   contribution rows, DW_SECT tables, parse of an encoded index, .debug_names bucket/hash iteration = exhaustive
   scan, DJB hash, .debug_aranges padding and tuple iteration, .debug_pubnames/.debug_pubtypes set
   concatenation, and panic freedom of every modelled reader for ALL byte strings in both build modes; then the
   per-unit glue of src/read/dwarf.rs: the fields Unit::new takes from the root entry, attr_string / attr_address
   over the string and address tables, make_dwo / copy_relocated_attributes, lookup_offset_id, dwo_name,
   unit_ranges, and their panic freedom.
   NOT theorems of this file: loader wiring (translator tie C17_tie_loader.v and impl-side enumeration), package
   unit = standalone unit (corpus), the non-ASCII case-folding table (C17_tie_casefold.v),
   get_str_offset/get_address (modelled by C08). *)
From Coq Require Import List NArith ZArith Bool Sorted Lia.
From Coq.Strings Require Import Byte.
Require Import GV.Base.Res GV.Base.Byt GV.Base.Ints GV.Model.Leb GV.Model.Prim.
Require Import GV.Spec.LookupSpec GV.Model.IndexRd GV.Model.NamesRd GV.Model.ArangesRd.
Require Import GV.Proofs.IndexRdProofs GV.Proofs.NamesRdProofs GV.Proofs.ArangesRdProofs.
Import ListNotations.
Local Open Scope N_scope.

(* `post P r`: r is neither Panic nor OutOfFuel, and satisfies P when it is Ok (errors are allowed). *)
Check @post : forall A : Type, (A -> Prop) -> res A -> Prop.

(* ================================================================== unit index (.debug_cu_index / .debug_tu_index) *)

(* (1) For ANY index record — any bytes in the hash tables, any slot count that fits the u32 field (zero and
   non powers of two included) — and any id, `find` returns normally in both build modes after at most
   slot_count probes. (The Rust loop is `for _ in 0..slot_count`; what needs proof is that none of
   `slot_count - 1`, `hash1 * 8`, `hash1 + hash2` can overflow and that no reader failure escapes.) *)
Theorem index_find_terminates : forall (dbg be : bool) (ix : unit_index) (id : N),
  ix_slot_count ix < 2 ^ 32 ->
  exists r probes, index_find_probes dbg be ix id = Ok (r, probes) /\ probes <= ix_slot_count ix.
Proof. exact index_find_probes_total. Qed.

(* ... and the same starting from ANY section bytes: parse never panics, and everything it accepts satisfies
   the bound above and the size invariants used by `sections`. *)
Theorem index_parse_no_panic : forall (dbg be : bool) (bs : list byte),
  post ix_wf (index_parse dbg be bs).
Proof. exact index_parse_post. Qed.

Theorem index_find_no_panic : forall (dbg be : bool) (ix : unit_index) (id : N),
  ix_slot_count ix < 2 ^ 32 -> exists r, index_find dbg be ix id = Ok r.
Proof. exact index_find_total. Qed.

(* (2) For a table built by inserting distinct non-zero ids along the probe sequence
   h1 = id & mask, step h2 = ((id >> 32) & mask) | 1 (any number of insertions: every load factor, the
   completely full table included; colliding hashes allowed), and for EVERY id — 0 included — find returns
   row exactly for the entries (used slots) of the table. Id 0 is the unused-slot marker: it is never an
   entry and never found (gimli 8339644; before that repair find(0) returned Some(0), see known_findings). *)
Theorem index_find_correct : forall (dbg be : bool) (k : N) (t : table) (ix : unit_index) (id row : N),
  k < 32 -> built (2 ^ k) t ->
  ix_slot_count ix = 2 ^ k ->
  ix_hash_ids ix = enc_words 8 be (map fst t) -> ix_hash_rows ix = enc_words 4 be (map snd t) ->
  (index_find dbg be ix id = Ok (Some row) <-> In (id, row) (contents t)).
Proof.
  intros dbg be k t ix id row Hk Hb Hs Hi Hr.
  destruct (built_inv _ _ Hb) as (Hl & Hp & Hrg).
  rewrite contents_spec. cbn [fst].
  destruct (N.eq_dec id 0) as [->|Hid].
  - rewrite index_find_zero. split; [discriminate|]. intros [_ H]. congruence.
  - rewrite (find_correct dbg be k t ix Hk Hl Hrg Hs Hi Hr id row Hp Hid). tauto.
Qed.

Theorem index_find_absent : forall (dbg be : bool) (k : N) (t : table) (ix : unit_index) (id : N),
  k < 32 -> built (2 ^ k) t ->
  ix_slot_count ix = 2 ^ k ->
  ix_hash_ids ix = enc_words 8 be (map fst t) -> ix_hash_rows ix = enc_words 4 be (map snd t) ->
  (forall row, ~ In (id, row) (contents t)) ->
  index_find dbg be ix id = Ok None.
Proof.
  intros dbg be k t ix id Hk Hb Hs Hi Hr Habs.
  destruct (N.eq_dec id 0) as [->|Hid]; [apply index_find_zero|].
  destruct (built_inv _ _ Hb) as (Hl & Hp & Hrg).
  apply (find_absent dbg be k t ix Hk Hl Hrg Hs Hi Hr id Hid).
  intros row Hin. apply (Habs row). apply contents_spec. split; [exact Hin|exact Hid].
Qed.

Theorem index_find_zero_none : forall (dbg be : bool) (ix : unit_index), index_find dbg be ix 0 = Ok None.
Proof. exact index_find_zero. Qed.

(* the executable construction used by the generators produces `built` tables *)
Theorem insert_all_is_built : forall (slots : N) (es : list (N * N)) (t : table),
  Forall (fun e => fst e <> 0 /\ fst e < 2 ^ 64 /\ snd e < 2 ^ 32) es -> NoDup (map fst es) ->
  insert_all slots (empty_table slots) es = Some t -> built slots t.
Proof.
  intros slots es t F ND H. eapply insert_all_built; [apply built_empty|exact F|exact ND| |exact H].
  intros e He r Hin. unfold empty_table in Hin. apply repeat_spec in Hin. inversion Hin.
  rewrite Forall_forall in F. destruct (F e He) as (Hz & _). congruence.
Qed.

(* non-vacuity: three ids with the same primary hash (1) and the same step (1) fill a 4-slot table to
   full-minus-one; every present key is found at the row stored with it, a colliding absent key is not *)
Definition ex_entries : list (N * N) := [(5, 1); (9, 2); (13, 3)].
Definition ex_table : table := [(0, 0); (5, 1); (9, 2); (13, 3)].
Example ex_table_built : built (2 ^ 2) ex_table.
Proof.
  apply (insert_all_is_built 4 ex_entries).
  - repeat constructor; cbn; try discriminate; reflexivity.
  - repeat constructor; cbn; intuition discriminate.
  - reflexivity.
Qed.
Definition ex_index (be : bool) : unit_index :=
  {| ix_version := 5; ix_section_count := 2; ix_unit_count := 3; ix_slot_count := 4;
     ix_hash_ids := enc_words 8 be (map fst ex_table); ix_hash_rows := enc_words 4 be (map snd ex_table);
     ix_sections := [SInfo; SAbbrev; SAbbrev; SAbbrev; SAbbrev; SAbbrev; SAbbrev; SAbbrev];
     ix_offsets := enc_words 4 be [0; 0; 100; 10; 300; 30]; ix_sizes := enc_words 4 be [100; 10; 200; 20; 50; 5] |}.
Example ex_find_13 : index_find_probes true true (ex_index true) 13 = Ok (Some 3, 3).
Proof. vm_compute. reflexivity. Qed.
Example ex_find_17 : index_find_probes true false (ex_index false) 17 = Ok (None, 4).
Proof. vm_compute. reflexivity. Qed.
(* slot counts that are zero or not a power of two (parse rejects the latter; find still terminates) *)
Example ex_find_slot0 : index_find true true {| ix_version := 2; ix_section_count := 0; ix_unit_count := 7;
  ix_slot_count := 0; ix_hash_ids := []; ix_hash_rows := []; ix_sections := []; ix_offsets := []; ix_sizes := [] |} 5
  = Ok None.
Proof. reflexivity. Qed.

(* the repaired behaviour on the example table, whose slot 0 is unused: id 0 is not found (before gimli
   8339644 this call returned Ok (Some 0)) *)
Example ex_find_0 : index_find true true (ex_index true) 0 = Ok None.
Proof. reflexivity. Qed.

(* every load factor is reachable: while a slot of a 2^k-slot table is unused, inserting any id succeeds,
   because the step is odd and so the probe sequence visits every slot *)
Theorem insert_reaches_every_load : forall (k : N) (t : table) (id row : N),
  length t = N.to_nat (2 ^ k) -> (exists s, s < 2 ^ k /\ slot_id t s = Some 0) ->
  exists t', insert (2 ^ k) t id row = Some t' /\ inserted (2 ^ k) t id row t'.
Proof.
  intros k t id row Hlen (s & Hs & Hz).
  assert (Hnz : 2 ^ k <> 0) by (apply N.pow_nonzero; discriminate).
  destruct (probe_surj k id s Hs) as (i & Hi & Hp).
  assert (Hall : forall s0, s0 < 2 ^ k -> exists x, slot_id t s0 = Some x).
  { intros s0 Hs0. unfold slot_id. destruct (nth_error t (N.to_nat s0)) as [[a b]|] eqn:E; [cbn; eauto|].
    apply nth_error_None in E. lia. }
  destruct (insert_at_succeeds (2 ^ k) t id row (N.to_nat (2 ^ k)) 0 Hall Hnz) as [t' Ht'].
  { exists i. repeat split; [lia|lia|rewrite Hp; exact Hz]. }
  exists t'. split; [exact Ht'|apply insert_inserted; exact Ht'].
Qed.

(* (3) contribution rows: for an index with c <= 8 declared columns and unit_count rows of encoded offsets and
   sizes, `sections row` yields, per declared column kind j, offsets[(row-1)*c + j] and sizes[(row-1)*c + j];
   row 0 and rows beyond unit_count are InvalidIndexRow. *)
Theorem index_sections_rows : forall (dbg be : bool) (ix : unit_index) (offs szs : list N) (row : N),
  ix_section_count ix <= 8 -> length (ix_sections ix) = 8%nat -> ix_unit_count ix < 2 ^ 32 ->
  ix_offsets ix = enc_words 4 be offs -> ix_sizes ix = enc_words 4 be szs ->
  length offs = (N.to_nat (ix_unit_count ix) * N.to_nat (ix_section_count ix))%nat ->
  length szs = (N.to_nat (ix_unit_count ix) * N.to_nat (ix_section_count ix))%nat ->
  Forall (fun v => v < 2 ^ 32) offs -> Forall (fun v => v < 2 ^ 32) szs ->
  index_sections dbg be ix row =
    if (row =? 0) || (ix_unit_count ix <? row) then Err EInvalidIndexRow
    else let c := N.to_nat (ix_section_count ix) in
         let k := (N.to_nat (row - 1) * c)%nat in
         Ok (combine (combine (firstn c (ix_sections ix)) (firstn c (skipn k offs)))
                     (firstn c (skipn k szs))).
Proof. exact sections_spec. Qed.

Example ex_sections_2 : index_sections true true (ex_index true) 2 = Ok [(SInfo, 100, 200); (SAbbrev, 10, 20)].
Proof. vm_compute. reflexivity. Qed.
Example ex_sections_0 : index_sections true true (ex_index true) 0 = Err EInvalidIndexRow.
Proof. reflexivity. Qed.
Example ex_sections_4 : index_sections false false (ex_index false) 4 = Err EInvalidIndexRow.
Proof. reflexivity. Qed.

Theorem index_sections_no_panic : forall (dbg be : bool) (ix : unit_index) (row : N) (seclen : isect -> N),
  ix_wf ix ->
  post (fun _ => True) (index_sections dbg be ix row) /\ post (fun _ => True) (pkg_sections dbg be ix row seclen).
Proof.
  intros dbg be ix row seclen H. split; [apply index_sections_post; exact H|].
  unfold pkg_sections. eapply Lib.post_bind; [apply index_sections_post; exact H|]. intros; apply pkg_ranges_post.
Qed.

(* the column-kind tables of both index versions are the DW_SECT tables (DWARF 5 table 7.1 / GNU v2);
   the tie of the numbers to /repo/src/constants.rs is the c17.index stream (every code 0..300) *)
Theorem index_column_kinds : forall n : N,
  sect_v2 n = match assoc n DW_SECT_V2 with Some c => kind_of_code c | None => None end /\
  sect_v5 n = match assoc n DW_SECT_V5 with Some c => kind_of_code c | None => None end.
Proof.
  intros n. unfold sect_v2, sect_v5, DW_SECT_V2, DW_SECT_V5, assoc. rewrite !(N.eqb_sym _ n).
  split; repeat (match goal with |- context [n =? ?c] => destruct (n =? c) end; [reflexivity|]); reflexivity.
Qed.

(* Section::dwp_range off size = bytes [off, off+size) or an error *)
Theorem dwp_range_spec : forall (o z : N) (bs : list byte),
  post (fun r => r = firstn (N.to_nat z) (skipn (N.to_nat o) bs) /\ o + z <= blen bs) (dwp_range o z bs).
Proof.
  intros o z bs.
  unfold dwp_range. eapply Lib.post_bind; [apply post_rd_skip|]. intros d _ (-> & Ho).
  unfold rd_truncate. destruct (blen (skipn (N.to_nat o) bs) <? z) eqn:E; [exact I|].
  cbn. split; [reflexivity|]. unfold blen in *. rewrite skipn_length in E. lia.
Qed.

(* parse of the encoding of a well-formed index description (followed by anything) is that description *)
Theorem index_parse_encoded : forall (dbg be : bool) (d : index_desc) (trailing : list byte),
  desc_wf d -> index_parse dbg be (enc_index be d ++ trailing) = Ok (index_of_desc be d).
Proof. exact IndexRdProofs.index_parse_encoded. Qed.

(* end to end: bytes -> parse -> find = contents of the table that was encoded *)
Theorem index_lookup_encoded : forall (dbg be : bool) (k : N) (d : index_desc) (trailing : list byte) (id row : N),
  desc_wf d -> k < 32 -> N.of_nat (length (d_slots d)) = 2 ^ k -> built (2 ^ k) (d_slots d) ->
  exists ix, index_parse dbg be (enc_index be d ++ trailing) = Ok ix /\
             (index_find dbg be ix id = Ok (Some row) <-> In (id, row) (contents (d_slots d))).
Proof.
  intros dbg be k d trailing id row Hwf Hk Hs Hb. exists (index_of_desc be d).
  split; [apply IndexRdProofs.index_parse_encoded; exact Hwf|].
  apply (index_find_correct dbg be k (d_slots d)); try assumption; reflexivity.
Qed.

Definition ex_desc : index_desc :=
  {| d_v2 := false; d_pad := 0; d_cols := [1; 3]; d_unit_count := 3; d_slots := ex_table;
     d_offsets := [0; 0; 100; 10; 300; 30]; d_sizes := [100; 10; 200; 20; 50; 5] |}.
Example ex_desc_wf : desc_wf ex_desc.
Proof.
  unfold desc_wf, ex_desc. cbn [d_slots d_cols d_unit_count d_pad d_v2 d_offsets d_sizes length].
  split; [discriminate|]. split; [reflexivity|]. split; [reflexivity|]. split; [reflexivity|].
  split; [right; split; [exists 2; reflexivity|reflexivity]|].
  split.
  { intros x Hx. cbn in Hx. intuition (subst; cbn; split; reflexivity). }
  split; [repeat constructor; cbn; discriminate|].
  split; [reflexivity|]. split; [reflexivity|].
  split; repeat constructor.
Qed.

(* ================================================================== .debug_names *)

(* (4) For a name index whose bucket and hash arrays follow DWARF 5 §6.1.1.4.5 (bucket b holds the 1-based
   index of the first name of the bucket, names of one bucket are adjacent), iterating a bucket yields exactly
   the (index, hash) pairs with hash mod bucket_count = b, and find_by_hash h yields exactly the indexes i with
   hash[i] = h, in increasing order; both end with Ok(None). *)
Theorem names_by_bucket : forall (dbg be : bool) (ix : name_index) (hs : list N) (b : N),
  names_wf be ix hs -> b < ni_bucket_count ix ->
  ni_find_by_bucket dbg be ix b =
    Ok (match bucket_members (ni_bucket_count ix) b 0 hs with [] => None | l => Some (l, SDone) end).
Proof. exact find_by_bucket_wf. Qed.

Theorem names_by_hash : forall (dbg be : bool) (ix : name_index) (hs : list N) (h : N),
  names_wf be ix hs -> ni_find_by_hash dbg be ix h = Ok (positions h 0 hs, SDone).
Proof. exact find_by_hash_wf. Qed.

(* `positions` is the exhaustive scan: k is listed iff the k-th hash is h; the list is strictly increasing *)
Theorem positions_is_scan : forall (h : N) (hs : list N) (k : N),
  (In k (positions h 0 hs) <-> nth_error hs (N.to_nat k) = Some h) /\ StronglySorted N.lt (positions h 0 hs).
Proof.
  intros h hs k. split.
  - rewrite (positions_spec h hs 0 k). split.
    + intros (j & H & ->). rewrite N.add_0_l, Nat2N.id. exact H.
    + intros H. exists (N.to_nat k). rewrite N2Nat.id. split; [exact H|reflexivity].
  - apply positions_sorted.
Qed.

(* names_bucket_terminates: for ANY parsed index (any bytes in the bucket and hash arrays, any counts, bucket
   count zero included) bucket iteration and hash lookup end without panic — in particular without the
   division by zero of `hash % bucket_count` — and yield at most name_count items *)
Theorem names_bucket_terminates : forall (dbg be : bool) (ix : name_index) (b : N),
  ni_wf ix -> b < 2 ^ 32 ->
  post (fun o => match o with
                 | None => True
                 | Some (items, st) => st <> SPanic /\ st <> SFuel /\ N.of_nat (length items) <= ni_name_count ix
                 end) (ni_find_by_bucket dbg be ix b).
Proof.
  intros dbg be ix b Hwf Hb. unfold ni_find_by_bucket.
  eapply Lib.post_bind; [apply (post_bucket_iter_new dbg be ix b Hwf Hb)|].
  intros [[reader idx]|] _ E0; [|exact I]. cbn [Lib.post].
  destruct Hwf as (_ & _ & _ & Hbc & Hnc & _).
  pose proof (bucket_loop_total dbg be (ni_bucket_count ix) b (ni_name_count ix) (S (length reader)) reader
                idx E0 Hnc ltac:(lia)) as T.
  destruct (bucket_loop dbg be (S (length reader)) reader idx (ni_name_count ix) b (ni_bucket_count ix))
    as [items st].
  destruct T as (T1 & T2 & T3). repeat split; try assumption. lia.
Qed.

Theorem names_hash_terminates : forall (dbg be : bool) (ix : name_index) (h : N),
  ni_wf ix -> h < 2 ^ 32 ->
  post (fun p => snd p <> SPanic /\ snd p <> SFuel /\ N.of_nat (length (fst p)) <= ni_name_count ix)
       (ni_find_by_hash dbg be ix h).
Proof.
  intros dbg be ix h Hwf Hh. unfold ni_find_by_hash.
  set (b := if ni_bucket_count ix =? 0 then 0 else h mod ni_bucket_count ix).
  assert (Hb : b < 2 ^ 32).
  { unfold b. destruct (ni_bucket_count ix =? 0) eqn:E; [reflexivity|].
    destruct Hwf as (_ & _ & _ & Hbc & _).
    pose proof (N.mod_lt h (ni_bucket_count ix) ltac:(lia)). lia. }
  eapply Lib.post_bind; [apply (names_bucket_terminates dbg be ix b Hwf Hb)|].
  intros [[items st]|] _ P; cbn [Lib.post fst snd].
  - destruct P as (P1 & P2 & P3). repeat split; try assumption.
    rewrite map_length. pose proof (filter_len_le (fun p : N * N => snd p =? h) items). lia.
  - repeat split; try discriminate. cbn. lia.
Qed.

(* bucket_count = 0 behaves as coded: there is no hash table and the lookups fail with UnexpectedEof *)
Theorem names_no_hash_table : forall (dbg be : bool) (ix : name_index) (h : N),
  ni_bucket_count ix = 0 -> ni_buckets ix = [] ->
  ni_find_by_hash dbg be ix h = Err EUnexpectedEof /\ ni_find_by_bucket dbg be ix 0 = Err EUnexpectedEof.
Proof.
  intros dbg be ix h H0 Hb. unfold ni_find_by_hash. rewrite H0. change (0 =? 0) with true. cbv iota.
  assert (E : ni_find_by_bucket dbg be ix 0 = Err EUnexpectedEof).
  { unfold ni_find_by_bucket, bucket_iter_new. rewrite Hb. reflexivity. }
  rewrite E. split; reflexivity.
Qed.

(* non-vacuity: four names, three buckets, hashes grouped by bucket but not sorted by it (2,2,2,0) *)
Definition ex_hashes : list N := [2; 5; 8; 3].
Definition ex_names (be : bool) : name_index :=
  {| ni_fmt64 := false; ni_cu_count := 1; ni_ltu_count := 0; ni_ftu_count := 0; ni_bucket_count := 3;
     ni_name_count := 4; ni_cu_list := enc_words 4 be [0]; ni_ltu_list := []; ni_ftu_list := [];
     ni_buckets := enc_words 4 be (build_buckets 3 ex_hashes); ni_hashes := enc_words 4 be ex_hashes;
     ni_names := enc_words 4 be [0; 0; 0; 0]; ni_entry_offsets := enc_words 4 be [0; 0; 0; 0];
     ni_pool := []; ni_abbrevs := [] |}.
Example ex_names_wf : names_wf true (ex_names true) ex_hashes.
Proof.
  unfold names_wf, ex_names. cbn [ni_bucket_count ni_buckets ni_hashes ni_name_count].
  repeat split; try reflexivity.
  - repeat constructor.
  - cbn. intros x [H|[]]. subst. discriminate.
  - cbn. intros x [H|[]]. subst. discriminate.
  - cbn. intros x [H|[]]. subst. discriminate.
  - cbn. tauto.
Qed.
Example ex_names_hash5 : ni_find_by_hash true true (ex_names true) 5 = Ok ([1], SDone).
Proof. vm_compute. reflexivity. Qed.
Example ex_names_bucket2 : ni_find_by_bucket true true (ex_names true) 2 = Ok (Some ([(0, 2); (1, 5); (2, 8)], SDone)).
Proof. vm_compute. reflexivity. Qed.

(* names_layout: NameIndex::new slices CU list / local TU list / foreign TU list / buckets / hashes /
   string offsets / entry offsets / abbreviations / entry pool at the §6.1.1.2 sizes *)
Theorem names_layout : forall (dbg : bool) (h : name_header)
    (cu ltu ftu bk hsh nm eo ab pool : list byte) (abbrevs : list nabbrev),
  nh_wf h ->
  nh_content h = cu ++ ltu ++ ftu ++ bk ++ hsh ++ nm ++ eo ++ ab ++ pool ->
  blen cu = nh_cu_count h * word_size (nh_fmt64 h) ->
  blen ltu = nh_ltu_count h * word_size (nh_fmt64 h) ->
  blen ftu = nh_ftu_count h * 8 ->
  blen bk = nh_bucket_count h * 4 ->
  blen hsh = (if nh_bucket_count h =? 0 then 0 else nh_name_count h * 4) ->
  blen nm = nh_name_count h * word_size (nh_fmt64 h) ->
  blen eo = nh_name_count h * word_size (nh_fmt64 h) ->
  blen ab = nh_abbrev_size h ->
  name_abbrevs dbg ab = Ok abbrevs ->
  name_index_new dbg h =
    Ok {| ni_fmt64 := nh_fmt64 h; ni_cu_count := nh_cu_count h; ni_ltu_count := nh_ltu_count h;
          ni_ftu_count := nh_ftu_count h; ni_bucket_count := nh_bucket_count h;
          ni_name_count := nh_name_count h;
          ni_cu_list := cu; ni_ltu_list := ltu; ni_ftu_list := ftu; ni_buckets := bk; ni_hashes := hsh;
          ni_names := nm; ni_entry_offsets := eo; ni_pool := pool; ni_abbrevs := abbrevs |}.
Proof. exact NamesRdProofs.names_layout. Qed.

(* the header of an encoded name index (augmentation string padded to 4 bytes) *)
Theorem names_header : forall (dbg be : bool) (off : N) (d : names_desc) (rest : list byte),
  names_desc_wf d ->
  blen (enc_names_body be d) < (if n_fmt64 d then 2 ^ 64 else 4294967280) ->
  name_header_parse dbg be off (enc_names be d ++ rest) =
    Ok ({| nh_offset := off; nh_length := blen (enc_names_body be d); nh_fmt64 := n_fmt64 d; nh_version := 5;
           nh_cu_count := N.of_nat (length (n_cus d)); nh_ltu_count := N.of_nat (length (n_ltus d));
           nh_ftu_count := N.of_nat (length (n_ftus d)); nh_bucket_count := N.of_nat (length (n_buckets d));
           nh_name_count := n_name_count d; nh_abbrev_size := N.of_nat (length (n_abbrev d));
           nh_aug := (match n_aug d with [] => None | _ => Some (n_aug d) end);
           nh_content := names_content be d |}, rest).
Proof. exact names_header_encoded. Qed.

(* end to end: the bytes of a name index whose bucket array is built from its grouped hashes parse to an
   index on which find_by_hash is the exhaustive scan of the hash array and find_by_bucket the bucket's names *)
Theorem names_lookup_encoded : forall (dbg be : bool) (off : N) (d : names_desc) (rest : list byte)
    (abbrevs : list nabbrev),
  names_desc_wf d ->
  blen (enc_names_body be d) < (if n_fmt64 d then 2 ^ 64 else 4294967280) ->
  let bc := N.of_nat (length (n_buckets d)) in
  0 < bc -> n_buckets d = build_buckets bc (n_hashes d) -> grouped bc (n_hashes d) ->
  n_name_count d = N.of_nat (length (n_hashes d)) ->
  length (n_stroffs d) = length (n_hashes d) -> length (n_entryoffs d) = length (n_hashes d) ->
  Forall (fun v => v < 2 ^ 32) (n_hashes d) ->
  name_abbrevs dbg (n_abbrev d) = Ok abbrevs ->
  exists h ix,
    name_header_parse dbg be off (enc_names be d ++ rest) = Ok (h, rest) /\
    name_index_new dbg h = Ok ix /\
    (forall hash, ni_find_by_hash dbg be ix hash = Ok (positions hash 0 (n_hashes d), SDone)) /\
    (forall b, b < bc ->
       ni_find_by_bucket dbg be ix b =
         Ok (match bucket_members bc b 0 (n_hashes d) with [] => None | l => Some (l, SDone) end)).
Proof. exact NamesRdProofs.names_lookup_encoded. Qed.

(* names_entry: abbreviation table and entry pool. The table parsed from the encoding of a list of
   abbreviations (ended by its end or by a zero code) is that list; an encoded entry parses to its code, the
   tag and attribute list of its abbreviation (forms data1/2/4/8, udata, ref1/2/4/8, ref_udata, flag,
   flag_present) with its pool offset; a series ends at the zero code *)
Theorem names_abbrevs : forall (dbg : bool) (l : list nabbrev) (tail : list byte),
  (tail = [] \/ exists junk, tail = x00 :: junk) -> Forall abbrev_ok l ->
  name_abbrevs dbg (enc_abbrevs l ++ tail) = Ok l.
Proof.
  intros dbg l tail Ht F. unfold name_abbrevs. apply nabbrevs_parse_enc; [exact Ht|exact F|].
  rewrite app_length. pose proof (enc_abbrevs_length l). lia.
Qed.

Theorem names_entry : forall (dbg be : bool) (abbrevs : list nabbrev) (a : nabbrev) (off code : N)
    (attrs : list nattr) (rest : list byte),
  code <> 0 -> code < 2 ^ 64 -> nabbrev_get code abbrevs = Some a ->
  na_attrs a = map spec_of attrs -> Forall (fun x => nval_ok (at_form x) (at_value x)) attrs ->
  nentry_parse dbg be abbrevs off (enc_nentry be code attrs ++ rest) =
    Ok (Some {| ne_offset := off; ne_code := code; ne_tag := na_tag a; ne_attrs := attrs |}, rest).
Proof. exact nentry_parse_encoded. Qed.

Theorem names_entry_series : forall (dbg be : bool) (abbrevs : list nabbrev) (end_offset : N) (junk : list byte)
    (es : list (N * list nattr)) (fuel : nat),
  Forall (entry_ok abbrevs) es -> (length es < fuel)%nat ->
  blen (series_bytes be es ++ x00 :: junk) <= end_offset ->
  nentries_loop dbg be fuel abbrevs end_offset (series_bytes be es ++ x00 :: junk)
  = (series_entries be abbrevs end_offset es (x00 :: junk), SDone).
Proof. intros. apply nentries_encoded; assumption. Qed.

Definition ex_abbrevs : list nabbrev :=
  [ {| na_code := 1; na_tag := 46; na_attrs := [(3, 19); (4, 25)] |};
    {| na_code := 2; na_tag := 19; na_attrs := [(1, 11); (2, 15); (3, 19); (4, 19); (5, 7)] |} ].
Example ex_abbrevs_ok : Forall abbrev_ok ex_abbrevs.
Proof. repeat constructor; cbn; try discriminate; reflexivity. Qed.
Example ex_abbrevs_parse : name_abbrevs true (enc_abbrevs ex_abbrevs ++ [x00]) = Ok ex_abbrevs.
Proof. vm_compute. reflexivity. Qed.
Definition ex_series : list (N * list nattr) :=
  [ (1, [ {| at_name := 3; at_form := 19; at_value := NVOffset 77 |};
          {| at_name := 4; at_form := 25; at_value := NVFlag true |} ]);
    (2, [ {| at_name := 1; at_form := 11; at_value := NVUnsigned 0 |};
          {| at_name := 2; at_form := 15; at_value := NVUnsigned 300 |};
          {| at_name := 3; at_form := 19; at_value := NVOffset 99 |};
          {| at_name := 4; at_form := 19; at_value := NVOffset 0 |};
          {| at_name := 5; at_form := 7; at_value := NVUnsigned 18446744073709551615 |} ]) ].
Ltac nv := first [ reflexivity | split; reflexivity | left; nv | right; nv ].
Example ex_series_ok : Forall (entry_ok ex_abbrevs) ex_series.
Proof.
  constructor; [|constructor; [|constructor]]; unfold entry_ok; cbn [fst snd].
  - split; [discriminate|]. split; [reflexivity|]. split; [eexists; split; reflexivity|].
    repeat (constructor; [cbn; nv|]). constructor.
  - split; [discriminate|]. split; [reflexivity|]. split; [eexists; split; reflexivity|].
    repeat (constructor; [cbn; nv|]). constructor.
Qed.
Example ex_series_parse :
  map ne_offset (fst (nentries_loop true false 5 ex_abbrevs 27 (series_bytes false ex_series ++ [x00; x09])))
  = [0; 5].
Proof. vm_compute. reflexivity. Qed.

(* every reader of the name index, for ALL byte strings and both build modes: the header iterator ends
   without panic; NameIndex::new never panics and slices the sections at the §6.1.1.2 sizes; entry series,
   single entries and the attribute accessors never panic *)
Theorem names_headers_no_panic : forall (dbg be : bool) (bs : list byte),
  let '(hs, st) := name_headers dbg be bs in st <> SPanic /\ st <> SFuel /\ Forall nh_wf hs.
Proof.
  intros dbg be bs.
  unfold name_headers. apply name_headers_loop_total; [lia|lia].
Qed.

Theorem names_index_new_no_panic : forall (dbg : bool) (h : name_header),
  nh_wf h -> post ni_wf (name_index_new dbg h).
Proof. exact post_name_index_new. Qed.

Theorem names_entries_no_panic : forall (dbg be : bool) (ix : name_index) (i off : N) (e : nentry),
  i < 2 ^ 32 ->
  post (fun p => snd p <> SPanic /\ snd p <> SFuel) (ni_name_entries dbg be ix i) /\
  post (fun _ => True) (ni_name_entry dbg be ix off) /\
  post (fun _ => True) (ne_compile_unit dbg be ix e) /\ post (fun _ => True) (ne_type_unit dbg be ix e) /\
  post (fun _ => True) (ne_die_offset e) /\ post (fun _ => True) (ne_parent e) /\
  post (fun _ => True) (ne_type_hash e).
Proof.
  intros dbg be ix i off e Hi. split; [apply name_entries_total; exact Hi|].
  split; [apply name_entry_total|]. apply entry_accessors_total.
Qed.

(* type-unit index split: indexes below local_type_unit_count select the local list (an offset), the
   following foreign_type_unit_count indexes the foreign list (a signature), anything beyond is an error *)
Theorem names_type_unit_split : forall (dbg be : bool) (ix : name_index) (ltus ftus : list N),
  ni_ltu_list ix = concat (map (enc_word (ni_fmt64 ix) be) ltus) ->
  ni_ftu_list ix = enc_words 8 be ftus ->
  ni_ltu_count ix = N.of_nat (length ltus) -> ni_ftu_count ix = N.of_nat (length ftus) ->
  N.of_nat (length ltus) + N.of_nat (length ftus) < 2 ^ 32 ->
  Forall (fun v => v < (if ni_fmt64 ix then 2 ^ 64 else 2 ^ 32)) ltus -> Forall (fun v => v < 2 ^ 64) ftus ->
  forall i : nat, N.of_nat i < 2 ^ 32 ->
    ni_type_unit dbg be ix (N.of_nat i) =
      match nth_error ltus i with
      | Some off => Ok (inl off)
      | None => match nth_error ftus (i - length ltus) with
                | Some sig => Ok (inr sig)
                | None => Err EUnexpectedEof
                end
      end.
Proof. exact type_unit_split. Qed.

(* type_unit_count = local + foreign (DESIGN §8 suspect S3): the u32 addition cannot overflow unless the two
   type-unit lists together occupy 16 GiB; on the bare record (no such size bound) it does overflow *)
Theorem names_type_unit_count : forall (dbg : bool) (ix : name_index),
  ni_wf ix -> blen (ni_ltu_list ix) + blen (ni_ftu_list ix) < 2 ^ 34 ->
  ni_type_unit_count dbg ix = Ok (ni_ltu_count ix + ni_ftu_count ix).
Proof.
  intros dbg ix (_ & _ & _ & _ & _ & _ & Hl & Hf & _) Hsz. unfold ni_type_unit_count.
  apply Lib.chk_add_ok. rewrite Hl, Hf in Hsz.
  change (2 ^ 34) with 17179869184 in Hsz. change (2 ^ 32) with 4294967296.
  destruct (ni_fmt64 ix); cbn [word_size] in Hsz; lia.
Qed.
Theorem names_type_unit_count_refuted :
  exists ix, ni_type_unit_count true ix = Panic /\ ni_type_unit_count false ix = Ok 0.
Proof.
  exists {| ni_fmt64 := false; ni_cu_count := 0; ni_ltu_count := 4294967295; ni_ftu_count := 1;
            ni_bucket_count := 0; ni_name_count := 0; ni_cu_list := []; ni_ltu_list := [];
            ni_ftu_list := []; ni_buckets := []; ni_hashes := []; ni_names := [];
            ni_entry_offsets := []; ni_pool := []; ni_abbrevs := [] |}.
  split; reflexivity.
Qed.

(* (5) case_folding_djb_hash on ASCII input is the DJB hash of DWARF 5 §7.33 over the lower-cased bytes:
   ((...((5381*33 + b0)*33 + b1)...)*33 + bn) mod 2^32, computed without intermediate truncation *)
Theorem djb_hash : forall s : list byte, djb_hash_ascii s = djb_spec s.
Proof.
  intros s.
  unfold djb_hash_ascii, djb_spec. apply djb_fold; [reflexivity|reflexivity].
Qed.
Example djb_empty : djb_hash_ascii [] = 5381. Proof. reflexivity. Qed.
Example djb_main_MAIN : djb_hash_ascii [x6d; x61; x69; x6e] = 2090499946 /\ djb_hash_ascii [x4d; x41; x49; x4e] = 2090499946.
Proof. split; vm_compute; reflexivity. Qed.

(* ================================================================== .debug_aranges *)

(* (6) header padding: the first tuple starts at a multiple of 2*address_size from the start of the set *)
Theorem aranges_padding : forall (f64 : bool) (s : N), valid_asz s ->
  (arange_header_len f64 + arange_padding f64 s) mod (2 * s) = 0 /\ arange_padding f64 s < 2 * s.
Proof.
  intros f64 s.
  intros [->|[->|[->| ->]]]; destruct f64; vm_compute; split; reflexivity.
Qed.

(* the header of an encoded set parses to its fields and to the tuple bytes after the padding *)
Theorem aranges_header : forall (dbg be : bool) (off : N) (d : arange_desc) (rest : list byte),
  arange_desc_wf d ->
  blen (enc_arange_body be d) < (if a_fmt64 d then 2 ^ 64 else 4294967280) ->
  arange_header_parse dbg be off (enc_arange_set be d ++ rest) =
    Ok ({| ah_offset := off; ah_length := blen (enc_arange_body be d); ah_fmt64 := a_fmt64 d;
           ah_version := a_version d; ah_info_offset := a_info_offset d; ah_addr_size := a_addr_size d;
           ah_entries := concat (map (enc_tuple (a_addr_size d) be) (a_tuples d)) ++ a_tail d |}, rest).
Proof. exact arange_header_encoded. Qed.

(* tuple iteration = the encoded tuples minus (0,0) minus begin >= tombstone (2^(8s) - 2), each with
   end = begin + length; an end beyond the address size stops the iteration with AddressOverflow; a trailing
   fragment shorter than a tuple is ignored *)
Theorem aranges_entries : forall (dbg be : bool) (s : N) (tail : list byte) (ts : list (N * N)) (fuel : nat),
  valid_asz s -> blen tail < 2 * s ->
  Forall (fun t => fst t < 2 ^ (8 * s) /\ snd t < 2 ^ (8 * s)) ts -> (length ts < fuel)%nat ->
  arange_entries_loop dbg be fuel s (concat (map (enc_tuple s be) ts) ++ tail)
  = (fst (arange_meaning s ts), stop_of_err (snd (arange_meaning s ts))).
Proof. intros dbg be s tail ts fuel Hv Ht F Hf. exact (arange_entries_encoded dbg be s tail Hv Ht ts fuel F Hf). Qed.

Example ex_arange_meaning :
  arange_meaning 4 [(16, 4); (0, 0); (4294967295, 0); (4294967294, 1); (0, 8); (4294967000, 1000); (7, 7)]
  = ([(16, 4, 20); (0, 8, 8)], Some EAddressOverflow).
Proof. reflexivity. Qed.
Example ex_arange_entries :
  arange_entries_loop true true 9 4
    (concat (map (enc_tuple 4 true) [(16, 4); (0, 0); (4294967295, 0); (0, 8)]) ++ [x00; x00; x00])
  = ([(16, 4, 20); (0, 8, 8)], SDone).
Proof. vm_compute. reflexivity. Qed.

(* for ANY section bytes (shorter than 2^64): header iteration ends without panic and every set's entry
   iterations (converted and raw) end without panic, both build modes *)
Theorem aranges_no_panic : forall (dbg be : bool) (bs : list byte),
  blen bs < 2 ^ 64 ->
  let '(hs, st) := arange_headers dbg be bs in
  st <> SPanic /\ st <> SFuel /\
  Forall (fun h => snd (arange_entries dbg be h) <> SPanic /\ snd (arange_entries dbg be h) <> SFuel /\
                   snd (arange_raw_entries dbg be h) <> SPanic /\ snd (arange_raw_entries dbg be h) <> SFuel) hs.
Proof.
  intros dbg be bs Hb. unfold arange_headers.
  pose proof (arange_headers_loop_total dbg be (blen bs) Hb (S (length bs)) bs 0 ltac:(lia) ltac:(lia)) as T.
  destruct (arange_headers_loop dbg be (S (length bs)) 0 bs) as [hs st].
  destruct T as (T1 & T2 & T3). repeat split; try assumption.
  eapply Forall_impl; [|exact T3]. intros h Hv. cbv beta in Hv |- *.
  unfold arange_entries, arange_raw_entries.
  pose proof (arange_entries_loop_total dbg be (ah_addr_size h) Hv (S (length (ah_entries h))) (ah_entries h) ltac:(lia)) as E1.
  pose proof (arange_raw_loop_total dbg be (ah_addr_size h) Hv (S (length (ah_entries h))) (ah_entries h) ltac:(lia)) as E2.
  destruct (arange_entries_loop dbg be (S (length (ah_entries h))) (ah_addr_size h) (ah_entries h)) as [es st1].
  destruct (arange_raw_loop dbg be (S (length (ah_entries h))) (ah_addr_size h) (ah_entries h)) as [rs st2].
  cbn in E1, E2. cbn [snd]. tauto.
Qed.

(* ================================================================== .debug_pubnames / .debug_pubtypes *)

(* pubstuff: iterating a section made of several sets yields the concatenation, set by set, of the encoded
   (die_offset, name) pairs, each with its set's unit offset; a set ends at its end or at a zero offset
   (whatever follows the zero inside the set is skipped) *)
Theorem pubstuff : forall (be : bool) (ds : list pub_desc),
  Forall (pub_desc_wf be) ds ->
  pub_items be (concat (map (enc_pub_set be) ds))
  = (concat (map (fun d => map (pub_entry_of d) (p_entries d)) ds), SDone).
Proof.
  intros be ds F. unfold pub_items.
  set (bs := concat (map (enc_pub_set be) ds)).
  assert (Hc : (pub_cost ds <= length bs)%nat) by apply pub_cost_le.
  rewrite pub_loop_next.
  replace (S (length bs)) with (pub_cost ds + (S (length bs) - pub_cost ds))%nat by lia.
  apply pub_sets_encoded. exact F.
Qed.

Theorem pubstuff_no_panic : forall (be : bool) (bs : list byte),
  let '(es, st) := pub_items be bs in st <> SPanic /\ st <> SFuel.
Proof.
  intros be bs.
  unfold pub_items. apply pub_loop_total. unfold pub_measure. lia.
Qed.

Definition ex_pub1 : pub_desc :=
  {| p_fmt64 := false; p_version := 2; p_unit_offset := 11; p_unit_length := 99;
     p_entries := [(42, [x6d; x61; x69; x6e]); (50, [])];
     p_tail := [x00; x00; x00; x00; x77; x00; x00; x00; x62; x00] |}.   (* zero offset, then junk *)
Definition ex_pub2 : pub_desc :=
  {| p_fmt64 := true; p_version := 2; p_unit_offset := 200; p_unit_length := 5;
     p_entries := [(7, [x66])]; p_tail := [] |}.                         (* no terminator *)
Example ex_pub_wf : Forall (pub_desc_wf false) [ex_pub1; ex_pub2].
Proof.
  constructor; [|constructor; [|constructor]].
  - unfold pub_desc_wf. split; [reflexivity|]. split; [reflexivity|]. split; [reflexivity|].
    split; [repeat constructor; cbn; try discriminate; try reflexivity|].
    split; [right; exists [x77; x00; x00; x00; x62; x00]; reflexivity|]. vm_compute. reflexivity.
  - unfold pub_desc_wf. split; [reflexivity|]. split; [reflexivity|]. split; [reflexivity|].
    split; [repeat constructor; cbn; try discriminate; try reflexivity|].
    split; [left; reflexivity|]. vm_compute. reflexivity.
Qed.
Example ex_pub_items :
  fst (pub_items false (concat (map (enc_pub_set false) [ex_pub1; ex_pub2])))
  = [ {| pe_die_offset := 42; pe_name := [x6d; x61; x69; x6e]; pe_unit_offset := 11 |};
      {| pe_die_offset := 50; pe_name := []; pe_unit_offset := 11 |};
      {| pe_die_offset := 7; pe_name := [x66]; pe_unit_offset := 200 |} ].
Proof. vm_compute. reflexivity. Qed.

(* ================================================================== pins *)
Check index_find_terminates. Check index_parse_no_panic. Check index_find_correct. Check index_find_absent.
Check index_sections_rows. Check index_column_kinds. Check index_parse_encoded. Check index_lookup_encoded.
Check names_by_bucket. Check names_by_hash. Check positions_is_scan. Check names_bucket_terminates.
Check names_no_hash_table. Check names_layout. Check names_header. Check names_lookup_encoded.
Check names_type_unit_split. Check names_abbrevs. Check names_entry. Check names_entry_series. Check index_find_zero_none. Check insert_reaches_every_load. Check names_type_unit_count. Check djb_hash.
Check aranges_padding. Check aranges_header. Check aranges_entries. Check aranges_no_panic.
Check pubstuff. Check pubstuff_no_panic.

(* ================================================================== section plumbing: the glue of src/read/dwarf.rs
   Model/UnitGlue.v (Unit::new_with_abbreviations, attr_string, attr_address, make_dwo, copy_relocated_attributes, ...)
   tied to gimli by the stream c17.unitglue; Spec/UnitGlueSpec.v says what the root DIE denotes. *)
Require Import GV.Spec.FormSpec GV.Model.Attr GV.Spec.Forest GV.Model.AbbrevRd GV.Model.DieRd GV.Spec.ListSpec.
Require Import GV.Spec.UnitGlueSpec GV.Model.UnitGlue GV.Proofs.UnitGlueProofs.
Require GV.Model.ListsRd GV.Proofs.ListsRdProofs GV.Proofs.NavProofs.

(* unit_fields_of_root: for EVERY attribute list of the root entry — any order, duplicates, any forms, any names —
   the loop of Unit::new_with_abbreviations ends with exactly the choice of the specification: name / comp_dir /
   low_pc = the LAST attribute of that name (whatever its class); stmt_list and each base = the LAST attribute with
   a designated name whose value has the right class (an attribute of the right name and wrong class changes
   nothing), else the implicit base of the file type; dwo id = the header's for DWARF 5 skeleton / split units,
   else the FIRST constant DW_AT_GNU_dwo_id. *)
Theorem unit_fields_of_root : forall (d : dwarf) (h : unit_header) (attrs : list rattr),
  fold_left scan_step attrs (scan_init d h) = scan_spec d h attrs.
Proof. exact scan_is_choice. Qed.

(* unit_new_fields: every field of the Unit returned by Unit::new_with_abbreviations. Name, comp_dir and low_pc are
   attr_string / attr_address of the chosen attribute evaluated on the FINISHED unit: an indexed form sees the
   str_offsets_base / addr_base of the unit wherever in the attribute list the base was given (no order
   dependence); a name that does not resolve is None, an address form that is neither Addr nor an index is 0; the
   line program is the one at the chosen offset, parsed with the unit's address size, comp_dir and name. *)
Theorem unit_new_fields : forall dbg d h tbl root u,
  unit_of_root dbg d h tbl root = Ok u ->
  let sp := scan_spec d h (d_attrs root) in
  un_header u = h /\ un_abbrevs u = tbl /\
  un_str_offsets_base u = sc_sob sp /\ un_addr_base u = sc_ab sp /\
  un_loclists_base u = sc_llb sp /\ un_rnglists_base u = sc_rlb sp /\ un_dwo_id u = sc_dwo_id sp /\
  un_name u = match sc_name sp with Some v => opt_of_res (attr_string d u v) | None => None end /\
  un_comp_dir u = match sc_comp_dir sp with Some v => opt_of_res (attr_string d u v) | None => None end /\
  un_low_pc u = match sc_low_pc sp with
                | Some v => match attr_address d u v with Ok (Some a) => a | _ => 0 end
                | None => 0
                end /\
  match sc_stmt sp with
  | None => un_line_program u = None
  | Some off =>
      exists p, line_program dbg d off (address_size (u_enc h)) (un_comp_dir u) (un_name u) = Ok p /\
                un_line_program u = Some p
  end.
Proof. exact unit_of_root_fields. Qed.

(* Unit::new fails (after the root was read) only through the chosen line program or the chosen low_pc index *)
Theorem unit_new_errors : forall dbg d h tbl root e,
  unit_of_root dbg d h tbl root = Err e ->
  let sp := scan_spec d h (d_attrs root) in
  (exists off cd nm, sc_stmt sp = Some off /\ line_program dbg d off (address_size (u_enc h)) cd nm = Err e) \/
  (exists v u0, sc_low_pc sp = Some v /\ un_header u0 = h /\ un_addr_base u0 = sc_ab sp /\ attr_address d u0 v = Err e).
Proof. exact unit_of_root_error. Qed.

(* str_offsets_base_default: all versions x formats x file types. The implicit base is the size of the header of
   a DWARF 5 string offsets table in the unit's format (8 / 16), in a DWARF 5 .dwo only; 0 otherwise. The lists
   bases likewise (12 / 20). *)
Theorem str_offsets_base_default : forall be f len v dwo,
  default_str_offsets_base v f dwo = implicit_str_offsets_base v f dwo /\
  implicit_str_offsets_base v f dwo = (if (5 <=? v) && dwo then nlen (str_offsets_header be f len) else 0) /\
  ListsRd.default_lists_base v f dwo = implicit_lists_base v f dwo.
Proof.
  intros. split; [apply default_sob_implicit|]. split; [|apply default_lists_implicit].
  unfold implicit_str_offsets_base. destruct ((5 <=? v) && dwo); [|reflexivity].
  unfold str_offsets_header, enc_initial_length, nlen.
  destruct f; rewrite !app_length, !DieRdProofs.enc_fixed_length; reflexivity.
Qed.

(* attr_string_resolves: each string form resolves to the NUL-terminated bytes at the designated position of the
   designated section, or to the stated error: strp -> .debug_str, line_strp -> .debug_line_str, strp_sup -> the
   supplementary .debug_str (ExpectedStringAttributeValue without one), strx* -> .debug_str at the offset stored in
   entry i of .debug_str_offsets after the unit's base (C08 str_offset_table); anything else is not a string. *)
Theorem attr_string_resolves : forall d u v,
  N.of_nat (length (dw_str_offsets d)) < two64 ->
  attr_string d u v =
  match v with
  | VString s => Ok s
  | VDebugStrRef o => ok_or_eof (cstr_at (dw_str d) o)
  | VDebugStrRefSup o =>
      match dw_sup d with
      | Some s => ok_or_eof (cstr_at s o)
      | None => Err EExpectedStringAttributeValue
      end
  | VDebugLineStrRef o => ok_or_eof (cstr_at (dw_line_str d) o)
  | VDebugStrOffsetsIndex i =>
      match str_offset_table (dw_be d) (fmt64 (u_enc (un_header u))) (dw_str_offsets d)
                             (un_str_offsets_base u) i with
      | Some o => ok_or_eof (cstr_at (dw_str d) o)
      | None => Err EUnexpectedEof
      end
  | _ => Err EExpectedStringAttributeValue
  end.
Proof.
  intros d u v Hlen. unfold ok_or_eof.
  destruct v; try reflexivity; cbn [attr_string]; unfold dw_string, dw_line_string, dw_sup_string.
  - apply get_str_spec.
  - destruct (dw_sup d); [apply get_str_spec|reflexivity].
  - unfold string_offset. rewrite (ListsRdProofs.get_str_offset_spec _ _ _ _ _ Hlen).
    destruct (str_offset_table _ _ _ _ _); cbn [bind]; [apply get_str_spec|reflexivity].
  - apply get_str_spec.
Qed.

Theorem attr_line_string_resolves : forall d u v,
  (forall i, v <> VDebugStrOffsetsIndex i) -> attr_line_string d v = attr_string d u v.
Proof.
  intros d u v H. destruct v; try reflexivity. exfalso. exact (H i eq_refl).
Qed.

(* attr_address_resolves: Addr is itself; an index is entry i of .debug_addr after the unit's addr_base at the
   unit's address size (C08 addr_table), UnexpectedEof outside the section; every other variant is None *)
Theorem attr_address_resolves : forall d u v,
  valid_asize (address_size (u_enc (un_header u))) = true -> N.of_nat (length (dw_addr d)) < two64 ->
  attr_address d u v =
  match v with
  | VAddr a => Ok (Some a)
  | VDebugAddrIndex i =>
      match addr_table (dw_be d) (address_size (u_enc (un_header u))) (dw_addr d) (un_addr_base u) i with
      | Some a => Ok (Some a)
      | None => Err EUnexpectedEof
      end
  | _ => Ok None
  end.
Proof.
  intros d u v Hv Hlen. destruct v; try reflexivity. cbn [attr_address]. unfold address.
  rewrite (ListsRdProofs.get_address_spec _ _ _ _ _ Hv Hlen). destruct (addr_table _ _ _ _ _); reflexivity.
Qed.

(* make_dwo_inherits: exactly file type, .debug_addr, .debug_ranges and the supplementary file come from the
   parent; every other section is untouched. copy_relocated_attributes: exactly low_pc, addr_base and — before
   DWARF 5 only — rnglists_base come from the skeleton. *)
Theorem make_dwo_inherits : forall self parent,
  let r := make_dwo self parent in
  dw_dwo r = true /\ dw_addr r = dw_addr parent /\ dw_ranges r = dw_ranges parent /\ dw_sup r = dw_sup parent /\
  dw_be r = dw_be self /\ dw_abbrev r = dw_abbrev self /\ dw_aranges r = dw_aranges self /\
  dw_info r = dw_info self /\ dw_line r = dw_line self /\ dw_line_str r = dw_line_str self /\
  dw_macinfo r = dw_macinfo self /\ dw_macro r = dw_macro self /\ dw_names r = dw_names self /\
  dw_str r = dw_str self /\ dw_str_offsets r = dw_str_offsets self /\ dw_types r = dw_types self /\
  dw_loc r = dw_loc self /\ dw_loclists r = dw_loclists self /\ dw_rnglists r = dw_rnglists self.
Proof.
  intros self parent.
  cbv zeta. repeat split.
Qed.

Theorem copy_relocated_inherits : forall self other,
  let r := copy_relocated_attributes self other in
  un_low_pc r = un_low_pc other /\ un_addr_base r = un_addr_base other /\
  un_rnglists_base r = (if version (u_enc (un_header self)) <? 5 then un_rnglists_base other
                        else un_rnglists_base self) /\
  un_header r = un_header self /\ un_abbrevs r = un_abbrevs self /\ un_name r = un_name self /\
  un_comp_dir r = un_comp_dir self /\ un_str_offsets_base r = un_str_offsets_base self /\
  un_loclists_base r = un_loclists_base self /\ un_line_program r = un_line_program self /\
  un_dwo_id r = un_dwo_id self.
Proof.
  intros self other.
  cbv zeta. repeat split.
Qed.

(* after make_dwo + Unit::new + copy_relocated_attributes, range resolution of the split unit runs on the parent's
   .debug_addr / .debug_ranges, the dwo's .debug_rnglists, and the skeleton's low_pc / addr_base (and its
   ranges base before DWARF 5) *)
Theorem split_unit_context : forall dbg dwo parent skeleton h d u,
  load_dwo_unit dbg dwo parent skeleton h = Ok (d, u) ->
  let x := uctx_of d u in
  ListsRd.u_dwo x = true /\ ListsRd.u_debug_addr x = dw_addr parent /\
  ListsRd.u_debug_ranges x = dw_ranges parent /\ ListsRd.u_debug_rnglists x = dw_rnglists dwo /\
  ListsRd.u_low_pc x = un_low_pc skeleton /\ ListsRd.u_addr_base x = un_addr_base skeleton /\
  (version (u_enc h) <? 5 = true -> ListsRd.u_rnglists_base x = un_rnglists_base skeleton).
Proof.
  intros dbg dwo parent skeleton h d u.
  unfold load_dwo_unit. destruct (unit_new dbg (make_dwo dwo parent) h) as [u1| | |] eqn:E; cbn [bind]; try discriminate.
  intros H. inversion H; subst d u; clear H. cbv zeta.
  assert (Hh : un_header u1 = h).
  { unfold unit_new in E. destruct (abbreviations_at dbg _ _) as [tbl| | |]; cbn [bind] in E; try discriminate.
    unfold unit_new_with_abbreviations in E. destruct (root_dfs dbg h tbl) as [root| | |]; cbn [bind] in E; try discriminate.
    apply unit_of_root_fields in E. tauto. }
  unfold uctx_of, copy_relocated_attributes, make_dwo.
  cbn [ListsRd.u_dwo ListsRd.u_debug_addr ListsRd.u_debug_ranges ListsRd.u_debug_rnglists ListsRd.u_low_pc
       ListsRd.u_addr_base ListsRd.u_rnglists_base un_header un_low_pc un_addr_base un_rnglists_base
       dw_dwo dw_addr dw_ranges dw_rnglists].
  repeat (split; [reflexivity|]). rewrite Hh. intros Hv. rewrite Hv. reflexivity.
Qed.

(* unit_glue_no_panic: both build modes. From the root on: ANY root entry, ANY sections. From the header on: any
   header whose size arithmetic is that of a parsed header (hypotheses; Example below), any sections. *)
Theorem unit_glue_no_panic : forall dbg d h,
  (forall tbl root, ListsRdProofs.good (unit_of_root dbg d h tbl root)) /\
  (forall u v, ListsRdProofs.good (attr_string d u v) /\ ListsRdProofs.good (attr_address d u v)) /\
  (forall off, header_size dbg h = Ok off -> off + nlen (u_entries h) < two63 ->
     ListsRdProofs.good (unit_new dbg d h) /\
     forall u, un_header u = h -> valid_asize (address_size (u_enc h)) = true ->
               ListsRdProofs.good (unit_ranges_all dbg d u)).
Proof.
  intros dbg d h. split; [intros; apply unit_of_root_good|].
  split; [intros; split; [apply attr_string_good|apply attr_address_good]|].
  intros off Hs Hlt. split; [exact (unit_new_good dbg d h off Hs Hlt)|].
  intros u Hu Hv. subst h. exact (unit_ranges_all_good dbg d u off Hs Hlt Hv).
Qed.

(* ---- examples: a DWARF 5 split unit in a .dwo. Root attributes, in this order: DW_AT_low_pc (addrx1 1),
   DW_AT_name (strx1 1), DW_AT_addr_base (sec_offset 8), DW_AT_name again (string "z"), DW_AT_GNU_dwo_id (data1 9,
   ignored: the header has the id), DW_AT_str_offsets_base given as data1 (wrong class: ignored). *)
Definition ex_glue_abbrev : list byte :=
  [x01; x11; x00;  x11; x29;  x03; x25;  x73; x17;  x03; x08;  xb1; x42; x0b;  x72; x0b;  x00; x00; x00]%byte.
Definition ex_glue_info : list byte :=
  [x1b; x00; x00; x00;  x05; x00;  x05; x04;  x00; x00; x00; x00;
   x88; x77; x66; x55; x44; x33; x22; x11;
   x01;  x01;  x01;  x08; x00; x00; x00;  x7a; x00;  x09;  x63]%byte.
Definition ex_glue_dwarf : dwarf :=
  mkDwarf false ex_glue_abbrev
          [x00; x00; x00; x00; x00; x00; x00; x00;  x10; x00; x00; x00;  x20; x00; x00; x00]%byte   (* .debug_addr *)
          [] ex_glue_info [] [] [] [] []
          [x61; x00; x62; x63; x00]%byte                                                              (* "a" "bc" *)
          [x0c; x00; x00; x00; x05; x00; x00; x00;  x00; x00; x00; x00;  x02; x00; x00; x00]%byte     (* v5 table *)
          [] [] [] [] [] true None.

Example ex_glue_unit :
  match first_header ex_glue_dwarf false with
  | Ok (Some h) =>
      match unit_new true ex_glue_dwarf h with
      | Ok u =>
          header_size true h = Ok 20 /\ 20 + nlen (u_entries h) < two63 /\
          (* the second DW_AT_name wins; low_pc (given FIRST) is entry 1 after the addr_base given later; the
             implicit str_offsets_base of a v5 .dwo survives the data1 attribute; the header's id wins *)
          un_name u = Some [x7a]%byte /\ un_low_pc u = 32 /\ un_addr_base u = 8 /\ un_str_offsets_base u = 8 /\
          un_dwo_id u = Some 1234605616436508552 /\
          attr_string ex_glue_dwarf u (VDebugStrOffsetsIndex 1) = Ok [x62; x63]%byte /\
          attr_string ex_glue_dwarf u (VDebugStrRefSup 0) = Err EExpectedStringAttributeValue /\
          attr_address ex_glue_dwarf u (VDebugAddrIndex 2) = Err EUnexpectedEof
      | _ => False
      end
  | _ => False
  end.
Proof. vm_compute. repeat split; reflexivity. Qed.

Example ex_glue_choice :
  let attrs := [(mkSpec DW_AT_name 8 0%Z, VString [x61]%byte); (mkSpec DW_AT_addr_base 23 0%Z, VSecOffset 8);
                (mkSpec DW_AT_GNU_addr_base 11 0%Z, VData1 3); (mkSpec DW_AT_name 8 0%Z, VString [x62]%byte);
                (mkSpec DW_AT_GNU_dwo_id 7 0%Z, VData8 5); (mkSpec DW_AT_GNU_dwo_id 7 0%Z, VData8 6)] in
  ch_name (choose attrs) = Some (VString [x62]%byte) /\ ch_addr_base (choose attrs) = Some 8 /\
  ch_gnu_dwo_id (choose attrs) = Some 5.
Proof. vm_compute. repeat split; reflexivity. Qed.

Example ex_glue_split :
  let parent := mkDwarf false [] [x01]%byte [] [] [] [] [] [] [] [] [] [] [] [] [x02]%byte [] false (Some [x03]%byte) in
  let r := make_dwo ex_glue_dwarf parent in
  dw_addr r = [x01]%byte /\ dw_ranges r = [x02]%byte /\ dw_sup r = Some [x03]%byte /\ dw_str r = dw_str ex_glue_dwarf.
Proof. vm_compute. repeat split; reflexivity. Qed.

Check unit_fields_of_root : forall (d : dwarf) (h : unit_header) (attrs : list rattr),
  fold_left scan_step attrs (scan_init d h) = scan_spec d h attrs.
Check unit_new_fields. Check unit_new_errors. Check str_offsets_base_default. Check attr_string_resolves.
Check attr_line_string_resolves. Check attr_address_resolves. Check make_dwo_inherits. Check copy_relocated_inherits.
Check split_unit_context. Check unit_glue_no_panic.

(* ================================================================== lookup_offset_id, dwo_name, unit_ranges,
   no panic from the section bytes on *)

(* lookup_offset_id_scan: with every section inside the address space (start + length < 2^64, as for any slice),
   Dwarf::lookup_offset_id never fails and is the exhaustive scan of the searched sections in the coded order,
   main file first: abbrev, addr, aranges, info, line, line_str, str, str_offsets, types, loc, loclists, ranges,
   rnglists; then the same list in the supplementary file. *)
Theorem lookup_offset_id_scan : forall dbg place sup id,
  placed_ok place -> (forall sp, sup = Some sp -> placed_ok sp) ->
  lookup_offset_id dbg place sup id = Ok (lookup_spec place sup id).
Proof.
  intros dbg place sup id H Hs. unfold lookup_offset_id, lookup_spec. rewrite (lookup_first_spec dbg place id H). cbn [bind].
  destruct (find (inb place id) lookup_order) as [s|]; [reflexivity|].
  destruct sup as [sp|]; [|reflexivity]. rewrite (lookup_first_spec dbg sp id (Hs sp eq_refl)). cbn [bind].
  destruct (find (inb sp id) lookup_order); reflexivity.
Qed.

(* lookup_offset_id_correct: an id that lies inside section S of the main file at offset o (one past the end
   included) is reported as (false, S, o) provided no section coded BEFORE S contains it: on a boundary shared by
   two sections the FIRST in the coded order wins, whatever the order of the sections in memory. *)
Theorem lookup_offset_id_correct : forall dbg place sup id pre S post o,
  placed_ok place -> (forall sp, sup = Some sp -> placed_ok sp) ->
  lookup_order = pre ++ S :: post ->
  id = fst (place S) + o -> o <= snd (place S) ->
  forallb (fun s => negb (inb place id s)) pre = true ->
  lookup_offset_id dbg place sup id = Ok (Some (false, S, o)).
Proof.
  intros dbg place sup id pre S post o H Hs Hl Hid Ho Hpre. rewrite (lookup_offset_id_scan dbg place sup id H Hs). unfold lookup_spec.
  assert (Hf : find (inb place id) lookup_order = Some S).
  { apply find_first. exists pre, post. split; [exact Hl|]. split; [|exact Hpre].
    unfold inb. apply andb_true_intro. split; apply N.leb_le; lia. }
  rewrite Hf. f_equal. f_equal. f_equal. lia.
Qed.

(* ... in the supplementary file when no searched section of the main file contains it *)
Theorem lookup_offset_id_correct_sup : forall dbg place sp id pre S post o,
  placed_ok place -> placed_ok sp ->
  lookup_order = pre ++ S :: post ->
  id = fst (sp S) + o -> o <= snd (sp S) ->
  forallb (fun s => negb (inb place id s)) lookup_order = true ->
  forallb (fun s => negb (inb sp id s)) pre = true ->
  lookup_offset_id dbg place (Some sp) id = Ok (Some (true, S, o)).
Proof.
  intros dbg place sp id pre S post o H Hs Hl Hid Ho Hmain Hpre.
  rewrite (lookup_offset_id_scan dbg place (Some sp) id H) by (intros ? E; inversion E; subst; exact Hs).
  unfold lookup_spec.
  assert (Hn : find (inb place id) lookup_order = None).
  { destruct (find (inb place id) lookup_order) as [s|] eqn:E; [|reflexivity].
    apply find_some in E. destruct E as [Hin Ht]. rewrite forallb_forall in Hmain.
    specialize (Hmain s Hin). rewrite Ht in Hmain. discriminate. }
  rewrite Hn.
  assert (Hf : find (inb sp id) lookup_order = Some S).
  { apply find_first. exists pre, post. split; [exact Hl|]. split; [|exact Hpre].
    unfold inb. apply andb_true_intro. split; apply N.leb_le; lia. }
  rewrite Hf. f_equal. f_equal. f_equal. lia.
Qed.

(* ... and an id in no searched section of either file is None *)
Theorem lookup_offset_id_none : forall dbg place sup id,
  placed_ok place -> (forall sp, sup = Some sp -> placed_ok sp) ->
  forallb (fun s => negb (inb place id s)) lookup_order = true ->
  (forall sp, sup = Some sp -> forallb (fun s => negb (inb sp id s)) lookup_order = true) ->
  lookup_offset_id dbg place sup id = Ok None.
Proof.
  intros dbg place sup id H Hs Hmain Hsup. rewrite (lookup_offset_id_scan dbg place sup id H Hs). unfold lookup_spec.
  assert (Hn : forall pl, forallb (fun s => negb (inb pl id s)) lookup_order = true ->
                          find (inb pl id) lookup_order = None).
  { intros pl Hp. destruct (find (inb pl id) lookup_order) as [s|] eqn:E; [|reflexivity].
    apply find_some in E. destruct E as [Hin Ht]. rewrite forallb_forall in Hp.
    specialize (Hp s Hin). rewrite Ht in Hp. discriminate. }
  rewrite (Hn place Hmain). destruct sup as [sp|]; [|reflexivity]. rewrite (Hn sp (Hsup sp eq_refl)). reflexivity.
Qed.

(* lookup_offset_id_unsearched (an observation about the code, confirmed on gimli by c17.lookup; not a property
   violation): exactly .debug_macinfo, .debug_macro and .debug_names are never asked, so an id that lies only
   inside one of them is reported as belonging to no section (format_error then prints no location). *)
Theorem lookup_offset_id_unsearched :
  (forall s, ~ In s lookup_order <-> s = SMacinfo \/ s = SMacro \/ s = SNames) /\
  (forall dbg place sup id s,
     placed_ok place -> (forall sp, sup = Some sp -> placed_ok sp) ->
     s = SMacinfo \/ s = SMacro \/ s = SNames -> inb place id s = true ->
     (forall t, In t lookup_order -> inb place id t = false) ->
     (forall sp t, sup = Some sp -> In t lookup_order -> inb sp id t = false) ->
     lookup_offset_id dbg place sup id = Ok None).
Proof.
  split.
  - intros s. split.
    + intros H. destruct s; try (exfalso; apply H; cbn; tauto); tauto.
    + intros [ -> | [ -> | -> ] ] H; cbn in H; repeat (destruct H as [H|H]; [discriminate|]); exact H.
  - intros dbg place sup id s H Hs _ _ Hmain Hsup. apply lookup_offset_id_none; try assumption.
    + apply forallb_forall. intros t Ht. rewrite (Hmain t Ht). reflexivity.
    + intros sp Esp. apply forallb_forall. intros t Ht. rewrite (Hsup sp t Esp Ht). reflexivity.
Qed.

(* .debug_info at [100,110], .debug_abbrev at [110,120], .debug_macro at [200,210], everything else empty at 0 *)
Definition ex_place (s : sid) : N * N :=
  match s with SInfo => (100, 10) | SAbbrev => (110, 10) | SMacro => (200, 10) | _ => (0, 0) end.
Example ex_lookup :
  placed_ok ex_place /\
  lookup_offset_id true ex_place None 105 = Ok (Some (false, SInfo, 5)) /\
  lookup_offset_id true ex_place None 110 = Ok (Some (false, SAbbrev, 0)) /\   (* shared boundary: abbrev is coded first *)
  lookup_offset_id true ex_place None 205 = Ok None /\                           (* inside .debug_macro *)
  lookup_offset_id true ex_place (Some ex_place) 121 = Ok None /\
  lookup_offset_id true (fun _ => (0, 0)) (Some ex_place) 120 = Ok (Some (true, SAbbrev, 10)).
Proof.
  split; [intros s; destruct s; vm_compute; reflexivity|]. vm_compute. repeat split; reflexivity.
Qed.

(* dwo_name_spec: when the first entry of the unit is a DIE (not a null entry) it is the root Unit::new used, and
   dwo_name is the value of the FIRST DW_AT_dwo_name (DWARF 5) / DW_AT_GNU_dwo_name (before) of that entry, None
   without one; the other name is never consulted. After a leading null entry (which Unit::new skips) it is
   MissingUnitDie. *)
Theorem dwo_name_spec : forall dbg u c c' root,
  entries dbg (un_header u) = Ok c ->
  next_entry dbg (u_enc (un_header u)) (un_abbrevs u) c = Ok (SOk true c') -> current c' = Some root ->
  root_dfs dbg (un_header u) (un_abbrevs u) = Ok root /\
  dwo_name dbg u =
  Ok (option_map val (first_attr (named (dwo_name_attr (version (u_enc (un_header u))))) (d_attrs root))).
Proof.
  intros dbg u c c' root Hc Hn Hr. split; [exact (root_dfs_first_entry dbg _ _ c c' root Hc Hn Hr)|].
  unfold dwo_name. rewrite Hc. cbn [bind]. rewrite Hn. cbn [bind]. rewrite Hr.
  rewrite die_attr_value_first. reflexivity.
Qed.

Theorem dwo_name_after_null : forall dbg u c b c',
  entries dbg (un_header u) = Ok c ->
  next_entry dbg (u_enc (un_header u)) (un_abbrevs u) c = Ok (SOk b c') -> current c' = None ->
  dwo_name dbg u = Err EMissingUnitDie.
Proof.
  intros dbg u c b c' Hc Hn Hr. unfold dwo_name. rewrite Hc. cbn [bind]. rewrite Hn. cbn [bind]. rewrite Hr. reflexivity.
Qed.

(* unit_ranges_spec: unit_ranges is C08's die_ranges of the root entry Unit::new used, in the unit's context
   (uctx_of: the unit's low_pc, addr_base, rnglists_base and the Dwarf's .debug_addr/.debug_ranges/.debug_rnglists) *)
Theorem unit_ranges_spec : forall dbg d u root,
  root_dfs dbg (un_header u) (un_abbrevs u) = Ok root ->
  unit_ranges dbg d u = ListsRd.die_ranges (uctx_of d u) (map die_attr_view (d_attrs root)) /\
  unit_ranges_all dbg d u = ListsRd.die_ranges_all dbg (uctx_of d u) (map die_attr_view (d_attrs root)).
Proof.
  intros dbg d u root H. unfold unit_ranges_all, unit_ranges, ListsRd.die_ranges_all. rewrite H. cbn [bind]. split; reflexivity.
Qed.

(* ... composed with C08 (Properties/C08.v helpers_ranges_attribute / helpers_ranges_index /
   helpers_low_high_constant — the same lemmas of Proofs/ListsRdProofs.v), stated on the attributes as read:
   DW_AT_ranges first among low_pc/high_pc/ranges: C08's resolution (ranges_all, with its theorems
   resolve_refines / nonempty_below_tombstone) of the list it designates, base address = the unit's low_pc *)
Theorem unit_ranges_of_list : forall dbg d u root pre p post o,
  root_dfs dbg (un_header u) (un_abbrevs u) = Ok root ->
  d_attrs root = pre ++ p :: post -> forallb glue_other pre = true ->
  nm p = Attr.DW_AT_ranges -> val p = VRangeListsRef o ->
  let x := uctx_of d u in
  unit_ranges_all dbg d u =
  ListsRd.ranges_all dbg (ListsRd.u_cfg x) (ListsRd.u_lctx x) (dw_ranges d) (dw_rnglists d)
    (if dw_dwo d && (version (u_enc (un_header u)) <? 5) then (o + un_rnglists_base u) mod two64 else o)
    (un_low_pc u).
Proof.
  intros dbg d u root pre p post o Hr Ha Hp Hn Hv x. destruct (unit_ranges_spec dbg d u root Hr) as [_ ->].
  rewrite Ha, map_app. cbn [map]. rewrite (view_named p DW_AT_ranges ListsRd.AtRanges Hn eq_refl), Hv. cbn [to_aval].
  rewrite (ListsRdProofs.die_ranges_list dbg x _ _ o (view_others pre Hp)). reflexivity.
Qed.

Theorem unit_ranges_of_index : forall dbg d u root pre p post i off,
  root_dfs dbg (un_header u) (un_abbrevs u) = Ok root ->
  d_attrs root = pre ++ p :: post -> forallb glue_other pre = true ->
  nm p = Attr.DW_AT_ranges -> val p = VDebugRngListsIndex i ->
  N.of_nat (length (dw_rnglists d)) < two64 ->
  offset_table (dw_be d) (fmt64 (u_enc (un_header u))) (dw_rnglists d) (un_rnglists_base u) i = Some off ->
  off < two64 ->
  let x := uctx_of d u in
  unit_ranges_all dbg d u =
  ListsRd.ranges_all dbg (ListsRd.u_cfg x) (ListsRd.u_lctx x) (dw_ranges d) (dw_rnglists d) off (un_low_pc u).
Proof.
  intros dbg d u root pre p post i off Hr Ha Hp Hn Hv Hlen Ht Hoff x. destruct (unit_ranges_spec dbg d u root Hr) as [_ ->].
  rewrite Ha, map_app. cbn [map]. rewrite (view_named p DW_AT_ranges ListsRd.AtRanges Hn eq_refl), Hv. cbn [to_aval].
  rewrite (ListsRdProofs.die_ranges_listx dbg x _ _ i off (view_others pre Hp) Hlen Ht Hoff). reflexivity.
Qed.

(* no DW_AT_ranges: low_pc (address) + high_pc (constant) = [low, low + n), AddressOverflow past 2^64 *)
Theorem unit_ranges_of_low_high : forall dbg d u root pre p1 mid p2 post lo n,
  root_dfs dbg (un_header u) (un_abbrevs u) = Ok root ->
  d_attrs root = pre ++ p1 :: mid ++ p2 :: post ->
  forallb glue_other pre = true -> forallb glue_other mid = true -> forallb glue_other post = true ->
  nm p1 = DW_AT_low_pc -> val p1 = VAddr lo -> nm p2 = DW_AT_high_pc -> val p2 = VUdata n ->
  unit_ranges dbg d u =
  if lo + n <? two64 then Ok (ListsRd.RiSingle (Some (lowhigh_const lo n))) else Err EAddressOverflow.
Proof.
  intros dbg d u root pre p1 mid p2 post lo n Hr Ha H1 H2 H3 Hn1 Hv1 Hn2 Hv2. destruct (unit_ranges_spec dbg d u root Hr) as [-> _].
  rewrite Ha, map_app. cbn [map]. rewrite map_app. cbn [map].
  rewrite (view_named p1 DW_AT_low_pc ListsRd.AtLowPc Hn1 eq_refl), Hv1.
  rewrite (view_named p2 DW_AT_high_pc ListsRd.AtHighPc Hn2 eq_refl), Hv2. cbn [to_aval].
  exact (ListsRdProofs.die_lowhigh_const (uctx_of d u) _ _ _ lo n (view_others pre H1) (view_others mid H2) (view_others post H3)).
Qed.

(* none of the three attributes: the empty iterator *)
Theorem unit_ranges_of_nothing : forall dbg d u root,
  root_dfs dbg (un_header u) (un_abbrevs u) = Ok root -> forallb glue_other (d_attrs root) = true ->
  unit_ranges dbg d u = Ok (ListsRd.RiSingle None) /\ unit_ranges_all dbg d u = Ok [].
Proof.
  intros dbg d u root Hr Ho. destruct (unit_ranges_spec dbg d u root Hr) as [E1 E2]. rewrite E1, E2.
  unfold ListsRd.die_ranges_all, ListsRd.die_ranges.
  rewrite <- (app_nil_r (map die_attr_view (d_attrs root))).
  rewrite (ListsRdProofs.die_loop_other (uctx_of d u) _ [] None None None (view_others _ Ho)). cbn. split; reflexivity.
Qed.

(* parsed_header_arith: for EVERY header the C02 parser model returns, on any bytes: the entries are a part of the
   unit_length bytes, initial length + unit_length fits the section, and the address size is 1, 2, 4 or 8 —
   so header_size / EntriesCursor::new cannot overflow or underflow *)
Theorem parsed_header_arith : forall bigend types uoff bs h after,
  parse_unit_header bigend types uoff bs = Ok (h, after) ->
  nlen (u_entries h) <= u_length h /\
  initial_length_size (fmt64 (u_enc h)) + u_length h + nlen after = nlen bs /\
  valid_asize (address_size (u_enc h)) = true.
Proof. exact NavProofs.parse_unit_header_sizes. Qed.

(* unit_glue_no_panic_bytes: the hypothesis of unit_glue_no_panic discharged. For ALL section contents (unit
   sections shorter than 2^63 bytes, as any slice is), both build modes: reading the first header, Unit::new on it,
   and unit_ranges / dwo_name on any unit with that header neither panic nor run out of fuel. *)
Theorem unit_glue_no_panic_bytes : forall dbg d types,
  nlen (dw_info d) < two63 -> nlen (dw_types d) < two63 ->
  ListsRdProofs.good (first_header d types) /\
  forall h, first_header d types = Ok (Some h) ->
    ListsRdProofs.good (unit_new dbg d h) /\
    forall u, un_header u = h ->
      ListsRdProofs.good (unit_ranges_all dbg d u) /\ ListsRdProofs.good (dwo_name dbg u).
Proof.
  intros dbg d types Hi Ht. split; [apply first_header_good|]. intros h Hf. unfold first_header in Hf.
  destruct (is_nil (if types then dw_types d else dw_info d)); [discriminate|].
  destruct (parse_unit_header (dw_be d) types 0 (if types then dw_types d else dw_info d)) as [[h' r]| | |] eqn:E;
    cbn [bind] in Hf; try discriminate.
  inversion Hf; subst h'. apply (glue_good_parsed dbg d _ _ _ _ h r E). destruct types; assumption.
Qed.

(* a DWARF 4 unit whose root has DW_AT_GNU_dwo_name "a", DW_AT_GNU_dwo_name "b", DW_AT_ranges (sec_offset 0) *)
Definition ex_glue4_dwarf : dwarf :=
  mkDwarf false
          [x01; x11; x00;  xb0; x42; x08;  xb0; x42; x08;  x55; x17;  x00; x00; x00]%byte
          [] []
          [x10; x00; x00; x00;  x04; x00;  x00; x00; x00; x00;  x08;  x01;  x61; x00;  x62; x00;  x00; x00; x00; x00]%byte
          [] [] [] [] [] [] [] [] [] []
          [x10; x00; x00; x00; x00; x00; x00; x00;  x20; x00; x00; x00; x00; x00; x00; x00;
           x00; x00; x00; x00; x00; x00; x00; x00;  x00; x00; x00; x00; x00; x00; x00; x00]%byte
          [] false None.
Example ex_glue4 :
  match first_header ex_glue4_dwarf false with
  | Ok (Some h) =>
      match unit_new true ex_glue4_dwarf h with
      | Ok u =>
          (match entries true h with
           | Ok c => match next_entry true (u_enc h) (un_abbrevs u) c with
                     | Ok (SOk true c') => current c' <> None
                     | _ => False
                     end
           | _ => False
           end) /\
          dwo_name true u = Ok (Some (VString [x61]%byte)) /\              (* the first occurrence *)
          unit_ranges_all true ex_glue4_dwarf u = Ok [ListsRd.EvItem (16, 32)]
      | _ => False
      end
  | _ => False
  end.
Proof. vm_compute. repeat split; try reflexivity. discriminate. Qed.

Check lookup_offset_id_scan. Check lookup_offset_id_correct. Check lookup_offset_id_correct_sup. Check lookup_offset_id_none.
Check lookup_offset_id_unsearched. Check dwo_name_spec. Check dwo_name_after_null. Check unit_ranges_spec.
Check unit_ranges_of_list. Check unit_ranges_of_index. Check unit_ranges_of_low_high. Check unit_ranges_of_nothing.
Check parsed_header_arith. Check unit_glue_no_panic_bytes.

(* the usual producer order — DW_AT_low_pc (address) and DW_AT_high_pc before DW_AT_ranges — gives the same: what
   was collected from low_pc / high_pc is irrelevant once DW_AT_ranges designates a list (`glue_benign`: any
   attribute other than ranges, an indexed low_pc or an ill-classed low_pc / high_pc) *)
Theorem unit_ranges_of_list_after_low_pc : forall dbg d u root pre p post o,
  root_dfs dbg (un_header u) (un_abbrevs u) = Ok root ->
  d_attrs root = pre ++ p :: post -> forallb glue_benign pre = true ->
  nm p = Attr.DW_AT_ranges -> val p = VRangeListsRef o ->
  let x := uctx_of d u in
  unit_ranges_all dbg d u =
  ListsRd.ranges_all dbg (ListsRd.u_cfg x) (ListsRd.u_lctx x) (dw_ranges d) (dw_rnglists d)
    (if dw_dwo d && (version (u_enc (un_header u)) <? 5) then (o + un_rnglists_base u) mod two64 else o)
    (un_low_pc u).
Proof.
  intros dbg d u root pre p post o Hr Ha Hp Hn Hv x. destruct (unit_ranges_spec dbg d u root Hr) as [_ ->].
  rewrite Ha, map_app. cbn [map]. rewrite (view_named p Attr.DW_AT_ranges ListsRd.AtRanges Hn eq_refl), Hv. cbn [to_aval].
  unfold ListsRd.die_ranges_all.
  rewrite (die_ranges_benign x _ (ListsRd.AvRangesRef o) _ (view_benign pre Hp)) by (left; eexists; reflexivity).
  exact (ListsRdProofs.die_ranges_list dbg x [] (map die_attr_view post) o eq_refl).
Qed.

Theorem unit_ranges_of_index_after_low_pc : forall dbg d u root pre p post i off,
  root_dfs dbg (un_header u) (un_abbrevs u) = Ok root ->
  d_attrs root = pre ++ p :: post -> forallb glue_benign pre = true ->
  nm p = Attr.DW_AT_ranges -> val p = VDebugRngListsIndex i ->
  N.of_nat (length (dw_rnglists d)) < two64 ->
  offset_table (dw_be d) (fmt64 (u_enc (un_header u))) (dw_rnglists d) (un_rnglists_base u) i = Some off ->
  off < two64 ->
  let x := uctx_of d u in
  unit_ranges_all dbg d u =
  ListsRd.ranges_all dbg (ListsRd.u_cfg x) (ListsRd.u_lctx x) (dw_ranges d) (dw_rnglists d) off (un_low_pc u).
Proof.
  intros dbg d u root pre p post i off Hr Ha Hp Hn Hv Hlen Ht Hoff x. destruct (unit_ranges_spec dbg d u root Hr) as [_ ->].
  rewrite Ha, map_app. cbn [map]. rewrite (view_named p Attr.DW_AT_ranges ListsRd.AtRanges Hn eq_refl), Hv. cbn [to_aval].
  unfold ListsRd.die_ranges_all.
  rewrite (die_ranges_benign x _ (ListsRd.AvRnglistx i) _ (view_benign pre Hp)) by (right; eexists; reflexivity).
  exact (ListsRdProofs.die_ranges_listx dbg x [] (map die_attr_view post) i off eq_refl Hlen Ht Hoff).
Qed.

Example ex_glue_benign :
  forallb glue_benign [(mkSpec DW_AT_name 8 0%Z, VString [x61]%byte); (mkSpec DW_AT_low_pc 1 0%Z, VAddr 4096);
                       (mkSpec DW_AT_high_pc 6 0%Z, VData4 16)] = true /\
  glue_benign (mkSpec DW_AT_low_pc 27 0%Z, VDebugAddrIndex 1) = false.
Proof. vm_compute. split; reflexivity. Qed.

Check unit_ranges_of_list_after_low_pc. Check unit_ranges_of_index_after_low_pc.
