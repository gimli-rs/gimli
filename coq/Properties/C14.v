(* Properties/C14.v — Written frame tables read back with the same CIEs, FDEs and unwind rows.
   Model: GV.Model.CfiWr (write/cfi.rs + the pointer writers of write/writer.rs); read-back spec:
   GV.Spec.CfaEncSpec (decoder of the emitted CFA opcodes, meaning under the CIE factors, emission plan).
   Operand typing hypotheses (is_u8/is_u16/is_u32/is_i8/is_i32, cfi_wf, cie_wf, fde_wf) are the Rust types. *)
From Coq Require Import List NArith ZArith Bool Lia.
From Coq.Strings Require Import Byte.
Require Import GV.Base.Res GV.Base.Byt GV.Base.Ints.
Require GV.Spec.CfaSpec GV.Model.CfiRun GV.Proofs.CfiRunProofs GV.Spec.CfiSpec GV.Model.CfiRd.
Require Import GV.Spec.LebSpec GV.Spec.CfaEncSpec GV.Model.Leb GV.Model.Prim GV.Model.CfiWr GV.Proofs.CfiWrProofs GV.Proofs.CfiRoundtrip.
Require GV.Model.CfiUwi.
Require Import GV.Spec.CfaScriptSpec GV.Proofs.CfaScriptProofs.
Import ListNotations.
Local Open Scope N_scope.

(* (1) factoring_exact — for ALL i32 offsets and i8 factors (incl. 0 and (i32::MIN, -1)), both build
   modes: Ok q exactly when the factor is non-zero, q*f = o and q is an i32; otherwise the error
   InvalidFrameDataOffset; never a panic. Likewise for code deltas with a u8 factor incl. 0;
   decreasing offsets are InvalidFrameCodeOffset. *)
Theorem factoring_exact : forall (dbg : bool) (o f : Z),
  is_i32 o = true -> is_i8 f = true ->
  (forall q, factored_data_offset dbg o f = Ok q <-> (f <> 0 /\ q * f = o /\ is_i32 q = true)%Z) /\
  (factored_data_offset dbg o f = Err WInvalidFrameDataOffset \/
   exists q, factored_data_offset dbg o f = Ok q).
Proof. exact factored_data_offset_spec. Qed.

Theorem factoring_exact_code : forall (dbg : bool) (prev off factor : N),
  is_u32 prev = true -> is_u32 off = true -> is_u8 factor = true ->
  (forall q, factored_code_delta dbg prev off factor = Ok q <->
             prev <= off /\ factor <> 0 /\ q * factor = off - prev) /\
  (factored_code_delta dbg prev off factor = Err WInvalidFrameCodeOffset \/
   exists q, factored_code_delta dbg prev off factor = Ok q) /\
  (off < prev -> factored_code_delta dbg prev off factor = Err WInvalidFrameCodeOffset).
Proof.
  intros dbg prev off factor _ Ho _. rewrite (factored_code_delta_eq dbg prev off factor Ho).
  destruct (off <? prev) eqn:E1; [|destruct (factor =? 0) eqn:E2;
    [|destruct (off - prev =? (off - prev) / factor * factor) eqn:E3; cbn [negb]]].
  - split; [|split; [left; reflexivity|reflexivity]]. intros q. split; [discriminate|lia].
  - split; [|split; [left; reflexivity|lia]]. intros q. split; [discriminate|lia].
  - split; [|split; [right; eexists; reflexivity|lia]]. intros q. split.
    + intros [= <-]. lia.
    + intros (_ & Hf & Hq). f_equal. rewrite <- Hq. now rewrite N.div_mul.
  - split; [|split; [left; reflexivity|lia]]. intros q. split; [discriminate|].
    intros (_ & Hf & Hq). rewrite <- Hq, N.div_mul in E3 by exact Hf. lia.
Qed.

Example factoring_ex_ok : factored_data_offset true (-24) (-8) = Ok 3%Z.
Proof. vm_compute. reflexivity. Qed.
Example factoring_ex_zero : factored_data_offset true 16 0 = Err WInvalidFrameDataOffset.
Proof. vm_compute. reflexivity. Qed.
Example factoring_ex_min : factored_data_offset true (-2147483648) (-1) = Err WInvalidFrameDataOffset.
Proof. vm_compute. reflexivity. Qed.
Example factoring_ex_inexact : factored_data_offset false 12 8 = Err WInvalidFrameDataOffset.
Proof. vm_compute. reflexivity. Qed.
Example factoring_ex_code : factored_code_delta true 4 12 4 = Ok 2 /\ factored_code_delta true 4 12 0 = Err WInvalidFrameCodeOffset
                            /\ factored_code_delta true 12 4 1 = Err WInvalidFrameCodeOffset.
Proof. vm_compute. repeat split. Qed.

(* (2) advance_loc_forms — the writer emits nothing for an unchanged offset, otherwise exactly
   adv_enc of the factored delta; adv_enc is DW_CFA_advance_loc|delta below 0x40, advance_loc1 below
   0x100, advance_loc2 below 0x10000, advance_loc4 otherwise (in the section's byte order) and each
   decodes back to the delta; never a panic; a decreasing offset is InvalidFrameCodeOffset. *)
Theorem advance_loc_forms : forall (dbg be : bool) (caf prev off : N),
  is_u8 caf = true -> is_u32 prev = true -> is_u32 off = true ->
  (write_advance_loc dbg be caf prev off = Err WInvalidFrameCodeOffset \/
   exists bs, write_advance_loc dbg be caf prev off = Ok bs) /\
  (forall bs, write_advance_loc dbg be caf prev off = Ok bs ->
     (off = prev /\ bs = []) \/
     (exists delta, prev < off /\ delta * caf = off - prev /\ bs = adv_enc be delta /\
                    forall rest, decode1 be (bs ++ rest) = Some (DAdvance delta, rest))) /\
  (off < prev -> write_advance_loc dbg be caf prev off = Err WInvalidFrameCodeOffset).
Proof.
  intros dbg be caf prev off Hc Hp Ho. split; [|split].
  - rewrite (write_advance_loc_eq dbg be caf prev off Ho).
    destruct (off =? prev); [right; eexists; reflexivity|]. destruct (off <? prev); [left; reflexivity|].
    destruct (caf =? 0); [left; reflexivity|].
    destruct (negb (off - prev =? (off - prev) / caf * caf)); [left; reflexivity|right; eexists; reflexivity].
  - intros bs H. destruct (write_advance_loc_ok dbg be caf prev off bs Hc Hp Ho H)
      as [?|(delta & H1 & H2 & H3 & ->)]; [left; assumption|].
    right. exists delta. repeat split; try assumption.
    intros rest. apply decode1_adv_enc. exact H3.
  - intros Hlt. rewrite (write_advance_loc_eq dbg be caf prev off Ho).
    destruct (off =? prev) eqn:E; [lia|]. destruct (off <? prev) eqn:E2; [reflexivity|lia].
Qed.

Theorem advance_loc_encodings : forall (be : bool) (delta : N),
  (delta < 64 -> adv_enc be delta = [n2b (64 + delta)]) /\
  (64 <= delta < 256 -> adv_enc be delta = [x02; n2b delta]) /\
  (256 <= delta < 65536 -> adv_enc be delta = x03 :: enc_num 2 be delta) /\
  (65536 <= delta -> adv_enc be delta = x04 :: enc_num 4 be delta).
Proof.
  intros be delta. unfold adv_enc. repeat split; intros H.
  - destruct (delta <? 64) eqn:E; [reflexivity|lia].
  - destruct (delta <? 64) eqn:E; [lia|]. destruct (delta <? 256) eqn:E2; [reflexivity|lia].
  - destruct (delta <? 64) eqn:E; [lia|]. destruct (delta <? 256) eqn:E2; [lia|].
    destruct (delta <? 65536) eqn:E3; [reflexivity|lia].
  - destruct (delta <? 64) eqn:E; [lia|]. destruct (delta <? 256) eqn:E2; [lia|].
    destruct (delta <? 65536) eqn:E3; [lia|reflexivity].
Qed.

Example advance_ex : write_advance_loc true false 4 0 252 = Ok [x7f]
                     /\ write_advance_loc true false 4 0 256 = Ok [x02; x40]
                     /\ write_advance_loc true true 1 16 272 = Ok [x03; x01; x00]
                     /\ write_advance_loc true false 1 0 65536 = Ok [x04; x00; x00; x01; x00]
                     /\ write_advance_loc true false 4 0 6 = Err WInvalidFrameCodeOffset.
Proof. vm_compute. repeat split. Qed.

(* (3) insn_write_read — every CallFrameInstruction variant that is written decodes (completely: the
   bytes are exactly one instruction, and any following bytes are left untouched) to an instruction
   whose meaning under the CIE's factors is the instruction that was supplied; the only way to fail is
   InvalidFrameDataOffset, exactly when the offset operand that has to be factored (negative CFA
   offsets, every Offset/ValOffset) is not an i32 multiple of a non-zero factor; never a panic. *)
Theorem insn_write_read : forall (dbg be : bool) (caf : N) (daf : Z) (i : cfi),
  cfi_wf i = true -> is_i8 daf = true ->
  (forall bs, write_insn dbg daf i = Ok bs ->
     exists d, decode_all be bs = Some [d] /\
               (forall rest, decode1 be (bs ++ rest) = Some (d, rest)) /\
               sem caf daf d = MInsn i) /\
  ((exists bs, write_insn dbg daf i = Ok bs) \/
   (write_insn dbg daf i = Err WInvalidFrameDataOffset /\
    exists o, factored_operand i = Some o /\ ~ factorable daf o)) /\
  (forall bs o, write_insn dbg daf i = Ok bs -> factored_operand i = Some o -> factorable daf o).
Proof.
  intros dbg be caf daf i Hi Hd.
  destruct (write_insn_spec dbg be caf daf i Hi Hd) as [(d & E & Hs & Hok & Hfa)|[E Hn]]; rewrite E.
  - pose proof (fun rest => decode1_enc be d rest Hok) as Hdec.
    split; [|split; [left; eexists; reflexivity|intros ? o _; apply Hfa]].
    intros ? [= <-]. exists d. split; [|split; assumption].
    rewrite <- (app_nil_r (enc_dinsn be d)).
    apply decode_all_cons; [apply enc_dinsn_nonempty|exact Hdec|reflexivity].
  - split; [discriminate|]. split; [right; split; [reflexivity|exact Hn]|discriminate].
Qed.

Example insn_ex_offset_short : write_insn true (-8) (Offset 6 (-16)) = Ok [x86; x02].
Proof. vm_compute. reflexivity. Qed.
Example insn_ex_offset_sf : write_insn true (-8) (Offset 6 16) = Ok [x11; x06; x7e].
Proof. vm_compute. reflexivity. Qed.
Example insn_ex_offset_ext : write_insn true 8 (Offset 64 16) = Ok [x05; x40; x02].
Proof. vm_compute. reflexivity. Qed.
Example insn_ex_cfa_sf : write_insn true (-8) (Cfa 7 (-16)) = Ok [x12; x07; x02]
                         /\ write_insn true (-8) (Cfa 7 16) = Ok [x0c; x07; x10].
Proof. vm_compute. split; reflexivity. Qed.
Example insn_ex_restore : write_insn true 1 (Restore 63) = Ok [xff] /\ write_insn true 1 (Restore 64) = Ok [x06; x40].
Proof. vm_compute. split; reflexivity. Qed.
Example insn_ex_unencodable : write_insn true 8 (ValOffset 5 12) = Err WInvalidFrameDataOffset.
Proof. vm_compute. reflexivity. Qed.
Example insn_ex_decode : decode_all false [x86; x02] = Some [DOffset 6 2]
                         /\ sem 1 (-8) (DOffset 6 2) = MInsn (Offset 6 (-16)).
Proof. vm_compute. split; reflexivity. Qed.

(* the instruction area of an FDE decodes to the supplied instructions at their code offsets, and the
   initial instructions of a CIE to the supplied list *)
Theorem fde_program_read : forall (dbg be : bool) (caf : N) (daf : Z) (l : list (N * cfi)) bs,
  forallb fde_insn_wf l = true -> is_u8 caf = true -> is_i8 daf = true ->
  write_fde_insns dbg be caf daf 0 l = Ok bs ->
  exists ds, decode_all be bs = Some ds /\ locate 0 (map (sem caf daf) ds) = l.
Proof. exact fde_program_read_pack. Qed.

Theorem cie_program_read : forall (dbg be : bool) (caf : N) (daf : Z) (l : list cfi) bs,
  forallb cfi_wf l = true -> is_i8 daf = true ->
  write_insns dbg daf l = Ok bs ->
  exists ds, decode_all be bs = Some ds /\ map (sem caf daf) ds = map MInsn l.
Proof. exact cie_program_read_pack. Qed.

Example fde_program_ex :
  write_fde_insns true false 2 (-8) 0 [(0, Cfa 7 16); (4, Offset 6 (-16)); (4, RememberState); (600, RestoreState)]
  = Ok [x0c; x07; x10; x42; x86; x02; x0a; x03; x2a; x01; x0b].
Proof. vm_compute. reflexivity. Qed.

(* (4) entry_layout — an entry is only written for an address size of 1, 2, 4 or 8 (anything else is
   UnsupportedWordSize, see unsupported_address_size_is_error); every written CIE/FDE, in both formats
   (4- or 12-byte initial length), has |entry| = (4 or 12) + length a multiple of the address size; the length field holds the
   size of the rest; the area after the header decodes to exactly the supplied instructions followed by
   fewer than address_size DW_CFA_nop and nothing else. (The 64-bit format was padded relative to 8
   instead of 12 until repo d2e46aa; see known_findings.txt.) *)
Theorem entry_layout_cie : forall (dbg be eh : bool) (pos : N) (c : cie) bs,
  cie_wf c = true ->
  cie_write dbg be eh pos c = Ok bs ->
  asz_ok (c_asize c) /\
  exists il hdr area,
    bs = il ++ hdr ++ area /\
    write_initial_length (c_fmt64 c) be (len (hdr ++ area)) = Ok il /\ len il = ilen_size (c_fmt64 c) /\
    len bs mod c_asize c = 0 /\
    exists ds n, decode_all be area = Some (ds ++ repeat DNop n) /\ N.of_nat n < c_asize c /\
                 map (sem (c_caf c) (c_daf c)) ds = map MInsn (c_insns c).
Proof. exact cie_entry_layout. Qed.

Theorem entry_layout_fde : forall (dbg be eh : bool) (pos coff : N) (c : cie) (f : fde) bs,
  cie_wf c = true -> fde_wf f = true ->
  fde_write dbg be eh pos coff c f = Ok bs ->
  asz_ok (c_asize c) /\
  exists il hdr area,
    bs = il ++ hdr ++ area /\
    write_initial_length (c_fmt64 c) be (len (hdr ++ area)) = Ok il /\ len il = ilen_size (c_fmt64 c) /\
    len bs mod c_asize c = 0 /\
    exists ds n, decode_all be area = Some (ds ++ repeat DNop n) /\ N.of_nat n < c_asize c /\
                 locate 0 (map (sem (c_caf c) (c_daf c)) (ds ++ repeat DNop n)) = f_insns f.
Proof. exact fde_entry_layout. Qed.

Definition cie64_ex : cie := mkCie true 4 8 1 (-8) 16 None None 0 false [].
Example entry_layout_dwarf64_ex :
  exists bs, cie_write true false false 0 cie64_ex = Ok bs /\ len bs = 32 /\ len bs mod c_asize cie64_ex = 0.
Proof. eexists. vm_compute. repeat split. Qed.

Definition cie_ex : cie := mkCie false 1 8 1 (-8) 16 (Some (27, AConst 4660)) (Some 27) 27 true [Cfa 7 8; Offset 16 (-8)].
Example entry_layout_ex :
  cie_wf cie_ex = true /\
  cie_write true false true 0 cie_ex =
    Ok [x1c; x00; x00; x00; x00; x00; x00; x00; x01; x7a; x4c; x50; x52; x53; x00; x01; x78; x10; x07; x1b; x1b;
        x1f; x12; x00; x00; x1b; x0c; x07; x08; x90; x01; x00].
Proof. vm_compute. repeat split. Qed.

(* (5) cie_dedup — ids returned by add_cie are equal exactly for equal CIEs (cie_eqb is Leibniz
   equality); a written table is the concatenation of tiles in plan order: each referenced CIE once,
   immediately before the first FDE that refers to it, FDEs in insertion order, unreferenced CIEs not at
   all; every CIE tile is that CIE written at its own offset and every FDE tile is that FDE written at
   its own offset with the offset of its CIE's tile as CIE pointer. *)
Theorem cie_eqb_eq : forall a b : cie, cie_eqb a b = true <-> a = b.
Proof. exact cie_eqb_iff. Qed.

Theorem cie_dedup_ids : forall (dbg : bool) (ops : list bop) t ids j k cj ck idj idk,
  build dbg empty_table [] ops = Ok (t, ids) ->
  nth_error (cies_of ops) j = Some cj -> nth_error (cies_of ops) k = Some ck ->
  nth_error ids j = Some idj -> nth_error ids k = Some idk ->
  (idj = idk <-> cj = ck).
Proof.
  intros dbg ops t ids j k cj ck idj idk H Hcj Hck Hij Hik.
  destruct (build_ids dbg ops empty_table [] t ids []) as [Hnd Hf]; [constructor|constructor|exact H|].
  cbn [app] in Hf.
  pose proof (Lib.Forall2_nth _ _ _ j cj idj Hf Hcj Hij) as Hj. cbn beta in Hj.
  pose proof (Lib.Forall2_nth _ _ _ k ck idk Hf Hck Hik) as Hk. cbn beta in Hk.
  split.
  - intros ->. congruence.
  - intros ->. rewrite NoDup_nth_error in Hnd. apply Hnd; [|congruence].
    apply nth_error_Some. congruence.
Qed.

Theorem cie_dedup_emission : forall (dbg be eh : bool) (pos : N) (t : ftable) bs,
  write_table dbg be eh pos t = Ok bs ->
  exists chunks,
    map fst chunks = plan [] 0 (map fst (t_fdes t)) /\
    bs = concat (map snd chunks) /\
    well_tiled dbg be eh (t_cies t) (t_fdes t) pos [] chunks.
Proof. exact write_table_tiled. Qed.

(* what the plan is: all FDEs in order; every referenced CIE exactly once and no other; each FDE after
   its CIE *)
Theorem plan_spec : forall (refs : list nat),
  fde_items (plan [] 0 refs) = seq 0 (length refs) /\
  NoDup (cie_items (plan [] 0 refs)) /\
  (forall idx, In idx (cie_items (plan [] 0 refs)) <-> In idx refs) /\
  (forall a j b idx, plan [] 0 refs = a ++ IFde j :: b -> nth_error refs j = Some idx -> In (ICie idx) a).
Proof.
  intros refs. split; [apply plan_fdes|]. destruct (plan_cies refs [] 0) as [Hnd Hin].
  split; [exact Hnd|]. split.
  - intros idx. rewrite Hin. cbn [In]. tauto.
  - intros a j b idx Hp Hn.
    destruct (plan_cie_before_fde refs [] 0 a j b idx Hp) as [[]|H]; [now rewrite Nat.sub_0_r|lia|exact H].
Qed.

Example plan_ex : plan [] 0 [1; 1; 0; 1; 0]%nat = [ICie 1; IFde 0; IFde 1; ICie 0; IFde 2; IFde 3; IFde 4]%nat.
Proof. reflexivity. Qed.

Definition cie_a : cie := mkCie false 1 4 1 (-4) 8 None None 0 false [Cfa 4 4].
Definition cie_b : cie := mkCie false 1 4 1 (-4) 8 None None 0 true [Cfa 4 4].
Definition fde_a (a : N) : fde := mkFde (AConst a) 16 None [(4, CfaOffset 8)].
Example dedup_ex :
  build_and_write true false false 0
    [BAddCie cie_a; BAddCie cie_b; BAddCie cie_a; BAddFde 2 (fde_a 4096); BAddFde 0 (fde_a 8192)] =
  Ok ([x0c; x00; x00; x00; xff; xff; xff; xff; x01; x00; x01; x7c; x08; x0c; x04; x04;
       x10; x00; x00; x00; x00; x00; x00; x00; x00; x10; x00; x00; x10; x00; x00; x00; x44; x0e; x08; x00;
       x10; x00; x00; x00; x00; x00; x00; x00; x00; x20; x00; x00; x10; x00; x00; x00; x44; x0e; x08; x00],
      [0; 1; 0]%nat, 2%nat).
Proof. vm_compute. reflexivity. Qed.

(* (6) table_roundtrip — reading the written section back, against the header-parser spec of
   CfaEncSpec (parse_cie_body / parse_fde_body: CIE id, version, augmentation string, address size,
   factors, return register, z-augmentation data with L/P/R/S; FDE CIE pointer, pointer-encoded address
   and range, LSDA) and the instruction decoder:
   the section is the plan-ordered sequence of tiles (5); every CIE tile parses to exactly the CIE's
   parameters (personality reduced to the address size, absolute or pc-relative) and its instruction
   area decodes to the initial instructions plus nop padding; every FDE tile parses to the offset of
   its CIE's tile, its address range and LSDA, and its instruction area decodes to the supplied
   instructions at their code offsets plus nop padding.
   Hypotheses: operand typing, section below 2^64 (a table with another address size than 1/2/4/8 is
   not written: unsupported_address_size_is_error). (An FDE whose LSDA presence
   disagrees with its CIE's lsda_encoding is not written at all: lsda_mismatch_is_error.)
   NOT part of the theorem: the evaluated unwind rows themselves — they are the image of the two decoded
   programs under the CFA machine; sections (7) and (8) hand the written bytes to the reader models
   (CfiRun, C06; CfiRd, C05). *)
Theorem pointer_read_back : forall (be : bool) (pos a enc asz : N) bs rest,
  a < 18446744073709551616 -> pos < 18446744073709551616 ->
  (asz = 1 \/ asz = 2 \/ asz = 4 \/ asz = 8) ->
  write_eh_pointer be pos (AConst a) enc asz = Ok bs ->
  pe_pointer be asz enc pos (bs ++ rest) = Some (a mod 2 ^ (8 * asz), rest).
Proof. exact write_eh_pointer_reads. Qed.

Theorem cie_header_read : forall (dbg be eh : bool) (pos : N) (c : cie) bs,
  cie_wf c = true ->
  pos + len bs < 18446744073709551616 ->
  cie_write dbg be eh pos c = Ok bs ->
  exists il body insns pad,
    bs = il ++ body /\ len il = ilen_size (c_fmt64 c) /\
    write_initial_length (c_fmt64 c) be (len body) = Ok il /\
    write_insns dbg (c_daf c) (c_insns c) = Ok insns /\ all_nop pad = true /\ len pad < c_asize c /\
    parse_cie_body be eh (c_fmt64 c) (c_asize c) (pos + ilen_size (c_fmt64 c)) body
      = Some (cie_fields_of c, insns ++ pad).
Proof. exact cie_header_reads. Qed.

Theorem fde_header_read : forall (dbg be eh : bool) (pos coff : N) (c : cie) (f : fde) bs,
  cie_wf c = true -> fde_wf f = true ->
  pos + len bs < 18446744073709551616 -> coff <= pos ->
  fde_write dbg be eh pos coff c f = Ok bs ->
  exists il body insns pad,
    bs = il ++ body /\ len il = ilen_size (c_fmt64 c) /\
    write_initial_length (c_fmt64 c) be (len body) = Ok il /\
    write_fde_insns dbg be (c_caf c) (c_daf c) 0 (f_insns f) = Ok insns /\ all_nop pad = true /\ len pad < c_asize c /\
    parse_fde_body be eh (c_fmt64 c) (c_asize c) (cf_fde_enc (cie_fields_of c)) (c_lsda_enc c) (has_augmentation c)
                   (pos + ilen_size (c_fmt64 c)) body
      = Some (fde_fields_of c f coff, insns ++ pad).
Proof. exact fde_header_reads. Qed.

Theorem table_roundtrip : forall (dbg be eh : bool) (pos : N) (t : ftable) bs,
  Forall (fun c => cie_wf c = true) (t_cies t) ->
  Forall (fun p => fde_wf (snd p) = true) (t_fdes t) ->
  pos + len bs < 18446744073709551616 ->
  write_table dbg be eh pos t = Ok bs ->
  exists chunks,
    map fst chunks = plan [] 0 (map fst (t_fdes t)) /\
    bs = concat (map snd chunks) /\
    reads_back be eh (t_cies t) (t_fdes t) pos [] chunks.
Proof.
  intros dbg be eh pos t bs Hc Hf Hfit H.
  destruct (write_table_tiled dbg be eh pos t bs H) as (chunks & Hp & Hb & Ht).
  exists chunks. split; [exact Hp|]. split; [exact Hb|].
  apply (reads_back_of_tiled dbg be eh (t_cies t) (t_fdes t) Hc Hf chunks pos []); [|constructor|exact Ht].
  rewrite <- Hb. exact Hfit.
Qed.

(* the weaker form without the bound on the section size: tiles in plan order whose instruction areas
   decode to the supplied programs *)
Theorem table_roundtrip_partial : forall (dbg be eh : bool) (pos : N) (t : ftable) bs,
  Forall (fun c => cie_wf c = true) (t_cies t) ->
  Forall (fun p => fde_wf (snd p) = true) (t_fdes t) ->
  write_table dbg be eh pos t = Ok bs ->
  exists chunks,
    map fst chunks = plan [] 0 (map fst (t_fdes t)) /\
    bs = concat (map snd chunks) /\
    well_tiled dbg be eh (t_cies t) (t_fdes t) pos [] chunks /\
    Forall (tile_reads_back be (t_cies t) (t_fdes t)) chunks.
Proof.
  intros dbg be eh pos t bs Hc Hf H.
  destruct (write_table_tiled dbg be eh pos t bs H) as (chunks & Hp & Hb & Ht).
  exists chunks. repeat split; try assumption.
  eapply well_tiled_reads_back; eassumption.
Qed.

Example pointer_ex :
  write_eh_pointer false 100 (AConst 40) 27 8 = Ok [xc4; xff; xff; xff]
  /\ pe_pointer false 8 27 100 [xc4; xff; xff; xff; x55] = Some (40, [x55]).
Proof. vm_compute. split; reflexivity. Qed.

Example cie_header_ex :
  parse_cie_body false true false 8 4
    [x00; x00; x00; x00; x01; x7a; x4c; x50; x52; x53; x00; x01; x78; x10; x07; x1b; x1b;
     x1f; x12; x00; x00; x1b; x0c; x07; x08; x90; x01; x00]
  = Some (cie_fields_of cie_ex, [x0c; x07; x08; x90; x01; x00])
  /\ cie_fields_of cie_ex = mkFields 1 [x7a; x4c; x50; x52; x53] None 1 (-8) 16 (Some 27) (Some (27, 4660)) (Some 27) true.
Proof. vm_compute. split; reflexivity. Qed.

Definition table_ex : ftable := mkTable [cie_a; cie_b] [(0%nat, fde_a 4096); (1%nat, fde_a 8192); (0%nat, fde_a 12288)].
Example table_hyps_ex :
  Forall (fun c => cie_wf c = true) (t_cies table_ex) /\
  Forall (fun p => fde_wf (snd p) = true /\ exists c, nth_error (t_cies table_ex) (fst p) = Some c) (t_fdes table_ex) /\
  exists bs, write_table true false true 0 table_ex = Ok bs /\ length bs = 96%nat.
Proof.
  split; [repeat constructor|]. split.
  - repeat constructor; eexists; reflexivity.
  - eexists. split; [vm_compute; reflexivity|reflexivity].
Qed.

(* no_panic — the table writer never panics on well-typed tables whose FDEs name CIEs of the table, for
   EVERY address size (u8) and both build modes; building a table panics only in a checked build on
   decreasing instruction offsets (debug_assert in add_instruction; a release build reports
   InvalidFrameCodeOffset when writing). *)
Theorem no_panic_write : forall (dbg be eh : bool) (pos : N) (t : ftable),
  Forall (fun c => cie_wf c = true) (t_cies t) ->
  Forall (fun p => fde_wf (snd p) = true /\ exists c, nth_error (t_cies t) (fst p) = Some c) (t_fdes t) ->
  write_table dbg be eh pos t <> Panic.
Proof.
  intros dbg be eh pos t Hc Hf. unfold write_table. apply write_fdes_np; try assumption.
  - apply repeat_length.
  - intros i o Hio. exfalso.
    destruct (Nat.lt_ge_cases i (length (t_cies t))) as [Hlt|Hge].
    + rewrite nth_error_repeat_lt in Hio by exact Hlt. discriminate.
    + assert (nth_error (repeat (@None N) (length (t_cies t))) i = None)
        by (apply nth_error_None; rewrite repeat_length; exact Hge).
      congruence.
Qed.

(* an address size other than 1, 2, 4 or 8 (0 included) is UnsupportedWordSize when the entry is padded:
   no CIE or FDE with such a size is ever written, and nothing panics or loops *)
Theorem unsupported_address_size_is_error : forall (dbg be eh : bool) (pos coff : N) (c : cie) (f : fde),
  ~ asz_ok (c_asize c) ->
  (forall body, close_entry dbg be (c_fmt64 c) (c_asize c) body = Err WUnsupportedWordSize) /\
  (forall bs, cie_write dbg be eh pos c <> Ok bs) /\
  (forall bs, fde_write dbg be eh pos coff c f <> Ok bs) /\
  (cie_wf c = true -> cie_write dbg be eh pos c <> Panic) /\
  (cie_wf c = true -> fde_wf f = true -> coff <= pos -> fde_write dbg be eh pos coff c f <> Panic).
Proof.
  intros dbg be eh pos coff c f Hn. split; [|split; [|split; [|split]]].
  - intros body. unfold close_entry. now rewrite write_nop_unsupported.
  - intros bs H. apply cie_write_ok_asz in H. contradiction.
  - intros bs H. apply fde_write_ok_asz in H. contradiction.
  - apply cie_write_np.
  - intros. apply fde_write_np; assumption.
Qed.

Example unsupported_address_size_ex :
  build_and_write true false false 0 [BAddCie (mkCie false 1 0 1 1 8 None None 0 false []); BAddFde 0 (fde_a 0)] = Err WUnsupportedWordSize
  /\ build_and_write false false false 0 [BAddCie (mkCie false 1 0 1 1 8 None None 0 false []); BAddFde 0 (fde_a 0)] = Err WUnsupportedWordSize
  /\ build_and_write true false true 0 [BAddCie (mkCie true 1 16 1 1 8 None None 27 false []); BAddFde 0 (fde_a 0)] = Err WUnsupportedWordSize.
Proof. vm_compute. repeat split. Qed.

(* an FDE whose LSDA presence disagrees with its CIE's lsda_encoding is never written and never panics:
   once the CIE pointer and the address range have been written the result is InvalidAddress *)
Theorem lsda_mismatch_is_error : forall (dbg be eh : bool) (pos coff : N) (c : cie) (f : fde),
  cie_wf c = true -> fde_wf f = true -> coff <= pos ->
  lsda_ok c f = false ->
  (forall bs, fde_write dbg be eh pos coff c f <> Ok bs) /\
  fde_write dbg be eh pos coff c f <> Panic /\
  (forall ptr addrs,
     (if eh then let* d := chk_sub 64 dbg (pos + ilen_size (c_fmt64 c)) coff in write_udata be d 4
      else write_udata be coff (word_size (c_fmt64 c))) = Ok ptr ->
     (if negb (c_fde_enc c =? 0)
      then let* a := write_eh_pointer be (pos + ilen_size (c_fmt64 c) + len ptr) (f_addr f) (c_fde_enc c) (c_asize c) in
           let* l := write_eh_pointer_data be (f_len f) (pe_format (c_fde_enc c)) (c_asize c) in Ok (a ++ l)
      else let* a := write_address be (f_addr f) (c_asize c) in
           let* l := write_udata be (f_len f) (c_asize c) in Ok (a ++ l)) = Ok addrs ->
     fde_write dbg be eh pos coff c f = Err WInvalidAddress).
Proof.
  intros dbg be eh pos coff c f Hwf Hf Hcoff Hls. split; [|split].
  - intros bs E. apply fde_write_parts in E. destruct E as (_ & E & _). congruence.
  - apply fde_write_np; assumption.
  - intros ptr addrs Hptr Haddrs. unfold fde_write. cbv zeta. rewrite Hptr. cbn [bind]. rewrite Haddrs. cbn [bind].
    unfold lsda_ok in Hls. rewrite Hls. reflexivity.
Qed.

Theorem no_panic_build : forall (dbg : bool) (ops : list bop) t ids,
  (dbg = true -> ops_sorted ops = true) -> build dbg t ids ops <> Panic.
Proof.
  intros dbg. induction ops as [|op r IH]; intros t ids H; cbn [build]; [discriminate|].
  destruct op as [c|k f].
  - destruct (add_cie t c) as [t' id]. apply IH. intros Hd. exact (H Hd).
  - destruct (nth_error ids k) as [id|]; [|discriminate].
    apply bind_not_panic.
    + apply fde_add_instructions_np. cbn [f_insns rev]. intros Hd. specialize (H Hd).
      cbn [ops_sorted] in H. apply andb_true_iff in H. tauto.
    + intros f' _. apply IH. intros Hd. specialize (H Hd). cbn [ops_sorted] in H. apply andb_true_iff in H. tauto.
Qed.

(* the excluded case does panic in the model, as it does in gimli *)
Example panic_ex_decreasing :
  build_and_write true false false 0 [BAddCie cie_a; BAddFde 0 (mkFde (AConst 0) 8 None [(4, RememberState); (0, RestoreState)])] = Panic
  /\ build_and_write false false false 0 [BAddCie cie_a; BAddFde 0 (mkFde (AConst 0) 8 None [(4, RememberState); (0, RestoreState)])]
     = Err WInvalidFrameCodeOffset.
Proof. vm_compute. split; reflexivity. Qed.
Example lsda_mismatch_ex :
  build_and_write true false false 0 [BAddCie cie_b; BAddFde 0 (mkFde (AConst 0) 8 (Some (AConst 9)) [])] = Err WInvalidAddress
  /\ build_and_write false false false 0 [BAddCie cie_a; BAddFde 0 (mkFde (AConst 0) 8 (Some (AConst 9)) [])] = Err WInvalidAddress
  /\ build_and_write false false false 0
       [BAddCie (mkCie false 1 4 1 1 8 None (Some 0) 0 false []); BAddFde 0 (fde_a 0)] = Err WInvalidAddress.
Proof. vm_compute. repeat split. Qed.

(* (7) composition with the READER models (CfiRun = C06, CfiRd = C05; proofs in Proofs/CfiRoundtrip.v,
   which uses the theorems of C05 and C06 as they are stated there).

   insn_read_by_reader — for every CallFrameInstruction variant the reader's instruction parser
   (CfiRun.parse_insn, any build mode, any address size, at any section offset, with any following bytes)
   returns, on the written bytes, the reader's form [to_insn] of the very instruction d that the C14
   decoder spec assigns to them and whose meaning is the instruction supplied: same operands, expression
   operands as (offset, length) references to the blob at the end of the instruction's bytes.
   DW_CFA_AARCH64_negate_ra_state is UnknownCallFrameInstruction unless the reader's vendor is AArch64. *)
Theorem insn_read_by_reader : forall (dbg be : bool) (caf : N) (daf : Z) (i : cfi) bs,
  cfi_wf i = true -> is_i8 daf = true -> write_insn dbg daf i = Ok bs ->
  exists d,
    (forall rest, decode1 be (bs ++ rest) = Some (d, rest)) /\ sem caf daf d = MInsn i /\
    (forall e, expr_of d = Some e -> exists p, bs = p ++ e) /\
    forall dbg' asz aa off rest,
      CfiRun.parse_insn dbg' be asz aa off (bs ++ rest) =
      if negb aa && (match i with NegateRaState => true | _ => false end)
      then Err EUnknownCallFrameInstruction
      else Ok (to_insn off (len bs) d, rest).
Proof. exact insn_read_by_reader_lem. Qed.

Example insn_read_by_reader_ex :
  write_insn true (-8) (Offset 6 (-16)) = Ok [x86; x02] /\
  CfiRun.parse_insn false false 8 false 100 [x86; x02; x55] = Ok (CfaSpec.IOffset 6 2, [x55]) /\
  write_insn true 1 (ValExpression 300 [x11; x22]) = Ok [x16; xac; x02; x02; x11; x22] /\
  CfiRun.parse_insn true true 4 false 100 [x16; xac; x02; x02; x11; x22]
  = Ok (CfaSpec.IValExpression 300 {| CfaSpec.ue_off := 104; CfaSpec.ue_len := 2 |}, []).
Proof. vm_compute. repeat split. Qed.

(* entries_read_by_reader — the reader's entry iterator (CfiRd.entries_all, any build mode) over a written
   .debug_frame or .eh_frame section (section loaded at address 0; every CIE of the table has the section's
   address size; section smaller than 4 GiB) terminates without error and returns, in plan order, one item
   per tile: for a CIE tile the CIE record with the offset, format, version, address size, factors, return
   register, augmentation (LSDA encoding, personality pointer reduced to the address size and marked
   indirect iff bit 7 is set, FDE encoding, signal flag) of that CIE and the window of its instruction
   area; for an FDE tile a partial FDE at that offset pointing at the offset of its CIE's tile, for which
   CfiRd.fde_parse returns the FDE bound to exactly that CIE record, with the initial address (reduced to the
   address size), the range and the LSDA of the FDE and the window of its instruction area. All pointer
   encodings the writer supports (absptr/pcrel x the nine formats x indirect) are covered; the proof goes
   through C05's entry lemmas (parse_cfi_entry_cie/_fde, cie_from_offset_enc, fde_body_enc) after showing
   that every written entry IS CfiSpec.enc_cie / enc_fde of its translation (cie_rec_of / fde_rec_of). *)
Theorem entries_read_by_reader : forall (dbg dbg' be eh : bool) (asz : N) (t : ftable) bs,
  Forall (fun c => cie_wf c = true /\ c_asize c = asz) (t_cies t) ->
  Forall (fun p => fde_wf (snd p) = true) (t_fdes t) ->
  len bs + 16 < 4294967295 ->
  write_table dbg be eh 0 t = Ok bs ->
  exists chunks items,
    map fst chunks = plan [] 0 (map fst (t_fdes t)) /\
    bs = concat (map snd chunks) /\
    CfiRd.entries_all dbg' (rd_cfg eh be asz) bs = Ok (items, None) /\
    reader_sees dbg dbg' be eh asz (t_cies t) (t_fdes t) bs 0 [] chunks items.
Proof. exact entries_read_by_reader_lem. Qed.

Example entries_read_by_reader_ex :
  Forall (fun c => cie_wf c = true /\ c_asize c = 4) (t_cies table_ex) /\
  Forall (fun p => fde_wf (snd p) = true) (t_fdes table_ex) /\
  exists bs items,
    write_table true false true 0 table_ex = Ok bs /\ len bs + 16 < 4294967295 /\
    CfiRd.entries_all true (rd_cfg true false 4) bs = Ok (items, None) /\ length items = 5%nat.
Proof.
  split; [repeat constructor|]. split; [repeat constructor|].
  eexists. eexists. split; [vm_compute; reflexivity|]. split; [vm_compute; reflexivity|].
  split; [vm_compute; reflexivity|reflexivity].
Qed.

(* rows_read_by_reader_partial — for a written CIE and a written FDE
   of it, the unwind rows that gimli's table model (CfiRun.fde_rows, C06) produces from the two written
   instruction areas are, whenever the storage limits of the context are not hit (within_limits, C06), exactly
   the rows of the DWARF call-frame machine CfaSpec.run_spec on the reader's form of the two programs
   (ic ++ nops, ifd ++ nops), where ic/ifd match (imatch) the decoded instructions dsc/dsf whose meanings are
   the supplied CIE instructions and the supplied FDE instructions at their code offsets; and without any
   limit hypothesis the unlimited spec run of the written areas IS that run (first conjunct).
   What this statement leaves out: (1) a CfaSpec-level semantics of the abstract write::CallFrameInstruction
   list itself — the theorem is stated on the reader's instruction form of the written program, not on a
   machine defined directly over the (offset, instruction) script; that the effect of a reader instruction
   depends only on its C14 meaning is not proved; (2) the link from entries_read_by_reader's FDE record
   (fd_init, fd_range, instruction windows) to the fde_in handed to CfiRun is by construction of fde_in_of,
   not through a common record type (CfiRun takes an already-parsed FDE: C06 and C05 share no type);
   (3) CfiRun models `.debug_frame` without augmentation for DW_CFA_set_loc only, which the writer never emits.
   Items (1) and (2) are the theorems of section (8) (reader_insn_effect_is_meaning, rows_by_script_areas,
   rows_read_by_reader, table_rows_read_by_reader). *)
Theorem rows_read_by_reader_partial :
  forall (dbg be eh aa : bool) (cpos fpos coff : N) (c : CfiWr.cie) (f : CfiWr.fde) cb fb,
  cie_wf c = true -> fde_wf f = true ->
  forallb (vendor_ok aa) (c_insns c) = true -> forallb (fun p => vendor_ok aa (snd p)) (f_insns f) = true ->
  cie_write dbg be eh cpos c = Ok cb -> fde_write dbg be eh fpos coff c f = Ok fb ->
  exists cil chdr carea fil fhdr farea dsc dsf ic ifd n1 n2,
    cb = cil ++ chdr ++ carea /\ fb = fil ++ fhdr ++ farea /\
    map (sem (c_caf c) (c_daf c)) dsc = map MInsn (c_insns c) /\
    locate 0 (map (sem (c_caf c) (c_daf c)) dsf) = f_insns f /\
    Forall2 (imatch (cpos + len cil + len chdr) carea) dsc ic /\
    Forall2 (imatch (fpos + len fil + len fhdr) farea) dsf ifd /\
    forall dbg' caps cx init range,
      let fi := fde_in_of be aa c init range (cpos + len cil + len chdr) carea (fpos + len fil + len fhdr) farea in
      let spec := CfaSpec.run_spec (CfiRunProofs.sparams_of fi) init (CfaSpec.spec_end (c_asize c) init range)
                           (map CfaSpec.It (ic ++ repeat CfaSpec.INop n1)) (map CfaSpec.It (ifd ++ repeat CfaSpec.INop n2)) in
      CfiRunProofs.spec_unl dbg' fi = spec /\
      (CfiRun.cap_full (CfaSpec.max_stack caps) 0 = false -> CfiRunProofs.within_limits dbg' caps fi = true ->
       Forall2 CfiRunProofs.row_equiv (fst (fst (CfiRun.fde_rows dbg' caps fi cx))) (fst spec) /\
       snd (fst (CfiRun.fde_rows dbg' caps fi cx)) = snd spec).
Proof. exact rows_read_by_reader_lem. Qed.

Definition heap_caps : CfaSpec.caps := {| CfaSpec.max_stack := Some 4%nat; CfaSpec.max_rules := Some 192%nat |}.
Example rows_read_by_reader_ex :
  cie_wf cie_a = true /\ fde_wf (fde_a 4096) = true /\
  forallb (vendor_ok false) (c_insns cie_a) = true /\
  forallb (fun p => vendor_ok false (snd p)) (f_insns (fde_a 4096)) = true /\
  exists cb fb rows cx',
    cie_write true false false 0 cie_a = Ok cb /\ fde_write true false false 16 0 cie_a (fde_a 4096) = Ok fb /\
    CfiRun.fde_rows true heap_caps (fde_in_of false false cie_a 4096 16 13 (skipn 13 cb) 32 (skipn 16 fb))
                    {| CfiRun.c_stack := []; CfiRun.c_initial_rule := None; CfiRun.c_init := true |}
    = ((rows, CfaSpec.Done), cx') /\
    map CfiRun.r_start rows = [4096; 4100] /\ map CfiRun.r_cfa rows = [CfaSpec.CfaRegOff 4 4; CfaSpec.CfaRegOff 4 8].
Proof.
  repeat split; try reflexivity.
  eexists. eexists. eexists. eexists. split; [vm_compute; reflexivity|]. split; [vm_compute; reflexivity|].
  split; [vm_compute; reflexivity|]. split; reflexivity.
Qed.


(* (8) rows_read_by_reader in full (Spec/CfaScriptSpec.v, Proofs/CfaScriptProofs.v).
   The call-frame machine is defined directly over the writer's script: [script_step] gives the meaning of
   every write::CallFrameInstruction variant on (cfa, rules, args_size, remembered states) with offsets in
   bytes and expressions as their bytes; [script_fde] completes a row exactly where the script's code offset
   grows; [script_rows_lim caps aa asz init range cie fde] is the table, with a reader context's storage limits
   layered on (rows needed = remembered + current + 1 for the saved initial rules when the CIE leaves >= 2;
   rules = registers with a non-default rule) and [aa] = the reader's vendor knows negate_ra_state.

   reader_insn_effect_is_meaning — (item 1 left out by rows_read_by_reader_partial) the effect of a reader instruction on the call-frame state
   depends only on its C14 meaning: if the reader instruction is the reader form of a decoded instruction whose
   meaning (CfaEncSpec.sem under the CIE's factors) is the abstract instruction i, and its expression operand
   designates (X) the bytes of i's expression, then CfaSpec.spec_step on it and script_step on i agree: same
   error, or related successor states (same registers in the same order with related rules, same CFA, args
   size and remembered states). *)
Theorem reader_insn_effect_is_meaning :
  forall (X : CfaSpec.uexpr -> list byte -> Prop) (p : CfaSpec.sparams) (aa : bool)
         (ini : option CfaSpec.rmap) (xini : option xmap) (s : CfaSpec.sstate) (xs : xstate) (ri : CfaSpec.insn) (i : cfi),
  state_rel X s xs -> omap_rel X ini xini ->
  insn_rel X (CfaSpec.sp_caf p) (CfaSpec.sp_daf p) ri i -> vendor_ok aa i = true ->
  step_agrees X (CfaSpec.s_loc s) (CfaSpec.spec_step p ini s ri) (script_step aa xini xs i).
Proof. exact step_by_meaning. Qed.

(* rows_by_script_areas — for ANY abstract CIE program lc and FDE script lf (operands of the Rust types), the two
   instruction areas the writer produces (write_insns / write_fde_insns, each followed by any nop padding), placed
   at ANY section offsets coff / foff, evaluated by gimli's table model (CfiRun.fde_rows, C06: UnwindContext with
   capacities caps, any build mode dbg', any vendor aa, any previous context cx) give exactly
   script_rows_lim caps aa ... lc lf: row by row the same [start, end), args size, CFA, and for EVERY register the
   same rule (row_sees), an expression operand being a section reference to the bytes of the script's expression
   inside the CIE's or the FDE's area (in2); and the evaluation ends the same way (Done, or the same read::Error —
   incl. StackFull / TooManyRegisterRules exactly when the script machine's occupancy exceeds caps, and
   UnknownCallFrameInstruction for negate_ra_state under a non-AArch64 reader). No within_limits and no vendor
   hypothesis: what happens when the limits are hit is part of the statement. *)
Theorem rows_by_script_areas :
  forall (dbg be aa : bool) (asz caf : N) (daf : Z) (lc : list cfi) (lf : list (N * cfi)) ci fi pad1 pad2,
  forallb cfi_wf lc = true -> forallb fde_insn_wf lf = true -> is_u8 caf = true -> is_i8 daf = true ->
  asz_ok asz ->
  write_insns dbg daf lc = Ok ci -> write_fde_insns dbg be caf daf 0 lf = Ok fi ->
  all_nop pad1 = true -> all_nop pad2 = true ->
  forall dbg' caps cx init range coff foff,
    CfiRun.cap_full (CfaSpec.max_stack caps) 0 = false ->
    let fin := mk_fde_in be aa asz caf daf init range coff (ci ++ pad1) foff (fi ++ pad2) in
    let scr := script_rows_lim caps aa asz init range lc lf in
    Forall2 (row_sees (in2 coff (ci ++ pad1) foff (fi ++ pad2))) (fst (fst (CfiRun.fde_rows dbg' caps fin cx))) (fst scr) /\
    snd (fst (CfiRun.fde_rows dbg' caps fin cx)) = snd scr.
Proof. exact CfaScriptProofs.rows_by_script_areas. Qed.

(* rows_read_by_reader — the full form of rows_read_by_reader_partial: a written CIE and a written FDE of it *)
Theorem rows_read_by_reader :
  forall (dbg be eh aa : bool) (cpos fpos coff : N) (c : CfiWr.cie) (f : CfiWr.fde) cb fb,
  cie_wf c = true -> fde_wf f = true ->
  cie_write dbg be eh cpos c = Ok cb -> fde_write dbg be eh fpos coff c f = Ok fb ->
  exists cil chdr carea fil fhdr farea,
    cb = cil ++ chdr ++ carea /\ fb = fil ++ fhdr ++ farea /\
    len cil = ilen_size (c_fmt64 c) /\ len fil = ilen_size (c_fmt64 c) /\
    forall dbg' caps cx init range,
      CfiRun.cap_full (CfaSpec.max_stack caps) 0 = false ->
      let cbase := cpos + len cil + len chdr in
      let fbase := fpos + len fil + len fhdr in
      let fi := fde_in_of be aa c init range cbase carea fbase farea in
      let scr := script_rows_lim caps aa (c_asize c) init range (c_insns c) (f_insns f) in
      Forall2 (row_sees (in2 cbase carea fbase farea)) (fst (fst (CfiRun.fde_rows dbg' caps fi cx))) (fst scr) /\
      snd (fst (CfiRun.fde_rows dbg' caps fi cx)) = snd scr.
Proof. exact rows_read_by_reader_full. Qed.

(* table_rows_read_by_reader — (item 2 left out by rows_read_by_reader_partial) the whole written table through BOTH reader models: the entry
   iterator (C05, CfiRd.entries_all) returns the tiles as in entries_read_by_reader, and for the k-th FDE tile the
   FDE record fd that CfiRd.fde_parse returns — handed to the table evaluator through CfiUwi.fde_in_of, the very
   adapter UnwindSection::unwind_info_for_address uses (C05 composition) — has the FDE's initial address and
   range and evaluates (C06, any vendor, build mode, capacities, previous context) to the script machine's table
   of the k-th FDE's script under its CIE's initial instructions. Expression references are resolved in the
   instruction windows of the reader's own records (ci_instr / fd_instr). *)
Theorem table_rows_read_by_reader : forall (dbg dbg' be eh : bool) (asz : N) (t : ftable) bs,
  Forall (fun c => cie_wf c = true /\ c_asize c = asz) (t_cies t) ->
  Forall (fun p => fde_wf (snd p) = true) (t_fdes t) ->
  len bs + 16 < 4294967295 ->
  write_table dbg be eh 0 t = Ok bs ->
  exists chunks items,
    map fst chunks = plan [] 0 (map fst (t_fdes t)) /\
    bs = concat (map snd chunks) /\
    CfiRd.entries_all dbg' (rd_cfg eh be asz) bs = Ok (items, None) /\
    reader_sees dbg dbg' be eh asz (t_cies t) (t_fdes t) bs 0 [] chunks items /\
    rows_seen dbg' be eh asz (t_cies t) (t_fdes t) bs chunks items.
Proof. exact table_rows_read_by_reader_lem. Qed.

(* what rows_seen says for one FDE tile *)
Example rows_seen_unfold : forall dbg' be eh asz cies fdes sec k b r p its,
  rows_seen dbg' be eh asz cies fdes sec ((CfaEncSpec.IFde k, b) :: r) (CfiRd.IFde p :: its) =
  ((exists idx f c fd,
      nth_error fdes k = Some (idx, f) /\ nth_error cies idx = Some c /\
      CfiRd.fde_parse dbg' (rd_cfg eh be asz) sec p = Ok fd /\
      (CfiRd.fd_init fd = addr_val (f_addr f) mod 2 ^ (8 * c_asize c) /\ CfiRd.fd_range fd = f_len f /\
       forall aa dbg2 caps cx,
         CfiRun.cap_full (CfaSpec.max_stack caps) 0 = false ->
         let fi := CfiUwi.fde_in_of be aa fd in
         let scr := script_rows_lim caps aa (c_asize c) (CfiRd.fd_init fd) (CfiRd.fd_range fd) (c_insns c) (f_insns f) in
         Forall2 (row_sees (in2 (CfiRd.off (CfiRd.ci_instr (CfiRd.fd_cie fd))) (CfiRd.win (CfiRd.ci_instr (CfiRd.fd_cie fd)))
                                (CfiRd.off (CfiRd.fd_instr fd)) (CfiRd.win (CfiRd.fd_instr fd))))
                 (fst (fst (CfiRun.fde_rows dbg2 caps fi cx))) (fst scr) /\
         snd (fst (CfiRun.fde_rows dbg2 caps fi cx)) = snd scr))
   /\ rows_seen dbg' be eh asz cies fdes sec r its).
Proof. reflexivity. Qed.

(* the script machine on the running example, and a script that hits the row-stack limit of StoreOnHeap (4 rows):
   the CIE leaves two rules (one row for the saved initial rules), two remember_state fit, the third is StackFull *)
Example script_rows_ex :
  script_rows false 4 4096 16 (c_insns cie_a) (f_insns (fde_a 4096)) =
  ([ {| xr_start := 4096; xr_end := 4100; xr_cfa := XCfaRegOff 4 4; xr_args := 0; xr_rules := [] |};
     {| xr_start := 4100; xr_end := 4112; xr_cfa := XCfaRegOff 4 8; xr_args := 0; xr_rules := [] |} ], CfaSpec.Done).
Proof. vm_compute. reflexivity. Qed.
Example script_rows_limit_ex :
  snd (script_rows_lim heap_caps false 8 0 64 [Cfa 7 8; Offset 16 (-8); Offset 6 (-16)]
                       [(0, RememberState); (4, RememberState); (8, RememberState)]) = CfaSpec.Fail EStackFull /\
  length (fst (script_rows_lim heap_caps false 8 0 64 [Cfa 7 8; Offset 16 (-8); Offset 6 (-16)]
                       [(0, RememberState); (4, RememberState); (8, RememberState)])) = 2%nat /\
  snd (script_rows false 8 0 64 [Cfa 7 8; Offset 16 (-8); Offset 6 (-16)]
                       [(0, RememberState); (4, RememberState); (8, RememberState)]) = CfaSpec.Done /\
  snd (script_rows false 8 0 64 [] [(0, NegateRaState)]) = CfaSpec.Fail EUnknownCallFrameInstruction /\
  snd (script_rows true 4 4294967000 400 [] [(4, Undefined 1); (300, Undefined 2)]) = CfaSpec.Fail EAddressOverflow.
Proof. vm_compute. repeat split. Qed.
(* the hypotheses of rows_by_script_areas on an instance with an expression and a vendor instruction *)
Example rows_by_script_areas_ex :
  forallb cfi_wf [Cfa 7 8; ValExpression 3 [x11; x22]] = true /\
  forallb fde_insn_wf [(0, NegateRaState); (8, Expression 5 [x9c])] = true /\
  exists ci fi,
    write_insns true (-8) [Cfa 7 8; ValExpression 3 [x11; x22]] = Ok ci /\
    write_fde_insns true false 4 (-8) 0 [(0, NegateRaState); (8, Expression 5 [x9c])] = Ok fi /\
    map CfiRun.r_start (fst (fst (CfiRun.fde_rows true heap_caps (mk_fde_in false true 8 4 (-8) 4096 32 100 (ci ++ [x00]) 200 (fi ++ [x00; x00]))
                              {| CfiRun.c_stack := []; CfiRun.c_initial_rule := None; CfiRun.c_init := true |}))) = [4096; 4104].
Proof.
  split; [reflexivity|]. split; [reflexivity|]. eexists. eexists.
  split; [vm_compute; reflexivity|]. split; [vm_compute; reflexivity|]. vm_compute. reflexivity.
Qed.


(* script_fits_unlimited — "when the context's storage limits are not hit": if along the unlimited evaluation of
   the script the occupancy never exceeds the capacities (script_fits, computed on the script alone), the limited
   table IS the DWARF table (script_rows); otherwise rows_by_script_areas says where StackFull /
   TooManyRegisterRules is reported. *)
Theorem script_fits_unlimited : forall (c : CfaSpec.caps) (aa : bool) (asz init range : N) (cie : list cfi) (fde : list (N * cfi)),
  script_fits c aa cie fde = true ->
  script_rows_lim c aa asz init range cie fde = script_rows aa asz init range cie fde.
Proof. exact CfaScriptProofs.script_fits_unlimited. Qed.
Example script_fits_ex :
  script_fits heap_caps false (c_insns cie_a) (f_insns (fde_a 4096)) = true /\
  script_fits heap_caps false [Cfa 7 8; Offset 16 (-8); Offset 6 (-16)] [(0, RememberState); (4, RememberState); (8, RememberState)] = false /\
  script_fits heap_caps false [Cfa 7 8; Offset 16 (-8); Offset 6 (-16)] [(0, RememberState); (4, RememberState)] = true.
Proof. vm_compute. repeat split. Qed.

Check factoring_exact. Check factoring_exact_code. Check advance_loc_forms. Check advance_loc_encodings.
Check insn_write_read. Check fde_program_read. Check cie_program_read.
Check entry_layout_cie. Check entry_layout_fde.
Check cie_eqb_eq. Check cie_dedup_ids. Check cie_dedup_emission. Check plan_spec.
Check pointer_read_back. Check cie_header_read. Check fde_header_read. Check table_roundtrip.
Check table_roundtrip_partial. Check insn_read_by_reader. Check entries_read_by_reader. Check rows_read_by_reader_partial.
Check no_panic_write. Check unsupported_address_size_is_error. Check lsda_mismatch_is_error. Check no_panic_build.
Check reader_insn_effect_is_meaning. Check rows_by_script_areas. Check rows_read_by_reader. Check table_rows_read_by_reader.
Check script_fits_unlimited.
