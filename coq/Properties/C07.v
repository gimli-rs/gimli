(* Properties/C07.v — Expression decoding and evaluation equal the DWARF stack machine.
   The theorems, each derived in a few lines from the lemmas of Proofs/Op*.v, and non-vacuity examples. *)
From Coq Require Import List NArith ZArith Bool Lia ZifyBool ZifyN ZifyNat.
From Coq.Strings Require Import Byte.
Require Import GV.Base.Res GV.Base.Byt GV.Base.Ints.
Require Import GV.Model.Leb GV.Model.Prim GV.Model.OpDec GV.Model.OpVal GV.Model.OpEval GV.Spec.StackSpec GV.Spec.StackMachine.
Require Import GV.Proofs.OpDecProofs GV.Proofs.OpValProofs GV.Proofs.OpEvalProofs GV.Proofs.OpEvalRefine.
Import ListNotations.
Local Open Scope N_scope.

(* ------------------------------------------------------------------------------------------------
   1. Decoding.  For EVERY opcode byte (all 256), every encoding (address size, format, version,
   byte order), both build modes and every operand byte string, Operation::parse is the generic
   table-driven decoder applied to the operand layout that DWARF 5 Table 7.9 (+ GNU/WASM) gives
   the opcode, followed by the opcode's constructor; opcodes outside the table give
   InvalidExpression. *)
Theorem decode_table : forall (dbg : bool) (e : enc) (opc : byte) (bs : list byte),
  parse_op dbg e (opc :: bs) = generic_decode dbg e opc bs.
Proof. intros. exact (decode_table_lemma dbg e opc bs). Qed.

(* Decoding never panics (no overflow check can fire, in either build mode) and needs no fuel. *)
Theorem decode_no_panic : forall (dbg : bool) (e : enc) (bs : list byte),
  parse_op dbg e bs <> Panic /\ parse_op dbg e bs <> OutOfFuel.
Proof. exact parse_op_no_panic_lemma. Qed.

(* A successful decode consumes the opcode byte plus a prefix of the rest: the returned reader is a
   strict suffix of the input (this is what makes OperationIter and the evaluator progress). *)
Theorem decode_consumes : forall (dbg : bool) (e : enc) (bs : list byte) (o : operation) (rest : list byte),
  parse_op dbg e bs = Ok (o, rest) -> exists b u, bs = b :: u ++ rest.
Proof. exact parse_op_consumes. Qed.

(* The result does not depend on the build mode (debug overflow checks vs release wrapping). *)
Theorem decode_build_mode_independent : forall (e : enc) (bs : list byte),
  parse_op true e bs = parse_op false e bs.
Proof. exact parse_op_dbg. Qed.

(* Expression::operations stops: the stated fuel (length + 1) suffices and no step panics. *)
Theorem operations_terminate : forall (dbg : bool) (e : enc) (bs : list byte),
  snd (operations dbg e bs) <> Some OutOfFuel /\ snd (operations dbg e bs) <> Some Panic.
Proof. intros dbg e bs. apply operations_fuel_ok. apply Nat.lt_succ_diag_r. Qed.

(* Encoding then decoding is the identity: for every operation that is a value of gimli's Operation type
   (wf_op: fields within their Rust widths, piece sizes a whole number of bytes for DW_OP_piece, ...),
   every encoding, both build modes and every continuation `rest`, parsing the canonical encoding
   (Spec/StackSpec.v enc_op: DWARF 5 opcodes, minimal LEB128) returns the operation and leaves `rest`. *)
Theorem decode_roundtrip : forall (dbg : bool) (e : enc) (o : operation) (rest : list byte),
  wf_op e o -> parse_op dbg e (enc_op e o ++ rest) = Ok (o, rest).
Proof. exact decode_roundtrip_lemma. Qed.

Example decode_roundtrip_ex :   (* wf_op is satisfiable by a non-trivial operation; and the bytes it produces *)
  wf_op (mkEnc 8 true 5 false) (OImplicitPointer 4886718345 (-3)) /\
  enc_op (mkEnc 8 true 5 false) (OImplicitPointer 4886718345 (-3)) = [xa0; x89; x67; x45; x23; x01; x00; x00; x00; x7d] /\
  wf_op (mkEnc 2 false 2 true) (ORegisterOffset 65535 (-9223372036854775808) 0).
Proof. repeat split; try (vm_compute; reflexivity). intros H. now elim H. Qed.

Example decode_ex_bregx :    (* DW_OP_bregx 300, -2  on a 4-byte big-endian v5 target *)
  parse_op true (mkEnc 4 false 5 true) [x92; xac; x02; x7e; xaa] = Ok (ORegisterOffset 300 (-2) 0, [xaa]).
Proof. vm_compute. reflexivity. Qed.
Example decode_ex_implicit_pointer_v2 :   (* the reference is address-sized in DWARF 2, offset-sized later *)
  parse_op true (mkEnc 2 true 2 false) [xa0; x34; x12; x05] = Ok (OImplicitPointer 4660 5, []) /\
  parse_op true (mkEnc 2 false 5 false) [xa0; x34; x12; x00; x00; x05] = Ok (OImplicitPointer 4660 5, []).
Proof. split; vm_compute; reflexivity. Qed.
Example decode_ex_piece_overflow :        (* DW_OP_piece with 2^61 bytes: error, not a wrapped size *)
  parse_op true (mkEnc 8 false 5 false) [x93; x80; x80; x80; x80; x80; x80; x80; x80; x20] = Err EInvalidExpression.
Proof. vm_compute. reflexivity. Qed.

(* ------------------------------------------------------------------------------------------------
   2. Value arithmetic.  `canon sz v` is the value v denotes on a target with sz-byte addresses (a
   generic value is its residue modulo 2^(8 sz); typed values are canonical by construction).
   For address sizes 1, 2, 4, 8 (addr_size), every fops (IEEE arithmetic is a parameter), all
   well-formed operands: the model of Value::op(a, b, addr_mask), canonicalised (cres), is the DWARF
   stack machine's op on the canonical operands — the same value or the same error.  Signedness per
   operation is in Spec/StackSpec.v (div/abs/neg/shra/compare signed, mod/shr unsigned; shifts by
   >= width give 0 or the sign).  agrees1/agrees2 (Proofs/OpValProofs.v) are
     agrees2 sz m s := forall a b, addr_size sz -> wf_value a = true -> wf_value b = true ->
                         cres sz (m a b (amask sz)) = s (canon sz a) (canon sz b).
   Since repair 0858756 (shift_length applies addr_mask) this holds for the shift operations with no
   side condition on the count. *)
Theorem value_ops : forall (F : fops) (sz : N),
  agrees2 sz (vadd F) (sp_add sz F) /\ agrees2 sz (vsub F) (sp_sub sz F) /\ agrees2 sz (vmul F) (sp_mul sz F) /\
  agrees2 sz (vdiv F) (sp_div sz F) /\ agrees2 sz vrem (sp_rem sz) /\
  agrees2 sz (vand F) sp_and /\ agrees2 sz (vor F) sp_or /\ agrees2 sz (vxor F) sp_xor /\
  agrees1 sz (vnot F) (sp_not sz) /\ agrees1 sz vneg (sp_neg sz) /\ agrees1 sz vabs (sp_abs sz) /\
  agrees2 sz veq (sp_eq sz) /\ agrees2 sz vge (sp_ge sz) /\ agrees2 sz vgt (sp_gt sz) /\
  agrees2 sz vle (sp_le sz) /\ agrees2 sz vlt (sp_lt sz) /\ agrees2 sz vne (sp_ne sz) /\
  agrees2 sz vshl (sp_shl sz) /\ agrees2 sz vshr (sp_shr sz) /\ agrees2 sz vshra (sp_shra sz) /\
  (forall a t, addr_size sz -> wf_value a = true -> cres sz (convert F a t (amask sz)) = sp_convert sz F (canon sz a) t) /\
  (forall a t, addr_size sz -> wf_value a = true -> cres sz (reinterpret a t (amask sz)) = sp_reinterpret sz (canon sz a) t).
Proof.
  intros F sz. repeat split; try apply agrees1_intro; try apply agrees2_intro; intros; auto with vspec.
  - now apply convert_spec.
  - now apply reinterpret_spec.
Qed.

(* "Generic values compared modulo the address size", one operation at a time, for EVERY operation (shift
   counts included): operands denoting the same canonical values give results denoting the same canonical
   value, or the same error. *)
Theorem mask_invariance_partial : forall (F : fops) (sz : N) (a a' b b' : value),
  addr_size sz -> wf_value a = true -> wf_value a' = true -> wf_value b = true -> wf_value b' = true ->
  canon sz a = canon sz a' -> canon sz b = canon sz b' ->
  (forall op, In op [vadd F; vsub F; vmul F; vdiv F; vrem; vand F; vor F; vxor F; veq; vge; vgt; vle; vlt; vne;
                     vshl; vshr; vshra] ->
     cres sz (op a b (amask sz)) = cres sz (op a' b' (amask sz))) /\
  (forall op, In op [vnot F; vneg; vabs] -> cres sz (op a (amask sz)) = cres sz (op a' (amask sz))) /\
  (forall t, cres sz (convert F a t (amask sz)) = cres sz (convert F a' t (amask sz))) /\
  (forall t, cres sz (reinterpret a t (amask sz)) = cres sz (reinterpret a' t (amask sz))).
Proof.
  intros F sz a a' b b' SZ WA WA' WB WB' CA CB.
  assert (A2 : forall m s, agrees2 sz m s -> cres sz (m a b (amask sz)) = cres sz (m a' b' (amask sz))).
  { intros m s AG. now rewrite (AG a b), (AG a' b'), CA, CB. }
  assert (A1 : forall m s, agrees1 sz m s -> cres sz (m a (amask sz)) = cres sz (m a' (amask sz))).
  { intros m s AG. now rewrite (AG a), (AG a'), CA. }
  repeat split.
  - intros op [<-|[<-|[<-|[<-|[<-|[<-|[<-|[<-|[<-|[<-|[<-|[<-|[<-|[<-|[<-|[<-|[<-|[]]]]]]]]]]]]]]]]]]; eapply A2; eauto with vspec.
  - intros op [<-|[<-|[<-|[]]]]; eapply A1; eauto with vspec.
  - intros t. now rewrite !convert_spec, CA.
  - intros t. now rewrite !reinterpret_spec, CA.
Qed.
(* The statement for whole evaluations (initial value, object address and answers equal modulo 2^(8 sz) give the
   same requests and results) is mask_invariance in part 4. *)

(* since repair 0858756: on a 4-byte target the generic count 2^32+1 denotes 1 *)
Example shift_count_repaired_ex :
  cres 4 (vshl (mkV TGeneric 1) (mkV TGeneric 4294967297) (amask 4)) = Ok (mkV TGeneric 2) /\
  sp_shl 4 (canon 4 (mkV TGeneric 1)) (canon 4 (mkV TGeneric 4294967297)) = Ok (mkV TGeneric 2).
Proof. split; vm_compute; reflexivity. Qed.

(* the hypotheses are satisfiable by non-trivial instances; two boundary computations *)
Example value_ex_hyp : addr_size 2 /\ wf_value (mkV TGeneric 18446744073709551615) = true /\ wf_value (mkV TI8 255) = true.
Proof. repeat split; try (right; left; reflexivity); reflexivity. Qed.
Example value_ex_shra :   (* 2-byte target: 0x8000 shra 20 = -1 (all ones in the 64-bit container), canonically 0xffff *)
  cres 2 (vshra (mkV TGeneric 32768) (mkV TGeneric 20) (amask 2)) = Ok (mkV TGeneric 65535).
Proof. vm_compute. reflexivity. Qed.
Example value_ex_div_min :   (* i8: -128 / -1 wraps to -128 *)
  vdiv no_fops (mkV TI8 128) (mkV TI8 255) (amask 4) = Ok (mkV TI8 128).
Proof. vm_compute. reflexivity. Qed.

(* ------------------------------------------------------------------------------------------------
   3. Evaluation.  inv s := the pc is a suffix of the current bytecode and every saved caller pc is a
   suffix of its bytecode.  It holds initially and is preserved by every step of the evaluator
   (evaluate_one_operation, end_of_expression, every resume_with_*, evaluate_internal); under it
   compute_pc never reaches the out-of-slice case. *)
Theorem pc_in_bounds : forall (F : fops) (dbg : bool) (c : cfg) (mask : N),
  (forall bs, inv (initial_state bs)) /\
  (forall s r s', inv s -> evaluate_one_operation F dbg c mask s = Ok (r, s') -> inv s') /\
  (forall s, inv s -> inv (snd (end_of_expression s))) /\
  (forall w a s s', inv s -> resume_apply F c mask w a s = Ok s' -> inv s') /\
  (forall fuel n s o s', c_max c = Some n -> n <= 4294967295 -> inv s -> s_iter s <= n ->
     evaluate_internal F fuel dbg c mask s = Ok (o, s') -> inv s') /\
  (forall s t, inv s -> compute_pc s t <> Panic).
Proof.
  intros F dbg c mask. refine (conj _ (conj _ (conj _ (conj _ (conj _ _))))).
  - apply initial_inv.
  - intros s r s' I H. now destruct (eoo_ok F dbg c mask s r s' I H).
  - intros s I. now destruct (eoe_ok s I).
  - intros w a s s' I H. now destruct (resume_apply_ok F c mask w a s s' I H).
  - intros fuel n s o s' CM NB I L H. destruct (ei_ok F dbg c mask n CM NB fuel s o s' I L H) as ((K & _) & _). exact K.
  - intros s t [I _]. now destruct (compute_pc_no_panic s t I).
Qed.

(* Branch targets: with the pc inside the bytecode (and a bytecode shorter than 2^63 bytes), DW_OP_skip /
   DW_OP_bra with 16-bit offset t land exactly when 0 <= offset_of_next_op + t <= len — the end of the
   expression is a valid target, anything else is BadBranchTarget; no wrap-around is accepted. *)
Theorem branch_target_exact : forall (s : st) (t : Z),
  sfx (s_pc s) (s_bytecode s) -> (- 32768 <= t < 32768)%Z -> N.of_nat (length (s_bytecode s)) < 2 ^ 63 ->
  let off := (Z.of_nat (length (s_bytecode s)) - Z.of_nat (length (s_pc s)))%Z in
  compute_pc s t =
    if ((0 <=? off + t) && (off + t <=? Z.of_nat (length (s_bytecode s))))%Z
    then Ok (skipn (Z.to_nat (off + t)) (s_bytecode s)) else Err EBadBranchTarget.
Proof. exact compute_pc_exact. Qed.

(* Iteration limit.  With max_iterations = Some n for EVERY u32 n (u32::MAX included, since repair 273f60c compares
   before counting), address size <= 8 and fuel n+1, for EVERY program, answer list, configuration and both build
   modes the whole conversation (evaluate + all resumes): never runs out of fuel (so it terminates: a looping
   program ends in Err TooManyIterations), never panics, and on completion at most n operations were evaluated and
   at most 2n decoded (one per iteration plus at most one extra decode after a completing operation).
   bounded_final n f := f <> FOutOfFuel /\ f <> FPanic /\
                        forall ps vr nops nparse, f = FComplete ps vr nops nparse -> nops <= n /\ nparse <= 2 * n *)
Theorem iteration_bound : forall (F : fops) (dbg : bool) (c : cfg) (n : N) (fuel : nat)
    (program : list byte) (answers : list answer),
  c_max c = Some n -> n <= 4294967295 -> e_asz (c_enc c) <= 8 -> (N.to_nat n < fuel)%nat ->
  bounded_final n (snd (run F fuel dbg c program answers)).
Proof.
  intros F dbg c n fuel program answers CM NB AS FU. unfold run. destruct (new_mask_ok dbg _ AS) as [mask ->].
  apply (drive_bound F dbg c mask n fuel CM NB FU); destruct (evaluate_start F fuel dbg c mask program) as [-> | ->];
    try apply noP_err; try discriminate.
  - apply (ei_total F dbg c mask n CM NB); [apply start_inv|cbn; lia..].
  - intros o s' E.
    destruct (ei_ok F dbg c mask n CM NB fuel _ o s' (start_inv c program) ltac:(cbn; lia) E) as ((K0 & K1 & K2 & K3 & K4) & K5).
    cbn [start initial_state s_iter s_nops s_nparse set_stack] in *. split; [exact K0|]. lia.
Qed.

(* Composite locations: what Evaluation::result()/value_result() can be after completion, for every program,
   answer list, configuration, fuel and build mode.  result_shape mask ps vr :=
     ps <> [] /\ ( (vr = None /\ (every piece has a size  \/  ps = [one piece without size and offset]))
                 \/ (exists v a, vr = Some v /\ to_u64 v mask = Ok a /\ ps = [Address a without size]) )
   i.e. a piece without a size is always the only piece ("if None, there must be only one piece"), and a value
   result exists exactly when the expression left its result on the stack, in which case the single piece is the
   implicit Address piece of that value. *)
Theorem pieces : forall (F : fops) (dbg : bool) (c : cfg) (fuel : nat) (program : list byte) (answers : list answer)
    (reqs : list request) (ps : list piece) (vr : option value) (a b mask : N),
  new_mask dbg (e_asz (c_enc c)) = Ok mask ->
  run F fuel dbg c program answers = (reqs, FComplete ps vr a b) -> result_shape mask ps vr.
Proof.
  intros F dbg c fuel program answers reqs ps vr a b mask NM H. unfold run in H. rewrite NM in H.
  apply (drive_pieces F dbg c mask fuel answers (evaluate F fuel dbg c mask program)) with (a := a) (b := b); [|now rewrite H].
  destruct (evaluate_start F fuel dbg c mask program) as [-> | ->]; [discriminate|].
  intros o s. apply ei_pieces; [constructor|reflexivity].
Qed.

(* The specification oracle of stream c07.spec is the NORMALISED machine: the model evaluator with c_canon = Some bits,
   which reduces every generic value modulo 2^bits when it is pushed.  For every program, configuration and answer list
   every state it hands back to the consumer has a stack whose generic values are canonical (gcanon bits v :=
   vty v = TGeneric -> vbits v < 2^bits) — so it is the DWARF stack machine over Z/2^bits: all its Value operations,
   the shift counts included, act on canonical operands.  gimli is compared with it modulo 2^bits (class n of c07.spec). *)
Theorem normalised_machine_canonical : forall (F : fops) (dbg : bool) (c : cfg) (mask bits : N), c_canon c = Some bits ->
  (forall fuel program o s, evaluate F fuel dbg c mask program = Ok (o, s) -> Forall (gcanon bits) (s_stack s)) /\
  (forall fuel w a s o s', Forall (gcanon bits) (s_stack s) -> resume F fuel dbg c mask w a s = Ok (o, s') ->
     Forall (gcanon bits) (s_stack s')).
Proof.
  intros F dbg c mask bits CC. split.
  - intros fuel program o s H. destruct (evaluate_start F fuel dbg c mask program) as [E|E]; rewrite E in H; [discriminate|].
    apply ei_canon in H; unfold canon_stack in *; rewrite CC in *; [exact H|].
    cbn [start s_stack set_stack]. destruct (c_init c); repeat constructor. now apply norm_gcanon.
  - intros fuel w a s o s' CS H. unfold resume in H.
    destruct (resume_apply F c mask w a s) as [s1| | |] eqn:RA; cbn [bind] in H; try discriminate H.
    assert (CS0 : canon_stack c s) by (unfold canon_stack; now rewrite CC).
    pose proof (ei_canon F dbg c mask fuel s1 o s' (resume_apply_canon F c mask w a s s1 CS0 RA) H) as R.
    unfold canon_stack in R. now rewrite CC in R.
Qed.

(* No limit set: the iteration counter is not touched at all (so it cannot overflow however long the evaluation
   runs), and evaluate_internal does not panic. *)
Theorem iteration_unlimited : forall (F : fops) (dbg : bool) (c : cfg) (mask : N), c_max c = None ->
  forall fuel s, inv s -> evaluate_internal F fuel dbg c mask s <> Panic /\
  forall o s', evaluate_internal F fuel dbg c mask s = Ok (o, s') -> inv s' /\ s_iter s' = s_iter s.
Proof.
  intros F dbg c mask CM fuel s I. pose proof (ei_gen F dbg c mask fuel s I) as G.
  unfold lim_ok, ei_post in G. rewrite CM in G. specialize (G Logic.I).
  destruct (evaluate_internal F fuel dbg c mask s) as [[o s']| x | |]; split; try discriminate; try contradiction.
  all: intros o' s'' E; inversion E; subst; exact G.
Qed.

(* Panic freedom of the evaluator: every iteration limit that is a u32, or none; every address size up to 8 (larger
   ones overflow the shift in Evaluation::new in debug builds); every program, answer list, fuel, both build modes. *)
Theorem eval_no_panic : forall (F : fops) (dbg : bool) (c : cfg) (fuel : nat) (program : list byte) (answers : list answer),
  lim_cfg c -> e_asz (c_enc c) <= 8 -> snd (run F fuel dbg c program answers) <> FPanic.
Proof.
  intros F dbg c fuel program answers LC AS. unfold run. destruct (new_mask_ok dbg _ AS) as [mask ->].
  assert (L0 : lim_ok c (start c program)) by (unfold lim_ok, lim_cfg in *; destruct (c_max c); [cbn; lia|exact I]).
  destruct (ei_gen_inv F dbg c mask fuel _ (start_inv c program) L0) as [NP G].
  apply drive_nopanic; destruct (evaluate_start F fuel dbg c mask program) as [-> | ->]; try discriminate; [exact NP|].
  intros o s' E. destruct (G o s' E) as (I' & L' & _). now split.
Qed.

(* since repair 273f60c: set_max_iterations(u32::MAX) stops the self-loop `DW_OP_skip -3`
   with the limit error after 2^32-1 iterations in both build modes (before: debug panic / release non-termination) *)
Example iteration_limit_u32_max_repaired : forall dbg,
  exists fuel, run no_fops fuel dbg loop_cfg loop_prog [] = ([], FErr ETooManyIterations).
Proof.
  intros dbg. exists (N.to_nat 4294967295 + 1)%nat.
  unfold run. replace (new_mask dbg (e_asz (c_enc loop_cfg))) with (@Ok N loop_mask) by (destruct dbg; reflexivity).
  cbv iota beta. unfold evaluate. change (c_init loop_cfg) with (@None N). cbn [bind].
  change (initial_state loop_prog) with (loop_state 0 0).
  rewrite loop_many by (rewrite N2Nat.id; lia). rewrite N2Nat.id. cbn [N.add].
  change (1%nat) with (S 0). rewrite loop_limit. reflexivity.
Qed.

Definition ex_cfg (maxit : option N) : cfg := mkCfg (mkEnc 4 false 4 false) None maxit None None None None None.
Example iteration_ex_loop :     (* `DW_OP_skip -3` jumps to itself: the limit error, not a hang *)
  run no_fops 7 true (ex_cfg (Some 6)) [x2f; xfd; xff] [] = ([], FErr ETooManyIterations).
Proof. vm_compute. reflexivity. Qed.
Example iteration_ex_exact :    (* lit1 lit2 plus stack_value: 4 operations need a limit of 4 *)
  run no_fops 5 true (ex_cfg (Some 4)) [x31; x32; x22; x9f] [] =
    ([], FComplete [mkPiece None None (LValue (mkV TGeneric 3))] None 4 4) /\
  run no_fops 4 true (ex_cfg (Some 3)) [x31; x32; x22; x9f] [] = ([], FErr ETooManyIterations).
Proof. split; vm_compute; reflexivity. Qed.
Example iteration_ex_extra_decode :   (* reg0 piece 4: one iteration, two decodes *)
  run no_fops 3 true (ex_cfg (Some 1)) [x50; x93; x04] [] =
    ([], FComplete [mkPiece (Some 32) None (LRegister 0)] None 1 2).
Proof. vm_compute. reflexivity. Qed.
Example branch_ex_into_operand :      (* Bra/Skip may land inside an instruction: skip -2 re-decodes its own operand bytes *)
  run no_fops 9 true (ex_cfg (Some 8)) [x31; x2f; xfe; xff] [] = ([], FErr EInvalidExpression).
Proof. vm_compute. reflexivity. Qed.

Example pieces_ex_composite :   (* reg0 piece 4; piece 2 (empty); lit5 stack_value bit_piece 3,1 *)
  run no_fops 20 true (ex_cfg None) [x50; x93; x04; x93; x02; x35; x9f; x9d; x03; x01] [] =
    ([], FComplete [mkPiece (Some 32) None (LRegister 0); mkPiece (Some 16) None LEmpty;
                    mkPiece (Some 3) (Some 1) (LValue (mkV TGeneric 5))] None 4 6).
Proof. vm_compute. reflexivity. Qed.
Example pieces_ex_unterminated :   (* a piece followed by an unterminated computation: InvalidPiece *)
  run no_fops 20 true (ex_cfg None) [x50; x93; x04; x35] [] = ([], FErr EInvalidPiece) /\
  run no_fops 20 true (ex_cfg None) [x50; x35] [] = ([], FErr EInvalidExpressionTerminator).
Proof. split; vm_compute; reflexivity. Qed.
Example normalised_ex_shift :   (* lit1; const4u 0x80000001; lit1; shl; shl on a 4-byte target: 4 (0 before repair 0858756) *)
  run no_fops 9 true (ex_cfg (Some 8)) [x31; x0c; x01; x00; x00; x80; x31; x24; x24] [] =
    ([], FComplete [mkPiece None None (LAddress 4)] (Some (mkV TGeneric 4)) 5 5) /\
  run no_fops 9 true (mkCfg (mkEnc 4 false 4 false) None (Some 8) None None None None (Some 32))
      [x31; x0c; x01; x00; x00; x80; x31; x24; x24] [] =
    ([], FComplete [mkPiece None None (LAddress 4)] (Some (mkV TGeneric 4)) 5 5).
Proof. split; vm_compute; reflexivity. Qed.
(* ------------------------------------------------------------------------------------------------
   4. Refinement of the whole evaluator.  Spec/StackMachine.v is the DWARF stack machine over CANONICAL values
   (spec_step: one decoded operation through the value algebra sp_* of Spec/StackSpec.v; spec_run: the whole
   conversation with the consumer).  abs_trace sz reads a model trace canonically: requests and the final error
   variant unchanged, generic values inside pieces (DW_OP_stack_value) and the value result reduced modulo
   2^(8 sz).  For EVERY program (byte list), every configuration whose fields are Rust values (cfg_ok: address
   size sz in {1,2,4,8}, any format/version/byte order, u64 initial value and object address, u32 iteration
   limit or none, any storage capacities, the faithful model c_canon = None), every answer list of Rust values
   (wf_answer), both build modes, every fuel and every float implementation whose results fit their width
   (fops_wf: any IEEE implementation):
       the canonical reading of the model evaluator's trace IS the trace of the stack machine.
   Proof: one-step simulation step_sim (evaluate_one_operation vs spec_one under abs_st = "stack values modulo
   2^(8 sz)", every one of the 55 operations, typed/float operations, calls, entry values and pieces included),
   preservation of the invariant (pc inside the bytecode, counter within the limit, stack of Rust values), then
   induction on the fuel (ei_sim) and on the answer list (drive_sim).  The statement holds for every fuel, so both
   sides run out of fuel together (refines_out_of_fuel); in particular it holds whenever neither does. *)
Theorem eval_refines : forall (F : fops) (sz : N) (dbg : bool) (c : cfg) (fuel : nat) (program : list byte)
    (answers : list answer),
  addr_size sz -> fops_wf F -> cfg_ok sz c -> Forall wf_answer answers ->
  abs_trace sz (run F fuel dbg c program answers) = spec_run sz F fuel c program answers.
Proof. intros F sz dbg c fuel program answers SZ HF CK WA. now apply run_sim. Qed.

Theorem refines_out_of_fuel : forall (F : fops) (sz : N) (dbg : bool) (c : cfg) (fuel : nat) (program : list byte)
    (answers : list answer),
  addr_size sz -> fops_wf F -> cfg_ok sz c -> Forall wf_answer answers ->
  (snd (run F fuel dbg c program answers) = FOutOfFuel <-> snd (spec_run sz F fuel c program answers) = FOutOfFuel).
Proof.
  intros F sz dbg c fuel program answers SZ HF CK WA. rewrite <- (run_sim sz F SZ HF dbg c fuel program answers CK WA).
  unfold abs_trace. cbn [snd]. destruct (snd (run F fuel dbg c program answers)); cbn [abs_final]; split; intros H; try discriminate H; reflexivity.
Qed.

(* One step, as used by the induction: decoding and executing the operation at the pc in the model, read
   canonically, is decoding it by the operand-layout table and executing it in the stack machine. *)
Theorem step_refines : forall (F : fops) (sz : N) (dbg : bool) (c : cfg) (s : st),
  addr_size sz -> fops_wf F -> cfg_ok sz c -> wf_st s ->
  mapr sz (evaluate_one_operation F dbg c (amask sz) s) = spec_one sz F (abs_cfg sz c) (abs_st sz s).
Proof. intros F sz dbg c s SZ HF. exact (step_sim sz F SZ HF dbg c s). Qed.

(* Whole-evaluation mask invariance ("generic values are compared modulo the address size"): two conversations
   on the same program whose initial value, object address and answers are equal modulo 2^(8 sz) on generic
   payloads (abs_cfg / abs_answer equal; typed values equal) -- possibly in different build modes -- produce the
   same requests, the same error, and the same pieces / value result up to the same reading. *)
Theorem mask_invariance : forall (F : fops) (sz : N) (dbg dbg' : bool) (c c' : cfg) (fuel : nat) (program : list byte)
    (answers answers' : list answer),
  addr_size sz -> fops_wf F -> cfg_ok sz c -> cfg_ok sz c' -> Forall wf_answer answers -> Forall wf_answer answers' ->
  abs_cfg sz c = abs_cfg sz c' -> map (abs_answer sz) answers = map (abs_answer sz) answers' ->
  abs_trace sz (run F fuel dbg c program answers) = abs_trace sz (run F fuel dbg' c' program answers').
Proof.
  intros F sz dbg dbg' c c' fuel program answers answers' SZ HF CK CK' WA WA' EC EA.
  rewrite !run_sim by assumption. unfold spec_run. now rewrite EC, EA.
Qed.

(* the hypotheses are met by a non-trivial instance: 4-byte target, initial value 2^32+2, object address 2^32+5,
   an answer with all 64 bits set; and the two readings of a dirty run *)
Example refines_ex_hyp : addr_size 4 /\ fops_wf wrap_fops /\ cfg_ok 4 refine_ex_cfg /\
  Forall wf_answer [mkAns (mkV TGeneric 18446744073709551615) 4294967297 [] TU8].
Proof.
  split; [right; right; left; reflexivity|]. split; [exact wrap_fops_wf|]. split.
  - unfold cfg_ok, refine_ex_cfg, lim_cfg. cbn. repeat split; try lia; intros v E; inversion E; lia.
  - constructor; [|constructor]. split; [reflexivity|cbn; lia].
Qed.
Example refines_ex_run :   (* init 2^32+2; push_object_address (2^32+5); minus; neg; stack_value: model keeps 3 in a 64-bit container *)
  run wrap_fops 9 true refine_ex_cfg [x97; x1c; x1f; x9f] [] =
    ([], FComplete [mkPiece None None (LValue (mkV TGeneric 3))] None 4 4) /\
  spec_run 4 wrap_fops 9 refine_ex_cfg [x97; x1c; x1f; x9f] [] =
    ([], FComplete [mkPiece None None (LValue (mkV TGeneric 3))] None 4 4) /\
  run wrap_fops 9 true refine_ex_cfg [x1f; x9f] [] =
    ([], FComplete [mkPiece None None (LValue (mkV TGeneric 18446744073709551614))] None 2 2) /\
  spec_run 4 wrap_fops 9 refine_ex_cfg [x1f; x9f] [] =
    ([], FComplete [mkPiece None None (LValue (mkV TGeneric 4294967294))] None 2 2).
Proof. repeat split; vm_compute; reflexivity. Qed.
Example mask_invariance_ex :   (* initial values 2 and 2^32+2 are the same generic value on a 4-byte target *)
  abs_cfg 4 refine_ex_cfg = abs_cfg 4 (mkCfg (mkEnc 4 false 4 false) (Some 5) (Some 40) (Some 2) None None None None).
Proof. vm_compute. reflexivity. Qed.
Check decode_table : forall (dbg : bool) (e : enc) (opc : byte) (bs : list byte),
  parse_op dbg e (opc :: bs) = generic_decode dbg e opc bs.
Check decode_no_panic : forall (dbg : bool) (e : enc) (bs : list byte),
  parse_op dbg e bs <> Panic /\ parse_op dbg e bs <> OutOfFuel.
Check iteration_bound : forall (F : fops) (dbg : bool) (c : cfg) (n : N) (fuel : nat)
    (program : list byte) (answers : list answer),
  c_max c = Some n -> n <= 4294967295 -> e_asz (c_enc c) <= 8 -> (N.to_nat n < fuel)%nat ->
  bounded_final n (snd (run F fuel dbg c program answers)).
Check eval_refines : forall (F : fops) (sz : N) (dbg : bool) (c : cfg) (fuel : nat) (program : list byte)
    (answers : list answer),
  addr_size sz -> fops_wf F -> cfg_ok sz c -> Forall wf_answer answers ->
  abs_trace sz (run F fuel dbg c program answers) = spec_run sz F fuel c program answers.
Check mask_invariance : forall (F : fops) (sz : N) (dbg dbg' : bool) (c c' : cfg) (fuel : nat) (program : list byte)
    (answers answers' : list answer),
  addr_size sz -> fops_wf F -> cfg_ok sz c -> cfg_ok sz c' -> Forall wf_answer answers -> Forall wf_answer answers' ->
  abs_cfg sz c = abs_cfg sz c' -> map (abs_answer sz) answers = map (abs_answer sz) answers' ->
  abs_trace sz (run F fuel dbg c program answers) = abs_trace sz (run F fuel dbg' c' program answers').
