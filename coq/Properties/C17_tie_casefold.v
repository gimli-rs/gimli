(* Properties/C17_tie_casefold.v — translator tie (DESIGN §1.2 item 2) for the non-ASCII case folding clause of C17:
   CASE_FOLD_DATA of src/case_fold_data.rs, regenerated into coq/Gen/CaseFold.v from the source text on every ./check
   run.  fold_data = case_fold_data of src/case_fold.rs (table entry, else the character itself). *)
From Coq Require Import List NArith Bool.
Require Import GV.Proofs.GenSweep GV.Proofs.GenAgreeCaseFold.
Require GV.Gen.CaseFold.
Import ListNotations.
Local Open Scope N_scope.

(* CASE_FOLD_DATA: sorted without repetition (the binary search is exact), non-ASCII scalar keys, scalar targets, ASCII targets already lower case, no identity entry, every target a fixed point, the DWARF I-dot extension *)
Theorem c17_tie_case_fold_table :
  strictly_sorted (map fst CaseFold.case_fold_data) = true /\
  forallb (fun p => (127 <? fst p) && is_scalar (fst p) && is_scalar (snd p)
                    && ((127 <? snd p) || ((96 <? snd p) && (snd p <? 123)))) CaseFold.case_fold_data = true /\
  forallb (fun p => negb (fst p =? snd p) && (fold_data (snd p) =? snd p)) CaseFold.case_fold_data = true /\
  fold_data 304 = 105 /\ fold_data 305 = 105.
Proof.
  split; [vm_compute; reflexivity|]. split; [vm_compute; reflexivity|]. split; [|split; vm_compute; reflexivity].
  apply forallb_forall. intros p I. unfold fold_data. rewrite lookup_fold_map.
  exact (proj1 (forallb_forall _ _) gen_fold_targets_fixed p I).
Qed.

(* case_fold_data is idempotent on every scalar value *)
Theorem c17_tie_case_fold_idempotent :
  forall c, fold_data (fold_data c) = fold_data c.
Proof.
  intros c. unfold fold_data at 2 3. destruct (lookup_fold c CaseFold.case_fold_data) as [v|] eqn:E.
  - destruct c17_tie_case_fold_table as (_ & _ & S & _).
    apply lookup_fold_in in E. apply (proj1 (forallb_forall _ _) S) in E. cbn [fst snd] in E.
    apply andb_prop in E. apply N.eqb_eq, E.
  - unfold fold_data. rewrite E. reflexivity.
Qed.

(* statement pins *)
Check c17_tie_case_fold_table :
  strictly_sorted (map fst CaseFold.case_fold_data) = true /\
  forallb (fun p => (127 <? fst p) && is_scalar (fst p) && is_scalar (snd p)
                    && ((127 <? snd p) || ((96 <? snd p) && (snd p <? 123)))) CaseFold.case_fold_data = true /\
  forallb (fun p => negb (fst p =? snd p) && (fold_data (snd p) =? snd p)) CaseFold.case_fold_data = true /\
  fold_data 304 = 105 /\ fold_data 305 = 105.
Check c17_tie_case_fold_idempotent :
  forall c, fold_data (fold_data c) = fold_data c.
