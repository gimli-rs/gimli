(* Properties/C03_tie.v — translator tie (DESIGN §1.2 item 2) for C03: every DW_FORM_* / DW_AT_* numeral of Model/Attr.v is the
   constant of the same name in /repo/src/constants.rs, regenerated into coq/Gen/Constants.v on every ./check run.
   (The table-shaped functions of C03 are tied by Properties/C03.v translator_tie.) *)
From Coq Require Import List NArith.
Require GV.Gen.Constants GV.Model.Attr.
Local Open Scope N_scope.

(* the 47 form codes and 14 attribute names the attribute model names *)
Theorem c03_tie_constants :
  Constants.DW_FORM_addr = Attr.DW_FORM_addr /\
  Constants.DW_FORM_block2 = Attr.DW_FORM_block2 /\
  Constants.DW_FORM_block4 = Attr.DW_FORM_block4 /\
  Constants.DW_FORM_data2 = Attr.DW_FORM_data2 /\
  Constants.DW_FORM_data4 = Attr.DW_FORM_data4 /\
  Constants.DW_FORM_data8 = Attr.DW_FORM_data8 /\
  Constants.DW_FORM_string = Attr.DW_FORM_string /\
  Constants.DW_FORM_block = Attr.DW_FORM_block /\
  Constants.DW_FORM_block1 = Attr.DW_FORM_block1 /\
  Constants.DW_FORM_data1 = Attr.DW_FORM_data1 /\
  Constants.DW_FORM_flag = Attr.DW_FORM_flag /\
  Constants.DW_FORM_sdata = Attr.DW_FORM_sdata /\
  Constants.DW_FORM_strp = Attr.DW_FORM_strp /\
  Constants.DW_FORM_udata = Attr.DW_FORM_udata /\
  Constants.DW_FORM_ref_addr = Attr.DW_FORM_ref_addr /\
  Constants.DW_FORM_ref1 = Attr.DW_FORM_ref1 /\
  Constants.DW_FORM_ref2 = Attr.DW_FORM_ref2 /\
  Constants.DW_FORM_ref4 = Attr.DW_FORM_ref4 /\
  Constants.DW_FORM_ref8 = Attr.DW_FORM_ref8 /\
  Constants.DW_FORM_ref_udata = Attr.DW_FORM_ref_udata /\
  Constants.DW_FORM_indirect = Attr.DW_FORM_indirect /\
  Constants.DW_FORM_sec_offset = Attr.DW_FORM_sec_offset /\
  Constants.DW_FORM_exprloc = Attr.DW_FORM_exprloc /\
  Constants.DW_FORM_flag_present = Attr.DW_FORM_flag_present /\
  Constants.DW_FORM_strx = Attr.DW_FORM_strx /\
  Constants.DW_FORM_addrx = Attr.DW_FORM_addrx /\
  Constants.DW_FORM_ref_sup4 = Attr.DW_FORM_ref_sup4 /\
  Constants.DW_FORM_strp_sup = Attr.DW_FORM_strp_sup /\
  Constants.DW_FORM_data16 = Attr.DW_FORM_data16 /\
  Constants.DW_FORM_line_strp = Attr.DW_FORM_line_strp /\
  Constants.DW_FORM_ref_sig8 = Attr.DW_FORM_ref_sig8 /\
  Constants.DW_FORM_implicit_const = Attr.DW_FORM_implicit_const /\
  Constants.DW_FORM_loclistx = Attr.DW_FORM_loclistx /\
  Constants.DW_FORM_rnglistx = Attr.DW_FORM_rnglistx /\
  Constants.DW_FORM_ref_sup8 = Attr.DW_FORM_ref_sup8 /\
  Constants.DW_FORM_strx1 = Attr.DW_FORM_strx1 /\
  Constants.DW_FORM_strx2 = Attr.DW_FORM_strx2 /\
  Constants.DW_FORM_strx3 = Attr.DW_FORM_strx3 /\
  Constants.DW_FORM_strx4 = Attr.DW_FORM_strx4 /\
  Constants.DW_FORM_addrx1 = Attr.DW_FORM_addrx1 /\
  Constants.DW_FORM_addrx2 = Attr.DW_FORM_addrx2 /\
  Constants.DW_FORM_addrx3 = Attr.DW_FORM_addrx3 /\
  Constants.DW_FORM_addrx4 = Attr.DW_FORM_addrx4 /\
  Constants.DW_FORM_GNU_addr_index = Attr.DW_FORM_GNU_addr_index /\
  Constants.DW_FORM_GNU_str_index = Attr.DW_FORM_GNU_str_index /\
  Constants.DW_FORM_GNU_ref_alt = Attr.DW_FORM_GNU_ref_alt /\
  Constants.DW_FORM_GNU_strp_alt = Attr.DW_FORM_GNU_strp_alt /\
  Constants.DW_AT_location = Attr.DW_AT_location /\
  Constants.DW_AT_stmt_list = Attr.DW_AT_stmt_list /\
  Constants.DW_AT_string_length = Attr.DW_AT_string_length /\
  Constants.DW_AT_return_addr = Attr.DW_AT_return_addr /\
  Constants.DW_AT_start_scope = Attr.DW_AT_start_scope /\
  Constants.DW_AT_frame_base = Attr.DW_AT_frame_base /\
  Constants.DW_AT_macro_info = Attr.DW_AT_macro_info /\
  Constants.DW_AT_macros = Attr.DW_AT_macros /\
  Constants.DW_AT_segment = Attr.DW_AT_segment /\
  Constants.DW_AT_static_link = Attr.DW_AT_static_link /\
  Constants.DW_AT_use_location = Attr.DW_AT_use_location /\
  Constants.DW_AT_vtable_elem_location = Attr.DW_AT_vtable_elem_location /\
  Constants.DW_AT_ranges = Attr.DW_AT_ranges /\
  Constants.DW_AT_data_member_location = Attr.DW_AT_data_member_location.
Proof. repeat split; reflexivity. Qed.

(* statement pins *)
Check c03_tie_constants :
  Constants.DW_FORM_addr = Attr.DW_FORM_addr /\
  Constants.DW_FORM_block2 = Attr.DW_FORM_block2 /\
  Constants.DW_FORM_block4 = Attr.DW_FORM_block4 /\
  Constants.DW_FORM_data2 = Attr.DW_FORM_data2 /\
  Constants.DW_FORM_data4 = Attr.DW_FORM_data4 /\
  Constants.DW_FORM_data8 = Attr.DW_FORM_data8 /\
  Constants.DW_FORM_string = Attr.DW_FORM_string /\
  Constants.DW_FORM_block = Attr.DW_FORM_block /\
  Constants.DW_FORM_block1 = Attr.DW_FORM_block1 /\
  Constants.DW_FORM_data1 = Attr.DW_FORM_data1 /\
  Constants.DW_FORM_flag = Attr.DW_FORM_flag /\
  Constants.DW_FORM_sdata = Attr.DW_FORM_sdata /\
  Constants.DW_FORM_strp = Attr.DW_FORM_strp /\
  Constants.DW_FORM_udata = Attr.DW_FORM_udata /\
  Constants.DW_FORM_ref_addr = Attr.DW_FORM_ref_addr /\
  Constants.DW_FORM_ref1 = Attr.DW_FORM_ref1 /\
  Constants.DW_FORM_ref2 = Attr.DW_FORM_ref2 /\
  Constants.DW_FORM_ref4 = Attr.DW_FORM_ref4 /\
  Constants.DW_FORM_ref8 = Attr.DW_FORM_ref8 /\
  Constants.DW_FORM_ref_udata = Attr.DW_FORM_ref_udata /\
  Constants.DW_FORM_indirect = Attr.DW_FORM_indirect /\
  Constants.DW_FORM_sec_offset = Attr.DW_FORM_sec_offset /\
  Constants.DW_FORM_exprloc = Attr.DW_FORM_exprloc /\
  Constants.DW_FORM_flag_present = Attr.DW_FORM_flag_present /\
  Constants.DW_FORM_strx = Attr.DW_FORM_strx /\
  Constants.DW_FORM_addrx = Attr.DW_FORM_addrx /\
  Constants.DW_FORM_ref_sup4 = Attr.DW_FORM_ref_sup4 /\
  Constants.DW_FORM_strp_sup = Attr.DW_FORM_strp_sup /\
  Constants.DW_FORM_data16 = Attr.DW_FORM_data16 /\
  Constants.DW_FORM_line_strp = Attr.DW_FORM_line_strp /\
  Constants.DW_FORM_ref_sig8 = Attr.DW_FORM_ref_sig8 /\
  Constants.DW_FORM_implicit_const = Attr.DW_FORM_implicit_const /\
  Constants.DW_FORM_loclistx = Attr.DW_FORM_loclistx /\
  Constants.DW_FORM_rnglistx = Attr.DW_FORM_rnglistx /\
  Constants.DW_FORM_ref_sup8 = Attr.DW_FORM_ref_sup8 /\
  Constants.DW_FORM_strx1 = Attr.DW_FORM_strx1 /\
  Constants.DW_FORM_strx2 = Attr.DW_FORM_strx2 /\
  Constants.DW_FORM_strx3 = Attr.DW_FORM_strx3 /\
  Constants.DW_FORM_strx4 = Attr.DW_FORM_strx4 /\
  Constants.DW_FORM_addrx1 = Attr.DW_FORM_addrx1 /\
  Constants.DW_FORM_addrx2 = Attr.DW_FORM_addrx2 /\
  Constants.DW_FORM_addrx3 = Attr.DW_FORM_addrx3 /\
  Constants.DW_FORM_addrx4 = Attr.DW_FORM_addrx4 /\
  Constants.DW_FORM_GNU_addr_index = Attr.DW_FORM_GNU_addr_index /\
  Constants.DW_FORM_GNU_str_index = Attr.DW_FORM_GNU_str_index /\
  Constants.DW_FORM_GNU_ref_alt = Attr.DW_FORM_GNU_ref_alt /\
  Constants.DW_FORM_GNU_strp_alt = Attr.DW_FORM_GNU_strp_alt /\
  Constants.DW_AT_location = Attr.DW_AT_location /\
  Constants.DW_AT_stmt_list = Attr.DW_AT_stmt_list /\
  Constants.DW_AT_string_length = Attr.DW_AT_string_length /\
  Constants.DW_AT_return_addr = Attr.DW_AT_return_addr /\
  Constants.DW_AT_start_scope = Attr.DW_AT_start_scope /\
  Constants.DW_AT_frame_base = Attr.DW_AT_frame_base /\
  Constants.DW_AT_macro_info = Attr.DW_AT_macro_info /\
  Constants.DW_AT_macros = Attr.DW_AT_macros /\
  Constants.DW_AT_segment = Attr.DW_AT_segment /\
  Constants.DW_AT_static_link = Attr.DW_AT_static_link /\
  Constants.DW_AT_use_location = Attr.DW_AT_use_location /\
  Constants.DW_AT_vtable_elem_location = Attr.DW_AT_vtable_elem_location /\
  Constants.DW_AT_ranges = Attr.DW_AT_ranges /\
  Constants.DW_AT_data_member_location = Attr.DW_AT_data_member_location.
