(* Properties/C01Macro.v — C01 for src/read/macros.rs (model: Model/MacroRd.v, spec: Spec/MacroSpec.v).
   "Untrusted DWARF never panics ... every lazy iterator finishes within a number of steps bounded by the
   input size even when the caller ignores errors, iterators documented as stopping after an error yield
   nothing further" — for DebugMacinfo::get_macinfo, DebugMacro::get_macros (MacroUnitHeader::parse) and
   MacroIter::next, over ALL section bytes, offsets, byte orders, formats, both values of is_macro and both
   build modes.  The lemmas about the model are in Proofs/MacroRdProofs.v; each theorem is re-exported (and
   audited by ./check C01) from Properties/C01.v. *)
From Coq Require Import List NArith ZArith Bool Lia.
From Coq.Strings Require Import Byte.
Require Import GV.Base.Res GV.Base.Byt GV.Base.Ints GV.Spec.MacroSpec GV.Model.MacroRd GV.Proofs.Lib GV.Proofs.MacroRdProofs.
Import ListNotations.
Local Open Scope N_scope.

(* (a) Header parsing, every single call of next() from ANY iterator state (any remaining bytes, format,
   is_macro), and the whole "loop until Ok(None), ignoring errors" never Panic; the loop needs no more fuel
   than |section| + 1 calls of next() (macinfo_all / macros_all are defined with exactly that fuel). *)
Theorem macro_no_panic : forall (dbg be : bool) (section : list byte) (offset : N),
  (get_macinfo section offset <> Panic /\ get_macinfo section offset <> OutOfFuel) /\
  (get_macros be section offset <> Panic /\ get_macros be section offset <> OutOfFuel) /\
  (forall it, fst (macro_next dbg be it) <> Panic /\ fst (macro_next dbg be it) <> OutOfFuel) /\
  (macinfo_all dbg be section offset <> Panic /\ macinfo_all dbg be section offset <> OutOfFuel) /\
  (macros_all dbg be section offset <> Panic /\ macros_all dbg be section offset <> OutOfFuel).
Proof.
  intros dbg be section offset.
  pose proof (get_macinfo_post section offset) as Gi. pose proof (get_macros_post be section offset) as Gm.
  split; [exact (post_returns _ _ Gi)|]. split; [exact (post_returns _ _ Gm)|].
  split; [intros it; apply macro_next_returns|]. split.
  - unfold macinfo_all. apply returns_bind; [exact (post_returns _ _ Gi)|]. intros it Hit.
    apply run_from_section. exact (proj1 (post_ok _ _ _ Gi Hit)).
  - unfold macros_all. apply returns_bind; [exact (post_returns _ _ Gm)|]. intros it Hit.
    apply run_from_section. exact (proj1 (post_ok _ _ _ Gm Hit)).
Qed.

(* (b) From any iterator state, a caller that ignores errors sees at most |remaining input| entries-or-errors
   (l lists them in order: the j-th call of next() reported the j-th element), and from then on every call
   returns Ok(None).  macro_after j = the state after j calls whatever they returned. *)
Theorem macro_iter_terminates : forall (dbg be : bool) (it : miter),
  exists l : list mev,
    macro_run (S (length (mi_input it))) dbg be it = Ok l /\
    (length l <= length (mi_input it))%nat /\
    (forall j, (j < length l)%nat ->
       ev_of (fst (macro_next dbg be (macro_after j dbg be it))) = nth_error l j) /\
    (forall j, (length l <= j)%nat -> fst (macro_next dbg be (macro_after j dbg be it)) = Ok None).
Proof.
  intros dbg be it.
  destruct (macro_run_spec dbg be (S (length (mi_input it))) it) as (l & H1 & H2 & H3 & H4 & _); [lia|].
  exists l. repeat split; assumption.
Qed.

(* ... hence from either entry point: after at most |section| calls every call returns Ok(None) *)
Theorem macro_section_terminates : forall (dbg be : bool) (section : list byte) (offset : N) (it : miter),
  get_macinfo section offset = Ok it \/ get_macros be section offset = Ok it ->
  exists k, (k <= length section)%nat /\
    forall j, (k <= j)%nat -> fst (macro_next dbg be (macro_after j dbg be it)) = Ok None.
Proof.
  intros dbg be section offset it Hit.
  assert (Hs : suffix section (mi_input it)).
  { destruct Hit as [H|H]; [exact (proj1 (post_ok _ _ _ (get_macinfo_post _ _) H))|exact (proj1 (post_ok _ _ _ (get_macros_post _ _ _) H))]. }
  apply suffix_length in Hs.
  destruct (macro_iter_terminates dbg be it) as (l & _ & Hl & _ & Hn).
  exists (length l). split; [lia|exact Hn].
Qed.

(* (c) After ANY error the input is empty and every later call returns Ok(None) and changes nothing;
   in a run with errors ignored an error is therefore the last thing reported. *)
Theorem macro_stops_after_error : forall (dbg be : bool) (it it' : miter) (e : error),
  macro_next dbg be it = (Err e, it') ->
  mi_input it' = [] /\
  forall j, macro_next dbg be (macro_after j dbg be it') = (Ok None, it').
Proof.
  intros dbg be it it' e H.
  destruct (macro_next_cases dbg be it) as [H'|[(e' & rest & H' & _)|(e' & _ & H')]];
    rewrite H' in H; inversion H; subst.
  split; [reflexivity|]. intros j. rewrite macro_after_empty by reflexivity. now apply macro_next_empty.
Qed.

Theorem macro_error_is_last : forall (dbg be : bool) (it : miter) (l : list mev) (j : nat) (e : error),
  macro_run (S (length (mi_input it))) dbg be it = Ok l -> nth_error l j = Some (EvErr e) -> S j = length l.
Proof.
  intros dbg be it l j e Hr Hj.
  destruct (macro_run_spec dbg be (S (length (mi_input it))) it) as (l' & H1 & _ & _ & _ & H5); [lia|].
  rewrite Hr in H1. inversion H1; subst. eapply H5; eassumption.
Qed.

(* (d) One call: format and is_macro are unchanged; the new input is a SUFFIX of the old one (the iterator
   never leaves its section); an entry or an error consumed at least one byte; an error and Ok(None) leave
   the input empty. *)
Theorem macro_progress : forall (dbg be : bool) (it it' : miter) (r : res (option mentry)),
  macro_next dbg be it = (r, it') ->
  mi_fmt64 it' = mi_fmt64 it /\ mi_is_macro it' = mi_is_macro it /\
  (exists c, mi_input it = c ++ mi_input it' /\
     ((exists e, r = Ok (Some e)) -> (1 <= length c)%nat) /\
     ((exists e, r = Err e) -> (1 <= length c)%nat /\ mi_input it' = []) /\
     (r = Ok None -> mi_input it' = [])).
Proof.
  intros dbg be it it' r H.
  destruct (macro_next_cases dbg be it) as [H'|[(e' & rest & H' & Hc)|(e' & Hin & H')]];
    rewrite H' in H; inversion H; subst; cbn [set_input mi_fmt64 mi_is_macro mi_input];
    split; try reflexivity; split; try reflexivity.
  - exists (mi_input it). split; [now rewrite app_nil_r|]. split; [intros (e & He); discriminate|].
    split; [intros (e & He); discriminate|]. reflexivity.
  - destruct Hc as (c & Hc & Hne). exists c. split; [exact Hc|].
    split; [intros _; destruct c; [contradiction|cbn [length]; lia]|].
    split; [intros (e & He); discriminate|]. intros He; discriminate.
  - exists (mi_input it). split; [now rewrite app_nil_r|]. split; [intros (e & He); discriminate|].
    split; [|intros He; discriminate]. intros _. split; [|reflexivity].
    destruct (mi_input it); [contradiction|cbn [length]; lia].
Qed.

(* (e) Round trip.  For every well-formed header without an operands table (any version, any other flag
   bits, with or without debug_line_offset, 32/64-bit) and every well-formed entry list (all DW_MACRO kinds;
   all DW_MACINFO kinds incl. vendor_ext for .debug_macinfo), placed at any offset of a section and ended by
   the end of the section or by a zero byte followed by anything: the iterator returns exactly those entries,
   call by call, then Ok(None) for ever.  Both build modes, both byte orders. *)
Theorem macro_roundtrip :
  (forall (dbg be : bool) (h : mheader) (es : list mentry) (pre tail : list byte),
     wf_header h = true -> mh_has_table h = false ->
     forallb (wf_entry true (mh_fmt64 h)) es = true -> ends_list tail ->
     let section := pre ++ enc_header be h ++ enc_entries (mh_fmt64 h) be es ++ tail in
     macros_all dbg be section (N.of_nat (length pre)) = Ok (map EvEntry es) /\
     exists it, get_macros be section (N.of_nat (length pre)) = Ok it /\
       (forall j e, nth_error es j = Some e -> fst (macro_next dbg be (macro_after j dbg be it)) = Ok (Some e)) /\
       (forall j, (length es <= j)%nat -> fst (macro_next dbg be (macro_after j dbg be it)) = Ok None)) /\
  (forall (dbg be : bool) (es : list mentry) (pre tail : list byte),
     forallb (wf_entry false false) es = true -> ends_list tail ->
     let section := pre ++ enc_entries false be es ++ tail in
     macinfo_all dbg be section (N.of_nat (length pre)) = Ok (map EvEntry es) /\
     exists it, get_macinfo section (N.of_nat (length pre)) = Ok it /\
       (forall j e, nth_error es j = Some e -> fst (macro_next dbg be (macro_after j dbg be it)) = Ok (Some e)) /\
       (forall j, (length es <= j)%nat -> fst (macro_next dbg be (macro_after j dbg be it)) = Ok None)).
Proof.
  split.
  - intros dbg be h es pre tail Hh Ht Hes Hend section.
    assert (Hg : get_macros be section (N.of_nat (length pre))
                 = Ok {| mi_input := enc_entries (mh_fmt64 h) be es ++ tail; mi_fmt64 := mh_fmt64 h; mi_is_macro := true |}).
    { unfold get_macros, section. rewrite mskip_app. cbn [bind].
      rewrite parse_header_enc by assumption. rewrite Ht. reflexivity. }
    destruct (roundtrip_from dbg be (mh_fmt64 h) true es tail (length section) Hes Hend) as (Hr & Hc).
    { unfold section. cbn [mi_input]. rewrite !app_length. lia. }
    unfold macros_all. rewrite Hg. split; [exact Hr|]. eexists. split; [reflexivity|exact Hc].
  - intros dbg be es pre tail Hes Hend section.
    assert (Hg : get_macinfo section (N.of_nat (length pre))
                 = Ok {| mi_input := enc_entries false be es ++ tail; mi_fmt64 := false; mi_is_macro := false |}).
    { unfold get_macinfo, section. rewrite mskip_app. reflexivity. }
    destruct (roundtrip_from dbg be false false es tail (length section) Hes Hend) as (Hr & Hc).
    { unfold section. cbn [mi_input]. rewrite !app_length. lia. }
    unfold macinfo_all. rewrite Hg. split; [exact Hr|]. eexists. split; [reflexivity|exact Hc].
Qed.

(* complete units / lists (with their zero terminator) followed by ANY trailing bytes *)
Theorem macro_roundtrip_unit :
  (forall (dbg be : bool) (h : mheader) (es : list mentry) (pre trailing : list byte),
     wf_header h = true -> mh_has_table h = false -> forallb (wf_entry true (mh_fmt64 h)) es = true ->
     macros_all dbg be (pre ++ enc_unit be h es ++ trailing) (N.of_nat (length pre)) = Ok (map EvEntry es)) /\
  (forall (dbg be : bool) (es : list mentry) (pre trailing : list byte),
     forallb (wf_entry false false) es = true ->
     macinfo_all dbg be (pre ++ enc_macinfo be es ++ trailing) (N.of_nat (length pre)) = Ok (map EvEntry es)).
Proof.
  destruct macro_roundtrip as [Hm Hi]. split.
  - intros dbg be h es pre trailing Hh Ht Hes. unfold enc_unit. rewrite <- !app_assoc. cbn [app].
    apply (Hm dbg be h es pre (x00 :: trailing)); try assumption. right. now exists trailing.
  - intros dbg be es pre trailing Hes. unfold enc_macinfo. rewrite <- !app_assoc. cbn [app].
    apply (Hi dbg be es pre (x00 :: trailing)); try assumption. right. now exists trailing.
Qed.

(* (f) The opcode operands table is NOT parsed by gimli: every well-formed
   header announcing one is rejected with UnsupportedOpcodeOperandsTable, and no header that parse_header
   accepts has the flag — so the iterator never runs over a unit with vendor-defined operand forms. *)
Theorem macro_operands_table_unsupported :
  (forall (be : bool) (h : mheader) (pre rest : list byte),
     wf_header h = true -> mh_has_table h = true ->
     get_macros be (pre ++ enc_header be h ++ rest) (N.of_nat (length pre)) = Err EUnsupportedOpcodeOperandsTable) /\
  (forall (be : bool) (bs : list byte) (h : mheader) (r : list byte),
     parse_header be bs = Ok (h, r) -> mh_has_table h = false).
Proof.
  split.
  - intros be h pre rest Hh Ht. unfold get_macros. rewrite mskip_app. cbn [bind].
    rewrite parse_header_enc by assumption. rewrite Ht. reflexivity.
  - intros be bs h r H. exact (proj1 (proj2 (post_ok _ _ _ (parse_header_post be bs) H))).
Qed.

(* Non-vacuity: inputs that satisfy the hypotheses of the theorems above, and what the model computes on them. *)

(* a 64-bit unit with debug_line_offset and unknown flag bits, every DW_MACRO kind, extreme values *)
Definition ex_header : mheader := {| mh_version := 5; mh_flags := 0xfb; mh_line_offset := 18446744073709551615 |}.
Definition ex_entries : list mentry :=
  [ MStartFile 0 1; MDefine 18446744073709551615 (MDirect [x41; xff]); MUndef 128 (MDirect []);
    MDefine 1 (MStrp 18446744073709551615); MUndef 2 (MStrp 0); MImport 4294967296;
    MDefine 3 (MSup 7); MUndef 4 (MSup 8); MImportSup 9;
    MDefine 5 (MStrx 18446744073709551615); MUndef 6 (MStrx 16384); MEndFile ].

Example ex_roundtrip_hyps :
  wf_header ex_header = true /\ mh_has_table ex_header = false /\ mh_fmt64 ex_header = true /\
  forallb (wf_entry true (mh_fmt64 ex_header)) ex_entries = true /\ ends_list [x00; x05; xff].
Proof. repeat split; try (vm_compute; reflexivity). right. eexists. reflexivity. Qed.

Example ex_roundtrip_run :
  macros_all true true ([xee; xee] ++ enc_unit true ex_header ex_entries ++ [x05; xff]) 2 = Ok (map EvEntry ex_entries).
Proof. vm_compute. reflexivity. Qed.

(* 32-bit, little-endian, no debug_line_offset; the list ends with the section *)
Example ex_roundtrip_32 :
  let h := {| mh_version := 5; mh_flags := 0; mh_line_offset := 0 |} in
  wf_header h = true /\
  macros_all false false (enc_header false h ++ enc_entries false false [MImport 4294967295; MEndFile]) 0
  = Ok [EvEntry (MImport 4294967295); EvEntry MEndFile].
Proof. split; vm_compute; reflexivity. Qed.

Definition ex_macinfo : list mentry :=
  [ MDefine 0 (MDirect [x41]); MUndef 18446744073709551615 (MDirect []); MStartFile 3 4; MEndFile;
    MVendorExt 5 [x66; x6f; x6f] ].
Example ex_macinfo_hyps : forallb (wf_entry false false) ex_macinfo = true.
Proof. vm_compute. reflexivity. Qed.
Example ex_macinfo_run :
  macinfo_all true false ([x01] ++ enc_macinfo false ex_macinfo ++ [x07]) 1 = Ok (map EvEntry ex_macinfo).
Proof. vm_compute. reflexivity. Qed.

(* errors do occur, are reported once, and end the iteration: DW_MACRO_define_strp in .debug_macinfo
   (the witness of the repaired defect was `.debug_macinfo = [04]` / an invalid type followed by entries) *)
Example ex_error_then_none :
  macinfo_all true false [x04; x05; x04; x04] 0 = Ok [EvEntry MEndFile; EvErr EInvalidMacinfoType] /\
  macros_all true false [x05; x00; x00; x04; x0d; x04] 0 = Ok [EvEntry MEndFile; EvErr EInvalidMacroType] /\
  macros_all false false [x05; x00; x00; x01; x80] 0 = Ok [EvErr EUnexpectedEof] /\
  macinfo_all true false [x03; xff; xff; xff; xff; xff; xff; xff; xff; xff; x02; x00; x04] 0 = Ok [EvErr EBadUnsignedLeb128].
Proof. repeat split; vm_compute; reflexivity. Qed.

Example ex_stops_after_error_hyp :
  macro_next true false {| mi_input := [x05; x04; x04]; mi_fmt64 := false; mi_is_macro := false |}
  = (Err EInvalidMacinfoType, {| mi_input := []; mi_fmt64 := false; mi_is_macro := false |}).
Proof. vm_compute. reflexivity. Qed.

Example ex_progress_hyp :
  macro_next false true {| mi_input := [x07; x00; x00; x01; x02; x04]; mi_fmt64 := false; mi_is_macro := true |}
  = (Ok (Some (MImport 258)), {| mi_input := [x04]; mi_fmt64 := false; mi_is_macro := true |}).
Proof. vm_compute. reflexivity. Qed.

Example ex_operands_table :
  let h := {| mh_version := 5; mh_flags := 6; mh_line_offset := 16 |} in
  wf_header h = true /\ mh_has_table h = true /\
  get_macros false (enc_header false h ++ [x01; xe0; x01; x0b; x00]) 0 = Err EUnsupportedOpcodeOperandsTable.
Proof. repeat split; vm_compute; reflexivity. Qed.

Example ex_offset_past_end :
  get_macinfo [x04] 2 = Err EUnexpectedEof /\ macinfo_all true false [x04] 1 = Ok [] /\
  get_macros false [x05; x00] 0 = Err EUnexpectedEof.
Proof. repeat split; vm_compute; reflexivity. Qed.
