(* Properties/C13_tie.v — translator tie (DESIGN §1.2 item 2) for C13: every DW_* numeral that Model/LineWr.v defines is the constant of the same
   name in /repo/src/constants.rs, regenerated into coq/Gen/Constants.v from the source text on every ./check run. *)
From Coq Require Import NArith.
Require GV.Gen.Constants GV.Model.LineWr.
Local Open Scope N_scope.

(* the 5 DW_* numerals of Model/LineWr.v *)
Theorem c13_tie_constants :
  Constants.DW_FORM_string = LineWr.DW_FORM_string /\
  Constants.DW_FORM_strp = LineWr.DW_FORM_strp /\
  Constants.DW_FORM_udata = LineWr.DW_FORM_udata /\
  Constants.DW_FORM_data16 = LineWr.DW_FORM_data16 /\
  Constants.DW_FORM_line_strp = LineWr.DW_FORM_line_strp.
Proof. repeat split; reflexivity. Qed.

(* statement pins *)
Check c13_tie_constants :
  Constants.DW_FORM_string = LineWr.DW_FORM_string /\
  Constants.DW_FORM_strp = LineWr.DW_FORM_strp /\
  Constants.DW_FORM_udata = LineWr.DW_FORM_udata /\
  Constants.DW_FORM_data16 = LineWr.DW_FORM_data16 /\
  Constants.DW_FORM_line_strp = LineWr.DW_FORM_line_strp.
