(* Properties/C16_tie.v — translator tie (DESIGN §1.2 item 2) for C16: every DW_* numeral that Spec/ListWrSpec.v defines is the constant of the same
   name in /repo/src/constants.rs, regenerated into coq/Gen/Constants.v from the source text on every ./check run. *)
From Coq Require Import NArith.
Require GV.Gen.Constants GV.Spec.ListWrSpec.
Local Open Scope N_scope.

(* the one DW_* numeral of Spec/ListWrSpec.v *)
Theorem c16_tie_constants :
  Constants.DW_AT_low_pc = ListWrSpec.DW_AT_low_pc.
Proof. repeat split; reflexivity. Qed.

(* statement pins *)
Check c16_tie_constants :
  Constants.DW_AT_low_pc = ListWrSpec.DW_AT_low_pc.
