(* Properties/C11.v — written units read back as the same forest with every reference intact.
   Statements with their short proofs (the long ones: Proofs/UnitWrProofs.v, UnitRoundtrip.v, WriterGlueProofs.v),
   non-vacuity examples.  The model is Model/UnitWr.v (mirror of
   src/write/unit.rs, abbrev.rs, str.rs), the meaning of the bytes is Spec/UnitWrSpec.v.
   Two hypotheses recur and are not restrictions of the property:
     * `expr_ok` / the x_size–x_out link: an Expression's predicted size is the number of bytes it writes
       (that is C15's theorem; expressions are opaque here);
     * `... < 2 ^ 64`: the unit fits the address space (usize sums cannot overflow in a running program);
       the model keeps the overflow checks, so this has to be said. *)
From Coq Require Import List NArith ZArith Bool Permutation Lia.
From Coq.Strings Require Import Byte.
Require Import GV.Base.Res GV.Base.Byt GV.Base.Ints GV.Model.Leb GV.Model.Prim.
Require Import GV.Spec.UnitWrSpec GV.Model.UnitWr GV.Proofs.UnitWrProofs GV.Proofs.UnitRoundtrip.
Require GV.Proofs.AttrProofs GV.Proofs.DieRdProofs.
Import ListNotations.
Local Open Scope N_scope.

(* ---------------------------------------------------------------- (1) form / size / write agree *)

(* For EVERY write::AttributeValue variant, encoding (any version, format, address size), byte order
   and build mode: when `write` emits the value, `size` predicted exactly the number of bytes emitted
   (placeholders included). The debug_assert_form! checks inside both functions never fire. *)
Theorem form_size_write_len : forall (dbg : bool) (cx : wcx) (v : aval) (ops : list wop),
  av_write dbg cx v = Ok ops -> expr_ok v -> ops_len ops < 2 ^ 64 ->
  av_size dbg (wc_enc cx) (wc_lpv cx) v = Ok (ops_len ops).
Proof. exact av_write_size. Qed.

(* ... and those bytes are laid out as the DW_FORM chosen by `form` prescribes: decoding them under that
   form (UnitWrSpec.form_decode, the C03 reading) consumes exactly them and yields the value (placeholders: 0). *)
Theorem form_size_write_decodes : forall (dbg : bool) (cx : wcx) (v : aval) (ops : list wop) (rest : list byte),
  av_write dbg cx v = Ok ops -> av_decodable v ->
  form_decode (wc_enc cx) (wc_be cx) (fst (av_form (wc_enc cx) v))
              (match snd (av_form (wc_enc cx) v) with Some z => z | None => 0%Z end)
              (ops_bytes ops ++ rest) = Some (av_raw cx v, rest).
Proof. exact av_write_decodes. Qed.

Example form_size_write_ex :
  let cx := mkWcx (mkEnc 5 false 8) false 0 0 [] [] None [] [7] [] [] 5 in
  av_write true cx (AvUdata 300) = Ok [WB [xac; x02]] /\ av_size true (wc_enc cx) (wc_lpv cx) (AvUdata 300) = Ok 2 /\
  av_write true cx AvFlagPresent = Ok [] /\ av_size true (wc_enc cx) (wc_lpv cx) AvFlagPresent = Ok 0 /\
  av_write true cx (AvStringRef 0) = Ok [WB [x07; x00; x00; x00]] /\
  av_write true cx (AvUnitRef (mkEid 0 3)) = Ok [WUnitRef (mkEid 0 3) 4].
Proof. vm_compute. repeat split; reflexivity. Qed.

(* ---------------------------------------------------------------- (2) offsets_exact / refs_resolve *)

(* calculate_offsets assigns to every entry of the tree exactly the position at which `write` later emits
   it (WMark = the point of the debug_assert that opens DebuggingInformationEntry::write), the running offset
   ends where the written bytes end, and the entries are visited in the same (pre)order. `cx` carries the
   tables calculate_offsets produced, as in Unit::write. *)
Theorem offsets_exact : forall (dbg : bool) (cx : wcx) (root : die) (st0 st : cst) (ops : list wop),
  calc dbg (wc_enc cx) (wc_lpv cx) root st0 = Ok st ->
  wc_codes cx = cs_codes st ->
  write_die dbg cx root (cs_off st0) = Ok ops ->
  NoDup (die_ids root) -> die_expr_ok root ->
  cs_off st0 + ops_len ops < 2 ^ 64 ->
  cs_off st = cs_off st0 + ops_len ops /\
  map fst (ops_marks (cs_off st0) ops) = die_ids root /\
  (forall i p, In (i, p) (ops_marks (cs_off st0) ops) -> nth_error (cs_entries st) i = Some p).
Proof. exact offsets_exact_lemma. Qed.

(* Hence every UnitRef placeholder — forward or backward — is patched with the unit-relative offset of the
   position where its target was emitted, nothing else in the section changes, and in a build with debug
   assertions the id was issued by this unit. *)
Theorem refs_resolve : forall (dbg : bool) (cx : wcx) (root : die) (st0 st : cst) (ops : list wop)
    (pre post sec' : list byte) (f : eid -> list byte),
  calc dbg (wc_enc cx) (wc_lpv cx) root st0 = Ok st ->
  wc_codes cx = cs_codes st ->
  write_die dbg cx root (cs_off st0) = Ok ops ->
  NoDup (die_ids root) -> die_expr_ok root ->
  cs_off st0 + ops_len ops < 2 ^ 64 ->
  (forall j y, nth_error (cs_entries st0) j = Some y -> y = 0) ->
  UnitWr.blen pre = cs_off st0 -> wc_unit_off cx <= cs_off st0 ->
  (forall id b, ref_value dbg (wc_be cx) (wc_unit cx) (wc_unit_off cx) (cs_entries st) (wsz (wc_enc cx)) id = Some b -> f id = b) ->
  patch_unit_refs dbg (wc_be cx) (wc_unit cx) (wc_unit_off cx) (cs_entries st) (wsz (wc_enc cx))
                  (ops_unit_refs (cs_off st0) ops) (pre ++ ops_bytes ops ++ post) = Ok sec' ->
  sec' = pre ++ ops_resolved f ops ++ post /\
  (forall id w', In (WUnitRef id w') ops ->
     exists p, In (id_idx id, p) (ops_marks (cs_off st0) ops) /\
               write_udata (wc_be cx) (p - wc_unit_off cx) (wsz (wc_enc cx)) = Ok (f id) /\
               (dbg = true -> id_unit id = wc_unit cx)).
Proof. exact refs_resolve_lemma. Qed.

(* a tree with a forward and a backward reference, a sibling pointer and a shared abbreviation *)
Definition ex_enc : encoding := mkEnc 4 false 8.
Definition ex_root : die :=
  Die 0 17 true [(3, AvString [x61]); (73, AvUnitRef (mkEid 0 2))]
      [Die 1 36 false [(11, AvUdata 300)] [];
       Die 2 46 false [(49, AvUnitRef (mkEid 0 1))] [];
       Die 3 36 false [(11, AvUdata 7)] []].
Definition ex_st0 : cst := mkCst 11 [0; 0; 0; 0] [] [0; 0; 0; 0].
Definition ex_st : cst := mkCst 33 [11; 22; 25; 30] [] [1; 2; 3; 2].

Example offsets_exact_ex :
  match calc true ex_enc 4 ex_root ex_st0 with
  | Ok st =>
      cs_entries st = cs_entries ex_st /\ cs_codes st = cs_codes ex_st /\ cs_off st = 33 /\
      match write_die true (mkWcx ex_enc false 0 0 (cs_entries st) (cs_codes st) None [] [] [] [] 4) ex_root 11 with
      | Ok ops =>
          ops_marks 11 ops = [(0%nat, 11); (1%nat, 22); (2%nat, 25); (3%nat, 30)] /\ ops_len ops = 22 /\
          ops_unit_refs 11 ops = [(18, mkEid 0 2); (26, mkEid 0 1)]
      | _ => False
      end
  | _ => False
  end.
Proof. vm_compute. repeat split; reflexivity. Qed.

Example offsets_exact_ex_nodup : NoDup (die_ids ex_root).
Proof.
  change (NoDup [0; 1; 2; 3]%nat).
  repeat (constructor; [cbn; intuition discriminate|]). constructor.
Qed.

(* ---------------------------------------------------------------- roundtrip of a unit's entries *)

(* The bytes of the entries, after the reference fix-ups, read back — with the spec-level DIE reader
   UnitWrSpec.decode_die and the unit's own abbreviation table — as the tree that was written:
     * `dmatch`: same tags and nesting, every entry at the position `write` emitted it, each attribute list
       = the DW_AT_sibling the writer adds (pointing at the end of the entry's subtree) followed by the entry's
       attributes in order, each with the form chosen by `form` and the value `av_final` (= the value set, with
       string/line/range/location attributes carrying the offset their table assigned);
     * every UnitRef value + unit offset is the position of the entry it was meant to reference, i.e. the `off`
       of that entry's decoded SDie (offsets_exact says that is `cs_entries st` of its id);
     * nothing outside the placeholders changed (`sec' = pre ++ ... ++ post`).
   Remaining distance to gimli's own reader: C02/C03 (its DIE and attribute readers equal UnitWrSpec.decode_die /
   form_decode) — here that half is the harness oracle (read-back through gimli::read on every case). *)
Theorem roundtrip : forall (dbg : bool) (cx : wcx) (root : die) (st0 st : cst) (ops : list wop)
    (pre post sec' : list byte) (f : eid -> list byte) (fuel : nat) (rest : list byte),
  calc dbg (wc_enc cx) (wc_lpv cx) root st0 = Ok st ->
  wc_codes cx = cs_codes st ->
  write_die dbg cx root (cs_off st0) = Ok ops ->
  NoDup (die_ids root) -> die_expr_ok root -> die_decodable root ->
  cs_off st0 + ops_len ops < 2 ^ 64 ->
  (forall j y, nth_error (cs_entries st0) j = Some y -> y = 0) ->
  UnitWr.blen pre = cs_off st0 -> wc_unit_off cx <= cs_off st0 ->
  (forall id b, ref_value dbg (wc_be cx) (wc_unit cx) (wc_unit_off cx) (cs_entries st) (wsz (wc_enc cx)) id = Some b -> f id = b) ->
  (forall id, UnitWr.blen (f id) = wsz (wc_enc cx)) ->
  patch_unit_refs dbg (wc_be cx) (wc_unit cx) (wc_unit_off cx) (cs_entries st) (wsz (wc_enc cx))
                  (ops_unit_refs (cs_off st0) ops) (pre ++ ops_bytes ops ++ post) = Ok sec' ->
  ops_len ops <= N.of_nat fuel ->
  exists sd,
    sec' = pre ++ ops_resolved f ops ++ post /\
    decode_die fuel (wc_enc cx) (wc_be cx) (cs_abbrevs st) (cs_off st0) (ops_resolved f ops ++ rest) = Some (sd, rest) /\
    dmatch cx f root (cs_off st0) (cs_off st0 + ops_len ops) sd /\
    (forall id w', In (WUnitRef id w') ops ->
       exists p, In (id_idx id, p) (ops_marks (cs_off st0) ops) /\
                 nth_error (cs_entries st) (id_idx id) = Some p /\
                 fixed_num (wc_be cx) (f id) = p - wc_unit_off cx).
Proof. exact roundtrip_lemma. Qed.

(* the example tree, patched and decoded: root at 11 with DW_AT_sibling -> 33 (end), a forward reference to the
   entry at 25 and, inside it, a backward reference to the entry at 22 *)
Example roundtrip_ex :
  match calc true ex_enc 4 ex_root ex_st0 with
  | Ok st =>
      let cx := mkWcx ex_enc false 0 0 (cs_entries st) (cs_codes st) None [] [] [] [] 4 in
      match write_die true cx ex_root 11 with
      | Ok ops =>
          let f := fun id => match ref_value true false 0 0 (cs_entries st) 4 id with Some b => b | None => zeros 4 end in
          (exists sec', patch_unit_refs true false 0 0 (cs_entries st) 4 (ops_unit_refs 11 ops)
                          (repeat x00 11 ++ ops_bytes ops ++ []) = Ok sec') /\
          decode_die 30 ex_enc false (cs_abbrevs st) 11 (ops_resolved f ops ++ []) =
            Some (SDie 11 17 [(1, 19, RU 33); (3, 8, RB [x61]); (73, 19, RU 25)]
                    [SDie 22 36 [(11, 15, RU 300)] [];
                     SDie 25 46 [(49, 19, RU 22)] [];
                     SDie 30 36 [(11, 15, RU 7)] []], [])
      | _ => False
      end
  | _ => False
  end.
Proof. vm_compute. split; [eexists; reflexivity|reflexivity]. Qed.

(* ---------------------------------------------------------------- Unit::write as a whole *)

(* The same for the model of Unit::write itself (header, DW_AT_stmt_list adjustment, reorder_base_types,
   calculate_offsets, write, length patch, reference patches): whenever it returns Ok, the bytes appended to
   .debug_info are a header of the computed length followed by the entries, which decode — with the
   abbreviation table it hands to AbbreviationTable::write — to the tree that was written; the offsets it
   stores for later cross-unit fix-ups (`uo_entries`) are the positions of the entries; every UnitRef
   resolves to its target. The hypotheses after the arrow are about the tree found in the unit (ids unique
   = it is a tree, documented String precondition, expression sizes, address space). *)
Theorem unit_roundtrip : forall (dbg be : bool) (uidx : nat) (u : wunit) (p : uparams) (lstr str : list N)
    (info : list byte) (abbrev_off : N) (out : uout),
  unit_write dbg be uidx u p lstr str info abbrev_off = Ok out ->
  exists ents1 ents2 root st line rng loc hdr,
    reorder_base_types ents1 = Ok ents2 /\ length ents1 = length (u_entries u) /\
    tree_of (S (length ents2)) ents2 0 = Ok root /\
    let e := u_enc u in
    let pos0 := UnitWr.blen info + UnitWr.blen hdr in
    let cx := mkWcx e be uidx (UnitWr.blen info) (cs_entries st) (cs_codes st) line lstr str rng loc (up_lp_version p) in
    calc dbg e (up_lp_version p) root (mkCst pos0 (repeat 0 (length ents2)) [] (repeat 0 (length ents2))) = Ok st /\
    uo_entries out = cs_entries st /\ uo_abbrevs out = cs_abbrevs st /\ uo_unit_off out = UnitWr.blen info /\
    (NoDup (die_ids root) -> die_expr_ok root -> die_decodable root -> UnitWr.blen (uo_info out) < 2 ^ 64 ->
     forall f : eid -> list byte,
       (forall id b, ref_value dbg be uidx (UnitWr.blen info) (cs_entries st) (wsz e) id = Some b -> f id = b) ->
       (forall id, UnitWr.blen (f id) = wsz e) ->
     exists ops hdr' sd,
       write_die dbg cx root pos0 = Ok ops /\
       uo_info out = info ++ hdr' ++ ops_resolved f ops /\ UnitWr.blen hdr' = UnitWr.blen hdr /\
       uo_fixups out = ops_fixups pos0 ops /\
       decode_die (S (length (ops_bytes ops))) e be (cs_abbrevs st) pos0 (ops_resolved f ops) = Some (sd, []) /\
       dmatch cx f root pos0 (pos0 + ops_len ops) sd /\
       (forall i q, In (i, q) (ops_marks pos0 ops) -> nth_error (uo_entries out) i = Some q) /\
       (forall id w', In (WUnitRef id w') ops ->
          exists q, In (id_idx id, q) (ops_marks pos0 ops) /\ fixed_num be (f id) = q - UnitWr.blen info)).
Proof. exact unit_write_roundtrip_lemma. Qed.

(* a unit built through the modelled API: root, a subprogram referencing a base type added after it; the
   base type is written first (offset 13), the reference holds 13 *)
Definition ex_unit : wunit :=
  match unit_add true (unit_new (mkEnc 5 false 8)) 0 46 with
  | Ok (_, u1) =>
    match unit_add true u1 0 36 with
    | Ok (_, u2) =>
      match unit_upd u2 1 (entry_set true 73 (AvUnitRef (mkEid 0 2))) with
      | Ok u3 => match unit_upd u3 2 (entry_set true 3 (AvString [x69])) with Ok u4 => u4 | _ => u3 end
      | _ => u2 end
    | _ => u1 end
  | _ => unit_new (mkEnc 5 false 8) end.

Example unit_roundtrip_ex :
  match unit_write true false 0 ex_unit (mkUparams true false 2 (Ok 0) (Ok []) (Ok [])) [] [] [] 0 with
  | Ok out =>
      uo_info out = [x12; x00; x00; x00; x05; x00; x01; x08; x00; x00; x00; x00;
                     x01; x02; x69; x00; x03; x0d; x00; x00; x00; x00] /\
      uo_entries out = [12; 16; 13]
  | _ => False
  end.
Proof. vm_compute. split; reflexivity. Qed.

(* ---------------------------------------------------------------- composed with the reader models (C02 / C03) *)

(* FS = Spec/FormSpec.v, AT = Model/Attr.v (gimli's attribute reader), FO = Spec/Forest.v,
   AR = Model/AbbrevRd.v, DR = Model/DieRd.v (gimli's abbreviation and raw entry readers).
   `renc cx` is the unit's encoding in the reader's vocabulary; `av_fd cx f v` the DWARF form and data the
   writer emits for v (Proofs/UnitRoundtrip.v); `attr_rd_ok` / `die_rd_ok`: names and tags are non-zero u16,
   the name is not DW_AT_sibling (`set` refuses it), payloads are within their Rust types. *)

(* (a) for EVERY write::AttributeValue variant and encoding: Attr.parse_attribute under the specification the
   writer stores in the abbreviation (name, form chosen by `form`, implicit constant) reads the written bytes
   (unit references patched) back as exactly the value DWARF assigns to the emitted form and data, consumes
   exactly those bytes, and the value means what was set (`payload_of`: the number / bytes / flag; which
   constructor carries it is decided by form and name — e.g. Data4 under a loclistptr-class name is handed
   out as a section offset by gimli's reader, C03 `normalise_payload`). *)
Theorem attr_read_by_reader : forall (dbg dbg' : bool) (cx : wcx) (f : eid -> list byte) (name : N) (v : aval)
    (ops : list wop) (rest : list byte),
  av_write dbg cx v = Ok ops -> av_decodable v -> av_typed cx v -> av_ranges cx v ->
  (forall id, UnitWr.blen (f id) = wsz (wc_enc cx)) -> AttrProofs.addr_size_ok (renc cx) ->
  exists val,
    AT.parse_attribute dbg' (renc cx) (AT.mkSpec name (fst (av_form (wc_enc cx) v)) (ic_of (snd (av_form (wc_enc cx) v))))
                       (ops_resolved f ops ++ rest) = Ok (val, rest) /\
    FS.form_value (renc cx) name (ic_of (snd (av_form (wc_enc cx) v))) (fst (av_fd cx f v)) (snd (av_fd cx f v)) = Some val /\
    FS.payload_of val = av_payload cx f v.
Proof. exact attr_read_by_reader_lemma. Qed.

Example attr_read_by_reader_ex :
  let cx := mkWcx (mkEnc 5 false 8) false 0 0 [] [] None [] [7] [] [] 5 in
  av_write true cx (AvStringRef 0) = Ok [WB [x07; x00; x00; x00]] /\
  av_typed cx (AvStringRef 0) /\ av_ranges cx (AvStringRef 0) /\ AttrProofs.addr_size_ok (renc cx) /\
  AT.parse_attribute true (renc cx) (AT.mkSpec 3 14 0) [x07; x00; x00; x00; xaa] = Ok (FS.VDebugStrRef 7, [xaa]) /\
  av_write true cx (AvImplicitConst (-5)) = Ok [] /\
  AT.parse_attribute true (renc cx) (AT.mkSpec 58 33 (-5)) [xaa] = Ok (FS.VSdata (-5), [xaa]).
Proof.
  cbv zeta. split; [reflexivity|]. split; [exists 7; split; reflexivity|].
  split; [vm_compute; reflexivity|]. repeat split; reflexivity.
Qed.

(* (b) AbbrevRd.parse_abbrevs of the written abbreviation table returns a table whose `get code` is, for every
   code, the declaration written under it (tag, children flag, attribute specifications) — and nothing else *)
Theorem abbrevs_read_by_reader : forall (dbg : bool) (tab : list abbrev) (bytes rest : list byte),
  abbrevs_write tab = Ok bytes -> Forall abbrev_wf tab -> N.of_nat (length tab) < two64 ->
  exists t, AR.parse_abbrevs dbg (bytes ++ rest) = Ok (t, rest) /\
            (forall code a, abbrev_lookup tab code = Some a -> AR.tbl_get t code = Some (rabbrev code a)) /\
            (forall code d, AR.tbl_get t code = Some d ->
               exists a, abbrev_lookup tab code = Some a /\ d = rabbrev code a).
Proof. exact abbrevs_read_by_reader_lemma. Qed.

Example abbrevs_read_by_reader_ex :
  let tab := [mkAbbrev 17 true [mkAspec 3 8 0]; mkAbbrev 36 false [mkAspec 58 33 (-5)]] in
  abbrevs_write tab = Ok [x01; x11; x01; x03; x08; x00; x00; x02; x24; x00; x3a; x21; x7b; x00; x00; x00] /\
  Forall abbrev_wf tab.
Proof.
  cbv zeta. split; [vm_compute; reflexivity|].
  repeat constructor; cbn; try lia; try discriminate; try reflexivity; intros Q; exfalso; apply Q; reflexivity.
Qed.

(* (c) the unit: the entries Unit::write emits (after the reference patches) ARE Forest.enc_forest of the
   written tree (`T`, Proofs/UnitRoundtrip.v) under the code assignment of the unit's abbreviation table, so —
   by C02's raw_is_preorder — DieRd's raw entry reader, with the table AbbrevRd parses from the written
   abbreviations, reports exactly the entries of that tree in preorder (null entries closing child lists in
   between): unit offsets = the offsets calculate_offsets stored minus the unit's offset, depths, tags, children
   flags, attribute specifications and values (`FO.preorder` of `T`: root_die / item_val; a DW_AT_sibling reads
   back as the unit offset just behind the entry's subtree). References then resolve by refs_resolve. *)
Theorem unit_read_by_reader : forall (dbg dbg' : bool) (cx : wcx) (root : die) (st0 st : cst) (ops : list wop)
    (f : eid -> list byte) (abytes rest : list byte) (types : bool) (ruoff aoff : N),
  let e := wc_enc cx in
  let h := FO.mkUH (e_ver e) (e_fmt64 e) (e_asz e) FO.UCompile aoff in
  let codes := codes_of_tab (cs_abbrevs st) in
  let body := ops_resolved f ops in
  calc dbg e (wc_lpv cx) root st0 = Ok st -> cs_abbrevs st0 = [] ->
  wc_codes cx = cs_codes st ->
  write_die dbg cx root (cs_off st0) = Ok ops ->
  abbrevs_write (cs_abbrevs st) = Ok abytes ->
  NoDup (die_ids root) -> die_rd_ok cx root ->
  (forall id, UnitWr.blen (f id) = wsz e) ->
  2 <= e_ver e <= 5 -> AttrProofs.addr_size_ok (renc cx) ->
  wc_unit_off cx <= cs_off st0 -> cs_off st0 - wc_unit_off cx = FO.header_len h ->
  cs_off st0 + ops_len ops < two63 ->
  exists tbl,
    AR.parse_abbrevs dbg' (abytes ++ rest) = Ok (tbl, rest) /\
    body = FO.enc_forest codes (wc_be cx) (FO.header_len h) [T cx f root] 0 /\
    DR.read_all_raw dbg' (DieRdProofs.parsed_header (wc_be cx) types ruoff h body) tbl None =
      Ok (FO.raw_seq codes (FO.header_len h) [T cx f root] 0, None) /\
    filter DieRdProofs.not_null (FO.raw_seq codes (FO.header_len h) [T cx f root] 0) =
      FO.preorder codes (FO.header_len h) 0 [T cx f root] /\
    map FO.d_offset (FO.preorder codes (FO.header_len h) 0 [T cx f root]) =
      map (fun ip => snd ip - wc_unit_off cx) (ops_marks (cs_off st0) ops) /\
    map fst (ops_marks (cs_off st0) ops) = die_ids root /\
    (forall i p, In (i, p) (ops_marks (cs_off st0) ops) -> nth_error (cs_entries st) i = Some p).
Proof. exact unit_read_by_reader_lemma. Qed.

(* the example tree meets the hypotheses of (c); what the raw reader reports for it *)
Definition ex_cx : wcx := mkWcx ex_enc false 0 0 (cs_entries ex_st) (cs_codes ex_st) None [] [] [] [] 4.
Definition ex_f : eid -> list byte :=
  fun id => match ref_value true false 0 0 (cs_entries ex_st) 4 id with Some b => b | None => zeros 4 end.

Example unit_read_by_reader_ex_hyps :
  die_rd_ok ex_cx ex_root /\ AttrProofs.addr_size_ok (renc ex_cx) /\
  FO.header_len (FO.mkUH 4 false 8 FO.UCompile 0) = 11 /\ (forall id, UnitWr.blen (ex_f id) = 4).
Proof.
  assert (A : forall n v, 0 < n < 65536 -> n <> 1 -> av_decodable v -> av_typed ex_cx v -> av_ranges ex_cx v ->
              attr_rd_ok ex_cx (n, v)) by (intros; unfold attr_rd_ok, two16; cbn [fst snd]; tauto).
  split; [|split; [reflexivity|split; [reflexivity|]]].
  - unfold ex_root. rewrite die_rd_ok_unfold. unfold two16. split; [lia|]. split.
    + constructor; [|constructor; [|constructor]].
      * apply A; [lia|discriminate|reflexivity| |exact I]. cbn [av_typed]. unfold UnitWr.blen. cbn [length]. lia.
      * apply A; [lia|discriminate|exact I|exact I|exact I].
    + cbn [dies_rd_ok]. rewrite !die_rd_ok_unfold. unfold two16. cbn [dies_rd_ok].
      repeat split; try lia; try (constructor; [|constructor]; apply A; try lia; try discriminate; try exact I; cbn [av_typed]; lia).
  - intros id. unfold ex_f. destruct (ref_value true false 0 0 (cs_entries ex_st) 4 id) as [b|] eqn:E; [|reflexivity].
    unfold ref_value in E. destruct (unit_offset true 0 0 (cs_entries ex_st) id) as [[v|]| | |]; try discriminate.
    destruct (write_udata false v 4) as [b'| | |] eqn:W; try discriminate. injection E as <-.
    eapply write_udata_len; eassumption.
Qed.

Example unit_read_by_reader_ex :
  match calc true ex_enc 4 ex_root ex_st0 with
  | Ok st =>
      cs_entries st = cs_entries ex_st /\ cs_codes st = cs_codes ex_st /\
      map (fun d => (FO.d_offset d, FO.d_depth d, FO.d_tag d, FO.d_children d, map snd (FO.d_attrs d)))
          (FO.preorder (codes_of_tab (cs_abbrevs st)) 11 0 [T ex_cx ex_f ex_root]) =
        [(11, 0%Z, 17, true, [FS.VUnitRef 33; FS.VString [x61]; FS.VUnitRef 25]);
         (22, 1%Z, 36, false, [FS.VUdata 300]);
         (25, 1%Z, 46, false, [FS.VUnitRef 22]);
         (30, 1%Z, 36, false, [FS.VUdata 7])]
  | _ => False
  end.
Proof. vm_compute. repeat split; reflexivity. Qed.

(* ---------------------------------------------------------------- (3) abbreviation de-duplication *)

(* AbbreviationTable::add returns the 1-based position of the FIRST occurrence of the abbreviation in the
   table that is later written in code order (so the spec-level lookup of that code finds it), a new
   abbreviation gets code n+1 and is appended, a known one leaves the table untouched, and the table never
   holds an abbreviation twice. *)
Theorem abbrev_codes : forall (tab : list abbrev) (a : abbrev) (code : N) (tab' : list abbrev),
  abbrev_add tab a = (code, tab') ->
  abbrev_lookup tab' code = Some a /\
  1 <= code <= N.of_nat (length tab') /\
  (forall c, c < code -> abbrev_lookup tab' c <> Some a) /\
  (In a tab -> tab' = tab) /\ (~ In a tab -> tab' = tab ++ [a] /\ code = N.of_nat (length tab) + 1) /\
  (NoDup tab -> NoDup tab').
Proof. exact abbrev_add_spec. Qed.

(* equal (tag, children flag, attribute specifications) |-> the same code, in every later state of the table *)
Theorem abbrev_dedup : forall (tab : list abbrev) (a : abbrev) (code : N) (tab' ext : list abbrev),
  abbrev_add tab a = (code, tab') -> NoDup (tab' ++ ext) ->
  abbrev_add (tab' ++ ext) a = (code, tab' ++ ext).
Proof.
  intros tab a code tab' ext H ND. destruct (abbrev_add_spec _ _ _ _ H) as [A _].
  unfold abbrev_lookup in A. destruct (code =? 0) eqn:Z; [discriminate|]. apply N.eqb_neq in Z.
  assert (L : (N.to_nat (code - 1) < length tab')%nat) by (apply nth_error_Some; congruence).
  assert (A' : nth_error (tab' ++ ext) (N.to_nat (code - 1)) = Some a) by (rewrite nth_error_app1; assumption).
  destruct (abbrev_find_in _ _ (nth_error_In _ _ A')) as [i F]. unfold abbrev_add. rewrite F.
  destruct (abbrev_find_some _ _ _ F) as [F1 _].
  (* two positions holding `a` in a duplicate-free list coincide *)
  assert (i = N.to_nat (code - 1)); [|subst i; f_equal; lia].
  rewrite NoDup_nth_error in ND. apply ND; [apply nth_error_Some|]; congruence.
Qed.

Example abbrev_dedup_ex :
  let a := mkAbbrev 36 false [mkAspec 11 15 0] in
  let b := mkAbbrev 46 false [mkAspec 49 19 0] in
  abbrev_add [] a = (1, [a]) /\ abbrev_add [a] b = (2, [a; b]) /\ abbrev_add [a; b] a = (1, [a; b]) /\
  NoDup ([a] ++ [b]).
Proof.
  cbv zeta. split; [reflexivity|]. split; [reflexivity|]. split; [reflexivity|].
  cbn [app]. repeat (constructor; [cbn; intuition discriminate|]). constructor.
Qed.

(* ---------------------------------------------------------------- (4) string tables *)

(* StringTable / LineStringTable ::add on a table satisfying the invariant (no duplicates, offsets = start
   positions, len = total): the invariant is kept, the id names a copy of the string, a string already
   present is not stored again, earlier ids and offsets are stable. *)
Theorem strings_add : forall (dbg : bool) (t : strtab) (s : list byte) (i : nat) (t' : strtab),
  strtab_wf t -> strtab_add dbg t s = Ok (i, t') ->
  UnitWr.blen (strs_bytes (st_strings t')) < 2 ^ 64 ->
  strtab_wf t' /\ nth_error (st_strings t') i = Some s /\
  (In s (st_strings t) -> t' = t) /\
  (~ In s (st_strings t) -> st_strings t' = st_strings t ++ [s] /\ i = length (st_strings t)) /\
  (forall j x, nth_error (st_strings t) j = Some x -> nth_error (st_strings t') j = Some x) /\
  (forall j o, nth_error (st_offsets t) j = Some o -> nth_error (st_offsets t') j = Some o).
Proof. exact strtab_add_spec. Qed.

(* equal strings |-> equal ids |-> one copy *)
Theorem strings_shared : forall (dbg : bool) (t : strtab) (s : list byte) (i : nat) (t' : strtab),
  strtab_add dbg t s = Ok (i, t') -> strtab_wf t ->
  UnitWr.blen (strs_bytes (st_strings t')) < 2 ^ 64 ->
  strtab_add dbg t' s = Ok (i, t').
Proof.
  intros dbg t s i t' H W B. destruct (strings_add _ _ _ _ _ W H B) as [[ND _] [A _]].
  unfold strtab_add in *. destruct (has_nul s); [discriminate|].
  destruct (str_find (st_strings t') s) as [k|] eqn:F.
  - destruct (str_find_some _ _ _ F) as [F1 _]. do 2 f_equal.
    rewrite NoDup_nth_error in ND. apply ND; [apply nth_error_Some|]; congruence.
  - exfalso. apply (str_find_none _ _ F). eapply nth_error_In; eassumption.
Qed.

(* offset(id) is the position of that copy (NUL-terminated) in the bytes `write` produces *)
Theorem strings_offset : forall (t : strtab) (i : nat) (s : list byte) (o : N),
  strtab_wf t -> nth_error (st_strings t) i = Some s -> nth_error (st_offsets t) i = Some o ->
  exists pre post, strtab_write t = pre ++ (s ++ [x00]) ++ post /\ UnitWr.blen pre = o.
Proof.
  intros t i s o [_ [_ [_ W4]]] Hs Ho. apply W4 in Ho. subst o.
  exists (strs_bytes (firstn i (st_strings t))), (strs_bytes (skipn (S i) (st_strings t))).
  split; [|reflexivity]. unfold strtab_write. fold (strs_bytes (st_strings t)).
  rewrite <- (firstn_skipn i (st_strings t)) at 1. rewrite strs_bytes_app. f_equal.
  replace (skipn i (st_strings t)) with (s :: skipn (S i) (st_strings t)); [reflexivity|].
  clear W4. revert i Hs. induction (st_strings t) as [|x r IH]; intros [|i] Hs; cbn in *; try discriminate.
  - now injection Hs as ->.
  - now apply IH.
Qed.

Example strings_ex :
  strtab_wf strtab_empty /\
  match strtab_add true strtab_empty [x68; x69] with
  | Ok (i1, t1) =>
      match strtab_add true t1 [x61] with
      | Ok (i2, t2) =>
          i1 = 0%nat /\ i2 = 1%nat /\ strtab_add true t2 [x68; x69] = Ok (0%nat, t2) /\ st_offsets t2 = [0; 3] /\
          strtab_write t2 = [x68; x69; x00; x61; x00]
      | _ => False
      end
  | _ => False
  end.
Proof.
  split; [|vm_compute; repeat split; reflexivity].
  split; [constructor|]. split; [reflexivity|]. split; [reflexivity|]. intros [|i] o H; discriminate.
Qed.

(* ---------------------------------------------------------------- (5) unencodable requests are errors *)

(* the classified requests (symbolic address / reference without a relocating writer, a value that does not
   fit its field — offsets >= 2^32 in the 32-bit format, addresses wider than the address size —, a field
   width other than 1/2/4/8, DW_AT_stmt_list-style reference without a line program) are refused with the
   stated error in both build modes: never bytes, never a panic *)
Theorem unencodable_is_error : forall (dbg : bool) (cx : wcx) (v : aval) (er : error),
  av_unencodable cx v = Some er -> av_write dbg cx v = Err er.
Proof. intros dbg cx v er H. rewrite av_write_emit. now apply emit_refused_err, av_emit_refused. Qed.

(* and these are the only ones: every other well-typed value is written *)
Theorem encodable_is_ok : forall (dbg : bool) (cx : wcx) (v : aval),
  av_typed cx v -> av_unencodable cx v = None -> exists ops, av_write dbg cx v = Ok ops.
Proof.
  intros dbg cx v T U. rewrite av_write_emit. apply emit_written; [now apply av_emit_typed|now apply av_emit_accepted].
Qed.

(* a reference to an entry outside the written tree (deleted child, reserved and never added, orphan)
   never produces output *)
Theorem dangling_ref_is_error : forall (dbg : bool) (e : encoding) (lpv : N) (root : die) (st0 st : cst) (be : bool)
    (unit : nat) (unit_off w : N) (refs : list (N * eid)) (sec : list byte) (off : N) (id : eid),
  calc dbg e lpv root st0 = Ok st ->
  (forall j y, nth_error (cs_entries st0) j = Some y -> y = 0) ->
  In (off, id) refs -> ~ In (id_idx id) (die_ids root) ->
  forall sec', patch_unit_refs dbg be unit unit_off (cs_entries st) w refs sec <> Ok sec'.
Proof.
  intros dbg e lpv root st0 st be unit unit_off w refs sec off id HC HZ Hin Hnot sec' HP.
  destruct (patch_unit_refs_all_resolve _ _ _ _ _ _ _ _ _ HP _ _ Hin) as [v Ev].
  destruct (unit_offset_value _ _ _ _ _ _ Ev) as [x [X1 [X2 _]]].
  apply Hnot. eapply calc_nonzero_in_tree; eassumption.
Qed.

(* cross-unit fix-ups: success means every fix-up found its unit and a calculated entry offset *)
Theorem fixups_all_resolve : forall (dbg be : bool) (units : list tunit) (fx : list fixup) (info info' : list byte),
  table_fixups dbg be units fx info = Ok info' ->
  forall f, In f fx ->
  exists t o, nth_error units (fx_unit f) = Some t /\
              debug_info_offset dbg (fx_unit f) (tu_entries t) (fx_entry f) = Ok (Some o).
Proof.
  intros dbg be units. induction fx as [|g r IH]; intros info info' H f Hin; [destruct Hin|].
  cbn [table_fixups] in H.
  apply bind_ok in H. destruct H as [t [Et H]].
  apply bind_ok in H. destruct H as [o [Eo H]].
  apply bind_ok in H. destruct H as [v [Ev H]].
  apply bind_ok in H. destruct H as [i1 [_ H]].
  destruct Hin as [<-|Hin]; [|eapply IH; eassumption].
  unfold unwrap in Et. destruct (nth_error units (fx_unit g)) as [t'|]; [|discriminate]. injection Et as ->.
  destruct o as [o'|]; [eauto|discriminate].
Qed.

Example unencodable_ex :
  let cx := mkWcx (mkEnc 4 false 4) false 0 0 [] [] None [] [] [] [] 4 in
  av_unencodable cx (AvAddress (ASym 1 0)) = Some WInvalidAddress /\
  av_unencodable cx (AvAddress (AConst 4294967296)) = Some WValueTooLarge /\
  av_unencodable cx (AvDebugStrRefSup 4294967296) = Some WValueTooLarge /\
  av_unencodable cx AvLineProgramRef = Some WInvalidAttributeValue /\
  av_unencodable cx (AvDebugInfoRef (DSym 0)) = Some WInvalidReference /\
  av_unencodable (mkWcx (mkEnc 2 false 3) false 0 0 [] [] None [] [] [] [] 4) (AvDebugInfoRef (DEntry 0 (mkEid 0 1)))
    = Some WUnsupportedWordSize /\
  av_typed cx (AvUdata 5) /\ av_unencodable cx (AvUdata 5) = None.
Proof. vm_compute. repeat split; try reflexivity. Qed.

(* ... and (since c42c00d) the request is answered with Err(InvalidReference) — no panic — wherever the id
   lies, including a reserved id beyond the entries vector: the first dangling reference ends the write *)
Theorem dangling_ref_invalid_reference : forall (dbg : bool) (e : encoding) (lpv : N) (root : die) (st0 st : cst)
    (be : bool) (unit : nat) (unit_off w : N) (r : list (N * eid)) (sec : list byte) (off : N) (id : eid),
  calc dbg e lpv root st0 = Ok st ->
  (forall j y, nth_error (cs_entries st0) j = Some y -> y = 0) ->
  ~ In (id_idx id) (die_ids root) -> (dbg = true -> id_unit id = unit) ->
  patch_unit_refs dbg be unit unit_off (cs_entries st) w ((off, id) :: r) sec = Err WInvalidReference.
Proof.
  intros dbg e lpv root st0 st be unit unit_off w r sec off id HC HZ Hn Hu.
  cbn [patch_unit_refs]. now rewrite (unit_offset_dangling _ _ _ _ _ _ _ _ _ HC HZ Hn Hu).
Qed.

Example dangling_reserved_id_ex :
  unit_offset true 0 0 [0; 12] (mkEid 0 2) = Ok None /\ unit_offset false 0 0 [0; 12] (mkEid 0 2) = Ok None /\
  patch_unit_refs true false 0 0 [0; 12] 4 [(13, mkEid 0 2)] (repeat x00 20) = Err WInvalidReference.
Proof. vm_compute. repeat split; reflexivity. Qed.

(* patching the references of a unit never panics when the ids were issued by that unit (the remaining
   exception is an id of another unit in a build with debug assertions: known finding) *)
Theorem patch_no_panic : forall (dbg be : bool) (unit : nat) (unit_off : N) (entries : list N) (w : N)
    (refs : list (N * eid)) (sec : list byte),
  (forall off id, In (off, id) refs -> dbg = true -> id_unit id = unit) ->
  (forall i x, nth_error entries i = Some x -> x <> 0 -> unit_off <= x) ->
  patch_unit_refs dbg be unit unit_off entries w refs sec <> Panic.
Proof.
  intros dbg be unit unit_off entries w. induction refs as [|[off id] r IH]; intros sec Hu Hx; cbn [patch_unit_refs]; [discriminate|].
  unfold unit_offset, debug_info_offset.
  rewrite (dassert_unit dbg unit id (Hu off id (or_introl eq_refl))). cbn [bind].
  destruct (nth_error entries (id_idx id)) as [x|] eqn:En; [|discriminate]. cbn [bind].
  destruct (x =? 0) eqn:Z; [discriminate|]. apply N.eqb_neq in Z.
  rewrite Lib.chk_sub_ok by (eapply Hx; eassumption). cbn [bind of_option].
  unfold write_udata_at.
  assert (Nu := write_udata_no_panic be (x - unit_off) w).
  destruct (write_udata be (x - unit_off) w) as [b| | |]; try discriminate; [|contradiction]. cbn [bind].
  assert (Na := write_at_no_panic sec off b).
  destruct (write_at sec off b) as [sec1| | |]; try discriminate; [|contradiction]. cbn [bind].
  apply IH; [|exact Hx]. intros o i Hi. apply (Hu o i). now right.
Qed.

(* (since c92c4f4) a file index is written in the numbering of the unit's line program, whatever the unit's
   own version: a reader of that program finds the file that was meant *)
Theorem file_index_roundtrip : forall (dbg : bool) (lpv i r : N),
  i + 1 < 2 ^ 64 -> file_raw dbg lpv (Some i) = Ok r -> file_of_raw lpv r = Some i.
Proof. exact file_index_roundtrip_lemma. Qed.

Example file_index_crossver_ex :
  (* DWARF 5 unit, DWARF 4 line program: file 1 is written as 2 *)
  let cx := mkWcx (mkEnc 5 false 8) false 0 0 [] [] None [] [] [] [] 4 in
  av_write true cx (AvFileIndex (Some 1)) = Ok [WB [x02]] /\ av_size true (wc_enc cx) (wc_lpv cx) (AvFileIndex (Some 1)) = Ok 1 /\
  file_of_raw 4 2 = Some 1.
Proof. vm_compute. repeat split; reflexivity. Qed.

(* ---------------------------------------------------------------- (6) base types first *)

(* reorder_base_types replaces the root's children by the stable partition (base types, then the rest) and
   touches nothing else *)
Theorem base_types_first : forall (ents ents' : list entry),
  reorder_base_types ents = Ok ents' ->
  exists root,
    nth_error ents 0 = Some root /\
    nth_error ents' 0 =
      Some (mkEntry (en_parent root) (en_tag root) (en_sibling root) (en_attrs root)
                    (filter (tag_is_base ents) (en_children root) ++
                     filter (fun c => negb (tag_is_base ents c)) (en_children root))) /\
    (forall j, j <> 0%nat -> nth_error ents' j = nth_error ents j) /\
    length ents' = length ents.
Proof.
  unfold reorder_base_types, unwrap. intros ents ents' H.
  destruct (nth_error ents 0) as [root|] eqn:E0; [|discriminate]. cbn [bind] in H.
  apply bind_ok in H. destruct H as [a [Ea H]]. apply bind_ok in H. destruct H as [b [Eb H]].
  apply select_tags_spec in Ea. apply select_tags_spec in Eb.
  destruct (set_nth_spec _ _ _ _ H) as [S1 [S2 S3]].
  exists root. split; [reflexivity|]. split; [|split; assumption].
  rewrite S1, Ea, Eb. do 3 f_equal.
  all: apply filter_ext; intros c; now destruct (tag_is_base ents c).
Qed.

(* ... which is a permutation of the children *)
Theorem base_types_first_perm : forall (A : Type) (p : A -> bool) (l : list A),
  Permutation (filter p l ++ filter (fun x => negb (p x)) l) l.
Proof.
  intros A p. induction l as [|x r IH]; cbn [filter]; [constructor|].
  destruct (p x); cbn [negb app].
  - now constructor.
  - eapply Permutation_trans; [apply Permutation_sym, Permutation_middle|]. now constructor.
Qed.

Example base_types_first_ex :
  let e t ch := mkEntry None t false [] ch in
  match reorder_base_types [e 17 [1; 2; 3; 4]%nat; e 46 []; e 36 []; e 52 []; e 36 []] with
  | Ok ents' => option_map en_children (nth_error ents' 0) = Some [2; 4; 1; 3]%nat
  | _ => False
  end.
Proof. vm_compute. reflexivity. Qed.

(* ---------------------------------------------------------------- no panic *)

(* AttributeValue::size and ::write do not panic on any well-typed value (payloads within their Rust types,
   ids issued by the tables of this write), for every encoding and both build modes *)
Theorem size_no_panic : forall (dbg : bool) (cx : wcx) (v : aval),
  av_typed cx v -> av_size dbg (wc_enc cx) (wc_lpv cx) v <> Panic.
Proof. exact av_size_no_panic_lemma. Qed.

Theorem write_no_panic : forall (dbg : bool) (cx : wcx) (v : aval),
  av_typed cx v -> av_write dbg cx v <> Panic.
Proof. exact av_write_no_panic_lemma. Qed.

(* calculate_offsets does not panic on any tree of well-typed values whose ids index the offset tables and
   whose size (even with maximal code widths, `dsize_ub`) fits the address space — in either build mode;
   the running offset stays below that bound *)
Theorem calc_no_panic : forall (dbg : bool) (cx : wcx) (d : die) (st : cst),
  die_typed cx d -> ids_in_range (die_ids d) st ->
  cs_off st + dsize_ub (wc_enc cx) d < 2 ^ 64 ->
  calc dbg (wc_enc cx) (wc_lpv cx) d st <> Panic /\
  (forall st', calc dbg (wc_enc cx) (wc_lpv cx) d st = Ok st' -> cs_off st' <= cs_off st + dsize_ub (wc_enc cx) d).
Proof. exact calc_no_panic_lemma. Qed.

(* DebuggingInformationEntry::write, run with the tables calculate_offsets produced, does not panic either:
   in particular its debug_assert_eq!(offsets.debug_info_offset(self.id), Some(w.offset())) holds at every
   entry (that is offsets_exact), every code lookup is in range, the sibling subtraction does not underflow *)
Theorem write_tree_no_panic : forall (dbg : bool) (cx : wcx) (d : die) (st st' : cst),
  calc dbg (wc_enc cx) (wc_lpv cx) d st = Ok st' ->
  agree_on (die_ids d) (wc_entries cx) (cs_entries st') ->
  agree_on (die_ids d) (wc_codes cx) (cs_codes st') ->
  (forall i c, nth_error (wc_codes cx) i = Some c -> c < 2 ^ 64) ->
  die_typed cx d -> die_expr_ok d -> NoDup (die_ids d) ->
  0 < cs_off st -> wc_unit_off cx <= cs_off st ->
  cs_off st + dsize_ub (wc_enc cx) d < 2 ^ 64 ->
  write_die dbg cx d (cs_off st) <> Panic.
Proof. intros dbg cx. exact (proj1 (write_passes_no_panic dbg cx)). Qed.

Example no_panic_ex :
  let cx := mkWcx ex_enc false 0 0 (cs_entries ex_st) (cs_codes ex_st) None [] [] [] [] 4 in
  die_typed cx ex_root /\ ids_in_range (die_ids ex_root) ex_st0 /\ cs_off ex_st0 + dsize_ub ex_enc ex_root < 2 ^ 64 /\
  die_expr_ok ex_root.
Proof.
  cbv zeta. split.
  { cbn. repeat split; repeat constructor; cbn; try lia. }
  split.
  { intros i Hi. cbn in Hi. cbn. intuition lia. }
  split; [vm_compute; reflexivity|].
  cbn. repeat split; repeat constructor; cbn; auto.
Qed.

Check form_size_write_len : forall dbg cx v ops, av_write dbg cx v = Ok ops -> expr_ok v -> ops_len ops < 2 ^ 64 ->
  av_size dbg (wc_enc cx) (wc_lpv cx) v = Ok (ops_len ops).
Check abbrev_dedup : forall tab a code tab' ext, abbrev_add tab a = (code, tab') -> NoDup (tab' ++ ext) ->
  abbrev_add (tab' ++ ext) a = (code, tab' ++ ext).
Check unencodable_is_error : forall dbg cx v er, av_unencodable cx v = Some er -> av_write dbg cx v = Err er.

(* ================================================================ GLUE with C15 (expressions) — Model/UnitGlueWr.v
   UnitWr keeps a write::Expression opaque (a predicted size + a byte string, linked by the hypothesis `expr_ok`).
   The composed model instantiates it the way unit.rs does: AttributeValue::Exprloc(e).size = uleb + e.size(enc,
   Some(offsets so far)), .write = uleb(e.size(enc, Some(offsets))) ; e.write(w, Some(debug_info_refs), enc,
   Some(offsets)) at w.len().  Tied to gimli by stream c11.glue.  Everything below is a COMPOSITION of C11 and C15
   theorems (Proofs/WriterGlueProofs.v); nothing about units or expressions is re-proved. *)
Require Import GV.Model.UnitGlueWr GV.Proofs.WriterGlueProofs.
Require GV.Model.OpWr GV.Model.OpDec GV.Spec.OpEncSpec GV.Proofs.OpWrProofs GV.Proofs.OpWrDec GV.Proofs.OpWrTotal GV.Proofs.OpRoundtrip.

(* (g1) size() = bytes written for the composed attribute writer: form_size_write_len with the expression hypothesis
   DISCHARGED by C15 expr_size (gexpr_ok only concerns opaque UnitWr Exprloc values mixed in, True for GExpr). *)
Theorem exprloc_attr_size_write : forall (dbg : bool) (cx : wcx) (pos : N) (v : gval) (ops : list wop) (fx : list fixup),
  gav_write dbg cx pos v = Ok (ops, fx) -> gexpr_ok v -> ops_len ops < 2 ^ 64 ->
  gav_size dbg (wc_enc cx) (wc_be cx) (wc_lpv cx) (cx_uo cx) v = Ok (ops_len ops).
Proof.
  intros dbg cx pos v ops fx H X B. destruct v as [v|ex].
  - destruct (gav_write_plain_inv _ _ _ _ _ _ H) as [W _]. unfold gav_size. cbn [inst].
    apply av_write_size; assumption.
  - destruct (gav_write_expr_inv _ _ _ _ _ _ H) as [size [l [body [fx0 [Es [El [Ew [-> [-> W]]]]]]]]].
    unfold gav_size. fold (cx_oe cx).
    rewrite (av_size_inst_base dbg (wc_enc cx) (wc_lpv cx) (cx_oe cx) (cx_uo cx) 0 (pos + UnitWr.blen l)).
    apply av_write_size; [exact W| |exact B].
    apply inst_expr_ok. intros bs fx E. rewrite Ew in E. injection E as <- <-.
    rewrite !ops_len_cons, ops_len_nil in B. cbn [op_bytes] in B. unfold OpWr.blen, UnitWr.blen in *. lia.
Qed.

(* (g2) AttributeValue::Exprloc(ex) written at position `pos` of .debug_info, for EVERY operation list `ex` of Rust-typed,
   decodable operations (unit-relative references call / typed ops / parameter_ref and .debug_info-relative
   references call_ref / implicit_pointer / variable_value included):
     * C03's attribute reader (Attr.parse_attribute, form exprloc from DWARF 4, block before) consumes exactly the
       written bytes and returns a value whose expression block is `body`, the ULEB prefix being |body|;
     * C07's decoder (OpDec.operations) over `body` ends normally with the reader forms of the normal forms of the
       built operations; by normal_form every unit-relative operand is `entry_offset dbg (Some (cx_uo cx)) en`,
       i.e. (glue_ref_is_mark below) the offsets_exact position of its target minus the unit offset;
     * the operations are laid out from pos + |prefix| (laid) and the fix-ups pushed to debug_info_fixups are exactly
       those of that layout: by C15 ref_fixups_at_operands each sits at (attribute position + prefix length + offset
       of the operation inside the expression + 1). *)
Theorem exprloc_attr_roundtrip : forall (dbg dbg' rdbg : bool) (cx : wcx) (pos name : N) (ex : OpWr.wexpr)
    (ops : list wop) (fx : list fixup) (rest : list byte),
  gav_write dbg cx pos (GExpr ex) = Ok (ops, fx) ->
  forallb OpWr.wf_op ex = true -> OpWr.wf_uoffs (Some (cx_uo cx)) = true -> forallb OpWrDec.decodable ex = true ->
  pos + ops_len ops < 2 ^ 63 -> AttrProofs.addr_size_ok (renc cx) ->
  exists l body fx0 offsets dl ros val,
    ops_bytes ops = l ++ body /\
    OpEncSpec.rd_uleb (l ++ body ++ rest) = Some (UnitWr.blen body, body ++ rest) /\
    AT.parse_attribute dbg' (renc cx)
       (AT.mkSpec name (if 4 <=? e_ver (wc_enc cx) then DW_FORM_exprloc else DW_FORM_block) 0)
       (ops_bytes ops ++ rest) = Ok (val, rest) /\
    AT.exprloc_value val = Some body /\
    OpDec.operations rdbg (OpRoundtrip.renc (OpWrProofs.dcfg_of (cx_oe cx))) body = (ros, None) /\
    map (fun x => OpRoundtrip.tr (snd x)) dl = map Some ros /\
    OpWrDec.decoded (fun p o d => exists b, OpWrDec.normal_form dbg (cx_oe cx) (Some (cx_uo cx)) true offsets p o b d)
                    (pos + UnitWr.blen l) ex offsets dl /\
    OpWrProofs.laid (OpWr.write_op dbg (cx_oe cx) (Some (cx_uo cx)) true offsets) (pos + UnitWr.blen l) ex offsets body fx0 /\
    fx = map gfix fx0.
Proof. exact exprloc_attr_read_lemma. Qed.

(* (g3) the forward-reference error: while calculate_offsets sizes an Exprloc whose expression embeds, ULEB-encoded, the
   unit offset of an entry that has no offset yet in the table built so far (or lies beyond the entries vector),
   AttributeValue::size is
   Err UnsupportedExpressionForwardReference (call / parameter_ref, fixed width, are exempt at this point) *)
Theorem exprloc_forward_ref : forall (dbg : bool) (e : encoding) (be : bool) (lpv : N) (uo : OpWr.uoffs)
    (pre : OpWr.wexpr) (o : OpWr.wop) (post : OpWr.wexpr) (en n : N),
  OpWrDec.uses_entry o = Some en -> OpWr.wf_op o = true ->
  match o with OpWr.WoCall _ | OpWr.WoParameterRef _ => False | _ => True end ->
  (OpWr.nth_N (OpWr.uo_entries uo) en = Some 0 \/ OpWr.nth_N (OpWr.uo_entries uo) en = None) ->
  OpWr.size_expr dbg (oenc e be) (Some uo) pre = Ok n ->
  gav_size dbg e be lpv uo (GExpr (pre ++ o :: post)) = Err WUnsupportedExpressionForwardReference.
Proof.
  intros dbg e be lpv uo pre o post en n Hu Hwf Hk Hz Hp.
  assert (He : OpWr.entry_offset dbg (Some uo) en = Err WUnsupportedExpressionForwardReference).
  { rewrite OpWrDec.entry_offset_cases. destruct Hz as [-> | ->]; reflexivity. }
  destruct (OpWrDec.typed_ref_needs_offset dbg (oenc e be) (Some uo) true [] 0 o en _ Hu Hwf He) as [_ Hs].
  assert (Hs' : OpWr.size_op dbg (oenc e be) (Some uo) o = Err WUnsupportedExpressionForwardReference).
  { destruct o; try exact Hs; contradiction. }
  assert (Hx : OpWr.size_expr dbg (oenc e be) (Some uo) (pre ++ o :: post) = Err WUnsupportedExpressionForwardReference).
  { unfold OpWr.size_expr in *. rewrite sum_sizes_app, Hp. cbn [bind]. rewrite OpWrProofs.sum_sizes_cons, Hs'. reflexivity. }
  unfold gav_size, inst, av_size. cbn [x_size]. rewrite Hx, assert_exprloc. reflexivity.
Qed.

(* (g4) the unit body: offsets_exact for the composed passes.  gcalc (sizes under the table built so far) followed by
   gwrite_die (under the complete table) ARE UnitWr's calc and write_die on ONE tree d, the composed tree with each
   Expression instantiated under the complete table (xrel) — C15 size_mono bridges the two tables — so every C11
   theorem (roundtrip, unit_read_by_reader, refs_resolve ...) holds of the composed output with its expression
   hypothesis (die_expr_ok d) discharged, and the table the expressions were written under maps every entry of the
   tree to the position of its DIE. *)
Theorem glue_offsets_exact : forall (dbg : bool) (cx : wcx) (g : gdie) (st0 st : cst) (ops : list wop) (fx : list fixup),
  gcalc dbg (wc_enc cx) (wc_be cx) (wc_lpv cx) (wc_unit_off cx) g st0 = Ok st ->
  wc_entries cx = cs_entries st -> wc_codes cx = cs_codes st ->
  gwrite_die dbg cx g (cs_off st0) = Ok (ops, fx) ->
  NoDup (gdie_ids g) -> gdie_ok g ->
  (forall j y, nth_error (cs_entries st0) j = Some y -> y = 0) ->
  cs_off st0 + ops_len ops < 2 ^ 64 ->
  exists d,
    xrel dbg cx g d /\ calc dbg (wc_enc cx) (wc_lpv cx) d st0 = Ok st /\ write_die dbg cx d (cs_off st0) = Ok ops /\
    die_expr_ok d /\ die_ids d = gdie_ids g /\
    cs_off st = cs_off st0 + ops_len ops /\
    map fst (ops_marks (cs_off st0) ops) = gdie_ids g /\
    (forall i p, In (i, p) (ops_marks (cs_off st0) ops) -> nth_error (wc_entries cx) i = Some p).
Proof. exact glue_offsets_exact_lemma. Qed.

(* (g5) hence the operand of a unit-relative reference: the position of the target's DIE minus the unit offset ... *)
Theorem glue_ref_is_mark : forall (dbg : bool) (cx : wcx) (en p : N),
  nth_error (wc_entries cx) (N.to_nat en) = Some p -> p <> 0 -> wc_unit_off cx <= p ->
  OpWr.entry_offset dbg (Some (cx_uo cx)) en = Ok (p - wc_unit_off cx).
Proof.
  intros dbg cx en p H Hp Hu. rewrite OpWrDec.entry_offset_cases. cbn [cx_uo ouo OpWr.uo_entries OpWr.uo_unit].
  rewrite OpWrDec.nth_N_nth_error, H. destruct (p =? 0) eqn:E; [apply N.eqb_eq in E; contradiction|].
  apply Lib.chk_sub_ok. exact Hu.
Qed.

(* ... and for ANY entry id that is not in the written tree — deleted, orphaned, reserved and never added, inside or
   beyond the entries vector (gimli c42c00d) — the forward-reference error (C15 refs_need_offset: the operation then
   fails to write) *)
Theorem glue_ref_orphan : forall (dbg : bool) (e : encoding) (be : bool) (lpv uoff : N) (g : gdie) (st0 st : cst) (en : N),
  gcalc dbg e be lpv uoff g st0 = Ok st ->
  (forall j y, nth_error (cs_entries st0) j = Some y -> y = 0) ->
  ~ In (N.to_nat en) (gdie_ids g) ->
  OpWr.entry_offset dbg (Some (ouo uoff (cs_entries st))) en = Err WUnsupportedExpressionForwardReference.
Proof.
  intros dbg e be lpv uoff g st0 st en HC Z Hn.
  set (cx := mkWcx e be 0 uoff [] [] None [] [] [] [] lpv).
  destruct (gcalc_frame dbg cx lpv g st0 st HC) as [_ [_ F]]. destruct (F _ Hn) as [E _].
  rewrite OpWrDec.entry_offset_cases. cbn [ouo OpWr.uo_entries OpWr.uo_unit]. rewrite OpWrDec.nth_N_nth_error, E.
  destruct (nth_error (cs_entries st0) (N.to_nat en)) as [y|] eqn:Ey; [rewrite (Z _ _ Ey)|]; reflexivity.
Qed.

(* a unit with a base type, a variable whose DW_AT_location is an expression with a typed reference (backward), a
   call_ref (forward), a call (forward) and an implicit_pointer to itself, DW_AT_ranges, and a variable with a
   location list whose expression references the base type *)
Definition gx_enc : encoding := mkEnc 4 false 8.
Definition gx_expr : OpWr.wexpr :=
  [OpWr.WoDerefType false 4 1; OpWr.WoCallRef (OpWr.REntry 0 3); OpWr.WoCall 3; OpWr.WoImplicitPointer (OpWr.REntry 0 2) 5].
Definition gx_root : gdie :=
  GDie 0 17 false [(17, GV (AvAddress (AConst 4096)))]
    [GDie 1 36 false [(11, GV (AvData1 4))] [];
     GDie 2 52 false [(2, GExpr gx_expr); (85, GV (AvRangeListRef 0))] [];
     GDie 3 52 false [(2, GV (AvLocationListRef 0))] []].
Definition gx_unit : gunit :=
  mkGunit gx_enc gx_root 4 [[ListWrSpec.ROffsetPair 1 2]] [[GLOffsetPair 1 2 [OpWr.WoVarValue (OpWr.REntry 0 1)]]].
Definition gx_st0 : cst := mkCst 11 [0; 0; 0; 0] [] [0; 0; 0; 0].
Definition gx_cx : wcx := mkWcx gx_enc false 0 0 [11; 20; 22; 47] [1; 2; 3; 4] None [] [] [0] [0] 2.

Example glue_offsets_exact_ex :
  match gcalc true gx_enc false 2 0 gx_root gx_st0 with
  | Ok st =>
      cs_entries st = [11; 20; 22; 47] /\ cs_codes st = [1; 2; 3; 4] /\ cs_off st = 53 /\
      match gwrite_die true gx_cx gx_root 11 with
      | Ok (ops, fx) =>
          ops_marks 11 ops = [(0%nat, 11); (1%nat, 20); (2%nat, 22); (3%nat, 47)] /\ ops_len ops = 42 /\
          (* call_ref at 27 (fix-up 28 -> entry 3), implicit_pointer at 37 (fix-up 38 -> entry 2): 22 + 1 code + 1 prefix + 3 / + 13 *)
          map (fun f => (fx_offset f, id_idx (fx_entry f))) fx = [(28, 3%nat); (38, 2%nat)]
      | _ => False
      end
  | _ => False
  end /\ NoDup (gdie_ids gx_root) /\ gdie_ok gx_root.
Proof.
  split; [vm_compute; repeat split; reflexivity|]. split.
  - change (NoDup [0; 1; 2; 3]%nat). repeat (constructor; [cbn; intuition discriminate|]). constructor.
  - cbn. repeat split; repeat constructor; cbn; auto.
Qed.

(* the whole table write: .debug_info with the fix-ups resolved (28 -> 47 = DIE 3, 38 -> 22 = DIE 2, the typed reference
   0x14 = 20 = DIE 1), DW_AT_ranges / DW_AT_location = the offsets the list writers returned, and the location list's
   fix-up at 0 + 16 (addresses) + 2 (u16 length) + 1 = 19 registered in the .debug_loc list (DWARF 4) *)
Example glue_table_ex :
  match gtable_write true false [gx_unit] gsec_empty with
  | Ok (o, s) =>
      map go_entries o = [[11; 20; 22; 47]] /\ map go_rng o = [[0]] /\ map go_loc o = [[0]] /\
      firstn 20 (skipn 22 (g_info s)) =
        [x03; x13; xf6; x04; x14; x9a; x2f; x00; x00; x00; x99; x2f; x00; x00; x00; xf2; x16; x00; x00; x00] /\
      map fx_offset (g_info_fx s) = [28; 38] /\ map fx_offset (g_loc_fx s) = [19] /\ g_loclists_fx s = [] /\
      firstn 5 (skipn 18 (g_loc s)) = [xfd; x14; x00; x00; x00]
  | _ => False
  end.
Proof. vm_compute. repeat split; reflexivity. Qed.

Example exprloc_forward_ref_ex :
  gav_size true gx_enc false 2 (ouo 0 [11; 20; 0; 0]) (GExpr [OpWr.WoUConst 1; OpWr.WoDerefType false 4 3]) =
    Err WUnsupportedExpressionForwardReference /\
  gav_size true gx_enc false 2 (ouo 0 [11; 20; 0; 0]) (GExpr [OpWr.WoUConst 1; OpWr.WoDerefType false 4 7]) =
    Err WUnsupportedExpressionForwardReference /\
  gav_size true gx_enc false 2 (ouo 0 [11; 20; 0; 0]) (GExpr [OpWr.WoUConst 1; OpWr.WoCall 3]) = Ok 7.
Proof. vm_compute. repeat split; reflexivity. Qed.

Check exprloc_attr_size_write : forall dbg cx pos v ops fx, gav_write dbg cx pos v = Ok (ops, fx) -> gexpr_ok v ->
  ops_len ops < 2 ^ 64 -> gav_size dbg (wc_enc cx) (wc_be cx) (wc_lpv cx) (cx_uo cx) v = Ok (ops_len ops).
Check glue_ref_is_mark : forall dbg cx en p, nth_error (wc_entries cx) (N.to_nat en) = Some p -> p <> 0 ->
  wc_unit_off cx <= p -> OpWr.entry_offset dbg (Some (cx_uo cx)) en = Ok (p - wc_unit_off cx).

(* (g6) end to end, for the unit body written by the composed passes: the operand a typed operation / call /
   parameter_ref naming entry `en` embeds — `entry_offset` under the table the expressions were written with, which is
   what exprloc_attr_roundtrip's normal_form says the C07 decoder reads back — is the position at which write emitted
   the DIE of `en` (its WMark, = calculate_offsets' offset by offsets_exact) minus the unit's offset. *)
Theorem glue_ref_operand : forall (dbg : bool) (cx : wcx) (g : gdie) (st0 st : cst) (ops : list wop) (fx : list fixup),
  gcalc dbg (wc_enc cx) (wc_be cx) (wc_lpv cx) (wc_unit_off cx) g st0 = Ok st ->
  wc_entries cx = cs_entries st -> wc_codes cx = cs_codes st ->
  gwrite_die dbg cx g (cs_off st0) = Ok (ops, fx) ->
  NoDup (gdie_ids g) -> gdie_ok g ->
  (forall j y, nth_error (cs_entries st0) j = Some y -> y = 0) ->
  cs_off st0 + ops_len ops < 2 ^ 64 ->
  0 < cs_off st0 -> wc_unit_off cx <= cs_off st0 ->
  forall en p, In (N.to_nat en, p) (ops_marks (cs_off st0) ops) ->
    OpWr.entry_offset dbg (Some (cx_uo cx)) en = Ok (p - wc_unit_off cx).
Proof.
  intros dbg cx g st0 st ops fx HC He Hc HW ND OK Z B P0 PU en p Hin.
  destruct (glue_offsets_exact_lemma dbg cx g st0 st ops fx HC He Hc HW ND OK Z B) as [d [_ [_ [_ [_ [_ [_ [_ A]]]]]]]].
  assert (G := ops_marks_ge _ _ _ _ Hin).
  apply glue_ref_is_mark; [apply A; exact Hin|lia|lia].
Qed.

(* in the example unit: deref_type names entry 1 (DIE at 20), call names entry 3 (DIE at 47); unit offset 0 *)
Example glue_ref_operand_ex :
  OpWr.entry_offset true (Some (cx_uo gx_cx)) 1 = Ok 20 /\ OpWr.entry_offset true (Some (cx_uo gx_cx)) 3 = Ok 47.
Proof. vm_compute. split; reflexivity. Qed.
