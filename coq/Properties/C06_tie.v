(* Properties/C06_tie.v — translator tie (DESIGN §1.2 item 2) for C06: the opcode -> variant table of CallFrameInstruction::parse
   (src/read/cfi.rs), regenerated into coq/Gen/CfiTable.v from the source text on every ./check run, against
   Model/CfiRun.v parse_insn.  insn_agree (Proofs/GenAgreeCfiTable.v) runs the model on the byte followed by a benign
   operand tail and compares the constructor name with gen_cfi_variant, the reading of the regenerated tables. *)
From Coq Require Import List NArith Bool String.
From Coq.Strings Require Import Byte.
Require Import GV.Base.Res GV.Base.Byt GV.Proofs.GenSweep GV.Model.CfiRun GV.Proofs.GenAgreeCfiTable.
Require GV.Gen.CfiTable GV.Gen.Constants.
Import ListNotations.
Local Open Scope N_scope.

(* all 256 instruction bytes x {AArch64, other vendors}: Model/CfiRun.v parse_insn builds the variant that CallFrameInstruction::parse builds for that byte (high-bits tests, then the DW_CFA match with its vendor guard); no arm = UnknownCallFrameInstruction in both *)
Theorem c06_tie_cfi_table :
  forall aarch64 b, b < 256 -> insn_agree aarch64 b = true.
Proof.
  intros aarch64 b H. destruct gen_cfi_table_sweep as [S0 S1].
  destruct aarch64; [exact (sweep_lt _ _ S1 b H)|exact (sweep_lt _ _ S0 b H)].
Qed.

(* keys are DW_CFA_* constants; the low-table keys have zero high bits *)
Theorem c06_tie_cfi_table_keys :
  lookup_hi 0 CfiTable.high_table = None /\
  forallb (fun k => existsb (N.eqb k) Constants.DwCfa_values) (map fst CfiTable.high_table ++ map fst CfiTable.low_table) = true /\
  forallb (fun k => N.land k CfiTable.high_bits_mask =? 0) (map fst CfiTable.low_table) = true.
Proof. split; [|split]; reflexivity. Qed.

(* for ALL operand bytes, byte orders, address sizes, offsets, vendors and both build modes: whenever the model decodes an instruction, its variant is the one CallFrameInstruction::parse builds for that byte *)
Theorem c06_tie_cfi_table_all_inputs :
  forall dbg be asize aarch64 off b t i r',
  parse_insn dbg be asize aarch64 off (b :: t) = Ok (i, r') ->
  gen_cfi_variant aarch64 (b2n b) = Some (insn_ctor i).
Proof.
  intros dbg be asize aarch64 off b t.
  change (builds (fun i => gen_cfi_variant aarch64 (b2n b) = Some (insn_ctor i)) (parse_insn dbg be asize aarch64 off (b :: t))).
  unfold parse_insn, gen_cfi_variant. cbn [GV.Model.Leb.read_u8 bind]. cbv zeta. change CfiTable.high_bits_mask with 192.
  generalize (b2n b) as op. intros op.
  (* down the chain of tests: where one fires, the high bits or the whole opcode are known and the tables evaluate *)
  repeat (apply builds_if; [intros ->; repeat (apply builds_bind; intros [? ?]); apply builds_ok; reflexivity|]).
  destruct aarch64; [rewrite andb_true_r; apply builds_if; [intros ->; apply builds_ok; reflexivity|]|rewrite andb_false_r];
    apply builds_err.
Qed.

(* statement pins *)
Check c06_tie_cfi_table :
  forall aarch64 b, b < 256 -> insn_agree aarch64 b = true.
Check c06_tie_cfi_table_keys :
  lookup_hi 0 CfiTable.high_table = None /\
  forallb (fun k => existsb (N.eqb k) Constants.DwCfa_values) (map fst CfiTable.high_table ++ map fst CfiTable.low_table) = true /\
  forallb (fun k => N.land k CfiTable.high_bits_mask =? 0) (map fst CfiTable.low_table) = true.
Check c06_tie_cfi_table_all_inputs :
  forall dbg be asize aarch64 off b t i r',
  parse_insn dbg be asize aarch64 off (b :: t) = Ok (i, r') ->
  gen_cfi_variant aarch64 (b2n b) = Some (insn_ctor i).
