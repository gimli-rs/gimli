(* Properties/C07_tie_value.v — translator tie (DESIGN §1.2 item 2) for C07: the tables of src/read/value.rs (ValueType::bit_size,
   ValueType::from_encoding, Value::value_type), regenerated into coq/Gen/ValueType.v from the source text on every
   ./check run, against Model/OpVal.v.  vtype_name : the Rust name of each OpVal.vtype constructor. *)
From Coq Require Import List NArith Bool String.
Require Import GV.Proofs.GenSweep GV.Model.OpVal GV.Proofs.GenAgreeValueType.
Require GV.Gen.ValueType.
Import ListNotations.
Local Open Scope N_scope.

(* enum ValueType / enum Value of src/read/value.rs have exactly the constructors of OpVal.vtype, in the same order *)
Theorem c07_tie_value_type_variants :
  ValueType.value_type_variants = map vtype_name all_vtypes /\
  ValueType.value_variants = map vtype_name all_vtypes.
Proof. split; reflexivity. Qed.

(* Value::value_type: every variant yields the ValueType of the same name *)
Theorem c07_tie_value_type_identity :
  ValueType.value_type_table = map (fun t => (vtype_name t, vtype_name t)) all_vtypes.
Proof. reflexivity. Qed.

(* ValueType::bit_size regenerated from the source = OpVal.bit_size, every type and address mask *)
Theorem c07_tie_bit_size :
  forall t mask, gen_bit_size t mask = Some (bit_size t mask).
Proof. destruct t; reflexivity. Qed.

(* one arm per variant *)
Theorem c07_tie_bit_size_arms :
  sperm (map fst ValueType.bit_size_table) ValueType.value_type_variants = true.
Proof. vm_compute. reflexivity. Qed.

(* ValueType::from_encoding: each arm yields the model type of that DW_ATE class and byte size *)
Theorem c07_tie_from_encoding_arm :
  forall enc sz name, In ((enc, sz), name) ValueType.from_encoding_table ->
  exists t c, vtype_of_name name = Some t /\ ate_class enc = Some c /\ width t = 8 * sz /\ tclass_of t = c.
Proof.
  intros enc sz name H. pose proof (forallb_In _ _ _ gen_from_encoding_sound _ H) as S.
  unfold from_encoding_arm_ok in S. cbn [fst snd] in S.
  destruct (vtype_of_name name) as [t|]; [|discriminate]. destruct (ate_class enc) as [c|]; [|discriminate].
  apply andb_prop in S. destruct S as [S1 S2]. exists t, c. repeat split.
  - apply N.eqb_eq. exact S1.
  - destruct (tclass_of t), c; try discriminate; reflexivity.
Qed.

(* exactly one arm per typed value type, none for Generic *)
Theorem c07_tie_from_encoding_complete :
  forallb (fun t => Nat.eqb (List.length (from_encoding_arms_of t)) (if vtype_eqb t TGeneric then 0 else 1)) all_vtypes = true.
Proof. vm_compute. reflexivity. Qed.

(* a type obtained from (encoding, byte_size) has 8 * byte_size bits *)
Theorem c07_tie_from_encoding_bit_size :
  forall enc sz name t mask,
  In ((enc, sz), name) ValueType.from_encoding_table -> vtype_of_name name = Some t -> bit_size t mask = 8 * sz.
Proof.
  intros enc sz name t mask H E. destruct (c07_tie_from_encoding_arm _ _ _ H) as (t' & c & E' & A & W & C).
  rewrite E in E'. injection E' as <-. rewrite <- W. destruct t; try reflexivity.
  (* Generic: its class is none of those ate_class yields *)
  cbn in C. subst c. unfold ate_class in A. repeat (destruct (_ =? _) in A; [discriminate A|]). discriminate A.
Qed.

(* statement pins *)
Check c07_tie_value_type_variants :
  ValueType.value_type_variants = map vtype_name all_vtypes /\
  ValueType.value_variants = map vtype_name all_vtypes.
Check c07_tie_value_type_identity :
  ValueType.value_type_table = map (fun t => (vtype_name t, vtype_name t)) all_vtypes.
Check c07_tie_bit_size :
  forall t mask, gen_bit_size t mask = Some (bit_size t mask).
Check c07_tie_bit_size_arms :
  sperm (map fst ValueType.bit_size_table) ValueType.value_type_variants = true.
Check c07_tie_from_encoding_arm :
  forall enc sz name, In ((enc, sz), name) ValueType.from_encoding_table ->
  exists t c, vtype_of_name name = Some t /\ ate_class enc = Some c /\ width t = 8 * sz /\ tclass_of t = c.
Check c07_tie_from_encoding_complete :
  forallb (fun t => Nat.eqb (List.length (from_encoding_arms_of t)) (if vtype_eqb t TGeneric then 0 else 1)) all_vtypes = true.
Check c07_tie_from_encoding_bit_size :
  forall enc sz name t mask,
  In ((enc, sz), name) ValueType.from_encoding_table -> vtype_of_name name = Some t -> bit_size t mask = 8 * sz.
