(* Properties/C04_tie_numerals.v — translator tie (DESIGN §1.2 item 2) for C04: the DW_LNCT_* content-type codes of Spec/LineSpec.v
   (used by Model/LineRd.v for the version 5 directory/file tables) are the constants of /repo/src/constants.rs.
   (DW_LNS_* / DW_LNE_*: Properties/C04_tie.v, c04_tie_line_table_keys and the opcode sweeps.) *)
From Coq Require Import NArith.
Require GV.Gen.Constants GV.Spec.LineSpec.
Local Open Scope N_scope.

Theorem c04_tie_lnct_numerals :
  Constants.DW_LNCT_path = LineSpec.LNCT_path /\
  Constants.DW_LNCT_directory_index = LineSpec.LNCT_directory_index /\
  Constants.DW_LNCT_timestamp = LineSpec.LNCT_timestamp /\
  Constants.DW_LNCT_size = LineSpec.LNCT_size /\
  Constants.DW_LNCT_MD5 = LineSpec.LNCT_MD5 /\
  Constants.DW_LNCT_LLVM_source = LineSpec.LNCT_LLVM_source.
Proof. repeat split. Qed.

(* statement pins *)
Check c04_tie_lnct_numerals :
  Constants.DW_LNCT_path = LineSpec.LNCT_path /\
  Constants.DW_LNCT_directory_index = LineSpec.LNCT_directory_index /\
  Constants.DW_LNCT_timestamp = LineSpec.LNCT_timestamp /\
  Constants.DW_LNCT_size = LineSpec.LNCT_size /\
  Constants.DW_LNCT_MD5 = LineSpec.LNCT_MD5 /\
  Constants.DW_LNCT_LLVM_source = LineSpec.LNCT_LLVM_source.
