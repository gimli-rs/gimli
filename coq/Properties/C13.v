(* Properties/C13.v — "Written line programs read back to exactly the rows that were generated".
   Model: Model/LineWr.v (write::LineProgram), yardstick: Spec/LineAdvSpec.v (DWARF line state machine over Z).
   The lemmas are those of Proofs/LineWrProofs.v, LineWrSeqProofs.v (instruction level) and LineRt*.v,
   LineRoundtrip*.v (bytes, read back through the reader model of C04). *)
From Coq Require Import List NArith ZArith Bool Lia.
From Coq.Strings Require Import Byte.
Require Import GV.Base.Res GV.Base.Byt GV.Base.Ints.
Require Import GV.Spec.LineAdvSpec GV.Model.LineWr GV.Proofs.LineWrProofs GV.Proofs.LineWrSeqProofs.
Require GV.Spec.LineSpec GV.Model.LineRd GV.Proofs.LineRdRefine GV.Proofs.LineRtBytes GV.Proofs.LineRtRows
        GV.Proofs.LineRtScript GV.Proofs.LineRoundtrip GV.Proofs.LineRoundtrip5.
Import ListNotations.

(* ---------------------------------------------------------------------------------------------
   1. advance_correct — the opcode selection of generate_row (code as of /repo a8af08f, i.e. after
   fix eea5f40 of F9 and of the special opcode > 255 for line_range >= 244, and fix c8c5891 of the
   overflowing `special + op_advance * line_range` fit test, all of which this check reproduced on the
   earlier trees).
   For EVERY LineEncoding with the documented precondition line_base <= 0 < line_base + line_range
   (enc_ok: line_base in -128..0, line_range in 1..255, min_inst_len >= 1, max_ops >= 1), both build
   modes, every i64 line advance and EVERY u64 operation advance (no arithmetic-range hypothesis),
   the instructions emitted (special only / advance_line + special / const_add_pc + special /
   advance_pc + special or copy) never panic — in particular `op_advance - op_range` never underflows
   and no debug assertion fails —, contain only special opcodes in 13..255, and executed on the DWARF
   state machine from any registers advance the line by exactly line_adv, apply exactly the operation
   advance op_adv (address/op_index incl. VLIW), and append exactly one row. *)
Theorem advance_correct : forall (dbg : bool) (l : lenc) (ladv : Z) (oadv : N),
  enc_ok l -> i64 ladv ->
  exists insns,
    advance_insns dbg l ladv oadv = Ok insns /\
    Forall special_ok insns /\
    forall ver r, regs_ok (params_of l) r ->
      run (params_of l) (map (denote ver) insns) r =
      ([op_adv (params_of l) (Z.of_N oadv) (line_adv ladv r)],
       after_row (params_of l) (op_adv (params_of l) (Z.of_N oadv) (line_adv ladv r))).
Proof. exact LineWrProofs.advance_correct. Qed.

(* the hypotheses are satisfiable by non-trivial instances: gimli's default encoding, and the extreme
   encodings (line_range 255, line_base -128, VLIW) *)
Example advance_correct_hyps_default :
  enc_ok (mkLenc 1 1 true (-5) 14) /\ i64 (-300) /\
  regs_ok (params_of (mkLenc 1 1 true (-5) 14)) (init_regs (params_of (mkLenc 1 1 true (-5) 14))).
Proof. unfold enc_ok, i64, regs_ok; cbn; lia. Qed.
Example advance_correct_hyps_extreme :
  enc_ok (mkLenc 4 4 false (-128) 255) /\ enc_ok (mkLenc 2 4 true 0 1) /\ enc_ok (mkLenc 1 1 true (-128) 129).
Proof. unfold enc_ok; cbn; lia. Qed.
(* and the theorem computes: line advance -7, operation advance 20 under the default encoding is
   DW_LNS_advance_line(-7), DW_LNS_const_add_pc, special; with line_range 250 the line advance 115 (which
   would need special opcode 256) falls back to DW_LNS_advance_line *)
Example advance_insns_sample :
  advance_insns true (mkLenc 1 1 true (-5) 14) (-7) 20 = Ok [IAdvanceLine (-7); IConstAddPc; ISpecial 60].
Proof. vm_compute. reflexivity. Qed.
Example advance_insns_sample_250 :
  advance_insns false (mkLenc 1 1 true (-128) 250) 115 0 = Ok [IAdvanceLine 115; ICopy].
Proof. vm_compute. reflexivity. Qed.

(* the input that overflowed the fit test before fix c8c5891 (operation advance 2^64/100 + 1 with line_range 100)
   takes DW_LNS_advance_pc *)
Example advance_insns_sample_huge :
  forall dbg, advance_insns dbg (mkLenc 1 1 true (-1) 100) 0 184467440737095517
              = Ok [IAdvancePc 184467440737095517; ICopy].
Proof. intros []; vm_compute; reflexivity. Qed.

(* ---------------------------------------------------------------------------------------------
   2. LineProgram::new accepts exactly its documented precondition (F9 repaired by eea5f40). *)
Theorem new_accepts_documented : forall l, enc_ok l ->
  (le_line_base l <=? 0)%Z = true /\ (0 <? le_line_base l + Z.of_N (le_line_range l))%Z = true.
Proof. intros l (Hb & Hr & _). split; [apply Z.leb_le | apply Z.ltb_lt]; lia. Qed.

Theorem new_panics_outside_documented : forall dbg e l wd sd sf info,
  (0 < le_line_base l \/ le_line_base l + Z.of_N (le_line_range l) <= 0)%Z ->
  lp_new dbg e l wd sd sf info = Panic.
Proof.
  intros dbg e l wd sd sf info H. unfold lp_new.
  destruct (Z.leb_spec (le_line_base l) 0) as [Hle|Hgt]; cbn [negb]; [|reflexivity].
  destruct (Z.ltb_spec 0 (le_line_base l + Z.of_N (le_line_range l))) as [Hlt|Hge]; cbn [negb]; [lia|reflexivity].
Qed.

Theorem new_fresh_program : forall dbg l, enc_ok l ->
  lp_new dbg enc_v4 l (LStr [x64]) None (LStr [x66]) None = Ok (fresh l).
Proof.
  intros dbg l Hok. destruct (new_accepts_documented l Hok) as (H1 & H2).
  unfold lp_new. rewrite H1, H2. reflexivity.
Qed.

(* ---------------------------------------------------------------------------------------------
   3. row_fields — discriminator / basic_block / prologue_end / epilogue_begin are set for the row
   (and cleared afterwards: see generate_row_correct), negate_stmt has the right parity, file (raw per
   version), column and isa end up as the row's; each of the persistent ones is emitted iff it differs. *)
Theorem row_fields : forall ver p row prev r,
  synced ver prev r ->
  run p (map (denote ver) (field_insns row prev)) r = ([], fields_set ver row r).
Proof. exact LineWrProofs.row_fields. Qed.

Theorem row_fields_file_iff : forall row prev f,
  In (ISetFile f) (field_insns row prev) <-> (f = w_file row /\ w_file row <> w_file prev).
Proof. intros. rewrite in_field_insns. intuition congruence. Qed.
Theorem row_fields_column_iff : forall row prev c,
  In (ISetColumn c) (field_insns row prev) <-> (c = w_column row /\ w_column row <> w_column prev).
Proof. intros. rewrite in_field_insns. intuition congruence. Qed.
Theorem row_fields_isa_iff : forall row prev c,
  In (ISetIsa c) (field_insns row prev) <-> (c = w_isa row /\ w_isa row <> w_isa prev).
Proof. intros. rewrite in_field_insns. intuition congruence. Qed.
Theorem row_fields_negate_iff : forall row prev,
  In INegateStatement (field_insns row prev) <-> w_is_statement row <> w_is_statement prev.
Proof. intros. rewrite in_field_insns. intuition congruence. Qed.

Example synced_initial : synced 4 (wrow_initial enc_v4 lenc_default) (init_regs (params_of lenc_default)).
Proof. unfold synced; cbn; repeat split; reflexivity. Qed.

(* ---------------------------------------------------------------------------------------------
   4. op_advance_vliw — the operation advance computed by op_advance is turned back by the reader
   into exactly (address + (offset - previous offset), the row's op_index). *)
Theorem op_advance_value_computed : forall dbg l row prev,
  enc_ok l ->
  step_ok l (w_address_offset prev) (w_op_index prev) (w_address_offset row) (w_op_index row) ->
  ((w_address_offset row - w_address_offset prev) / le_min_len l * le_max_ops l + w_op_index row
     < 18446744073709551616)%N ->
  op_advance dbg l row prev =
    Ok (op_advance_value l (w_address_offset prev) (w_op_index prev) (w_address_offset row) (w_op_index row)).
Proof. exact op_advance_ok. Qed.

Theorem op_advance_vliw : forall l pao popi ao opi r,
  enc_ok l -> step_ok l pao popi ao opi -> r_op_index r = Z.of_N popi ->
  op_adv (params_of l) (Z.of_N (op_advance_value l pao popi ao opi)) r =
  mkRegs (r_address r + (Z.of_N ao - Z.of_N pao)) (Z.of_N opi) (r_file r) (r_line r) (r_column r)
         (r_is_stmt r) (r_basic_block r) (r_end_sequence r) (r_prologue_end r) (r_epilogue_begin r)
         (r_isa r) (r_discriminator r).
Proof. exact LineWrSeqProofs.op_advance_vliw. Qed.

Example step_ok_vliw : step_ok (mkLenc 4 4 true (-5) 14) 8 3 16 1.
Proof. unfold step_ok; cbn. repeat split; try reflexivity; try lia. Qed.

(* ---------------------------------------------------------------------------------------------
   5. one generate_row / end_sequence call, and seq_reset. *)
Theorem generate_row_correct : forall dbg p row ver r,
  enc_ok (p_lenc p) ->
  synced ver (p_prev p) r -> row_ok (p_lenc p) (p_prev p) row ->
  exists new,
    generate_row dbg (set_row row p) =
      Ok (set_prev (clear_row_flags row) (set_row (clear_row_flags row)
            (push_insns new (set_in_seq true (set_row row p))))) /\
    Forall special_ok new /\
    run (params_of (p_lenc p)) (map (denote ver) new) r =
      ([row_regs ver r (w_address_offset (p_prev p)) row],
       after_row (params_of (p_lenc p)) (row_regs ver r (w_address_offset (p_prev p)) row)) /\
    synced ver (clear_row_flags row)
           (after_row (params_of (p_lenc p)) (row_regs ver r (w_address_offset (p_prev p)) row)).
Proof. exact LineWrSeqProofs.generate_row_correct. Qed.

Theorem end_sequence_correct : forall dbg p off opi ver r,
  enc_ok (p_lenc p) -> synced ver (p_prev p) r -> end_ok (p_lenc p) (p_prev p) off opi ->
  exists new,
    end_sequence dbg (set_row (with_op_index (p_row p) opi) p) off =
      Ok (set_prev (wrow_initial (p_enc p) (p_lenc p)) (set_row (wrow_initial (p_enc p) (p_lenc p))
            (push_insns new (set_in_seq false (set_row (with_op_index (p_row p) opi) p))))) /\
    Forall special_ok new /\
    run (params_of (p_lenc p)) (map (denote ver) new) r =
      ([end_regs r (w_address_offset (p_prev p)) off opi], init_regs (params_of (p_lenc p))).
Proof. exact LineWrSeqProofs.end_sequence_correct. Qed.

(* after end_sequence the writer's prev_row and the reader's registers are both initial, and agree *)
Theorem seq_reset : forall e l, (e_version e <= 5)%N ->
  synced (e_version e) (wrow_initial e l) (init_regs (params_of l)).
Proof. exact LineWrSeqProofs.seq_reset. Qed.

(* ---------------------------------------------------------------------------------------------
   6. program_roundtrip, instruction level.
   The statement of the design:
       rows (LineRd.read (LineWr.write script)) = meaning script, and files/dirs (name, dir, timestamp,
       size, md5, source) read back, v2-5, both formats, all three string forms in v5.
   program_roundtrip_partial is its instruction-level half — for every program created by
   LineProgram::new with a documented encoding, and every script of begin_sequence /
   set_address / row+generate_row / end_sequence calls that respects script_ok (offsets do not decrease
   and are multiples of min_inst_len, op_index < max_ops, the operation pointer does not go back, and the
   operation advance `address_advance * max_ops + op_index` fits a u64 — the one remaining known finding;
   ANY u64 line numbers, set_address at any op_index), the writer succeeds, emits only
   special opcodes 13..255, and the emitted instruction list executed on the DWARF state machine yields
   exactly the rows the script means (address = previous address + offset difference, i.e. sequence base
   + offset since the base; all other registers verbatim; end_sequence rows; registers reset).
   The byte-level half — gimli's encoding of the header, the file/directory tables and each instruction
   (LineInstruction::write, LEB128, write_udata) is decoded back by the reader model of property C04 — is
   section 7. *)
Theorem program_roundtrip_partial : forall dbg e l wd sd sf info p ops,
  enc_ok l -> (e_version e <= 5)%N ->
  lp_new dbg e l wd sd sf info = Ok p ->
  script_ok e l (wrow_initial e l) false ops ->
  exists p',
    apply_rops dbg p ops = Ok p' /\
    Forall special_ok (p_insns p') /\
    rows_of (params_of l) (map (denote (e_version e)) (p_insns p')) =
      fst (meaning (e_version e) (params_of l) (init_regs (params_of l), 0%N) ops).
Proof.
  intros dbg e l wd sd sf info p ops Hok Hver Hnew. apply fresh_rows_correct; [exact Hok|exact Hver|].
  exact (lp_new_fresh _ _ _ _ _ _ _ _ Hnew).
Qed.

(* the hypotheses are met by a non-trivial script: two sequences, VLIW, mid-sequence set_address *)
Example program_roundtrip_hyps :
  enc_ok lenc_vliw /\ (e_version enc_v4 <= 5)%N /\
  lp_new false enc_v4 lenc_vliw (LStr [x64]) None (LStr [x66]) None = Ok (fresh lenc_vliw) /\
  script_ok enc_v4 lenc_vliw (wrow_initial enc_v4 lenc_vliw) false ops_example.
Proof.
  split; [unfold enc_ok, lenc_vliw; cbn; lia|].
  split; [cbn; lia|]. split; [vm_compute; reflexivity|].
  unfold ops_example. cbn [script_ok].
  unfold row_ok, end_ok, step_ok, op_advance_value, clear_row_flags, wrow_initial, prow, lenc_vliw, enc_v4.
  cbn [w_address_offset w_op_index w_line le_min_len le_max_ops le_line_range le_line_base e_version fileid_initial].
  repeat split; try reflexivity; try (vm_compute; reflexivity); try (left; vm_compute; reflexivity);
    try (right; vm_compute; discriminate); try (vm_compute; discriminate).
Qed.

(* the harness operations (Model.LineWr.run_op) are exactly these writer calls *)
Theorem harness_end_is_end_sequence : forall dbg st off opi,
  run_op dbg st (OEnd off opi) =
  (let* p' := apply_rop dbg (st_prog st) (REnd off opi) in
   Ok (mkSstate p' (st_ls st) (st_ss st) (st_dids st) (st_fids st))).
Proof. reflexivity. Qed.

(* directories / files / flags never touch the row machinery *)
Theorem add_file_keeps_rows : forall p f dir info p' id,
  add_file p f dir info = Ok (p', id) -> same_rows p p'.
Proof. exact add_file_same_rows. Qed.
Theorem add_directory_keeps_rows : forall p d p' id,
  add_directory p d = Ok (p', id) -> same_rows p p'.
Proof. exact add_directory_same_rows. Qed.

(* the inputs that gimli got wrong before fixes 4a025e8 and 64c2c71 read back:
   line 20 -> 2^64-1 -> 3, and set_address in the middle of a VLIW instruction *)
Example repaired_witnesses_read_back :
  (exists p', apply_rops true (fresh lenc_default)
                [RBegin (Some 4096%N); RRow (prow 0 0 20); RRow (prow 4 0 18446744073709551615);
                 RRow (prow 5 0 3); REnd 8 0] = Ok p' /\
     rows_of (params_of lenc_default) (map (denote 4) (p_insns p')) =
     fst (meaning 4 (params_of lenc_default) (init_regs (params_of lenc_default), 0%N)
            [RBegin (Some 4096%N); RRow (prow 0 0 20); RRow (prow 4 0 18446744073709551615);
             RRow (prow 5 0 3); REnd 8 0])) /\
  (exists p', apply_rops true (fresh lenc_vliw)
                [RBegin (Some 4096%N); RRow (prow 0 1 7); RSetAddr 8192; RRow (prow 1 0 8); REnd 2 0] = Ok p' /\
     rows_of (params_of lenc_vliw) (map (denote 4) (p_insns p')) =
     fst (meaning 4 (params_of lenc_vliw) (init_regs (params_of lenc_vliw), 0%N)
            [RBegin (Some 4096%N); RRow (prow 0 1 7); RSetAddr 8192; RRow (prow 1 0 8); REnd 2 0])).
Proof. split; (eexists; split; [vm_compute; reflexivity | vm_compute; reflexivity]). Qed.

(* the remaining known finding, outside script_ok: address_advance * max_ops overflows u64 in op_advance *)
Theorem op_advance_overflow_refuted :
  op_advance true lenc_vliw (prow 9223372036854775808 0 7) (prow 0 0 7) = Panic /\
  op_advance false lenc_vliw (prow 9223372036854775808 0 7) (prow 0 0 7) = Ok 0%N.
Proof. split; vm_compute; reflexivity. Qed.

(* ---------------------------------------------------------------------------------------------
   7. program_roundtrip against the line READER model of property C04 (Model/LineRd.v, Spec/LineSpec.v).
   Vocabulary (module paths spelled out; `tr` translates writer instructions into C04's `insn`, `r2s`
   the registers of Spec/LineAdvSpec.v into C04's `sregs`, `rep` is C04's abstraction of a reader row):
     hdr_matches e l h    the header carries the writer's parameters (opcode_base 13, gimli's
                          standard_opcode_lengths, the address size, version, line encoding)
     enc_params_ok e l    address size 1/2/4/8, byte-sized parameters
     script_enc_ok ..     addresses fit the address size, set_address does not go backwards and stays
                          below the tombstone values (documented / reader convention), u64 row fields
   --------------------------------------------------------------------------------------------- *)

(* 7a. every instruction LineInstruction::write emits is decoded by LineInstruction::parse to its translation
       (uses C04's insn_roundtrip through the byte equality insn_write = enc_insn o tr) *)
Theorem insn_bytes_roundtrip : forall dbg be e l h i bytes rest,
  LineRtBytes.hdr_matches e l h -> LineRtBytes.enc_params_ok e l -> LineRtBytes.insn_enc_ok e i ->
  (match i with ISpecial v => (13 <= v)%N | _ => True end) ->
  insn_write dbg be e i = Ok bytes ->
  LineRd.parse_insn dbg be h (bytes ++ rest) = Ok (LineRtBytes.tr (e_version e) i, rest).
Proof. exact LineRtBytes.insn_bytes_roundtrip. Qed.

(* 7b. rows, all versions: for ANY header that carries the writer's parameters and whose program bytes are
       the written instructions, the reader's rows() runs to the end and returns exactly the meaning of
       the script (uses C04's rows_refine_spec; the emitted program is shown prog_wf for the reader's spec) *)
Theorem program_rows_readback : forall dbg be e l h wd sd sf info p ops,
  LineRtBytes.hdr_matches e l h -> LineRtBytes.enc_params_ok e l -> enc_ok l -> (e_version e <= 5)%N ->
  lp_new dbg e l wd sd sf info = Ok p ->
  script_ok e l (wrow_initial e l) false ops ->
  LineRtScript.script_enc_ok h (e_version e) (params_of l) (init_regs (params_of l), 0%N) ops ->
  exists p' bytes,
    apply_rops dbg p ops = Ok p' /\
    insns_write dbg be e (p_insns p') = Ok bytes /\
    (LineSpec.h_program h = bytes ->
     exists rs, LineRd.rows_model dbg be h = (rs, LineRd.SEnd) /\
       map LineRdRefine.rep rs =
         map LineRtRows.r2s (fst (meaning (e_version e) (params_of l) (init_regs (params_of l), 0%N) ops)) /\
       Forall (fun r => LineRd.r_tomb r = false) rs).
Proof.
  intros dbg be e l h wd sd sf info p ops HM HP Hok Hver Hnew Hscript Henc.
  pose proof (lp_new_fresh _ _ _ _ _ _ _ _ Hnew) as Hfresh. pose proof HM as (_ & Hasz & _).
  destruct (LineRoundtrip.script_writes dbg be e l h p ops HP Hok Hver Hfresh Hasz Hscript Henc)
    as (p' & bytes & Eap & Hw).
  exists p', bytes. split; [exact Eap|]. split; [exact Hw|]. intros Hp. rewrite <- Hp in Hw.
  exact (LineRoundtrip.rows_readback dbg be e l h p ops HP Hok Hver Hfresh Hasz Hscript Henc h p' HM Eap Hw).
Qed.

(* 7c. program_roundtrip, FULL for versions 2-4 (both formats, both byte orders, address sizes 1/2/4/8):
       LineProgram::write of a program with any inline directory/file tables and any admissible script is
       decoded by LineProgramHeader::parse (C04's header_roundtrip_v2_v4), rows() = meaning of the script,
       and the directory and file tables (name, directory index, timestamp, size) read back.
       The side condition on the unit length is the initial-length limit of the format. *)
Theorem program_roundtrip_v2_v4 : forall dbg be e l p0 ops unit_enc ls ss,
  p_insns p0 = [] -> p_prev p0 = wrow_initial e l -> p_in_seq p0 = false ->
  p_enc p0 = e -> p_lenc p0 = l ->
  (2 <= e_version e <= 4)%N -> ((e_version e < 4)%N -> le_max_ops l = 1%N) ->
  LineRtBytes.enc_params_ok e l -> enc_ok l -> e_addr_size unit_enc = e_addr_size e ->
  Forall LineRoundtrip.dir4_ok (tl (p_dirs p0)) -> Forall LineRoundtrip.file4_ok (p_files p0) ->
  script_ok e l (wrow_initial e l) false ops ->
  LineRtScript.script_enc_ok (LineRoundtrip.hdr_of_asz (e_addr_size e)) (e_version e) (params_of l)
                (init_regs (params_of l), 0%N) ops ->
  (forall p' prog, apply_rops dbg p0 ops = Ok p' -> insns_write dbg be e (p_insns p') = Ok prog ->
     (LineSpec.len_n (LineSpec.enc_after_len be (LineRoundtrip.raw4 p') prog)
        < (if e_fmt64 e then two64 else 4294967280))%N) ->
  exists p' bytes h rs,
    apply_rops dbg p0 ops = Ok p' /\
    write dbg be p' unit_enc ls ss = Ok (bytes, ls, ss) /\
    LineRd.parse_header dbg be (e_addr_size e) bytes = Ok h /\
    LineRd.rows_model dbg be h = (rs, LineRd.SEnd) /\
    map LineRdRefine.rep rs =
      map LineRtRows.r2s (fst (meaning (e_version e) (params_of l) (init_regs (params_of l), 0%N) ops)) /\
    Forall (fun r => LineRd.r_tomb r = false) rs /\
    LineSpec.h_dirs h = map LineRoundtrip.lstr_val (tl (p_dirs p0)) /\
    LineSpec.h_files h = map LineRoundtrip.file4_entry (p_files p0) /\
    LineRtBytes.hdr_matches e l h.
Proof. exact LineRoundtrip.program_roundtrip_v2_v4. Qed.

(* the hypotheses are met by a program built with the writer API (new, add_directory, add_file x2) and a
   script with two sequences, VLIW, a line number 2^64-1 and a set_address inside a VLIW instruction *)
Example program_roundtrip_hyps_v4 : exists p0, LineRoundtrip.ex_prog = Ok p0 /\
  p_insns p0 = [] /\ p_prev p0 = wrow_initial LineRoundtrip.ex_enc LineRoundtrip.ex_lenc /\ p_in_seq p0 = false /\
  p_enc p0 = LineRoundtrip.ex_enc /\ p_lenc p0 = LineRoundtrip.ex_lenc /\
  Forall LineRoundtrip.dir4_ok (tl (p_dirs p0)) /\ Forall LineRoundtrip.file4_ok (p_files p0) /\
  length (p_files p0) = 2%nat.
Proof.
  eexists. split; [vm_compute; reflexivity|]. cbn.
  repeat split.
  - constructor; [|constructor]. eexists. split; [reflexivity|]. split; [discriminate|reflexivity].
  - constructor; [|constructor; [|constructor]]; eexists; cbn;
      (split; [reflexivity|]; split; [discriminate|]; split; [reflexivity|]; unfold two64; lia).
Qed.
Example program_roundtrip_hyps_script :
  LineRtScript.script_enc_ok (LineRoundtrip.hdr_of_asz 8) 4 (params_of LineRoundtrip.ex_lenc)
    (init_regs (params_of LineRoundtrip.ex_lenc), 0%N) LineRoundtrip.ex_ops.
Proof.
  unfold LineRoundtrip.ex_ops. cbn [LineRtScript.script_enc_ok m_step fst snd].
  unfold LineRtScript.wrow_u64, LineRtRows.bounds, LineSpec.addr_mask, LineSpec.two64z. cbn. repeat split; lia.
Qed.

(* 7d. program_roundtrip, FULL for version 5 (both formats, both byte orders, address sizes 1/2/4/8): the
       directory and file tables may use any of the three string forms (inline, .debug_str, .debug_line_str:
       one form per table, offsets into the given string tables), with the optional timestamp / size / MD5 /
       LLVM-source columns selected by the file_has_* flags; uses C04's header_roundtrip_v5.
       file5_entry is the entry a reader must see: name, directory index, timestamp, size, md5, source
       (0 / zero digest / None for the columns that are switched off). *)
Theorem program_roundtrip_v5 : forall dbg be e l p0 ops unit_enc ls ss d0 ds f0 fs,
  p_insns p0 = [] -> p_prev p0 = wrow_initial e l -> p_in_seq p0 = false ->
  p_enc p0 = e -> p_lenc p0 = l ->
  e_version e = 5%N -> (5 <= e_version unit_enc)%N ->
  LineRtBytes.enc_params_ok e l -> enc_ok l -> e_addr_size unit_enc = e_addr_size e ->
  p_dirs p0 = d0 :: ds -> p_files p0 = f0 :: fs ->
  Forall (LineRoundtrip5.dir5_ok (e_fmt64 e) ls ss (LineRoundtrip5.dform_of p0)) (p_dirs p0) ->
  Forall (LineRoundtrip5.file5_ok p0 ls ss (LineRoundtrip5.fform_of p0) (source_form (p_files p0))) (p_files p0) ->
  (LineSpec.len_n (p_dirs p0) < two64)%N -> (LineSpec.len_n (p_files p0) < two64)%N ->
  script_ok e l (wrow_initial e l) false ops ->
  LineRtScript.script_enc_ok (LineRoundtrip.hdr_of_asz (e_addr_size e)) (e_version e) (params_of l)
                (init_regs (params_of l), 0%N) ops ->
  (forall p' prog, apply_rops dbg p0 ops = Ok p' -> insns_write dbg be e (p_insns p') = Ok prog ->
     (LineSpec.len_n (LineSpec.enc_after_len be (LineRoundtrip5.raw5 p' ls ss) prog)
        < (if e_fmt64 e then two64 else 4294967280))%N) ->
  exists p' bytes h rs,
    apply_rops dbg p0 ops = Ok p' /\
    write dbg be p' unit_enc ls ss = Ok (bytes, ls, ss) /\
    LineRd.parse_header dbg be (e_addr_size e) bytes = Ok h /\
    LineRd.rows_model dbg be h = (rs, LineRd.SEnd) /\
    map LineRdRefine.rep rs =
      map LineRtRows.r2s (fst (meaning (e_version e) (params_of l) (init_regs (params_of l), 0%N) ops)) /\
    Forall (fun r => LineRd.r_tomb r = false) rs /\
    LineSpec.h_dirs h = map (LineRoundtrip5.lstr_val5 ls ss) (p_dirs p0) /\
    LineSpec.h_files h = map (LineRoundtrip5.file5_entry p0 ls ss) (p_files p0) /\
    LineRtBytes.hdr_matches e l h.
Proof. exact LineRoundtrip5.program_roundtrip_v5. Qed.

(* hypotheses met by a DWARF64 / address-size-4 program with .debug_line_str names, all four optional
   columns, two directories and two files with MD5 and embedded source *)
Example program_roundtrip_hyps_v5 : LineRoundtrip5.ex5_prog = Ok LineRoundtrip5.ex5_p0 /\
  p_insns LineRoundtrip5.ex5_p0 = [] /\
  p_prev LineRoundtrip5.ex5_p0 = wrow_initial LineRoundtrip5.ex5_enc LineRoundtrip.ex_lenc /\
  p_in_seq LineRoundtrip5.ex5_p0 = false /\
  p_enc LineRoundtrip5.ex5_p0 = LineRoundtrip5.ex5_enc /\ p_lenc LineRoundtrip5.ex5_p0 = LineRoundtrip.ex_lenc /\
  (exists d0 ds f0 fs, p_dirs LineRoundtrip5.ex5_p0 = d0 :: ds /\ p_files LineRoundtrip5.ex5_p0 = f0 :: fs) /\
  length (p_dirs LineRoundtrip5.ex5_p0) = 2%nat /\ length (p_files LineRoundtrip5.ex5_p0) = 2%nat /\
  Forall (LineRoundtrip5.dir5_ok (e_fmt64 LineRoundtrip5.ex5_enc) LineRoundtrip5.ex5_ls []
            (LineRoundtrip5.dform_of LineRoundtrip5.ex5_p0)) (p_dirs LineRoundtrip5.ex5_p0) /\
  Forall (LineRoundtrip5.file5_ok LineRoundtrip5.ex5_p0 LineRoundtrip5.ex5_ls []
            (LineRoundtrip5.fform_of LineRoundtrip5.ex5_p0) (source_form (p_files LineRoundtrip5.ex5_p0)))
         (p_files LineRoundtrip5.ex5_p0).
Proof.
  split; [vm_compute; reflexivity|]. split; [reflexivity|]. split; [reflexivity|]. split; [reflexivity|].
  split; [reflexivity|]. split; [reflexivity|]. split; [do 4 eexists; split; reflexivity|].
  split; [reflexivity|]. split; [reflexivity|]. split.
  - unfold LineRoundtrip5.ex5_p0, LineRoundtrip5.dform_of. cbn [p_dirs].
    constructor; [|constructor; [|constructor]]; (split; [reflexivity|]);
      cbn; eexists; (split; [reflexivity|]); cbn; unfold two64; lia.
  - apply Forall_forall.
    intros f [<- | [<- | []]]; unfold LineRoundtrip5.file5_ok; cbn; repeat split;
      first [ reflexivity | (unfold two64; lia)
            | (eexists; split; [reflexivity | cbn; unfold LineRdHdr5.word_lim, two64; lia])
            | (intros _; eexists; repeat split; reflexivity) ].
Qed.

(* WHAT REMAINS outside a theorem for the design's program_roundtrip:
   (i) version 5 with file_has_source = true and a file WITHOUT source: LineProgram::write then adds an empty
       string to a string table while writing (the theorems assume every file has a source in that case);
   (ii) scripts that interleave add_file / add_directory / flag changes with rows: the tables are fixed before
       the rows here (add_file_keeps_rows / add_directory_keeps_rows show the two parts are independent);
   (iii) that the string-table offsets resolve to the strings (the .debug_str / .debug_line_str sections
       themselves) and file/directory de-duplication;
   (iv) Address::Symbol (relocatable) addresses.  These are covered by correspondence: stream c13.prog compares
       all three sections byte for byte with gimli and reads them back with gimli::read. *)

(* statement pins *)
Check (advance_correct : forall (dbg : bool) (l : lenc) (ladv : Z) (oadv : N),
  enc_ok l -> i64 ladv ->
  exists insns,
    advance_insns dbg l ladv oadv = Ok insns /\ Forall special_ok insns /\
    forall ver r, regs_ok (params_of l) r ->
      run (params_of l) (map (denote ver) insns) r =
      ([op_adv (params_of l) (Z.of_N oadv) (line_adv ladv r)],
       after_row (params_of l) (op_adv (params_of l) (Z.of_N oadv) (line_adv ladv r)))).
Check (program_roundtrip_partial : forall dbg e l wd sd sf info p ops,
  enc_ok l -> (e_version e <= 5)%N ->
  lp_new dbg e l wd sd sf info = Ok p -> script_ok e l (wrow_initial e l) false ops ->
  exists p', apply_rops dbg p ops = Ok p' /\ Forall special_ok (p_insns p') /\
    rows_of (params_of l) (map (denote (e_version e)) (p_insns p')) =
      fst (meaning (e_version e) (params_of l) (init_regs (params_of l), 0%N) ops)).
