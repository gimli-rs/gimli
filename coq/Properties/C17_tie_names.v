(* Properties/C17_tie_names.v — translator tie (DESIGN §1.2 item 2) for the .debug_names entry pool of C17: the DW_FORM_* numerals
   of NamesRd.read_nform (read_debug_names_form_value).  nform_kind f (Proofs/GenAgreeNumerals.v) = (class, bytes consumed)
   of read_nform on form f over operands that are all the byte 1.  (The model carries DW_IDX_* values uninterpreted.) *)
From Coq Require Import List NArith Bool String.
Require Import GV.Base.Res GV.Proofs.GenSweep GV.Proofs.GenAgreeNumerals.
Require GV.Gen.Constants GV.Model.ListsRd GV.Model.MacroRd GV.Model.NamesRd GV.Spec.LineSpec.
Import ListNotations.
Local Open Scope string_scope.
Local Open Scope N_scope.

(* the twelve forms decode to the class and size of the DW_FORM_* constant of their name; every other form code below 65 536 is UnknownForm *)
Theorem c17_tie_names_form_numerals :
  map nform_kind nforms_decoded =
    [("flag", 1); ("flag", 0); ("unsigned", 1); ("unsigned", 2); ("unsigned", 4); ("unsigned", 8); ("unsigned", 1);
     ("offset", 1); ("offset", 2); ("offset", 4); ("offset", 8); ("offset", 1)] /\
  forallb (fun f => mem f nforms_decoded || String.eqb (fst (nform_kind f)) "unknown") (count_up 65536) = true.
Proof.
  split; [reflexivity|]. apply forallb_forall. intros f _.
  destruct (mem f nforms_decoded) eqn:M; [reflexivity|].
  unfold nform_kind. rewrite (read_nform_unknown _ _ _ _ M). reflexivity.
Qed.

Theorem c17_tie_names_form_unknown :
  forall f, f < 65536 -> mem f nforms_decoded = false ->
  NamesRd.read_nform false false f tail = Err EUnknownForm.
Proof. intros f _ M. exact (read_nform_unknown _ _ f _ M). Qed.

(* statement pins *)
Check c17_tie_names_form_numerals :
  map nform_kind nforms_decoded =
    [("flag", 1); ("flag", 0); ("unsigned", 1); ("unsigned", 2); ("unsigned", 4); ("unsigned", 8); ("unsigned", 1);
     ("offset", 1); ("offset", 2); ("offset", 4); ("offset", 8); ("offset", 1)] /\
  forallb (fun f => mem f nforms_decoded || String.eqb (fst (nform_kind f)) "unknown") (count_up 65536) = true.
Check c17_tie_names_form_unknown :
  forall f, f < 65536 -> mem f nforms_decoded = false ->
  NamesRd.read_nform false false f tail = Err EUnknownForm.
