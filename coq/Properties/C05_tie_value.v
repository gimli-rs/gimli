(* Properties/C05_tie_value.v — translator tie (DESIGN §1.2 item 2) for C05: the format -> reader dispatch of parse_encoded_value
   (src/read/cfi.rs), regenerated into coq/Gen/EncodedValue.v from the source text on every ./check run, against
   Model/CfiRd.v.  gen_parse_encoded_value (Proofs/GenAgreeEncodedValue.v) reads the regenerated table: reader_of maps
   the Reader method and u64 conversion named by an arm to the primitive of Model/Leb.v / Model/Prim.v. *)
From Coq Require Import List NArith Bool String.
Require Import GV.Base.Res GV.Proofs.GenSweep GV.Model.CfiRd GV.Proofs.GenAgreeEncodedValue.
Require GV.Gen.EncodedValue GV.Gen.EhPe.
Import ListNotations.
Local Open Scope N_scope.

(* every encoding value, byte order, build mode, parameter block and input: same reader and conversion as the arm of the Rust match; no arm = unreachable!() = Panic in both *)
Theorem c05_tie_parse_encoded_value :
  forall dbg be enc pp r,
  parse_encoded_value dbg be enc pp r = gen_parse_encoded_value dbg be enc pp r.
Proof.
  intros dbg be enc pp r. unfold parse_encoded_value, gen_parse_encoded_value.
  change (GV.Gen.EhPe.format enc) with (pe_format enc). generalize (pe_format enc). intros f. cbv zeta.
  unfold EncodedValue.encoded_value_table. cbn [lookup_ev].
  (* the two chains test f against the same numerals in the same order *)
  repeat match goal with
         | |- context [N.eqb f ?k] => destruct (N.eqb f k);
             [first [reflexivity | rewrite lift_signed; reflexivity]|]
         end.
  reflexivity.
Qed.

(* the match has an arm for exactly the formats DwEhPe::is_valid_encoding accepts, and every arm names a known reader/conversion pairing *)
Theorem c05_tie_encoded_value_formats :
  forallb (fun f => Bool.eqb (match lookup_ev f EncodedValue.encoded_value_table with Some _ => true | None => false end)
                             (GV.Gen.EhPe.format_known f)) (count_up 256) = true /\
  forallb (fun p => match reader_of false false 8 (fst (snd p)) (snd (snd p)) with Some _ => true | None => false end)
          EncodedValue.encoded_value_table = true.
Proof. split; reflexivity. Qed.

(* statement pins *)
Check c05_tie_parse_encoded_value :
  forall dbg be enc pp r,
  parse_encoded_value dbg be enc pp r = gen_parse_encoded_value dbg be enc pp r.
Check c05_tie_encoded_value_formats :
  forallb (fun f => Bool.eqb (match lookup_ev f EncodedValue.encoded_value_table with Some _ => true | None => false end)
                             (GV.Gen.EhPe.format_known f)) (count_up 256) = true /\
  forallb (fun p => match reader_of false false 8 (fst (snd p)) (snd (snd p)) with Some _ => true | None => false end)
          EncodedValue.encoded_value_table = true.
