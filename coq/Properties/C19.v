(* Properties/C19.v — Filtered conversion output is dependency-closed, complete and minimal.
   The theorems, each with the last step of its proof (the lemmas are in Proofs/Filter*.v), non-vacuity
   examples and pins.

   Objects (Model/Filter.v, Spec/Graph.v, Spec/FilterSpec.v):
     deps / get_reachable         FilterDependencies and its worklist
     reach V E R                  inductive reachability from R over E among the valid nodes V
     units : list unitd           the .debug_info section as a forest of DIEs with their reference sites
     occurs units u e par         DIE e of unit u has parent par (None = child of the unit root)
     f_valid / f_edge rf          nodes and edges of the dependency graph read off the forest
     filter_refs / conv_refs      the references FilterUnit records / the references the converter resolves
                                  (modelled at /repo 8f64179)
     reserved rf dbg req units    the offsets Dwarf::convert_with_filter reserves when the user requires
                                  exactly the DIEs with req = true
     convert_filtered / convert_all   which DIEs the (un)filtered conversion emits, with their parents.
   `dbg` is the build mode (debug_assert!s are checked when true).  OutOfFuel never occurs (worklist_fuel). *)
From Coq Require Import List NArith ZArith Bool.
Require Import GV.Base.Res GV.Spec.Graph GV.Model.Filter GV.Spec.FilterSpec.
Require Import GV.Proofs.FilterProofs GV.Proofs.FilterEdges GV.Proofs.FilterConv.
Require Import GV.Base.Ints GV.Model.FilterAttrs GV.Proofs.FilterAttrsProofs.
Require Import GV.Proofs.FilterAttrsStruct GV.Proofs.FilterSplit.
Import ListNotations.
Local Open Scope N_scope.

(* (1) The worklist is reachability.  For EVERY dependency map (any keys, any edge lists, duplicates,
   edges to unknown offsets, cycles) and every required list, get_reachable returns the strictly
   increasing enumeration (hence: sorted, no duplicates) of exactly the nodes reachable from the
   required ones; requirements and edges that name an offset never passed to add_entry are ignored. *)
Theorem worklist_correct : forall d : deps,
  exists l, get_reachable d = Ok l /\ strict_sorted l /\
            forall x, In x l <-> reach (dep_valid d) (dep_edge d) (dep_required d) x.
Proof. exact get_reachable_correct. Qed.

(* that list is the only one with these two properties: "= sort (filter reach nodes)" *)
Theorem worklist_canonical : forall (d : deps) (l l' : list N),
  get_reachable d = Ok l -> strict_sorted l' ->
  (forall x, In x l' <-> reach (dep_valid d) (dep_edge d) (dep_required d) x) -> l' = l.
Proof.
  intros d l l' Hl Hs' Hin'. destruct (worklist_correct d) as [l0 [H0 [Hs0 Hin0]]].
  rewrite Hl in H0. inversion H0; subst l0.
  apply strict_sorted_unique; auto. intros x. now rewrite Hin', Hin0.
Qed.

(* termination: #nodes + 2 iterations of the outer loop always suffice, so does #nodes + #edges + 2 *)
Theorem worklist_fuel : forall (d : deps) (fuel : nat),
  (length (d_edges d) + 2 <= fuel)%nat ->
  gr_loop fuel (d_edges d) [d_required d] [] <> OutOfFuel.
Proof. intros d fuel H. destruct (gr_loop_total d fuel H) as [l [-> _]]. discriminate. Qed.

(* (2) Edge construction.  For every forest whose DIEs start at distinct offsets, every required
   predicate and both build modes, FilterUnit::read_entry (parent stack, add_entry, add_edge,
   require_entry) never panics and builds exactly the graph of the specification: the nodes are the
   non-root DIEs, the edges are DIE->parent, DIE->recorded reference, non-namespace parent->member-like
   child, and the required nodes are the required DIEs. *)
Theorem edge_construction : forall (dbg : bool) (req : N -> bool) (units : list unitd),
  wf_offsets units ->
  exists d, filter_section filter_refs dbg req units deps_empty = Ok d /\
    (forall x, dep_valid d x <-> f_valid units x) /\
    (forall x y, dep_edge d x y <-> f_edge filter_refs units x y) /\
    (forall x, dep_required d x <-> f_valid units x /\ req x = true).
Proof. intros. now apply filter_graph. Qed.

(* (2') Closure and minimality.  The reserved set S is dependency-closed — it contains every required
   DIE, the parent of each of its DIEs, every DIE referenced (as recorded by the filter) from one of its
   DIEs and the member-like children of each of its non-namespace DIEs — it consists of DIEs only, and
   it is contained in every dependency-closed set: it is the LEAST such set.  Children of the unit root
   have no parent edge (DESIGN §5 C19). *)
Theorem closure : forall (dbg : bool) (req : N -> bool) (units : list unitd),
  wf_offsets units ->
  exists S, reserved filter_refs dbg req units = Ok S /\ strict_sorted S /\
    dependency_closed filter_refs req units (fun x => In x S) /\
    (forall x, In x S -> f_valid units x) /\
    (forall T : N -> Prop, dependency_closed filter_refs req units T -> forall x, In x S -> T x).
Proof. intros. now apply reserved_closure. Qed.

(* the same for any other view `rf` of the references, e.g. conv_refs, the references the converter resolves *)
Theorem closure_any_policy : forall rf (dbg : bool) (req : N -> bool) (units : list unitd),
  wf_offsets units ->
  exists S, reserved rf dbg req units = Ok S /\ strict_sorted S /\
    dependency_closed rf req units (fun x => In x S) /\
    (forall x, In x S -> f_valid units x) /\
    (forall T : N -> Prop, dependency_closed rf req units T -> forall x, In x S -> T x).
Proof. exact reserved_closure. Qed.

(* (4) Per-unit slices.  ConvertUnitSection::new_with_filter hands reserve_unit, for each unit, exactly
   the reachable offsets lying in that unit (and the debug assertion on the leftover never fires);
   entry_ids then holds the unit roots and the reachable offsets. *)
Theorem per_unit_slices : forall (dbg : bool) (req : N -> bool) (units : list unitd),
  wf_offsets units -> wf_layout units ->
  exists S ids,
    reserved filter_refs dbg req units = Ok S /\
    slices dbg units S = Ok (map (fun u => filter (in_unit u) S) units) /\
    convert_filtered filter_refs dbg req units = convert_units ids units [] /\
    (forall x, In x ids <-> is_root units x \/ In x S).
Proof.
  intros dbg req units Hwf Hlay.
  destruct (filtered_ids filter_refs dbg req units Hwf Hlay) as [S [ids [HS [_ [_ [_ [Hsl [Hdef Hids]]]]]]]].
  exists S, ids. repeat (split; [assumption|]). split; [|exact Hids].
  unfold convert_filtered. rewrite HS. cbn [bind]. rewrite Hsl. cbn [bind]. now rewrite <- Hdef.
Qed.

Theorem in_unit_spec : forall u x,
  in_unit u x = true <-> u_off u + u_hdr u <= x /\ x < unit_end u.
Proof. exact in_unit_iff. Qed.

(* (5) Edge completeness.  For EVERY carrier —
   attribute references, every reference-carrying operation at any nesting depth inside
   DW_OP_entry_value, in an exprloc or in any raw location-list entry (live, empty, inverted,
   tombstoned) — the filter records every reference the converter resolves. *)
Theorem edges_complete : forall (u : unitd) (s : site), incl (conv_refs u s) (filter_refs u s).
Proof. exact filter_refs_complete. Qed.

(* and it records nothing the converter does not resolve *)
Theorem edges_sound : forall (u : unitd) (s : site),
  0 < u_hdr u -> incl (filter_refs u s) (conv_refs u s).
Proof.
  intros u [car v] Hh. unfold conv_refs, filter_refs. cbn [s_car s_val].
  (* a zero base type is out of bounds since the header is not empty *)
  assert (Hz : unit_target u 0 = []).
  { unfold unit_target, in_bounds. now rewrite (proj2 (N.ltb_lt 0 (u_hdr u)) Hh). }
  assert (Hop : forall op, incl (filter_op_refs u op v) (conv_op_refs u op v)).
  { intros op. destruct op; cbn [filter_op_refs conv_op_refs]; try apply incl_refl;
      destruct (v =? 0) eqn:E; try apply incl_refl; apply N.eqb_eq in E; subst; rewrite Hz; apply incl_nil_l. }
  destruct car as [| |nest op|k nest op]; try apply incl_refl; apply Hop.
Qed.

(* (3) No dangling reference.  Whenever the unfiltered conversion of a forest succeeds,
   the filtered conversion succeeds too, for every required predicate and both build modes — no
   InvalidUnitRef / InvalidDebugInfoRef for a DIE that was not reserved — and it emits exactly the
   reserved DIEs (in section order).  (Out-of-bounds or non-DIE references make the unfiltered
   conversion fail and are outside this statement; the filter ignores them.) *)
Theorem no_dangling : forall (dbg : bool) (req : N -> bool) (units : list unitd),
  wf_offsets units -> wf_layout units ->
  (exists out0, convert_all units = Ok out0) ->
  exists S out,
    reserved filter_refs dbg req units = Ok S /\
    convert_filtered filter_refs dbg req units = Ok out /\
    (forall x, In x (map fst out) <-> In x S) /\
    (strict_sorted (section_offsets units) -> map fst out = S).
Proof.
  intros dbg req units Hwf Hlay Hall. apply filtered_conversion_ok; auto.
  intros u e par s _ _. apply edges_complete.
Qed.

(* The same conclusion for ANY filter that records at least what the converter resolves. *)
Theorem no_dangling_if_complete : forall rf (dbg : bool) (req : N -> bool) (units : list unitd),
  wf_offsets units -> wf_layout units ->
  (forall u e par s, occurs units u e par -> In s (e_sites e) -> incl (conv_refs u s) (rf u s)) ->
  (exists out0, convert_all units = Ok out0) ->
  exists S out,
    reserved rf dbg req units = Ok S /\
    convert_filtered rf dbg req units = Ok out /\
    (forall x, In x (map fst out) <-> In x S) /\
    (strict_sorted (section_offsets units) -> map fst out = S).
Proof. exact filtered_conversion_ok. Qed.

(* The filter's view and the converter's view of the references reserve the same DIEs: the reserved set
   is the closure over exactly the references the converter resolves (the property's "everything
   those entries reference, directly or from their expressions and location lists"). *)
Theorem policy_agrees : forall (dbg : bool) (req : N -> bool) (units : list unitd),
  wf_offsets units ->
  (forall u, In u units -> 0 < u_hdr u) ->
  convert_filtered filter_refs dbg req units = convert_filtered conv_refs dbg req units.
Proof.
  intros dbg req units Hwf Hhdr. unfold convert_filtered.
  rewrite (reserved_policy_eq filter_refs conv_refs dbg req units Hwf); [reflexivity|].
  intros u e par s y Hocc _ _. split; [apply edges_sound, Hhdr, Hocc|apply edges_complete].
Qed.

(* a required DIE whose DW_AT_location is DW_OP_implicit_pointer(other DIE) pulls that DIE in
   (the case S9 of DESIGN §8) *)
Definition ex_a : entry := {| e_off := 21; e_tag := 36; e_decl := false; e_sites := [] |}.
Definition ex_b : entry :=
  {| e_off := 31; e_tag := 19; e_decl := false;
     e_sites := [ {| s_car := CExpr 0 OpImplicitPointer; s_val := 21 |} ] |}.
Definition ex_units : list unitd :=
  [ {| u_off := 0; u_hdr := 11; u_len := 40; u_kids := [Node ex_a []; Node ex_b []] |} ].
Definition ex_req (x : N) : bool := x =? 31.

Example ex_wf : wf_offsets ex_units /\ wf_layout ex_units.
Proof.
  split.
  - unfold wf_offsets. cbn. repeat constructor; cbn; intuition discriminate.
  - split; [cbn; intuition|].
    intros u e par [[<-|[]] Hin]. cbn in Hin.
    destruct Hin as [H|[H|[]]]; inversion H; subst; cbn; split; reflexivity.
Qed.

Example implicit_pointer_ex :
  convert_all ex_units = Ok [(21, 11); (31, 11)] /\
  convert_filtered filter_refs true ex_req ex_units = Ok [(21, 11); (31, 11)] /\
  convert_filtered filter_refs false ex_req ex_units = Ok [(21, 11); (31, 11)].
Proof. repeat split; vm_compute; reflexivity. Qed.

(* Parent links.  Although unreserved DIEs are skipped, every DIE of the filtered output is attached to
   its own parent DIE (or to the unit root when it is a child of the root). *)
Theorem parents_kept : forall rf (dbg : bool) (req : N -> bool) (units : list unitd) out,
  wf_offsets units -> wf_layout units ->
  convert_filtered rf dbg req units = Ok out ->
  forall x p, In (x, p) out ->
    exists u e par, occurs units u e par /\ x = sec u (e_off e) /\
      p = match par with Some pe => sec u (e_off pe) | None => root_off u end.
Proof.
  intros rf dbg req units out Hwf Hlay Hrun.
  destruct (filtered_ids rf dbg req units Hwf Hlay) as [S [ids [HS [_ [[_ [Hpar _]] [_ [Hsl [Hdef Hids]]]]]]]].
  unfold convert_filtered in Hrun. rewrite HS in Hrun. cbn [bind] in Hrun. rewrite Hsl in Hrun.
  cbn [bind] in Hrun. rewrite <- Hdef in Hrun.
  apply (convert_units_parents ids units out); [|exact Hrun].
  (* the reserved set holds the parent of each of its DIEs, and no DIE is a unit root *)
  intros u Hu e pe Hpair Hm. apply mem_n_iff, Hids. apply mem_n_iff, Hids in Hm.
  assert (Hocc : occurs units u e (Some pe)) by (split; auto).
  destruct Hm as [Hroot|HeS]; [|right; eapply Hpar; eauto].
  exfalso. eapply valid_not_root; [exact Hlay| |exact Hroot]. exists u, e, (Some pe). auto.
Qed.

(* Minimality under error tolerance.  With the attribute-by-attribute loop documented on ConvertUnit (an
   attribute whose conversion fails is skipped), for EVERY forest - whatever its reference sites hold:
   out-of-bounds unit-relative offsets, offsets of no DIE, dangling .debug_info offsets - the DIEs that come
   out are exactly the reserved ones, i.e. (closure_any_policy) the least closed set: a malformed reference
   neither adds a DIE nor removes one.  No hypothesis that the unfiltered conversion succeeds. *)
Theorem tolerant_emits_reserved : forall rf (dbg : bool) (req : N -> bool) (units : list unitd),
  wf_offsets units -> wf_layout units ->
  exists S out,
    reserved rf dbg req units = Ok S /\
    convert_filtered_tol rf dbg req units = Ok out /\
    (forall x, In x (map fst out) <-> In x S) /\
    (strict_sorted (section_offsets units) -> map fst out = S).
Proof. exact tolerant_conversion_ok. Qed.

(* a required variable of unit 0 whose DW_AT_type is the unit-relative offset 121: past the end of unit 0,
   and exactly where a typedef of unit 1 lives.  The strict conversion reports InvalidUnitRef; the tolerant
   one emits the variable alone - the DIE of the other unit is NOT pulled in. *)
Definition ex3_var : entry :=
  {| e_off := 21; e_tag := 52; e_decl := false; e_sites := [ {| s_car := CAttrUnit; s_val := 121 |} ] |}.
Definition ex3_typedef : entry := {| e_off := 21; e_tag := 22; e_decl := false; e_sites := [] |}.
Definition ex3_u0 : unitd := {| u_off := 0; u_hdr := 11; u_len := 30; u_kids := [ Node ex3_var [] ] |}.
Definition ex3_units : list unitd :=
  [ ex3_u0;
    {| u_off := 100; u_hdr := 11; u_len := 40; u_kids := [ Node ex3_typedef [] ] |} ].
Example oob_ex :
  in_bounds ex3_u0 121 = false /\
  convert_filtered filter_refs true (fun x => x =? 21) ex3_units = Err CInvalidUnitRef /\
  convert_filtered_tol filter_refs true (fun x => x =? 21) ex3_units = Ok [(21, 11)].
Proof. repeat split; vm_compute; reflexivity. Qed.

(* non-vacuity *)

(* a dependency map with a cycle, an edge to an unknown node, an unreachable node and a required
   unknown node *)
Definition ex_deps : deps :=
  {| d_edges := [(10, [20; 99]); (20, [30; 10]); (30, []); (40, [10])]; d_required := [77; 20] |}.
Example worklist_ex : get_reachable ex_deps = Ok [10; 20; 30].
Proof. vm_compute. reflexivity. Qed.

(* a forest with a namespace, a struct with a member, a variable referencing the struct *)
Definition ex_member : entry := {| e_off := 41; e_tag := 13; e_decl := false; e_sites := [] |}.
Definition ex_struct : entry := {| e_off := 31; e_tag := 19; e_decl := false; e_sites := [] |}.
Definition ex_ns : entry := {| e_off := 21; e_tag := 57; e_decl := false; e_sites := [] |}.
Definition ex_var : entry :=
  {| e_off := 51; e_tag := 52; e_decl := false; e_sites := [ {| s_car := CAttrUnit; s_val := 31 |} ] |}.
Definition ex_other : entry := {| e_off := 61; e_tag := 52; e_decl := false; e_sites := [] |}.
Definition ex_forest : list unitd :=
  [ {| u_off := 100; u_hdr := 11; u_len := 70;
       u_kids := [ Node ex_ns [ Node ex_struct [ Node ex_member [] ]; Node ex_other [] ]; Node ex_var [] ] |} ].

Example ex_forest_wf : wf_offsets ex_forest /\ wf_layout ex_forest.
Proof.
  split.
  - unfold wf_offsets. cbn. repeat constructor; cbn; intuition discriminate.
  - split; [cbn; intuition|].
    intros u e par [[<-|[]] Hin]. cbn in Hin.
    repeat (destruct Hin as [H|Hin]; [inversion H; subst; cbn; split; reflexivity|]). destruct Hin.
Qed.

(* requiring the variable keeps the struct it references, the struct's member and the enclosing
   namespace, but not the namespace's other child *)
Example closure_ex :
  convert_filtered filter_refs true (fun x => x =? 151) ex_forest
  = Ok [(121, 111); (131, 121); (141, 131); (151, 111)].
Proof. vm_compute. reflexivity. Qed.

Example no_dangling_ex : exists out0, convert_all ex_forest = Ok out0.
Proof. eexists. vm_compute. reflexivity. Qed.

Example tags_ex :
  has_die_back_edge 13 false = true /\ has_die_back_edge 19 false = false /\
  has_die_back_edge 46 false = false /\ has_die_back_edge 46 true = true /\ has_die_back_edge 16649 true = true.
Proof. vm_compute. repeat split. Qed.

(* two units, a cross-unit DW_FORM_ref_addr reference into a namespace of the second unit: the slices
   handed to reserve_unit and the DIEs that come out *)
Definition ex2_var : entry :=
  {| e_off := 21; e_tag := 52; e_decl := false; e_sites := [ {| s_car := CAttrInfo; s_val := 131 |} ] |}.
Definition ex2_ns : entry := {| e_off := 21; e_tag := 57; e_decl := false; e_sites := [] |}.
Definition ex2_struct : entry := {| e_off := 31; e_tag := 19; e_decl := false; e_sites := [] |}.
Definition ex2_units : list unitd :=
  [ {| u_off := 0; u_hdr := 11; u_len := 30; u_kids := [ Node ex2_var [] ] |};
    {| u_off := 100; u_hdr := 11; u_len := 40; u_kids := [ Node ex2_ns [ Node ex2_struct [] ] ] |} ].
Example slices_ex :
  reserved filter_refs true (fun x => x =? 21) ex2_units = Ok [21; 121; 131] /\
  slices true ex2_units [21; 121; 131] = Ok [[21]; [121; 131]] /\
  convert_filtered filter_refs true (fun x => x =? 21) ex2_units = Ok [(21, 11); (121, 111); (131, 121)].
Proof. repeat split; vm_compute; reflexivity. Qed.

Definition u_ex : unitd := {| u_off := 0; u_hdr := 11; u_len := 40; u_kids := [] |}.
(* every carrier yields the edge: nested in DW_OP_entry_value, in a skipped location-list entry *)
Example carriers_ex :
  filter_refs u_ex {| s_car := CExpr 2 OpImplicitPointer; s_val := 21 |} = [21] /\
  filter_refs u_ex {| s_car := CLoc LocEmpty 1 OpCall; s_val := 21 |} = [21] /\
  filter_refs u_ex {| s_car := CLoc LocTombstone 0 OpVariableValue; s_val := 21 |} = [21] /\
  filter_refs u_ex {| s_car := CExpr 0 OpConvert; s_val := 0 |} = [].
Proof. repeat split. Qed.

(* (6) Same attributes, no dangling id (Model/FilterAttrs.v).  Here a DIE is its full attribute list
   (name, body, reference sites); `entry_of` is what FilterUnit::read_entry sees of it after
   FilterUnit::filter_attributes.  For every attribute forest, every required predicate and both build modes:
   the map entry_ids built by ConvertUnitSection::new_with_filter has as keys exactly the unit roots and the
   reserved DIEs; for every reserved DIE e, ConvertUnitEntry::filter_attributes + ConvertUnit::convert_attributes
   give under the filter's entry_ids and under the entry_ids of the unfiltered conversion (Dwarf::from) the same
   result once each (UnitId, UnitEntryId) is read back as the source DIE it was reserved for: the same
   attributes in the same order (DW_AT_sibling and the metadata attributes dropped, DW_AT_GNU_locviews skipped),
   the same bodies, references to the same source DIEs - or the same ConvertError.  No hypothesis that any
   conversion succeeds, so the statement also covers the attribute-by-attribute tolerant loop.
   And every id stored in a converted attribute stands for a unit root or a reserved DIE, i.e. (no_dangling /
   tolerant_emits_reserved) for a DIE that is emitted: nothing dangles in the written output. *)
Theorem same_attributes : forall (dbg : bool) (req : N -> bool) (aunits : list aunit),
  wf_offsets (map unit_of aunits) -> wf_layout (map unit_of aunits) ->
  exists S mF,
    reserved filter_refs dbg req (map unit_of aunits) = Ok S /\
    ids_filtered dbg req (map unit_of aunits) = Ok mF /\
    (forall x, In x (map fst mF) <-> is_root (map unit_of aunits) x \/ In x S) /\
    (forall au e, In au aunits -> In e (aunit_entries au) -> In (sec (unit_of au) (ae_off e)) S ->
       decode_attrs mF (cv_entry_attrs (unit_of au) mF e) =
       decode_attrs (ids_all (map unit_of aunits)) (cv_entry_attrs (unit_of au) (ids_all (map unit_of aunits)) e)) /\
    (forall au e out a id, cv_entry_attrs (unit_of au) mF e = Ok out -> In a out -> In id (ca_refs a) ->
       exists y, im_src id mF = Some y /\ (is_root (map unit_of aunits) y \/ In y S)).
Proof.
  intros dbg req aunits Hwf Hlay.
  destruct (reserved_agree dbg req aunits Hwf Hlay) as [S [mF [HS [HmF [Hkeys [Hnd Hagree]]]]]].
  exists S, mF. repeat (split; [assumption|]). split.
  - intros au e Hau He HeS. unfold cv_entry_attrs, cu_filter_attributes. cbn [snd].
    apply decode_attributes_eq. intros a s y. now apply Hagree.
  - intros au e out a id Hout Ha Hid.
    destruct (cv_attributes_ids _ _ _ _ _ _ Hout Ha Hid) as [y Hy]. apply im_get_in in Hy.
    exists y. split; [now apply im_src_in|]. apply Hkeys. apply in_map_iff. exists (y, id). auto.
Qed.

(* the second half under its DESIGN name *)
Theorem no_dangling_written : forall (dbg : bool) (req : N -> bool) (aunits : list aunit),
  wf_offsets (map unit_of aunits) -> wf_layout (map unit_of aunits) ->
  exists S mF,
    reserved filter_refs dbg req (map unit_of aunits) = Ok S /\
    ids_filtered dbg req (map unit_of aunits) = Ok mF /\
    forall au e out a id, cv_entry_attrs (unit_of au) mF e = Ok out -> In a out -> In id (ca_refs a) ->
      exists y, im_src id mF = Some y /\ (is_root (map unit_of aunits) y \/ In y S).
Proof.
  intros dbg req aunits Hwf Hlay.
  destruct (same_attributes dbg req aunits Hwf Hlay) as [S [mF [H1 [H2 [_ [_ H3]]]]]]. eauto.
Qed.

(* a struct e1 (member e2) referenced by the required variable e4; e3 is dropped, so e4 gets another id than
   in the unfiltered conversion; its DW_AT_sibling (pointing at e3!) and DW_AT_GNU_addr_base are dropped, the
   DW_AT_type reference is kept and denotes the same source DIE *)
Definition exa_e1 : aentry := {| ae_off := 21; ae_tag := 19; ae_attrs := [ {| at_name := 11; at_body := 4; at_sites := [] |} ] |}.
Definition exa_e2 : aentry := {| ae_off := 31; ae_tag := 13; ae_attrs := [] |}.
Definition exa_e3 : aentry := {| ae_off := 41; ae_tag := 36; ae_attrs := [] |}.
Definition exa_e4 : aentry :=
  {| ae_off := 51; ae_tag := 52;
     ae_attrs := [ {| at_name := 1; at_body := 0; at_sites := [ {| s_car := CAttrUnit; s_val := 41 |} ] |};
                   {| at_name := 73; at_body := 0; at_sites := [ {| s_car := CAttrUnit; s_val := 21 |} ] |};
                   {| at_name := 8499; at_body := 0; at_sites := [ {| s_car := CAttrUnit; s_val := 41 |} ] |} ] |}.
Definition exa_units : list aunit :=
  [ {| au_off := 0; au_hdr := 11; au_len := 60;
       au_kids := [ ANode exa_e1 [ ANode exa_e2 [] ]; ANode exa_e3 []; ANode exa_e4 [] ] |} ].
Definition exa_req (x : N) : bool := x =? 51.
Definition exa_u : unitd := unit_of {| au_off := 0; au_hdr := 11; au_len := 60; au_kids := [] |}.

Example exa_wf : wf_offsets (map unit_of exa_units) /\ wf_layout (map unit_of exa_units).
Proof.
  split.
  - unfold wf_offsets. cbn. repeat constructor; cbn; intuition discriminate.
  - split; [cbn; intuition|].
    intros u e par [[<-|[]] Hin]. cbn in Hin.
    repeat (destruct Hin as [H|Hin]; [inversion H; subst; cbn; split; reflexivity|]). destruct Hin.
Qed.

Example same_attributes_ex :
  reserved filter_refs true exa_req (map unit_of exa_units) = Ok [21; 31; 51] /\
  ids_filtered true exa_req (map unit_of exa_units) = Ok [(11, (0, 0)); (21, (0, 1)); (31, (0, 2)); (51, (0, 3))] /\
  ids_all (map unit_of exa_units) = [(11, (0, 0)); (21, (0, 1)); (31, (0, 2)); (41, (0, 3)); (51, (0, 4))] /\
  cv_entry_attrs exa_u [(11, (0, 0)); (21, (0, 1)); (31, (0, 2)); (51, (0, 3))] exa_e4
    = Ok [ {| ca_name := 73; ca_body := 0; ca_refs := [(0, 1)] |} ] /\
  fst (cu_filter_attributes (ae_attrs exa_e4)) = true.
Proof. repeat split; vm_compute; reflexivity. Qed.

(* (7) The bounds rule as coded.  FilterUnit::add_attribute_refs / add_expression_refs test
   UnitOffset::is_in_bounds and then add with the UNCHECKED usize `+` of UnitOffset::to_unit_section_offset.
   For every unit that ends inside a 2^64-byte section, every list of reference sites and both build modes the
   code neither panics nor wraps and records exactly the targets `filter_refs` that the graph theorems are
   about. *)
Theorem bounds_rule_exact : forall (dbg : bool) (u : unitd) (ss : list site) (deps : list N),
  unit_end u <= 2 ^ 64 ->
  push_sites_refs dbg u ss deps = Ok (deps ++ flat_map (filter_refs u) ss).
Proof.
  intros dbg u ss. induction ss as [|s ss IH]; intros deps Hend; cbn [push_sites_refs flat_map].
  - now rewrite app_nil_r.
  - rewrite push_site_refs_exact by exact Hend. cbn [bind]. rewrite IH by exact Hend.
    now rewrite app_assoc.
Qed.

(* An out-of-bounds unit-relative operand records nothing: for every unit (no layout hypothesis), every value
   - in particular one that equals "offset of a DIE of a later unit minus the start of this unit" - in both
   build modes. *)
Theorem oob_ref_no_edge : forall (dbg : bool) (u : unitd) (s : site) (deps : list N),
  site_unit_relative s = true -> in_bounds u (s_val s) = false ->
  push_site_refs dbg u s deps = Ok deps /\ filter_refs u s = [].
Proof.
  intros dbg u s deps Hrel Hoob. rewrite push_site_refs_rel, filter_refs_rel, Hrel.
  unfold push_unit_ref, unit_target. rewrite Hoob. split; reflexivity.
Qed.

(* No unit-relative site ever names a DIE of another unit. *)
Theorem unit_relative_stays_home : forall units u u' e' par' s,
  wf_layout units -> In u units -> occurs units u' e' par' ->
  site_unit_relative s = true -> In (sec u' (e_off e')) (filter_refs u s) -> u' = u.
Proof.
  intros units u u' e' par' s Hlay Hu Hocc' Hrel Hy.
  eapply ordered_unit_unique; [exact (proj1 Hlay)|apply Hocc'|exact Hu| |].
  - eapply occurs_in_unit; eauto.
  - eapply unit_relative_target_in_unit; eauto.
Qed.

(* Minimality survives numeric coincidences.  `own_refs` reads a unit-relative reference without any byte
   arithmetic: it denotes the DIE of ITS OWN unit that starts at that unit offset, if there is one, and nothing
   otherwise.  On every well laid out forest the filter reserves exactly the set that reading reserves, which
   by closure_any_policy is the least set closed under parents, those references and member-like children: an
   out-of-bounds unit-relative reference whose value coincides with a DIE of a later unit retains nothing. *)
Theorem oob_refs_add_nothing : forall (dbg : bool) (req : N -> bool) (units : list unitd),
  wf_offsets units -> wf_layout units ->
  reserved filter_refs dbg req units = reserved own_refs dbg req units.
Proof.
  intros dbg req units Hwf Hlay. apply reserved_policy_eq; [exact Hwf|].
  intros u e par s y Hocc _ Hv. apply (filter_own_refs units); auto. apply Hocc.
Qed.

(* the forest of oob_ex: the variable of unit 0 has DW_AT_type = 121, the unit offset at which a typedef of
   unit 1 happens to live in the section *)
Example oob_refs_ex :
  unit_end ex3_u0 <= 2 ^ 64 /\
  push_sites_refs true ex3_u0 (e_sites ex3_var) [] = Ok [] /\
  own_refs ex3_u0 {| s_car := CAttrUnit; s_val := 121 |} = [] /\
  reserved filter_refs true (fun x => x =? 21) ex3_units = Ok [21] /\
  reserved own_refs true (fun x => x =? 21) ex3_units = Ok [21].
Proof. repeat split; vm_compute; try reflexivity; discriminate. Qed.

Example ex3_wf : wf_offsets ex3_units /\ wf_layout ex3_units.
Proof.
  split.
  - unfold wf_offsets. cbn. repeat constructor; cbn; intuition discriminate.
  - split; [cbn; intuition; subst; cbn; discriminate|].
    intros u e par [[<-|[<-|[]]] Hin]; cbn in Hin;
      repeat (destruct Hin as [H|Hin]; [inversion H; subst; cbn; split; reflexivity|]); destruct Hin.
Qed.

(* (8) Split DWARF.  FilterUnitSection::new_split builds the dependency map with the same FilterUnit::read_entry;
   ConvertSplitUnitSection::new_with_filter converts the first unit of the .dwo section and reserves the
   reachable offsets lying in it.  When the .dwo section holds one unit (the DWARF 5 / GNU split
   layout) the DIEs emitted are those of the ordinary path, so every theorem above applies to it.  A .dwo section
   with several units: (10).  NOT modelled: the skeleton's own attributes / line program /
   copy_relocated_attributes. *)
Theorem split_single_unit : forall rf (dbg : bool) (req : N -> bool) (u : unitd),
  wf_offsets [u] -> wf_layout [u] ->
  convert_split_filtered rf dbg req [u] = convert_filtered rf dbg req [u].
Proof.
  intros rf dbg req u Hwf Hlay.
  destruct (filtered_ids rf dbg req [u] Hwf Hlay) as [S [ids [HS [_ [_ [_ [Hsl _]]]]]]].
  unfold convert_split_filtered, convert_filtered. rewrite HS. cbn [bind]. rewrite Hsl. cbn [bind map reserve_all].
  rewrite app_nil_r. reflexivity.
Qed.

Example split_ex :
  convert_split_filtered filter_refs true (fun x => x =? 151) ex_forest
  = Ok [(121, 111); (131, 121); (141, 131); (151, 111)].
Proof. vm_compute. reflexivity. Qed.

(* (9) ONE model of the conversion.  The attribute-level conversion of Model/FilterAttrs.v (convert_units_attrs:
   read_entry + add_entry + convert_attributes with entry_ids and real attribute lists) and the conversion of
   Model/Filter.v that the closure / minimality / parent theorems are about emit the same DIEs attached to the
   same parents: whenever the attribute-level filtered conversion (strict or tolerant) succeeds, its DIEs and
   parents are those of convert_filtered_tol - hence (tolerant_emits_reserved, parents_kept) exactly the reserved
   set, each DIE under its own parent. *)
Theorem attrs_structure : forall (tol dbg : bool) (req : N -> bool) (aunits : list aunit) m out,
  convert_filtered_attrs tol dbg req aunits = Ok (m, out) ->
  ids_filtered dbg req (map unit_of aunits) = Ok m /\
  convert_filtered_tol filter_refs dbg req (map unit_of aunits) = Ok (map cd_pair out).
Proof. exact convert_filtered_attrs_sim. Qed.

(* and whenever the strict conversion of Model/Filter.v succeeds, so does the attribute-level one, with the same
   DIEs and parents (the converse needs no DW_AT_GNU_locviews attribute with a malformed reference: the model of
   Filter.v converts every site the filter sees, convert_attributes skips that attribute) *)
Theorem attrs_strict : forall (dbg : bool) (req : N -> bool) (aunits : list aunit) out0,
  convert_filtered filter_refs dbg req (map unit_of aunits) = Ok out0 ->
  exists m out, convert_filtered_attrs false dbg req aunits = Ok (m, out) /\ map cd_pair out = out0.
Proof.
  intros dbg req aunits out0 H. unfold convert_filtered in H. unfold convert_filtered_attrs, ids_filtered.
  destruct (reserved filter_refs dbg req (map unit_of aunits)) as [offs| | |]; cbn [bind] in H |- *; try discriminate.
  destruct (slices dbg (map unit_of aunits) offs) as [sl| | |]; cbn [bind] in H |- *; try discriminate.
  rewrite <- section_ids_keys with (j := 0) in H.
  destruct (convert_units_cua _ _ [] _ H) as [out [-> Ho]]. cbn [bind]. eauto.
Qed.

(* (9') Same attributes for the tolerant loop, composed with tolerant_emits_reserved.  For EVERY well-formed
   attribute forest (whatever its reference sites hold), every required predicate and both build modes the
   attribute-by-attribute conversion under the filter succeeds, emits exactly the reserved set with the parents
   of convert_filtered_tol, and every emitted DIE carries exactly the attributes the same loop produces for that
   DIE in the UNFILTERED conversion (same attributes survive, same order, same bodies, references to the same
   source DIEs once ids are read back). *)
Theorem same_attributes_tolerant : forall (dbg : bool) (req : N -> bool) (aunits : list aunit),
  wf_offsets (map unit_of aunits) -> wf_layout (map unit_of aunits) ->
  exists S mF out,
    reserved filter_refs dbg req (map unit_of aunits) = Ok S /\
    convert_filtered_attrs true dbg req aunits = Ok (mF, out) /\
    convert_filtered_tol filter_refs dbg req (map unit_of aunits) = Ok (map cd_pair out) /\
    (forall x, In x (map cd_off out) <-> In x S) /\
    forall c, In c out -> exists au e,
      In au aunits /\ In e (aunit_entries au) /\ cd_off c = sec (unit_of au) (ae_off e) /\
      map (decode_attr mF) (cd_attrs c) =
      map (decode_attr (ids_all (map unit_of aunits)))
          (cv_attributes_tol (unit_of au) (ids_all (map unit_of aunits)) (snd (cu_filter_attributes (ae_attrs e)))).
Proof.
  intros dbg req aunits Hwf Hlay.
  destruct (attrs_tolerant dbg req aunits Hwf Hlay) as [S [m [out [HS [Hm [Hc [Ht [Hin Hdies]]]]]]]].
  destruct (reserved_agree dbg req aunits Hwf Hlay) as [S' [m' [HS' [Hm' [_ [_ Hagree]]]]]].
  rewrite HS in HS'. inversion HS'; subst S'. rewrite Hm in Hm'. inversion Hm'; subst m'.
  exists S, m, out. repeat (split; [assumption|]).
  intros c Hcin. destruct (Hdies c Hcin) as [au [e [Hau [He [Hoff Hattrs]]]]].
  exists au, e. repeat (split; [assumption|]).
  rewrite Hattrs. unfold cu_filter_attributes. cbn [snd]. apply decode_attributes_tol_eq.
  intros a s y. apply (Hagree au e Hau He). rewrite <- Hoff. apply Hin. now apply in_map.
Qed.

Example attrs_structure_ex :
  exists m out, convert_filtered_attrs false true exa_req exa_units = Ok (m, out) /\
                map cd_pair out = [(21, 11); (31, 21); (51, 11)] /\
                map cd_sibling out = [false; false; true].
Proof. eexists. eexists. split; [vm_compute; reflexivity|]. split; reflexivity. Qed.

(* DW_AT_GNU_locviews (decision recorded in notes/c19attr.md): the filter records the references of such an
   attribute, convert_attributes skips the attribute.  Here the required variable names the typedef only through a
   reference-form DW_AT_GNU_locviews: the typedef is reserved (it IS connected to the required DIE by a reference
   of the input, which is what the property's minimality clause speaks about) and the variable's converted
   attributes do not mention it - in the filtered and in the unfiltered conversion alike. *)
Definition exl_typedef : aentry := {| ae_off := 21; ae_tag := 22; ae_attrs := [] |}.
Definition exl_var : aentry :=
  {| ae_off := 31; ae_tag := 52;
     ae_attrs := [ {| at_name := DW_AT_GNU_locviews; at_body := 0; at_sites := [ {| s_car := CAttrUnit; s_val := 21 |} ] |} ] |}.
Definition exl_units : list aunit :=
  [ {| au_off := 0; au_hdr := 11; au_len := 40; au_kids := [ ANode exl_typedef []; ANode exl_var [] ] |} ].
Example locviews_ex :
  reserved filter_refs true (fun x => x =? 31) (map unit_of exl_units) = Ok [21; 31] /\
  cv_entry_attrs exa_u [(11, (0, 0)); (21, (0, 1)); (31, (0, 2))] exl_var = Ok [].
Proof. split; vm_compute; reflexivity. Qed.

(* (10) Split-unit filters on a .dwo section with ANY number of units (DWARF 5 and GNU DWARF 4 split units take
   the same path).  ConvertSplitUnitSection::new_with_filter converts the FIRST unit and reserves the reachable
   offsets lying in it.  For every well-formed section u0 :: us: the tolerant split conversion succeeds and emits
   exactly the reserved DIEs that lie in u0, and a strict split conversion that succeeds emits the same list. *)
Theorem split_units : forall rf (dbg : bool) (req : N -> bool) (u0 : unitd) (us : list unitd),
  wf_offsets (u0 :: us) -> wf_layout (u0 :: us) ->
  exists S out,
    reserved rf dbg req (u0 :: us) = Ok S /\
    convert_split_filtered_tol rf dbg req (u0 :: us) = Ok out /\
    (forall x, In x (map fst out) <-> In x S /\ in_unit u0 x = true) /\
    (forall out', convert_split_filtered rf dbg req (u0 :: us) = Ok out' -> out' = out).
Proof.
  intros rf dbg req u0 us Hwf Hlay.
  destruct (filtered_ids rf dbg req (u0 :: us) Hwf Hlay) as [S [ids [HS [_ [_ [Hvalid _]]]]]].
  destruct (convert_units_tol_char (root_off u0 :: own_offsets u0 S) [u0] []) as [out [Hout Hfst]].
  exists S, out. split; [exact HS|]. unfold convert_split_filtered_tol, convert_split_filtered. rewrite HS.
  split; [exact Hout|]. split.
  - intros x. rewrite Hfst, unit_raw_offsets. now apply (emitted_own u0 us).
  - intros out' H. cbn [bind] in H. apply convert_units_strip in H. rewrite Hout in H. now inversion H.
Qed.

(* No dangling reference in the split path (/repo 7a2e6de: only the offsets of the converted unit are
   reserved).  Every reference the strict split conversion resolves for an emitted DIE names the root DIE or an
   emitted DIE. *)
Theorem split_refs : forall (dbg : bool) (req : N -> bool) (u0 : unitd) (us : list unitd) out,
  wf_offsets (u0 :: us) -> wf_layout (u0 :: us) ->
  convert_split_filtered filter_refs dbg req (u0 :: us) = Ok out ->
  forall e par s y, In (e, par) (unit_pairs u0) -> In (sec u0 (e_off e)) (map fst out) ->
    In s (e_sites e) -> In y (conv_refs u0 s) ->
    y = root_off u0 \/ In y (map fst out).
Proof.
  intros dbg req u0 us out Hwf Hlay Hrun e par s y Hp He Hs Hy.
  destruct (split_units filter_refs dbg req u0 us Hwf Hlay) as [S [out' [HS [_ [Hchar Heq]]]]].
  rewrite <- (Heq _ Hrun) in Hchar.
  unfold convert_split_filtered in Hrun. rewrite HS in Hrun. cbn [bind] in Hrun.
  destruct (convert_units_site _ _ _ _ u0 e par s Hrun (or_introl eq_refl) Hp) as [_ Hc]; auto.
  { right. apply own_offsets_in. now apply Hchar. }
  destruct (Hc y Hy) as [<-|HyS]; [now left|right]. apply Hchar. now apply own_offsets_in.
Qed.

(* A reference from a reserved DIE of the first unit to a reachable DIE of ANOTHER unit of the .dwo section
   (`split_foreign`) can only be a .debug_info-form reference (DW_FORM_ref_addr, DW_OP_call_ref,
   DW_OP_implicit_pointer, DW_OP_GNU_variable_value); its conversion fails with InvalidDebugInfoRef - the error the
   unfiltered ConvertUnit::convert_split reports for it - and the strict split conversion does not succeed, in
   both build modes: no write::Dwarf holding a reference to a DIE that is never added is produced. *)
Theorem split_foreign_ref_is_error : forall (dbg : bool) (req : N -> bool) (u0 : unitd) (us : list unitd) S,
  wf_offsets (u0 :: us) -> wf_layout (u0 :: us) ->
  reserved filter_refs dbg req (u0 :: us) = Ok S ->
  forall e par s y, In (e, par) (unit_pairs u0) -> In (sec u0 (e_off e)) S ->
    In s (e_sites e) -> In y (conv_refs u0 s) -> split_foreign u0 S y = true ->
    site_unit_relative s = false /\
    conv_site u0 (root_off u0 :: own_offsets u0 S) s = Err CInvalidDebugInfoRef /\
    forall out, convert_split_filtered filter_refs dbg req (u0 :: us) <> Ok out.
Proof.
  intros dbg req u0 us S Hwf Hlay HS e par s y Hp HeS Hs Hy Hf.
  unfold split_foreign in Hf. apply andb_true_iff in Hf. destruct Hf as [HyS Hout].
  apply negb_true_iff in Hout. fold (in_unit u0 y) in Hout.
  assert (Hocc : occurs (u0 :: us) u0 e par) by (split; [now left|exact Hp]).
  pose proof (occurs_in_unit _ _ _ _ Hlay Hocc) as HeU.
  pose proof (root_in_unit _ _ _ _ Hlay Hocc) as Hroot.
  destruct (foreign_site_fails u0 (root_off u0 :: own_offsets u0 S) s y Hy Hout) as [Hrel Hsite].
  { intros [<-|H]; [congruence|]. apply own_offsets_in in H. destruct H. congruence. }
  split; [exact Hrel|]. split; [exact Hsite|]. intros out Hrun.
  (* an output would list e, and with it y, among the DIEs of u0 *)
  destruct (split_units filter_refs dbg req u0 us Hwf Hlay) as [S' [out' [HS' [_ [Hchar Heq]]]]].
  rewrite HS in HS'. inversion HS'; subst S'. rewrite <- (Heq _ Hrun) in Hchar.
  destruct (split_refs dbg req u0 us out Hwf Hlay Hrun e par s y Hp (proj2 (Hchar _) (conj HeS HeU)) Hs Hy)
    as [->|Hin]; [congruence|].
  apply Hchar in Hin. destruct Hin. congruence.
Qed.

(* two units in the .dwo section, a required variable of the first whose DW_AT_type is a DW_FORM_ref_addr
   reference to a struct of the second.  The strict filtered split conversion reports InvalidDebugInfoRef like the
   unfiltered conversion of the first unit alone; the tolerant loop skips the attribute and emits the variable. *)
Example split_foreign_ex :
  wf_offsets sx_units /\ wf_layout sx_units /\
  reserved filter_refs true (fun x => x =? 21) sx_units = Ok [21; 121; 131] /\
  split_foreign sx_u0 [21; 121; 131] 131 = true /\
  convert_split_filtered filter_refs true (fun x => x =? 21) sx_units = Err CInvalidDebugInfoRef /\
  convert_split_filtered filter_refs false (fun x => x =? 21) sx_units = Err CInvalidDebugInfoRef /\
  convert_split_filtered_tol filter_refs true (fun x => x =? 21) sx_units = Ok [(21, 11)] /\
  convert_all [sx_u0] = Err CInvalidDebugInfoRef.
Proof.
  split; [unfold wf_offsets; cbn; repeat constructor; cbn; intuition discriminate|].
  split.
  { split; [cbn; intuition; subst; cbn; discriminate|].
    intros u e par [[<-|[<-|[]]] Hin]; cbn in Hin;
      repeat (destruct Hin as [H|Hin]; [inversion H; subst; cbn; split; reflexivity|]); destruct Hin. }
  repeat split; vm_compute; reflexivity.
Qed.

(* pins *)
Check worklist_correct : forall d : deps,
  exists l, get_reachable d = Ok l /\ strict_sorted l /\
            forall x, In x l <-> reach (dep_valid d) (dep_edge d) (dep_required d) x.
Check closure : forall (dbg : bool) (req : N -> bool) (units : list unitd),
  wf_offsets units ->
  exists S, reserved filter_refs dbg req units = Ok S /\ strict_sorted S /\
    dependency_closed filter_refs req units (fun x => In x S) /\
    (forall x, In x S -> f_valid units x) /\
    (forall T : N -> Prop, dependency_closed filter_refs req units T -> forall x, In x S -> T x).
Check edges_complete : forall (u : unitd) (s : site), incl (conv_refs u s) (filter_refs u s).
Check same_attributes : forall (dbg : bool) (req : N -> bool) (aunits : list aunit),
  wf_offsets (map unit_of aunits) -> wf_layout (map unit_of aunits) ->
  exists S mF,
    reserved filter_refs dbg req (map unit_of aunits) = Ok S /\
    ids_filtered dbg req (map unit_of aunits) = Ok mF /\
    (forall x, In x (map fst mF) <-> is_root (map unit_of aunits) x \/ In x S) /\
    (forall au e, In au aunits -> In e (aunit_entries au) -> In (sec (unit_of au) (ae_off e)) S ->
       decode_attrs mF (cv_entry_attrs (unit_of au) mF e) =
       decode_attrs (ids_all (map unit_of aunits)) (cv_entry_attrs (unit_of au) (ids_all (map unit_of aunits)) e)) /\
    (forall au e out a id, cv_entry_attrs (unit_of au) mF e = Ok out -> In a out -> In id (ca_refs a) ->
       exists y, im_src id mF = Some y /\ (is_root (map unit_of aunits) y \/ In y S)).
Check bounds_rule_exact : forall (dbg : bool) (u : unitd) (ss : list site) (deps : list N),
  unit_end u <= 2 ^ 64 ->
  push_sites_refs dbg u ss deps = Ok (deps ++ flat_map (filter_refs u) ss).
Check oob_refs_add_nothing : forall (dbg : bool) (req : N -> bool) (units : list unitd),
  wf_offsets units -> wf_layout units ->
  reserved filter_refs dbg req units = reserved own_refs dbg req units.
Check split_single_unit : forall rf (dbg : bool) (req : N -> bool) (u : unitd),
  wf_offsets [u] -> wf_layout [u] ->
  convert_split_filtered rf dbg req [u] = convert_filtered rf dbg req [u].
Check attrs_structure : forall (tol dbg : bool) (req : N -> bool) (aunits : list aunit) m out,
  convert_filtered_attrs tol dbg req aunits = Ok (m, out) ->
  ids_filtered dbg req (map unit_of aunits) = Ok m /\
  convert_filtered_tol filter_refs dbg req (map unit_of aunits) = Ok (map cd_pair out).
Check split_units : forall rf (dbg : bool) (req : N -> bool) (u0 : unitd) (us : list unitd),
  wf_offsets (u0 :: us) -> wf_layout (u0 :: us) ->
  exists S out,
    reserved rf dbg req (u0 :: us) = Ok S /\
    convert_split_filtered_tol rf dbg req (u0 :: us) = Ok out /\
    (forall x, In x (map fst out) <-> In x S /\ in_unit u0 x = true) /\
    (forall out', convert_split_filtered rf dbg req (u0 :: us) = Ok out' -> out' = out).
Check split_refs : forall (dbg : bool) (req : N -> bool) (u0 : unitd) (us : list unitd) out,
  wf_offsets (u0 :: us) -> wf_layout (u0 :: us) ->
  convert_split_filtered filter_refs dbg req (u0 :: us) = Ok out ->
  forall e par s y, In (e, par) (unit_pairs u0) -> In (sec u0 (e_off e)) (map fst out) ->
    In s (e_sites e) -> In y (conv_refs u0 s) ->
    y = root_off u0 \/ In y (map fst out).
