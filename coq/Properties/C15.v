(* Properties/C15.v — Written expressions decode to the same operations, branches and references.
   Statements, each derived in a few lines from the lemmas of Proofs/OpWr*.v, OpRoundtrip, OpEvalSim, OpEvalSame,
   and non-vacuity examples.

   Objects: Model/OpWr.v mirrors src/write/op.rs (Operation::{size,write}, Expression::{size,write}, the op_*
   builders), the UnitOffsets look-ups and fix-ups of src/write/unit.rs and the three length-prefixed embeddings
   (unit.rs Exprloc, loc.rs write_expression, cfi.rs *Expression). Spec/OpEncSpec.v is an independent table
   opcode -> operand layout -> meaning, used for the decode direction. Every statement is for both build modes
   (dbg = debug assertions + overflow checks on / off) and for every encoding (any version, format, address size,
   byte order), every unit-offset table and every operation list unless a hypothesis says otherwise.

   Hypotheses that recur:
     blen bs < 2^64 / base + blen bs < 2^63   the emitted bytes fit the address space (usize / i64 arithmetic);
     wf_op                                     operands are values of the Rust types (u64, i64, u16, u8, u32);
     decodable                                 no Raw bytecode, Expression::op only with operand-less opcodes,
                                               DW_OP_piece sizes whose bit count fits u64 (the reader's limit).
   Not a theorem here: the stack-depth behaviour of the recursion (known finding, stream c15.nest). *)
From Coq Require Import List NArith ZArith Bool Lia ZifyBool.
From Coq.Strings Require Import Byte.
Require Import GV.Base.Res GV.Base.Byt GV.Base.Ints GV.Model.Leb GV.Model.Prim.
Require Import GV.Spec.OpEncSpec GV.Model.OpWr.
Require Import GV.Proofs.OpWrProofs GV.Proofs.OpWrDec GV.Proofs.OpWrTotal.
Require GV.Model.OpDec GV.Model.OpVal GV.Model.OpEval GV.Spec.StackSpec GV.Proofs.OpRoundtrip GV.Proofs.OpEvalSim GV.Proofs.OpParseWf GV.Proofs.OpEvalSame.
Import ListNotations.
Local Open Scope N_scope.

(* ------------------------------------------------------------------ (1) size() and write() agree *)

(* For EVERY Operation variant: whatever Operation::write emits, Operation::size predicted exactly that many
   bytes (the two parallel `match`es agree; ULEB/SLEB sizes are the lengths of the emitted LEBs; nested
   entry_value and Raw included). *)
Theorem op_size_write : forall dbg e uo refs (o : wop) offsets pos bs fx,
  write_op dbg e uo refs offsets pos o = Ok (bs, fx) ->
  blen bs < 2 ^ 64 ->
  size_op dbg e uo o = Ok (blen bs).
Proof. exact op_size_write_all. Qed.

(* (2) Expression::size = number of bytes Expression::write emits. *)
Theorem expr_size : forall dbg e uo refs base (ex : wexpr) bs fx,
  write_expr dbg e uo refs base ex = Ok (bs, fx) ->
  blen bs < 2 ^ 64 ->
  size_expr dbg e uo ex = Ok (blen bs).
Proof. exact expr_size_write. Qed.

(* The offsets vector Expression::write computes from the sizes is exactly the list of positions at which the
   operations then start (so its debug_assert_eq!s hold), ending with the end position. *)
Theorem offsets_exact : forall dbg e uo refs base ex bs fx,
  write_expr dbg e uo refs base ex = Ok (bs, fx) ->
  base + blen bs < 2 ^ 64 ->
  exists offsets,
    expr_offsets dbg e uo base ex = Ok offsets /\
    laid (write_op dbg e uo refs offsets) base ex offsets bs fx.
Proof. exact write_expr_laid. Qed.

(* The size computed while DIE offsets are still being assigned (calculate_offsets sees only the entries laid
   out so far) is the size seen when writing with the complete table. *)
Theorem size_mono : forall dbg e u1 u2 ex n,
  extends u1 u2 -> size_expr dbg e (Some u1) ex = Ok n -> size_expr dbg e (Some u2) ex = Ok n.
Proof. exact size_expr_mono. Qed.

(* The three embeddings: the length prefix, read back (ULEB; u16 in .debug_loc), is the emitted length. *)
Theorem exprloc_prefix : forall dbg e uo base ex bs fx rest,
  write_exprloc dbg e uo base ex = Ok (bs, fx) -> blen bs < 2 ^ 64 ->
  exists p body,
    bs = p ++ body /\
    write_expr dbg e uo true (base + blen p) ex = Ok (body, fx) /\
    rd_uleb (p ++ rest) = Some (blen body, rest) /\
    exprloc_size dbg e uo ex = Ok (blen bs).
Proof.
  intros dbg e uo base ex bs fx rest H Hlt.
  destruct (prefixed_expr_inv _ _ _ _ write_uleb128 _ _ _ _ H Hlt) as (p & body & -> & Hw & Hp & Hs).
  exists p, body. rewrite blen_app in *. repeat split; trivial.
  - apply rd_uleb_written; [exact Hp|lia].
  - unfold exprloc_size. rewrite Hs. cbn [bind]. rewrite <- (write_uleb128_len _ _ Hp). apply uadd_ok. lia.
Qed.

Theorem loc_prefix : forall dbg e uo base ex bs fx rest,
  write_loc_expression dbg e uo base ex = Ok (bs, fx) -> blen bs < 2 ^ 64 ->
  exists p body,
    bs = p ++ body /\
    write_expr dbg e uo true (base + blen p) ex = Ok (body, fx) /\
    (if e_version e <=? 4 then rd_fixed (e_be e) 2 (p ++ rest) = Some (blen body, rest) /\ blen body < 65536
     else rd_uleb (p ++ rest) = Some (blen body, rest)).
Proof.
  intros dbg e uo base ex bs fx rest H Hlt.
  destruct (prefixed_expr_inv _ _ _ _ (fun size => if e_version e <=? 4 then write_udata (e_be e) size 2 else write_uleb128 size)
              _ _ _ _ H Hlt) as (p & body & -> & Hw & Hp & _).
  exists p, body. rewrite blen_app in Hlt. split; [reflexivity|]. split; [exact Hw|].
  destruct (e_version e <=? 4); [|apply rd_uleb_written; [exact Hp|lia]].
  split; [apply (rd_fixed_written (e_be e) _ 2); [lia|exact Hp]|].
  unfold write_udata in Hp. cbn [N.eqb Pos.eqb] in Hp. destruct (blen body <? two16) eqn:E; [unfold two16 in E; lia|discriminate].
Qed.

Theorem cfi_prefix : forall dbg e base ex bs fx rest,
  write_cfi_expression dbg e base ex = Ok (bs, fx) -> blen bs < 2 ^ 64 ->
  exists p body,
    bs = p ++ body /\
    write_expr dbg e None false (base + blen p) ex = Ok (body, fx) /\
    rd_uleb (p ++ rest) = Some (blen body, rest).
Proof.
  intros dbg e base ex bs fx rest H Hlt.
  destruct (prefixed_expr_inv _ _ _ _ write_uleb128 _ _ _ _ H Hlt) as (p & body & -> & Hw & Hp & _).
  exists p, body. rewrite blen_app in Hlt. repeat split; trivial. apply rd_uleb_written; [exact Hp|lia].
Qed.

(* ------------------------------------------------------------------ (3) what was written decodes to what was built *)

(* One operation: its bytes, followed by anything, decode (by the independent table) to one operation in the
   normal form of the operation built — lit0..31 for small constu, reg0..31 / breg0..31 for small registers,
   dup / over for pick 0 / 1, DW_OP_* for version >= 5 and DW_OP_GNU_* below, address-sized implicit_pointer
   reference in version 2, address-size deref, the unit offset of the entry for typed operations — consuming
   exactly those bytes. *)
Theorem decode_written_one : forall dbg e uo refs offsets pos o bs fx rest,
  wf_op o = true -> wf_uoffs uo = true -> decodable o = true ->
  pos + blen bs < 2 ^ 63 -> Forall (fun x => x < 2 ^ 63) offsets ->
  write_op dbg e uo refs offsets pos o = Ok (bs, fx) ->
  exists d, decode_one (dcfg_of e) (bs ++ rest) = Some (d, rest) /\
            normal_form dbg e uo refs offsets pos o bs d.
Proof. exact decode_written_op. Qed.

(* The whole expression decodes to as many operations as were built, the k-th at the offset the k-th was
   written at and in the normal form of the k-th. (normal_form of an entry_value says its block is the written
   inner expression, to which this theorem applies again.) *)
Theorem decode_written : forall dbg e uo refs base ex bs fx,
  forallb wf_op ex = true -> wf_uoffs uo = true -> forallb decodable ex = true ->
  base + blen bs < 2 ^ 63 ->
  write_expr dbg e uo refs base ex = Ok (bs, fx) ->
  exists offsets dl,
    expr_offsets dbg e uo base ex = Ok offsets /\
    decode (dcfg_of e) bs = Some dl /\
    decoded (fun p o d => exists b, normal_form dbg e uo refs offsets p o b d) base ex offsets dl.
Proof. exact decode_written_expr. Qed.

(* ------------------------------------------------------------------ (4) branches *)

(* Every DW_OP_skip / DW_OP_bra decodes with a displacement that, added to the offset just after the 3-byte
   operation, gives the offset at which the target operation starts (the end of the expression for target =
   number of operations). *)
Theorem branches_land : forall dbg e uo refs base ex bs fx,
  forallb wf_op ex = true -> wf_uoffs uo = true -> forallb decodable ex = true ->
  base + blen bs < 2 ^ 63 ->
  write_expr dbg e uo refs base ex = Ok (bs, fx) ->
  exists dl,
    decode (dcfg_of e) bs = Some dl /\ length dl = length ex /\
    (forall k t, nth_error ex k = Some (WoSkip t) ->
       exists off disp tgt, nth_error dl k = Some (off, DoSkip disp) /\
                            nth_error (starts dl bs) (N.to_nat t) = Some tgt /\
                            (Z.of_N off + 3 + disp = Z.of_N tgt)%Z) /\
    (forall k t, nth_error ex k = Some (WoBranch t) ->
       exists off disp tgt, nth_error dl k = Some (off, DoBra disp) /\
                            nth_error (starts dl bs) (N.to_nat t) = Some tgt /\
                            (Z.of_N off + 3 + disp = Z.of_N tgt)%Z).
Proof.
  intros dbg e uo refs base ex bs fx Hwf Huo Hdec Hpos H.
  destruct (decode_written_starts _ _ _ _ _ _ _ _ Hwf Huo Hdec Hpos H) as (offsets & dl & Hd & Hdd & Hst & Hge).
  exists dl. split; [exact Hd|]. split; [apply (decoded_len _ _ _ _ _ Hdd)|].
  (* both branch operations: normal_form gives the displacement to offsets[t]; offsets relative to base are starts *)
  assert (Hbr : forall k t o (mk : Z -> dop), nth_error ex k = Some o ->
            (forall p b d, normal_form dbg e uo refs offsets p o b d ->
               exists tv disp, nth_N offsets t = Some tv /\ (Z.of_N p + 3 + disp = Z.of_N tv)%Z /\ d = mk disp) ->
            exists off disp tgt, nth_error dl k = Some (off, mk disp) /\
              nth_error (starts dl bs) (N.to_nat t) = Some tgt /\ (Z.of_N off + 3 + disp = Z.of_N tgt)%Z).
  { intros k t o mk Hk Hnf. destruct (decoded_nth _ _ _ _ _ Hdd _ _ Hk) as (p & d & Hp & Hdk & b & Hn).
    destruct (Hnf _ _ _ Hn) as (tv & disp & Htv & Heq & ->). rewrite Forall_forall in Hge.
    assert (base <= p) by (apply Hge; eapply nth_error_In; eauto).
    assert (base <= tv) by (apply Hge; eapply nth_N_In; eauto).
    exists (p - base), disp, (tv - base). split; [exact Hdk|]. split; [|lia].
    rewrite Hst, nth_error_map, <- nth_N_nth_error, Htv. reflexivity. }
  split; intros k t Hk; apply (Hbr k t _ _ Hk); intros p b d Hn; exact Hn.
Qed.

(* Exact behaviour of the two branch arms: the displacement is target position minus the position after the
   operation; if it does not fit i16 the result is Err ValueTooLarge (never a wrapped displacement); a target
   index beyond the offsets vector is a panic (`offsets[target]`; see unset_target_panics). *)
Theorem branch_write_exact : forall dbg e uo refs offsets pos t,
  pos + 3 < 2 ^ 63 -> Forall (fun x => x < 2 ^ 63) offsets ->
  let result (opc : N) :=
    match nth_N offsets t with
    | None => Panic
    | Some tv =>
        let d := (Z.of_N tv - (Z.of_N pos + 3))%Z in
        if in_signed 16 d then Ok (n2b opc :: enc_un 2 (e_be e) (of_signed 16 d), [])
        else Err WValueTooLarge
    end in
  write_op dbg e uo refs offsets pos (WoSkip t) = result 47 /\
  write_op dbg e uo refs offsets pos (WoBranch t) = result 40.
Proof. exact branch_write_spec. Qed.

(* ------------------------------------------------------------------ (5) references to entries *)

(* Where a unit offset comes from: no table (CFI) and a not-yet-assigned entry are the two specific errors.
   An id beyond the entries vector — reserved and never added — is "not assigned" too: since gimli fix c42c00d
   UnitOffsets::debug_info_offset answers None for it (`self.entries.get(index)?`), so it is the
   forward-reference error, not a panic. *)
Theorem entry_offset_exact : forall dbg uo en,
  entry_offset dbg uo en =
  match uo with
  | None => Err WUnsupportedCfiExpressionReference
  | Some u =>
      match nth_N (uo_entries u) en with
      | None => Err WUnsupportedExpressionForwardReference
      | Some off =>
          if off =? 0 then Err WUnsupportedExpressionForwardReference
          else chk_sub 64 dbg off (uo_unit u)
      end
  end.
Proof. exact entry_offset_cases. Qed.

(* Typed operations, call and parameter_ref embed the target's unit offset (normal_form above); without it both
   passes fail with that error — except that size() of call/parameter_ref does not look (fixed 4 bytes). *)
Theorem refs_need_offset : forall dbg e uo refs offsets pos o en er,
  uses_entry o = Some en -> wf_op o = true ->
  entry_offset dbg uo en = Err er ->
  write_op dbg e uo refs offsets pos o = Err er /\
  match o with
  | WoCall _ | WoParameterRef _ => True
  | _ => size_op dbg e uo o = Err er
  end.
Proof. exact typed_ref_needs_offset. Qed.

(* call_ref / variable_value / implicit_pointer write a zero placeholder of the reference size and push exactly
   one fix-up pointing at it; symbols (plain writer) and a missing fix-up list (CFI) are InvalidReference. *)
Theorem ref_fixup : forall dbg e uo refs offsets pos o r size,
  ref_operand e o = Some (r, size) ->
  match r with
  | RSym _ => write_op dbg e uo refs offsets pos o = Err WInvalidReference
  | REntry u en =>
      if refs then
        forall bs fx, write_op dbg e uo refs offsets pos o = Ok (bs, fx) ->
          fx = [{| fx_offset := pos + 1; fx_size := size; fx_unit := u; fx_entry := en |}] /\
          exists opc z tail, bs = opc :: z ++ tail /\ write_udata (e_be e) 0 size = Ok z
      else write_op dbg e uo refs offsets pos o = Err WInvalidReference
  end.
Proof. exact ref_write_spec. Qed.

(* Applying a fix-up puts the target's .debug_info offset, in the reference size, at the placeholder and
   changes nothing before it or after it. *)
Theorem fixup_resolved : forall be units sec_base buf f buf' u off,
  apply_fixups be units sec_base buf [f] = Ok buf' ->
  nth_N units (fx_unit f) = Some u -> debug_info_offset u (fx_entry f) = Ok (Some off) -> off < 2 ^ 64 ->
  let at_ := N.to_nat (fx_offset f - sec_base) in
  length buf' = length buf /\
  firstn at_ buf' = firstn at_ buf /\
  exists tail, skipn at_ buf' = tail /\
    rd_sized be (fx_size f) tail = Some (off, skipn (at_ + N.to_nat (fx_size f)) buf).
Proof.
  intros be units sec_base buf f buf' u off H Hu Ho Hoff. cbv zeta. cbn [apply_fixups] in H. rewrite Hu, Ho in H. cbn [bind] in H.
  apply bind_ok in H as (w & Hw & H). apply bind_ok in H as (b1 & Hb & H). injection H as ->.
  unfold write_at in Hb.
  destruct (blen buf <? fx_offset f - sec_base) eqn:E1; [discriminate|].
  destruct (blen buf - (fx_offset f - sec_base) <? blen w) eqn:E2; [discriminate|]. injection Hb as <-.
  pose proof (write_udata_len _ _ _ _ Hw) as Hl. unfold blen in *.
  assert (Hfit : (N.to_nat (fx_offset f - sec_base) + length w <= length buf)%nat) by lia.
  split; [apply overwrite_length; exact Hfit|]. split; [apply overwrite_firstn|].
  eexists. split; [reflexivity|]. rewrite overwrite_skipn by exact Hfit.
  rewrite (rd_sized_written be off (fx_size f) w _ Hoff Hw). repeat f_equal. lia.
Qed.

(* ------------------------------------------------------------------ (6) no panic *)

(* On values of the Rust types, with every branch target naming an operation of its own (sub)expression or its
   end, every looked-up entry inside the unit-offset table, and an expression smaller than 2^63 bytes by the
   crude count `weights` (300 per operation + blobs + nested), neither Expression::size nor Expression::write
   panics, in either build mode: no usize/i64 overflow, no index out of range, and the three debug_assert_eq!s
   of Expression::write hold. (Real stack depth is outside the model: known finding, stream c15.nest.) *)
Theorem no_panic : forall dbg e uo refs base ex,
  wf_enc e = true -> wf_uoffs uo = true ->
  forallb wf_op ex = true -> targets_ok ex = true -> lookups_ok dbg uo (flat_map op_entries ex) ->
  base + weights ex < 2 ^ 63 ->
  np (size_expr dbg e uo ex) /\ np (write_expr dbg e uo refs base ex).
Proof.
  intros dbg e uo refs base ex He Huo Hwf Htg Hlk Hb. split.
  - apply (size_good_np _ (weights ex)), size_expr_good; [assumption..|lia].
  - apply write_expr_with_np; try assumption. apply Forall_forall. intros o _. apply write_op_np; assumption.
Qed.

(* The target hypothesis is needed: a branch whose target index is not in the offsets vector — in particular
   one whose set_target was never called (target = usize::MAX) — panics in write, in both build modes. *)
Theorem unset_target_panics : forall dbg e uo refs offsets pos t,
  N.of_nat (length offsets) <= t ->
  write_op dbg e uo refs offsets pos (WoSkip t) = Panic /\ write_op dbg e uo refs offsets pos (WoBranch t) = Panic.
Proof.
  intros dbg e uo refs offsets pos t Ht. cbn [write_op]. unfold only, branch_operand.
  replace (nth_N offsets t) with (@None N); [split; reflexivity|].
  rewrite nth_N_nth_error. symmetry. apply nth_error_None. lia.
Qed.

(* ------------------------------------------------------------------ non-vacuity *)

Definition enc4 : enc := {| e_version := 4; e_fmt64 := false; e_asize := 8; e_be := false |}.
Definition enc5 : enc := {| e_version := 5; e_fmt64 := true; e_asize := 4; e_be := true |}.
(* entries 0 (root), 1, 2 have offsets, entry 3 has none yet; the unit starts at section offset 17 *)
Definition tbl : uoffs := {| uo_unit := 17; uo_entries := [28; 29; 31; 0] |}.

(* constu 5 (lit5); skip -> op 4; bregx 40,-8; entry_value { reg5; bra -> its op 0 }; pick 2; deref_type 4, entry 2 *)
Definition ex1 : wexpr :=
  [WoUConst 5; WoSkip 4; WoRegOffset 40 (-8); WoEntryValue [WoRegister 5; WoBranch 0]; WoPick 2; WoDerefType false 4 2].

Example ex1_written :
  write_expr true enc4 (Some tbl) true 100 ex1 =
  Ok ([x35; x2f; x09; x00; x92; x28; x78; xf3; x04; x55; x28; xfc; xff; x15; x02; xf6; x04; x0e], []).
Proof. vm_compute. reflexivity. Qed.

Example ex1_size : size_expr true enc4 (Some tbl) ex1 = Ok 18.
Proof. vm_compute. reflexivity. Qed.

Example ex1_hyps :
  forallb wf_op ex1 = true /\ forallb decodable ex1 = true /\ wf_uoffs (Some tbl) = true /\ wf_enc enc4 = true /\
  targets_ok ex1 = true /\ 100 + weights ex1 < 2 ^ 63.
Proof. vm_compute. repeat split; reflexivity. Qed.

Example ex1_lookups : lookups_ok true (Some tbl) (flat_map op_entries ex1).
Proof. apply lookups_ok_table. intros en [<-|[]]. exists 31. split; [reflexivity|right; vm_compute; discriminate]. Qed.

(* the table's view of those bytes: skip +9 from offset 4 (the end of the skip) lands on offset 13 = start of the fifth operation *)
Example ex1_decoded :
  decode (dcfg_of enc4) [x35; x2f; x09; x00; x92; x28; x78; xf3; x04; x55; x28; xfc; xff; x15; x02; xf6; x04; x0e] =
  Some [(0, DoUConst 5); (1, DoSkip 9); (4, DoRegOffset 40 (-8) 0); (7, DoEntryValue [x55; x28; xfc; xff]);
        (13, DoPick 2); (15, DoDeref 14 4 false)].
Proof. vm_compute. reflexivity. Qed.

(* version 5, big endian, 64-bit format: DW_OP_ forms, 8-byte call_ref placeholder with its fix-up *)
Example ex2_written :
  write_expr false enc5 (Some tbl) true 0 [WoCallRef (REntry 0 2); WoConstType 1 [x01; x02]] =
  Ok ([x9a; x00; x00; x00; x00; x00; x00; x00; x00; xa4; x0c; x02; x01; x02],
      [{| fx_offset := 1; fx_size := 8; fx_unit := 0; fx_entry := 2 |}]).
Proof. vm_compute. reflexivity. Qed.

(* the errors of (5) and (4) are reachable *)
Example forward_ref : write_expr true enc4 (Some tbl) true 0 [WoDerefType false 4 3] = Err WUnsupportedExpressionForwardReference.
Proof. vm_compute. reflexivity. Qed.
Example forward_ref_size : size_expr true enc4 (Some tbl) [WoDerefType false 4 3] = Err WUnsupportedExpressionForwardReference.
Proof. vm_compute. reflexivity. Qed.
Example beyond_vector_ref :
  write_expr true enc4 (Some tbl) true 0 [WoDerefType false 4 9] = Err WUnsupportedExpressionForwardReference /\
  size_expr false enc4 (Some tbl) [WoDerefType false 4 9] = Err WUnsupportedExpressionForwardReference /\
  write_expr false enc4 (Some tbl) true 0 [WoCall 9] = Err WUnsupportedExpressionForwardReference /\
  apply_fixups false [tbl] 0 [x00; x00; x00; x00] [{| fx_offset := 0; fx_size := 4; fx_unit := 0; fx_entry := 9 |}] = Err WInvalidReference.
Proof. vm_compute. repeat split; reflexivity. Qed.
Example cfi_ref : write_expr true enc4 None false 0 [WoCall 1] = Err WUnsupportedCfiExpressionReference.
Proof. vm_compute. reflexivity. Qed.
Example sym_ref : write_expr true enc4 (Some tbl) true 0 [WoVarValue (RSym 1)] = Err WInvalidReference.
Proof. vm_compute. reflexivity. Qed.
Example unset_target : write_expr false enc4 None false 0 [WoSkip usize_max; WoUConst 1] = Panic.
Proof. vm_compute. reflexivity. Qed.
Example tbl_extends : extends tbl {| uo_unit := 17; uo_entries := [28; 29; 31; 40] |}.
Proof.
  split; [reflexivity|]. intros en off H Hne. rewrite nth_N_nth_error in *. cbn [uo_entries] in *.
  destruct (N.to_nat en) as [|[|[|[|k]]]]; cbn [nth_error] in *;
    try (inversion H; subst; reflexivity); try (inversion H; subst; congruence).
  all: try (destruct k; discriminate).
Qed.

(* the embeddings succeed on ex1 and their hypotheses are met *)
Example ex1_exprloc : exists bs fx, write_exprloc true enc4 (Some tbl) 100 ex1 = Ok (bs, fx) /\ blen bs = 19.
Proof. eexists. eexists. split; vm_compute; reflexivity. Qed.
Example ex1_loc : exists bs fx, write_loc_expression true enc4 (Some tbl) 18 ex1 = Ok (bs, fx) /\ blen bs = 20.
Proof. eexists. eexists. split; vm_compute; reflexivity. Qed.
Example ex1_cfi : exists bs fx,
  write_cfi_expression false enc4 64 [WoRegOffset 7 8; WoDeref false; WoSkip 3] = Ok (bs, fx) /\ blen bs = 7.
Proof. eexists. eexists. split; vm_compute; reflexivity. Qed.

(* the fix-up of ex2 resolved against a table in which entry 2 of unit 0 sits at .debug_info offset 31 *)
Example ex2_fixed_up :
  apply_fixups true [tbl] 0 [x9a; x00; x00; x00; x00; x00; x00; x00; x00; xa4; x0c; x02; x01; x02]
               [{| fx_offset := 1; fx_size := 8; fx_unit := 0; fx_entry := 2 |}] =
  Ok [x9a; x00; x00; x00; x00; x00; x00; x00; x1f; xa4; x0c; x02; x01; x02].
Proof. vm_compute. reflexivity. Qed.

(* a displacement that does not fit i16 *)
Example far_branch :
  write_op true enc4 None false [0; 3; 40003] 0 (WoSkip 2) = Err WValueTooLarge.
Proof. vm_compute. reflexivity. Qed.

(* ------------------------------------------------------------------ composition with the reader / evaluator models (C07) *)

(* The independent table of Spec/OpEncSpec.v and the reader model OpDec.parse_op (mirror of read::Operation::parse)
   agree on every opcode and every operand byte string: whatever the table decodes, the reader decodes to the
   corresponding operation (OpRoundtrip.tr) and leaves the same rest, in either build mode. *)
Theorem table_agrees_with_reader : forall (rdbg : bool) (c : dcfg) (bs : list byte) (d : dop) (rest : list byte),
  decode_one c bs = Some (d, rest) ->
  exists o, OpRoundtrip.tr d = Some o /\ OpDec.parse_op rdbg (OpRoundtrip.renc c) bs = Ok (o, rest).
Proof. exact OpRoundtrip.table_agrees_with_reader. Qed.

(* (a) Iterating the reader over what write::Expression emitted ends normally (no error, no leftover) and yields,
   in order, exactly the reader's forms of the normal forms of the built operations. *)
Theorem decode_written_by_reader : forall dbg rdbg e uo refs base ex bs fx,
  forallb wf_op ex = true -> wf_uoffs uo = true -> forallb decodable ex = true ->
  base + blen bs < 2 ^ 63 ->
  write_expr dbg e uo refs base ex = Ok (bs, fx) ->
  exists offsets dl ros,
    expr_offsets dbg e uo base ex = Ok offsets /\
    decoded (fun p o d => exists b, normal_form dbg e uo refs offsets p o b d) base ex offsets dl /\
    OpDec.operations rdbg (OpRoundtrip.renc (dcfg_of e)) bs = (ros, None) /\
    map (fun x => OpRoundtrip.tr (snd x)) dl = map Some ros.
Proof. exact OpRoundtrip.decode_written_by_reader_lemma. Qed.

(* (b) Every written DW_OP_skip (is_skip = true) / DW_OP_bra: the reader parses its three bytes to Skip/Bra disp, and
   the evaluator's compute_pc, standing just after them in the written bytecode, moves the pc to post_t: the
   written bytes minus pre_t, where pre_t is exactly the emission of the first t operations. The branch lands on
   the first byte of operation t (or on the end for t = number of operations). *)
Theorem branches_land_reader : forall (is_skip : bool) dbg rdbg e uo refs base ex bs fx,
  base + blen bs < 2 ^ 63 ->
  write_expr dbg e uo refs base ex = Ok (bs, fx) ->
  forall k t, nth_error ex k = Some (if is_skip then WoSkip t else WoBranch t) ->
  exists pre_k b post_k disp pre_t post_t offsets offs' fx',
    bs = pre_k ++ b ++ post_k /\ length b = 3%nat /\
    OpDec.parse_op rdbg (OpRoundtrip.renc (dcfg_of e)) (b ++ post_k) =
      Ok ((if is_skip then OpDec.OSkip disp else OpDec.OBra disp), post_k) /\
    bs = pre_t ++ post_t /\
    expr_offsets dbg e uo base ex = Ok offsets /\
    laid (write_op dbg e uo refs offsets) base (firstn (N.to_nat t) ex) offs' pre_t fx' /\
    forall s, OpEval.s_bytecode s = bs -> OpEval.s_pc s = post_k -> OpEval.compute_pc s disp = Ok post_t.
Proof.
  intros is_skip. destruct is_skip;
    [apply (OpRoundtrip.branch_lands_gen WoSkip OpDec.OSkip)|apply (OpRoundtrip.branch_lands_gen WoBranch OpDec.OBra)]; auto.
Qed.

Example ex1_by_reader :
  OpDec.operations true (OpRoundtrip.renc (dcfg_of enc4))
    [x35; x2f; x09; x00; x92; x28; x78; xf3; x04; x55; x28; xfc; xff; x15; x02; xf6; x04; x0e] =
  ([OpDec.OUnsignedConstant 5; OpDec.OSkip 9; OpDec.ORegisterOffset 40 (-8) 0; OpDec.OEntryValue [x55; x28; xfc; xff];
    OpDec.OPick 2; OpDec.ODeref 14 4 false], None).
Proof. vm_compute. reflexivity. Qed.

(* The evaluator model does not see the layout of a program: two bytecodes P1, P2 that decode, at corresponding
   boundaries `pts`, to the same operations with Skip/Bra displacements reaching corresponding boundaries
   (OpEvalSim.layout_ok) give the same conversation: same requests, same final pieces / value / counters or the
   same error, for every fops, fuel, build mode, configuration (with that encoding) and answer list. *)
Theorem eval_layout_independent : forall (F : OpVal.fops) (e' : OpDec.enc) (P1 P2 : list byte) (pts : list (nat * nat)),
  OpEvalSim.layout_ok e' P1 P2 pts ->
  forall fuel dbg c answers, OpEval.c_enc c = e' ->
    OpEval.run F fuel dbg c P1 answers = OpEval.run F fuel dbg c P2 answers.
Proof. exact OpEvalSim.run_layout_independent. Qed.

(* (c) eval_same: for every expression decode_written covers, evaluating the bytes write::Expression emitted gives
   the same conversation as evaluating the canonical encoding (StackSpec.enc_op: DWARF 5 opcodes, constu/regx/bregx/
   pick/deref_size instead of the short forms, minimal LEB128) of the operations the reader sees in them, with every
   branch re-aimed at the canonical encoding's own boundary of the same target operation (OpEvalSame.canon_ops).
   The only side conditions left concern the canonical program and are decidable per instance: canon_ops succeeds
   (every branch reaches a boundary — true by branches_land — and the re-computed displacements still fit i16, which
   the longer canonical forms can break) and it is shorter than 2^63 bytes. Its operations are automatically values
   of gimli's Operation type (OpParseWf.parse_wf: whatever the reader decodes is StackSpec.wf_op, every opcode). *)
Theorem eval_same : forall dbg0 e uo refs base ex bs fx,
  wf_enc e = true ->
  forallb wf_op ex = true -> wf_uoffs uo = true -> forallb decodable ex = true ->
  base + blen bs < 2 ^ 63 ->
  write_expr dbg0 e uo refs base ex = Ok (bs, fx) ->
  exists dl ros1,
    decode (dcfg_of e) bs = Some dl /\
    OpDec.operations true (OpRoundtrip.renc (dcfg_of e)) bs = (ros1, None) /\
    map (fun x => OpRoundtrip.tr (snd x)) dl = map Some ros1 /\
    forall ops2,
      OpEvalSame.canon_ops (OpRoundtrip.renc (dcfg_of e)) dl bs ros1 = Some ops2 ->
      N.of_nat (length (OpEvalSame.canon_bytes (OpRoundtrip.renc (dcfg_of e)) ops2)) < 2 ^ 63 ->
      forall F fuel dbg c answers, OpEval.c_enc c = OpRoundtrip.renc (dcfg_of e) ->
        OpEval.run F fuel dbg c bs answers =
        OpEval.run F fuel dbg c (OpEvalSame.canon_bytes (OpRoundtrip.renc (dcfg_of e)) ops2) answers.
Proof.
  intros dbg0 e uo refs base ex bs fx He Hwf Huo Hd Hpos H.
  destruct (OpEvalSame.eval_same_lemma _ _ _ _ _ _ _ _ Hwf Huo Hd Hpos H) as (dl & ros1 & E1 & E2 & E3 & E4).
  exists dl, ros1. split; [exact E1|]. split; [exact E2|]. split; [exact E3|].
  intros ops2 Hc Hl. apply E4; [|exact Hl|apply OpEvalSame.canon_ops_retargeted; exact Hc].
  eapply OpEvalSame.canon_ops_wf; [|exact E2|exact Hc]. exact (wf_enc_asize e He).
Qed.

(* Whatever the reader model decodes is a value of gimli's Operation type (field widths, registers below 2^16, piece
   sizes whole bytes, ...) — every opcode; so decode_roundtrip (Properties/C07.v) applies to every decoded operation. *)
Theorem reader_output_wf : forall dbg e' bs o r,
  OpDec.e_asz e' < 256 -> OpDec.parse_op dbg e' bs = Ok (o, r) -> StackSpec.wf_op e' o.
Proof. exact OpParseWf.parse_wf. Qed.

(* ex1: its canonical re-encoding exists (skip +9 stays +9: 5+9 = 14 = canonical start of pick), is well-formed,
   and is a different byte string *)
Definition ex1_bytes : list byte := [x35; x2f; x09; x00; x92; x28; x78; xf3; x04; x55; x28; xfc; xff; x15; x02; xf6; x04; x0e].
Definition ex1_ros : list OpDec.operation :=
  [OpDec.OUnsignedConstant 5; OpDec.OSkip 9; OpDec.ORegisterOffset 40 (-8) 0; OpDec.OEntryValue [x55; x28; xfc; xff];
   OpDec.OPick 2; OpDec.ODeref 14 4 false].
Example ex1_canon :
  OpEvalSame.canon_ops (OpRoundtrip.renc (dcfg_of enc4))
    [(0, DoUConst 5); (1, DoSkip 9); (4, DoRegOffset 40 (-8) 0); (7, DoEntryValue [x55; x28; xfc; xff]);
     (13, DoPick 2); (15, DoDeref 14 4 false)] ex1_bytes ex1_ros = Some ex1_ros /\
  OpEvalSame.canon_bytes (OpRoundtrip.renc (dcfg_of enc4)) ex1_ros =
    [x10; x05; x2f; x09; x00; x92; x28; x78; xa3; x04; x55; x28; xfc; xff; x15; x02; xa6; x04; x0e] /\
  Forall (StackSpec.wf_op (OpRoundtrip.renc (dcfg_of enc4))) ex1_ros.
Proof.
  split; [vm_compute; reflexivity|]. split; [vm_compute; reflexivity|].
  repeat constructor; try (vm_compute; reflexivity); try (intros H; now elim H).
Qed.

(* ================================================================ GLUE with C11 / C16 (Model/UnitGlueWr.v, stream c11.glue)
   Where the fix-ups of an expression end up once the expression is embedded by the unit writer (DW_FORM_exprloc
   attribute) or by the location-list writer (loc.rs write_expression).  Compositions of the theorems above with C11 /
   C16 (Proofs/WriterGlueProofs.v); the unit-level statements are in Properties/C11.v (exprloc_attr_roundtrip,
   glue_offsets_exact), the list-level ones in Properties/C16.v. *)
Require GV.Spec.UnitWrSpec GV.Model.UnitWr GV.Model.UnitGlueWr GV.Model.ListsWr GV.Spec.ListWrSpec GV.Proofs.WriterGlueProofs.

(* ref_fixup along a laid-out expression: the k-th operation, if it is call_ref / variable_value / implicit_pointer
   naming entry (u, en), starts at offsets[k] and ITS fix-up — unit u, entry en, the reference size of that operation —
   points at offsets[k] + 1, the first byte of the operand.  With `laid` started at (attribute position + prefix
   length) resp. (list offset + entry offset + entry head + prefix length) this is the position inside the section. *)
Theorem ref_fixups_at_operands : forall dbg e uo offsets ex pos offs bs fx,
  laid (write_op dbg e uo true offsets) pos ex offs bs fx ->
  forall k o u en size, nth_error ex k = Some o -> ref_operand e o = Some (REntry u en, size) ->
  exists p, nth_error offs k = Some p /\
            In {| fx_offset := p + 1; fx_size := size; fx_unit := u; fx_entry := en |} fx.
Proof.
  intros dbg e uo offsets. induction 1 as [pos|pos o r offs b f bs fx Hw Hl IH]; intros k o' u en size Hk Hr.
  - destruct k; discriminate.
  - destruct k as [|k]; cbn [nth_error] in Hk |- *.
    + injection Hk as <-. exists pos. split; [reflexivity|].
      pose proof (ref_fixup dbg e uo true offsets pos o (REntry u en) size Hr) as S. cbn beta iota in S.
      destruct (S b f Hw) as [-> _]. apply in_or_app. left. left. reflexivity.
    + destruct (IH k o' u en size Hk Hr) as [p [Hp Hin]]. exists p. split; [exact Hp|]. apply in_or_app. now right.
Qed.

(* loc.rs write_expression inside a list entry that starts at section position `pos` with the bytes `h` (kind byte,
   addresses / offsets) before the expression: it appends exactly what C16's raw model appends for the byte string
   `d` the expression is written as (u16 / ULEB length prefix p, then d), and the operations — hence the fix-ups, which
   go to the list handed in: debug_loc_fixups (v <= 4) or debug_loclists_fixups (v = 5) — are laid out from
   pos + |h| + |p| *)
Theorem loc_expression_in_entry : forall dbg oe uo pos h ex bs fx,
  UnitGlueWr.gentry_tail dbg oe uo pos h ex = Ok (bs, fx) -> pos + blen bs < 2 ^ 64 ->
  exists p d offsets,
    bs = h ++ p ++ d /\
    ListsWr.opt_expression true (e_be oe) (e_version oe) d = Ok (p ++ d) /\
    write_expr dbg oe (Some uo) true (pos + blen h + blen p) ex = Ok (d, fx) /\
    laid (write_op dbg oe (Some uo) true offsets) (pos + blen h + blen p) ex offsets d fx.
Proof. exact WriterGlueProofs.gentry_tail_raw. Qed.

(* a whole DWARF 5 location list written at `pos`: its bytes are C16's write_list_v5 on the raw view of the list
   (each expression replaced by the bytes it is written as), and they split into consecutive entries, each with its
   expression laid out (entry_laid) and contributing exactly its fix-ups, in order *)
Theorem loclist_v5_fixups : forall dbg oe uo asz l pos bs fx,
  UnitGlueWr.gwrite_list_v5 dbg oe uo asz pos l = Ok (bs, fx) -> pos + blen bs < 2 ^ 64 ->
  exists raws chunks,
    Forall2 (WriterGlueProofs.raw_rel dbg oe uo) l raws /\
    ListsWr.write_list_v5 true (e_be oe) (e_version oe) asz raws = Ok bs /\
    bs = concat chunks ++ [n2b 0] /\ WriterGlueProofs.list_laid dbg oe uo pos l chunks fx.
Proof. exact WriterGlueProofs.gwrite_list_v5_raw. Qed.

Example loc_expression_in_entry_ex :
  UnitGlueWr.gentry_tail true enc4 tbl 100 [x01; x02] [WoCallRef (REntry 0 1); WoUConst 5] =
    Ok ([x01; x02; x06; x00; x9a; x00; x00; x00; x00; x35], [{| fx_offset := 105; fx_size := 4; fx_unit := 0; fx_entry := 1 |}]) /\
  UnitGlueWr.gwrite_list_v5 true enc5 tbl 4 20 [UnitGlueWr.GLDefault [WoVarValue (REntry 1 2)]] =
    Ok ([x05; x09; xfd; x00; x00; x00; x00; x00; x00; x00; x00; x00], [{| fx_offset := 23; fx_size := 8; fx_unit := 1; fx_entry := 2 |}]).
Proof. vm_compute. split; reflexivity. Qed.

Check ref_fixups_at_operands : forall dbg e uo offsets ex pos offs bs fx,
  laid (write_op dbg e uo true offsets) pos ex offs bs fx ->
  forall k o u en size, nth_error ex k = Some o -> ref_operand e o = Some (REntry u en, size) ->
  exists p, nth_error offs k = Some p /\ In {| fx_offset := p + 1; fx_size := size; fx_unit := u; fx_entry := en |} fx.

(* the DWARF 2-4 list (LocationListTable::write_loc, one list, have_base_address threaded): same statement as
   loclist_v5_fixups with C16's write_list_v4; `tail` is the (0,0) terminator *)
Theorem loclist_v4_fixups : forall dbg oe uo asz mk l hb pos bs fx,
  UnitGlueWr.gwrite_list_v4 dbg oe uo asz mk hb pos l = Ok (bs, fx) -> pos + blen bs < 2 ^ 64 ->
  exists raws chunks tail,
    Forall2 (WriterGlueProofs.raw_rel dbg oe uo) l raws /\
    ListsWr.write_list_v4 true (e_be oe) (e_version oe) asz mk hb raws = Ok bs /\
    bs = concat chunks ++ tail /\ WriterGlueProofs.list_laid dbg oe uo pos l chunks fx.
Proof. exact WriterGlueProofs.gwrite_list_v4_raw. Qed.

Example loclist_v4_fixups_ex :
  UnitGlueWr.gwrite_list_v4 true enc4 tbl 8 (2 ^ 64 - 1) false 64 [UnitGlueWr.GLStartEnd (ListWrSpec.AConst 1) (ListWrSpec.AConst 2) [WoCallRef (REntry 0 1)]] =
    Ok ([x01; x00; x00; x00; x00; x00; x00; x00; x02; x00; x00; x00; x00; x00; x00; x00; x05; x00; x9a; x00; x00; x00; x00;
         x00; x00; x00; x00; x00; x00; x00; x00; x00; x00; x00; x00; x00; x00; x00; x00],
        [{| fx_offset := 83; fx_size := 4; fx_unit := 0; fx_entry := 1 |}]).
Proof. vm_compute. reflexivity. Qed.
