(* Properties/C04.v — line-number rows equal the DWARF state machine; sequences are consistent.
   The general facts these theorems are instances of are in Proofs/LineRd*.v. Model: Model/LineRd.v
   (mirror of src/read/line.rs), spec: Spec/LineSpec.v (DWARF 5 §6.2 over Z). *)
From Coq Require Import List NArith ZArith Bool Lia.
From Coq.Strings Require Import Byte.
Require Import GV.Base.Res GV.Base.Byt GV.Base.Ints GV.Model.Leb GV.Model.Prim GV.Spec.LineSpec GV.Model.LineRd.
Require Import GV.Proofs.LineRdBase GV.Proofs.LineRdMono GV.Proofs.LineRdRefine GV.Proofs.LineRdInsn GV.Proofs.LineRdSeq
               GV.Proofs.LineRdHdr GV.Proofs.LineRdHdrSafe GV.Proofs.LineRdHdr5.
Import ListNotations.
Local Open Scope N_scope.

(* ------------------------------------------------------------------------------------------------
   Clause 3 of the property: "for any input whatsoever, row addresses never decrease within a
   sequence and never exceed the address size".

   hdr_ok h      := line_range >= 1, maximum_operations_per_instruction >= 1, opcode_base <= 255 and
                    1 <= address_size <= 8: what LineProgramHeader::parse establishes (parse_header_hdr_ok)
                    when the caller's address size is a real one. The program bytes (h_program h) are
                    arbitrary.
   rows_monotone := for consecutive returned rows r1, r2 with r1 not an end_sequence row,
                    address r1 <= address r2   (a sequence is what a consumer sees: the rows up to and
                    including an end_sequence row).
   The model mirrors the code after fix 9872ff0 (LineRows::in_sequence): a tombstoned end_sequence row is
   returned when rows of its sequence were already returned. Before that fix the statement was refuted by
   the program of `repaired_witness_rows` (known_findings.txt, `fixed:` line).
   ------------------------------------------------------------------------------------------------ *)

(* every header with hdr_ok, every program byte string, both build modes *)
Theorem monotone_any_input : forall dbg be h, hdr_ok h ->
  rows_monotone (fst (rows_model dbg be h)) /\
  Forall (fun r => r_addr r <= amask h) (fst (rows_model dbg be h)).
Proof. intros dbg be h Hh. exact (chain_monotone _ _ _ (proj1 (rows_model_post dbg be h Hh))). Qed.

(* the same for a whole unit given as bytes: header decode + rows, no well-formedness hypothesis *)
Theorem monotone_any_unit : forall dbg be asz0 bs h, 1 <= asz0 <= 8 ->
  parse_header dbg be asz0 bs = Ok h ->
  rows_monotone (fst (rows_model dbg be h)) /\
  Forall (fun r => r_addr r <= amask h) (fst (rows_model dbg be h)) /\
  snd (rows_model dbg be h) <> SPanic /\ snd (rows_model dbg be h) <> SFuel.
Proof.
  intros dbg be asz0 bs h Hz H. pose proof (post_ok _ _ _ (parse_header_good dbg be asz0 bs) H Hz) as Hh.
  destruct (rows_model_post dbg be h Hh) as [C [P F]]. destruct (chain_monotone _ _ _ C) as [M B]. auto.
Qed.

Theorem parse_header_hdr_ok : forall dbg be asz0 bs h,
  parse_header dbg be asz0 bs = Ok h -> 1 <= asz0 <= 8 -> hdr_ok h.
Proof. intros dbg be asz0 bs h H. exact (post_ok _ _ _ (parse_header_good dbg be asz0 bs) H). Qed.

(* the hypotheses are satisfiable by non-trivial instances *)
Example hdr_ok_example : hdr_ok sample_header /\ hdr_ok witness_header.
Proof. exact hdr_ok_examples. Qed.
Example sample_rows_example : forall dbg,
  map (fun r => (r_addr r, r_line r, r_end r)) (fst (rows_model dbg false sample_header)) =
  [(4100, 2, false); (4104, 2, false); (4104, 2, true); (2048, 1, false); (2048, 1, true)].
Proof. intros [|]; vm_compute; reflexivity. Qed.
(* set_address 0x1000; copy; set_address 0; end_sequence; set_address 0x500; copy; end_sequence —
   formerly rows 0x1000, 0x500, 0x500(end) in ONE sequence; now two sequences *)
Example repaired_witness_rows : forall dbg,
  map (fun r => (r_addr r, r_end r)) (fst (rows_model dbg false witness_header)) =
  [(4096, false); (4096, true); (1280, false); (1280, true)].
Proof. intros [|]; vm_compute; reflexivity. Qed.

(* ------------------------------------------------------------------------------------------------
   No panic, and the fuel of the model loops suffices (feeds C01), both build modes.
   ------------------------------------------------------------------------------------------------ *)

(* LineInstruction::parse: every byte string, EVERY header record (no hypothesis at all) *)
Theorem no_panic_parse_insn : forall dbg be h inp,
  parse_insn dbg be h inp <> Panic /\ parse_insn dbg be h inp <> OutOfFuel.
Proof. intros dbg be h inp. exact (post_returns _ _ (parse_insn_good dbg be h inp)). Qed.

(* ... and it consumes at least one byte and returns a remainder of its input *)
Theorem parse_insn_consumes : forall dbg be h inp i rest,
  parse_insn dbg be h inp = Ok (i, rest) ->
  (exists p, inp = p ++ rest) /\ (length rest < length inp)%nat /\ insn_ok h i.
Proof. intros dbg be h inp i rest H. exact (post_ok _ _ _ (parse_insn_good dbg be h inp) H). Qed.

(* LineRow::execute on any decoded instruction, from any row inside the address size *)
Theorem no_panic_execute : forall dbg h r i, hdr_ok h -> insn_ok h i -> r_addr r <= amask h ->
  execute dbg h r i <> Panic /\ execute dbg h r i <> OutOfFuel.
Proof. intros dbg h r i H1 H2 H3. exact (post_returns _ _ (execute_good dbg h r i H1 H2 H3)). Qed.

(* rows(), a caller that keeps calling next_row after errors, and sequences() *)
Theorem no_panic_rows : forall dbg be h, hdr_ok h ->
  (snd (rows_model dbg be h) <> SPanic /\ snd (rows_model dbg be h) <> SFuel) /\
  (snd (rows_cont dbg be h) <> SPanic /\ snd (rows_cont dbg be h) <> SFuel) /\
  (sequences dbg be h <> Panic /\ sequences dbg be h <> OutOfFuel).
Proof.
  intros dbg be h Hh. split; [apply rows_model_post, Hh|]. split.
  - apply cont_loop_post; [exact Hh|cbn; lia|cbn; lia].
  - apply seq_loop_post; [exact Hh|cbn; lia|cbn; lia].
Qed.

(* ------------------------------------------------------------------------------------------------
   Clause 1: for every well-formed program the emitted rows are exactly those of the DWARF state
   machine (Spec/LineSpec.v, over unbounded Z).
   pwf h        := the header parameters are in their byte ranges, non-zero where the standard demands
                   it, 1 <= address_size <= 8, |standard_opcode_lengths| = opcode_base - 1
   insn_wf h i  := operands fit their encodings; standard opcode k only if k < opcode_base; unknown
                   standard opcodes carry exactly standard_opcode_lengths[op-1] canonical LEB operands;
                   define_file only for version <= 4
   prog_wf h is := pwf, every insn_wf, and along the SPEC run: 0 <= address <= mask(address_size),
                   0 <= line < 2^64, op_index + advance < 2^64, every set_address >= current address
                   and < min_tombstone.
   ------------------------------------------------------------------------------------------------ *)

(* LineInstruction::parse inverts the reference encoder: all opcodes, opcode_base <> 13, unknown
   standard (0, 1, n operands) and unknown extended opcodes, both byte orders, any trailing bytes *)
Theorem insn_roundtrip : forall dbg be h i rest,
  pwf h -> insn_wf h i = true -> parse_insn dbg be h (enc_insn be h i ++ rest) = Ok (i, rest).
Proof. exact insn_roundtrip_lemma. Qed.

(* the u8 arithmetic of exec_special_opcode is the standard's: adj = op - opcode_base,
   line += line_base + adj mod line_range, operation advance = adj / line_range *)
Theorem special_opcode_arith : forall h op,
  1 <= h_line_range h -> h_opcode_base h <= op ->
  let adj := op - h_opcode_base h in
  (h_line_base h + Z.of_N (adj mod h_line_range h))%Z = sp_line_inc h (Z.of_N op) /\
  Z.of_N (adj / h_line_range h) = sp_op_adv h (Z.of_N op).
Proof. exact special_arith. Qed.

(* apply_operation_advance is §6.2.5.1 incl. the VLIW formulas
     address += min_inst_len * ((op_index + adv) / max_ops);  op_index = (op_index + adv) mod max_ops
   whenever nothing wraps and the new address fits the address size *)
Theorem operation_advance_vliw : forall dbg h r adv,
  pwf h -> inv h r ->
  (Z.of_N (r_opi r) + Z.of_N adv < two64z)%Z ->
  (s_address (s_advance h (Z.of_N adv) (rep r)) <= addr_mask h)%Z ->
  exists r', apply_operation_advance dbg h r adv = Ok (r', None) /\
             rep r' = s_advance h (Z.of_N adv) (rep r) /\ inv h r' /\ r_end r' = r_end r.
Proof. exact aoa_sim. Qed.

(* one instruction of the model = one instruction of the spec *)
Theorem execute_refines_spec : forall dbg h r i,
  pwf h -> inv h r -> r_end r = false -> step_wf h (rep r) i = true -> exec_sim_stmt dbg h r i.
Proof. exact exec_sim. Qed.

(* rows() over the encoded program = rows_spec, run to completion without error, no tombstone rows *)
Theorem rows_refine_spec : forall dbg be h is,
  prog_wf h is = true -> h_program h = enc_prog be h is ->
  exists rs, rows_model dbg be h = (rs, SEnd) /\ map rep rs = rows_spec h is /\
             Forall (fun r => r_tomb r = false) rs.
Proof. exact rows_refine_spec_lemma. Qed.

(* rep is injective on non-tombstone rows, so `map rep rs = rows_spec ..` determines rs *)
Theorem rep_injective : forall r1 r2, r_tomb r1 = r_tomb r2 -> rep r1 = rep r2 -> r1 = r2.
Proof.
  intros [] [] Ht H. cbn in Ht. subst. inversion H.
  repeat match goal with E : Z.of_N _ = Z.of_N _ |- _ => apply N2Z.inj in E end. subst. reflexivity.
Qed.

Example wf_program_example : forall be,
  prog_wf (vliw_header be) vliw_program = true /\
  h_program (vliw_header be) = enc_prog be (vliw_header be) vliw_program.
Proof. intros [|]; split; vm_compute; reflexivity. Qed.
Example wf_program_rows : forall be,
  map (fun s => (s_address s, s_op_index s, s_line s, s_end_sequence s)) (rows_spec (vliw_header be) vliw_program) =
  [(4116, 0, 8, false); (4155, 0, 6, false); (4155, 0, 3, false); (4155, 0, 3, true);
   (8192, 0, 1, false); (8192, 0, 1, true)]%Z.
Proof. intros [|]; vm_compute; reflexivity. Qed.
Example insn_wf_example :
  let h := mk_header false 5 8 0 0 1 1 true (-5) 14 17
             [x00; x01; x01; x01; x01; x00; x00; x00; x01; x00; x00; x01; x00; x01; x03; x02] [] [] [] [] [] in
  pwf h /\
  forallb (insn_wf h)
    [ISpecial 17; ISpecial 255; IUnkStd0 13; IUnkStd1 14 18446744073709551615;
     IUnkStdN 15 [x81; x01; x00; xff; x7f]; IUnkExt 3 [x61; x00]; IUnkExt 255 [];
     IAdvanceLine (-9223372036854775808)%Z; ISetAddress 18446744073709551615; IFixedAddPc 65535] = true.
Proof. cbn zeta. split; [constructor; cbn; lia|vm_compute; reflexivity]. Qed.

(* ------------------------------------------------------------------------------------------------
   Clause 2: "splitting a program into sequences and resuming any sequence yields exactly the rows a
   straight run yields for it, and each sequence's reported address bounds are its first and end
   addresses". No well-formedness hypothesis: any header record, any program bytes, both build modes —
   whenever sequences() returns Ok.
   seq_good s := resume_from(s) runs to the end and its rows are  body ++ [e]  with no end_sequence row in
                 body, e an end_sequence row, s.end = address of e, s.start = address of the first row of
                 body (0 when the sequence consists of the end_sequence row alone).
   ------------------------------------------------------------------------------------------------ *)
Theorem sequences_eq_rows : forall dbg be h files ss,
  sequences dbg be h = Ok (files, ss) ->
  exists tail,
    fst (rows_model dbg be h) = concat (map (fun s => fst (resume_rows dbg be h s)) ss) ++ tail /\
    snd (rows_model dbg be h) = SEnd /\
    Forall (fun r => r_end r = false) tail /\
    Forall (seq_good dbg be h) ss /\
    files = st_added (snd (rows_full dbg be h)).
Proof.
  intros dbg be h files ss H. unfold sequences in H.
  destruct (seq_loop_rel dbg be h (S (length (h_program h))) (st_init h (h_program h)) [] _ None files ss
              eq_refl eq_refl (steps_nil _ _ _ _) (Forall_nil _) eq_refl (Nat.lt_succ_diag_r _) H)
    as (l & stf & tail & L1 & L2 & L3 & L4 & L5).
  exists tail. unfold rows_model, rows_full. rewrite L1. auto.
Qed.

(* with a decoded header the reported bounds are ordered and inside the address size, and every resumed
   sequence is monotone (this failed before fix 9872ff0: start 0x1000 > end 0x500 on the witness) *)
Theorem sequence_bounds_ordered : forall dbg be h files ss, hdr_ok h ->
  sequences dbg be h = Ok (files, ss) ->
  Forall (fun s => sq_start s <= sq_end s /\ sq_end s <= amask h /\
                   rows_monotone (fst (resume_rows dbg be h s))) ss.
Proof.
  intros dbg be h files ss Hh H. destruct (sequences_eq_rows dbg be h files ss H) as (tail & _ & _ & _ & G & _).
  eapply Forall_impl; [|exact G]. intros s. apply seq_good_bounds, Hh.
Qed.

(* the fact it rests on: the instruction decoder only looks at the bytes it consumes *)
Theorem parse_insn_is_local : forall dbg be h a suf i r,
  parse_insn dbg be h (a ++ suf) = Ok (i, r) -> (length suf <= length r)%nat ->
  exists x, r = x ++ suf /\ parse_insn dbg be h a = Ok (i, x).
Proof. exact parse_insn_local. Qed.

Example sequences_example : forall dbg,
  match sequences dbg false sample_header with
  | Ok (files, ss) => map (fun s => (sq_start s, sq_end s, length (sq_insns s))) ss =
                      [(4100, 4104, 14%nat); (2048, 2048, 11%nat)] /\ files = []
  | _ => False
  end.
Proof. intros [|]; vm_compute; split; reflexivity. Qed.

(* ------------------------------------------------------------------------------------------------
   The header: "the directory and file tables are exactly those of the DWARF state machine", versions
   2-5, both formats, both byte orders, any bytes after the unit.
   enc_unit r prog    := the unit a producer writes for the raw header r (parameters, formats, raw entries)
   header_of_raw r .. := the header a consumer must see (tables via dir_of_entry / file_of_entry)
   raw_wf4 / raw_wf5  := parameters in range and non-zero, |standard_opcode_lengths| = opcode_base - 1;
                         v2-4: non-empty NUL-free names, u64 fields; v5: format codes below 2^14 / 2^16, at
                         most 255 components with exactly one DW_LNCT_path, every component value in the
                         class of its form (all 24 supported forms), address size 1/2/4/8; total length fits
                         the initial-length field.
   ------------------------------------------------------------------------------------------------ *)
Theorem header_roundtrip_v2_v4 : forall dbg be asz0 r prog tail,
  raw_wf4 be r prog ->
  parse_header dbg be asz0 (enc_unit be r prog ++ tail) = Ok (header_of_raw be asz0 r prog).
Proof. exact header_roundtrip_v4_lemma. Qed.

Theorem header_roundtrip_v5 : forall dbg be asz0 r prog tail,
  raw_wf5 be r prog ->
  parse_header dbg be asz0 (enc_unit be r prog ++ tail) = Ok (header_of_raw be asz0 r prog).
Proof. exact header_roundtrip_v5_lemma. Qed.

(* every component form: parse_attribute inverts enc_val *)
Theorem entry_component_roundtrip : forall dbg be fmt64 form v tail,
  val_ok fmt64 form v ->
  parse_attribute dbg be fmt64 form (enc_val be fmt64 form v ++ tail) = Ok (v, tail).
Proof. exact parse_attribute_enc. Qed.

(* LineProgramHeader::parse on ANY byte string and any caller-supplied address size: no panic (the two
   `path_name.unwrap()`s are unreachable, the u16 LEB accumulation cannot overflow), fuel suffices *)
Theorem no_panic_parse_header : forall dbg be asz0 bs,
  parse_header dbg be asz0 bs <> Panic /\ parse_header dbg be asz0 bs <> OutOfFuel.
Proof. exact parse_header_np. Qed.

Example raw_wf4_example : forall be, raw_wf4 be sample_raw [x01; x02; x03].
Proof.
  constructor; cbn; try lia.
  - repeat constructor; eexists; repeat split; try reflexivity; discriminate.
  - repeat constructor; do 4 eexists; repeat split; try reflexivity; try discriminate; unfold two64; lia.
  - destruct be; vm_compute; reflexivity.
Qed.
Example raw_wf4_example_header : forall be,
  let h := header_of_raw be 4 sample_raw [x01; x02; x03] in
  (h_version h, h_addr_size h, h_max_ops h, h_line_base h, length (h_dirs h), length (h_files h),
   h_unit_length h, h_header_length h, h_program h) =
  (3, 4, 1, (-3)%Z, 2%nat, 2%nat, 56, 43, [x01; x02; x03]).
Proof. intros [|]; vm_compute; reflexivity. Qed.
Example raw_wf5_example : forall be, raw_wf5 be sample_raw5 [x01].
Proof.
  constructor; cbn [sample_raw5 rh_version rh_addr_size rh_min_inst_len rh_max_ops rh_line_range rh_opcode_base
    rh_line_base rh_std_lengths rh_dir_fmt rh_file_fmt rh_dirs rh_files rh_fmt64]; try lia.
  - reflexivity.
  - split; [repeat constructor; cbn; lia|split; [cbn; lia|reflexivity]].
  - split; [repeat constructor; cbn; lia|split; [cbn; lia|reflexivity]].
  - split; [|unfold two64; cbn; lia]. repeat constructor; cbn; unfold word_lim; lia.
  - split; [|unfold two64; cbn; lia].
    constructor; [|constructor].
    constructor; [cbn; split; reflexivity|].
    constructor; [cbn; split; [reflexivity|unfold two64; lia]|].
    constructor; [cbn; do 4 right; split; reflexivity|].
    constructor; [cbn; split; [reflexivity|lia]|].
    constructor; [cbn; split; reflexivity|].
    constructor; [cbn; left; split; [reflexivity|cbn; lia]|constructor].
  - destruct be; vm_compute; reflexivity.
Qed.
Example raw_wf5_example_tables : forall be,
  h_files (header_of_raw be 4 sample_raw5 [x01]) =
  [mk_file (VString [x61; x2e; x63]) 1 0 65535
           [x00; x01; x02; x03; x04; x05; x06; x07; x08; x09; x0a; x0b; x0c; x0d; x0e; x0f]
           (Some (VString [x69; x6e; x74]))] /\
  h_dirs (header_of_raw be 4 sample_raw5 [x01]) = [VLineStrRef 0; VLineStrRef 4294967295] /\
  h_addr_size (header_of_raw be 4 sample_raw5 [x01]) = 8.
Proof. intros [|]; vm_compute; repeat split. Qed.

Check monotone_any_input : forall dbg be h, hdr_ok h ->
  rows_monotone (fst (rows_model dbg be h)) /\
  Forall (fun r => r_addr r <= amask h) (fst (rows_model dbg be h)).
Check no_panic_parse_insn : forall dbg be h inp,
  parse_insn dbg be h inp <> Panic /\ parse_insn dbg be h inp <> OutOfFuel.
Check insn_roundtrip : forall dbg be h i rest,
  pwf h -> insn_wf h i = true -> parse_insn dbg be h (enc_insn be h i ++ rest) = Ok (i, rest).
Check rows_refine_spec : forall dbg be h is,
  prog_wf h is = true -> h_program h = enc_prog be h is ->
  exists rs, rows_model dbg be h = (rs, SEnd) /\ map rep rs = rows_spec h is /\
             Forall (fun r => r_tomb r = false) rs.
Check header_roundtrip_v5 : forall dbg be asz0 r prog tail,
  raw_wf5 be r prog ->
  parse_header dbg be asz0 (enc_unit be r prog ++ tail) = Ok (header_of_raw be asz0 r prog).
Check sequences_eq_rows : forall dbg be h files ss,
  sequences dbg be h = Ok (files, ss) ->
  exists tail,
    fst (rows_model dbg be h) = concat (map (fun s => fst (resume_rows dbg be h s)) ss) ++ tail /\
    snd (rows_model dbg be h) = SEnd /\
    Forall (fun r => r_end r = false) tail /\
    Forall (seq_good dbg be h) ss /\
    files = st_added (snd (rows_full dbg be h)).
