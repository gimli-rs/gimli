(* Properties/C05.v — CIE/FDE decoding and address lookup agree with the section contents.
   Model: Model/CfiRd.v (mirrors src/read/cfi.rs + DwEhPe of src/constants.rs), spec: Spec/CfiSpec.v;
   the longer arguments are in Proofs/CfiRd*.v, CfiUwiProofs.v and CfiRunSetLocProofs.v.
   `dbg` ranges over both build modes (true = overflow checks on). *)
From Coq Require Import List NArith ZArith Bool Lia.
From Coq.Strings Require Import Byte.
Require Import GV.Base.Res GV.Base.Byt GV.Base.Ints GV.Model.Leb GV.Model.Prim.
Require Import GV.Spec.CfiSpec GV.Model.CfiRd GV.Proofs.Lib GV.Proofs.CfiRdProofs.
Require GV.Spec.CfaSpec GV.Model.CfiRun GV.Proofs.CfiRunProofs.
Require Import GV.Model.CfiUwi GV.Proofs.CfiUwiProofs.
Require Import GV.Model.CfiRunSetLoc GV.Proofs.CfiRunSetLocProofs.
Import ListNotations.
Local Open Scope N_scope.

(* 1. pointer-encoding bytes *)

(* all 256 bytes: the accept/reject decision is the LSB table *)
Theorem eh_pe_valid_all : forall e, e < 256 -> pe_is_valid e = valid_spec e.
Proof. exact pe_is_valid_spec. Qed.

Example eh_pe_valid_instance :
  27 < 256 /\ pe_is_valid 27 = true /\ pe_is_valid 255 = true /\ pe_is_valid 85 = false /\ pe_is_valid 96 = false.
Proof. repeat split; vm_compute; reflexivity. Qed.

(* format / application / indirect are the three bit fields of the byte, omit is 0xff *)
Theorem eh_pe_decomposition : forall e, e < 256 ->
  pe_format e = fmt_of e /\ pe_application e = app_of e /\
  pe_is_indirect e = negb (ind_of e =? 0) /\ pe_is_absent e = (e =? 255) /\
  e = fmt_of e + app_of e + ind_of e.
Proof. exact pe_fields_spec. Qed.

(* the parser of an encoding byte accepts exactly the valid ones, on every input *)
Theorem pointer_encoding_accept : forall o b rest,
  parse_pointer_encoding (mkrd o (b :: rest)) =
  if valid_spec (b2n b) then Ok (b2n b, mkrd (o + 1) rest) else Err EUnknownPointerEncoding.
Proof. exact parse_pointer_encoding_spec. Qed.

(* 2. encoded pointers *)

(* parse_encoded_pointer on EVERY reader state and every encoding byte: invalid byte, omit,
   unusable application / missing base give the stated errors; otherwise the result is
   (base_spec + value) truncated to the address size, marked indirect iff bit 7 is set *)
Theorem pointer_decode_all_inputs : forall dbg be enc pp r,
  enc < 256 -> asz_ok (pp_asz pp) ->
  parse_encoded_pointer dbg be enc pp r =
  if negb (valid_spec enc) then Err EUnknownPointerEncoding
  else if enc =? 255 then Err ECannotParseOmitPointerEncoding
  else match base_spec (app_of enc) (pp_asz pp) (pb_of pp) (off r) with
       | None => Err (base_err (app_of enc))
       | Some base =>
           let* (offset, r1) := parse_encoded_value dbg be enc pp r in
           Ok (mkptr (negb (ind_of enc =? 0)) ((base + offset) mod 2 ^ (8 * pp_asz pp)), r1)
       end.
Proof. exact pep_char. Qed.

(* every value that fits its format (absptr, uleb128, udata2/4/8, sleb128, sdata2/4/8) is read
   back unchanged and exactly its bytes are consumed *)
Theorem encoded_value_roundtrip : forall dbg be enc pp o v rest,
  asz_ok (pp_asz pp) -> fmt_valid (pe_format enc) = true ->
  value_fits (pe_format enc) (pp_asz pp) v = true ->
  parse_encoded_value dbg be enc pp (mkrd o (enc_value (pe_format enc) (pp_asz pp) be v ++ rest))
  = Ok (v, mkrd (o + nlen (enc_value (pe_format enc) (pp_asz pp) be v)) rest).
Proof. exact pev_enc. Qed.

(* round trip for every valid encoding x application x indirect: the reader returns the pointer
   the LSB definition (ptr_spec: pcrel = section base + field offset, wrapping at the address
   size; signed formats sign-extended) assigns to the encoded bytes *)
Theorem pointer_roundtrip : forall dbg be enc pp o v rest ind a,
  enc < 256 -> asz_ok (pp_asz pp) -> valid_spec enc = true -> enc <> 255 ->
  value_fits (fmt_of enc) (pp_asz pp) v = true ->
  ptr_spec enc (pp_asz pp) (pb_of pp) o v = Some (ind, a) ->
  parse_encoded_pointer dbg be enc pp (mkrd o (enc_value (fmt_of enc) (pp_asz pp) be v ++ rest))
  = Ok (mkptr ind a, mkrd (o + nlen (enc_value (fmt_of enc) (pp_asz pp) be v)) rest).
Proof. exact pep_enc. Qed.

Example encoded_value_roundtrip_instance :
  (* sleb128 of -2^63 (ten bytes) *)
  let pp := mkpp (mksb None None None) None 8 in
  asz_ok (pp_asz pp) /\ fmt_valid (pe_format 9) = true /\ value_fits (pe_format 9) 8 (2 ^ 63) = true /\
  length (enc_value (pe_format 9) 8 false (2 ^ 63)) = 10%nat.
Proof. cbv zeta. repeat split; try (vm_compute; reflexivity). right; right; right; reflexivity. Qed.

Example pointer_roundtrip_instance :
  (* DW_EH_PE_pcrel|sdata4 with value -16 at offset 8 of a section loaded at 0x1000 *)
  let pp := mkpp (mksb (Some 4096) None None) None 8 in
  27 < 256 /\ asz_ok (pp_asz pp) /\ valid_spec 27 = true /\ 27 <> 255 /\
  value_fits (fmt_of 27) 8 (2 ^ 64 - 16) = true /\
  ptr_spec 27 8 (pb_of pp) 8 (2 ^ 64 - 16) = Some (false, 4088).
Proof. cbv zeta. repeat split; try (vm_compute; reflexivity); try lia. right; right; right; reflexivity. Qed.

(* 3. binary search table *)

(* EhHdrTable::lookup against its actual loop. For ANY table (sorted or not) whose location
   fields decode, the row returned satisfies the search postcondition ... *)
Theorem bsearch_any_table : forall dbg hb h size a o0 rows locs extra,
  tbl_field_size (h_enc h) = Some size -> wf_rows size rows -> rows <> [] ->
  h_count h = N.of_nat (length rows) -> h_table h = mkrd o0 (flat rows ++ extra) ->
  rows_decode dbg hb h size o0 rows locs ->
  N.of_nat (length rows) * (size * 2) < 2 ^ 64 ->
  exists k r, nth_error rows k = Some r /\ search_post locs a k /\
    hdr_lookup dbg hb h a =
    decode_at dbg (h_be h) (h_enc h) (hdr_pp hb h) (o0 + N.of_nat k * (size * 2) + size) (snd r).
Proof. intros dbg hb h size a o0 rows locs extra Hs Hwf Hne Hc Ht [Hlen Hdec] Hmul. eapply hdr_lookup_rows; eassumption. Qed.

(* ... and for a table strictly sorted by location it is the row of the last location <= a
   (row 0 when there is none): any length, the model's own fuel *)
Theorem bsearch_spec : forall dbg hb h size a o0 rows locs extra,
  tbl_field_size (h_enc h) = Some size -> wf_rows size rows -> rows <> [] ->
  h_count h = N.of_nat (length rows) -> h_table h = mkrd o0 (flat rows ++ extra) ->
  rows_decode dbg hb h size o0 rows locs ->
  N.of_nat (length rows) * (size * 2) < 2 ^ 64 ->
  strictly_sorted locs ->
  exists r, nth_error rows (bs_index locs a) = Some r /\
    hdr_lookup dbg hb h a =
    decode_at dbg (h_be h) (h_enc h) (hdr_pp hb h)
      (o0 + N.of_nat (bs_index locs a) * (size * 2) + size) (snd r).
Proof. exact bsearch_spec_lem. Qed.

(* ex_rows / ex_hdr (Proofs/CfiRdProofs.v): a three-row udata4 table, locations 0x100,0x200,0x300 ->
   addresses 0x1010,0x1040,0x1070 *)
Example bsearch_spec_instance :
  tbl_field_size (h_enc ex_hdr) = Some 4 /\ wf_rows 4 ex_rows /\ ex_rows <> [] /\
  h_count ex_hdr = N.of_nat (length ex_rows) /\ h_table ex_hdr = mkrd 12 (flat ex_rows ++ []) /\
  rows_decode true no_bases ex_hdr 4 12 ex_rows [256; 512; 768] /\
  N.of_nat (length ex_rows) * (4 * 2) < 2 ^ 64 /\ strictly_sorted [256; 512; 768] /\
  bs_index [256; 512; 768] 600 = 1%nat /\
  hdr_lookup true no_bases ex_hdr 600 = Ok (Direct 4160) /\
  (* the header is what EhFrameHdr::parse returns for the encoded section *)
  hdr_parse true false no_bases 8
    (enc_hdr false 8 (mkhdr_rec 3 3 3 4096 3 [(256, 4112); (512, 4160); (768, 4208)])) = Ok ex_hdr.
Proof.
  split; [reflexivity|]. split; [repeat constructor|]. split; [discriminate|].
  split; [reflexivity|]. split; [rewrite app_nil_r; reflexivity|].
  split.
  { split; [reflexivity|]. intros i r H.
    destruct i as [|[|[|i]]]; cbn in H; try (injection H as <-; vm_compute; reflexivity).
    destruct i; discriminate. }
  split; [vm_compute; reflexivity|]. split.
  { intros i j Hij Hj. cbn [length] in Hj.
    destruct j as [|[|[|j]]]; try lia; destruct i as [|[|i]]; try lia; vm_compute; reflexivity. }
  split; [reflexivity|]. split; vm_compute; reflexivity.
Qed.

(* 4. entries *)

(* iterating the section the spec encoder produces for a well-formed entry list (any mix of
   .debug_frame v1/3/4 or .eh_frame CIEs, 32/64-bit, every augmentation item list, FDEs and
   CIEs in any order) reports exactly the expected items, with their offsets and fields;
   .debug_frame zero lengths are skipped, an .eh_frame zero terminator stops the iteration
   (both are built into exp_items) *)
Theorem entries_roundtrip : forall dbg c es items,
  wf_entries c es 0 es -> exp_items c es 0 es = Some items ->
  entries_all dbg c (enc_section (sp_of c) es) = Ok (items, None).
Proof.
  intros dbg c es items Hwf Hexp. unfold entries_all, enc_section.
  apply entries_loop_enc; [|exact Hwf|exact Hexp].
  pose proof (enc_entries_length c es es 0). lia.
Qed.

(* each FDE is bound to the CIE its pointer designates (shared, interleaved, before or after
   it in .debug_frame) and decodes to the expected addresses, LSDA and instruction window *)
Theorem fde_bound_to_cie : forall dbg c es f cr o aug fd,
  cie_at es (f_cie f) = Some cr ->
  wf_cie c cr -> body_fits (c_fmt64 cr) (cie_body c cr) ->
  let co := co_of c es f in
  exp_aug c cr (cie_dpos c cr (tail_off c (c_fmt64 cr) co)) = Some aug ->
  let ci := exp_cie c cr co (blen (cie_body c cr)) (tail_off c (c_fmt64 cr) co) aug in
  exp_fde c cr ci f o (blen (fde_body c cr co o f)) (tail_off c (f_fmt64 f) o) = Some fd ->
  fde_parse dbg c (enc_section (sp_of c) es) (exp_pfde c es o f) = Ok fd.
Proof.
  intros dbg c es f cr o aug fd Hat Hwc Hfit co Haug ci Hexp.
  unfold cie_at in Hat. destruct (nth_error es (f_cie f)) as [[cr'| |]|] eqn:Hn; try discriminate.
  injection Hat as ->.
  destruct (enc_entries_split c es es 0 (f_cie f) (ECie cr) Hn) as (pre & post & Hsec & Hoff).
  cbn [enc_entry] in Hsec. rewrite N.add_0_l in Hoff.
  assert (Hco : co = nlen pre) by (symmetry; exact Hoff).
  unfold exp_pfde, cr_of, cie_at. rewrite Hn. fold co.
  apply (fde_body_enc dbg c (enc_section (sp_of c) es) cr ci).
  - apply Hwc.
  - unfold enc_section. rewrite Hsec. unfold ci. rewrite Hco in *. apply cie_from_offset_enc; assumption.
  - eapply exp_cie_links. exact Haug.
  - exact Hexp.
Qed.

(* ex_cfg / ex_es (Proofs/CfiRdProofs.v): .eh_frame at 0x1000: CIE "zPLR" (personality pcrel|sdata4
   indirect, LSDA funcrel|udata4, addresses pcrel|sdata4), two FDEs (one 64-bit), a zero terminator,
   then an FDE that must not be reported *)
Example entries_roundtrip_instance :
  wf_entries ex_cfg ex_es 0 ex_es /\
  exists c1 p1 p2, exp_items ex_cfg ex_es 0 ex_es = Some [ICie c1; IFde p1; IFde p2] /\
    ci_aug c1 = Some (mkaug (Some 67) (Some (155, Indirect 4051)) (Some 27) false) /\
    pf_cie_off p1 = 0 /\ pf_off p2 = 51 /\ pf_fmt64 p2 = true /\ pf_cie_off p2 = 0.
Proof.
  split.
  - cbn [wf_entries ex_es]. repeat split; try (vm_compute; reflexivity); try (vm_compute; intros; discriminate);
      try (right; right; right; reflexivity); try (left; reflexivity).
  - eexists. eexists. eexists. split; [vm_compute; reflexivity|]. repeat split.
Qed.

Example fde_bound_to_cie_instance :
  exists fd, fde_parse true ex_cfg (enc_section (sp_of ex_cfg) ex_es)
               (exp_pfde ex_cfg ex_es 28 (mkfde_rec false 0%nat 4096 32 5 [] (map n2b [0; 0]))) = Ok fd /\
             fd_init fd = 8228 /\ fd_range fd = 32 /\ fd_aug fd = Some (Some (Direct 8233)) /\ ci_off (fd_cie fd) = 0.
Proof. eexists. split; [vm_compute; reflexivity|]. repeat split. Qed.

(* 5. linear lookup *)

(* fde_for_address IS the exhaustive scan over entries(), for every byte string whose traversal
   returns (which it always does, see entries_total): first FDE in section order that parses and
   covers the address; an earlier failing entry ends the scan with its error *)
Theorem linear_lookup_is_scan : forall dbg c sec a items e,
  entries_all dbg c sec = Ok (items, e) ->
  fde_for_address dbg c sec a = scan_items dbg c sec a items e.
Proof. exact fde_for_address_scan. Qed.

(* for sections all of whose entries and FDEs parse: Ok f iff f is the first FDE in section
   order covering a (end address wrapped at the CIE's address size); NoUnwindInfoForAddress iff none *)
Theorem linear_lookup : forall dbg c sec a items fds,
  asz_ok (sc_asz c) ->
  entries_all dbg c sec = Ok (items, None) ->
  parsed_fdes dbg c sec items = Some fds ->
  fde_for_address dbg c sec a =
  match find (fun f => covers f a) fds with Some f => Ok f | None => Err ENoUnwindInfoForAddress end.
Proof. exact linear_lookup_lem. Qed.

Example linear_lookup_instance :
  let sec := enc_section (sp_of ex_cfg) ex_es in
  asz_ok (sc_asz ex_cfg) /\
  exists items f1 f2, entries_all true ex_cfg sec = Ok (items, None) /\
    parsed_fdes true ex_cfg sec items = Some [f1; f2] /\
    covers f1 8230 = true /\ covers f2 8230 = false /\
    (exists f, fde_for_address true ex_cfg sec 8230 = Ok f /\ fd_off f = 28) /\
    fde_for_address true ex_cfg sec 8260 = Err ENoUnwindInfoForAddress.
Proof.
  cbv zeta. split; [right; right; right; reflexivity|].
  eexists. eexists. eexists. split; [vm_compute; reflexivity|]. split; [vm_compute; reflexivity|].
  split; [vm_compute; reflexivity|]. split; [vm_compute; reflexivity|].
  split; [eexists; split; vm_compute; reflexivity|vm_compute; reflexivity].
Qed.

(* 6. header path *)

(* for a well-formed header (wf_hdr: table strictly sorted by location, one row per FDE holding its
   initial address and eh_frame_ptr + its offset; FDE ranges neither wrap nor overlap) over a
   section whose traversal completes and whose FDEs all parse, the binary-search path returns
   exactly what the linear search returns, for EVERY address: the same FDE, or
   NoUnwindInfoForAddress for both *)
Theorem hdr_lookup_agrees : forall dbg hb h c sec a items fds size o0 rows locs extra tfds e,
  asz_ok (sc_asz c) ->
  entries_all dbg c sec = Ok (items, None) ->
  parsed_fdes dbg c sec items = Some fds ->
  wf_hdr dbg hb h fds size o0 rows locs extra tfds e ->
  hdr_fde_for_address dbg hb h c sec a = fde_for_address dbg c sec a.
Proof. exact hdr_lookup_agrees_lem. Qed.

Example hdr_lookup_agrees_instance :
  asz_ok (sc_asz ex_cfg) /\
  (exists items, entries_all true ex_cfg ex_sec = Ok (items, None) /\
                 parsed_fdes true ex_cfg ex_sec items = Some ex_fds) /\
  wf_hdr true no_bases ex_hdr2 ex_fds 4 12 ex_rows2 [3907; 8228] [] (rev ex_fds) 4096 /\
  (exists f, hdr_fde_for_address true no_bases ex_hdr2 ex_cfg ex_sec 8240 = Ok f /\ fd_off f = 28) /\
  hdr_fde_for_address true no_bases ex_hdr2 ex_cfg ex_sec 5000 = Err ENoUnwindInfoForAddress.
Proof.
  split; [right; right; right; reflexivity|].
  split; [eexists; split; [vm_compute; reflexivity|vm_compute; reflexivity]|].
  split.
  { constructor.
    - reflexivity.
    - repeat constructor.
    - discriminate.
    - reflexivity.
    - rewrite app_nil_r. reflexivity.
    - split; [reflexivity|]. intros i r H.
      destruct i as [|[|i]]; cbn in H; try (injection H as <-; vm_compute; reflexivity).
      destruct i; discriminate.
    - vm_compute. reflexivity.
    - intros i j Hij Hj. cbn [length] in Hj.
      destruct j as [|[|j]]; try lia; destruct i as [|i]; try lia; vm_compute; reflexivity.
    - reflexivity.
    - reflexivity.
    - intros i r f Hr Hf. destruct i as [|[|i]]; cbn in Hr, Hf.
      + injection Hr as <-. injection Hf as <-. split; vm_compute; reflexivity.
      + injection Hr as <-. injection Hf as <-. split; vm_compute; reflexivity.
      + destruct i; discriminate.
    - intros f Hf. apply in_rev. exact Hf.
    - intros f Hf. apply in_rev in Hf. exact Hf.
    - intros f Hf. destruct Hf as [<-|[<-|[]]]; vm_compute; reflexivity.
    - intros i j fi fj Hij Hi Hj.
      destruct j as [|[|j]]; [lia| |destruct j; discriminate].
      destruct i as [|i]; [|lia]. cbn in Hi, Hj. injection Hi as <-. injection Hj as <-.
      vm_compute. discriminate. }
  split; [eexists; split; [vm_compute; reflexivity|reflexivity]|vm_compute; reflexivity].
Qed.

(* soundness of the header path for EVERY header, table and section (no well-formedness): what it
   returns is the FDE found at the offset the chosen row designates, and that FDE covers the address *)
Theorem hdr_path_sound : forall dbg hb h c sec a fd,
  asz_ok (sc_asz c) ->
  hdr_fde_for_address dbg hb h c sec a = Ok fd ->
  exists p o, hdr_lookup dbg hb h a = Ok p /\ pointer_to_offset dbg h p = Ok o /\
              fde_from_offset dbg c sec o = Ok fd /\ covers fd a = true.
Proof.
  intros dbg hb h c sec a fd Hc H. rewrite hdr_fde_for_address_covers in H by exact Hc.
  apply bind_ok in H as (p & Hp & H). apply bind_ok in H as (o & Ho & H).
  apply bind_ok in H as (fd0 & Hfd & H). destruct (covers fd0 a) eqn:E; [|discriminate].
  injection H as <-. exists p, o. auto.
Qed.

(* 7. no panic, termination *)

(* CfiEntriesIter over ALL byte strings, both build modes: never panics, the stated fuel suffices *)
Theorem entries_total : forall dbg c sec, asz_ok (sc_asz c) ->
  entries_all dbg c sec <> Panic /\ entries_all dbg c sec <> OutOfFuel.
Proof. intros. apply entries_loop_returns; [assumption|cbn [win]; lia]. Qed.

Theorem fde_parse_total : forall dbg c sec p, asz_ok (sc_asz c) ->
  fde_parse dbg c sec p <> Panic /\ fde_parse dbg c sec p <> OutOfFuel.
Proof. exact fde_parse_returns. Qed.

Theorem fde_for_address_total : forall dbg c sec a, asz_ok (sc_asz c) ->
  fde_for_address dbg c sec a <> Panic /\ fde_for_address dbg c sec a <> OutOfFuel.
Proof. exact fde_for_address_returns. Qed.

Theorem hdr_parse_total : forall dbg be hb asz sec, asz_ok asz ->
  hdr_parse dbg be hb asz sec <> Panic /\ hdr_parse dbg be hb asz sec <> OutOfFuel.
Proof.
  intros dbg be hb asz sec Hasz. unfold hdr_parse.
  apply returns_bind; [apply rd_u8_returns|]. intros [version r1] _.
  apply returns_if; [apply returns_err|].
  apply returns_bind; [apply parse_pointer_encoding_returns|]. intros [ptr_enc r2] _.
  apply returns_bind; [apply parse_pointer_encoding_returns|]. intros [cnt_enc r3] Hcnt.
  apply returns_bind; [apply parse_pointer_encoding_returns|]. intros [tbl_enc r4] _.
  apply returns_if; [apply returns_err|].
  apply returns_bind; [apply pep_returns; exact Hasz|]. intros [p r5] _.
  apply returns_bind; [|intros [count r6] _; apply returns_ok].
  destruct (cnt_enc =? DW_EH_PE_omit) eqn:Eo; cbn [orb]; [apply returns_ok|].
  apply returns_if; [apply returns_ok|]. apply returns_if; [apply returns_err|].
  apply pev_returns. apply ppe_ok_valid in Hcnt. apply (valid_not_omit_known _ Hcnt Eo).
Qed.

(* EhHdrTableIter (`while let Some(row) = it.next()?`) on any table bytes and any fde_count *)
Theorem table_iter_total : forall dbg hb h, asz_ok (h_asz h) ->
  tbl_all dbg hb h <> Panic /\ tbl_all dbg hb h <> OutOfFuel.
Proof. intros. apply tbl_all_loop_returns; [assumption|lia]. Qed.

(* after a row that fails to parse the iterator is exhausted: the next call returns None *)
Theorem table_iter_stops_after_error : forall dbg hb h st e st',
  tbl_next dbg hb h st = Ok (SErr e, st') -> tbl_next dbg hb h st' = Ok (SNone, st').
Proof.
  intros dbg hb h [t remain] e st' H. unfold tbl_next in H.
  destruct (remain =? 0); [discriminate|].
  destruct (parse_encoded_pointer dbg (h_be h) (h_enc h) (hdr_pp hb h) t) as [[from t1]|e1| |]; try discriminate.
  - destruct (parse_encoded_pointer dbg (h_be h) (h_enc h) (hdr_pp hb h) t1) as [[to t2']|e2| |]; try discriminate.
    injection H as _ <-. reflexivity.
  - injection H as _ <-. reflexivity.
Qed.

Example table_iter_stops_after_error_instance :
  (* fde_count 2, but only one byte of table *)
  exists st', tbl_next true no_bases (mkhdr 8 false (Direct 0) 2 3 (mkrd 12 [n2b 7])) (mkrd 12 [n2b 7], 2)
              = Ok (SErr EUnexpectedEof, st').
Proof. eexists. vm_compute. reflexivity. Qed.

Theorem table_nth_total : forall dbg hb h n, asz_ok (h_asz h) ->
  tbl_nth dbg hb h n <> Panic /\ tbl_nth dbg hb h n <> OutOfFuel.
Proof.
  intros dbg hb h n Hasz. apply returns_bind; [apply tbl_nth_st_returns; exact Hasz|].
  intros [s st] _. destruct s; auto with returns.
Qed.

(* EhHdrTable::lookup returns within log2(fde_count)+1 steps on EVERY table (sorted or not,
   any fde_count, any bytes) and never panics *)
Theorem lookup_total : forall dbg hb h a, asz_ok (h_asz h) ->
  hdr_lookup dbg hb h a <> Panic /\ hdr_lookup dbg hb h a <> OutOfFuel.
Proof.
  intros dbg hb h a Hasz. unfold hdr_lookup.
  destruct (tbl_field_size (h_enc h)) as [size|] eqn:Es; [|apply returns_err].
  apply returns_bind.
  { unfold lookup_fuel. apply lookup_loop_returns; [exact Hasz|apply N.lt_le_incl, size_nat_gt]. }
  intros reader _. apply returns_bind; [apply rd_skip_returns|]. intros r1 _.
  apply returns_bind; [apply pep_returns; exact Hasz|]. intros [p q] _. apply returns_ok.
Qed.

(* the whole header path (lookup, pointer_to_offset, fde_from_offset, contains): total on every
   header, table, section and address, both build modes *)
Theorem hdr_fde_for_address_total : forall dbg hb h c sec a,
  asz_ok (h_asz h) -> asz_ok (sc_asz c) ->
  hdr_fde_for_address dbg hb h c sec a <> Panic /\ hdr_fde_for_address dbg hb h c sec a <> OutOfFuel.
Proof.
  intros dbg hb h c sec a Hh Hc. rewrite hdr_fde_for_address_covers by exact Hc.
  apply returns_bind; [apply lookup_total; exact Hh|]. intros p _.
  apply returns_bind; [apply pointer_to_offset_returns|]. intros o _.
  apply returns_bind; [apply fde_from_offset_returns; exact Hc|]. intros fd _.
  apply returns_if; auto with returns.
Qed.

(* the two inputs that used to overflow (fixed in c0bb189 / f378977) are plain errors now:
   fde_count = 2^63 with 16-byte rows, and a table address below eh_frame_ptr *)
Theorem extreme_fde_count_is_an_error : forall dbg,
  exists h, hdr_parse dbg false no_bases 8 mul_witness = Ok h /\ hdr_table h = Some h /\
            hdr_lookup dbg no_bases h 5 = Err EUnexpectedEof.
Proof. intros [|]; eexists; (split; [vm_compute; reflexivity|]); split; vm_compute; reflexivity. Qed.

Theorem address_below_section_is_an_error : forall dbg,
  exists h p, hdr_parse dbg false no_bases 8 s1_witness = Ok h /\
              hdr_lookup dbg no_bases h 32 = Ok p /\
              pointer_to_offset dbg h p = Err EOffsetOutOfBounds /\
              hdr_fde_for_address dbg no_bases h (mkcfg true false 8 no_bases) [] 32 = Err EOffsetOutOfBounds.
Proof.
  intros [|]; eexists; eexists; (split; [vm_compute; reflexivity|]); (split; [vm_compute; reflexivity|]);
    split; vm_compute; reflexivity.
Qed.

Example total_hypotheses_instance : asz_ok (sc_asz ex_cfg) /\ asz_ok (h_asz ex_hdr).
Proof. split; right; right; right; reflexivity. Qed.

(* 8. unwind information for an address *)
(* Model/CfiUwi.v: UnwindSection::unwind_info_for_address = fde_for_address (this property's lookup
   model) followed by FrameDescriptionEntry::unwind_info_for_address (C06's CfiRun table evaluator),
   linked by the adapter fde_in_of. Rows, contexts, storage limits (caps), spec_of / spec_unl /
   within_limits / row_equiv are C06's (Model/CfiRun.v, Spec/CfaSpec.v, Proofs/CfiRunProofs.v).
   uwi_result_spec a srows o res: if some spec row contains a, res = Ok r with r row_equiv to the FIRST
   such row sr (same [start,end), CFA, args size and the same rule for EVERY register) and
   sr.start <= a < sr.end; otherwise res is how the table ended (Done -> NoUnwindInfoForAddress,
   Fail e -> e). *)

(* for EVERY byte string: the lookup, then the first row of the FDE's table containing the address *)
Theorem unwind_info_is_lookup_then_table : forall dbg cp c aa sec cx a,
  fst (unwind_info_for_address dbg cp c aa sec cx a) =
  match fde_for_address dbg c sec a with
  | Ok fd => let f := fde_in_of (sc_be c) aa fd in
             pick a (fst (fst (CfiRun.fde_rows dbg cp f cx))) (snd (fst (CfiRun.fde_rows dbg cp f cx)))
  | Err e => Err e
  | Panic => Panic
  | OutOfFuel => OutOfFuel
  end.
Proof. intros dbg cp c aa sec cx a. exact (uwi_via_pick _ _ (fde_in_uwi_pick dbg cp c aa) _ cx a). Qed.

(* for a section whose traversal completes and whose FDEs all parse: no FDE covers a ->
   NoUnwindInfoForAddress; otherwise the FIRST FDE IN SECTION ORDER that covers a is used (this is
   the statement for overlapping FDEs) and the result is the row of ITS call-frame table (C06 spec,
   storage limits as a guard) containing a, or the specific error that stopped the table before
   reaching a. Scoped to sections where no DW_CFA_set_loc with an encoded operand is reached
   (section_setloc_plain: that is where the adapter is exact; see set_loc_* below). *)
Theorem unwind_info_row_of_spec_table : forall dbg cp c aa sec cx a items fds,
  asz_ok (sc_asz c) -> CfiRun.cap_full (CfaSpec.max_stack cp) 0 = false ->
  entries_all dbg c sec = Ok (items, None) ->
  parsed_fdes dbg c sec items = Some fds ->
  section_setloc_plain dbg c aa fds ->
  match find (fun f => covers f a) fds with
  | None => fst (unwind_info_for_address dbg cp c aa sec cx a) = Err ENoUnwindInfoForAddress
  | Some fd =>
      let f := fde_in_of (sc_be c) aa fd in
      uwi_result_spec a (fst (CfiRunProofs.spec_of dbg cp f)) (snd (CfiRunProofs.spec_of dbg cp f))
                      (fst (unwind_info_for_address dbg cp c aa sec cx a))
  end.
Proof.
  intros dbg cp c aa sec cx a items fds Hc Hcap He Hp _.
  rewrite (uwi_first_covering dbg cp c aa sec cx a items fds Hc He Hp).
  destruct (find (fun f => covers f a) fds) as [fd|] eqn:Ef; [|reflexivity].
  apply fde_uwi_spec; [|exact Hcap]. apply asz_ok_valid. eapply covering_fde_asz; eassumption.
Qed.

(* the same against the DWARF machine WITHOUT storage limits, when its occupancy fits the storage *)
Theorem unwind_info_row_of_unlimited_table : forall dbg cp c aa sec cx a items fds fd,
  asz_ok (sc_asz c) -> CfiRun.cap_full (CfaSpec.max_stack cp) 0 = false ->
  entries_all dbg c sec = Ok (items, None) ->
  parsed_fdes dbg c sec items = Some fds ->
  find (fun f => covers f a) fds = Some fd ->
  let f := fde_in_of (sc_be c) aa fd in
  CfiRunProofs.within_limits dbg cp f = true ->
  uwi_result_spec a (fst (CfiRunProofs.spec_unl dbg f)) (snd (CfiRunProofs.spec_unl dbg f))
                  (fst (unwind_info_for_address dbg cp c aa sec cx a)).
Proof.
  intros dbg cp c aa sec cx a items fds fd Hc Hcap He Hp Ef f Hw.
  rewrite (uwi_first_covering dbg cp c aa sec cx a items fds Hc He Hp), Ef. fold f. rewrite fde_uwi_pick.
  assert (Hv : CfiRun.valid_asize (CfiRun.f_asize f) = true)
    by (apply asz_ok_valid; eapply covering_fde_asz; eassumption).
  destruct (CfiRunProofs.no_silent_limit_thm dbg cp f cx Hv Hcap Hw) as (H1 & H2). rewrite H2.
  apply pick_row_equiv. exact H1.
Qed.

(* it succeeds (with a row containing a) iff some FDE covers a — provided the table of the first
   covering FDE evaluates to its end (otherwise the theorem above names the error) *)
Theorem unwind_info_succeeds_iff_covered : forall dbg cp c aa sec cx a items fds,
  asz_ok (sc_asz c) ->
  entries_all dbg c sec = Ok (items, None) ->
  parsed_fdes dbg c sec items = Some fds ->
  (forall fd, find (fun f => covers f a) fds = Some fd ->
              snd (fst (CfiRun.fde_rows dbg cp (fde_in_of (sc_be c) aa fd) cx)) = CfaSpec.Done) ->
  ((exists r, fst (unwind_info_for_address dbg cp c aa sec cx a) = Ok r /\ CfiRun.row_contains r a = true)
   <-> exists fd, In fd fds /\ covers fd a = true).
Proof.
  intros dbg cp c aa sec cx a items fds.
  exact (uwi_via_succeeds_iff dbg c aa _ _ (fde_in_uwi_pick dbg cp c aa) sec cx a items fds
           (fun fd => CfiRunProofs.rows_shape_thm dbg cp (fde_in_of (sc_be c) aa fd) cx)).
Qed.

Example unwind_info_instance :
  asz_ok (sc_asz ex_uw_cfg) /\ CfiRun.cap_full (CfaSpec.max_stack ex_heap) 0 = false /\
  (exists items, entries_all true ex_uw_cfg ex_uw_sec = Ok (items, None) /\
                 parsed_fdes true ex_uw_cfg ex_uw_sec items = Some ex_uw_fds) /\
  section_setloc_plain true ex_uw_cfg false ex_uw_fds /\
  (* 0x200d lies in BOTH FDEs: the first in section order is used, third row of its table *)
  map (fun f => covers f 8205) ex_uw_fds = [true; true] /\
  (exists r, fst (unwind_info_for_address true ex_heap ex_uw_cfg false ex_uw_sec ex_ctx 8205) = Ok r /\
             CfiRun.r_start r = 8204 /\ CfiRun.r_end r = 8256 /\ CfiRun.r_cfa r = CfaSpec.CfaRegOff 7 16 /\
             CfiRun.rm_get 3 (CfiRun.r_regs r) = Some (CfaSpec.ROffset (-16))) /\
  (* 0x204e only in the second *)
  (exists r, fst (unwind_info_for_address true ex_heap ex_uw_cfg false ex_uw_sec ex_ctx 8270) = Ok r /\
             CfiRun.r_start r = 8200 /\ CfiRun.r_end r = 8300 /\ CfiRun.r_cfa r = CfaSpec.CfaRegOff 7 99) /\
  fst (unwind_info_for_address true ex_heap ex_uw_cfg false ex_uw_sec ex_ctx 9000) = Err ENoUnwindInfoForAddress /\
  forallb (fun fd => CfiRunProofs.within_limits true ex_heap (fde_in_of false false fd)) ex_uw_fds = true.
Proof.
  split; [right; right; right; reflexivity|]. split; [reflexivity|].
  split; [eexists; split; [vm_compute; reflexivity|reflexivity]|].
  split. { intros fd [<-|[<-|[]]]; vm_compute; reflexivity. }
  split; [vm_compute; reflexivity|].
  split; [eexists; split; [vm_compute; reflexivity|repeat split]|].
  split; [eexists; split; [vm_compute; reflexivity|repeat split]|].
  split; vm_compute; reflexivity.
Qed.

(* the header path uses whatever FDE the chosen table row designates (lookup -> pointer_to_offset ->
   fde_from_offset), for EVERY header, table and section, overlapping FDEs or not: that FDE's table
   when it covers the address, NoUnwindInfoForAddress when it does not *)
Theorem hdr_unwind_info_uses_designated_fde : forall dbg cp hb h c aa sec cx a,
  asz_ok (sc_asz c) ->
  fst (hdr_unwind_info_for_address dbg cp hb h c aa sec cx a) =
  (let* p := hdr_lookup dbg hb h a in
   let* o := pointer_to_offset dbg h p in
   let* fd := fde_from_offset dbg c sec o in
   if covers fd a then
     let f := fde_in_of (sc_be c) aa fd in
     pick a (fst (fst (CfiRun.fde_rows dbg cp f cx))) (snd (fst (CfiRun.fde_rows dbg cp f cx)))
   else Err ENoUnwindInfoForAddress).
Proof.
  intros dbg cp hb h c aa sec cx a.
  exact (uwi_via_hdr dbg c _ _ (fde_in_uwi_pick dbg cp c aa) hb h sec cx a).
Qed.

(* well-formed header over disjoint FDEs: both ways of asking give the same row and leave the same context *)
Theorem unwind_info_paths_agree : forall dbg cp hb h c aa sec cx a items fds size o0 rows locs extra tfds e,
  asz_ok (sc_asz c) ->
  entries_all dbg c sec = Ok (items, None) ->
  parsed_fdes dbg c sec items = Some fds ->
  wf_hdr dbg hb h fds size o0 rows locs extra tfds e ->
  hdr_unwind_info_for_address dbg cp hb h c aa sec cx a = unwind_info_for_address dbg cp c aa sec cx a.
Proof.
  intros. unfold hdr_unwind_info_for_address, unwind_info_for_address.
  erewrite hdr_lookup_agrees by eassumption. reflexivity.
Qed.

(* (instance of the hypotheses: hdr_lookup_agrees_instance above, same wf_hdr) *)

Theorem unwind_info_total : forall dbg cp c aa sec cx a,
  asz_ok (sc_asz c) -> CfiRun.cap_full (CfaSpec.max_stack cp) 0 = false ->
  fst (unwind_info_for_address dbg cp c aa sec cx a) <> Panic /\
  fst (unwind_info_for_address dbg cp c aa sec cx a) <> OutOfFuel.
Proof.
  intros dbg cp c aa sec cx a Hc Hcap.
  exact (uwi_via_total dbg c _ _ (fde_in_uwi_pick dbg cp c aa) sec cx a
           (fun fd => CfiRunProofs.no_panic_thm dbg cp (fde_in_of (sc_be c) aa fd) cx Hcap) Hc).
Qed.

(* ---- DW_CFA_set_loc under the CIE's FDE address encoding ---- *)
(* its target is what pointer_roundtrip assigns to the operand bytes with the section's bases, the
   operand's own offset and no function base; indirect encodings are refused *)
Theorem set_loc_roundtrip : forall dbg c f enc o v rest ind a,
  fde_addr_enc f = Some enc ->
  enc < 256 -> asz_ok (ci_asz (fd_cie f)) -> valid_spec enc = true -> enc <> 255 ->
  value_fits (fmt_of enc) (ci_asz (fd_cie f)) v = true ->
  ptr_spec enc (ci_asz (fd_cie f)) (pb_of (mkpp (sc_bases c) None (ci_asz (fd_cie f)))) o v = Some (ind, a) ->
  parse_set_loc dbg c f
    (mkrd o (enc_value (fmt_of enc) (ci_asz (fd_cie f)) (sc_be c) v ++ rest)) =
  if ind then Err EUnsupportedIndirectPointer
  else Ok (a, mkrd (o + nlen (enc_value (fmt_of enc) (ci_asz (fd_cie f)) (sc_be c) v)) rest).
Proof.
  intros dbg c f enc o v rest ind a He H256 Hasz Hv Hn Hfit Hps. unfold parse_set_loc. rewrite He.
  pose proof (pep_enc dbg (sc_be c) enc (mkpp (sc_bases c) None (ci_asz (fd_cie f))) o v rest ind a) as Hp.
  cbn [pp_asz] in Hp. rewrite Hp by assumption.
  cbn [bind]. destruct ind; reflexivity.
Qed.

Theorem set_loc_all_inputs : forall dbg c f enc r,
  fde_addr_enc f = Some enc -> enc < 256 -> asz_ok (ci_asz (fd_cie f)) ->
  parse_set_loc dbg c f r =
  let pp := mkpp (sc_bases c) None (ci_asz (fd_cie f)) in
  if negb (valid_spec enc) then Err EUnknownPointerEncoding
  else if enc =? 255 then Err ECannotParseOmitPointerEncoding
  else match base_spec (app_of enc) (pp_asz pp) (pb_of pp) (off r) with
       | None => Err (base_err (app_of enc))
       | Some base =>
           let* (offset, r1) := parse_encoded_value dbg (sc_be c) enc pp r in
           if negb (ind_of enc =? 0) then Err EUnsupportedIndirectPointer
           else Ok ((base + offset) mod 2 ^ (8 * pp_asz pp), r1)
       end.
Proof.
  intros dbg c f enc r He H256 Hasz. unfold parse_set_loc. rewrite He. cbv zeta.
  rewrite pep_char by assumption.
  destruct (negb (valid_spec enc)); [reflexivity|].
  destruct (enc =? 255); [reflexivity|].
  destruct (base_spec _ _ _ _) as [base|]; [|reflexivity].
  destruct (parse_encoded_value dbg (sc_be c) enc _ r) as [[offset r1]| | |]; cbn [bind]; try reflexivity.
  destruct (negb (ind_of enc =? 0)); reflexivity.
Qed.

Theorem set_loc_plain_address : forall dbg c f o v rest,
  fde_addr_enc f = None -> asz_ok (ci_asz (fd_cie f)) -> v < 2 ^ (8 * ci_asz (fd_cie f)) ->
  parse_set_loc dbg c f (mkrd o (un_bytes (N.to_nat (ci_asz (fd_cie f))) (sc_be c) v ++ rest)) =
  Ok (v, mkrd (o + ci_asz (fd_cie f)) rest).
Proof.
  intros dbg c f o v rest He Hasz Hv. unfold parse_set_loc. rewrite He.
  rewrite read_address_ok_fun by exact Hasz.
  rewrite (lift_app _ _ _ _ _ v) by (apply read_un_small; rewrite N2Nat.id, pow256; exact Hv).
  rewrite nlen_un_bytes, N2Nat.id. reflexivity.
Qed.

Example set_loc_instance :
  (* FDE at 0x1000+21.., first instruction DW_CFA_set_loc with pcrel|sdata4 operand 0x200 at section offset 35 *)
  exists items f, entries_all true ex_uw_cfg ex_sl_sec = Ok (items, None) /\
    parsed_fdes true ex_uw_cfg ex_sl_sec items = Some [f] /\
    fde_addr_enc f = Some 27 /\ asz_ok (ci_asz (fd_cie f)) /\ valid_spec 27 = true /\
    value_fits (fmt_of 27) (ci_asz (fd_cie f)) 512 = true /\
    ptr_spec 27 (ci_asz (fd_cie f)) (pb_of (mkpp (sc_bases ex_uw_cfg) None (ci_asz (fd_cie f)))) 35 512 = Some (false, 4643) /\
    exists r1, first_set_loc true ex_uw_cfg f = Ok (Some (4643, r1)).
Proof.
  eexists. eexists. split; [vm_compute; reflexivity|]. split; [vm_compute; reflexivity|].
  split; [reflexivity|]. split; [right; right; right; reflexivity|].
  split; [vm_compute; reflexivity|]. split; [vm_compute; reflexivity|]. split; [vm_compute; reflexivity|].
  eexists. vm_compute. reflexivity.
Qed.


(* 8b. ... THROUGH encoded DW_CFA_set_loc *)
(* Model/CfiRunSetLoc.v extends the table evaluation to FDEs whose CIE gives an FDE address encoding ('R'):
   the FDE's instruction iterator decodes a DW_CFA_set_loc operand with parse_encoded_pointer under that encoding
   (bases.eh_frame, the operand's own offset for pcrel, no function base; indirect refused), everything else as
   C06's CfiRun; the CIE's initial instructions keep a plain address. unwind_info_for_address_sl /
   hdr_unwind_info_for_address_sl / fde_rows_sl / fde_uwi_sl are the extended functions (tied by c05.setloctab);
   fde_items_sl = what the FDE's iterator yields; spec_of_sl = C06's DWARF machine (limits as a guard) on the CIE
   items and those FDE items. The theorems of section 8 hold for them WITHOUT section_setloc_plain. *)

(* the extended evaluator refines the DWARF machine, for EVERY FDE record (any bytes, any encoding byte) *)
Theorem table_through_set_loc_refines : forall dbg cp c aa fd cx,
  CfiRun.valid_asize (ci_asz (fd_cie fd)) = true ->
  CfiRun.cap_full (CfaSpec.max_stack cp) 0 = false ->
  Forall2 CfiRunProofs.row_equiv (fst (fst (fde_rows_sl dbg cp c aa fd cx))) (fst (spec_of_sl dbg cp c aa fd)) /\
  snd (fst (fde_rows_sl dbg cp c aa fd cx)) = snd (spec_of_sl dbg cp c aa fd).
Proof. exact model_eq_spec_sl. Qed.

(* unwind_info_is_lookup_then_table, any encoding, EVERY byte string *)
Theorem unwind_info_is_lookup_then_table_any_encoding : forall dbg cp c aa sec cx a,
  fst (unwind_info_for_address_sl dbg cp c aa sec cx a) =
  match fde_for_address dbg c sec a with
  | Ok fd => pick a (fst (fst (fde_rows_sl dbg cp c aa fd cx))) (snd (fst (fde_rows_sl dbg cp c aa fd cx)))
  | Err e => Err e
  | Panic => Panic
  | OutOfFuel => OutOfFuel
  end.
Proof. intros dbg cp c aa sec cx a. exact (uwi_via_pick _ _ (fde_uwi_sl_pick dbg cp c aa) _ cx a). Qed.

(* unwind_info_row_of_spec_table WITHOUT section_setloc_plain: first covering FDE in section order, the row of ITS
   call-frame table containing the address, set_loc targets being the pointers the CIE's encoding assigns to the
   operands; a set_loc below the current row's start is InvalidCfiSetLoc (CfaSpec.spec_step), an indirect or
   unknown encoding / missing base the specific pointer error (set_loc_all_inputs) *)
Theorem unwind_info_row_of_spec_table_any_encoding : forall dbg cp c aa sec cx a items fds,
  asz_ok (sc_asz c) -> CfiRun.cap_full (CfaSpec.max_stack cp) 0 = false ->
  entries_all dbg c sec = Ok (items, None) ->
  parsed_fdes dbg c sec items = Some fds ->
  match find (fun f => covers f a) fds with
  | None => fst (unwind_info_for_address_sl dbg cp c aa sec cx a) = Err ENoUnwindInfoForAddress
  | Some fd =>
      uwi_result_spec a (fst (spec_of_sl dbg cp c aa fd)) (snd (spec_of_sl dbg cp c aa fd))
                      (fst (unwind_info_for_address_sl dbg cp c aa sec cx a))
  end.
Proof.
  intros dbg cp c aa sec cx a items fds Hc Hcap He Hp.
  rewrite (uwi_sl_first_covering dbg cp c aa sec cx a items fds Hc He Hp).
  destruct (find (fun f => covers f a) fds) as [fd|] eqn:Ef; [|reflexivity].
  apply fde_uwi_sl_spec; [|exact Hcap]. apply asz_ok_valid. eapply covering_fde_asz; eassumption.
Qed.

Theorem hdr_unwind_info_uses_designated_fde_any_encoding : forall dbg cp hb h c aa sec cx a,
  asz_ok (sc_asz c) ->
  fst (hdr_unwind_info_for_address_sl dbg cp hb h c aa sec cx a) =
  (let* p := hdr_lookup dbg hb h a in
   let* o := pointer_to_offset dbg h p in
   let* fd := fde_from_offset dbg c sec o in
   if covers fd a then
     pick a (fst (fst (fde_rows_sl dbg cp c aa fd cx))) (snd (fst (fde_rows_sl dbg cp c aa fd cx)))
   else Err ENoUnwindInfoForAddress).
Proof.
  intros dbg cp hb h c aa sec cx a. exact (uwi_via_hdr dbg c _ _ (fde_uwi_sl_pick dbg cp c aa) hb h sec cx a).
Qed.

Theorem unwind_info_paths_agree_any_encoding : forall dbg cp hb h c aa sec cx a items fds size o0 rows locs extra tfds e,
  asz_ok (sc_asz c) ->
  entries_all dbg c sec = Ok (items, None) ->
  parsed_fdes dbg c sec items = Some fds ->
  wf_hdr dbg hb h fds size o0 rows locs extra tfds e ->
  hdr_unwind_info_for_address_sl dbg cp hb h c aa sec cx a = unwind_info_for_address_sl dbg cp c aa sec cx a.
Proof.
  intros. unfold hdr_unwind_info_for_address_sl, unwind_info_for_address_sl.
  erewrite hdr_lookup_agrees by eassumption. reflexivity.
Qed.

(* the extension agrees with C06's evaluator / section 8's composition where those are exact: no 'R' encoding
   (every byte string: rows, outcome, context left behind), and — as item lists — FDEs none of whose instructions
   starts with opcode 0x01 *)
Theorem set_loc_extension_agrees_without_encoding : forall dbg cp c aa fd cx a,
  fde_addr_enc fd = None ->
  fde_rows_sl dbg cp c aa fd cx = CfiRun.fde_rows dbg cp (fde_in_of (sc_be c) aa fd) cx /\
  fde_uwi_sl dbg cp c aa fd cx a = CfiRun.unwind_info_for_address dbg cp (fde_in_of (sc_be c) aa fd) cx a.
Proof.
  intros dbg cp c aa fd cx a H. pose proof (parse_insn_sl_plain dbg c aa fd H) as HP.
  unfold fde_rows_sl, fde_uwi_sl, CfiRun.fde_rows, CfiRun.fde_rows_lim, CfiRun.unwind_info_for_address. cbv zeta.
  destruct (negb _); [split; reflexivity|]. destruct (CfiRun.table_new _ _ _ _); try (split; reflexivity).
  split; [apply (CfiRunProofs.collect_g_old dbg (CfiRun.f_dparams (fde_in_of (sc_be c) aa fd)) _ HP)
         |apply (find_row_g_old dbg (CfiRun.f_dparams (fde_in_of (sc_be c) aa fd)) _ HP)].
Qed.

Theorem unwind_info_extension_agrees : forall dbg cp c aa sec cx a,
  (forall fd, fde_for_address dbg c sec a = Ok fd -> fde_addr_enc fd = None) ->
  unwind_info_for_address_sl dbg cp c aa sec cx a = unwind_info_for_address dbg cp c aa sec cx a.
Proof.
  intros dbg cp c aa sec cx a H. unfold unwind_info_for_address_sl, unwind_info_for_address.
  destruct (fde_for_address dbg c sec a) as [fd|e| |] eqn:E; try reflexivity.
  apply set_loc_extension_agrees_without_encoding. apply H. reflexivity.
Qed.

Theorem set_loc_free_same_items : forall dbg c aa fd,
  setloc_free dbg c aa fd = true ->
  fde_items_sl dbg c aa fd =
  CfiRun.decode dbg (CfiRun.f_dparams (fde_in_of (sc_be c) aa fd)) (off (fd_instr fd)) (win (fd_instr fd)).
Proof. intros dbg c aa fd H. apply no_op1_decode. exact H. Qed.

(* set_loc inside the table: at any position of the FDE's instruction stream, opcode 0x01 followed by the
   encoding of v yields the instruction SetLoc(a) with a = ptr_spec(enc, bases, offset of the operand, v) — the
   pointer of pointer_roundtrip / set_loc_roundtrip — and the stream continues behind the operand; an indirect
   encoding ends it with UnsupportedIndirectPointer *)
Theorem set_loc_in_table : forall dbg c aa fd enc o v rest ind a,
  fde_addr_enc fd = Some enc ->
  enc < 256 -> asz_ok (ci_asz (fd_cie fd)) -> valid_spec enc = true -> enc <> 255 ->
  value_fits (fmt_of enc) (ci_asz (fd_cie fd)) v = true ->
  ptr_spec enc (ci_asz (fd_cie fd)) (pb_of (mkpp (sc_bases c) None (ci_asz (fd_cie fd)))) (o + 1) v = Some (ind, a) ->
  let ev := enc_value (fmt_of enc) (ci_asz (fd_cie fd)) (sc_be c) v in
  dec_g (parse_insn_sl dbg c aa fd) {| CfiRun.it_off := o; CfiRun.it_bytes := n2b 1 :: ev ++ rest |} =
  if ind then [CfaSpec.Bad EUnsupportedIndirectPointer]
  else CfaSpec.It (CfaSpec.ISetLoc a)
       :: dec_g (parse_insn_sl dbg c aa fd) {| CfiRun.it_off := o + 1 + nlen ev; CfiRun.it_bytes := rest |}.
Proof.
  intros dbg c aa fd enc o v rest ind a He H256 Hasz Hv Hn Hfit Hps ev.
  rewrite (dec_g_set_loc dbg c aa fd enc o (ev ++ rest) He Hasz).
  unfold ev. rewrite (set_loc_roundtrip dbg c fd enc (o + 1) v rest ind a He H256 Hasz Hv Hn Hfit Hps).
  destruct ind; [reflexivity|]. cbn [win]. do 3 f_equal.
  unfold CfiRun.consumed, nlen. cbn [length]. rewrite app_length. lia.
Qed.

(* unwind_info_row_of_unlimited_table for the extension: against the DWARF machine WITHOUT storage limits on the
   items the FDE's iterator yields (spec_unl_sl), when its occupancy fits the storage (within_limits_sl) *)
Theorem unwind_info_row_of_unlimited_table_any_encoding : forall dbg cp c aa sec cx a items fds fd,
  asz_ok (sc_asz c) -> CfiRun.cap_full (CfaSpec.max_stack cp) 0 = false ->
  entries_all dbg c sec = Ok (items, None) ->
  parsed_fdes dbg c sec items = Some fds ->
  find (fun f => covers f a) fds = Some fd ->
  within_limits_sl dbg cp c aa fd = true ->
  uwi_result_spec a (fst (spec_unl_sl dbg c aa fd)) (snd (spec_unl_sl dbg c aa fd))
                  (fst (unwind_info_for_address_sl dbg cp c aa sec cx a)).
Proof.
  intros dbg cp c aa sec cx a items fds fd Hc Hcap He Hp Ef Hw.
  pose proof (unwind_info_row_of_spec_table_any_encoding dbg cp c aa sec cx a items fds Hc Hcap He Hp) as H.
  rewrite Ef, (spec_of_sl_unl dbg cp c aa fd Hw) in H. exact H.
Qed.

(* unwind_info_succeeds_iff_covered for the extension: success (with a row containing a) iff some FDE covers a,
   provided the table of the first covering FDE — evaluated through its encoded set_loc operands — reaches its end *)
Theorem unwind_info_succeeds_iff_covered_any_encoding : forall dbg cp c aa sec cx a items fds,
  asz_ok (sc_asz c) ->
  entries_all dbg c sec = Ok (items, None) ->
  parsed_fdes dbg c sec items = Some fds ->
  (forall fd, find (fun f => covers f a) fds = Some fd ->
              snd (fst (fde_rows_sl dbg cp c aa fd cx)) = CfaSpec.Done) ->
  ((exists r, fst (unwind_info_for_address_sl dbg cp c aa sec cx a) = Ok r /\ CfiRun.row_contains r a = true)
   <-> exists fd, In fd fds /\ covers fd a = true).
Proof.
  intros dbg cp c aa sec cx a items fds.
  exact (uwi_via_succeeds_iff dbg c aa _ _ (fde_uwi_sl_pick dbg cp c aa) sec cx a items fds
           (fun fd => rows_shape_sl dbg cp c aa fd cx)).
Qed.

(* unwind_info_total for the extension: no panic and the stated fuel suffices, every byte string, both build modes,
   every encoding byte the CIE may carry *)
Theorem unwind_info_total_any_encoding : forall dbg cp c aa sec cx a,
  asz_ok (sc_asz c) -> CfiRun.cap_full (CfaSpec.max_stack cp) 0 = false ->
  fst (unwind_info_for_address_sl dbg cp c aa sec cx a) <> Panic /\
  fst (unwind_info_for_address_sl dbg cp c aa sec cx a) <> OutOfFuel.
Proof.
  intros dbg cp c aa sec cx a Hc Hcap.
  exact (uwi_via_total dbg c _ _ (fde_uwi_sl_pick dbg cp c aa) sec cx a
           (fun fd => no_panic_sl dbg cp c aa fd cx Hcap) Hc).
Qed.

(* the section of set_loc_instance: one FDE [4377, 4441) whose only instruction is set_loc(pcrel|sdata4 -> 4643).
   gimli (and the extension) deliver the row [4377, 4643); the restricted model of section 8 reads a plain 8-byte
   address from the 4-byte operand and reports UnexpectedEof — and because that failed decode leaves no SetLoc item,
   setloc_plain is TRUE here: the scope predicate of section 8 does not exclude every FDE on which the adapter is
   inexact (it misses set_loc operands whose plain decode fails). The theorems of this section need no such scope. *)
Example unwind_info_through_set_loc_instance :
  asz_ok (sc_asz ex_uw_cfg) /\ CfiRun.cap_full (CfaSpec.max_stack ex_heap) 0 = false /\
  (exists items f, entries_all true ex_uw_cfg ex_sl_sec = Ok (items, None) /\
                   parsed_fdes true ex_uw_cfg ex_sl_sec items = Some [f] /\
                   fde_addr_enc f = Some 27 /\ setloc_plain true false false f = true /\
                   map (fun r => (CfiRun.r_start r, CfiRun.r_end r)) (fst (fst (fde_rows_sl true ex_heap ex_uw_cfg false f ex_ctx)))
                   = [(4377, 4643); (4643, 4441)]) /\
  (exists r, fst (unwind_info_for_address_sl true ex_heap ex_uw_cfg false ex_sl_sec ex_ctx 4400) = Ok r /\
             CfiRun.r_start r = 4377 /\ CfiRun.r_end r = 4643) /\
  fst (unwind_info_for_address true ex_heap ex_uw_cfg false ex_sl_sec ex_ctx 4400) = Err EUnexpectedEof.
Proof.
  split; [right; right; right; reflexivity|]. split; [reflexivity|].
  split. { eexists. eexists. split; [vm_compute; reflexivity|]. split; [vm_compute; reflexivity|].
           split; [reflexivity|]. split; vm_compute; reflexivity. }
  split; [eexists; split; [vm_compute; reflexivity|split; reflexivity]|].
  vm_compute. reflexivity.
Qed.

(* 9. EhHdrTableIter as a state machine *)
(* operations next / nth k / size_hint on ONE iterator, any history. iter_spec row total dec q rem ops
   (Proofs/CfiRdHist.v) is the expected observation list: state q = rows the reader has moved past,
   rem = rows still claimed;  next = row q (None when rem = 0);  nth k: rem := rem -sat k, skip k rows
   (UnsupportedOffset if k*row overflows u64, UnexpectedEof and nothing skipped if fewer than k rows
   of bytes remain before the end of the section), then next = row q+k and q := q+k+1;
   size_hint = (rem, Some rem). *)
Theorem hdr_iter_history : forall dbg hb h size o0 rows pad dec ops,
  tbl_field_size (h_enc h) = Some size -> wf_rows size rows ->
  table_decodes dbg hb h size o0 rows dec ->
  h_count h = N.of_nat (length rows) -> h_table h = mkrd o0 (flat rows ++ pad) ->
  tbl_run dbg hb h (tbl_iter h) ops =
  iter_spec (size * 2) (nlen (flat rows ++ pad)) dec 0 (N.of_nat (length rows)) ops.
Proof. intros. eapply hdr_iter_history_lem; eassumption. Qed.

(* the rows are those of the full scan *)
Theorem hdr_iter_full_scan : forall dbg hb h size o0 rows pad dec,
  tbl_field_size (h_enc h) = Some size -> wf_rows size rows ->
  table_decodes dbg hb h size o0 rows dec ->
  h_count h = N.of_nat (length rows) -> h_table h = mkrd o0 (flat rows ++ pad) ->
  tbl_all dbg hb h = Ok (dec, None).
Proof. intros. eapply tbl_all_dec; eassumption. Qed.

(* a history only ever yields rows of the table (never anything decoded from bytes after it) ... *)
Theorem hdr_iter_yields_only_table_rows : forall row total dec ops q rem x,
  In (BItem (Some x)) (iter_spec row total dec q rem ops) -> In x dec.
Proof.
  intros row total dec. induction ops as [|op r IH]; intros q rem x H; [destruct H|].
  destruct op as [|k|]; cbn [iter_spec] in H.
  - destruct (rem =? 0).
    + destruct H as [H|H]; [discriminate|eapply IH; exact H].
    + destruct (nth_error dec (N.to_nat q)) as [y|] eqn:E; [|destruct H as [H|[]]; discriminate].
      destruct H as [H|H]; [injection H as ->; eapply nth_error_In; exact E|eapply IH; exact H].
  - destruct (2 ^ 64 <=? k * row); [destruct H as [H|H]; [discriminate|eapply IH; exact H]|].
    destruct (total <? (q + k) * row); [destruct H as [H|H]; [discriminate|eapply IH; exact H]|].
    destruct (_ =? 0); [destruct H as [H|H]; [discriminate|eapply IH; exact H]|].
    destruct (nth_error dec (N.to_nat (q + k))) as [y|] eqn:E; [|destruct H as [H|[]]; discriminate].
    destruct H as [H|H]; [injection H as ->; eapply nth_error_In; exact E|eapply IH; exact H].
  - destruct H as [H|H]; [discriminate|eapply IH; exact H].
Qed.

(* ... and once the iterator has ended no operation yields a row again (next: None; nth: None, or
   UnexpectedEof / UnsupportedOffset when the skip itself is impossible) *)
Theorem hdr_iter_ended_stays_ended : forall row total dec ops q,
  Forall (fun o => ~ yields_row o) (iter_spec row total dec q 0 ops).
Proof.
  intros row total dec. induction ops as [|op r IH]; intros q; [constructor|].
  destruct op as [|k|]; cbn [iter_spec].
  - change (0 =? 0) with true. cbv iota. constructor; [intros (x & Hx); discriminate|apply IH].
  - assert (Hr : (if k <=? 0 then 0 - k else 0) = 0) by (destruct (k <=? 0) eqn:E; lia). rewrite Hr.
    destruct (2 ^ 64 <=? k * row); [constructor; [intros (x & Hx); discriminate|apply IH]|].
    destruct (total <? (q + k) * row); [constructor; [intros (x & Hx); discriminate|apply IH]|].
    change (0 =? 0) with true. cbv iota. constructor; [intros (x & Hx); discriminate|apply IH].
  - constructor; [intros (x & Hx); discriminate|apply IH].
Qed.

Example hdr_iter_history_instance :
  tbl_field_size (h_enc ex_hdr_pad) = Some 4 /\ wf_rows 4 ex_rows /\
  table_decodes true no_bases ex_hdr_pad 4 12 ex_rows ex_dec /\
  h_count ex_hdr_pad = N.of_nat (length ex_rows) /\
  h_table ex_hdr_pad = mkrd 12 (flat ex_rows ++ map n2b [9; 9; 9; 9; 9; 9; 9; 9]) /\
  (* nth 1 skips row 0 and yields row 1; next yields row 2; the 8 padding bytes are never decoded:
     next -> None, nth 1 (one row of padding can be skipped) -> None, nth 1 again -> UnexpectedEof *)
  tbl_run true no_bases ex_hdr_pad (tbl_iter ex_hdr_pad)
    [OHint; ONth 1; OHint; ONext; OHint; ONext; ONth 1; ONth 1; ONext] =
  [BHint 3 (Some 3); BItem (Some (Direct 512, Direct 4160)); BHint 1 (Some 1);
   BItem (Some (Direct 768, Direct 4208)); BHint 0 (Some 0); BItem None; BItem None;
   BErr EUnexpectedEof; BItem None].
Proof.
  split; [reflexivity|]. split; [repeat constructor|]. split.
  { split; [reflexivity|]. intros j r x Hr Hx.
    destruct j as [|[|[|j]]]; cbn in Hr, Hx; try (injection Hr as <-; injection Hx as <-; split; vm_compute; reflexivity).
    destruct j; discriminate. }
  split; [reflexivity|]. split; [reflexivity|]. vm_compute. reflexivity.
Qed.

Check table_through_set_loc_refines. Check unwind_info_is_lookup_then_table_any_encoding.
Check unwind_info_row_of_spec_table_any_encoding. Check hdr_unwind_info_uses_designated_fde_any_encoding.
Check unwind_info_paths_agree_any_encoding. Check set_loc_extension_agrees_without_encoding. Check unwind_info_extension_agrees.
Check set_loc_free_same_items. Check set_loc_in_table.
Check unwind_info_row_of_unlimited_table_any_encoding. Check unwind_info_succeeds_iff_covered_any_encoding. Check unwind_info_total_any_encoding.
Check eh_pe_valid_all : forall e, e < 256 -> pe_is_valid e = valid_spec e.
Check linear_lookup_is_scan : forall dbg c sec a items e,
  entries_all dbg c sec = Ok (items, e) -> fde_for_address dbg c sec a = scan_items dbg c sec a items e.
Check entries_total : forall dbg c sec, asz_ok (sc_asz c) ->
  entries_all dbg c sec <> Panic /\ entries_all dbg c sec <> OutOfFuel.
Check entries_roundtrip : forall dbg c es items,
  wf_entries c es 0 es -> exp_items c es 0 es = Some items ->
  entries_all dbg c (enc_section (sp_of c) es) = Ok (items, None).
