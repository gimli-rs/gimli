(* Properties/C01_tie_macro.v — translator tie (DESIGN §1.2 item 2) for the macro reader of C01: the DW_MACRO_* / DW_MACINFO_*
   type codes Model/MacroRd.v decodes.  macro_kind is_macro k (Proofs/GenAgreeNumerals.v) runs parse_next on the
   one-byte type [k] followed by minimal operands and names the entry obtained. *)
From Coq Require Import List NArith Bool String.
Require Import GV.Base.Res GV.Proofs.GenSweep GV.Proofs.GenAgreeNumerals.
Require GV.Gen.Constants GV.Model.ListsRd GV.Model.MacroRd GV.Model.NamesRd GV.Spec.LineSpec.
Import ListNotations.
Local Open Scope string_scope.
Local Open Scope N_scope.

(* .debug_macro: every DW_MACRO_* constant (all of constants.rs but lo_user/hi_user) decodes to the entry of its name; 0 ends the list; every other byte is InvalidMacroType *)
Theorem c01_tie_macro_numerals :
  map (macro_kind true) macro_decoded =
    ["define"; "undef"; "start_file"; "end_file"; "define_strp"; "undef_strp"; "import"; "define_sup"; "undef_sup";
     "import_sup"; "define_strx"; "undef_strx"] /\
  (macro_decoded ++ [Constants.DW_MACRO_lo_user; Constants.DW_MACRO_hi_user])%list = Constants.DwMacro_values /\
  forallb (fun k => (k =? 0) || mem k macro_decoded || String.eqb (macro_kind true k) "invalid_macro") (count_up 256) = true /\
  macro_kind true 0 = "end".
Proof. split; [|split; [|split]]; vm_compute; reflexivity. Qed.

(* .debug_macinfo: all five DW_MACINFO_* constants; every other byte is InvalidMacinfoType *)
Theorem c01_tie_macinfo_numerals :
  map (macro_kind false) macinfo_decoded = ["define"; "undef"; "start_file"; "end_file"; "vendor_ext"] /\
  macinfo_decoded = Constants.DwMacinfo_values /\
  forallb (fun k => (k =? 0) || mem k macinfo_decoded || String.eqb (macro_kind false k) "invalid_macinfo") (count_up 256) = true /\
  macro_kind false 0 = "end".
Proof. split; [|split; [|split]]; vm_compute; reflexivity. Qed.

(* statement pins *)
Check c01_tie_macro_numerals :
  map (macro_kind true) macro_decoded =
    ["define"; "undef"; "start_file"; "end_file"; "define_strp"; "undef_strp"; "import"; "define_sup"; "undef_sup";
     "import_sup"; "define_strx"; "undef_strx"] /\
  (macro_decoded ++ [Constants.DW_MACRO_lo_user; Constants.DW_MACRO_hi_user])%list = Constants.DwMacro_values /\
  forallb (fun k => (k =? 0) || mem k macro_decoded || String.eqb (macro_kind true k) "invalid_macro") (count_up 256) = true /\
  macro_kind true 0 = "end".
Check c01_tie_macinfo_numerals :
  map (macro_kind false) macinfo_decoded = ["define"; "undef"; "start_file"; "end_file"; "vendor_ext"] /\
  macinfo_decoded = Constants.DwMacinfo_values /\
  forallb (fun k => (k =? 0) || mem k macinfo_decoded || String.eqb (macro_kind false k) "invalid_macinfo") (count_up 256) = true /\
  macro_kind false 0 = "end".
