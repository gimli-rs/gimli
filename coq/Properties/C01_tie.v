(* Properties/C01_tie.v — translator tie (DESIGN §1.2 item 2) for C01: every DW_* numeral that Spec/MacroSpec.v defines is the constant of the same
   name in /repo/src/constants.rs, regenerated into coq/Gen/Constants.v from the source text on every ./check run. *)
From Coq Require Import NArith.
Require GV.Gen.Constants GV.Spec.MacroSpec.
Local Open Scope N_scope.

(* the 13 DW_* numerals of Spec/MacroSpec.v *)
Theorem c01_tie_constants :
  Constants.DW_MACRO_define = MacroSpec.DW_MACRO_define /\
  Constants.DW_MACRO_undef = MacroSpec.DW_MACRO_undef /\
  Constants.DW_MACRO_start_file = MacroSpec.DW_MACRO_start_file /\
  Constants.DW_MACRO_end_file = MacroSpec.DW_MACRO_end_file /\
  Constants.DW_MACRO_define_strp = MacroSpec.DW_MACRO_define_strp /\
  Constants.DW_MACRO_undef_strp = MacroSpec.DW_MACRO_undef_strp /\
  Constants.DW_MACRO_import = MacroSpec.DW_MACRO_import /\
  Constants.DW_MACRO_define_sup = MacroSpec.DW_MACRO_define_sup /\
  Constants.DW_MACRO_undef_sup = MacroSpec.DW_MACRO_undef_sup /\
  Constants.DW_MACRO_import_sup = MacroSpec.DW_MACRO_import_sup /\
  Constants.DW_MACRO_define_strx = MacroSpec.DW_MACRO_define_strx /\
  Constants.DW_MACRO_undef_strx = MacroSpec.DW_MACRO_undef_strx /\
  Constants.DW_MACINFO_vendor_ext = MacroSpec.DW_MACINFO_vendor_ext.
Proof. repeat split; reflexivity. Qed.

(* statement pins *)
Check c01_tie_constants :
  Constants.DW_MACRO_define = MacroSpec.DW_MACRO_define /\
  Constants.DW_MACRO_undef = MacroSpec.DW_MACRO_undef /\
  Constants.DW_MACRO_start_file = MacroSpec.DW_MACRO_start_file /\
  Constants.DW_MACRO_end_file = MacroSpec.DW_MACRO_end_file /\
  Constants.DW_MACRO_define_strp = MacroSpec.DW_MACRO_define_strp /\
  Constants.DW_MACRO_undef_strp = MacroSpec.DW_MACRO_undef_strp /\
  Constants.DW_MACRO_import = MacroSpec.DW_MACRO_import /\
  Constants.DW_MACRO_define_sup = MacroSpec.DW_MACRO_define_sup /\
  Constants.DW_MACRO_undef_sup = MacroSpec.DW_MACRO_undef_sup /\
  Constants.DW_MACRO_import_sup = MacroSpec.DW_MACRO_import_sup /\
  Constants.DW_MACRO_define_strx = MacroSpec.DW_MACRO_define_strx /\
  Constants.DW_MACRO_undef_strx = MacroSpec.DW_MACRO_undef_strx /\
  Constants.DW_MACINFO_vendor_ext = MacroSpec.DW_MACINFO_vendor_ext.
