(* Properties/C08_tie.v — translator tie (DESIGN §1.2 item 2) for C08: the DW_RLE_* / DW_LLE_* kind numerals that Model/ListsRd.v
   matches on.  rle_kind / lle_kind (Proofs/GenAgreeNumerals.v) run rng_parse / loc_parse on the one-byte kind
   [Constants.DW_x] followed by minimal operands and name the constructor obtained; Constants = coq/Gen/Constants.v,
   regenerated from /repo/src/constants.rs on every ./check run. *)
From Coq Require Import List NArith Bool String.
Require Import GV.Base.Res GV.Proofs.GenSweep GV.Proofs.GenAgreeNumerals.
Require GV.Gen.Constants GV.Model.ListsRd GV.Model.MacroRd GV.Model.NamesRd GV.Spec.LineSpec.
Import ListNotations.
Local Open Scope string_scope.
Local Open Scope N_scope.

(* every DW_RLE_* constant decodes to the entry kind of its name; these are all the DW_RLE_* of constants.rs; every other byte is UnknownRangeListsEntry *)
Theorem c08_tie_rle_numerals :
  map rle_kind rle_decoded =
    ["end_of_list"; "base_addressx"; "startx_endx"; "startx_length"; "offset_pair"; "base_address"; "start_end";
     "start_length"] /\
  rle_decoded = Constants.DwRle_values /\
  forallb (fun k => mem k rle_decoded || String.eqb (rle_kind k) "unknown") (count_up 256) = true.
Proof. split; [|split]; vm_compute; reflexivity. Qed.

(* the same for DW_LLE_* (DWARF 5 .debug_loclists and the version 4 GNU split-DWARF encoding); DW_LLE_GNU_view_pair is the only constant not decoded *)
Theorem c08_tie_lle_numerals :
  map (lle_kind cfg5) lle_decoded =
    ["end_of_list"; "base_addressx"; "startx_endx"; "startx_length"; "offset_pair"; "default_location";
     "base_address"; "start_end"; "start_length"] /\
  map (lle_kind cfg4) lle_decoded = map (lle_kind cfg5) lle_decoded /\
  (lle_decoded ++ [Constants.DW_LLE_GNU_view_pair])%list = Constants.DwLle_values /\
  forallb (fun k => mem k lle_decoded || (String.eqb (lle_kind cfg5 k) "unknown" && String.eqb (lle_kind cfg4 k) "unknown"))
          (count_up 256) = true.
Proof. split; [|split; [|split]]; vm_compute; reflexivity. Qed.

(* statement pins *)
Check c08_tie_rle_numerals :
  map rle_kind rle_decoded =
    ["end_of_list"; "base_addressx"; "startx_endx"; "startx_length"; "offset_pair"; "base_address"; "start_end";
     "start_length"] /\
  rle_decoded = Constants.DwRle_values /\
  forallb (fun k => mem k rle_decoded || String.eqb (rle_kind k) "unknown") (count_up 256) = true.
Check c08_tie_lle_numerals :
  map (lle_kind cfg5) lle_decoded =
    ["end_of_list"; "base_addressx"; "startx_endx"; "startx_length"; "offset_pair"; "default_location";
     "base_address"; "start_end"; "start_length"] /\
  map (lle_kind cfg4) lle_decoded = map (lle_kind cfg5) lle_decoded /\
  (lle_decoded ++ [Constants.DW_LLE_GNU_view_pair])%list = Constants.DwLle_values /\
  forallb (fun k => mem k lle_decoded || (String.eqb (lle_kind cfg5 k) "unknown" && String.eqb (lle_kind cfg4 k) "unknown"))
          (count_up 256) = true.
