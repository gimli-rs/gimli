(* Properties/C05_tie.v — translator tie (DESIGN §1.2 item 2) for C05: the DwEhPe functions of /repo/src/constants.rs, regenerated
   into coq/Gen/EhPe.v from the source text on every ./check run, are the ones of Model/CfiRd.v. *)
From Coq Require Import List NArith Bool.
Require Import GV.Base.Res.
Require GV.Gen.EhPe GV.Gen.Constants GV.Model.CfiRd.
Require GV.Proofs.GenAgreeEhPe.
Require Import GV.Proofs.GenSweep.
Local Open Scope N_scope.

(* DwEhPe::is_valid_encoding regenerated from the source = the model's, all 256 pointer-encoding bytes *)
Theorem c05_tie_pe_is_valid :
  forall e, e < 256 -> EhPe.is_valid_encoding e = CfiRd.pe_is_valid e.
Proof. intros e _. apply GenAgreeEhPe.gen_pe_is_valid_agree. Qed.

(* the two `match` arms of is_valid_encoding separately *)
Theorem c05_tie_pe_known :
  forall e, e < 256 ->
  EhPe.format_known (EhPe.format e) = CfiRd.pe_format_known (CfiRd.pe_format e) /\
  EhPe.application_known (EhPe.application e) = CfiRd.pe_application_known (CfiRd.pe_application e).
Proof.
  intros e _. split; [apply GenAgreeEhPe.gen_pe_format_known_agree|apply GenAgreeEhPe.gen_pe_application_known_agree].
Qed.

(* format() / application() masks, is_absent, is_indirect: every N *)
Theorem c05_tie_pe_format :
  forall e, EhPe.format e = CfiRd.pe_format e.
Proof. reflexivity. Qed.

Theorem c05_tie_pe_application :
  forall e, EhPe.application e = CfiRd.pe_application e.
Proof. reflexivity. Qed.

Theorem c05_tie_pe_is_absent :
  forall e, EhPe.is_absent e = CfiRd.pe_is_absent e.
Proof. reflexivity. Qed.

Theorem c05_tie_pe_is_indirect :
  forall e, EhPe.is_indirect e = CfiRd.pe_is_indirect e.
Proof. reflexivity. Qed.

(* every encoding byte the model's parse_pointer_encoding lets through is valid by the regenerated predicate (any input) *)
Theorem c05_tie_parse_pointer_encoding :
  forall r e r', CfiRd.parse_pointer_encoding r = Ok (e, r') -> EhPe.is_valid_encoding e = true.
Proof.
  intros r. change (builds (fun e => EhPe.is_valid_encoding e = true) (CfiRd.parse_pointer_encoding r)).
  apply builds_bind. intros [e r1]. destruct (CfiRd.pe_is_valid e) eqn:V; [|apply builds_err].
  apply builds_ok. rewrite GenAgreeEhPe.gen_pe_is_valid_agree. exact V.
Qed.

(* DW_EH_PE_omit of constants.rs *)
Theorem c05_tie_constants :
  Constants.DW_EH_PE_omit = CfiRd.DW_EH_PE_omit.
Proof. reflexivity. Qed.

(* statement pins *)
Check c05_tie_pe_is_valid :
  forall e, e < 256 -> EhPe.is_valid_encoding e = CfiRd.pe_is_valid e.
Check c05_tie_pe_known :
  forall e, e < 256 ->
  EhPe.format_known (EhPe.format e) = CfiRd.pe_format_known (CfiRd.pe_format e) /\
  EhPe.application_known (EhPe.application e) = CfiRd.pe_application_known (CfiRd.pe_application e).
Check c05_tie_pe_format :
  forall e, EhPe.format e = CfiRd.pe_format e.
Check c05_tie_pe_application :
  forall e, EhPe.application e = CfiRd.pe_application e.
Check c05_tie_pe_is_absent :
  forall e, EhPe.is_absent e = CfiRd.pe_is_absent e.
Check c05_tie_pe_is_indirect :
  forall e, EhPe.is_indirect e = CfiRd.pe_is_indirect e.
Check c05_tie_parse_pointer_encoding :
  forall r e r', CfiRd.parse_pointer_encoding r = Ok (e, r') -> EhPe.is_valid_encoding e = true.
Check c05_tie_constants :
  Constants.DW_EH_PE_omit = CfiRd.DW_EH_PE_omit.
