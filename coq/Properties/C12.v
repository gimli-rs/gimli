(* Properties/C12.v — Read-to-write conversion preserves meaning or fails; never silently alters.
   The component theorems and their non-vacuity examples; the long proofs are in Proofs/Convert*.v.

   Converter models (each mirrors the Rust function by function, every narrowing explicit):
     Model/ConvertArith.v  checked integer conversions of write::cfi::convert
     Model/ConvertCfi.v    CallFrameInstruction::from, CommonInformationEntry::from / FrameDescriptionEntry::from loops
     Model/ConvertExpr.v   write::op::convert Expression::from
     Model/ConvertLists.v  RangeList::from, LocationList::from
     Model/ConvertAttr.v   ConvertUnit::convert_attribute_value / convert_file_index (self-contained value kinds)
   Each component theorem COMPOSES the reader-side meaning (C06 CfaSpec, C07 OpDec, C08 ListSpec, C03 Attr) with
   the writer-side read-back theorems (C14 CfaEncSpec / CfiWr, C15 OpEncSpec / OpWr, C16 ListWrSpec, C11 UnitWr):
   Err is always allowed, a silently different meaning never.
   ConvertLineProgram (Model/ConvertLine.v): section (5) — per-call and per-instruction theorems, and for whole
   programs the events of the read_row iteration against the reader's rows and against C13's writer scripts; the two
   known findings are decided by the oracle streams c12.line / c12.vliw. Not theorems here: whole-unit
   conversion (entry ids, string tables; oracle stream c12.corpus), normal form of whole expressions (oracle; per
   operation: expr_normal_form_partial). *)
From Coq Require Import List NArith ZArith Bool Sorted Lia.
From Coq.Strings Require Import Byte.
Require Import GV.Base.Res GV.Base.Byt GV.Base.Ints.
Require Import GV.Spec.CfaEncSpec GV.Spec.CfaSpec GV.Model.CfiWr.
Require Import GV.Model.ConvertArith GV.Model.ConvertCfi GV.Proofs.ConvertCfiProofs GV.Proofs.ConvertCfiWrProofs.
Import ListNotations.
Local Open Scope N_scope.

(* ============================================================== (0) conversion arithmetic *)

(* A CFI offset is carried over exactly or the conversion fails: never truncated. *)
Theorem cfi_offset_exact_or_error : forall (o : N),
  match convert_offset o with
  | Ok v => v = Z.of_N o /\ in_signed 32 v = true
  | Err e => e = CUnsupportedCfiInstruction /\ in_signed 32 (Z.of_N o) = false
  | _ => False
  end.
Proof. exact convert_offset_exact. Qed.

(* A factored offset is multiplied back without wrap-around, or the conversion fails. *)
Theorem cfi_factored_offset_exact_or_error : forall (f daf : Z),
  in_signed 64 f = true -> in_signed 64 daf = true ->
  match convert_factored_offset f daf with
  | Ok v => v = (f * daf)%Z /\ in_signed 32 v = true
  | Err e => e = CUnsupportedCfiInstruction /\ in_signed 32 (f * daf)%Z = false
  | _ => False
  end.
Proof. intros f daf _ _. apply convert_factored_offset_exact. Qed.

(* Alignment factors survive exactly or the CIE is rejected. *)
Theorem cfi_factors_exact_or_error : forall (caf : N) (daf : Z),
  match convert_factors caf daf with
  | Ok (c, d) => c = caf /\ d = daf /\ (caf < 256)%N /\ in_signed 8 daf = true
  | Err e => e = CUnsupportedCfiInstruction /\ ((256 <= caf)%N \/ in_signed 8 daf = false)
  | _ => False
  end.
Proof. exact convert_factors_exact. Qed.

(* The accumulated code offset of advance_loc instructions is exact or the conversion fails. *)
Theorem cfi_advance_exact_or_error : forall (offset delta caf : N),
  (offset < 2 ^ 32)%N -> (delta < 2 ^ 32)%N ->
  match convert_advance offset delta caf with
  | Ok v => v = (offset + delta * caf)%N /\ (v < 2 ^ 32)%N
  | Err e => e = CUnsupportedCfiInstruction /\ (2 ^ 32 <= offset + delta * caf \/ 2 ^ 32 <= caf)%N
  | _ => False
  end.
Proof. intros offset delta caf _ _. apply convert_advance_exact. Qed.

Example offset_ok : convert_offset 16 = Ok 16%Z. Proof. reflexivity. Qed.
Example offset_big : convert_offset (2 ^ 31) = Err CUnsupportedCfiInstruction. Proof. reflexivity. Qed.
Example factored_ok : convert_factored_offset (-2) (-8) = Ok 16%Z. Proof. reflexivity. Qed.

(* ============================================================== (1) call frame instructions *)

(* cfi_insn_convert_sound — for EVERY CIE and FDE instruction stream (every instruction variant, lazily decoded
   with a possible decode error), every alignment factor pair and every address range: if the conversion of both
   programs succeeds and the source programs have an unwind table (CfaSpec run_spec, the C06 machine), then the
   converted programs — write-side instructions with unfactored offsets, placed at the computed code offsets — have
   an unwind table too (under unit factors, ConvertCfi.converted_rows), and for every address of the FDE's range
   both tables hold the same CFA rule, register rules and argument size; an expression operand e of the source
   corresponds to the place plc b of the bytes b = xconv e it was converted to (conv_R).
   Nops and location advances are absorbed into the offsets (rows are compared pointwise, not row by row);
   DW_CFA_set_loc, operands outside the writer's types and offsets beyond u32 make the conversion fail
   (theorems (0) and cfi_unsupported below).  sp_asize <= 8: addresses are u64. *)
Theorem cfi_insn_convert_sound :
  forall (p : sparams) (xconv : uexpr -> res (list byte)) (plc : list byte -> uexpr)
         (cie fde : list item) (cl : list cfi) (fl : list (N * cfi)) (init end_ : N) (rows : list srow),
  sp_asize p <= 8 ->
  conv_cie (sp_caf p) (sp_daf p) xconv cie = Ok cl ->
  conv_fde (sp_caf p) (sp_daf p) xconv fde = Ok fl ->
  run_spec p init end_ cie fde = (rows, Done) ->
  exists rows',
    converted_rows plc (sp_asize p) init end_ cl fl = (rows', Done) /\
    forall a, init <= a -> a < end_ ->
      unw_rel (conv_R xconv plc) (content_at rows a) (content_at rows' a).
Proof. exact cfi_insn_convert_sound_lemma. Qed.

(* per instruction: every arm of CallFrameInstruction::from means (ConvertCfiProofs.means) an advance by exactly
   delta * code_alignment_factor bytes (below 2^32 in total), nothing, or acts on every table state exactly as the
   write instruction it returns *)
Theorem cfi_insn_convert_each : forall caf daf xconv plc p o i o' c,
  sp_caf p = caf -> sp_daf p = daf ->
  conv_step caf daf xconv o i = Ok (o', c) ->
  exists m, means (conv_R xconv plc) plc p i m /\
    match m with
    | MAdvance b => c = None /\ o' = o + b /\ o' < 2 ^ 32
    | MNop => c = None /\ o' = o
    | MInsn x => c = Some x /\ o' = o
    end.
Proof. exact conv_step_means. Qed.

(* convert ∘ write (C14) ∘ decode (C14) ∘ run (C06): the bytes the frame-table writer emits for the converted
   programs decode, and whenever the decoded programs have an unwind table under the ORIGINAL factors it holds,
   for every address of the range, the unwind information of the source programs.  Typing hypotheses: registers
   are u16 (insn_typed), converted expressions have a usize length. *)
Theorem cfi_convert_write_read_sound :
  forall (dbg be : bool) (p : sparams) (xconv : uexpr -> res (list byte)) (plc : list byte -> uexpr)
         (cie fde : list item) (f : N * Z) (cl : list cfi) (fl : list (N * cfi))
         (init end_ : N) (rows : list srow) (cbs fbs : list byte),
  sp_asize p <= 8 ->
  forallb item_typed cie = true -> forallb item_typed fde = true ->
  (forall e b, xconv e = Ok b -> is_blob b = true) ->
  conv_entry (sp_caf p) (sp_daf p) xconv cie fde = Ok (f, cl, fl) ->
  run_spec p init end_ cie fde = (rows, Done) ->
  write_insns dbg (sp_daf p) cl = Ok cbs ->
  write_fde_insns dbg be (sp_caf p) (sp_daf p) 0 fl = Ok fbs ->
  exists dsc dsf,
    decode_all be cbs = Some dsc /\ decode_all be fbs = Some dsf /\
    forall rows2,
      run_spec p init end_ (map It (map (rd_of_dinsn plc) dsc)) (map It (map (rd_of_dinsn plc) dsf)) = (rows2, Done) ->
      forall a, init <= a -> a < end_ ->
        unw_rel (conv_R xconv plc) (content_at rows a) (content_at rows2 a).
Proof.
  intros dbg be p xconv plc cie fde f cl fl init end_ rows cbs fbs Hasz Htc Htf Hx Hconv Hrun Hwc Hwf.
  unfold conv_entry in Hconv.
  apply bind_ok in Hconv. destruct Hconv as [f0 [Hfac Hconv]].
  apply bind_ok in Hconv. destruct Hconv as [cl0 [Hc Hconv]].
  apply bind_ok in Hconv. destruct Hconv as [fl0 [Hf Hconv]]. inversion Hconv; subst f0 cl0 fl0; clear Hconv.
  pose proof (convert_factors_exact (sp_caf p) (sp_daf p)) as Hfx. rewrite Hfac in Hfx.
  destruct f as [c8 d8]. destruct Hfx as [_ [_ [Hc8 Hd8]]].
  assert (Hu8 : is_u8 (sp_caf p) = true) by (unfold is_u8; lia).
  assert (Hi8 : is_i8 (sp_daf p) = true).
  { unfold in_signed in Hd8. change (2 ^ (8 - 1)) with 128 in Hd8. unfold is_i8. lia. }
  pose proof (conv_cie_from_wf _ _ xconv Hx cie 0 cl Htc Hc) as Hwfc.
  pose proof (conv_fde_from_wf _ _ xconv Hx fde 0 fl Htf ltac:(vm_compute; reflexivity) Hf) as Hwff.
  destruct (CfiWrProofs.cie_program_read_pack dbg be (sp_caf p) (sp_daf p) cl cbs Hwfc Hi8 Hwc) as [dsc [Hdc Hsc]].
  destruct (CfiWrProofs.fde_program_read_pack dbg be (sp_caf p) (sp_daf p) fl fbs Hwff Hu8 Hi8 Hwf) as [dsf [Hdf Hsf]].
  exists dsc, dsf. split; [exact Hdc|]. split; [exact Hdf|].
  intros rows2 Hrun2 a Ha He.
  eapply cfi_convert_readback_sound_lemma; eauto.
  - eapply decode_fuel_adv; [exact Hc8|exact Hdc].
  - eapply decode_fuel_adv; [exact Hc8|exact Hdf].
Qed.

(* normal_form (CFI): converting what is read back from the written table (decoded programs ds whose meanings are
   the written programs: C14 cie_program_read / fde_program_read) reproduces the write-side programs, provided the
   second expression conversion reproduces the written expressions. *)
Theorem cfi_normal_form_cie : forall caf daf xconv2 plc,
  daf <> 0%Z -> (forall b, xconv2 (plc b) = Ok b) ->
  forall ds cl o, map (sem caf daf) ds = map MInsn cl -> forallb cfi_wf cl = true ->
  conv_cie_from caf daf xconv2 o (map It (map (rd_of_dinsn plc) ds)) = Ok cl.
Proof.
  intros caf daf xconv2 plc Hd Hx. induction ds as [|d ds IH]; intros cl o Hm Hw.
  - destruct cl; [reflexivity|discriminate].
  - destruct cl as [|c cl]; [discriminate|]. cbn [map] in Hm. inversion Hm as [[Hc Hrest]].
    cbn [forallb] in Hw. apply andb_true_iff in Hw. destruct Hw as [Hwc Hwl].
    cbn [map conv_cie_from]. rewrite (conv_step_rd caf daf xconv2 plc o d c Hd Hx Hc Hwc). cbn [bind].
    rewrite (IH cl o Hrest Hwl). reflexivity.
Qed.

Theorem cfi_normal_form_fde : forall caf daf xconv2 plc,
  daf <> 0%Z -> caf < 2 ^ 32 -> (forall b, xconv2 (plc b) = Ok b) ->
  forall ds o, forallb (dinsn_wf caf daf) ds = true -> o + adv_sum caf ds < 2 ^ 32 ->
  conv_fde_from caf daf xconv2 o (map It (map (rd_of_dinsn plc) ds)) = Ok (locate o (map (sem caf daf) ds)).
Proof. exact fde_normal_form_lemma. Qed.

(* ---- non-vacuity: a CIE + FDE pair with nops, several advances, factored and unfactored offsets, state stack *)
Definition ex_p : sparams := {| sp_caf := 4; sp_daf := (-8)%Z; sp_asize := 8 |}.
Definition ex_cie : list item := [It (IDefCfa 7 8); It (IOffset 16 1)].
Definition ex_fde : list item :=
  [It (IAdvanceLoc 1); It (IDefCfaOffset 16); It INop; It (IAdvanceLoc 2); It (IAdvanceLoc 1);
   It (IOffsetExtendedSf 6 2); It IRememberState; It (IAdvanceLoc 1); It IRestoreState; It (IAdvanceLoc 3)].
Definition ex_x (e : uexpr) : res (list byte) := Err CUnsupportedOperation.
Definition ex_plc (b : list byte) : uexpr := {| ue_off := 0; ue_len := N.of_nat (length b) |}.

Example cfi_convert_ex :
  conv_cie 4 (-8) ex_x ex_cie = Ok [Cfa 7 8; Offset 16 (-8)] /\
  conv_fde 4 (-8) ex_x ex_fde = Ok [(4, CfaOffset 16); (16, Offset 6 (-16)); (16, RememberState); (20, RestoreState)] /\
  snd (run_spec ex_p 4096 4196 ex_cie ex_fde) = Done /\
  length (fst (run_spec ex_p 4096 4196 ex_cie ex_fde)) = 6%nat /\
  snd (converted_rows ex_plc 8 4096 4196 [Cfa 7 8; Offset 16 (-8)]
         [(4, CfaOffset 16); (16, Offset 6 (-16)); (16, RememberState); (20, RestoreState)]) = Done /\
  length (fst (converted_rows ex_plc 8 4096 4196 [Cfa 7 8; Offset 16 (-8)]
         [(4, CfaOffset 16); (16, Offset 6 (-16)); (16, RememberState); (20, RestoreState)])) = 4%nat.
Proof. vm_compute. repeat split. Qed.

(* what is not convertible is an error, never an approximation *)
Example cfi_unsupported :
  conv_fde 4 (-8) ex_x [It (ISetLoc 4100)] = Err CUnsupportedCfiInstruction /\
  conv_fde 4 (-8) ex_x [It (IDefCfa 7 (2 ^ 31))] = Err CUnsupportedCfiInstruction /\
  conv_fde 4 (-8) ex_x [It (IAdvanceLoc (2 ^ 30))] = Err CUnsupportedCfiInstruction /\
  conv_fde 4 (-8) ex_x [It (IOffset 6 (2 ^ 63))] = Err CUnsupportedCfiInstruction /\
  conv_fde 4 (-8) ex_x [It (IArgsSize (2 ^ 32))] = Err CUnsupportedCfiInstruction /\
  conv_fde 4 (-8) ex_x [It (IDefCfaOffset 8); Bad EUnknownCallFrameInstruction] = Err EUnknownCallFrameInstruction /\
  conv_entry 256 (-8) ex_x [] [] = Err CUnsupportedCfiInstruction.
Proof. vm_compute. repeat split. Qed.

Example cfi_typed_ex : forallb item_typed ex_cie = true /\ forallb item_typed ex_fde = true /\
  (forall e b, ex_x e = Ok b -> is_blob b = true) /\
  exists f cl fl cbs fbs, conv_entry 4 (-8) ex_x ex_cie ex_fde = Ok (f, cl, fl) /\
    write_insns true (-8) cl = Ok cbs /\ write_fde_insns true false 4 (-8) 0 fl = Ok fbs.
Proof.
  split; [reflexivity|]. split; [reflexivity|]. split; [discriminate|].
  do 5 eexists. split; [vm_compute; reflexivity|]. split; vm_compute; reflexivity.
Qed.

(* ... and the table read back from the written bytes exists (the inner hypothesis of cfi_convert_write_read_sound) *)
Example cfi_readback_ex :
  match conv_entry 4 (-8) ex_x ex_cie ex_fde with
  | Ok (_, cl, fl) =>
      match write_insns true (-8) cl, write_fde_insns true false 4 (-8) 0 fl with
      | Ok cbs, Ok fbs =>
          match decode_all false cbs, decode_all false fbs with
          | Some dsc, Some dsf =>
              snd (run_spec ex_p 4096 4196 (map It (map (rd_of_dinsn ex_plc) dsc)) (map It (map (rd_of_dinsn ex_plc) dsf))) = Done
          | _, _ => False
          end
      | _, _ => False
      end
  | _ => False
  end.
Proof. vm_compute. reflexivity. Qed.

Example cfi_normal_form_ex :
  forallb (dinsn_wf 4 (-8)) [DAdvance 1; DDefCfaOffset 16; DAdvance 3; DOffsetExtendedSf 6 2; DNop] = true /\
  0 + adv_sum 4 [DAdvance 1; DDefCfaOffset 16; DAdvance 3; DOffsetExtendedSf 6 2; DNop] < 2 ^ 32 /\
  locate 0 (map (sem 4 (-8)) [DAdvance 1; DDefCfaOffset 16; DAdvance 3; DOffsetExtendedSf 6 2; DNop])
    = [(4, CfaOffset 16); (16, Offset 6 (-16))].
Proof. vm_compute. repeat split. Qed.


(* ============================================================== (2) expressions *)
Require Import GV.Model.ConvertExpr GV.Proofs.ConvertExprProofs GV.Proofs.ConvertExprTyped.
Require GV.Spec.OpEncSpec GV.Model.OpWr GV.Model.OpDec GV.Proofs.OpWrProofs GV.Proofs.OpWrDec.

(* expr_convert_sound — for EVERY list of read operations with their end offsets (l; offsets_of l = operation
   starts ++ [length], as Expression::from computes them), every conversion callback (addresses, .debug_addr,
   unit / .debug_info references, nested entry_value blocks): if the second loop of Expression::from succeeds and
   the writer (C15 model OpWr) writes the result, then the written bytes decode (C15's independent opcode table
   OpEncSpec) to exactly one operation per source operation, in order, each being the source operation up to the
   documented normal forms (ConvertExpr.same_op): same operands; typed operations carry the unit offset the writer
   assigned to the entry the source offset was converted to; addresses are the converted constants; addrx / constx
   are resolved through .debug_addr; DW_OP_piece keeps its size; every DW_OP_skip / DW_OP_bra lands (written
   displacement) on the start of the written operation with the index of the source operation its source target
   designated; .debug_info references are written as placeholder + fix-up (C15 ref_fixup); an entry_value block is
   the written conversion of the source block.  Hypotheses on the result: values of the Rust types / decodable
   (C15's wf_op, decodable) — discharged for parsed input by expr_converted_well_typed below. *)
Theorem expr_convert_sound :
  forall (e : OpDec.enc) unit_addr cvt_addr unit_ref info_ref nested
         (l : list (OpDec.operation * N)) (ex : OpWr.wexpr)
         (dbg' : bool) (we : OpWr.enc) (uo : option OpWr.uoffs) (refs : bool) (base : N)
         (wbs : list byte) (fx : list OpWr.fixup),
  conv_ops e unit_addr cvt_addr unit_ref info_ref nested (offsets_of l) l = Ok ex ->
  OpWr.e_asize we = OpDec.e_asz e ->
  forallb OpWr.wf_op ex = true -> OpWr.wf_uoffs uo = true -> forallb OpWrDec.decodable ex = true ->
  base + OpWr.blen wbs < 2 ^ 63 ->
  OpWr.write_expr dbg' we uo refs base ex = Ok (wbs, fx) ->
  exists woffs dl,
    OpWr.expr_offsets dbg' we uo base ex = Ok woffs /\
    OpEncSpec.decode (OpWrProofs.dcfg_of we) wbs = Some dl /\ length dl = length l /\
    forall k o end_, nth_error l k = Some (o, end_) ->
      exists p d, nth_error woffs k = Some p /\ nth_error dl k = Some (p - base, d) /\
        same_op unit_addr cvt_addr unit_ref info_ref (OpWr.entry_offset dbg' uo)
                (nested_written nested dbg' we uo refs) (offsets_of l) woffs p o end_ d.
Proof. exact expr_convert_sound_lemma. Qed.

(* the same from the bytes of the source expression (Expression::from = conv_expr), all hypotheses about the
   converted expression discharged: callbacks return values of their Rust types, the slice is shorter than usize::MAX *)
Theorem expr_convert_sound_bytes :
  forall (dbg : bool) (e : OpDec.enc) unit_addr cvt_addr unit_ref info_ref (bs : list byte) (ex : OpWr.wexpr)
         (dbg' : bool) (we : OpWr.enc) (uo : option OpWr.uoffs) (refs : bool) (base : N)
         (wbs : list byte) (fx : list OpWr.fixup),
  (forall x en, unit_ref x = Ok en -> en < 2 ^ 64) ->
  (forall x r, info_ref x = Ok r -> OpWr.wf_ref r = true) ->
  (forall a w, cvt_addr a = Some w -> OpWr.wf_op (OpWr.WoAddress w) = true) ->
  (forall ua i v, unit_addr = Some ua -> ua i = Ok v -> v < 2 ^ 64) ->
  OpWr.blen bs < 2 ^ 64 - 1 ->
  conv_expr dbg e unit_addr cvt_addr unit_ref info_ref bs = Ok ex ->
  OpWr.e_asize we = OpDec.e_asz e -> OpWr.wf_uoffs uo = true -> base + OpWr.blen wbs < 2 ^ 63 ->
  OpWr.write_expr dbg' we uo refs base ex = Ok (wbs, fx) ->
  exists l woffs dl,
    op_ends dbg e (S (length bs)) bs 0 = Ok l /\
    OpWr.expr_offsets dbg' we uo base ex = Ok woffs /\
    OpEncSpec.decode (OpWrProofs.dcfg_of we) wbs = Some dl /\ length dl = length l /\
    forall k o end_, nth_error l k = Some (o, end_) ->
      exists p d, nth_error woffs k = Some p /\ nth_error dl k = Some (p - base, d) /\
        same_op unit_addr cvt_addr unit_ref info_ref (OpWr.entry_offset dbg' uo)
                (nested_written (conv_expr_fuel dbg e unit_addr cvt_addr unit_ref info_ref (length bs)) dbg' we uo refs)
                (offsets_of l) woffs p o end_ d.
Proof.
  intros dbg e unit_addr cvt_addr unit_ref info_ref bs ex dbg' we uo refs base wbs fx Hur Hir Hca Hua Hb Hc Hasz Huo Hpos Hw.
  destruct (conv_expr_fuel_wf dbg e unit_addr cvt_addr unit_ref info_ref Hur Hir Hca Hua _ _ _ Hb Hc) as [Hwf Hdec].
  unfold conv_expr in Hc. cbn [conv_expr_fuel] in Hc. binds Hc.
  destruct (expr_convert_sound_lemma e unit_addr cvt_addr unit_ref info_ref _ v ex dbg' we uo refs base wbs fx
              Hc Hasz Hwf Huo Hdec Hpos Hw) as [woffs [dl [H1 [H2 [H3 H4]]]]].
  exists v, woffs, dl. auto.
Qed.

(* a branch whose target (offset after the operation + displacement, in usize arithmetic) is not the start of an
   operation nor the end of the expression is InvalidBranchTarget — never redirected; a resolved index is the
   index of exactly that offset *)
Theorem expr_branch_target_exact : forall e unit_addr cvt_addr unit_ref info_ref nested offsets end_ target,
  let tgt := wrap64 (end_ + of_i64 target) in
  (~ In tgt offsets ->
     conv_op e unit_addr cvt_addr unit_ref info_ref nested offsets (OpDec.OBra target) end_ = Err CInvalidBranchTarget /\
     conv_op e unit_addr cvt_addr unit_ref info_ref nested offsets (OpDec.OSkip target) end_ = Err CInvalidBranchTarget) /\
  (forall i, conv_op e unit_addr cvt_addr unit_ref info_ref nested offsets (OpDec.OBra target) end_ = Ok (OpWr.WoBranch i) ->
     nth_error offsets (N.to_nat i) = Some tgt) /\
  (forall i, conv_op e unit_addr cvt_addr unit_ref info_ref nested offsets (OpDec.OSkip target) end_ = Ok (OpWr.WoSkip i) ->
     nth_error offsets (N.to_nat i) = Some tgt).
Proof.
  intros e unit_addr cvt_addr unit_ref info_ref nested offsets end_ target.
  cbv zeta. cbn [conv_op]. unfold branch_index. split; [|split].
  - intros H. apply index_of_none with (i := 0) in H. rewrite H. cbn. auto.
  - intros i H. destruct (index_of _ offsets 0) as [k|] eqn:E; cbn in H; inversion H; subst.
    apply index_of_some in E. rewrite N.sub_0_r in E. apply E.
  - intros i H. destruct (index_of _ offsets 0) as [k|] eqn:E; cbn in H; inversion H; subst.
    apply index_of_some in E. rewrite N.sub_0_r in E. apply E.
Qed.

(* the offsets vector of the first loop is strictly increasing and ends with the length of the expression:
   `binary_search` (modelled by index_of) finds the unique index *)
Theorem expr_offsets_sorted : forall dbg e fuel bs pos l,
  op_ends dbg e fuel bs pos = Ok l ->
  StronglySorted N.lt (pos :: map snd l) /\ last (pos :: map snd l) 0 = pos + OpWr.blen bs.
Proof. exact op_ends_sorted. Qed.

(* Operation::parse returns values of the Rust field types, so Expression::from returns a well-typed, decodable
   write::Expression (the hypotheses of the C15 theorems), nested blocks included *)
Theorem expr_converted_well_typed : forall dbg e unit_addr cvt_addr unit_ref info_ref,
  (forall x en, unit_ref x = Ok en -> en < 2 ^ 64) ->
  (forall x r, info_ref x = Ok r -> OpWr.wf_ref r = true) ->
  (forall a w, cvt_addr a = Some w -> OpWr.wf_op (OpWr.WoAddress w) = true) ->
  (forall ua i v, unit_addr = Some ua -> ua i = Ok v -> v < 2 ^ 64) ->
  forall fuel bs ex, OpWr.blen bs < 2 ^ 64 - 1 ->
  conv_expr_fuel dbg e unit_addr cvt_addr unit_ref info_ref fuel bs = Ok ex ->
  forallb OpWr.wf_op ex = true /\ forallb OpWrDec.decodable ex = true.
Proof. exact conv_expr_fuel_wf. Qed.

(* the stated fuel suffices (callbacks that terminate) *)
Theorem expr_fuel_suffices : forall dbg e unit_addr cvt_addr unit_ref info_ref,
  (forall x, unit_ref x <> OutOfFuel) -> (forall x, info_ref x <> OutOfFuel) ->
  (forall ua i, unit_addr = Some ua -> ua i <> OutOfFuel) ->
  forall fuel bs, (length bs < fuel)%nat ->
  conv_expr_fuel dbg e unit_addr cvt_addr unit_ref info_ref fuel bs <> OutOfFuel.
Proof.
  intros dbg e unit_addr cvt_addr unit_ref info_ref Fur Fir Fua.
  induction fuel as [|f IH]; intros bs Hf; [lia|]. cbn [conv_expr_fuel].
  apply Lib.bind_not_fuel; [apply op_ends_fuel; lia|]. intros l Hl.
  destruct (op_ends_facts dbg e _ _ _ _ Hl) as [Hfa _].
  apply (conv_ops_fuel e unit_addr cvt_addr unit_ref info_ref Fur Fir Fua _ _ (length bs)).
  - eapply Forall_impl; [|exact Hfa]. intros a [_ H]. exact H.
  - intros x Hx. apply IH. lia.
Qed.

(* normal_form (expressions), per operation.
   FULL statement (not proved): conv_expr2 (bytes written for conv_expr bs) = conv_expr bs, i.e. a second
   Expression::from on the written expression reproduces the first result.
   PROVED: for every operation without a .debug_info reference, the operation a reader reports (op_of_dop: the
   read::Operation vocabulary of a decoded operation) for the written form (C15 normal_form) of the converted
   operation converts to the same write operation again — branches resolve to the same operation index (the written
   displacement added in usize arithmetic to the offset after the branch is the start of the target), typed operations
   find the same entry, deref/deref_size/deref_type, pick/dup/over, lit/constu, reg/regx, piece keep their kind.
   MISSING for the full statement: (i) that the written operation starts are strictly increasing (every written
   operation is non-empty) as a consequence of C15 instead of a hypothesis; (ii) the tie between the reader model's
   parse (C07 OpDec.parse_op) and the decode table of C15 on written bytes (a reader∘writer theorem of C15);
   (iii) .debug_info references, whose written value is a placeholder until the fix-ups are applied (C15
   fixup_resolved).  The whole-expression property is exercised by the oracle streams (idempotence-mismatch). *)
Require Import GV.Proofs.ConvertExprNormal.
Theorem expr_normal_form_partial :
  forall (e : OpDec.enc) unit_addr cvt_addr unit_ref info_ref nested
         (dbg' : bool) (we : OpWr.enc) (uo : option OpWr.uoffs) (refs : bool)
         (e2 : OpDec.enc) unit_addr2 cvt_addr2 unit_ref2 info_ref2 nested2,
  OpWr.e_asize we = OpDec.e_asz e -> OpDec.e_asz e2 = OpWr.e_asize we ->
  (forall v, cvt_addr2 v = Some (OpWr.AConst v)) ->
  (forall en off, OpWr.entry_offset dbg' uo en = Ok off -> off <> 0 /\ unit_ref2 off = Ok en) ->
  (forall x inner wb p fx,
     nested x = Ok inner -> OpWr.write_expr dbg' we uo refs p inner = Ok (wb, fx) -> nested2 wb = Ok inner) ->
  forall soffs woffs base wpos o end_ wo bs d,
  conv_op e unit_addr cvt_addr unit_ref info_ref nested soffs o end_ = Ok wo ->
  OpWrDec.normal_form dbg' we uo refs woffs wpos wo bs d ->
  info_ref_free o = true ->
  StronglySorted N.lt (map (fun p => p - base) woffs) -> Forall (fun p => base <= p /\ p < 2 ^ 63) woffs ->
  base <= wpos -> wpos + 3 < 2 ^ 63 ->
  exists o2, op_of_dop d = Some o2 /\
    forall end2, (is_branch o = true -> end2 = wpos + 3 - base) ->
      conv_op e2 unit_addr2 cvt_addr2 unit_ref2 info_ref2 nested2 (map (fun p => p - base) woffs) o2 end2 = Ok wo.
Proof. exact expr_normal_form_op_lemma. Qed.


(* ---- non-vacuity: lit5; skip +3 (over the bregx); bregx 40,-8; bra -9 (back to the skip); addr; entry_value{reg5} *)
Definition ex_enc : OpDec.enc := OpDec.mkEnc 8 false 5 false.
Definition ex_wenc : OpWr.enc := {| OpWr.e_version := 5; OpWr.e_fmt64 := false; OpWr.e_asize := 8; OpWr.e_be := false |}.
Definition ex_cvt (a : N) : option OpWr.waddr := Some (OpWr.AConst a).
Definition ex_uref (o : N) : res N := if o =? 29 then Ok 2 else Err CInvalidUnitRef.
Definition ex_iref (o : N) : res OpWr.dref := Err CInvalidDebugInfoRef.
Definition ex_bytes : list byte :=
  [x35; x2f; x03; x00; x92; x28; x78; x28; xf7; xff; x03; x00; x10; x00; x00; x00; x00; x00; x00; xa3; x01; x55].

Example expr_convert_ex :
  conv_expr true ex_enc None ex_cvt ex_uref ex_iref ex_bytes =
    Ok [OpWr.WoUConst 5; OpWr.WoSkip 3; OpWr.WoRegOffset 40 (-8); OpWr.WoBranch 1; OpWr.WoAddress (OpWr.AConst 4096);
        OpWr.WoEntryValue [OpWr.WoRegister 5]] /\
  OpWr.write_expr true ex_wenc None false 0
    [OpWr.WoUConst 5; OpWr.WoSkip 3; OpWr.WoRegOffset 40 (-8); OpWr.WoBranch 1; OpWr.WoAddress (OpWr.AConst 4096);
     OpWr.WoEntryValue [OpWr.WoRegister 5]] = Ok (ex_bytes, []).
Proof. vm_compute. split; reflexivity. Qed.

Example expr_branch_into_operand :   (* skip +1 lands inside the bregx: rejected *)
  conv_expr true ex_enc None ex_cvt ex_uref ex_iref [x2f; x01; x00; x92; x28; x78] = Err CInvalidBranchTarget /\
  conv_expr true ex_enc None ex_cvt ex_uref ex_iref [x2f; x03; x00; x92; x28; x78] = Ok [OpWr.WoSkip 2; OpWr.WoRegOffset 40 (-8)] /\
  conv_expr true ex_enc None ex_cvt ex_uref ex_iref [xa1; x00] = Err CUnsupportedOperation /\
  conv_expr true ex_enc None ex_cvt ex_uref ex_iref [xa8; x1d] = Ok [OpWr.WoConvert (Some 2)] /\
  conv_expr true ex_enc None ex_cvt ex_uref ex_iref [xa8; x1e] = Err CInvalidUnitRef /\
  conv_expr true ex_enc None ex_cvt ex_uref ex_iref [x93] = Err EUnexpectedEof.
Proof. vm_compute. repeat split. Qed.

Example expr_callbacks_ex :
  (forall x en, ex_uref x = Ok en -> en < 2 ^ 64) /\ (forall x r, ex_iref x = Ok r -> OpWr.wf_ref r = true) /\
  (forall a w, a < 2 ^ 64 -> ex_cvt a = Some w -> OpWr.wf_op (OpWr.WoAddress w) = true).
Proof.
  split; [|split].
  - intros x en. unfold ex_uref. destruct (x =? 29); intros H; inversion H. reflexivity.
  - discriminate.
  - intros a w Ha H. inversion H; subst. cbn. unfold OpWr.is_u64, two64. apply N.ltb_lt. exact Ha.
Qed.

Example expr_normal_form_ex :   (* the branch of expr_convert_ex: written at 7, displacement -9, target = operation 1 at offset 1 *)
  StronglySorted N.lt (map (fun p => p - 0) [0; 1; 4; 7; 10; 19; 22]) /\
  OpWrDec.normal_form true ex_wenc None false [0; 1; 4; 7; 10; 19; 22] 7 (OpWr.WoBranch 1) [x28; xf7; xff] (OpEncSpec.DoBra (-9)) /\
  op_of_dop (OpEncSpec.DoBra (-9)) = Some (OpDec.OBra (-9)) /\
  conv_op ex_enc None ex_cvt ex_uref ex_iref (fun _ => Err EOther) [0; 1; 4; 7; 10; 19; 22] (OpDec.OBra (-9)) 10 = Ok (OpWr.WoBranch 1).
Proof.
  split; [repeat constructor; vm_compute; reflexivity|]. split; [|split; vm_compute; reflexivity].
  cbn. exists 1, (-9)%Z. repeat split.
Qed.

(* ============================================================== (3) range and location lists *)
Require Import GV.Model.ConvertLists GV.Proofs.ConvertListsProofs.
Require GV.Spec.ListSpec GV.Spec.ListWrSpec GV.Model.ListsRd.

(* range_convert_sound — for EVERY raw range list (all entry kinds of .debug_ranges / .debug_rnglists incl. the
   pre-v5 address-or-offset pair and the indexed forms; an iterator error ends the conversion with that error),
   every unit base address, address size >= 1 and .debug_addr: with a non-relocating address conversion, if
   RangeList::from succeeds then the converted list has a meaning (C16 ListWrSpec.meaning_rng: what the written
   list denotes relative to the unit base) and it is exactly the list of address ranges the source list resolves
   to (C08 ListSpec.resolve_rng): base-address bookkeeping agrees, pairs are taken as offsets exactly when a base
   address is in force, empty ranges vanish on both sides.  lent_fits: raw addresses fit the address size. *)
Theorem range_convert_sound : forall (cvt : N -> option ListWrSpec.addr) (uaddr : N -> res N) (asz : N),
  1 <= asz -> (forall a w, cvt a = Some w -> w = ListWrSpec.AConst a) ->
  forall low_pc es l,
  Forall (lent_fits asz) (items es) ->
  conv_range_list cvt uaddr low_pc es = Ok l ->
  exists rs,
    ListWrSpec.meaning_rng asz low_pc l = Some rs /\
    ListSpec.resolve_rng asz (tbl_of uaddr) low_pc (items es) = Some rs.
Proof.
  intros cvt uaddr asz Hasz Hcvt low_pc es l Hfit H. unfold conv_range_list in H. apply conv_ranges_locs in H.
  destruct (loc_convert_sound_lemma cvt uaddr noexpr asz Hasz Hcvt low_pc (map as_loc es) (map ListWrSpec.loc_of_range l))
    as [rs [rs0 [Hm [Hr Hall]]]]; [rewrite items_as_loc, Forall_map; exact Hfit|exact H|].
  apply drel_noexpr_eq in Hall. subst rs0. exists (map fst rs). split.
  - unfold ListWrSpec.meaning_rng. unfold ListWrSpec.meaning_loc in Hm.
    destruct (ListWrSpec.ents_of (map ListWrSpec.loc_of_range l)); [|discriminate]. cbn [option_map] in *. inversion Hm. reflexivity.
  - rewrite resolve_rng_loc. rewrite items_as_loc in Hr. rewrite Hr. reflexivity.
Qed.

(* loc_convert_sound — the same for location lists (default location included); each resolved range carries the
   converted expression of the source entry (drel: xconv source = Ok converted) *)
Theorem loc_convert_sound : forall (cvt : N -> option ListWrSpec.addr) (uaddr : N -> res N)
    (xconv : list byte -> res (list byte)) (asz : N),
  1 <= asz -> (forall a w, cvt a = Some w -> w = ListWrSpec.AConst a) ->
  forall low_pc xs l,
  Forall (fun x => lent_fits asz (fst x)) (items xs) ->
  conv_loc_list cvt uaddr xconv low_pc xs = Ok l ->
  exists rs rs0,
    ListWrSpec.meaning_loc asz low_pc l = Some rs /\
    ListSpec.resolve_loc asz (tbl_of uaddr) low_pc (items xs) = Some rs0 /\
    Forall2 (drel xconv) rs0 rs.
Proof. exact loc_convert_sound_lemma. Qed.

(* normal_form (lists): the entries a reader finds in the written list (C16: dec5 yields ents_of l, dec4 yields
   pairs_of l) convert to the same list again — DWARF 5 entries unconditionally, pre-v5 pairs for lists in pair
   form (offset pairs exactly while a base address is in force) — given that the second expression conversion
   reproduces the written expressions *)
Theorem list_normal_form_v5 : forall (cvt : N -> option ListWrSpec.addr) uaddr xconv2,
  (forall a, cvt a = Some (ListWrSpec.AConst a)) ->
  forall l ents hb,
  ListWrSpec.ents_of l = Some ents -> forallb keep_loc l = true ->
  Forall (fun y => xconv2 (loc_data y) = Ok (loc_data y)) l ->
  conv_locs cvt uaddr xconv2 hb (map (fun x => ListsRd.EvItem (raw_of_ent x)) ents) = Ok l.
Proof. exact locs_normal_form_v5. Qed.

Theorem list_normal_form_v4 : forall (cvt : N -> option ListWrSpec.addr) uaddr xconv2,
  (forall a, cvt a = Some (ListWrSpec.AConst a)) ->
  forall l ps hb,
  ListWrSpec.pairs_of l = Some ps -> pair_form hb l = true -> forallb keep_loc l = true ->
  Forall (fun y => xconv2 (loc_data y) = Ok (loc_data y)) l ->
  conv_locs cvt uaddr xconv2 hb (map (fun x => ListsRd.EvItem (raw_of_ent x)) ps) = Ok l.
Proof. exact locs_normal_form_v4. Qed.

(* ---- non-vacuity: a DWARF 4 style list (pairs relative to low_pc, base selection, an empty pair) and a v5 one *)
Definition ex_lcvt (a : N) : option ListWrSpec.addr := Some (ListWrSpec.AConst a).
Definition ex_uaddr (i : N) : res N := if i <? 2 then Ok (8192 + 16 * i) else Err EUnexpectedEof.
Example range_convert_ex :
  conv_range_list ex_lcvt ex_uaddr 4096
    [ListsRd.EvItem (ListSpec.LPair 16 32); ListsRd.EvItem (ListSpec.LPair 5 5); ListsRd.EvItem (ListSpec.LBase 65536);
     ListsRd.EvItem (ListSpec.LPair 1 2); ListsRd.EvItem (ListSpec.LStartxLength 1 4)]
  = Ok [ListWrSpec.ROffsetPair 16 32; ListWrSpec.RBase (ListWrSpec.AConst 65536); ListWrSpec.ROffsetPair 1 2;
        ListWrSpec.RStartLength (ListWrSpec.AConst 8208) 4] /\
  conv_range_list ex_lcvt ex_uaddr 0 [ListsRd.EvItem (ListSpec.LPair 16 32)]
  = Ok [ListWrSpec.RStartEnd (ListWrSpec.AConst 16) (ListWrSpec.AConst 32)] /\
  ListSpec.resolve_rng 8 (tbl_of ex_uaddr) 4096
    [ListSpec.LPair 16 32; ListSpec.LPair 5 5; ListSpec.LBase 65536; ListSpec.LPair 1 2; ListSpec.LStartxLength 1 4]
  = Some [(4112, 4128); (65537, 65538); (8208, 8212)] /\
  conv_range_list ex_lcvt ex_uaddr 0 [ListsRd.EvItem (ListSpec.LStartxEndx 0 7)] = Err EUnexpectedEof /\
  conv_range_list (fun _ => None) ex_uaddr 0 [ListsRd.EvItem (ListSpec.LBase 1)] = Err CInvalidAddress /\
  conv_range_list ex_lcvt ex_uaddr 0 [ListsRd.EvItem (ListSpec.LBase 1); ListsRd.EvErr EUnknownRangeListsEntry]
  = Err EUnknownRangeListsEntry.
Proof. vm_compute. repeat split. Qed.

Example range_fits_ex : Forall (lent_fits 8) [ListSpec.LPair 16 32; ListSpec.LBase 65536; ListSpec.LStartxLength 1 4].
Proof. repeat constructor; vm_compute; reflexivity. Qed.

Example list_normal_form_ex :
  pair_form true [ListWrSpec.LOffsetPair 16 32 [x9c]; ListWrSpec.LBase (ListWrSpec.AConst 65536); ListWrSpec.LOffsetPair 1 2 []] = true /\
  ListWrSpec.pairs_of [ListWrSpec.LOffsetPair 16 32 [x9c]; ListWrSpec.LBase (ListWrSpec.AConst 65536); ListWrSpec.LOffsetPair 1 2 []]
    = Some [ListWrSpec.EPair 16 32 [x9c]; ListWrSpec.EBase 65536; ListWrSpec.EPair 1 2 []].
Proof. vm_compute. split; reflexivity. Qed.

(* ============================================================== (4) attribute values *)
Require Import GV.Model.ConvertAttr GV.Proofs.ConvertAttrProofs.
Require GV.Spec.FormSpec GV.Model.Attr GV.Spec.UnitWrSpec GV.Model.UnitWr GV.Proofs.UnitWrProofs.

(* attr_convert_sound — for every attribute whose value kind carries its meaning in the value (constants of every
   width, sdata / udata, flags, blocks, inline strings, addresses direct and through .debug_addr, supplementary /
   macro / type-signature offsets, the class constants): convert_attribute_value, then AttributeValue::write (C11
   model), then the form decoder of C11 under the form the writer chose: the data read back is the data of the
   source value (rd_payload of Attribute::value()).  Non-relocating address conversion; values within their Rust
   widths (rd_value_typed). *)
Theorem attr_convert_sound :
  forall ver files (cvt : N -> option UnitWr.address) uaddr (dbg : bool) (cx : UnitWr.wcx) form name raw av ops rest,
  (forall a w, cvt a = Some w -> w = UnitWr.AConst a) ->
  form <> Attr.DW_FORM_implicit_const -> form <> Attr.DW_FORM_flag_present ->
  is_file_index (Attr.attr_normalise name raw) = false ->
  rd_value_typed (Attr.attr_normalise name raw) ->
  (forall i a, uaddr i = Ok a -> a < 2 ^ 64) ->
  conv_attr ver files cvt uaddr form name raw = Ok (Some av) ->
  UnitWr.av_write dbg cx av = Ok ops -> UnitWrProofs.av_decodable av ->
  exists payload,
    rd_payload uaddr (Attr.attr_normalise name raw) = Some payload /\
    UnitWrSpec.form_decode (UnitWr.wc_enc cx) (UnitWr.wc_be cx) (fst (UnitWr.av_form (UnitWr.wc_enc cx) av))
                (match snd (UnitWr.av_form (UnitWr.wc_enc cx) av) with Some z => z | None => 0%Z end)
                (UnitWr.ops_bytes ops ++ rest) = Some (payload, rest).
Proof.
  intros ver files cvt uaddr dbg cx form name raw av ops rest Hcvt Hf1 Hf2 Hfile Ht Hua Hc Hw Hd.
  exists (UnitWrProofs.av_raw cx av). split.
  - eapply conv_attr_payload; eauto.
  - apply (UnitWrProofs.av_write_decodes dbg); assumption.
Qed.

(* the file-index rule (repo fix b755e5a): whether the index is stored in the DIE or in the abbreviation
   (DW_FORM_implicit_const), it is replaced by the id the converted line program gave that file; index 0 of a
   DWARF <= 4 unit is "no file"; an index outside the table is InvalidFileIndex; never copied verbatim *)
Theorem attr_file_index_rule : forall ver files (cvt : N -> option UnitWr.address) uaddr form name raw i,
  Attr.attr_normalise name raw = FormSpec.VFileIndex i ->
  (form = Attr.DW_FORM_implicit_const -> exists z, raw = FormSpec.VSdata z) ->
  conv_attr ver files cvt uaddr form name raw =
    if (i =? 0) && (ver <=? 4) then Ok (Some (UnitWr.AvFileIndex None))
    else match nth_N files i with
         | Some id => Ok (Some (UnitWr.AvFileIndex (Some id)))
         | None => Err CInvalidFileIndex
         end.
Proof.
  intros ver files cvt uaddr form name raw i Hv Hic. unfold conv_attr. rewrite Hv.
  destruct (form =? Attr.DW_FORM_implicit_const) eqn:Ef; [destruct (Hic (proj1 (N.eqb_eq _ _) Ef)) as [z ->]|];
    unfold conv_file_index; destruct ((i =? 0) && (ver <=? 4)); try reflexivity; destruct (nth_N files i); reflexivity.
Qed.

(* ... and the written index (1-based up to DWARF 4 line programs) reads back as that id (C11) *)
Theorem attr_file_index_written : forall dbg lpv id r,
  id + 1 < 2 ^ 64 -> UnitWr.file_raw dbg lpv (Some id) = Ok r -> UnitWrProofs.file_of_raw lpv r = Some id.
Proof. exact UnitWrProofs.file_index_roundtrip_lemma. Qed.

(* other implicit constants keep the constant of the abbreviation; flag_present stays flag_present;
   DwoId is written as Udata, which reads back as DwoId under DW_AT_GNU_dwo_id *)
Theorem attr_implicit_const : forall ver files (cvt : N -> option UnitWr.address) uaddr name z,
  is_file_index (Attr.attr_normalise name (FormSpec.VSdata z)) = false ->
  conv_attr ver files cvt uaddr Attr.DW_FORM_implicit_const name (FormSpec.VSdata z) = Ok (Some (UnitWr.AvImplicitConst z)).
Proof.
  intros ver files cvt uaddr name z Hf. unfold conv_attr. rewrite N.eqb_refl.
  destruct (Attr.attr_normalise name (FormSpec.VSdata z)); try reflexivity. discriminate.
Qed.

Theorem attr_flag_present : forall ver files (cvt : N -> option UnitWr.address) uaddr name raw f,
  Attr.attr_normalise name raw = FormSpec.VFlag f ->
  conv_attr ver files cvt uaddr Attr.DW_FORM_flag_present name raw = Ok (Some UnitWr.AvFlagPresent).
Proof. intros ver files cvt uaddr name raw f Hv. unfold conv_attr. rewrite Hv. reflexivity. Qed.

Theorem attr_dwo_id_normal_form : forall v, Attr.attr_normalise 8497 (FormSpec.VUdata v) = FormSpec.VDwoId v.
Proof. reflexivity. Qed.

(* ---- non-vacuity: decl_file through implicit_const in a DWARF 5 unit whose files were renumbered *)
Definition ex_acvt (a : N) : option UnitWr.address := Some (UnitWr.AConst a).
Example attr_convert_ex :
  conv_attr 5 [0; 2; 1] ex_acvt ex_uaddr Attr.DW_FORM_implicit_const 58 (FormSpec.VSdata 1) = Ok (Some (UnitWr.AvFileIndex (Some 2))) /\
  conv_attr 5 [0; 2; 1] ex_acvt ex_uaddr Attr.DW_FORM_implicit_const 58 (FormSpec.VSdata 7) = Err CInvalidFileIndex /\
  conv_attr 4 [0; 2; 1] ex_acvt ex_uaddr Attr.DW_FORM_data1 58 (FormSpec.VData1 0) = Ok (Some (UnitWr.AvFileIndex None)) /\
  conv_attr 5 [0; 2; 1] ex_acvt ex_uaddr Attr.DW_FORM_implicit_const 59 (FormSpec.VSdata 7) = Ok (Some (UnitWr.AvImplicitConst 7)) /\
  conv_attr 5 [] ex_acvt ex_uaddr Attr.DW_FORM_data1 62 (FormSpec.VData1 5) = Ok (Some (UnitWr.AvEncoding 5)) /\
  conv_attr 5 [] ex_acvt ex_uaddr Attr.DW_FORM_addrx 17 (FormSpec.VDebugAddrIndex 1) = Ok (Some (UnitWr.AvAddress (UnitWr.AConst 8208))) /\
  conv_attr 5 [] ex_acvt ex_uaddr Attr.DW_FORM_data8 8497 (FormSpec.VData8 77) = Ok (Some (UnitWr.AvUdata 77)) /\
  conv_attr 5 [] ex_acvt ex_uaddr Attr.DW_FORM_sec_offset 1 (FormSpec.VSecOffset 3) = Err CInvalidAttributeValue /\
  conv_attr 5 [] ex_acvt ex_uaddr Attr.DW_FORM_ref4 73 (FormSpec.VUnitRef 12) = Ok None.
Proof. vm_compute. repeat split. Qed.

(* ============================================================== (5) ConvertLineProgram (line programs)
   Model/ConvertLine.v mirrors write::line::convert (new, convert_file, read_row, read_sequence, convert) over the
   line READER model of C04 (Model/LineRd.v) and the line WRITER model of C13 (Model/LineWr.v); it is tied to gimli
   by stream c12.lineconv.

   FULL statement aimed at (line_convert_sound):  convert p = Ok p' and not KnownClass p ->
       rows (read (write p')) = rows p, sequence by sequence (addresses = sequence base + address_offset).
   PROVED here:
     line_convert_error_or_exact   the address offset and every row register are copied verbatim, the file register
                                   is mapped through the FileId table, or the call returns the specific error
                                   (unaligned offset -> UnsupportedLineInstruction, never a truncated offset);
     line_convert_offset_exact     every instruction except DW_LNE_set_address acts on the converter's private row
                                   (address = offset from the sequence base) exactly as the reader executes it on
                                   the real row: offset' = address' - base; a reader success is a converter success;
     line_convert_set_address_*    DW_LNE_set_address at offset 0 keeps the private row at 0 (so base := operand is
                                   exact); after the row has advanced it TOMBSTONES the private row — the F10 class;
     line_convert_midseq_refuted / line_convert_vliw_refuted   the two known findings, as model witnesses;
     line_convert_sound_script_partial / line_convert_sound_script   the whole-program simulation: events = reader
                                   rows (plus ghost sequences where a DW_LNE_set_address operand is -2);
     line_convert_is_replay / _replay_is_script / _emits_meaning   convert() = the events replayed through the writer
                                   = C13's meaning of the event script.
   MISSING for the full statement: the composition with C13's program_roundtrip_* (see the comment at
   line_convert_is_replay); whole programs are additionally decided by the oracle streams
   c12.line / c12.vliw / c12.line5 and by the model stream c12.lineconv. *)
Require GV.Spec.LineSpec GV.Model.LineRd GV.Model.LineWr GV.Model.ConvertLine GV.Proofs.LineRdMono
        GV.Proofs.ConvertLineProofs GV.Proofs.ConvertLineSafe GV.Proofs.ConvertLineSim.

Theorem line_convert_address_offset_exact : forall c,
  match ConvertLine.convert_address_offset c with
  | Ok a => a = LineRd.r_addr (ConvertLine.cl_row c) /\
            (LineWr.le_min_len (LineWr.p_lenc (ConvertLine.cl_prog c)) <= 1 \/
             a mod LineWr.le_min_len (LineWr.p_lenc (ConvertLine.cl_prog c)) = 0)
  | Err e => e = CUnsupportedLineInstruction /\ 1 < LineWr.le_min_len (LineWr.p_lenc (ConvertLine.cl_prog c)) /\
             LineRd.r_addr (ConvertLine.cl_row c) mod LineWr.le_min_len (LineWr.p_lenc (ConvertLine.cl_prog c)) <> 0
  | _ => False
  end.
Proof. exact ConvertLineProofs.address_offset_exact. Qed.

Theorem line_convert_error_or_exact : forall h c,
  match ConvertLine.convert_row h c with
  | Ok w => ConvertLineProofs.row_fields_verbatim (ConvertLine.cl_row c) w /\
            nth_error (ConvertLine.cl_files c) (N.to_nat (LineRd.r_file (ConvertLine.cl_row c))) = Some (LineWr.w_file w) /\
            (LineSpec.h_version h <= 4 -> LineRd.r_file (ConvertLine.cl_row c) <> 0) /\
            (LineWr.le_min_len (LineWr.p_lenc (ConvertLine.cl_prog c)) <= 1 \/
             LineWr.w_address_offset w mod LineWr.le_min_len (LineWr.p_lenc (ConvertLine.cl_prog c)) = 0)
  | Err e => (e = CUnsupportedLineInstruction /\ 1 < LineWr.le_min_len (LineWr.p_lenc (ConvertLine.cl_prog c)) /\
              LineRd.r_addr (ConvertLine.cl_row c) mod LineWr.le_min_len (LineWr.p_lenc (ConvertLine.cl_prog c)) <> 0) \/
             (e = CInvalidFileIndex /\
              (N.of_nat (length (ConvertLine.cl_files c)) <= LineRd.r_file (ConvertLine.cl_row c) \/
               (LineRd.r_file (ConvertLine.cl_row c) = 0 /\ LineSpec.h_version h <= 4)))
  | _ => False
  end.
Proof. exact ConvertLineProofs.convert_row_exact. Qed.

Theorem line_convert_offset_exact : forall dbg h r i b r' x,
  LineRdMono.hdr_ok h -> LineRd.r_tomb r = false -> b <= LineRd.r_addr r ->
  (forall a, i <> LineSpec.ISetAddress a) ->
  LineRd.execute dbg h r i = Ok (r', x) -> (forall e, x <> LineRd.XErr e) ->
  LineRd.execute dbg h (ConvertLineProofs.rebase b r) i = Ok (ConvertLineProofs.rebase b r', x) /\
  LineRd.r_tomb r' = false /\ b <= LineRd.r_addr r'.
Proof. exact ConvertLineProofs.execute_rebase. Qed.

Theorem line_convert_set_address_first : forall dbg h q,
  LineRdMono.hdr_ok h -> LineRd.r_addr q = 0 ->
  LineRd.execute dbg h q (LineSpec.ISetAddress 0) =
    Ok (LineRd.set_opi (LineRd.set_addr (LineRd.set_tomb q false) 0) 0, LineRd.XNoRow).
Proof. exact ConvertLineProofs.set_address_zero. Qed.

Theorem line_convert_set_address_midseq : forall dbg h q,
  0 < LineRd.r_addr q ->
  LineRd.execute dbg h q (LineSpec.ISetAddress 0) = Ok (LineRd.set_tomb q true, LineRd.XNoRow).
Proof.
  intros dbg h q Hq. cbn [LineRd.execute]. destruct (0 <? LineRd.r_addr q) eqn:E; [reflexivity|lia].
Qed.

(* the hypotheses are met by real rows: C04's sample header, a row at 0x1010 seen from base 0x1000 *)
Example line_convert_offset_exact_hyps :
  LineRdMono.hdr_ok LineRdMono.sample_header /\
  LineRd.execute true LineRdMono.sample_header
    (LineRd.set_addr (LineRd.row_new LineRdMono.sample_header) 4112) (LineSpec.IAdvancePc 3) =
    Ok (LineRd.set_addr (LineRd.row_new LineRdMono.sample_header) 4115, LineRd.XNoRow) /\
  LineRd.execute true LineRdMono.sample_header
    (ConvertLineProofs.rebase 4096 (LineRd.set_addr (LineRd.row_new LineRdMono.sample_header) 4112)) (LineSpec.IAdvancePc 3) =
    Ok (LineRd.set_addr (LineRd.row_new LineRdMono.sample_header) 19, LineRd.XNoRow).
Proof. split; [exact (proj1 LineRdMono.hdr_ok_examples)|]. vm_compute. split; reflexivity. Qed.

(* line_convert_no_panic (both build modes, EVERY byte string as the program, every header that
   LineProgramHeader::parse can return — C04's hdr_ok, see parse_header_hdr_ok —, INCLUDING VLIW headers):
   a read_row call never panics and never runs out of fuel, keeps the private row inside the address size, and
   every returned event strictly decreases the measure 2 * |remaining input| + state weight; hence the
   whole-program iteration `while let Some(row) = convert.read_row()?` terminates within its fuel.
   (The writer half of convert — generate_row / end_sequence — can panic exactly in the VLIW class: see
   line_convert_vliw_refuted and C13's op_advance_overflow_refuted.) *)
Theorem line_convert_no_panic : forall dbg be sx h c,
  LineRdMono.hdr_ok h -> ConvertLineSafe.cl_ok h c ->
  fst (ConvertLine.read_row dbg be sx h c) <> Panic /\
  fst (ConvertLine.read_row dbg be sx h c) <> OutOfFuel /\
  ConvertLineSafe.cl_ok h (snd (ConvertLine.read_row dbg be sx h c)) /\
  (forall ev, fst (ConvertLine.read_row dbg be sx h c) = Ok (Some ev) ->
     (ConvertLineSafe.measure (snd (ConvertLine.read_row dbg be sx h c)) < ConvertLineSafe.measure c)%nat).
Proof.
  intros dbg be sx h c Hh Ha. pose proof (ConvertLineSafe.read_row_post dbg be sx h c Hh Ha) as P.
  unfold ConvertLineSafe.rr_post in P. destruct (ConvertLine.read_row dbg be sx h c) as [out c']. cbn [fst snd].
  destruct P as (P1 & P2 & P3 & _ & P5 & _). auto.
Qed.

Theorem line_convert_events_terminate : forall dbg be sx h c,
  LineRdMono.hdr_ok h -> ConvertLineSafe.cl_ok h c ->
  snd (fst (ConvertLine.events dbg be sx h c)) <> LineRd.SPanic /\
  snd (fst (ConvertLine.events dbg be sx h c)) <> LineRd.SFuel.
Proof.
  intros dbg be sx h c Hh Ha. unfold ConvertLine.events.
  pose proof (ConvertLineSafe.events_loop_post dbg be sx h Hh (ConvertLine.seq_fuel c) c Ha (ConvertLineSafe.seq_fuel_enough c)) as P.
  destruct (ConvertLine.events_loop (ConvertLine.seq_fuel c) dbg be sx h c) as [[evs s] cf]. cbn [fst snd]. tauto.
Qed.

(* the state ConvertLineProgram::new returns satisfies the invariant (private row at offset 0, state ReadRow) *)
Theorem line_convert_new_ok : forall dbg sx s ls c,
  ConvertLine.cl_new dbg sx s ls = Ok c ->
  ConvertLineSafe.cl_ok (ConvertLine.sh_h s) c /\ ConvertLine.cl_st c = ConvertLine.CSReadRow.
Proof.
  intros dbg sx s ls c H. destruct (ConvertLineSafe.cl_new_shape dbg sx s ls c H) as (_ & Er & Est).
  split; [unfold ConvertLineSafe.cl_ok; rewrite Er; apply N.le_0_l|exact Est].
Qed.

(* a decoded DW_LNE_define_file entry converts to a new FileId or a specific error, never a panic *)
Theorem line_convert_define_file_safe : forall dbg be h inp f rest sx dirs ls p,
  LineRd.parse_insn dbg be h inp = Ok (LineSpec.IDefineFile f, rest) ->
  match ConvertLine.convert_file sx (LineWr.p_enc p) dirs ls f with
  | Ok (name, d, info, ls') => exists r, LineWr.add_file p name d info = Ok r
  | Err _ => True
  | _ => False
  end.
Proof.
  intros dbg be h inp f rest sx dirs ls p H.
  exact (ConvertLineSafe.define_file_safe sx dirs ls p f (ConvertLineSafe.parse_define_file dbg be h inp f rest H)).
Qed.

Example line_convert_no_panic_hyps : forall dbg,
  LineRdMono.hdr_ok ConvertLineProofs.wit_vliw /\
  exists c, ConvertLine.cl_new dbg ConvertLineProofs.wit_sx (ConvertLine.mk_src ConvertLineProofs.wit_vliw None None) [] = Ok c.
Proof.
  intros dbg. split.
  - unfold LineRdMono.hdr_ok, LineRdMono.asz_ok. cbn. repeat split; discriminate.
  - destruct dbg; vm_compute; eexists; reflexivity.
Qed.

(* line_convert_sound, SCRIPT LEVEL (Proofs/ConvertLineSim.v: a lock-step simulation between C04's
   LineRows::next_row on the real row and ConvertLineProgram::read_row on its private row, every instruction, the
   SetAddress / ConvertRow states, define_file, any bytes as the program).
   For every header LineProgramHeader::parse can return (hdr_ok; VLIW headers included), both build modes, every
   program outside the F10 class (known_midseq = false) none of whose DW_LNE_set_address operands is the value -2
   at the address size (addrs_below: operand <> 2^(8*address_size) - 2; the DWARF tombstone -1 IS inside the class:
   reader and converter both drop such a sequence, rows and end_sequence, and restart — proved as the second mode of
   the simulation relation, ConvertLineSim.sync_tomb): IF the reader's rows() runs to the end and the
   converter's `while let Some(row) = read_row()?` runs to the end, THEN the events are exactly the reader's rows
   (ConvertLineSim.ev_match): erasing the SetAddress events, event k is row k; a Row event has
   address = (last SetAddress of the sequence, 0 if none) + address_offset, op_index, line, column, discriminator,
   is_stmt, basic_block, prologue_end, epilogue_begin, isa verbatim and file = files[file register] in the final
   FileId table; an EndSequence event is the reader's end_sequence row at base + offset (for a sequence without any
   row only its end_sequence flag is claimed: the converter swallows the pending address of an empty sequence).
   With C13's meaning of a writer script (address = base + address_offset, other registers verbatim:
   LineWrSeqProofs.meaning) this is "writer script meaning = reader rows".
   _partial because of two restrictions: (1) a sequence whose DW_LNE_set_address operand is exactly -2
   (gimli's reader treats -2 as a tombstone too, the converter only -1): the reader drops it, the converter KEEPS it
   as a sequence headed by SetAddress(-2) — dropped again by the reader when the converted program is read back — and,
   if it has no row, as a lone EndSequence(offset) whose address was swallowed (line_convert_tombstone_witnesses shows
   all three behaviours on the model; c12.lineconv ties them); the general statement for that class (events = reader
   rows + such ghost sequences) is line_convert_sound_script below;
   (2) the last composition step rows(read(write(script))) = meaning(script) is C13's program_roundtrip_v2_v4 / _v5,
   whose hypothesis script_ok (offsets monotone and aligned: provable from line_convert_no_panic's invariant and
   line_convert_error_or_exact; operation advance < 2^64: the VLIW / C13 known findings) is not discharged here. *)
Theorem line_convert_sound_script_partial : forall dbg be sx s ls c0 rs evs cf,
  LineRdMono.hdr_ok (ConvertLine.sh_h s) ->
  ConvertLine.known_midseq dbg be (ConvertLine.sh_h s) = false ->
  ConvertLineSim.addrs_below (ConvertLineSim.mtomb (ConvertLine.sh_h s))
    (fst (LineRd.insns_model dbg be (ConvertLine.sh_h s))) = true ->
  ConvertLine.cl_new dbg sx s ls = Ok c0 ->
  LineRd.rows_model dbg be (ConvertLine.sh_h s) = (rs, LineRd.SEnd) ->
  ConvertLine.events dbg be sx (ConvertLine.sh_h s) c0 = (evs, LineRd.SEnd, cf) ->
  ConvertLineSim.ev_match (ConvertLine.cl_files cf) 0 false evs rs.
Proof.
  intros dbg be sx s ls c0 rs evs cf Hh Hk Ha Hn Hr He.
  destruct (ConvertLineSafe.cl_new_shape dbg sx s ls c0 Hn) as (Ei & Er & Est).
  apply (ConvertLineSim.ev_sim_match (ConvertLine.sh_h s) true _ eq_refl).
  apply (ConvertLineSim.sim_program dbg be sx (ConvertLine.sh_h s) Hh true c0); auto.
  unfold ConvertLineSim.PS. rewrite ConvertLineSim.plain_scan_iff.
  unfold ConvertLine.known_midseq, LineRd.insns_model in Hk, Ha. rewrite Hk, Ha. reflexivity.
Qed.

(* the hypotheses are met by a two-sequence program (special opcodes, advance_pc, fixed_advance_pc, set_file; the
   second sequence has no set_address): reader rows at 0x3001 0x3006 0x301b, end 0x301b, then 0, end 3; events
   SetAddress 0x3000, Row +1 +6 +27, EndSequence 27, Row 0, EndSequence 3 *)
Example line_convert_sound_script_hyps : forall dbg,
  LineRdMono.hdr_ok ConvertLineSim.wit_plain /\
  ConvertLine.known_midseq dbg true ConvertLineSim.wit_plain = false /\
  ConvertLineSim.addrs_below (ConvertLineSim.mtomb ConvertLineSim.wit_plain)
    (fst (LineRd.insns_model dbg true ConvertLineSim.wit_plain)) = true /\
  ConvertLineSim.plain_summary dbg =
    Some (LineRd.SEnd, [12289; 12294; 12315; 12315; 0; 3], LineRd.SEnd,
          [(0, 12288); (1, 1); (1, 6); (1, 27); (2, 27); (1, 0); (2, 3)]).
Proof.
  intros dbg. split; [unfold LineRdMono.hdr_ok, LineRdMono.asz_ok; cbn; repeat split; discriminate|].
  destruct dbg; vm_compute; repeat split; reflexivity.
Qed.

(* line_convert_sound, SCRIPT LEVEL, EVERY operand (the _partial theorem above without its restriction (1)): for every
   hdr_ok header, both build modes, EVERY program outside the F10 class — no condition on the set_address operands —
   if rows() and the read_row iteration both run to the end, the events are the reader's rows PLUS ghost sequences
   (ConvertLineSim.ev_match2 = ev_match extended by two clauses):
     * a sequence headed by the event SetAddress(2^(8*address_size) - 2) [the -2 value: gimli's reader treats it as a
       tombstone, the converter does not] with its Row events and its EndSequence corresponds to NO reader row — and
       the reader drops it again when the converted program is read back, because the operand is carried verbatim;
     * a lone EndSequence(offset) with no row before it may correspond to no reader row: the source had an EMPTY -2
       sequence whose pending address the converter swallowed (read back it is an empty sequence [0, offset): a
       silent but row-less difference, invisible to the dump oracle which drops empty sequences; see notes/c12line.md);
     * sequences whose operand is the DWARF tombstone -1 produce no event at all, like no reader row.
   Proof: the simulation relation has three modes (live / tombstoned on both sides / ghost), Proofs/ConvertLineSim.v SYNC;
   one induction over the instructions relates the rows and the events still to come (sim_all).
   Missing for the full line_convert_sound: the composition with C13 (see notes/c12line.md: the end_sequence row of the
   converted program carries the registers of the previous row, not those of the source's end_sequence row, so the
   end-to-end equality can only be claimed modulo the non-address registers of end_sequence rows). *)
Theorem line_convert_sound_script : forall dbg be sx s ls c0 rs evs cf,
  LineRdMono.hdr_ok (ConvertLine.sh_h s) ->
  ConvertLine.known_midseq dbg be (ConvertLine.sh_h s) = false ->
  ConvertLine.cl_new dbg sx s ls = Ok c0 ->
  LineRd.rows_model dbg be (ConvertLine.sh_h s) = (rs, LineRd.SEnd) ->
  ConvertLine.events dbg be sx (ConvertLine.sh_h s) c0 = (evs, LineRd.SEnd, cf) ->
  ConvertLineSim.ev_match2 (ConvertLine.cl_files cf) (ConvertLineSim.mtomb (ConvertLine.sh_h s)) 0 false false evs rs.
Proof.
  intros dbg be sx s ls c0 rs evs cf Hh Hk Hn Hr He.
  destruct (ConvertLineSafe.cl_new_shape dbg sx s ls c0 Hn) as (Ei & Er & Est).
  apply (ConvertLineSim.ev_sim_match2 (ConvertLine.sh_h s) false).
  apply (ConvertLineSim.sim_program dbg be sx (ConvertLine.sh_h s) Hh false c0); auto.
  unfold ConvertLineSim.PS. rewrite ConvertLineSim.plain_scan_iff.
  unfold ConvertLine.known_midseq, LineRd.insns_model in Hk. rewrite Hk. reflexivity.
Qed.

(* ---- restriction (2): convert() and C13.
   line_convert_is_replay: ConvertLineProgram::convert = the read_row iteration replayed through the writer API
   (set_address / generate_row / end_sequence) — read_row does not depend on the writer calls made in between
   (Proofs/ConvertLineReplay.v read_loop_reprog); line_convert_replay_is_script: with the identity address conversion
   that replay is C13's apply_rops on the script script_of(events); line_convert_emits_meaning: composed with C13's
   script_correct — for a fresh program, if the iteration ends normally and the script satisfies C13's script_ok (it
   fails exactly in the VLIW / advance-overflow known-finding classes), convert() does not panic, returns Ok or
   MissingLineEndSequence, and the emitted instructions run on the DWARF state machine (Spec/LineAdvSpec) give exactly
   C13's meaning of the event script — which line_convert_sound_script relates to the reader's rows of the source.
   MISSING for the end-to-end line_convert_sound: (a) script_ok is a hypothesis here, not derived from hdr_ok
   and max_ops = 1 (line_convert_emits_meaning_evs below replaces it by a predicate on the event list); (b) the byte
   level (LineWr.write / parse_header, C13's program_roundtrip_v2_v4/_v5 with its table hypotheses and define_file
   interleaving); (c) the equality can only hold modulo the non-address registers of
   end_sequence rows (end_sequence re-emits the previous row's registers). *)
Require GV.Proofs.ConvertLineReplay GV.Proofs.LineWrSeqProofs.

Theorem line_convert_is_replay : forall dbg be sx h caddr c,
  ConvertLine.convert dbg be sx h caddr c =
  let '(evs, s, cf) := ConvertLine.events dbg be sx h c in
  match ConvertLineReplay.replay dbg caddr (ConvertLine.cl_prog c) evs with
  | Ok q' => match s with
             | LineRd.SEnd => if LineWr.p_in_seq q' then Err CMissingLineEndSequence
                              else Ok (ConvertLineReplay.reprog q' cf)
             | LineRd.SErr e => Err e | LineRd.SPanic => Panic | LineRd.SFuel => OutOfFuel
             end
  | Err e => Err e | Panic => Panic | OutOfFuel => OutOfFuel
  end.
Proof. exact ConvertLineReplay.convert_is_replay. Qed.

Theorem line_convert_replay_is_script : forall dbg evs q,
  ConvertLineReplay.replay dbg (fun a => Some (LineWr.AConst a)) q evs =
  LineWrSeqProofs.apply_rops dbg q (ConvertLineReplay.script_of (LineWr.w_op_index (LineWr.p_row q)) evs).
Proof. exact ConvertLineReplay.replay_is_script. Qed.

Theorem line_convert_emits_meaning : forall dbg be sx h c evs cf,
  let p := ConvertLine.cl_prog c in
  LineWr.p_insns p = [] -> LineWr.p_prev p = LineWr.wrow_initial (LineWr.p_enc p) (LineWr.p_lenc p) ->
  LineWr.p_row p = LineWr.wrow_initial (LineWr.p_enc p) (LineWr.p_lenc p) -> LineWr.p_in_seq p = false ->
  LineWrProofs.enc_ok (LineWr.p_lenc p) -> (LineWr.e_version (LineWr.p_enc p) <= 5)%N ->
  ConvertLine.events dbg be sx h c = (evs, LineRd.SEnd, cf) ->
  LineWrSeqProofs.script_ok (LineWr.p_enc p) (LineWr.p_lenc p)
    (LineWr.wrow_initial (LineWr.p_enc p) (LineWr.p_lenc p)) false (ConvertLineReplay.script_of 0 evs) ->
  exists q',
    ConvertLine.convert dbg be sx h (fun a => Some (LineWr.AConst a)) c =
      (if LineWr.p_in_seq q' then Err CMissingLineEndSequence else Ok (ConvertLineReplay.reprog q' cf)) /\
    Forall LineWrProofs.special_ok (LineWr.p_insns q') /\
    LineAdvSpec.rows_of (LineWr.params_of (LineWr.p_lenc p))
      (map (LineWr.denote (LineWr.e_version (LineWr.p_enc p))) (LineWr.p_insns q')) =
      fst (LineWrSeqProofs.meaning (LineWr.e_version (LineWr.p_enc p)) (LineWr.params_of (LineWr.p_lenc p))
             (LineAdvSpec.init_regs (LineWr.params_of (LineWr.p_lenc p)), 0%N) (ConvertLineReplay.script_of 0 evs)).
Proof. exact ConvertLineReplay.convert_emits_meaning. Qed.

(* every hypothesis of line_convert_emits_meaning holds for the state ConvertLineProgram::new returns on the
   two-sequence witness program (script_ok included) *)
Example line_convert_emits_meaning_hyps : forall dbg,
  match ConvertLineReplay.plain_c0 dbg with
  | Some c0 =>
      let p := ConvertLine.cl_prog c0 in
      LineWr.p_insns p = [] /\ LineWr.p_prev p = LineWr.wrow_initial (LineWr.p_enc p) (LineWr.p_lenc p) /\
      LineWr.p_row p = LineWr.wrow_initial (LineWr.p_enc p) (LineWr.p_lenc p) /\
      LineWr.p_in_seq p = false /\ LineWrProofs.enc_ok (LineWr.p_lenc p) /\ (LineWr.e_version (LineWr.p_enc p) <= 5)%N /\
      snd (fst (ConvertLine.events dbg true ConvertLineProofs.wit_sx ConvertLineSim.wit_plain c0)) = LineRd.SEnd /\
      LineWrSeqProofs.script_ok (LineWr.p_enc p) (LineWr.p_lenc p)
        (LineWr.wrow_initial (LineWr.p_enc p) (LineWr.p_lenc p)) false
        (ConvertLineReplay.script_of 0 (fst (fst (ConvertLine.events dbg true ConvertLineProofs.wit_sx ConvertLineSim.wit_plain c0))))
  | None => False
  end.
Proof.
  intros dbg. destruct dbg; vm_compute; repeat split; try discriminate; try reflexivity; try (left; reflexivity); try (right; intro; discriminate).
Qed.

(* tombstone operands on the model: -1 is dropped by both sides (inside the theorem's class); -2 is dropped by the
   reader and kept by the converter (outside); an empty -2 sequence leaves a lone EndSequence *)
Theorem line_convert_tombstone_witnesses : forall dbg,
  ConvertLineSim.addrs_below (ConvertLineSim.mtomb (ConvertLineSim.wit_tomb xff))
    (fst (LineRd.insns_model dbg true (ConvertLineSim.wit_tomb xff))) = true /\
  ConvertLine.known_midseq dbg true (ConvertLineSim.wit_tomb xff) = false /\
  ConvertLineSim.tomb_summary dbg (ConvertLineSim.wit_tomb xff) =
    Some (LineRd.SEnd, [12288; 12291], LineRd.SEnd, [(0, 12288); (1, 0); (2, 3)]) /\
  ConvertLineSim.addrs_below (ConvertLineSim.mtomb (ConvertLineSim.wit_tomb xfe))
    (fst (LineRd.insns_model dbg true (ConvertLineSim.wit_tomb xfe))) = false /\
  ConvertLineSim.tomb_summary dbg (ConvertLineSim.wit_tomb xfe) =
    Some (LineRd.SEnd, [12288; 12291], LineRd.SEnd,
          [(0, 4294967294); (1, 1); (2, 6); (0, 12288); (1, 0); (2, 3)]) /\
  ConvertLineSim.tomb_summary dbg ConvertLineSim.wit_tomb_empty = Some (LineRd.SEnd, [], LineRd.SEnd, [(2, 4)]).
Proof. intros []; vm_compute; repeat split; reflexivity. Qed.

(* the class predicate is exactly "outside F10 and no DW_LNE_set_address operand equal to mt" *)
Theorem line_convert_plain_class : forall mt is moved,
  ConvertLineSim.plain_scan true mt is moved =
  negb (ConvertLine.midseq_scan is moved) && ConvertLineSim.addrs_below mt is.
Proof. exact (ConvertLineSim.plain_scan_iff true). Qed.

(* the two known-finding classes (Model/ConvertLine.v known_midseq = the class of harness/src/c12.rs
   midseq_set_address; known_vliw = maximum_operations_per_instruction > 1), with model witnesses *)
Theorem line_convert_midseq_refuted : forall dbg,
  ConvertLine.known_midseq dbg true ConvertLineProofs.wit_midseq = true /\
  map LineRd.r_addr (fst (LineRd.rows_model dbg true ConvertLineProofs.wit_midseq)) = [12303; 14338] /\
  snd (LineRd.rows_model dbg true ConvertLineProofs.wit_midseq) = LineRd.SEnd /\
  ConvertLineProofs.wit_events dbg true ConvertLineProofs.wit_midseq =
    Some ([ConvertLine.CRSetAddress 12288;
           ConvertLine.CRRow (LineWr.mkWrow 15 0 0 5 0 0 true false false false 0);
           ConvertLine.CREndSequence 15], LineRd.SEnd) /\
  ConvertLineProofs.wit_convert dbg true ConvertLineProofs.wit_midseq =
    Some (Ok [LineWr.ISetAddress (LineWr.AConst 12288); LineWr.ISpecial 232; LineWr.IEndSequence]).
Proof. intros []; vm_compute; repeat split; reflexivity. Qed.

Theorem line_convert_vliw_refuted :
  ConvertLine.known_vliw ConvertLineProofs.wit_vliw = true /\
  ConvertLine.known_midseq true false ConvertLineProofs.wit_vliw = false /\
  ConvertLineProofs.wit_convert true false ConvertLineProofs.wit_vliw = Some Panic /\
  ConvertLineProofs.wit_convert false false ConvertLineProofs.wit_vliw =
    Some (Ok [LineWr.ISetAddress (LineWr.AConst 12288); LineWr.ISpecial 32;
              LineWr.IAdvancePc 18446744073709551615; LineWr.ICopy; LineWr.IEndSequence]).
Proof. vm_compute. repeat split; reflexivity. Qed.

Check cfi_offset_exact_or_error. Check cfi_factored_offset_exact_or_error. Check cfi_factors_exact_or_error.
Check cfi_advance_exact_or_error. Check cfi_insn_convert_sound. Check cfi_insn_convert_each.
Check cfi_convert_write_read_sound. Check cfi_normal_form_cie. Check cfi_normal_form_fde.
Check expr_convert_sound. Check expr_convert_sound_bytes. Check expr_branch_target_exact. Check expr_offsets_sorted.
Check expr_converted_well_typed. Check expr_fuel_suffices. Check expr_normal_form_partial.
Check range_convert_sound. Check loc_convert_sound. Check list_normal_form_v5. Check list_normal_form_v4.
Check attr_convert_sound. Check attr_file_index_rule. Check attr_file_index_written. Check attr_implicit_const.
Check attr_flag_present. Check attr_dwo_id_normal_form.
Check line_convert_address_offset_exact. Check line_convert_error_or_exact. Check line_convert_offset_exact.
Check line_convert_set_address_first. Check line_convert_set_address_midseq.
Check line_convert_midseq_refuted. Check line_convert_vliw_refuted.
Check line_convert_no_panic. Check line_convert_events_terminate. Check line_convert_new_ok.
Check line_convert_define_file_safe.
Check line_convert_sound_script_partial. Check line_convert_plain_class.
Check line_convert_tombstone_witnesses.
Check line_convert_sound_script.
Check line_convert_is_replay. Check line_convert_replay_is_script. Check line_convert_emits_meaning.

(* ---- two conjuncts of C13's script_ok derived for the event script (Proofs/ConvertLineInv.v): the private
   row's line register stays below 2^64 and, for maximum_operations_per_instruction = 1, its op_index stays 0 — an
   invariant of LineRow::execute and reset threaded through read_row; so every Row event of the iteration started
   from ConvertLineProgram::new's state has line < 2^64 and (max_ops = 1) op_index = 0. Any bytes, both build modes. *)
Require GV.Proofs.ConvertLineInv.
Theorem line_convert_events_lines_bounded : forall dbg be sx h c,
  ConvertLine.cl_row c = LineRd.row_new h ->
  Forall (ConvertLineInv.ev_ok h) (fst (fst (ConvertLine.events dbg be sx h c))).
Proof. exact ConvertLineInv.events_rows_bounded. Qed.
Theorem line_convert_events_op_index_zero : forall dbg be sx h c w,
  ConvertLine.cl_row c = LineRd.row_new h -> LineSpec.h_max_ops h = 1 ->
  In (ConvertLine.CRRow w) (fst (fst (ConvertLine.events dbg be sx h c))) ->
  LineWr.w_op_index w = 0 /\ LineWr.w_line w < two64.
Proof.
  intros dbg be sx h c w E M Hin.
  pose proof (ConvertLineInv.events_rows_bounded dbg be sx h c E) as F.
  rewrite Forall_forall in F. destruct (F _ Hin) as [A B]. split; [exact (B M)|exact A].
Qed.
Check line_convert_events_lines_bounded. Check line_convert_events_op_index_zero.

(* a third conjunct of script_ok: every Row / EndSequence offset of the iteration is a multiple of the converted
   program's minimum_instruction_length (or that length is 1) — any bytes, any state, both build modes *)
Theorem line_convert_events_offsets_aligned : forall dbg be sx h c,
  Forall (ConvertLineInv.ev_aligned (LineWr.le_min_len (LineWr.p_lenc (ConvertLine.cl_prog c))))
         (fst (fst (ConvertLine.events dbg be sx h c))).
Proof.
  (* add_file keeps the line encoding, so minimum_instruction_length is the same at every event *)
  intros dbg be sx h c. unfold ConvertLine.events. set (mil := LineWr.le_min_len (LineWr.p_lenc (ConvertLine.cl_prog c))).
  refine (proj2 (ConvertLineProofs.events_loop_inv dbg be sx h
                   (fun c => LineWr.le_min_len (LineWr.p_lenc (ConvertLine.cl_prog c)) = mil) (ConvertLineInv.ev_aligned mil)
                   _ _ _ _ _ _ _ _ _ _ c eq_refl)); auto.
  - intros c0 name d info ls p id M EA.
    destruct (LineWrSeqProofs.add_file_same_rows _ _ _ _ _ _ EA) as (_ & _ & _ & _ & _ & E2). cbn. rewrite E2. exact M.
  - exact (fun _ => I).
  - intros c0 w M EC. pose proof (ConvertLineProofs.convert_row_exact h c0) as X. rewrite EC, M in X. exact (proj2 (proj2 (proj2 X))).
  - intros c0 ao M EA. pose proof (ConvertLineProofs.address_offset_exact c0) as X. rewrite EA, M in X. exact (proj2 X).
Qed.
Check line_convert_events_offsets_aligned.

(* script_ok reduced to a first-order predicate on the event list (Proofs/ConvertLineScript.v evs_ok: offsets
   non-decreasing within a sequence, multiples of minimum_instruction_length, below 2^64; line below 2^64; op_index 0)
   for maximum_operations_per_instruction = 1. Of these, line / op_index (line_convert_events_lines_bounded,
   _op_index_zero) and the alignment (line_convert_events_offsets_aligned) are proved invariants of read_row.
   NOT derived: "offsets non-decreasing within a sequence and <= the address mask"
   — it holds only outside the F10 class (after rows, a DW_LNE_set_address -1 followed by end_sequence makes the
   converter restart at offset 0 WITHOUT an EndSequence event: the writer then sees a decreasing offset), so it needs
   the instruction-scan lock-step of ConvertLineSim. *)
Require GV.Proofs.ConvertLineScript.
Theorem line_convert_script_ok_of_events : forall e l,
  LineWr.le_max_ops l = 1 -> 1 <= LineWr.le_min_len l -> LineWr.le_min_len l <> 0 ->
  forall evs prev b opi,
  opi = 0 -> LineWr.w_op_index prev = 0 -> LineWr.w_line prev < two64 ->
  LineWr.w_address_offset prev mod LineWr.le_min_len l = 0 ->
  ConvertLineScript.evs_ok (LineWr.le_min_len l) (LineWr.w_address_offset prev) evs ->
  LineWrSeqProofs.script_ok e l prev b (ConvertLineReplay.script_of opi evs).
Proof. exact ConvertLineScript.evs_script_ok. Qed.

Theorem line_convert_emits_meaning_evs : forall dbg be sx h c evs cf,
  let p := ConvertLine.cl_prog c in
  LineWr.p_insns p = [] -> LineWr.p_prev p = LineWr.wrow_initial (LineWr.p_enc p) (LineWr.p_lenc p) ->
  LineWr.p_row p = LineWr.wrow_initial (LineWr.p_enc p) (LineWr.p_lenc p) -> LineWr.p_in_seq p = false ->
  LineWrProofs.enc_ok (LineWr.p_lenc p) -> LineWr.le_max_ops (LineWr.p_lenc p) = 1 ->
  (LineWr.e_version (LineWr.p_enc p) <= 5)%N ->
  ConvertLine.events dbg be sx h c = (evs, LineRd.SEnd, cf) ->
  ConvertLineScript.evs_ok (LineWr.le_min_len (LineWr.p_lenc p)) 0 evs ->
  exists q',
    ConvertLine.convert dbg be sx h (fun a => Some (LineWr.AConst a)) c =
      (if LineWr.p_in_seq q' then Err CMissingLineEndSequence else Ok (ConvertLineReplay.reprog q' cf)) /\
    Forall LineWrProofs.special_ok (LineWr.p_insns q') /\
    LineAdvSpec.rows_of (LineWr.params_of (LineWr.p_lenc p))
      (map (LineWr.denote (LineWr.e_version (LineWr.p_enc p))) (LineWr.p_insns q')) =
      fst (LineWrSeqProofs.meaning (LineWr.e_version (LineWr.p_enc p)) (LineWr.params_of (LineWr.p_lenc p))
             (LineAdvSpec.init_regs (LineWr.params_of (LineWr.p_lenc p)), 0%N) (ConvertLineReplay.script_of 0 evs)).
Proof.
  intros dbg be sx h c evs cf p Hins Hprev Hrow Hseq Hok Hmo Hver Hev Hevs.
  apply (ConvertLineReplay.convert_emits_meaning dbg be sx h c evs cf Hins Hprev Hrow Hseq Hok Hver Hev).
  destruct Hok as (_ & _ & _ & Hmil & _).
  apply ConvertLineScript.evs_script_ok; auto; try lia; cbn; try reflexivity; try (apply N.mod_0_l; lia).
  fold p. lia.
Qed.
Check line_convert_script_ok_of_events. Check line_convert_emits_meaning_evs.
