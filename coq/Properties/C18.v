(* Properties/C18.v — Relocation is transparent on both the reading and the writing side.

   Models (Model/Reloc.v): a gimli writer is a `list wop` (the Writer-trait calls it makes), interpreted
   on an EndianVec (`run_plain`) and on a RelocateWriter that pushes every Relocation to a Vec
   (`run_reloc`); `apply_relocs env` stores S+A (minus the place for pc-relative eh pointers) in the low
   `size` bytes of every recorded site.  A parser is a `prog` (the Reader-trait calls it makes),
   interpreted on an EndianSlice (`run_plain_rd`) and on RelocateReader<EndianSlice, _> (`run_reloc_rd`,
   which also returns the ghost trace of what was read how); `map_relocator R` is
   object::read::RelocationMap::relocate; `apply_rrels R` is the section with R already applied. *)
From Coq Require Import List NArith ZArith Bool Lia.
From Coq.Strings Require Import Byte.
Require Import GV.Base.Res GV.Base.Byt GV.Base.Ints GV.Model.Prim.
Require Import GV.Spec.FormSpec GV.Model.Attr.
Require Import GV.Model.Reloc GV.Proofs.RelocProofs GV.Proofs.RelocRawRanges GV.Model.RelocPar GV.Proofs.RelocParProofs.
Import ListNotations.
Local Open Scope N_scope.

(* ---------------------------------------------------------------- writing side *)

(* (1) For EVERY writer (list of Writer-trait calls), both byte orders, every assignment `env` of final
   addresses to symbols and sections: if the recording writer and the direct writer (symbols and section
   offsets resolved with the same `env`) both accept, then applying the recorded relocations to the
   recorded bytes gives the directly written bytes, and the recorded list is exactly one entry per
   relocatable call — symbolic write_address, EVERY write_offset / write_offset_at (constant or not),
   symbolic write_eh_pointer; nothing for constant addresses, write_udata, write_at — at the position it
   was written, with its size, target and addend.
   Side condition `no_clobber`: no write_at / write_udata_at / write_offset_at lands on a relocation site
   recorded earlier (false without it: see clobber_breaks_transparency). *)
Theorem reloc_write_transparent : forall (be : bool) (env : target -> N) (ws : list wop) b rs bp,
  no_clobber be ws ([], []) = true ->
  run_reloc be ws ([], []) = Ok (b, rs) ->
  run_plain be (map (resolve env) ws) [] = Ok bp ->
  apply_relocs env be rs b = bp /\ rs = spec_relocs be 0 ws.
Proof.
  intros be env ws b rs bp Hnc Hr Hp. split.
  - assert (Hi : winv env be ([], []) []) by (split; cbn; auto).
    exact (proj1 (winv_run env be ws [] [] [] b rs bp Hnc Hi Hr Hp)).
  - exact (run_reloc_spec be ws [] [] b rs Hr).
Qed.

(* neither writer panics on well-typed calls (the u64 of a constant eh pointer is < 2^64) *)
Theorem writer_no_panic : forall (be : bool) (env : target -> N) (ws : list wop),
  Forall wop_u64 ws ->
  run_reloc be ws ([], []) <> Panic /\ run_plain be (map (resolve env) ws) [] <> Panic.
Proof.
  intros be env ws H. split; [now apply run_reloc_no_panic|].
  apply run_plain_no_panic, Forall_map. eapply Forall_impl; [|exact H]. intros op. apply resolve_u64.
Qed.

(* a unit-like script: version, abbrev offset (relocated), address size, a symbolic low_pc, a
   DW_FORM_ref_addr placeholder patched later by write_offset_at, a pc-relative symbolic eh pointer,
   and the initial length patched by write_udata_at *)
Definition ex_env (t : target) : N :=
  match t with TSym s => 4198400 + 256 * s | TSect id => 65536 * id end.
Definition ex_script : list wop :=
  [ WUdata 0 4; WUdata 4 2; WOffset 52 0 4; WUdata 8 1;
    WAddr (ASym 1 16) 8; WUdata 0 4; WBytes [x01; x02];
    WEhPtr (ASym 2 (-8)) 27 8; WOffsetAt 19 300 7 4; WUdataAt 0 25 4 ].
Example ex_script_hyps :
  no_clobber false ex_script ([], []) = true /\
  is_ok (run_reloc false ex_script ([], [])) = true /\
  is_ok (run_plain false (map (resolve ex_env) ex_script) []) = true /\
  (match run_reloc false ex_script ([], []) with Ok (_, rs) => length rs | _ => O end) = 4%nat.
Proof. vm_compute. repeat split; reflexivity. Qed.

Example ex_script_u64 : Forall wop_u64 ex_script.
Proof. repeat constructor. Qed.

(* the side condition is needed: a write_at over a recorded site makes direct and relocated output differ *)
Example clobber_breaks_transparency :
  let ws := [WOffset 7 0 4; WAt 0 [xaa; xbb; xcc; xdd]] in
  no_clobber false ws ([], []) = false /\
  match run_reloc false ws ([], []), run_plain false (map (resolve (fun _ => 0)) ws) [] with
  | Ok (b, rs), Ok bp => apply_relocs (fun _ => 0) false rs b <> bp
  | _, _ => False
  end.
Proof. vm_compute. split; [reflexivity|discriminate]. Qed.

(* ---------------------------------------------------------------- reading side *)

(* (2) One relocatable read (read_address, read_sized_offset or read_offset) at window [o, o+l) of the
   section: if the read is acceptable for R (`trace_ok`: it avoids every site of R, or sits exactly on a
   site of its own width whose relocated value fits the field), then through RelocateReader it yields
   what the same plain method yields on the pre-applied section — value, new position and remaining
   length; errors are equal too. *)
Theorem prim_reloc : forall (be dbg : bool) (R : list rrel) (bs : list byte) (base : N) (o l : nat) (w : N) f,
  sites_disjointb R = true -> reloc_method be w f -> (o + l <= length bs)%nat ->
  let x := mkRrd (mkRd base bs) (mkRd (base + N.of_nat o) (slice bs o l)) in
  let P := apply_rrels be R bs in
  let t := rr_rel dbg w f (fun pos v => Ok (relocate R pos v)) x in
  trace_ok R (fst t) ->
  out_reloc (snd t) = out_plain (mkRd base P) (rd_lift f (mkRd (base + N.of_nat o) (slice P o l))).
Proof.
  intros be dbg R bs base o l w f HR Hm Hb x P t Ht.
  apply res_rel_out, rel_case; auto using reloc_method_sized. exists o, l. auto.
Qed.

(* explicit form: R has (pos, w, addend) and the bytes have v at pos: both readings return
   v (+) addend := wrapping v + addend for an implicit addend, addend itself for an explicit one *)
Theorem prim_reloc_value : forall (be dbg : bool) (R : list rrel) (bs : list byte) (base : N) (r : rrel) (l : nat) f,
  sites_disjointb R = true -> (forall r', In r' R -> 1 <= rr_w r') -> In r R ->
  reloc_method be (rr_w r) f ->
  (rr_w r = 1 \/ rr_w r = 2 \/ rr_w r = 4 \/ rr_w r = 8) ->
  let o := N.to_nat (rr_pos r) in
  let k := N.to_nat (rr_w r) in
  (k <= l)%nat -> (o + l <= length bs)%nat ->
  let v := dec_un be (slice bs o k) in
  rrel_value r v < 2 ^ (8 * rr_w r) ->
  let x := mkRrd (mkRd base bs) (mkRd (base + rr_pos r) (slice bs o l)) in
  let P := apply_rrels be R bs in
  snd (rr_rel dbg (rr_w r) f (fun pos v => Ok (relocate R pos v)) x) =
    Ok (rrel_value r v, mkRrd (mkRd base bs) (mkRd (base + rr_pos r + rr_w r) (slice bs (o + k) (l - k)))) /\
  rd_lift f (mkRd (base + rr_pos r) (slice P o l)) =
    Ok (rrel_value r v, mkRd (base + rr_pos r + rr_w r) (slice P (o + k) (l - k))).
Proof.
  intros be dbg R bs base r l f HR Hw1 Hin Hm Hw o k Hkl Hb v Hfit x P.
  apply rel_read_site; auto. now apply reloc_method_read_un.
Qed.

(* (3) EVERY parser written against the reader monad (plain reads of any width, LEB128s, skip, len,
   split into sub-readers, and the three relocatable methods), every byte string, every set R of
   relocations with pairwise disjoint sites: if the run through RelocateReader is acceptable for R
   (plain reads avoid the sites of R; relocatable reads avoid them or hit one exactly, value fitting),
   then it returns exactly what the plain run on the pre-applied section returns: same value or same
   error, same final position and remaining length.  A parser that reads a relocated field with a plain
   method fails the side condition — and then the two runs really differ (plain_read_of_site_differs). *)
Theorem parser_reloc : forall (A : Type) (be dbg : bool) (R : list rrel) (p : prog A) (bs : list byte) (base : N),
  sites_disjointb R = true ->
  trace_ok R (fst (run_reloc_rd be dbg (map_relocator R) p (rrd_new (mkRd base bs)))) ->
  out_reloc (snd (run_reloc_rd be dbg (map_relocator R) p (rrd_new (mkRd base bs)))) =
  out_plain (mkRd base (apply_rrels be R bs))
            (run_plain_rd be dbg p (mkRd base (apply_rrels be R bs))).
Proof. intros A be dbg R p bs base HR Ht. apply res_rel_out, sim_run; auto. apply st_rel_start. Qed.

(* the side condition is decidable: the streams evaluate this boolean on every case *)
Theorem trace_okb_sound : forall R t, trace_okb R t = true -> trace_ok R t.
Proof.
  unfold trace_okb, trace_ok. intros R t H. rewrite forallb_forall in H. apply Forall_forall.
  intros e He. apply ev_okb_ok. auto.
Qed.

(* instances: the mirror of parse_unit_header (src/read/unit.rs) and of the .debug_ranges/.debug_loc
   raw pair iteration (RawRange::parse + RawRngListIter::next, src/read/rnglists.rs) *)
Theorem parser_reloc_unit_header : forall (be dbg types : bool) (R : list rrel) (bs : list byte) (base : N),
  sites_disjointb R = true ->
  trace_okb R (fst (run_reloc_rd be dbg (map_relocator R) (p_unit_header types) (rrd_new (mkRd base bs)))) = true ->
  out_reloc (snd (run_reloc_rd be dbg (map_relocator R) (p_unit_header types) (rrd_new (mkRd base bs)))) =
  out_plain (mkRd base (apply_rrels be R bs))
            (run_plain_rd be dbg (p_unit_header types) (mkRd base (apply_rrels be R bs))).
Proof. intros. apply parser_reloc; auto. now apply trace_okb_sound. Qed.

Theorem parser_reloc_raw_ranges : forall (be dbg : bool) (fuel : nat) (asz : N) (R : list rrel) (bs : list byte) (base : N),
  sites_disjointb R = true ->
  trace_okb R (fst (run_reloc_rd be dbg (map_relocator R) (p_raw_ranges fuel asz []) (rrd_new (mkRd base bs)))) = true ->
  out_reloc (snd (run_reloc_rd be dbg (map_relocator R) (p_raw_ranges fuel asz []) (rrd_new (mkRd base bs)))) =
  out_plain (mkRd base (apply_rrels be R bs))
            (run_plain_rd be dbg (p_raw_ranges fuel asz []) (mkRd base (apply_rrels be R bs))).
Proof. intros. apply parser_reloc; auto. now apply trace_okb_sound. Qed.

(* the same with a STATIC side condition, as the design states it ("relocs within the relocatable
   fields"): in a .debug_ranges/.debug_loc pair list every field is a relocatable address field, so ANY
   set of explicit-addend (RELA) relocations of the address width at multiples of it, with addends that
   fit, is transparent — for every byte string, whatever it parses to *)
Theorem parser_reloc_raw_ranges_static :
  forall (be dbg : bool) (fuel : nat) (asz : N) (R : list rrel) (bs : list byte) (base : N),
  valid_asz asz -> sites_disjointb R = true ->
  (forall r, In r R -> rr_w r = asz /\ rr_pos r mod asz = 0 /\ rr_impl r = false /\ rr_add r < 2 ^ (8 * asz)) ->
  out_reloc (snd (run_reloc_rd be dbg (map_relocator R) (p_raw_ranges fuel asz []) (rrd_new (mkRd base bs)))) =
  out_plain (mkRd base (apply_rrels be R bs))
            (run_plain_rd be dbg (p_raw_ranges fuel asz []) (mkRd base (apply_rrels be R bs))).
Proof.
  intros be dbg fuel asz R bs base Hv Hd HR.
  apply parser_reloc; auto. eapply aligned_trace_ok; eauto.
  replace (rrd_new (mkRd base bs)) with (mkRrd (mkRd base bs) (mkst base bs 0 (length bs)))
    by (unfold rrd_new; now rewrite mkst_whole).
  apply raw_ranges_trace; auto.
Qed.

Example ex_static_hyps :
  let R := [mkRrel 0 4 false 4112; mkRrel 4 4 false 4128; mkRrel 12 4 false 8192] in
  valid_asz 4 /\ sites_disjointb R = true /\
  forallb (fun r => (rr_w r =? 4) && (rr_pos r mod 4 =? 0) && negb (rr_impl r) && (rr_add r <? 2 ^ 32)) R = true.
Proof. vm_compute. repeat split; auto. Qed.

(* a DWARF 4 unit header whose debug_abbrev_offset (offset 6, 4 bytes) carries an implicit-addend
   relocation: the hypotheses hold and both runs see abbrev offset 0x1000 + 0x34 *)
Definition ex_hdr : list byte :=
  [x0b; x00; x00; x00; x04; x00; x34; x00; x00; x00; x08; x11; x01; x00; x00].
Definition ex_R : list rrel := [mkRrel 6 4 true 4096].
Example ex_hdr_hyps :
  sites_disjointb ex_R = true /\
  trace_okb ex_R (fst (run_reloc_rd false true (map_relocator ex_R) (p_unit_header false) (rrd_new (mkRd 0 ex_hdr)))) = true /\
  out_reloc (snd (run_reloc_rd false true (map_relocator ex_R) (p_unit_header false) (rrd_new (mkRd 0 ex_hdr)))) =
    Ok ([4; 4; 8; 1; 4148; 0; 0; 11; 4], 15, 0).
Proof. vm_compute. repeat split; reflexivity. Qed.

(* the same header and relocation as an instance of prim_reloc / prim_reloc_value: read_offset(Dwarf32) at
   offset 6 with 9 bytes left returns 0x34 + 0x1000 on both sides *)
Example ex_prim_hyps :
  let r := mkRrel 6 4 true 4096 in
  sites_disjointb ex_R = true /\ (forall r', In r' ex_R -> 1 <= rr_w r') /\ In r ex_R /\
  reloc_method false (rr_w r) (read_word false false) /\
  (N.to_nat (rr_w r) <= 9)%nat /\ (N.to_nat (rr_pos r) + 9 <= length ex_hdr)%nat /\
  rrel_value r (dec_un false (slice ex_hdr 6 4)) = 4148 /\
  trace_okb ex_R (fst (rr_rel true 4 (read_word false false) (fun pos v => Ok (relocate ex_R pos v))
                         (mkRrd (mkRd 0 ex_hdr) (mkRd 6 (slice ex_hdr 6 9))))) = true.
Proof.
  cbv zeta. split; [reflexivity|]. split.
  { intros r' [<-|[]]. vm_compute. discriminate. }
  split; [now left|]. split.
  { right. right. exists false. split; reflexivity. }
  split; [vm_compute; lia|]. split; [vm_compute; lia|].
  split; reflexivity.
Qed.

(* two address pairs, a base-address selector and the terminator, every address relocated *)
Definition ex_ranges : list byte :=
  [x10; x00; x00; x00; x20; x00; x00; x00;  xff; xff; xff; xff; x00; x00; x00; x00;
   x00; x00; x00; x00; x00; x00; x00; x00].
Definition ex_R2 : list rrel := [mkRrel 0 4 true 4096; mkRrel 4 4 true 4096; mkRrel 12 4 false 8192].
Example ex_ranges_hyps :
  sites_disjointb ex_R2 = true /\
  trace_okb ex_R2 (fst (run_reloc_rd false true (map_relocator ex_R2) (p_raw_ranges 10 4 []) (rrd_new (mkRd 0 ex_ranges)))) = true /\
  out_reloc (snd (run_reloc_rd false true (map_relocator ex_R2) (p_raw_ranges 10 4 []) (rrd_new (mkRd 0 ex_ranges)))) =
    Ok ([2; 4112; 4128; 1; 8192], 24, 0).
Proof. vm_compute. repeat split; reflexivity. Qed.

(* the last sentence of the property: a field that carries a relocation but is read with a plain
   primitive (read_word instead of read_offset) is NOT transparent *)
Example plain_read_of_site_differs :
  let p := PSkip 6 (PWord false (fun v => PRet v)) in
  trace_okb ex_R (fst (run_reloc_rd false true (map_relocator ex_R) p (rrd_new (mkRd 0 ex_hdr)))) = false /\
  out_reloc (snd (run_reloc_rd false true (map_relocator ex_R) p (rrd_new (mkRd 0 ex_hdr)))) = Ok (52, 10, 5) /\
  out_plain (mkRd 0 (apply_rrels false ex_R ex_hdr))
            (run_plain_rd false true p (mkRd 0 (apply_rrels false ex_R ex_hdr))) = Ok (4148, 10, 5).
Proof. vm_compute. repeat split; reflexivity. Qed.

(* the legacy DWARF 2/3 rule of parse_attribute (src/read/unit.rs allow_section_offset): every attribute
   whose classes include a section-offset class — DW_AT_data_member_location in version 3 included — is read
   with the RELOCATABLE method when given as DW_FORM_data4 / DW_FORM_data8 of the unit's format, and
   DW_FORM_sec_offset always is; so by parser_reloc a relocation on that field is transparent.
   (`p_attr_word` is tied to gimli over the whole name x version x format x form grid by stream c18.secoff.) *)
Theorem attr_legacy_secoff_relocatable : forall (name ver : N),
  In name dwarf3_secoff_names -> ver = 2 \/ ver = 3 ->
  p_attr_word false ver name 6 = POffset false (fun v => PRet [1; v]) /\
  p_attr_word true ver name 7 = POffset true (fun v => PRet [1; v]).
Proof.
  intros name ver Hn Hv. unfold dwarf3_secoff_names in Hn. cbn [In] in Hn.
  destruct Hv as [-> | ->];
    repeat (destruct Hn as [<- | Hn]; [split; reflexivity|]); destruct Hn.
Qed.

Theorem attr_sec_offset_relocatable : forall (fmt64 : bool) (name ver : N),
  p_attr_word fmt64 ver name 23 = POffset fmt64 (fun v => PRet [1; v]).
Proof. reflexivity. Qed.

Theorem parser_reloc_attr_word :
  forall (be dbg fmt64 : bool) (ver name form field : N) (R : list rrel) (bs : list byte) (base : N),
  let p := PSkip field (p_attr_word fmt64 ver name form) in
  sites_disjointb R = true ->
  trace_okb R (fst (run_reloc_rd be dbg (map_relocator R) p (rrd_new (mkRd base bs)))) = true ->
  out_reloc (snd (run_reloc_rd be dbg (map_relocator R) p (rrd_new (mkRd base bs)))) =
  out_plain (mkRd base (apply_rrels be R bs))
            (run_plain_rd be dbg p (mkRd base (apply_rrels be R bs))).
Proof. intros. apply parser_reloc; auto. now apply trace_okb_sound. Qed.

(* DWARF 3, 32-bit: DW_AT_data_member_location (0x38) as DW_FORM_data4 at offset 12 with a relocation *)
Example ex_attr_word_hyps :
  let bs := [x0c; x00; x00; x00; x03; x00; x00; x00; x00; x00; x08; x01; x10; x00; x00; x00] in
  let R := [mkRrel 12 4 true 8192] in
  let p := PSkip 12 (p_attr_word false 3 56 6) in
  In 56 dwarf3_secoff_names /\ sites_disjointb R = true /\
  trace_okb R (fst (run_reloc_rd false true (map_relocator R) p (rrd_new (mkRd 0 bs)))) = true /\
  out_reloc (snd (run_reloc_rd false true (map_relocator R) p (rrd_new (mkRd 0 bs)))) = Ok ([1; 8208], 16, 0).
Proof. vm_compute. repeat split; auto 20. Qed.

(* (4) RelocateReader with the identity Relocate behaves as the inner reader for every parser *)
Theorem identity_reloc : forall (A : Type) (be dbg : bool) (p : prog A) (bs : list byte) (base : N),
  out_reloc (snd (run_reloc_rd be dbg id_relocator p (rrd_new (mkRd base bs)))) =
  out_plain (mkRd base bs) (run_plain_rd be dbg p (mkRd base bs)).
Proof.
  intros A be dbg p bs base.
  change id_relocator with (map_relocator []).
  change bs with (apply_rrels be [] bs) at 2 3.
  apply parser_reloc; auto. apply trace_ok_nil.
Qed.

(* RelocateReader never panics (in particular the debug assertions and the pointer subtraction of
   EndianSlice::offset_from are unreachable), whatever the parser, bytes and Relocate implementation,
   as long as the Relocate callbacks themselves do not panic; both build modes *)
Theorem reader_no_panic : forall (A : Type) (be dbg : bool) (rl : relocator) (p : prog A) (bs : list byte) (base : N),
  (forall pos v, rl_addr rl pos v <> Panic) -> (forall pos v, rl_off rl pos v <> Panic) ->
  snd (run_reloc_rd be dbg rl p (rrd_new (mkRd base bs))) <> Panic.
Proof.
  intros A be dbg rl p bs base H1 H2 Hp.
  pose proof (reloc_rd_no_panic be dbg rl bs base H1 H2 p _ (rinv_start bs base)) as Hn.
  rewrite Hp in Hn. exact Hn.
Qed.

Example ex_map_relocator_total : forall R pos v,
  rl_addr (map_relocator R) pos v <> Panic /\ rl_off (map_relocator R) pos v <> Panic.
Proof. intros. split; discriminate. Qed.

(* ---------------------------------------------------------------- both sides composed *)

(* What a recording writer produced, read back through RelocateReader with the recorded relocations
   (explicit addends, as in ELF RELA), is what a plain reader sees in the directly written section. *)
Theorem write_read_transparent :
  forall (A : Type) (be dbg : bool) (env : target -> N) (ws : list wop) b rs bp (p : prog A) (base : N),
  no_clobber be ws ([], []) = true ->
  run_reloc be ws ([], []) = Ok (b, rs) ->
  run_plain be (map (resolve env) ws) [] = Ok bp ->
  let R := map (rrel_of env) rs in
  sites_disjointb R = true ->
  trace_ok R (fst (run_reloc_rd be dbg (map_relocator R) p (rrd_new (mkRd base b)))) ->
  out_reloc (snd (run_reloc_rd be dbg (map_relocator R) p (rrd_new (mkRd base b)))) =
  out_plain (mkRd base bp) (run_plain_rd be dbg p (mkRd base bp)).
Proof.
  intros A be dbg env ws b rs bp p base Hnc Hr Hp R HR Ht.
  destruct (reloc_write_transparent be env ws b rs bp Hnc Hr Hp) as [<- _].
  rewrite <- (apply_rrels_of env be rs b). now apply parser_reloc.
Qed.

(* the unit-like script above, read back by a parser that uses the relocatable methods for the three
   relocated fields it visits *)
Definition ex_reader : prog (list N) :=
  PU 4 (fun len => PU 2 (fun ver => POffset false (fun abbrev => PU 1 (fun asz =>
  PAddr 8 (fun low_pc => PSized 4 (fun r => PRet [len; ver; abbrev; asz; low_pc; r])))))).
Example ex_write_read_hyps :
  match run_reloc false ex_script ([], []) with
  | Ok (b, rs) =>
      let R := map (rrel_of ex_env) rs in
      sites_disjointb R = true /\
      trace_okb R (fst (run_reloc_rd false true (map_relocator R) ex_reader (rrd_new (mkRd 0 b)))) = true /\
      out_reloc (snd (run_reloc_rd false true (map_relocator R) ex_reader (rrd_new (mkRd 0 b)))) =
        Ok ([25; 4; 52; 8; 4198672; 459052], 23, 6)
  | _ => False
  end.
Proof. vm_compute. repeat split; reflexivity. Qed.

Check reloc_write_transparent : forall (be : bool) (env : target -> N) (ws : list wop) b rs bp,
  no_clobber be ws ([], []) = true -> run_reloc be ws ([], []) = Ok (b, rs) ->
  run_plain be (map (resolve env) ws) [] = Ok bp ->
  apply_relocs env be rs b = bp /\ rs = spec_relocs be 0 ws.
Check parser_reloc : forall (A : Type) (be dbg : bool) (R : list rrel) (p : prog A) (bs : list byte) (base : N),
  sites_disjointb R = true ->
  trace_ok R (fst (run_reloc_rd be dbg (map_relocator R) p (rrd_new (mkRd base bs)))) ->
  out_reloc (snd (run_reloc_rd be dbg (map_relocator R) p (rrd_new (mkRd base bs)))) =
  out_plain (mkRd base (apply_rrels be R bs)) (run_plain_rd be dbg p (mkRd base (apply_rrels be R bs))).
Check identity_reloc : forall (A : Type) (be dbg : bool) (p : prog A) (bs : list byte) (base : N),
  out_reloc (snd (run_reloc_rd be dbg id_relocator p (rrd_new (mkRd base bs)))) =
  out_plain (mkRd base bs) (run_plain_rd be dbg p (mkRd base bs)).

(* ================================================================ the real parsers *)
(* Model/RelocPar.v writes the gimli parsers in the reader monad, field by field in the order of the Rust, each
   field with the Reader method the Rust uses; stream c18.parsers runs every one of them against gimli through
   RelocateReader (values, errors and the (offset, value) pairs handed to Relocate), debug and release.

   (5) STATIC form of (3), for EVERY parser of the monad.  `field_trace p P` is the field map of parser p on the
   section P as a plain reader sees it AFTER relocation: every span read, tagged plain or relocatable(width) —
   `run_plain_tr` is the plain interpreter with that trace and nothing else (run_plain_tr_is_plain).  If
     * the sites of R are pairwise disjoint,
     * every relocated value fits its field (`fitsb`: explicit addend, or raw field value + implicit addend),
     * R respects the field map (`shape_okb`: no site touches a plainly read span; a site touching a relocatable
       field is exactly that field: same position, same width),
   then reading the raw section through RelocateReader = reading the applied section plainly.  No run of the
   relocating reader appears in the hypotheses. *)
Theorem parser_reloc_static :
  forall (A : Type) (be dbg : bool) (R : list rrel) (p : prog A) (bs : list byte) (base : N),
  sites_disjointb R = true -> fitsb be R bs = true ->
  forallb (shape_okb R) (field_trace be dbg base p (apply_rrels be R bs)) = true ->
  out_reloc (snd (run_reloc_rd be dbg (map_relocator R) p (rrd_new (mkRd base bs)))) =
  out_plain (mkRd base (apply_rrels be R bs))
            (run_plain_rd be dbg p (mkRd base (apply_rrels be R bs))).
Proof.
  intros A be dbg R p bs base HR Hf Hs. apply parser_reloc; auto.
  eapply sim_static; eauto. apply st_rel_start.
Qed.

(* the static condition implies the dynamic one of parser_reloc (the streams evaluate both on every case) *)
Theorem static_implies_trace_ok :
  forall (A : Type) (be dbg : bool) (R : list rrel) (p : prog A) (bs : list byte) (base : N),
  static_okb be dbg base R p bs = true ->
  trace_ok R (fst (run_reloc_rd be dbg (map_relocator R) p (rrd_new (mkRd base bs)))).
Proof. exact static_okb_sound. Qed.

Theorem run_plain_tr_is_plain : forall (A : Type) (be dbg : bool) (base : N) (p : prog A) (r : rd),
  snd (run_plain_tr be dbg base p r) = run_plain_rd be dbg p r.
Proof. intros. apply run_plain_tr_snd. Qed.

(* ---- instances: one per gimli parser; the hypothesis is the decidable static condition ---- *)

(* src/read/line.rs: LineProgramHeader::parse (DWARF 2..5; unit_length and header_length are read_length — plain;
   version 5 directory/file entries through the line variant of parse_attribute: DW_FORM_line_strp / strp /
   strp_sup / GNU_strp_alt / sec_offset are read_offset, data*/udata/block/string plain) followed by every
   LineInstruction::parse of the program (DW_LNE_set_address operand = read_address; every other operand plain) *)
Theorem parser_reloc_line : forall (be dbg : bool) (fuel : nat) (asz0 : N) (R : list rrel) (bs : list byte) (base : N),
  let p := p_line fuel asz0 in
  static_okb be dbg base R p bs = true ->
  out_reloc (snd (run_reloc_rd be dbg (map_relocator R) p (rrd_new (mkRd base bs)))) =
  out_plain (mkRd base (apply_rrels be R bs))
            (run_plain_rd be dbg p (mkRd base (apply_rrels be R bs))).
Proof. intros. now apply static_okb_transparent. Qed.

(* src/read/unit.rs parse_attribute over the whole form table (DW_FORM_indirect included), at offset `field` *)
Theorem parser_reloc_attr : forall (be dbg : bool) (fuel : nat) (e : enc) (spec : aspec) (field : N) (R : list rrel) (bs : list byte) (base : N),
  let p := PSkip field (p_attr fuel e spec) in
  static_okb be dbg base R p bs = true ->
  out_reloc (snd (run_reloc_rd be dbg (map_relocator R) p (rrd_new (mkRd base bs)))) =
  out_plain (mkRd base (apply_rrels be R bs))
            (run_plain_rd be dbg p (mkRd base (apply_rrels be R bs))).
Proof. intros. now apply static_okb_transparent. Qed.

(* src/read/rnglists.rs: .debug_rnglists entries (RawRngListEntry::parse, Rle) iterated by RawRngListIter *)
Theorem parser_reloc_rnglist : forall (be dbg : bool) (fuel : nat) (asz : N) (R : list rrel) (bs : list byte) (base : N),
  let p := p_rnglist fuel asz [] in
  static_okb be dbg base R p bs = true ->
  out_reloc (snd (run_reloc_rd be dbg (map_relocator R) p (rrd_new (mkRd base bs)))) =
  out_plain (mkRd base (apply_rrels be R bs))
            (run_plain_rd be dbg p (mkRd base (apply_rrels be R bs))).
Proof. intros. now apply static_okb_transparent. Qed.

(* src/read/loclists.rs: .debug_loclists / GNU .debug_loc.dwo entries (Lle) and legacy .debug_loc (Bare) *)
Theorem parser_reloc_loclist : forall (be dbg : bool) (fuel : nat) (ver asz : N) (R : list rrel) (bs : list byte) (base : N),
  let p := p_loclist fuel ver asz [] in
  static_okb be dbg base R p bs = true ->
  out_reloc (snd (run_reloc_rd be dbg (map_relocator R) p (rrd_new (mkRd base bs)))) =
  out_plain (mkRd base (apply_rrels be R bs))
            (run_plain_rd be dbg p (mkRd base (apply_rrels be R bs))).
Proof. intros. now apply static_okb_transparent. Qed.

Theorem parser_reloc_loc_bare : forall (be dbg : bool) (fuel : nat) (asz : N) (R : list rrel) (bs : list byte) (base : N),
  let p := p_loc_bare fuel asz [] in
  static_okb be dbg base R p bs = true ->
  out_reloc (snd (run_reloc_rd be dbg (map_relocator R) p (rrd_new (mkRd base bs)))) =
  out_plain (mkRd base (apply_rrels be R bs))
            (run_plain_rd be dbg p (mkRd base (apply_rrels be R bs))).
Proof. intros. now apply static_okb_transparent. Qed.

(* src/read/aranges.rs: ArangeHeader::parse (debug_info_offset = read_offset) + tuples (read_address) *)
Theorem parser_reloc_aranges : forall (be dbg : bool) (fuel : nat) (R : list rrel) (bs : list byte) (base : N),
  let p := p_aranges fuel in
  static_okb be dbg base R p bs = true ->
  out_reloc (snd (run_reloc_rd be dbg (map_relocator R) p (rrd_new (mkRd base bs)))) =
  out_plain (mkRd base (apply_rrels be R bs))
            (run_plain_rd be dbg p (mkRd base (apply_rrels be R bs))).
Proof. intros. now apply static_okb_transparent. Qed.

(* src/read/lookup.rs: .debug_pubnames/.debug_pubtypes sets (unit_offset and DIE offsets = read_offset;
   unit_length = read_length, plain) *)
Theorem parser_reloc_pubnames : forall (be dbg : bool) (fuel sfuel : nat) (R : list rrel) (bs : list byte) (base : N),
  let p := p_pubnames fuel sfuel [] in
  static_okb be dbg base R p bs = true ->
  out_reloc (snd (run_reloc_rd be dbg (map_relocator R) p (rrd_new (mkRd base bs)))) =
  out_plain (mkRd base (apply_rrels be R bs))
            (run_plain_rd be dbg p (mkRd base (apply_rrels be R bs))).
Proof. intros. now apply static_okb_transparent. Qed.

(* ---- which primitive: the content of the attribute instance, stated on the form table ---- *)

Theorem attr_offset_forms : forall (A : Type) (k : list N -> prog A) (fuel : nat) (e : enc) (spec : aspec) (form : N),
  In form [DW_FORM_strp; DW_FORM_sec_offset; DW_FORM_strp_sup; DW_FORM_line_strp; DW_FORM_GNU_ref_alt; DW_FORM_GNU_strp_alt] ->
  exists tag, p_attr_direct k fuel e spec form = POffset (fmt64 e) (fun v => k [tag; v]).
Proof.
  intros A k fuel e spec form H. cbn [In] in H.
  repeat (destruct H as [<-|H]; [eexists; reflexivity|]). destruct H.
Qed.

Theorem attr_addr_form : forall (A : Type) (k : list N -> prog A) (fuel : nat) (e : enc) (spec : aspec),
  p_attr_direct k fuel e spec DW_FORM_addr = PAddr (address_size e) (fun v => k [T_Addr; v]).
Proof. reflexivity. Qed.

Theorem attr_ref_addr_form : forall (A : Type) (k : list N -> prog A) (fuel : nat) (e : enc) (spec : aspec),
  p_attr_direct k fuel e spec DW_FORM_ref_addr =
  if version e =? 2 then PSized (address_size e) (fun v => k [T_DebugInfoRef; v])
  else POffset (fmt64 e) (fun v => k [T_DebugInfoRef; v]).
Proof. reflexivity. Qed.

Theorem attr_plain_forms : forall (A : Type) (k : list N -> prog A) (fuel : nat) (e : enc) (spec : aspec) (form : N),
  In form [DW_FORM_data1; DW_FORM_data2; DW_FORM_data16; DW_FORM_ref1; DW_FORM_ref2; DW_FORM_ref4; DW_FORM_ref8;
           DW_FORM_ref_sig8; DW_FORM_ref_sup4; DW_FORM_ref_sup8; DW_FORM_strx1; DW_FORM_strx2; DW_FORM_strx3;
           DW_FORM_strx4; DW_FORM_addrx1; DW_FORM_addrx2; DW_FORM_addrx3; DW_FORM_addrx4] ->
  exists n tag, p_attr_direct k fuel e spec form = PU n (fun v => k [tag; v]).
Proof.
  intros A k fuel e spec form H. cbn [In] in H.
  repeat (destruct H as [<-|H]; [do 2 eexists; reflexivity|]). destruct H.
Qed.

Theorem attr_leb_forms : forall (A : Type) (k : list N -> prog A) (fuel : nat) (e : enc) (spec : aspec) (form : N),
  In form [DW_FORM_udata; DW_FORM_ref_udata; DW_FORM_strx; DW_FORM_addrx; DW_FORM_loclistx; DW_FORM_rnglistx;
           DW_FORM_GNU_str_index; DW_FORM_GNU_addr_index] ->
  exists tag, p_attr_direct k fuel e spec form = PUleb (fun v => k [tag; v]).
Proof.
  intros A k fuel e spec form H. cbn [In] in H.
  repeat (destruct H as [<-|H]; [eexists; reflexivity|]). destruct H.
Qed.

Theorem line_attr_offset_forms : forall (A : Type) (sfuel : nat) (fmt md5 : bool) (k : list N -> prog A) (form : N),
  In form [DW_FORM_strp; DW_FORM_sec_offset; DW_FORM_strp_sup; DW_FORM_line_strp; DW_FORM_GNU_strp_alt] ->
  exists tag, p_line_attr sfuel fmt md5 form k = POffset fmt (fun v => k [tag; v]).
Proof.
  intros A sfuel fmt md5 k form H. cbn [In] in H.
  repeat (destruct H as [<-|H]; [eexists; reflexivity|]). destruct H.
Qed.

(* ---- non-vacuity and the NEGATIVE half: a relocation on a plainly read field is not transparent ---- *)

(* observation of one case: (static condition, relocating run, plain run on applied bytes, relocatable fields) *)
Definition both_runs {A} (R : list rrel) (p : prog A) (bs : list byte) :=
  (static_okb false true 0 R p bs,
   out_reloc (snd (run_reloc_rd false true (map_relocator R) p (rrd_new (mkRd 0 bs)))),
   out_plain (mkRd 0 (apply_rrels false R bs)) (run_plain_rd false true p (mkRd 0 (apply_rrels false R bs))),
   field_sites (field_trace false true 0 p (apply_rrels false R bs))).

(* a DWARF 4 line program: one file, DW_LNE_set_address 0x10, a special opcode, end_sequence *)
Definition ex_line_bytes : list byte := [x2e; x00; x00; x00; x04; x00; x19; x00; x00; x00; x01; x01; x01; xfb; x0e; x0d; x00; x01; x01; x01; x01; x00; x00; x00; x01; x00; x00; x01; x00; x61; x00; x00; x00; x00; x00; x00; x09; x02; x10; x00; x00; x00; x00; x00; x00; x00; x20; x00; x01; x01].
(* its only relocatable field is the set_address operand (offset 38, 8 bytes); relocated: address 0x1010 both ways *)
Example ex_line_set_address :
  both_runs [mkRrel 38 8 true 4096] (p_line 60 8) ex_line_bytes =
  (true,
   Ok ([46; 4; 4; 8; 25; 1; 1; 1; 251; 14; 13; 111; 222; 17; 1; 0; 0; 0; 0; 0; 0; 333; 0; 2; 4112; 32; 0; 1], 50, 0),
   Ok ([46; 4; 4; 8; 25; 1; 1; 1; 251; 14; 13; 111; 222; 17; 1; 0; 0; 0; 0; 0; 0; 333; 0; 2; 4112; 32; 0; 1], 50, 0),
   [(38, 8)]).
Proof. vm_compute. reflexivity. Qed.
(* header_length (offset 6) is read_length: a relocation there is outside the field map, and the two readings differ *)
Example ex_line_header_length_not_transparent :
  match both_runs [mkRrel 6 4 true 1] (p_line 60 8) ex_line_bytes with
  | (ok, r, p, _) => ok = false /\ r <> p
  end.
Proof. vm_compute. split; [reflexivity|discriminate]. Qed.
Example ex_line_unit_length_not_transparent :
  match both_runs [mkRrel 0 4 false 45] (p_line 60 8) ex_line_bytes with
  | (ok, r, p, _) => ok = false /\ r <> p
  end.
Proof. vm_compute. split; [reflexivity|discriminate]. Qed.

(* one DIE attribute at offset 12 of a DWARF 4 unit holding 0x34, relocation +0x1000 on it *)
Definition ex_attr_bytes : list byte := [x0c; x00; x00; x00; x04; x00; x00; x00; x00; x00; x08; x01; x34; x00; x00; x00].
Definition ex_e4 : enc := mkEnc 4 false 8 false.
Example ex_attr_strp_transparent :
  both_runs [mkRrel 12 4 true 4096] (PSkip 12 (p_attr 20 ex_e4 (mkSpec 3 DW_FORM_strp 0))) ex_attr_bytes =
  (true, Ok ([T_DebugStrRef; 4148], 16, 0), Ok ([T_DebugStrRef; 4148], 16, 0), [(12, 4)]).
Proof. vm_compute. reflexivity. Qed.
(* the same bytes as DW_FORM_data4 of DW_AT_decl_line, or as DW_FORM_ref4: plain reads, not transparent *)
Example ex_attr_data4_not_transparent :
  both_runs [mkRrel 12 4 true 4096] (PSkip 12 (p_attr 20 ex_e4 (mkSpec 59 DW_FORM_data4 0))) ex_attr_bytes =
  (false, Ok ([T_Data4; 52], 16, 0), Ok ([T_Data4; 4148], 16, 0), []).
Proof. vm_compute. reflexivity. Qed.
Example ex_attr_ref4_not_transparent :
  both_runs [mkRrel 12 4 true 4096] (PSkip 12 (p_attr 20 ex_e4 (mkSpec 73 DW_FORM_ref4 0))) ex_attr_bytes =
  (false, Ok ([T_UnitRef; 52], 16, 0), Ok ([T_UnitRef; 4148], 16, 0), []).
Proof. vm_compute. reflexivity. Qed.

(* .debug_rnglists: DW_RLE_start_length 0x10 +5, DW_RLE_offset_pair 1 2, end *)
Definition ex_rle_bytes : list byte := [x07; x10; x00; x00; x00; x00; x00; x00; x00; x05; x04; x01; x02; x00].
Example ex_rle_start_length_transparent :
  both_runs [mkRrel 1 8 true 4096] (p_rnglist 20 8 []) ex_rle_bytes =
  (true, Ok ([7; 4112; 5; 4; 1; 2], 14, 0), Ok ([7; 4112; 5; 4; 1; 2], 14, 0), [(1, 8)]).
Proof. vm_compute. reflexivity. Qed.
(* the operands of DW_RLE_offset_pair are ULEB128s: not relocatable *)
Example ex_rle_offset_pair_not_transparent :
  both_runs [mkRrel 11 1 true 3] (p_rnglist 20 8 []) ex_rle_bytes =
  (false, Ok ([7; 16; 5; 4; 1; 2], 14, 0), Ok ([7; 16; 5; 4; 4; 2], 14, 0), [(1, 8)]).
Proof. vm_compute. reflexivity. Qed.

(* .debug_aranges: one set, debug_info_offset 0x40, one tuple (0x1000, 0x20), terminator *)
Definition ex_aranges_bytes : list byte := [x2c; x00; x00; x00; x02; x00; x40; x00; x00; x00; x08; x00; x00; x00; x00; x00; x00; x10; x00; x00; x00; x00; x00; x00; x20; x00; x00; x00; x00; x00; x00; x00; x00; x00; x00; x00; x00; x00; x00; x00; x00; x00; x00; x00; x00; x00; x00; x00].
Example ex_aranges_transparent :
  both_runs [mkRrel 6 4 true 256; mkRrel 16 8 false 8192] (p_aranges 60) ex_aranges_bytes =
  (true, Ok ([44; 4; 2; 320; 8; 8192; 32], 48, 0), Ok ([44; 4; 2; 320; 8; 8192; 32], 48, 0),
   [(6, 4); (16, 8); (24, 8); (32, 8); (40, 8)]).
Proof. vm_compute. reflexivity. Qed.
Example ex_aranges_length_not_transparent :
  match both_runs [mkRrel 0 4 false 28] (p_aranges 60) ex_aranges_bytes with
  | (ok, r, p, _) => ok = false /\ r <> p
  end.
Proof. vm_compute. split; [reflexivity|discriminate]. Qed.

(* .debug_pubnames: one set (unit offset 0x40, unit_length 0x100), entry (0x2a, "foo"), terminator: the unit offset,
   the DIE offset and the terminator word are the relocatable fields *)
Definition ex_pub_bytes : list byte := [x16; x00; x00; x00; x02; x00; x40; x00; x00; x00; x00; x01; x00; x00; x2a; x00; x00; x00; x66; x6f; x6f; x00; x00; x00; x00; x00].
Example ex_pubnames_transparent :
  both_runs [mkRrel 6 4 true 256; mkRrel 14 4 true 16] (p_pubnames 40 40 []) ex_pub_bytes =
  (true, Ok ([320; 58; 3], 26, 0), Ok ([320; 58; 3], 26, 0), [(6, 4); (14, 4); (22, 4)]).
Proof. vm_compute. reflexivity. Qed.

Check parser_reloc_static :
  forall (A : Type) (be dbg : bool) (R : list rrel) (p : prog A) (bs : list byte) (base : N),
  sites_disjointb R = true -> fitsb be R bs = true ->
  forallb (shape_okb R) (field_trace be dbg base p (apply_rrels be R bs)) = true ->
  out_reloc (snd (run_reloc_rd be dbg (map_relocator R) p (rrd_new (mkRd base bs)))) =
  out_plain (mkRd base (apply_rrels be R bs)) (run_plain_rd be dbg p (mkRd base (apply_rrels be R bs))).
