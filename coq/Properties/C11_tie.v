(* Properties/C11_tie.v — translator tie (DESIGN §1.2 item 2) for C11: every DW_* numeral that Spec/UnitWrSpec.v defines is the constant of the same
   name in /repo/src/constants.rs, regenerated into coq/Gen/Constants.v from the source text on every ./check run. *)
From Coq Require Import NArith.
Require GV.Gen.Constants GV.Spec.UnitWrSpec.
Local Open Scope N_scope.

(* the 30 DW_* numerals of Spec/UnitWrSpec.v *)
Theorem c11_tie_constants :
  Constants.DW_FORM_addr = UnitWrSpec.DW_FORM_addr /\
  Constants.DW_FORM_data2 = UnitWrSpec.DW_FORM_data2 /\
  Constants.DW_FORM_data4 = UnitWrSpec.DW_FORM_data4 /\
  Constants.DW_FORM_data8 = UnitWrSpec.DW_FORM_data8 /\
  Constants.DW_FORM_string = UnitWrSpec.DW_FORM_string /\
  Constants.DW_FORM_block = UnitWrSpec.DW_FORM_block /\
  Constants.DW_FORM_data1 = UnitWrSpec.DW_FORM_data1 /\
  Constants.DW_FORM_flag = UnitWrSpec.DW_FORM_flag /\
  Constants.DW_FORM_sdata = UnitWrSpec.DW_FORM_sdata /\
  Constants.DW_FORM_strp = UnitWrSpec.DW_FORM_strp /\
  Constants.DW_FORM_udata = UnitWrSpec.DW_FORM_udata /\
  Constants.DW_FORM_ref_addr = UnitWrSpec.DW_FORM_ref_addr /\
  Constants.DW_FORM_ref4 = UnitWrSpec.DW_FORM_ref4 /\
  Constants.DW_FORM_ref8 = UnitWrSpec.DW_FORM_ref8 /\
  Constants.DW_FORM_sec_offset = UnitWrSpec.DW_FORM_sec_offset /\
  Constants.DW_FORM_exprloc = UnitWrSpec.DW_FORM_exprloc /\
  Constants.DW_FORM_flag_present = UnitWrSpec.DW_FORM_flag_present /\
  Constants.DW_FORM_ref_sup4 = UnitWrSpec.DW_FORM_ref_sup4 /\
  Constants.DW_FORM_strp_sup = UnitWrSpec.DW_FORM_strp_sup /\
  Constants.DW_FORM_data16 = UnitWrSpec.DW_FORM_data16 /\
  Constants.DW_FORM_line_strp = UnitWrSpec.DW_FORM_line_strp /\
  Constants.DW_FORM_ref_sig8 = UnitWrSpec.DW_FORM_ref_sig8 /\
  Constants.DW_FORM_implicit_const = UnitWrSpec.DW_FORM_implicit_const /\
  Constants.DW_FORM_ref_sup8 = UnitWrSpec.DW_FORM_ref_sup8 /\
  Constants.DW_AT_sibling = UnitWrSpec.DW_AT_sibling /\
  Constants.DW_AT_stmt_list = UnitWrSpec.DW_AT_stmt_list /\
  Constants.DW_AT_low_pc = UnitWrSpec.DW_AT_low_pc /\
  Constants.DW_TAG_compile_unit = UnitWrSpec.DW_TAG_compile_unit /\
  Constants.DW_TAG_base_type = UnitWrSpec.DW_TAG_base_type /\
  Constants.DW_UT_compile = UnitWrSpec.DW_UT_compile.
Proof. repeat split; reflexivity. Qed.

(* statement pins *)
Check c11_tie_constants :
  Constants.DW_FORM_addr = UnitWrSpec.DW_FORM_addr /\
  Constants.DW_FORM_data2 = UnitWrSpec.DW_FORM_data2 /\
  Constants.DW_FORM_data4 = UnitWrSpec.DW_FORM_data4 /\
  Constants.DW_FORM_data8 = UnitWrSpec.DW_FORM_data8 /\
  Constants.DW_FORM_string = UnitWrSpec.DW_FORM_string /\
  Constants.DW_FORM_block = UnitWrSpec.DW_FORM_block /\
  Constants.DW_FORM_data1 = UnitWrSpec.DW_FORM_data1 /\
  Constants.DW_FORM_flag = UnitWrSpec.DW_FORM_flag /\
  Constants.DW_FORM_sdata = UnitWrSpec.DW_FORM_sdata /\
  Constants.DW_FORM_strp = UnitWrSpec.DW_FORM_strp /\
  Constants.DW_FORM_udata = UnitWrSpec.DW_FORM_udata /\
  Constants.DW_FORM_ref_addr = UnitWrSpec.DW_FORM_ref_addr /\
  Constants.DW_FORM_ref4 = UnitWrSpec.DW_FORM_ref4 /\
  Constants.DW_FORM_ref8 = UnitWrSpec.DW_FORM_ref8 /\
  Constants.DW_FORM_sec_offset = UnitWrSpec.DW_FORM_sec_offset /\
  Constants.DW_FORM_exprloc = UnitWrSpec.DW_FORM_exprloc /\
  Constants.DW_FORM_flag_present = UnitWrSpec.DW_FORM_flag_present /\
  Constants.DW_FORM_ref_sup4 = UnitWrSpec.DW_FORM_ref_sup4 /\
  Constants.DW_FORM_strp_sup = UnitWrSpec.DW_FORM_strp_sup /\
  Constants.DW_FORM_data16 = UnitWrSpec.DW_FORM_data16 /\
  Constants.DW_FORM_line_strp = UnitWrSpec.DW_FORM_line_strp /\
  Constants.DW_FORM_ref_sig8 = UnitWrSpec.DW_FORM_ref_sig8 /\
  Constants.DW_FORM_implicit_const = UnitWrSpec.DW_FORM_implicit_const /\
  Constants.DW_FORM_ref_sup8 = UnitWrSpec.DW_FORM_ref_sup8 /\
  Constants.DW_AT_sibling = UnitWrSpec.DW_AT_sibling /\
  Constants.DW_AT_stmt_list = UnitWrSpec.DW_AT_stmt_list /\
  Constants.DW_AT_low_pc = UnitWrSpec.DW_AT_low_pc /\
  Constants.DW_TAG_compile_unit = UnitWrSpec.DW_TAG_compile_unit /\
  Constants.DW_TAG_base_type = UnitWrSpec.DW_TAG_base_type /\
  Constants.DW_UT_compile = UnitWrSpec.DW_UT_compile.
