(* Properties/C02_tie.v — translator tie (DESIGN §1.2 item 2) for C02: every DW_* numeral that Spec/Forest.v defines is the constant of the same
   name in /repo/src/constants.rs, regenerated into coq/Gen/Constants.v from the source text on every ./check run. *)
From Coq Require Import NArith.
Require GV.Gen.Constants GV.Spec.Forest.
Local Open Scope N_scope.

(* the one DW_* numeral of Spec/Forest.v *)
Theorem c02_tie_constants :
  Constants.DW_AT_sibling = Forest.DW_AT_sibling.
Proof. repeat split; reflexivity. Qed.

(* statement pins *)
Check c02_tie_constants :
  Constants.DW_AT_sibling = Forest.DW_AT_sibling.
