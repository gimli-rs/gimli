(* Properties/C08.v — range and location lists resolve to the standard's address ranges.
   `Example`s show that the hypotheses are satisfiable, non-trivially.

   Model: GV.Model.ListsRd (mirrors read/rnglists.rs, read/loclists.rs, read/addr.rs get_address,
   read/str.rs get_str_offset, read/dwarf.rs range helpers). Spec: GV.Spec.ListSpec.
   `ranges_all` / `locations_all` / `raw_*_all` = the entry point followed by calling next() until Ok(None),
   recording every yielded item (EvItem) and every error (EvErr): what a caller of the iterator observes.
   `dbg` = build mode (true: overflow checks). usize = u64. *)
From Coq Require Import List NArith Bool Lia.
From Coq.Strings Require Import Byte.
Require Import GV.Base.Res GV.Base.Byt GV.Base.Ints GV.Model.Prim GV.Spec.ListSpec GV.Model.ListsRd
               GV.Proofs.ListsRdProofs.
Require GV.Proofs.PrimProofs.
Import ListNotations.
Local Open Scope N_scope.

(* ================================================================== 1. universal clause
   "For any input whatsoever every yielded range is non-empty and begins below the tombstone addresses."
   No hypothesis at all: any bytes in any section, any offset, base, address table, version, address size
   (validated or not), both build modes. `t` is the value gimli's min_tombstone computes for the configured
   address size; for the four real address sizes it is 2^(8*size) - 2 (`tombstone_threshold`). *)
Theorem nonempty_below_tombstone_ranges :
  forall dbg c x debug_ranges debug_rnglists offset base l r,
    ranges_all dbg c x debug_ranges debug_rnglists offset base = Ok l -> In (EvItem r) l ->
    fst r < snd r /\ exists t, min_tombstone_raw dbg (c_asize c) = Ok t /\ fst r < t.
Proof.
  intros dbg c x dr drl off base l r H Hin. unfold ranges_all in H. apply bind_ok in H as [[inp bare] [_ H]].
  destruct (list_drain_yield _ _ _ dbg c x _ _ _ _ H Hin) as [rg [a [-> Hy]]]. exact Hy.
Qed.

Theorem nonempty_below_tombstone_locations :
  forall dbg c dwo x debug_loc debug_loclists offset base l r d,
    locations_all dbg c dwo x debug_loc debug_loclists offset base = Ok l -> In (EvItem (r, d)) l ->
    fst r < snd r /\ exists t, min_tombstone_raw dbg (c_asize c) = Ok t /\ fst r < t.
Proof.
  intros dbg c dwo x dl dll off base l r d H Hin. unfold locations_all in H. apply bind_ok in H as [[inp bare] [_ H]].
  destruct (list_drain_yield _ _ _ dbg c x _ _ _ _ H Hin) as [rg [a [E Hy]]]. inversion E; subst. exact Hy.
Qed.

(* the threshold is -2 at the address size, and equals Prim.min_tombstone used by the other models *)
Theorem tombstone_threshold :
  forall dbg sz, valid_asize sz = true ->
    min_tombstone_raw dbg sz = Ok (2 ^ (8 * sz) - 2) /\ min_tombstone sz = 2 ^ (8 * sz) - 2.
Proof.
  intros dbg sz H. split; [exact (min_tombstone_raw_valid dbg sz H)|exact (PrimProofs.min_tombstone_exact sz H)].
Qed.

(* also for one call of next() from any iterator state with any amount of fuel *)
Theorem nonempty_below_tombstone_next :
  forall fuel dbg c bare x s r s',
    rng_next fuel dbg c bare x s = (Ok (Some r), s') ->
    fst r < snd r /\ exists t, min_tombstone_raw dbg (c_asize c) = Ok t /\ fst r < t.
Proof.
  intros fuel dbg c bare x s r s' H. unfold rng_next in H.
  apply list_next_yield in H as [rg [a [-> Hy]]]. exact Hy.
Qed.

(* non-vacuity: a list in which tombstoned, empty, reversed and wrapping entries are dropped and two survive *)
Example nonempty_below_tombstone_example :
  ranges_all true {| c_be := false; c_asize := 1; c_version := 5 |} {| x_addr := [xfe; x10]; x_addr_base := 0 |} []
    [x04; x01; x05;            (* offset_pair 1 5   from base 0x20              -> [0x21,0x25) *)
     x05; xff; x04; x00; x03;  (* base_address 0xff ; offset_pair 0 3           -> deleted base: dropped *)
     x06; x30; x30;            (* start_end 0x30 0x30                           -> empty: dropped *)
     x06; x40; x30;            (* start_end 0x40 0x30                           -> reversed: dropped *)
     x02; x00; x01;            (* startx_endx [0]=0xfe [1]=0x10                 -> tombstone: dropped *)
     x07; xf0; x20;            (* start_length 0xf0 0x20 = [0xf0, 0x10) wraps   -> dropped *)
     x07; x50; x08;            (* start_length 0x50 8                           -> [0x50,0x58) *)
     x00] 0 32
  = Ok [EvItem (33, 37); EvItem (80, 88)].
Proof. vm_compute. reflexivity. Qed.

(* ================================================================== 2. raw iteration
   "Raw iteration exposes every encoded entry unchanged": for every list of well-formed abstract entries,
   in the encoding the unit version selects (pairs up to v4, DW_RLE / DW_LLE from v5, DW_LLE inside .debug_loc
   for a pre-v5 .dwo), placed after any prefix and followed by any bytes, with anything in the other section. *)
Theorem raw_roundtrip_ranges :
  forall dbg c es pre rest other,
    valid_asize (c_asize c) = true -> forallb (wf_rng c) es = true ->
    raw_ranges_all dbg c (if rng_bare c then pre ++ enc_rng_list c es ++ rest else other)
                         (if rng_bare c then other else pre ++ enc_rng_list c es ++ rest)
                         (N.of_nat (length pre))
    = Ok (map EvItem es).
Proof. exact raw_ranges_all_enc. Qed.

Theorem raw_roundtrip_locations :
  forall dbg c dwo xs pre rest other,
    valid_asize (c_asize c) = true -> forallb (wf_loc c dwo) xs = true ->
    raw_locations_all dbg c dwo (if c_version c <=? 4 then pre ++ enc_loc_list c dwo xs ++ rest else other)
                                (if c_version c <=? 4 then other else pre ++ enc_loc_list c dwo xs ++ rest)
                                (N.of_nat (length pre))
    = Ok (map EvItem xs).
Proof. exact raw_locations_all_enc. Qed.

Example raw_roundtrip_example_wf :
  forallb (wf_rng {| c_be := true; c_asize := 4; c_version := 5 |})
    [LBasex 3; LStartxEndx 0 18446744073709551615; LStartxLength 2 18446744073709551615; LOffsetPair 0 4294967296;
     LBase 4294967295; LStartEnd 4294967294 0; LStartLength 1 2] = true
  /\ forallb (wf_loc {| c_be := false; c_asize := 8; c_version := 4 |} true)
    [(LStartxLength 1 4294967295, [x91; x00]); (LDefault, []); (LBase 5, []); (LOffsetPair 1 2, [x50])] = true
  /\ forallb (wf_loc {| c_be := false; c_asize := 2; c_version := 3 |} false)
    [(LPair 65534 1, [x01; x02; x03]); (LBase 0, []); (LPair 0 1, [])] = true.
Proof. vm_compute. auto. Qed.

(* ================================================================== 3. resolution
   For well-formed lists the iterators yield exactly ListSpec.resolve_rng / resolve_loc: running base address
   (DW_*_base_address, base_addressx, pre-v5 selection entries), startx/addrx through the address table at
   addr_base, start_length and offset pairs wrapping at the address size, default_location = [0, 2^64-1),
   empty / reversed / tombstoned entries dropped. Hypothesis `resolve_* = Some rs` says that every address
   index used lies inside .debug_addr (otherwise the iterator reports an error for that entry and goes on;
   covered by the correspondence streams, not by a theorem). *)
Theorem resolve_refines_ranges :
  forall dbg c x es pre rest other base rs,
    valid_asize (c_asize c) = true -> N.of_nat (length (x_addr x)) < two64 ->
    forallb (wf_rng c) es = true ->
    resolve_rng (c_asize c) (addr_table (c_be c) (c_asize c) (x_addr x) (x_addr_base x)) base es = Some rs ->
    ranges_all dbg c x (if rng_bare c then pre ++ enc_rng_list c es ++ rest else other)
                       (if rng_bare c then other else pre ++ enc_rng_list c es ++ rest)
                       (N.of_nat (length pre)) base
    = Ok (map EvItem rs).
Proof. exact ranges_all_enc. Qed.

Theorem resolve_refines_locations :
  forall dbg c dwo x xs pre rest other base rs,
    valid_asize (c_asize c) = true -> N.of_nat (length (x_addr x)) < two64 ->
    forallb (wf_loc c dwo) xs = true ->
    resolve_loc (c_asize c) (addr_table (c_be c) (c_asize c) (x_addr x) (x_addr_base x)) base xs = Some rs ->
    locations_all dbg c dwo x (if c_version c <=? 4 then pre ++ enc_loc_list c dwo xs ++ rest else other)
                              (if c_version c <=? 4 then other else pre ++ enc_loc_list c dwo xs ++ rest)
                              (N.of_nat (length pre)) base
    = Ok (map EvItem rs).
Proof. exact locations_all_enc. Qed.

Example resolve_refines_example :
  let c := {| c_be := false; c_asize := 2; c_version := 5 |} in
  let tbl := addr_table false 2 [xaa; x00; x10; x34; x12] 1 in
  forallb (wf_loc c false)
    [(LOffsetPair 1 5, [x50]); (LBasex 1, []); (LOffsetPair 65535 2, [x51]); (LStartxLength 0 65535, [x52]);
     (LDefault, [x53]); (LBase 65534, []); (LOffsetPair 0 1, [x54])] = true
  /\ resolve_loc 2 tbl 256
    [(LOffsetPair 1 5, [x50]); (LBasex 1, []); (LOffsetPair 65535 2, [x51]); (LStartxLength 0 65535, [x52]);
     (LDefault, [x53]); (LBase 65534, []); (LOffsetPair 0 1, [x54])]
     = Some [((257, 261), [x50]); ((4659, 4662), [x51]); ((0, 18446744073709551615), [x53])].
Proof. vm_compute. auto. Qed.

(* ================================================================== 4. indexed tables
   entry i of the table = the word at base + i * width, computed in unbounded arithmetic; out of the section
   (including every overflow of the index arithmetic) = UnexpectedEof; a sum outside u64 = UnsupportedOffset. *)
Theorem offset_table_get_offset :
  forall be fmt64 sect base index,
    N.of_nat (length sect) < two64 ->
    get_offset be fmt64 sect base index =
    match offset_table be fmt64 sect base index with
    | Some o => if o <? two64 then Ok o else Err EUnsupportedOffset
    | None => Err EUnexpectedEof
    end.
Proof. exact get_offset_spec. Qed.

Theorem offset_table_get_address :
  forall be sect asize base index,
    valid_asize asize = true -> N.of_nat (length sect) < two64 ->
    get_address be sect asize base index =
    match addr_table be asize sect base index with Some v => Ok v | None => Err EUnexpectedEof end.
Proof. exact get_address_spec. Qed.

Theorem offset_table_get_str_offset :
  forall be fmt64 sect base index,
    N.of_nat (length sect) < two64 ->
    get_str_offset be fmt64 sect base index =
    match str_offset_table be fmt64 sect base index with Some o => Ok o | None => Err EUnexpectedEof end.
Proof. exact get_str_offset_spec. Qed.

(* an address size other than 1, 2, 4, 8 never yields an address *)
Theorem get_address_rejects_invalid_size :
  forall be sect asize base index a,
    valid_asize asize = false -> get_address be sect asize base index <> Ok a.
Proof. intros be sect asize base index a Hv H. apply get_address_ok_valid in H. congruence. Qed.

Example offset_table_example :
  offset_table true false [x00; x00; x00; x00; x00; x00; x10; x00; x00; x00; x20] 3 1 = Some 35
  /\ get_offset true false [x00; x00; x00; x00; x00; x00; x10; x00; x00; x00; x20] 3 1 = Ok 35
  /\ get_offset true false [x00; x00; x00; x00; x00; x00; x10; x00; x00; x00; x20] 3 4611686018427387904 = Err EUnexpectedEof
  /\ get_offset false true [xff; xff; xff; xff; xff; xff; xff; xff] 0 0 = Ok 18446744073709551615
  /\ get_offset false true [x00; xff; xff; xff; xff; xff; xff; xff; xff] 1 0 = Err EUnsupportedOffset.
Proof. vm_compute. auto. Qed.

(* ================================================================== 5. DIE-level helpers
   On entries whose other attributes are irrelevant (`other_attr`): *)
Theorem helpers_low_high_address :
  forall u pre mid post lo hi,
    forallb other_attr pre = true -> forallb other_attr mid = true -> forallb other_attr post = true ->
    die_ranges u (pre ++ (AtLowPc, AvAddr lo) :: mid ++ (AtHighPc, AvAddr hi) :: post)
    = Ok (RiSingle (Some (lowhigh_addr lo hi))).
Proof.
  intros u pre mid post lo hi H1 H2 H3. unfold die_ranges. rewrite die_loop_other by exact H1. simpl.
  rewrite die_loop_other by exact H2. simpl.
  rewrite <- (app_nil_r post), die_loop_other by exact H3. reflexivity.
Qed.

(* high_pc of class constant: [low, low + n); since /repo 3fe3498 a sum outside u64 is AddressOverflow
   (before: a panic in checked builds and a wrapped, reversed range otherwise — DESIGN §8 S2) *)
Theorem helpers_low_high_constant :
  forall u pre mid post lo n,
    forallb other_attr pre = true -> forallb other_attr mid = true -> forallb other_attr post = true ->
    die_ranges u (pre ++ (AtLowPc, AvAddr lo) :: mid ++ (AtHighPc, AvUdata n) :: post)
    = if lo + n <? two64 then Ok (RiSingle (Some (lowhigh_const lo n))) else Err EAddressOverflow.
Proof. exact die_lowhigh_const. Qed.

Theorem helpers_high_low_constant :
  forall u pre mid post lo n,
    forallb other_attr pre = true -> forallb other_attr mid = true -> forallb other_attr post = true ->
    die_ranges u (pre ++ (AtHighPc, AvUdata n) :: mid ++ (AtLowPc, AvAddr lo) :: post)
    = if lo + n <? two64 then Ok (RiSingle (Some (lowhigh_const lo n))) else Err EAddressOverflow.
Proof.
  intros u pre mid post lo n H1 H2 H3. unfold die_ranges. rewrite die_loop_other by exact H1. simpl.
  rewrite die_loop_other by exact H2. simpl.
  rewrite <- (app_nil_r post), die_loop_other by exact H3. reflexivity.
Qed.

Theorem helpers_low_addrx_high_constant :
  forall u pre mid post i lo n,
    forallb other_attr pre = true -> forallb other_attr mid = true -> forallb other_attr post = true ->
    valid_asize (c_asize (u_cfg u)) = true -> N.of_nat (length (u_debug_addr u)) < two64 ->
    addr_table (c_be (u_cfg u)) (c_asize (u_cfg u)) (u_debug_addr u) (u_addr_base u) i = Some lo ->
    die_ranges u (pre ++ (AtLowPc, AvAddrx i) :: mid ++ (AtHighPc, AvUdata n) :: post)
    = if lo + n <? two64 then Ok (RiSingle (Some (lowhigh_const lo n))) else Err EAddressOverflow.
Proof.
  intros u pre mid post i lo n H1 H2 H3 Hv Hl Ht. unfold die_ranges. rewrite die_loop_other by exact H1.
  cbn [die_ranges_loop attr_address]. unfold ctx_address, u_lctx. cbn [x_addr x_addr_base].
  rewrite get_address_spec by assumption. rewrite Ht. cbn [bind].
  rewrite die_loop_other by exact H2. simpl.
  rewrite <- (app_nil_r post), die_loop_other by exact H3. reflexivity.
Qed.

(* DW_AT_ranges (sec_offset): the list at that offset — plus rnglists_base, wrapping, in a pre-v5 .dwo
   (DW_AT_GNU_ranges_base) — resolved against the unit's low_pc; it takes precedence over low/high_pc *)
Theorem helpers_ranges_attribute :
  forall dbg u pre post o,
    forallb other_attr pre = true ->
    die_ranges_all dbg u (pre ++ (AtRanges, AvRangesRef o) :: post)
    = ranges_all dbg (u_cfg u) (u_lctx u) (u_debug_ranges u) (u_debug_rnglists u)
                 (if u_dwo u && (c_version (u_cfg u) <? 5) then (o + u_rnglists_base u) mod two64 else o)
                 (u_low_pc u).
Proof. exact die_ranges_list. Qed.

(* DW_AT_ranges (rnglistx): through the offset table at rnglists_base *)
Theorem helpers_ranges_index :
  forall dbg u pre post i off,
    forallb other_attr pre = true -> N.of_nat (length (u_debug_rnglists u)) < two64 ->
    offset_table (c_be (u_cfg u)) (u_fmt64 u) (u_debug_rnglists u) (u_rnglists_base u) i = Some off ->
    off < two64 ->
    die_ranges_all dbg u (pre ++ (AtRanges, AvRnglistx i) :: post)
    = ranges_all dbg (u_cfg u) (u_lctx u) (u_debug_ranges u) (u_debug_rnglists u) off (u_low_pc u).
Proof. exact die_ranges_listx. Qed.

Theorem helpers_locations_index :
  forall u i,
    N.of_nat (length (u_debug_loclists u)) < two64 ->
    attr_locations_offset u (AvLoclistx i) =
    match offset_table (c_be (u_cfg u)) (u_fmt64 u) (u_debug_loclists u) (u_loclists_base u) i with
    | Some o => if o <? two64 then Ok (Some o) else Err EUnsupportedOffset
    | None => Err EUnexpectedEof
    end.
Proof.
  intros u i Hl. unfold attr_locations_offset. rewrite get_offset_spec by exact Hl.
  destruct (offset_table _ _ _ _ _) as [o|]; [|reflexivity]. destruct (o <? two64); reflexivity.
Qed.

Example helpers_example :
  let u := {| u_cfg := {| c_be := false; c_asize := 4; c_version := 4 |}; u_fmt64 := false; u_dwo := true;
              u_low_pc := 4096; u_addr_base := 0; u_rnglists_base := 2; u_loclists_base := 0;
              u_debug_addr := []; u_debug_ranges := [xee; xee; x10; x00; x00; x00; x20; x00; x00; x00;
                                                     x00; x00; x00; x00; x00; x00; x00; x00];
              u_debug_rnglists := []; u_debug_loclists := [] |} in
  forallb other_attr [(AtOther, AvOther)] = true
  /\ die_ranges_all true u [(AtOther, AvOther); (AtRanges, AvRangesRef 0); (AtLowPc, AvAddr 7)]
     = Ok [EvItem (4112, 4128)]
  /\ die_ranges u [(AtLowPc, AvAddr 18446744073709551615); (AtHighPc, AvUdata 1)] = Err EAddressOverflow
  /\ die_ranges u [(AtLowPc, AvAddr 18446744073709551614); (AtHighPc, AvUdata 1)]
     = Ok (RiSingle (Some (18446744073709551614, 18446744073709551615))).
Proof. vm_compute. auto. Qed.

(* ================================================================== 6. no panic, termination (feeds C01)
   `good r` := r <> Panic /\ r <> OutOfFuel. *)

(* the raw iterators and die_ranges: every input, every configuration, both build modes *)
Theorem no_panic_raw_ranges :
  forall dbg c debug_ranges debug_rnglists offset, good (raw_ranges_all dbg c debug_ranges debug_rnglists offset).
Proof.
  intros dbg c dr drl off. unfold raw_ranges_all. apply good_bind; [apply raw_ranges_good|]. intros [inp bare] _.
  apply raw_drain_good; [apply rng_parse_good|apply rng_parse_len].
Qed.

Theorem no_panic_raw_locations :
  forall dbg c dwo debug_loc debug_loclists offset, good (raw_locations_all dbg c dwo debug_loc debug_loclists offset).
Proof.
  intros dbg c dwo dl dll off. unfold raw_locations_all. apply good_bind; [apply raw_locations_good|]. intros [inp bare] _.
  apply raw_drain_good; [apply loc_parse_good|apply loc_parse_len].
Qed.

Theorem no_panic_die_ranges : forall u attrs, good (die_ranges u attrs).
Proof. exact die_ranges_good. Qed.

Theorem no_panic_tables :
  forall be f sect asize base index,
    good (get_address be sect asize base index) /\ good (get_offset be f sect base index) /\
    good (get_str_offset be f sect base index).
Proof. exact c08_no_panic_tables. Qed.

(* the resolving iterators: every input, both build modes, address size one of 1, 2, 4, 8 *)
Theorem no_panic_ranges :
  forall dbg c x debug_ranges debug_rnglists offset base,
    valid_asize (c_asize c) = true -> good (ranges_all dbg c x debug_ranges debug_rnglists offset base).
Proof.
  intros dbg c x dr drl off base Hv. unfold ranges_all. apply good_bind; [apply raw_ranges_good|]. intros [inp bare] _.
  now apply list_drain_good; [apply rng_parse_good|apply rng_parse_len|].
Qed.

Theorem no_panic_locations :
  forall dbg c dwo x debug_loc debug_loclists offset base,
    valid_asize (c_asize c) = true -> good (locations_all dbg c dwo x debug_loc debug_loclists offset base).
Proof.
  intros dbg c dwo x dl dll off base Hv. unfold locations_all. apply good_bind; [apply raw_locations_good|]. intros [inp bare] _.
  now apply list_drain_good; [apply loc_parse_good|apply loc_parse_len|].
Qed.

Theorem no_panic_die_ranges_all :
  forall dbg u attrs, valid_asize (c_asize (u_cfg u)) = true -> good (die_ranges_all dbg u attrs).
Proof. exact die_ranges_all_good. Qed.

(* without the hypothesis on the address size, `forall c, good (ranges_all dbg c …)` is FALSE for the faithful
   model: an Encoding built by hand with address_size 0 (or 9..255) reaches `u64::ones_sized` =
   `!0 >> (64 - size * 8)` through min_tombstone before any read_address validated the size: a shift/subtract
   overflow panic in checked builds. Unit headers parsed by gimli always carry a validated size, so this needs a
   caller-made Encoding. *)
Theorem no_panic_ranges_unvalidated_size_refuted :
  exists c x sect, ranges_all true c x [] sect 0 0 = Panic /\ valid_asize (c_asize c) = false.
Proof.
  exists badsize_cfg, {| x_addr := []; x_addr_base := 0 |}, badsize_sect.
  split; [exact ranges_all_badsize_panics|reflexivity].
Qed.

(* fuel: the stated bounds always suffice, for every configuration *)
Theorem fuel_suffices :
  forall dbg c dwo x s1 s2 offset base,
    ranges_all dbg c x s1 s2 offset base <> OutOfFuel /\
    locations_all dbg c dwo x s1 s2 offset base <> OutOfFuel.
Proof.
  intros. split.
  - unfold ranges_all. apply Lib.bind_not_fuel; [apply raw_ranges_good|]. intros [inp bare] _.
    apply list_drain_nf; [apply rng_parse_good|apply rng_parse_len].
  - unfold locations_all. apply Lib.bind_not_fuel; [apply raw_locations_good|]. intros [inp bare] _.
    apply list_drain_nf; [apply loc_parse_good|apply loc_parse_len].
Qed.

(* termination: at most |section| items and errors before Ok(None) *)
Theorem iter_terminates :
  forall dbg c dwo x s1 s2 offset base,
    (forall l, ranges_all dbg c x s1 s2 offset base = Ok l -> (length l <= Nat.max (length s1) (length s2))%nat) /\
    (forall l, locations_all dbg c dwo x s1 s2 offset base = Ok l -> (length l <= Nat.max (length s1) (length s2))%nat).
Proof.
  intros. unfold ranges_all, locations_all. split; intros l H; apply bind_ok in H as [[inp bare] [H0 H]].
  - apply raw_ranges_len in H0. apply list_drain_bound in H; [|apply rng_parse_good|apply rng_parse_len].
    simpl in H. lia.
  - apply raw_locations_len in H0. apply list_drain_bound in H; [|apply loc_parse_good|apply loc_parse_len].
    simpl in H. lia.
Qed.

(* every call of next() either reports the end, leaving nothing to read, or strictly shrinks the remaining
   input (items, convert errors and parse errors alike); on empty input it reports the end and stays there
   (ListsRdProofs.list_next_nil) *)
Theorem iter_progress :
  forall fuel dbg c bare x s r s',
    rng_next fuel dbg c bare x s = (r, s') ->
    (length (s_inp s') <= length (s_inp s))%nat /\
    (r = Ok None -> s_inp s' = []) /\
    ((exists b, r = Ok (Some b)) \/ (exists e, r = Err e) -> (length (s_inp s') < length (s_inp s))%nat).
Proof.
  intros fuel dbg c bare x s r s'. unfold rng_next.
  apply list_next_progress; [apply rng_parse_good|apply rng_parse_len].
Qed.

(* the raw iterators stop after an error: `input.empty()` *)
Theorem raw_iter_stops_after_error :
  forall dbg c bare inp e inp',
    (rng_raw_next dbg c bare inp = (Err e, inp') -> inp' = [] /\ rng_raw_next dbg c bare inp' = (Ok None, [])) /\
    (loc_raw_next dbg c bare inp = (Err e, inp') -> inp' = [] /\ loc_raw_next dbg c bare inp' = (Ok None, [])).
Proof.
  intros. split; intros H; apply raw_next_stop in H; try discriminate; subst; split; reflexivity.
Qed.

Check nonempty_below_tombstone_ranges :
  forall dbg c x debug_ranges debug_rnglists offset base l r,
    ranges_all dbg c x debug_ranges debug_rnglists offset base = Ok l -> In (EvItem r) l ->
    fst r < snd r /\ exists t, min_tombstone_raw dbg (c_asize c) = Ok t /\ fst r < t.
Check nonempty_below_tombstone_locations :
  forall dbg c dwo x debug_loc debug_loclists offset base l r d,
    locations_all dbg c dwo x debug_loc debug_loclists offset base = Ok l -> In (EvItem (r, d)) l ->
    fst r < snd r /\ exists t, min_tombstone_raw dbg (c_asize c) = Ok t /\ fst r < t.
Check resolve_refines_ranges :
  forall dbg c x es pre rest other base rs,
    valid_asize (c_asize c) = true -> N.of_nat (length (x_addr x)) < two64 ->
    forallb (wf_rng c) es = true ->
    resolve_rng (c_asize c) (addr_table (c_be c) (c_asize c) (x_addr x) (x_addr_base x)) base es = Some rs ->
    ranges_all dbg c x (if rng_bare c then pre ++ enc_rng_list c es ++ rest else other)
                       (if rng_bare c then other else pre ++ enc_rng_list c es ++ rest)
                       (N.of_nat (length pre)) base
    = Ok (map EvItem rs).
Check raw_roundtrip_ranges :
  forall dbg c es pre rest other,
    valid_asize (c_asize c) = true -> forallb (wf_rng c) es = true ->
    raw_ranges_all dbg c (if rng_bare c then pre ++ enc_rng_list c es ++ rest else other)
                         (if rng_bare c then other else pre ++ enc_rng_list c es ++ rest)
                         (N.of_nat (length pre))
    = Ok (map EvItem es).
Check offset_table_get_address :
  forall be sect asize base index,
    valid_asize asize = true -> N.of_nat (length sect) < two64 ->
    get_address be sect asize base index =
    match addr_table be asize sect base index with Some v => Ok v | None => Err EUnexpectedEof end.
Check no_panic_ranges :
  forall dbg c x debug_ranges debug_rnglists offset base,
    valid_asize (c_asize c) = true -> good (ranges_all dbg c x debug_ranges debug_rnglists offset base).
