(* Properties/C10.v — "Readers are faithful zero-copy views; all reader kinds behave identically".
   Model: GV.Model.Cursor (EndianReader/SubRange = [cur], EndianSlice = [srd], RelocateReader = [rrd],
   all three instances of one Reader-trait record, run by [gstep]); vocabulary ([Inv], [Sub], [wf_alloc],
   [RInv], [spec_step], [refines_prim], [abs]) in GV.Proofs.CursorProofs; [is_view], [first_occurrence],
   [wf_utf8] in GV.Spec.CursorSpec.
   Examples show the hypotheses are met by concrete readers. *)
From Coq Require Import List NArith ZArith Bool Lia ZifyBool ZifyN ZifyNat.
From Coq.Strings Require Import Byte.
Require Import GV.Base.Res GV.Base.Byt GV.Base.Ints GV.Model.Prim GV.Spec.CursorSpec GV.Model.Cursor
               GV.Proofs.Lib GV.Proofs.CursorProofs.
Import ListNotations.
Local Open Scope N_scope.

(* ---- the model of one Reader call has a closed form: the assert!s of SubRange never fire, the window
   arithmetic never overflows ---- *)
Theorem step_closed_form : forall dbg be root c op,
  step dbg be root c op = spec_step dbg be root c op.
Proof. exact step_spec. Qed.

(* a call that does not return Ok leaves the reader where it was (every op, every argument) *)
Theorem failure_keeps_state : forall dbg be root c op,
  is_ok (snd (step dbg be root c op)) = false -> fst (step dbg be root c op) = c.
Proof.
  intros dbg be root c op.
  destruct (step_outcome dbg be root c op); cbn [fst snd is_ok]; [reflexivity|discriminate|discriminate].
Qed.

(* inside its section no call panics (no SubRange assert!, no debug_assert!, no overflow, in debug or
   release) except read_uint(n) with n > 8, which indexes an 8-byte array out of range *)
Theorem only_read_uint_panics : forall dbg be root c op,
  Inv root -> wf_alloc root -> Sub root c ->
  (snd (step dbg be root c op) = Panic -> exists n, op = CReadUint n /\ (8 < n)%nat) /\
  snd (step dbg be root c op) <> OutOfFuel.
Proof.
  intros dbg be root c op HI HW HS. rewrite step_spec.
  assert (R : match op with CReadUint n => (n <= 8)%nat | _ => True end ->
              (snd (spec_step dbg be root c op) = Panic -> exists n, op = CReadUint n /\ (8 < n)%nat) /\
              snd (spec_step dbg be root c op) <> OutOfFuel).
  { intros Hop. destruct (spec_step_returns dbg be root c op HI HW HS Hop) as [R1 R2].
    split; [intros H; destruct (R1 H)|exact R2]. }
  destruct op; try exact (R I). destruct (Nat.leb_spec n 8) as [Hn|Hn]; [exact (R Hn)|].
  cbn [spec_step]. replace (Nat.ltb 8 n) with true by (symmetry; apply Nat.ltb_lt; exact Hn).
  split; [intros _; exists n; split; [reflexivity|exact Hn]|discriminate].
Qed.

(* ---- inv_preserved: ptr+len stays inside the allocation, for the reader and for what it returns ---- *)
Theorem inv_preserved : forall dbg be root c op,
  Inv c ->
  Inv (fst (step dbg be root c op)) /\
  forall r, snd (step dbg be root c op) = Ok (VRd r) -> Inv r.
Proof.
  intros dbg be root c op HI. destruct (step_Sub dbg be root c op) as [H1 H2]. split.
  - eapply Sub_Inv; eauto.
  - intros r Hr. eapply Sub_Inv; eauto.
Qed.

(* ---- all_histories: any pool history (calls on any live reader, clone, split results, drop, in any
   order; in-range or not) keeps every live reader and every returned reader inside the section ---- *)
Theorem all_histories : forall dbg be b a (ops : list pop),
  Forall (in_section b a) (fst (prun dbg be (new b a) [new b a] ops)) /\
  Forall (fun o => forall r, o = Some (Ok (VRd r)) -> in_section b a r)
         (snd (prun dbg be (new b a) [new b a] ops)).
Proof.
  intros dbg be b a ops.
  destruct (prun_Sub dbg be (new b a) (new b a) ops [new b a]) as [H1 H2].
  { constructor; [apply Sub_refl | constructor]. }
  split.
  - eapply Forall_impl; [|exact H1]. intros c. apply Sub_new_in_section.
  - eapply Forall_impl; [|exact H2]. intros o Ho r Hr. apply Sub_new_in_section. now apply Ho.
Qed.

Theorem one_reader_histories : forall dbg be b a (ops : list cop),
  in_section b a (fst (run dbg be (new b a) (new b a) ops)) /\
  Forall (fun o => forall r, o = Ok (VRd r) -> in_section b a r)
         (snd (run dbg be (new b a) (new b a) ops)).
Proof.
  intros dbg be b a ops.
  destruct (run_Sub dbg be (new b a) ops (new b a)) as [H1 H2]. split.
  - now apply Sub_new_in_section.
  - eapply Forall_impl; [|exact H2]. intros o Ho r Hr. apply Sub_new_in_section. now apply Ho.
Qed.

(* ---- view_correct ---- *)
(* the bytes of a reader are the section bytes at its offset, exactly [len] of them *)
Theorem bytes_are_a_view : forall c,
  Inv c -> is_view (buf c) (off c) (bytes c) /\ N.of_nat (length (bytes c)) = len c.
Proof. intros c H. split; [now apply bytes_is_view | now apply bytes_length]. Qed.

(* a view is determined by section, offset and length: nothing copied from elsewhere or reordered *)
Theorem view_unique : forall b o v w,
  is_view b o v -> is_view b o w -> length v = length w -> v = w.
Proof.
  assert (Hv : forall b o v, is_view b o v -> v = firstn (length v) (skipn (N.to_nat o) b)).
  { intros b o v (p & q & -> & L). replace (N.to_nat o) with (length p) by lia.
    rewrite skipn_app_exact, firstn_app_exact. reflexivity. }
  intros b o v w Hv1 Hv2 HL. rewrite (Hv b o v Hv1), (Hv b o w Hv2), HL. reflexivity.
Qed.

Theorem view_correct : forall dbg be root c op c' r,
  Inv c -> step dbg be root c op = (c', r) ->
  (Sub c c' /\ is_view (buf c) (off c') (bytes c') /\ N.of_nat (length (bytes c')) = len c') /\
  (forall x, r = Ok (VRd x) ->
     Sub c x /\ is_view (buf c) (off x) (bytes x) /\ N.of_nat (length (bytes x)) = len x) /\
  (forall bs, r = Ok (VBytes bs) ->
     exists o, off c <= o /\ o + N.of_nat (length bs) <= off c + len c /\ is_view (buf c) o bs).
Proof.
  intros dbg be root c op c' r HI E.
  destruct (step_Sub dbg be root c op) as [H1 H2]. rewrite E in H1, H2. cbn [fst snd] in H1, H2.
  split; [|split].
  - split; [exact H1 | now apply Sub_view_in].
  - intros x ->. specialize (H2 x eq_refl). split; [exact H2 | now apply Sub_view_in].
  - intros bs ->. apply (returned_bytes_lemma dbg be root c op bs HI). now rewrite E.
Qed.

(* split(n): the two readers are the two halves, at the reported offsets and lengths *)
Theorem split_exact : forall dbg be root c n,
  (n <= len c ->
   exists x c', step dbg be root c (CSplit n) = (c', Ok (VRd x)) /\
     off x = off c /\ len x = n /\ off c' = off c + n /\ len c' = len c - n /\
     bytes c = bytes x ++ bytes c') /\
  (len c < n -> step dbg be root c (CSplit n) = (c, Err EUnexpectedEof)).
Proof.
  intros dbg be root c n.
  rewrite step_spec. cbn [spec_step]. split; intros H.
  - assert (E : (len c <? n) = false) by lia. rewrite E.
    exists (with_win c (off c) n), (adv c n). repeat split. now apply bytes_split.
  - assert (E : (len c <? n) = true) by lia. now rewrite E.
Qed.

(* the read_* calls are the list-level codecs of Model/Prim.v run on the reader's bytes, and the
   reader afterwards holds exactly the unconsumed rest *)
Theorem read_un_refines : forall dbg be root c w,
  Inv c -> refines_prim (Prim.read_un w be) (fun a v => v = VNum a) c (step dbg be root c (CReadUn w)).
Proof. intros dbg be root c w HI. rewrite step_spec. now apply spec_read_un_refines. Qed.
Theorem read_in_refines : forall dbg be root c w,
  Inv c -> refines_prim (Prim.read_in w be) (fun a v => v = VInt a) c (step dbg be root c (CReadIn w)).
Proof.
  intros dbg be root c w HI. rewrite step_spec. cbn [spec_step]. unfold Prim.read_in.
  apply (refines_prim_map (Prim.read_un w be) (to_signed (8 * N.of_nat w)) (fun a v => v = VInt a)).
  now apply (spec_read_un_refines be c w (fun v => VInt (to_signed (8 * N.of_nat w) v))).
Qed.
Theorem read_uint_refines : forall dbg be root c n,
  Inv c -> refines_prim (Prim.read_uint n be) (fun a v => v = VNum a) c (step dbg be root c (CReadUint n)).
Proof.
  intros dbg be root c n HI. rewrite step_spec. cbn [spec_step]. unfold Prim.read_uint, refines_prim.
  destruct (Nat.ltb 8 n); [reflexivity|]. now apply spec_read_un_refines.
Qed.
Theorem read_address_refines : forall dbg be root c size,
  Inv c ->
  refines_prim (Prim.read_address size be) (fun a v => v = VNum a) c (step dbg be root c (CReadAddress size)).
Proof.
  intros dbg be root c size HI. rewrite step_spec. cbn [spec_step]. unfold Prim.read_address.
  destruct (size =? 1); [now apply spec_read_un_refines|].
  destruct (size =? 2); [now apply spec_read_un_refines|].
  destruct (size =? 4); [now apply spec_read_un_refines|].
  destruct (size =? 8); [now apply spec_read_un_refines|]. reflexivity.
Qed.
Theorem read_sized_offset_refines : forall dbg be root c size,
  Inv c ->
  refines_prim (Prim.read_sized_offset size be) (fun a v => v = VNum a) c
               (step dbg be root c (CReadSizedOffset size)).
Proof.
  intros dbg be root c size HI. rewrite step_spec. cbn [spec_step]. unfold Prim.read_sized_offset.
  destruct (size =? 1); [now apply spec_read_un_refines|].
  destruct (size =? 2); [now apply spec_read_un_refines|].
  destruct (size =? 4); [now apply spec_read_un_refines|].
  destruct (size =? 8); [now apply spec_read_un_refines|]. reflexivity.
Qed.
Theorem read_word_refines : forall dbg be root c f,
  Inv c ->
  refines_prim (Prim.read_word f be) (fun a v => v = VNum a) c (step dbg be root c (CReadOffset f)) /\
  refines_prim (Prim.read_word f be) (fun a v => v = VNum a) c (step dbg be root c (CReadLength f)).
Proof.
  intros dbg be root c f HI. rewrite !step_spec. cbn [spec_step]. unfold Prim.read_word.
  destruct f; split; now apply spec_read_un_refines.
Qed.
Theorem read_cstr_refines : forall dbg be root c,
  Inv c ->
  refines_prim Prim.read_cstr (fun s v => exists x, v = VRd x /\ bytes x = s /\ off x = off c) c
               (step dbg be root c CReadCstr).
Proof.
  intros dbg be root c HI. rewrite step_spec. cbn [spec_step]. unfold refines_prim. rewrite prim_read_cstr_eq.
  destruct (position x00 (bytes c)) as [i|] eqn:P; [|reflexivity].
  pose proof (position_lt _ _ _ P) as Hlt. rewrite (bytes_length c HI) in Hlt.
  exists (adv c (i + 1)), (VRd (with_win c (off c) i)).
  split; [reflexivity|]. split; [|split].
  - exists (with_win c (off c) i). split; [reflexivity|]. split; [|reflexivity]. apply bytes_win. lia.
  - apply bytes_adv. lia.
  - apply adv_Sub. lia.
Qed.

(* find: index of the first occurrence, or UnexpectedEof exactly when the byte is absent *)
Theorem find_spec : forall dbg be root c b,
  Inv c ->
  match snd (step dbg be root c (CFind b)) with
  | Ok (VNum i) => first_occurrence b (bytes c) i
  | Err EUnexpectedEof => ~ In b (bytes c)
  | _ => False
  end.
Proof.
  intros dbg be root c b _. rewrite step_spec. cbn [spec_step snd].
  destruct (position b (bytes c)) as [i|] eqn:P.
  - now apply position_spec.
  - now apply position_none.
Qed.

(* to_string: the bytes themselves, exactly when they are well-formed UTF-8 (Unicode table 3-7) *)
Theorem to_string_spec : forall dbg be root c,
  match snd (step dbg be root c CToString) with
  | Ok (VBytes bs) => bs = bytes c /\ wf_utf8 (bytes c)
  | Err EBadUtf8 => ~ wf_utf8 (bytes c)
  | _ => False
  end.
Proof.
  intros dbg be root c.
  rewrite step_spec. cbn [spec_step snd].
  destruct (utf8_valid (bytes c)) eqn:E.
  - split; [reflexivity | now apply utf8_valid_spec_lemma].
  - intros H. apply utf8_valid_spec_lemma in H. congruence.
Qed.

(* ---- offset_ids ---- *)
Theorem offset_ids : forall dbg root c,
  Inv root -> wf_alloc root -> Sub root c ->
  er_lookup_offset_id dbg root (er_offset_id c) = Ok (Some (off c - off root)) /\
  er_lookup_offset_id dbg root (er_offset_id c + len c) = Ok (Some (off c + len c - off root)) /\
  (forall id k, er_lookup_offset_id dbg root id = Ok (Some k) ->
                id = er_offset_id root + k /\ k <= len root) /\
  (forall id, id < er_offset_id root \/ er_offset_id root + len root < id ->
              er_lookup_offset_id dbg root id = Ok None).
Proof. exact offset_ids_lemma. Qed.

Theorem offset_from_section : forall dbg root c,
  Inv root -> wf_alloc root -> Sub root c -> er_offset_from dbg c root = Ok (off c - off root).
Proof. exact offset_from_lemma. Qed.

(* every live reader of every history maps back to its own position, in debug and release builds *)
Theorem history_offset_ids : forall dbg be b a (ops : list pop),
  a + N.of_nat (length b) < two64 ->
  Forall (fun c => er_lookup_offset_id dbg (new b a) (er_offset_id c) = Ok (Some (off c)) /\
                   er_offset_from dbg c (new b a) = Ok (off c))
         (fst (prun dbg be (new b a) [new b a] ops)).
Proof.
  intros dbg be b a ops HW.
  destruct (prun_Sub dbg be (new b a) (new b a) ops [new b a]) as [H1 _].
  { constructor; [apply Sub_refl | constructor]. }
  eapply Forall_impl; [|exact H1]. intros c HS.
  assert (HWr : wf_alloc (new b a)) by exact HW.
  destruct (offset_ids_lemma dbg (new b a) c (new_Inv b a) HWr HS) as (E1 & _).
  rewrite E1, (offset_from_lemma dbg (new b a) c (new_Inv b a) HWr HS).
  cbn [new off]. rewrite N.sub_0_r. split; reflexivity.
Qed.

(* ---- reloc_identity: RelocateReader<EndianReader, identity> = the inner reader, for every call
   (its split is clone+truncate+skip; its address/offset reads ask offset_from(section) first) ---- *)
Theorem reloc_identity : forall dbg be root rc op,
  RInv rc ->
  rstep dbg be root rc op = lift_out rc (step dbg be (rreader root) (rreader rc) op).
Proof. exact reloc_identity_lemma. Qed.

Theorem reloc_identity_histories : forall dbg be b a (ops : list cop),
  a + N.of_nat (length b) < two64 ->
  let s := new b a in
  rrun dbg be (rr_new s) (rr_new s) ops =
  (set_reader (rr_new s) (fst (run dbg be s s ops)),
   map (rmap (lift_val (rr_new s))) (snd (run dbg be s s ops))).
Proof.
  intros dbg be b a ops H s.
  exact (reloc_identity_run dbg be (rr_new s) ops (rr_new s) (RInv_new b a H)).
Qed.

(* ---- kinds_agree: the EndianSlice model run on the same window gives the same reader and the same
   results as the EndianReader model, for EVERY call (including `empty`, since gimli fd639ac keeps the
   position of an emptied EndianSlice) and hence for every history ---- *)
Theorem kinds_agree : forall dbg be root c op,
  Inv c -> Inv root ->
  sstep dbg be (abs root) (abs c) op = abs_out (step dbg be root c op).
Proof. exact kinds_agree_lemma. Qed.

Theorem kinds_agree_histories : forall dbg be root ops c,
  Inv c -> Inv root ->
  srun dbg be (abs root) (abs c) ops =
  (abs (fst (run dbg be root c ops)), map (rmap abs_val) (snd (run dbg be root c ops))).
Proof.
  intros dbg be root ops. induction ops as [|op ops IH]; intros c HI HIr.
  - reflexivity.
  - rewrite srun_cons, run_cons.
    rewrite (kinds_agree_lemma dbg be root c op HI HIr).
    unfold abs_out. cbn [fst snd].
    rewrite IH; [reflexivity | | exact HIr].
    now apply inv_preserved.
Qed.

(* ---- the hypotheses are satisfiable by non-trivial readers ---- *)
Definition ex_buf : list byte := [x41; x00; xc3; xa9; x00; x10; x20].
Definition ex_root : cur := new ex_buf 65536.
Definition ex_cur : cur := mkCur ex_buf 65536 2 3.

Example ex_inv : Inv ex_root /\ Inv ex_cur.
Proof. split; vm_compute; discriminate. Qed.
Example ex_wf_alloc : wf_alloc ex_root.
Proof. vm_compute. reflexivity. Qed.
Example ex_sub : Sub ex_root ex_cur.
Proof. repeat split; vm_compute; discriminate. Qed.
Example ex_rinv : RInv (mkRR ex_root ex_cur).
Proof. split; [|split]; [exact (proj1 ex_inv) | exact ex_wf_alloc | exact ex_sub]. Qed.
(* a history that splits, reads a C string, clones, drops the root and reads from the clone *)
Example ex_history :
  snd (prun true false ex_root [ex_root]
         [POp 0 (CSplit 2); POp 0 CReadCstr; PClone 0; PDrop 0; POp 1 (CReadUn 2); PLookup 0 2]) =
  [Some (Ok (VRd (mkCur ex_buf 65536 0 2))); Some (Ok (VRd (mkCur ex_buf 65536 2 2)));
   Some (Ok (VRd (mkCur ex_buf 65536 5 2))); Some (Ok VUnit); Some (Ok (VNum 43459));
   Some (Ok (VOpt None))].
Proof. vm_compute. reflexivity. Qed.
(* after `empty` both models still know where the reader is *)
Example ex_empty_agrees :
  snd (srun true false (abs ex_root) (abs ex_cur) [CEmpty; COffsetFromRoot; CRootLookupSelf]) =
    [Ok VUnit; Ok (VNum 2); Ok (VOpt (Some 2))] /\
  snd (run true false ex_root ex_cur [CEmpty; COffsetFromRoot; CRootLookupSelf]) =
    [Ok VUnit; Ok (VNum 2); Ok (VOpt (Some 2))].
Proof. vm_compute. split; reflexivity. Qed.

(* ---- pins ---- *)
Check (inv_preserved : forall dbg be root c op, Inv c ->
  Inv (fst (step dbg be root c op)) /\ forall r, snd (step dbg be root c op) = Ok (VRd r) -> Inv r).
Check (all_histories : forall dbg be b a (ops : list pop),
  Forall (in_section b a) (fst (prun dbg be (new b a) [new b a] ops)) /\
  Forall (fun o => forall r, o = Some (Ok (VRd r)) -> in_section b a r)
         (snd (prun dbg be (new b a) [new b a] ops))).
Check (reloc_identity : forall dbg be root rc op, RInv rc ->
  rstep dbg be root rc op = lift_out rc (step dbg be (rreader root) (rreader rc) op)).
Check (history_offset_ids : forall dbg be b a (ops : list pop),
  a + N.of_nat (length b) < two64 ->
  Forall (fun c => er_lookup_offset_id dbg (new b a) (er_offset_id c) = Ok (Some (off c)) /\
                   er_offset_from dbg c (new b a) = Ok (off c))
         (fst (prun dbg be (new b a) [new b a] ops))).
Check (kinds_agree : forall dbg be root c op, Inv c -> Inv root ->
  sstep dbg be (abs root) (abs c) op = abs_out (step dbg be root c op)).
Check (kinds_agree_histories : forall dbg be root ops c, Inv c -> Inv root ->
  srun dbg be (abs root) (abs c) ops =
  (abs (fst (run dbg be root c ops)), map (rmap abs_val) (snd (run dbg be root c ops)))).
