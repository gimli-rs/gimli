(* Properties/C02.v — "DIE forest is reported exactly as encoded, by every navigation API".
   Models: Model/AbbrevRd.v (src/read/abbrev.rs Abbreviations::{parse,insert,get}, Abbreviation::parse),
           Model/DieRd.v (src/read/unit.rs parse_unit_header, UnitHeader::*, EntriesRaw, EntriesCursor,
           EntriesTree), Model/TreeWalk.v (callers' partial traversals over EntriesTree / EntriesCursor),
           Model/Attr.v (attributes; property C03).
   Specification: Spec/Forest.v (abbreviation tables, unit headers, trees, enc_forest, preorder, raw_seq),
           Spec/ForestSel.v (the entries a partial traversal has to report: sel_tree, sel_list).
   Statements quantify over all forests / declarations / headers / byte lists and both build modes
   (dbg = overflow checks and debug assertions on). Side conditions are the ones written out:
     - abbrev_ok / uheader_ok / forest_ok / sibs_fit: the values fit the fields of the format
       (codes < 2^64, tags and names < 2^16, sibling offsets fit their form, ...);
     - header_len h + nlen body < two63: a Rust slice has at most isize::MAX bytes. *)
From Coq Require Import List NArith ZArith Bool Lia ZifyBool ZifyN ZifyNat.
From Coq.Strings Require Import Byte.
Require Import GV.Base.Res GV.Base.Byt GV.Base.Ints GV.Model.Leb GV.Model.Prim
               GV.Spec.LebSpec GV.Spec.FormSpec GV.Model.Attr GV.Spec.Forest GV.Model.AbbrevRd
               GV.Model.DieRd GV.Proofs.LebProofs GV.Proofs.AttrProofs GV.Proofs.AbbrevRdProofs GV.Proofs.DieRdProofs GV.Proofs.NavProofs
               GV.Spec.ForestSel GV.Model.TreeWalk GV.Proofs.TreeWalkProofs GV.Proofs.CursorWalkProofs
               GV.Proofs.SibBadProofs GV.Proofs.SibOvProofs GV.Proofs.SibOvTreeProofs
               GV.Proofs.SibOvSibProofs.
Import ListNotations.
Local Open Scope N_scope.

(* ------------------------------------------------------------------ *)
(* (1) abbreviation tables: the Vec / BTreeMap split is invisible *)

(* a duplicate-free table (any codes, any declaration order, terminated by a null abbreviation or by
   the end of the section) parses, and lookup IS the declared finite map: every declared code
   returns its declaration, and whatever a lookup returns was declared under that code *)
Theorem abbrev_get : forall dbg ds tail rest,
  Forall abbrev_ok ds -> NoDup (map ab_code ds) ->
  (tail = [] /\ rest = [] \/ tail = x00 :: rest) ->
  exists t, parse_abbrevs dbg (enc_decls ds ++ tail) = Ok (t, rest) /\
            (forall c, tbl_get t c = find (fun a => ab_code a =? c) ds) /\
            (forall a, In a ds -> tbl_get t (ab_code a) = Some a) /\
            (forall c a, tbl_get t c = Some a -> In a ds /\ ab_code a = c).
Proof. exact AbbrevRdProofs.abbrev_get_full. Qed.

Definition ex_decls : list abbrev :=
  [ mkAbbrev 3 17 true [mkSpec 3 8 0; mkSpec 37 33 (-5)];      (* code 3 first: goes to the map *)
    mkAbbrev 1 46 false [];                                     (* then 1, 2: the Vec *)
    mkAbbrev 2 52 true [mkSpec 1 19 0];
    mkAbbrev 4294967301 36 false [mkSpec 11 11 0];              (* 2^32 + 5 *)
    mkAbbrev 9223372036854775808 15 false [] ].                 (* 2^63 *)

Example abbrev_get_ex :
  Forall abbrev_ok ex_decls /\ NoDup (map ab_code ex_decls) /\
  exists t, parse_abbrevs true (enc_abbrevs ex_decls) = Ok (t, []) /\
            length (t_vec t) = 2%nat /\ length (t_map t) = 3%nat /\
            tbl_get t 3 = nth_error ex_decls 0 /\ tbl_get t 9223372036854775808 = nth_error ex_decls 4 /\
            tbl_get t 4 = None.
Proof.
  split; [|split].
  - unfold ex_decls, abbrev_ok, spec_ok, two64, two16. cbn [ab_code ab_tag ab_specs at_name at_form at_implicit].
    repeat constructor; try discriminate; try reflexivity; intros H; exfalso; apply H; reflexivity.
  - cbn. repeat constructor; cbn; intuition discriminate.
  - eexists. split; [vm_compute; reflexivity|]. repeat split; reflexivity.
Qed.

Theorem abbrev_dup_rejected : forall dbg ds rest,
  Forall abbrev_ok ds -> ~ NoDup (map ab_code ds) ->
  parse_abbrevs dbg (enc_decls ds ++ rest) = Err EDuplicateAbbreviationCode.
Proof. exact AbbrevRdProofs.abbrev_dup_rejected. Qed.

Example abbrev_dup_ex :
  let ds := [mkAbbrev 7 17 false []; mkAbbrev 1 46 false []; mkAbbrev 7 52 true []] in
  Forall abbrev_ok ds /\ ~ NoDup (map ab_code ds) /\
  parse_abbrevs true (enc_abbrevs ds) = Err EDuplicateAbbreviationCode.
Proof.
  split; [|split].
  - unfold abbrev_ok, two64, two16. cbn [ab_code ab_tag ab_specs]. repeat constructor.
  - cbn. intros H. inversion H as [|? ? Hn _]; subst. apply Hn. right. left. reflexivity.
  - reflexivity.
Qed.

(* the format rules, for EVERY input: whatever a parsed table returns has a non-zero code, a non-zero
   tag and non-zero attribute names and forms *)
Theorem abbrev_rules : forall dbg bs t r c a,
  parse_abbrevs dbg bs = Ok (t, r) -> tbl_get t c = Some a ->
  0 < ab_code a < two64 /\ ab_tag a <> 0 /\ Forall (fun s => at_name s <> 0 /\ at_form s <> 0) (ab_specs a).
Proof.
  intros dbg bs t r c a Hp Hg. apply (tbl_get_all decl_rules t c a); [|assumption].
  unfold parse_abbrevs in Hp. apply (parse_abbrevs_loop_all _ _ tbl_empty _ _ _) in Hp; [exact Hp|].
  split; cbn [tbl_empty t_vec t_map]; constructor.
Qed.

Theorem abbrev_rejections : forall dbg,
  (forall code rest, 0 < code < two64 ->
     parse_abbrev dbg (enc_uleb code ++ x00 :: rest) = Err EAbbreviationTagZero) /\
  (forall code tag b rest, 0 < code < two64 -> 0 < tag < two16 -> b <> x00 -> b <> x01 ->
     parse_abbrev dbg (enc_uleb code ++ enc_uleb tag ++ b :: rest) = Err EInvalidAbbreviationChildren) /\
  (forall form rest, 0 < form < two16 ->
     parse_attr_spec dbg (x00 :: enc_uleb form ++ rest) = Err EAttributeNameZero) /\
  (forall name rest, 0 < name < two16 ->
     parse_attr_spec dbg (enc_uleb name ++ x00 :: rest) = Err EAttributeFormZero).
Proof.
  intros dbg. split; [|split; [|split]].
  - intros code rest Hc. unfold parse_abbrev. destruct (enc_uleb_cons code) as (b & r & E).
    replace (is_nil (enc_uleb code ++ x00 :: rest)) with false by (rewrite E; reflexivity).
    rewrite read_uleb128_enc by lia. cbn [bind].
    replace (code =? 0) with false by lia. reflexivity.
  - intros code tag b rest Hc Ht B0 B1. unfold parse_abbrev. destruct (enc_uleb_cons code) as (b' & r & E).
    replace (is_nil (enc_uleb code ++ enc_uleb tag ++ b :: rest)) with false by (rewrite E; reflexivity).
    rewrite read_uleb128_enc by lia. cbn [bind].
    replace (code =? 0) with false by lia.
    unfold parse_tag. rewrite read_uleb128_u16_enc by lia. cbn [bind].
    replace (tag =? 0) with false by lia. cbn [bind].
    unfold parse_has_children. cbn [read_u8 bind].
    destruct (N.eqb_spec (b2n b) 0) as [E0|E0]; [exfalso; apply B0, b2n_inj; rewrite E0; reflexivity|].
    destruct (N.eqb_spec (b2n b) 1) as [E1|E1]; [exfalso; apply B1, b2n_inj; rewrite E1; reflexivity|].
    reflexivity.
  - intros form rest Hf. unfold parse_attr_spec.
    change (x00 :: enc_uleb form ++ rest) with (enc_uleb 0 ++ enc_uleb form ++ rest).
    rewrite read_uleb128_u16_enc by reflexivity. cbn [bind]. rewrite read_uleb128_u16_enc by lia. cbn [bind].
    replace (form =? 0) with false by lia. reflexivity.
  - intros name rest Hn. unfold parse_attr_spec. change (x00 :: rest) with (enc_uleb 0 ++ rest).
    rewrite read_uleb128_u16_enc by lia. cbn [bind]. rewrite read_uleb128_u16_enc by reflexivity. cbn [bind].
    replace (name =? 0) with false by lia. reflexivity.
Qed.

(* ------------------------------------------------------------------ *)
(* (2) unit headers: every version 2-5, unit kind, format, address size, byte order *)

Theorem header_roundtrip : forall dbg bigend types uoff h body rest,
  uheader_ok types h (nlen body) ->
  parse_unit_header bigend types uoff (enc_unit bigend h body ++ rest) =
    Ok (mkUnit (mkEnc (uh_version h) (uh_fmt64 h) (uh_asize h) bigend)
               (unit_length_of bigend h (nlen body)) (uh_type h) (uh_abbrev_off h) types uoff body, rest)
  /\ (unit_length_of false h (nlen body) + 12 < two64 ->
      header_size dbg (mkUnit (mkEnc (uh_version h) (uh_fmt64 h) (uh_asize h) bigend)
               (unit_length_of bigend h (nlen body)) (uh_type h) (uh_abbrev_off h) types uoff body)
      = Ok (nlen (enc_header bigend h (nlen body)))).
Proof.
  intros dbg bigend types uoff h body rest H. split.
  - exact (DieRdProofs.header_roundtrip bigend types uoff h body rest H).
  - intros Hl. etransitivity; [exact (DieRdProofs.header_size_parsed dbg bigend types uoff h body Hl)|]. f_equal. symmetry.
    unfold header_len, enc_header. rewrite !nlen_app, header_fields_len. f_equal.
    unfold enc_initial_length. destruct (uh_fmt64 h); rewrite ?nlen_app, !nlen_enc_fixed; reflexivity.
Qed.

Example header_roundtrip_ex :
  let h := mkUH 5 true 8 (USplitType 18446744073709551615 4294967296) 7 in
  uheader_ok false h 3 /\
  enc_unit true h [x01; x02; x03] =
    [xff;xff;xff;xff; x00;x00;x00;x00;x00;x00;x00;x1f;  x00;x05; x06; x08; x00;x00;x00;x00;x00;x00;x00;x07;
     xff;xff;xff;xff;xff;xff;xff;xff; x00;x00;x00;x01;x00;x00;x00;x00; x01; x02; x03]%byte.
Proof.
  split; [|reflexivity].
  unfold uheader_ok, utype_ok. cbn [uh_version uh_asize uh_abbrev_off uh_type uh_fmt64 word].
  repeat split; try (vm_compute; reflexivity); try (vm_compute; discriminate). right. right. right. reflexivity.
Qed.

(* ------------------------------------------------------------------ *)
(* (3) raw entry reading reports exactly the encoded forest: entries in preorder with their unit
       offsets, depths (null / has_children bookkeeping), tags, children flags and attribute values,
       and the null entries closing each child list and padding the unit *)

Theorem raw_is_preorder : forall dbg bigend types uoff h codes f pad tbl,
  let e := mkEnc (uh_version h) (uh_fmt64 h) (uh_asize h) bigend in
  let body := enc_forest codes bigend (header_len h) f pad in
  addr_size_ok e -> header_len h + nlen body < two63 -> body <> [] ->
  Forall (fun t => tbl_get tbl (t_code codes t) = Some (t_abbrev codes t)) (forest_nodes f) ->
  forest_ok codes e f -> sibs_fit codes (header_len h) f ->
  read_all_raw dbg (mkUnit e (unit_length_of bigend h (nlen body)) (uh_type h) (uh_abbrev_off h) types uoff body)
               tbl None
  = Ok (raw_seq codes (header_len h) f pad, None)
  /\ filter (fun d => negb (d_tag d =? 0)) (raw_seq codes (header_len h) f pad) = preorder codes (header_len h) 0 f.
Proof.
  intros dbg bigend types uoff h codes f pad tbl e body He Hlen Hb Hc Hok Hfit. split.
  - exact (DieRdProofs.raw_is_preorder dbg bigend types uoff h codes f pad tbl He Hlen Hb Hc Hok Hfit).
  - exact (DieRdProofs.raw_seq_preorder codes e (header_len h) f pad Hok).
Qed.

(* the table hypothesis of (3)-(6) is what (1) delivers for the forest's own abbreviation table,
   for any injective code assignment *)
Theorem forest_table : forall dbg codes e f tail rest,
  forest_ok codes e f -> codes_injective codes f ->
  (tail = [] /\ rest = [] \/ tail = x00 :: rest) ->
  exists tbl, parse_abbrevs dbg (enc_decls (forest_abbrevs codes f) ++ tail) = Ok (tbl, rest) /\
              Forall (fun t => tbl_get tbl (t_code codes t) = Some (t_abbrev codes t)) (forest_nodes f).
Proof.
  intros dbg codes e f tail rest Hok Hinj Htail. unfold forest_abbrevs.
  set (l := map (t_abbrev codes) (forest_nodes f)).
  destruct (abbrev_get_full dbg (dedup l) tail rest) as (tbl & Hp & _ & Hget & _).
  - apply Forall_forall. intros a Ha. apply (proj1 (dedup_in _ _)) in Ha. unfold l in Ha. apply in_map_iff in Ha.
    destruct Ha as (t & <- & Ht). unfold forest_ok in Hok. rewrite Forall_forall in Hok.
    apply (Hok t Ht).
  - apply dedup_codes_nodup. intros a b Ha Hb. unfold l in Ha, Hb. apply in_map_iff in Ha, Hb.
    destruct Ha as (t1 & <- & Ht1). destruct Hb as (t2 & <- & Ht2). apply Hinj; assumption.
  - exact Htail.
  - exists tbl. split; [exact Hp|]. apply Forall_forall. intros t Ht.
    apply (Hget (t_abbrev codes t)). apply dedup_in. unfold l. apply in_map. exact Ht.
Qed.

(* ------------------------------------------------------------------ *)
(* (4) the depth-first cursor: next_dfs reports the preorder (null entries skipped), next_entry the
       raw sequence *)

Theorem dfs_is_preorder : forall dbg bigend types uoff h codes f pad tbl,
  let e := mkEnc (uh_version h) (uh_fmt64 h) (uh_asize h) bigend in
  let body := enc_forest codes bigend (header_len h) f pad in
  addr_size_ok e -> header_len h + nlen body < two63 ->
  Forall (fun t => tbl_get tbl (t_code codes t) = Some (t_abbrev codes t)) (forest_nodes f) ->
  forest_ok codes e f -> sibs_fit codes (header_len h) f ->
  exists c,
    entries dbg (mkUnit e (unit_length_of bigend h (nlen body)) (uh_type h) (uh_abbrev_off h) types uoff body) = Ok c /\
    dfs_all (cursor_fuel c) dbg e tbl c = Ok (preorder codes (header_len h) 0 f, None) /\
    entries_all (cursor_fuel c) dbg e tbl c = Ok (raw_seq codes (header_len h) f pad, None).
Proof. exact DieRdProofs.dfs_is_preorder. Qed.

(* a concrete unit meeting every hypothesis of (3) and (4): sparse codes, a DW_AT_sibling, an empty
   child list, padding *)
Definition ex_attr : attr := mkAttr (mkSpec 3 11 0) [x2a] (VData1 42).
Definition ex_k1 : tree := Node 46 false [IAttr ex_attr] [].
Definition ex_k2 : tree := Node 52 true [] [].
Definition ex_root : tree := Node 17 false [ISib W1; IAttr ex_attr] [ex_k1; ex_k2; ex_k1].
Definition ex_forest : list tree := [ex_root].
Definition ex_codes : coding := fun tag hc specs => if tag =? 17 then 1000 else if tag =? 46 then 3 else 4294967301.
Definition ex_header : uheader := mkUH 4 false 8 UCompile 0.
Definition ex_enc : enc := mkEnc 4 false 8 false.

Example forest_ex :
  addr_size_ok ex_enc /\ forest_ok ex_codes ex_enc ex_forest /\ sibs_fit ex_codes (header_len ex_header) ex_forest /\
  codes_injective ex_codes ex_forest /\
  enc_forest ex_codes false (header_len ex_header) ex_forest 1 =
    [xe8;x07; x1a; x2a;  x03; x2a;  x85;x80;x80;x80;x10; x00;  x03; x2a;  x00;  x00]%byte /\
  map (fun d => (d_offset d, d_depth d, d_tag d)) (preorder ex_codes (header_len ex_header) 0 ex_forest) =
    [(11, 0%Z, 17); (15, 1%Z, 46); (17, 1%Z, 52); (23, 1%Z, 46)].
Proof.
  assert (Ha : attr_ok ex_enc ex_attr).
  { exists (mkUAttr 3 0 0 F_data1 (RNum 42)). split; [|reflexivity].
    unfold uattr_ok. cbn [u_form u_hops u_data u_name]. repeat split; discriminate. }
  split; [reflexivity|]. split; [|split; [|split; [|split]]].
  - unfold forest_ok. cbn [ex_forest ex_root ex_k1 ex_k2 forest_nodes flat_map nodes app].
    assert (Hab : forall tag hc specs code, 0 < code < two64 -> 0 < tag < two16 -> Forall spec_ok specs ->
                  abbrev_ok (mkAbbrev code tag hc specs)).
    { intros; repeat split; tauto. }
    assert (Hs3 : spec_ok (mkSpec 3 11 0)) by (repeat split; (reflexivity || discriminate)).
    assert (Hs1 : spec_ok (sib_spec W1)) by (repeat split; (reflexivity || discriminate)).
    repeat (apply Forall_cons); try apply Forall_nil; (split; [apply Hab|]);
      repeat (apply Forall_cons); try apply Forall_nil; try exact Ha; try exact Hs3; try exact Hs1; try exact I;
      split; reflexivity.
  - unfold sibs_fit.
    replace (on_list (placed ex_codes) (tree_size ex_codes) (header_len ex_header) ex_forest)
      with [(11, ex_root); (15, ex_k1); (17, ex_k2); (23, ex_k1)] by (vm_compute; reflexivity).
    repeat (apply Forall_cons); try apply Forall_nil; unfold node_fits; cbn [fst snd t_items ex_root ex_k1 ex_k2];
      repeat (apply Forall_cons); try apply Forall_nil; try exact I.
    vm_compute. reflexivity.
  - intros t1 t2 H1 H2. cbn [ex_forest ex_root ex_k1 ex_k2 forest_nodes flat_map nodes app In] in H1, H2.
    destruct H1 as [<-|[<-|[<-|[<-|[]]]]]; destruct H2 as [<-|[<-|[<-|[<-|[]]]]];
      vm_compute; intros H; (reflexivity || discriminate H).
  - vm_compute. reflexivity.
  - vm_compute. reflexivity.
Qed.

(* ------------------------------------------------------------------ *)
(* (5) next_sibling: from any entry, iterating next_sibling yields exactly its following siblings —
       whether the entries skipped on the way carry a DW_AT_sibling (fast path: seek_forward to the
       pointer, depth kept) or not (slow path: read through the subtree), in any mixture: the trees
       are arbitrary, ISib items may sit on any subset of entries at any attribute position.
       The cursor is about to read [t]; its following siblings are [ts]; after the list comes the end
       of the input or the null entry closing the list. Any depth d (relative start), any offset. *)

Theorem sibling_correct : forall dbg e tbl codes t ts after off d E c,
  addr_size_ok e ->
  Forall (fun t => tbl_get tbl (t_code codes t) = Some (t_abbrev codes t)) (forest_nodes (t :: ts)) ->
  forest_ok codes e (t :: ts) -> sibs_fit codes off (t :: ts) ->
  (after = [] \/ exists more, after = x00 :: more) ->
  let input := on_list (enc_tree codes (be e)) (tree_size codes) off (t :: ts) ++ after in
  c_raw c = mkRaw input E d -> E = off + nlen input -> E < two64 ->
  (- 9223372036854775808 + Z.of_N (nlen input) <= d /\ d + Z.of_N (nlen input) < 9223372036854775808)%Z ->
  exists c1, next_entry dbg e tbl c = Ok (SOk true c1) /\ c_cur c1 = root_die codes off d t /\
             siblings_all (cursor_fuel c1) dbg e tbl c1 = Ok (roots codes (off + tree_size codes t) d ts, None).
Proof. exact NavProofs.sibling_correct. Qed.

(* the children of ex_root: ex_k1 (no sibling pointer), ex_k2 (children flag, empty list), ex_k1; the
   list is closed by a null entry *)
Example sibling_correct_ex :
  let kids := [ex_k1; ex_k2; ex_k1] in
  let input := on_list (enc_tree ex_codes false) (tree_size ex_codes) 15 kids ++ [x00; x00] in
  forest_ok ex_codes ex_enc kids /\ sibs_fit ex_codes 15 kids /\
  input = [x03; x2a;  x85;x80;x80;x80;x10; x00;  x03; x2a;  x00; x00]%byte /\
  map d_offset (roots ex_codes (15 + tree_size ex_codes ex_k1) 1 [ex_k2; ex_k1]) = [17; 23].
Proof.
  destruct forest_ex as (_ & Hok & _). unfold forest_ok in *. cbn [ex_forest forest_nodes flat_map] in Hok.
  rewrite app_nil_r in Hok. change (nodes ex_root) with (ex_root :: forest_nodes [ex_k1; ex_k2; ex_k1]) in Hok.
  apply Forall_cons_iff in Hok. destruct Hok as [_ Hok].
  split; [exact Hok|]. split; [|split; vm_compute; reflexivity].
  unfold sibs_fit.
  replace (on_list (placed ex_codes) (tree_size ex_codes) 15 [ex_k1; ex_k2; ex_k1])
    with [(15, ex_k1); (17, ex_k2); (23, ex_k1)] by (vm_compute; reflexivity).
  repeat (apply Forall_cons); try apply Forall_nil; unfold node_fits; cbn [fst snd t_items ex_k1 ex_k2];
    repeat (apply Forall_cons); try apply Forall_nil; exact I.
Qed.

(* ------------------------------------------------------------------ *)
(* (6) positioned reads and the tree iterator, for EVERY entry (o, t) of the unit:
       UnitHeader::entry(o) is that entry (depth 0); a cursor created by entries_at_offset(o) reports
       the entry and everything after it in preorder with depths relative to the entry; the tree
       created by entries_tree(Some o) rebuilds exactly the entry's subtree (children lists in order) *)

Theorem entry_at_offset : forall dbg bigend types uoff h codes f pad tbl o t,
  let e := mkEnc (uh_version h) (uh_fmt64 h) (uh_asize h) bigend in
  let body := enc_forest codes bigend (header_len h) f pad in
  let hdr := mkUnit e (unit_length_of bigend h (nlen body)) (uh_type h) (uh_abbrev_off h) types uoff body in
  addr_size_ok e -> header_len h + nlen body < two63 ->
  Forall (fun t => tbl_get tbl (t_code codes t) = Some (t_abbrev codes t)) (forest_nodes f) ->
  forest_ok codes e f -> sibs_fit codes (header_len h) f ->
  In (o, t) (on_list (placed codes) (tree_size codes) (header_len h) f) ->
  entry_at dbg hdr tbl o = Ok (root_die codes o 0 t) /\
  (exists p1 p2 dd c,
      preorder codes (header_len h) 0 f = p1 ++ root_die codes o dd t :: p2 /\
      entries_at_offset dbg hdr o = Ok c /\
      dfs_all (cursor_fuel c) dbg e tbl c =
        Ok (map (fun d => mkDie (d_offset d) (d_depth d - dd) (d_tag d) (d_children d) (d_attrs d))
                (root_die codes o dd t :: p2), None)) /\
  (exists ts, entries_tree dbg hdr (Some o) = Ok ts /\
              walk_tree dbg e tbl ts = Ok (Some (dtree_of codes 0 o t), None)).
Proof.
  intros dbg bigend types uoff h codes f pad tbl o t e body hdr He Hlen Hc Hok Hfit Hin. split; [|split].
  - exact (NavProofs.entry_at_offset dbg bigend types uoff h codes f pad tbl He Hlen Hc Hok Hfit o t Hin).
  - exact (NavProofs.dfs_from_offset dbg bigend types uoff h codes f pad tbl He Hlen Hc Hok Hfit o t Hin).
  - exact (NavProofs.tree_is_forest dbg bigend types uoff h codes f pad tbl He Hlen Hc Hok Hfit o t Hin).
Qed.

(* the tree of the whole unit: o = header_len h, the offset of the first top-level entry, which is where
   entries_tree(None) starts *)
Theorem tree_is_forest : forall dbg bigend types uoff h codes t f pad tbl,
  let e := mkEnc (uh_version h) (uh_fmt64 h) (uh_asize h) bigend in
  let body := enc_forest codes bigend (header_len h) (t :: f) pad in
  let hdr := mkUnit e (unit_length_of bigend h (nlen body)) (uh_type h) (uh_abbrev_off h) types uoff body in
  addr_size_ok e -> header_len h + nlen body < two63 ->
  Forall (fun t => tbl_get tbl (t_code codes t) = Some (t_abbrev codes t)) (forest_nodes (t :: f)) ->
  forest_ok codes e (t :: f) -> sibs_fit codes (header_len h) (t :: f) ->
  exists ts, entries_tree dbg hdr (Some (header_len h)) = Ok ts /\
             walk_tree dbg e tbl ts = Ok (Some (dtree_of codes 0 (header_len h) t), None).
Proof.
  intros dbg bigend types uoff h codes t f pad tbl e body hdr He Hlen Hc Hok Hfit.
  apply (NavProofs.tree_is_forest dbg bigend types uoff h codes (t :: f) pad tbl He Hlen Hc Hok Hfit).
  rewrite DieRdProofs.on_list_cons. apply in_or_app. left. rewrite DieRdProofs.placed_unfold. left. reflexivity.
Qed.

Example entry_at_offset_ex :
  In (17, ex_k2) (on_list (placed ex_codes) (tree_size ex_codes) (header_len ex_header) ex_forest) /\
  root_die ex_codes 17 0 ex_k2 = mkDie 17 0 52 true [].
Proof. split; [vm_compute; tauto|reflexivity]. Qed.

(* ------------------------------------------------------------------ *)
(* (6b) PARTIAL traversals with the tree iterator. A selection strategy `sel` (Spec/ForestSel.v) is
        asked at every entry the caller visits: None = children() is not called; Some n = the caller
        calls EntriesTreeIter::next until n children have been returned (or the list ends) and then
        goes back to the enclosing list. For EVERY strategy, from EVERY entry (o, t) of the unit, the
        recursion of Model/TreeWalk.v reports exactly the selected sub-forest of Spec/ForestSel.v —
        offsets, depths, tags, attribute values: children()/next() at any node return that node's
        children in order whatever subtrees were skipped (DW_AT_sibling fast path or scanning) or left
        half-visited before. Same hypotheses as tree_is_forest: any code assignment, DW_AT_sibling on
        any subset of the entries, null padding. Key lemma: EventWalk.tree_loop_skip. *)

Theorem tree_any_walk : forall dbg bigend types uoff h codes f pad tbl (sel : strategy) o t,
  let e := mkEnc (uh_version h) (uh_fmt64 h) (uh_asize h) bigend in
  let body := enc_forest codes bigend (header_len h) f pad in
  let hdr := mkUnit e (unit_length_of bigend h (nlen body)) (uh_type h) (uh_abbrev_off h) types uoff body in
  addr_size_ok e -> header_len h + nlen body < two63 ->
  Forall (fun t => tbl_get tbl (t_code codes t) = Some (t_abbrev codes t)) (forest_nodes f) ->
  forest_ok codes e f -> sibs_fit codes (header_len h) f ->
  In (o, t) (on_list (placed codes) (tree_size codes) (header_len h) f) ->
  exists ts, entries_tree dbg hdr (Some o) = Ok ts /\
             walk_tree_plan dbg e tbl sel ts = Ok (sel_tree codes sel 0 o t, None).
Proof.
  intros dbg bigend types uoff h codes f pad tbl sel o t e body hdr He Hlen Hc Hok Hfit Hin.
  exact (TreeWalkProofs.tree_any_walk dbg bigend types uoff h codes f pad tbl He Hlen Hc Hok Hfit sel o t Hin).
Qed.

(* the unit of forest_ex meets the hypotheses (forest_ex); a strategy that visits two of the three
   children of the root and does not descend into them; selecting everything is the preorder *)
Example tree_any_walk_ex :
  let sel : strategy := fun d => if d_offset d =? 11 then Some 2%nat else None in
  In (11, ex_root) (on_list (placed ex_codes) (tree_size ex_codes) (header_len ex_header) ex_forest) /\
  map (fun d => (d_offset d, d_depth d, d_tag d)) (sel_tree ex_codes sel 0 11 ex_root) =
    [(11, 0%Z, 17); (15, 1%Z, 46); (17, 1%Z, 52)] /\
  sel_tree ex_codes (fun _ => Some 3%nat) 0 11 ex_root = preorder ex_codes (header_len ex_header) 0 ex_forest.
Proof. split; [vm_compute; tauto|]. split; vm_compute; reflexivity. Qed.

(* at the root, as the streams call it: entries_tree(None) walks the first top-level entry *)
Theorem tree_any_walk_root : forall dbg bigend types uoff h codes t f pad tbl (sel : strategy),
  let e := mkEnc (uh_version h) (uh_fmt64 h) (uh_asize h) bigend in
  let body := enc_forest codes bigend (header_len h) (t :: f) pad in
  let hdr := mkUnit e (unit_length_of bigend h (nlen body)) (uh_type h) (uh_abbrev_off h) types uoff body in
  addr_size_ok e -> header_len h + nlen body < two63 ->
  Forall (fun t => tbl_get tbl (t_code codes t) = Some (t_abbrev codes t)) (forest_nodes (t :: f)) ->
  forest_ok codes e (t :: f) -> sibs_fit codes (header_len h) (t :: f) ->
  exists ts, entries_tree dbg hdr None = Ok ts /\
             walk_tree_plan dbg e tbl sel ts = Ok (sel_tree codes sel 0 (header_len h) t, None).
Proof.
  intros dbg bigend types uoff h codes t f pad tbl sel e body hdr He Hlen Hc Hok Hfit.
  exact (CursorWalkProofs.tree_any_walk_root dbg bigend types uoff h codes (t :: f) pad tbl He Hlen Hc Hok Hfit sel t f eq_refl).
Qed.

(* the shape on which a wrong depth after the fast path shows, run through the MODEL: the root (offset 11)
   has the children A (12: children, no sibling pointer) and a leaf (18); A's child X (13) has a child and a
   DW_AT_sibling (= 17). The strategy does not descend into A, so EntriesTree::next(1) scans A's subtree,
   jumps from X to 17 — keeping X's depth 2 — reads A's terminator at depth 2, and finds the leaf. (With the
   caller's depth 1 instead, the terminator at 17 would be taken for the end of the root's list.) *)
Definition trap_leaf : tree := Node 52 false [] [].
Definition trap_x : tree := Node 46 false [ISib W1] [trap_leaf].
Definition trap_a : tree := Node 11 false [] [trap_x].
Definition trap_root : tree := Node 17 false [] [trap_a; trap_leaf].
Definition trap_codes : coding := fun tag hc specs => tag.
Definition trap_sel : strategy := fun d => if d_tag d =? 11 then None else Some 5%nat.
Definition trap_body : list byte := enc_forest trap_codes false (header_len ex_header) [trap_root] 0.

Example tree_any_walk_trap :
  trap_body = [x11; x0b; x2e; x11; x34; x00; x00; x34; x00]%byte /\
  exists tbl ts,
    parse_abbrevs true (enc_abbrevs (forest_abbrevs trap_codes [trap_root])) = Ok (tbl, []) /\
    entries_tree true (mkUnit ex_enc (unit_length_of false ex_header (nlen trap_body)) UCompile 0 false 0 trap_body)
                 (Some 11) = Ok ts /\
    walk_tree_plan true ex_enc tbl trap_sel ts = Ok (sel_tree trap_codes trap_sel 0 11 trap_root, None) /\
    map (fun d => (d_offset d, d_depth d, d_tag d)) (sel_tree trap_codes trap_sel 0 11 trap_root) =
      [(11, 0%Z, 17); (12, 1%Z, 11); (18, 1%Z, 52)].
Proof.
  split; [vm_compute; reflexivity|]. eexists. eexists.
  split; [vm_compute; reflexivity|]. split; [vm_compute; reflexivity|]. split; vm_compute; reflexivity.
Qed.

(* (6c) the same for the cloned-cursor recursion (clone the cursor on an entry, next_entry to its
        first child, next_sibling along the child list — Model/TreeWalk.v cwalk_list): for EVERY strategy
        and every budget n of top-level entries the entries visited are the selected sub-forest of the
        unit's forest. Every next_sibling in it starts on an entry whose subtree holds any mixture of
        entries with and without DW_AT_sibling and lands on the root entry of the following sibling, or
        returns None at the list terminator / the end of the unit (CursorWalkProofs.next_sibling_over:
        EventWalk.sibling_loop_skip over NavProofs.tail_span). *)
Theorem cursor_walk : forall dbg bigend types uoff h codes f pad tbl (sel : strategy) n,
  let e := mkEnc (uh_version h) (uh_fmt64 h) (uh_asize h) bigend in
  let body := enc_forest codes bigend (header_len h) f pad in
  let hdr := mkUnit e (unit_length_of bigend h (nlen body)) (uh_type h) (uh_abbrev_off h) types uoff body in
  addr_size_ok e -> header_len h + nlen body < two63 ->
  Forall (fun t => tbl_get tbl (t_code codes t) = Some (t_abbrev codes t)) (forest_nodes f) ->
  forest_ok codes e f -> sibs_fit codes (header_len h) f ->
  exists c, entries dbg hdr = Ok c /\
            walk_cursor dbg e tbl sel n c = Ok (sel_list codes sel 0 (header_len h) n f, None).
Proof.
  intros dbg bigend types uoff h codes f pad tbl sel n e body hdr He Hlen Hc Hok Hfit.
  exact (CursorWalkProofs.cursor_walk dbg bigend types uoff h codes f pad tbl He Hlen Hc Hok Hfit sel n).
Qed.

Example cursor_walk_ex :
  let sel : strategy := fun d => if d_offset d =? 11 then Some 2%nat else None in
  map (fun d => (d_offset d, d_depth d, d_tag d)) (sel_list ex_codes sel 0 (header_len ex_header) 5 ex_forest) =
    [(11, 0%Z, 17); (15, 1%Z, 46); (17, 1%Z, 52)] /\
  sel_list ex_codes (fun _ => Some 3%nat) 0 (header_len ex_header) 1 ex_forest =
    preorder ex_codes (header_len ex_header) 0 ex_forest.
Proof. split; vm_compute; reflexivity. Qed.

(* (6d) malformed DW_AT_sibling values, for EVERY reader state and EVERY entry (no well-formedness):
        the attribute is consulted only by the fast path DieRd.sibling_jump at the top of the loops of
        next_sibling and EntriesTree::next. It is IGNORED (the reader is left untouched, so the
        iteration is the scanning one: bad_sibling_loops) when the entry has no
        children, the attribute is missing, its normalised value is not a unit reference (DW_FORM_data*,
        udata, ref_addr, sec_offset, ...), the reference is backward or the entry's own offset, it points
        before the reader (into the entry's own bytes), or beyond the end of the unit. EVERY other value
        — a unit reference after the entry, at or after the reader, up to and including the end of the
        unit — is BELIEVED: the reader moves there with the entry's depth (a forward offset into the
        middle of the subtree, into the middle of an entry, past the true sibling, or exactly the end of
        the unit changes what the traversal reports; only the value enc_forest writes is correct). The two
        classes are complementary. Whole traversals of units whose encoder writes values of the
        ignored class: (6e). *)
Theorem bad_sibling_ignored : forall dbg r cur,
  nlen (r_in r) <= r_end r ->
  (SibBadProofs.sib_ignored r cur -> sibling_jump dbg r cur = Ok r) /\
  (forall o, d_children cur = true -> die_attr_value cur DW_AT_sibling = Some (VUnitRef o) -> d_offset cur < o ->
     r_end r - nlen (r_in r) <= o <= r_end r ->
     sibling_jump dbg r cur =
     Ok (mkRaw (skipn (N.to_nat (o - (r_end r - nlen (r_in r)))) (r_in r)) (r_end r) (d_depth cur))) /\
  (SibBadProofs.sib_ignored r cur \/
   exists o, d_children cur = true /\ die_attr_value cur DW_AT_sibling = Some (VUnitRef o) /\ d_offset cur < o /\
             r_end r - nlen (r_in r) <= o <= r_end r).
Proof.
  intros dbg r cur Hle. split; [exact (SibBadProofs.bad_sibling_ignored dbg r cur Hle)|].
  split; [intros o; exact (SibBadProofs.sibling_believed dbg r cur o Hle)|exact (SibBadProofs.sibling_classes r cur Hle)].
Qed.

Theorem bad_sibling_loops : forall k dbg e tbl,
  (forall depth t, nlen (r_in (tr_raw t)) <= r_end (tr_raw t) -> SibBadProofs.sib_ignored (tr_raw t) (tr_entry t) ->
     tree_next_loop (S k) dbg e tbl depth t =
     if raw_is_empty (tr_raw t) then Ok (TOk false (mkTree (tr_root t) (tr_raw t) (set_null (tr_entry t)))) else
     match read_entry dbg e tbl (tr_raw t) with
     | Ok (ok, d, r2) =>
         if (d_depth d =? depth)%Z then Ok (TOk ok (mkTree (tr_root t) r2 d))
         else tree_next_loop k dbg e tbl depth (mkTree (tr_root t) r2 d)
     | Err x => tree_fail dbg (mkTree (tr_root t) (tr_raw t) (tr_entry t)) x
     | Panic => Panic
     | OutOfFuel => OutOfFuel
     end) /\
  (forall T c, nlen (r_in (c_raw c)) <= r_end (c_raw c) -> SibBadProofs.sib_ignored (c_raw c) (c_cur c) ->
     sibling_loop (S k) dbg e tbl T c =
     let* s := next_entry dbg e tbl c in
     match s with
     | SErr x c' => Ok (SErr x c')
     | SOk false c' => Ok (SOk None c')
     | SOk true c' =>
         if (d_depth (c_cur c') =? T)%Z then Ok (SOk (current c') c') else sibling_loop k dbg e tbl T c'
     end).
Proof.
  intros k dbg e tbl. split.
  - intros depth t Hle Hi. cbn [tree_next_loop]. rewrite (SibBadProofs.bad_sibling_ignored dbg _ _ Hle Hi). reflexivity.
  - intros T c Hle Hi. cbn [sibling_loop]. unfold current.
    destruct (is_null (c_cur c)); [|rewrite (SibBadProofs.bad_sibling_ignored dbg _ _ Hle Hi)]; destruct c; reflexivity.
Qed.

(* an entry at offset 20 with children, the reader at offset 24 of a unit ending at 40: a DW_FORM_ref4
   sibling value 20 (self), 22 (inside the entry), 41 (out of range) and a DW_FORM_data4 value are
   ignored; 30 is believed *)
Example bad_sibling_ex :
  let r := mkRaw (repeat x00 16) 40 3 in
  let ent v := mkDie 20 2 17 true [(mkSpec 1 19 0, v)] in
  SibBadProofs.sib_ignored r (ent (VUnitRef 20)) /\ SibBadProofs.sib_ignored r (ent (VUnitRef 22)) /\
  SibBadProofs.sib_ignored r (ent (VUnitRef 41)) /\ SibBadProofs.sib_ignored r (ent (VData4 30)) /\
  sibling_jump true r (ent (VUnitRef 30)) = Ok (mkRaw (repeat x00 10) 40 2).
Proof.
  cbv zeta. unfold SibBadProofs.sib_ignored.
  split; [right; vm_compute; left; discriminate|].
  split; [right; vm_compute; right; left; reflexivity|].
  split; [right; vm_compute; right; right; reflexivity|].
  split; [right; vm_compute; exact I|].
  vm_compute. reflexivity.
Qed.

(* (6e) WHOLE traversals of units with wrong DW_AT_sibling values, walk by walk; here the next_dfs walk.
        SibOvProofs.enc_forest_ov = the encoder enc_forest with a per-entry override `ov : offset -> option N`
        of the value written into the entry's DW_AT_sibling slots (same form and width: DW_FORM_ref1/2/4/8;
        sibs_fit_ov: the value fits the width), so no length and no offset changes (first conjunct; with
        ov = none it is enc_forest: SibOvProofs.enc_tree_ov_none). The full depth-first cursor walk of
        dfs_is_preorder (next_dfs loop) reports preorder_ov = preorder f with the overridden value shown in
        those slots — every offset, depth, tag, children flag and every other attribute as in preorder f.
        next_dfs never consults the attribute, so this half holds for EVERY override value, in particular for
        all of the ignored class (backward, self, inside the entry, beyond the unit end).
        The tree walk and the next_sibling walk follow below (bad_sibling_full_walk_tree_partial,
        bad_sibling_full_walk). *)
Theorem bad_sibling_full_walk_partial : forall dbg bigend types uoff h codes (ov : N -> option N) f pad tbl,
  let e := mkEnc (uh_version h) (uh_fmt64 h) (uh_asize h) bigend in
  let body := SibOvProofs.enc_forest_ov codes ov bigend (header_len h) f pad in
  let hdr := mkUnit e (unit_length_of bigend h (nlen body)) (uh_type h) (uh_abbrev_off h) types uoff body in
  addr_size_ok e -> header_len h + nlen body < two63 ->
  Forall (fun t => tbl_get tbl (t_code codes t) = Some (t_abbrev codes t)) (forest_nodes f) ->
  forest_ok codes e f -> SibOvProofs.sibs_fit_ov codes ov (header_len h) f ->
  nlen body = nlen (enc_forest codes bigend (header_len h) f pad) /\
  exists c, entries dbg hdr = Ok c /\
            dfs_all (cursor_fuel c) dbg e tbl c = Ok (SibOvProofs.preorder_ov codes ov (header_len h) 0 f, None).
Proof.
  intros dbg bigend types uoff h codes ov f pad tbl e body hdr He Hlen Hc Hok Hfit. split.
  - exact (SibOvProofs.enc_forest_ov_len codes ov bigend (header_len h) f pad).
  - exact (SibOvProofs.dfs_ov dbg bigend types uoff h codes ov f pad tbl He Hlen Hc Hok Hfit).
Qed.

(* the tree walk of tree_is_forest (children() of every node, entries_tree(None)) over the same units: it
   rebuilds the tree with the overridden value shown in the DW_AT_sibling slots (dtree_ov). A walk that
   iterates every child list calls EntriesTree::next only on entries without children or on list
   terminators, so the fast path never runs: EVERY override value, the ignored class included.
   The next_sibling walk, which consults the attribute, is bad_sibling_full_walk below. *)
Theorem bad_sibling_full_walk_tree_partial : forall dbg bigend types uoff h codes (ov : N -> option N) t f pad tbl,
  let e := mkEnc (uh_version h) (uh_fmt64 h) (uh_asize h) bigend in
  let body := SibOvProofs.enc_forest_ov codes ov bigend (header_len h) (t :: f) pad in
  let hdr := mkUnit e (unit_length_of bigend h (nlen body)) (uh_type h) (uh_abbrev_off h) types uoff body in
  addr_size_ok e -> header_len h + nlen body < two63 ->
  Forall (fun t => tbl_get tbl (t_code codes t) = Some (t_abbrev codes t)) (forest_nodes (t :: f)) ->
  forest_ok codes e (t :: f) -> SibOvProofs.sibs_fit_ov codes ov (header_len h) (t :: f) ->
  exists ts, entries_tree dbg hdr None = Ok ts /\
             walk_tree dbg e tbl ts = Ok (Some (SibOvTreeProofs.dtree_ov codes ov 0 (header_len h) t), None).
Proof.
  intros dbg bigend types uoff h codes ov t f pad tbl e body hdr He Hlen Hc Hok Hfit.
  exact (SibOvTreeProofs.tree_ov dbg bigend types uoff h codes ov t f pad tbl He Hlen Hc Hok Hfit).
Qed.

(* the walk that CONSULTS the attribute: next_entry to the first top-level entry, then next_sibling until
   None. The DW_AT_sibling values of ANY subset of the entries (at any depth: every subtree the walk passes
   over) are replaced by values of the IGNORED class — SibOvSibProofs.ig: backward or the entry itself
   (w <= offset), inside the entry's own bytes (w < offset of its first child / end of its attributes), or
   beyond the end of the unit (header_len + |body| < w); the remaining entries keep the correct value. The
   walk still returns exactly the root entries of the following top-level siblings (roots_ov = roots f with
   the overridden value shown in the slots), then None: overridden entries are scanned
   (bad_sibling_ignored), correct ones may jump, both reach the state behind the subtree
   (SibOvSibProofs.tail_ov_span). Not covered: a non-reference FORM in the slot (the override keeps
   DW_FORM_ref1/2/4/8, so lengths are unchanged), next_sibling started from an inner entry's list and the
   cloned-cursor recursion over overridden units (the step lemmas next_sibling_over / siblings_iter are stated
   for any depth and offset). *)
Theorem bad_sibling_full_walk : forall dbg bigend types uoff h codes (ov : N -> option N) t f pad tbl,
  let e := mkEnc (uh_version h) (uh_fmt64 h) (uh_asize h) bigend in
  let body := SibOvProofs.enc_forest_ov codes ov bigend (header_len h) (t :: f) pad in
  let hdr := mkUnit e (unit_length_of bigend h (nlen body)) (uh_type h) (uh_abbrev_off h) types uoff body in
  addr_size_ok e -> header_len h + nlen body < two63 ->
  Forall (fun t => tbl_get tbl (t_code codes t) = Some (t_abbrev codes t)) (forest_nodes (t :: f)) ->
  forest_ok codes e (t :: f) -> SibOvProofs.sibs_fit_ov codes ov (header_len h) (t :: f) ->
  Forall (SibOvSibProofs.ig codes ov (header_len h + nlen body))
         (on_list (placed codes) (tree_size codes) (header_len h) (t :: f)) ->
  exists c c1, entries dbg hdr = Ok c /\ next_entry dbg e tbl c = Ok (SOk true c1) /\
               c_cur c1 = SibOvProofs.root_die_ov codes ov (header_len h) 0 t /\
               siblings_all (cursor_fuel c1) dbg e tbl c1 =
                 Ok (SibOvSibProofs.roots_ov codes ov (header_len h + tree_size codes t) 0 f, None).
Proof.
  intros dbg bigend types uoff h codes ov t f pad tbl e body hdr He Hlen Hc Hok Hfit Hig.
  exact (SibOvSibProofs.siblings_ov dbg bigend types uoff h codes ov t f pad tbl He Hlen Hc Hok Hfit Hig).
Qed.

(* ex_root (offset 11) carries a DW_FORM_ref1 DW_AT_sibling; overridden by 11 (the entry itself) only the
   byte of that slot changes (0x1a -> 0x0b) and the reported entry shows the overridden value *)
Example bad_sibling_full_walk_ex :
  let ov := fun o => if o =? 11 then Some 11 else None in
  SibOvProofs.enc_forest_ov ex_codes ov false (header_len ex_header) ex_forest 1 =
    [xe8;x07; x0b; x2a;  x03; x2a;  x85;x80;x80;x80;x10; x00;  x03; x2a;  x00;  x00]%byte /\
  SibOvProofs.sibs_fit_ov ex_codes ov (header_len ex_header) ex_forest /\
  SibOvSibProofs.ig ex_codes ov 27 (11, ex_root) /\
  map d_offset (SibOvProofs.preorder_ov ex_codes ov (header_len ex_header) 0 ex_forest) = [11; 15; 17; 23] /\
  SibOvProofs.preorder_ov ex_codes (fun _ => None) (header_len ex_header) 0 ex_forest =
    preorder ex_codes (header_len ex_header) 0 ex_forest.
Proof.
  split; [vm_compute; reflexivity|]. split; [|split; [left; vm_compute; discriminate|split; vm_compute; reflexivity]].
  unfold SibOvProofs.sibs_fit_ov.
  replace (on_list (placed ex_codes) (tree_size ex_codes) (header_len ex_header) ex_forest)
    with [(11, ex_root); (15, ex_k1); (17, ex_k2); (23, ex_k1)] by (vm_compute; reflexivity).
  repeat (apply Forall_cons); try apply Forall_nil; unfold SibOvProofs.fits_ov; cbn [fst snd t_items ex_root ex_k1 ex_k2];
    repeat (apply Forall_cons); try apply Forall_nil; try exact I.
  vm_compute. reflexivity.
Qed.

(* ------------------------------------------------------------------ *)
(* (7) no step panics or exhausts the model's fuel, on ANY input, in both build modes (feeds C01).
       NavProofs.cursor_ok / tree_ok is the reader invariant "remaining input <= end offset, and
       |depth| + remaining input < 2^63"; every cursor the API creates over a slice shorter than
       2^63 bytes satisfies it (cursor_invariant_holds) and every step preserves it. *)

Theorem no_panic : forall dbg e tbl,
  (forall bs, parse_abbrevs dbg bs <> Panic /\ parse_abbrevs dbg bs <> OutOfFuel) /\
  (forall sec off, abbreviations_at dbg sec off <> Panic /\ abbreviations_at dbg sec off <> OutOfFuel) /\
  (forall bigend types uoff bs,
     parse_unit_header bigend types uoff bs <> Panic /\ parse_unit_header bigend types uoff bs <> OutOfFuel) /\
  (forall bigend types sec, nlen sec < two64 ->
     units dbg bigend types sec <> Panic /\ units dbg bigend types sec <> OutOfFuel) /\
  (forall c, NavProofs.cursor_ok c ->
     match next_entry dbg e tbl c with
     | Ok (SOk _ c') | Ok (SErr _ c') => NavProofs.cursor_ok c' | _ => False end /\
     match next_dfs (cursor_fuel c) dbg e tbl c with
     | Ok (SOk _ c') | Ok (SErr _ c') => NavProofs.cursor_ok c' | _ => False end /\
     match next_sibling (cursor_fuel c) dbg e tbl c with
     | Ok (SOk _ c') | Ok (SErr _ c') => NavProofs.cursor_ok c' | _ => False end) /\
  (forall t, NavProofs.tree_ok t ->
     match tree_root dbg e tbl t with Ok t' => NavProofs.tree_ok t' | Err _ => True | _ => False end /\
     forall depth, ((d_depth (tr_entry t) < depth)%Z -> (d_depth (tr_entry t) + 1 = depth)%Z) ->
       match tree_next (tree_fuel t) dbg e tbl depth t with
       | Ok (TOk _ t') | Ok (TErr _ t') => NavProofs.tree_ok t' | _ => False end).
Proof.
  intros dbg e tbl. split; [exact (AbbrevRdProofs.parse_abbrevs_res dbg)|].
  split; [exact (AbbrevRdProofs.abbreviations_at_res dbg)|].
  split; [exact NavProofs.parse_unit_header_res|].
  split; [exact (NavProofs.units_total dbg)|]. split.
  - intros c Hc. split; [|split].
    + pose proof (NavProofs.next_entry_inv dbg e tbl c Hc) as H.
      destruct (next_entry dbg e tbl c) as [[[|] c'|x c']| | |]; tauto.
    + pose proof (NavProofs.next_dfs_inv dbg e tbl (cursor_fuel c) c Hc ltac:(unfold cursor_fuel; apply le_n)) as H.
      destruct (next_dfs (cursor_fuel c) dbg e tbl c) as [[o c'|x c']| | |]; tauto.
    + unfold next_sibling. destruct (current c); [|exact Hc].
      exact (NavProofs.sibling_loop_inv dbg e tbl (d_depth d) (cursor_fuel c) c Hc ltac:(unfold cursor_fuel; apply le_n)).
  - intros t Ht. split; [exact (NavProofs.tree_root_total dbg e tbl t Ht)|].
    intros depth Hreq. exact (NavProofs.tree_next_total dbg e tbl depth t Ht Hreq).
Qed.

Theorem cursor_invariant_holds : forall dbg input offset c,
  offset + nlen input < two63 -> cursor_new dbg input offset = Ok c -> NavProofs.cursor_ok c.
Proof. exact NavProofs.cursor_new_ok. Qed.

Example no_panic_ex :
  NavProofs.cursor_ok (mkCur (mkRaw [xff; x00; x01]%byte 100 (-7)) null_die) /\
  parse_abbrevs true [x80]%byte = Err EUnexpectedEof.
Proof.
  split; [|reflexivity]. unfold NavProofs.cursor_ok, NavProofs.state_ok, DieRdProofs.depth_ok.
  cbn [c_raw c_cur r_in r_end r_depth null_die d_depth]. vm_compute. intuition discriminate.
Qed.

(* statement pins *)
Check cursor_walk : forall dbg bigend types uoff h codes f pad tbl (sel : die -> option nat) n,
  let e := mkEnc (uh_version h) (uh_fmt64 h) (uh_asize h) bigend in
  let body := enc_forest codes bigend (header_len h) f pad in
  let hdr := mkUnit e (unit_length_of bigend h (nlen body)) (uh_type h) (uh_abbrev_off h) types uoff body in
  addr_size_ok e -> header_len h + nlen body < two63 ->
  Forall (fun t => tbl_get tbl (t_code codes t) = Some (t_abbrev codes t)) (forest_nodes f) ->
  forest_ok codes e f -> sibs_fit codes (header_len h) f ->
  exists c, entries dbg hdr = Ok c /\
            walk_cursor dbg e tbl sel n c = Ok (sel_list codes sel 0 (header_len h) n f, None).
Check tree_any_walk : forall dbg bigend types uoff h codes f pad tbl (sel : die -> option nat) o t,
  let e := mkEnc (uh_version h) (uh_fmt64 h) (uh_asize h) bigend in
  let body := enc_forest codes bigend (header_len h) f pad in
  let hdr := mkUnit e (unit_length_of bigend h (nlen body)) (uh_type h) (uh_abbrev_off h) types uoff body in
  addr_size_ok e -> header_len h + nlen body < two63 ->
  Forall (fun t => tbl_get tbl (t_code codes t) = Some (t_abbrev codes t)) (forest_nodes f) ->
  forest_ok codes e f -> sibs_fit codes (header_len h) f ->
  In (o, t) (on_list (placed codes) (tree_size codes) (header_len h) f) ->
  exists ts, entries_tree dbg hdr (Some o) = Ok ts /\
             walk_tree_plan dbg e tbl sel ts = Ok (sel_tree codes sel 0 o t, None).
Check abbrev_dup_rejected : forall dbg ds rest,
  Forall abbrev_ok ds -> ~ NoDup (map ab_code ds) ->
  parse_abbrevs dbg (enc_decls ds ++ rest) = Err EDuplicateAbbreviationCode.
Check raw_is_preorder : forall dbg bigend types uoff h codes f pad tbl,
  let e := mkEnc (uh_version h) (uh_fmt64 h) (uh_asize h) bigend in
  let body := enc_forest codes bigend (header_len h) f pad in
  addr_size_ok e -> header_len h + nlen body < two63 -> body <> [] ->
  Forall (fun t => tbl_get tbl (t_code codes t) = Some (t_abbrev codes t)) (forest_nodes f) ->
  forest_ok codes e f -> sibs_fit codes (header_len h) f ->
  read_all_raw dbg (mkUnit e (unit_length_of bigend h (nlen body)) (uh_type h) (uh_abbrev_off h) types uoff body)
               tbl None
  = Ok (raw_seq codes (header_len h) f pad, None)
  /\ filter (fun d => negb (d_tag d =? 0)) (raw_seq codes (header_len h) f pad) = preorder codes (header_len h) 0 f.
Check abbrev_get : forall dbg ds tail rest,
  Forall abbrev_ok ds -> NoDup (map ab_code ds) ->
  (tail = [] /\ rest = [] \/ tail = x00 :: rest) ->
  exists t, parse_abbrevs dbg (enc_decls ds ++ tail) = Ok (t, rest) /\
            (forall c, tbl_get t c = find (fun a => ab_code a =? c) ds) /\
            (forall a, In a ds -> tbl_get t (ab_code a) = Some a) /\
            (forall c a, tbl_get t c = Some a -> In a ds /\ ab_code a = c).
