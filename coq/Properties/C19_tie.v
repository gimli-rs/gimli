(* Properties/C19_tie.v — translator tie (DESIGN §1.2 item 2) for C19: FilterUnitEntry::has_die_back_edge of /repo/src/write/unit.rs,
   regenerated into coq/Gen/BackEdge.v from the source text on every ./check run, is the function of Model/Filter.v. *)
From Coq Require Import List NArith Bool.
Require GV.Gen.BackEdge GV.Gen.Constants GV.Model.Filter.
Require GV.Proofs.GenAgreeBackEdge.
Import ListNotations.
Local Open Scope N_scope.

(* has_die_back_edge regenerated from src/write/unit.rs = the model's, all 65 536 tags x has_attr(DW_AT_declaration) *)
Theorem c19_tie_has_die_back_edge :
  forall tag decl, tag < 65536 -> BackEdge.has_die_back_edge tag decl = Filter.has_die_back_edge tag decl.
Proof. intros tag decl _. apply GenAgreeBackEdge.gen_has_die_back_edge_agree_any. Qed.

(* the attribute consulted is DW_AT_declaration, on DW_TAG_subprogram only; the `=> false` tag list is the model's, in source order *)
Theorem c19_tie_back_edge_shape :
  BackEdge.attr_name = Constants.DW_AT_declaration /\
  BackEdge.attr_tags = [Filter.DW_TAG_subprogram] /\
  BackEdge.no_back_edge_tags = Filter.no_back_edge_tags.
Proof. repeat split; reflexivity. Qed.

(* the two tags the filter model names *)
Theorem c19_tie_constants :
  Constants.DW_TAG_namespace = Filter.DW_TAG_namespace /\
  Constants.DW_TAG_subprogram = Filter.DW_TAG_subprogram.
Proof. split; reflexivity. Qed.

(* statement pins *)
Check c19_tie_has_die_back_edge :
  forall tag decl, tag < 65536 -> BackEdge.has_die_back_edge tag decl = Filter.has_die_back_edge tag decl.
Check c19_tie_back_edge_shape :
  BackEdge.attr_name = Constants.DW_AT_declaration /\
  BackEdge.attr_tags = [Filter.DW_TAG_subprogram] /\
  BackEdge.no_back_edge_tags = Filter.no_back_edge_tags.
Check c19_tie_constants :
  Constants.DW_TAG_namespace = Filter.DW_TAG_namespace /\
  Constants.DW_TAG_subprogram = Filter.DW_TAG_subprogram.
