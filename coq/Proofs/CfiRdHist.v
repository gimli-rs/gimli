(* Proofs/CfiRdHist.v — EhHdrTableIter as a state machine: every history of next / nth k /
   size_hint on a well-formed table returns exactly the corresponding rows of the full scan
   (C05 clause hdr_iter_history). *)
From Coq Require Import List NArith ZArith Bool Lia ZifyBool ZifyN ZifyNat.
From Coq.Strings Require Import Byte.
Require Import GV.Base.Res GV.Base.Byt GV.Base.Ints GV.Model.Leb GV.Model.Prim GV.Spec.LebSpec.
Require Import GV.Spec.CfiSpec GV.Model.CfiRd GV.Proofs.Lib GV.Proofs.CfiRdBase GV.Proofs.CfiRdBs.
Import ListNotations.
Local Open Scope N_scope.

(* dec = the rows of the table in order; row = bytes per row; total = bytes available from the
   start of the table (rows and whatever follows them in the section); state: q = rows the reader
   has moved past, rem = rows the iterator still claims.
     next            : None when rem = 0, else row q
     nth k           : rem := rem -sat k first; k rows are skipped — UnsupportedOffset if k*row does not
                       fit u64, UnexpectedEof (nothing skipped) if fewer than k rows of bytes are left —
                       then next
     size_hint       : (rem, Some rem) *)
Fixpoint iter_spec (row total : N) (dec : list (pointer * pointer)) (q rem : N) (ops : list iop) : list iobs :=
  match ops with
  | [] => []
  | OHint :: r => BHint rem (Some rem) :: iter_spec row total dec q rem r
  | ONext :: r =>
      if rem =? 0 then BItem None :: iter_spec row total dec q rem r
      else match nth_error dec (N.to_nat q) with
           | Some x => BItem (Some x) :: iter_spec row total dec (q + 1) (rem - 1) r
           | None => [BFuel]     (* excluded by the invariant q + rem <= length dec *)
           end
  | ONth k :: r =>
      let rem' := (if k <=? rem then rem - k else 0) in
      if 2 ^ 64 <=? k * row then BErr EUnsupportedOffset :: iter_spec row total dec q rem' r
      else if total <? (q + k) * row then BErr EUnexpectedEof :: iter_spec row total dec q rem' r
      else if rem' =? 0 then BItem None :: iter_spec row total dec (q + k) rem' r
      else match nth_error dec (N.to_nat (q + k)) with
           | Some x => BItem (Some x) :: iter_spec row total dec (q + k + 1) (rem' - 1) r
           | None => [BFuel]
           end
  end.

Definition yields_row (o : iobs) : Prop := exists x, o = BItem (Some x).

Lemma skipn_flat : forall size rows pad j, wf_rows size rows -> (j <= length rows)%nat ->
  skipn (N.to_nat (N.of_nat j * (size * 2))) (flat rows ++ pad) = flat (skipn j rows) ++ pad.
Proof.
  intros size rows pad j Hwf. revert j. induction Hwf as [|r rs [H1 H2] _ IH]; intros j Hj.
  - cbn [length] in Hj. assert (j = 0%nat) by lia. subst j. reflexivity.
  - destruct j as [|j]; [reflexivity|]. cbn [length] in Hj. cbn [skipn].
    rewrite flat_cons, <- !app_assoc.
    replace (N.to_nat (N.of_nat (S j) * (size * 2)))
      with (N.to_nat (nlen (fst r)) + (N.to_nat (nlen (snd r)) + N.to_nat (N.of_nat j * (size * 2))))%nat by lia.
    rewrite <- skipn_skipn, skipn_nlen_app, <- skipn_skipn, skipn_nlen_app. apply IH. lia.
Qed.

Lemma skipn_nth_cons : forall A (l : list A) j r, nth_error l j = Some r -> skipn j l = r :: skipn (S j) l.
Proof.
  induction l as [|y l IH]; intros j r H; [destruct j; discriminate|].
  destruct j as [|j]; [injection H as ->; reflexivity|]. cbn [nth_error] in H. cbn [skipn]. apply IH. exact H.
Qed.

(* rows = the table as (location bytes, address bytes) pairs; dec = what they decode to *)
Definition table_decodes (dbg : bool) (hb : sbases) (h : hdr) (size o0 : N)
           (rows : list (list byte * list byte)) (dec : list (pointer * pointer)) : Prop :=
  length dec = length rows /\
  forall j r x, nth_error rows j = Some r -> nth_error dec j = Some x ->
    decode_at dbg (h_be h) (h_enc h) (hdr_pp hb h) (o0 + N.of_nat j * (size * 2)) (fst r) = Ok (fst x) /\
    decode_at dbg (h_be h) (h_enc h) (hdr_pp hb h) (o0 + N.of_nat j * (size * 2) + size) (snd r) = Ok (snd x).

Section History.
  Variables (dbg : bool) (hb : sbases) (h : hdr) (size o0 : N).
  Variable rows : list (list byte * list byte).
  Variable pad : list byte.
  Variable dec : list (pointer * pointer).
  Hypothesis Hsize : tbl_field_size (h_enc h) = Some size.
  Hypothesis Hwf : wf_rows size rows.
  Hypothesis Hdec : table_decodes dbg hb h size o0 rows dec.
  Let row := size * 2.
  Let tb := flat rows ++ pad.
  Let n := N.of_nat (length rows).

  Definition st_of (q rem : N) : rd * N := (mkrd (o0 + q * row) (skipn (N.to_nat (q * row)) tb), rem).

  Lemma nlen_tb : nlen tb = n * row + nlen pad.
  Proof. unfold tb. rewrite nlen_app, (nlen_flat _ _ Hwf). reflexivity. Qed.

  Lemma step_next : forall q rem, 0 < rem -> q + rem <= n ->
    exists x, nth_error dec (N.to_nat q) = Some x /\
      tbl_next dbg hb h (st_of q rem) = Ok (SSome x, st_of (q + 1) (rem - 1)).
  Proof.
    intros q rem Hrem Hq.
    set (j := N.to_nat q). assert (Hj : (j < length rows)%nat) by (unfold n in Hq; lia).
    pose proof (proj1 Hdec) as Hlen.
    destruct (nth_error rows j) as [r|] eqn:Er; [|apply nth_error_None in Er; lia].
    destruct (nth_error dec j) as [x|] eqn:Ex; [|apply nth_error_None in Ex; lia].
    exists x. split; [reflexivity|].
    destruct (proj2 Hdec j r x Er Ex) as [H1 H2].
    destruct (wf_rows_nth _ _ _ _ Hwf Er) as [Hr1 Hr2].
    assert (Hq' : q = N.of_nat j) by (unfold j; lia).
    assert (Hw : skipn (N.to_nat (q * row)) tb = fst r ++ snd r ++ skipn (N.to_nat ((q + 1) * row)) tb).
    { unfold tb, row. rewrite Hq'. rewrite skipn_flat by (try exact Hwf; lia).
      replace (N.of_nat j + 1) with (N.of_nat (S j)) by lia. rewrite skipn_flat by (try exact Hwf; lia).
      assert (Hs : skipn j rows = r :: skipn (S j) rows) by (apply skipn_nth_cons; exact Er).
      rewrite Hs, flat_cons, <- !app_assoc. reflexivity. }
    unfold st_of, tbl_next. destruct (rem =? 0) eqn:E0; [lia|].
    rewrite Hw, Hq'. unfold row at 1 2.
    rewrite (pep_field _ _ _ _ _ _ _ _ Hsize Hr1), H1. cbn [bind].
    rewrite (pep_field _ _ _ _ _ _ _ _ Hsize Hr2), H2. cbn [bind].
    destruct x as [xa xb]. cbn [fst snd]. do 3 f_equal. f_equal. unfold row. lia.
  Qed.

  Lemma step_nth : forall q rem k, q * row <= nlen tb ->
    let rem' := (if k <=? rem then rem - k else 0) in
    tbl_nth_st dbg hb h (st_of q rem) k =
    if 2 ^ 64 <=? k * row then Ok (SErr EUnsupportedOffset, st_of q rem')
    else if nlen tb <? (q + k) * row then Ok (SErr EUnexpectedEof, st_of q rem')
    else tbl_next dbg hb h (st_of (q + k) rem').
  Proof.
    intros q rem k Hq rem'. unfold tbl_nth_st, st_of. rewrite Hsize. fold row. fold rem'.
    change two64 with (2 ^ 64).
    destruct (2 ^ 64 <=? k * row); [reflexivity|].
    unfold rd_skip. cbn [win off].
    assert (Hl : nlen (skipn (N.to_nat (q * row)) tb) = nlen tb - q * row).
    { unfold nlen. rewrite skipn_length. unfold nlen in Hq. lia. }
    rewrite Hl.
    destruct (nlen tb <? (q + k) * row) eqn:E.
    - destruct (nlen tb - q * row <? k * row) eqn:E2; [reflexivity|lia].
    - destruct (nlen tb - q * row <? k * row) eqn:E2; [lia|].
      rewrite skipn_skipn.
      replace (o0 + q * row + k * row) with (o0 + (q + k) * row) by lia.
      replace (N.to_nat (q * row) + N.to_nat (k * row))%nat with (N.to_nat ((q + k) * row)) by lia.
      reflexivity.
  Qed.

  Lemma hdr_iter_history_gen : forall ops q rem,
    q * row <= nlen tb -> (0 < rem -> q + rem <= n) ->
    tbl_run dbg hb h (st_of q rem) ops = iter_spec row (nlen tb) dec q rem ops.
  Proof.
    induction ops as [|op r IH]; intros q rem Hq Hinv; [reflexivity|].
    destruct op as [|k|]; cbn [tbl_run iter_spec].
    - (* next *)
      destruct (rem =? 0) eqn:E0.
      + unfold st_of at 1, tbl_next. rewrite E0. cbn [obs_of_step]. f_equal. apply IH; assumption.
      + destruct (step_next q rem) as (x & Hx & Hs); [lia|apply Hinv; lia|].
        rewrite Hx, Hs. cbn [obs_of_step]. f_equal. apply IH.
        * rewrite nlen_tb. assert (q + 1 <= n) by (specialize (Hinv ltac:(lia)); lia). nia.
        * intros _. specialize (Hinv ltac:(lia)). lia.
    - (* nth k *)
      rewrite step_nth by exact Hq. cbv zeta.
      set (rem' := if k <=? rem then rem - k else 0).
      assert (Hrem : rem' <= rem) by (subst rem'; destruct (k <=? rem); lia).
      (* a refused skip moves nothing *)
      destruct (2 ^ 64 <=? k * row); [cbn [obs_of_step]; f_equal; apply IH; [exact Hq|lia]|].
      destruct (nlen tb <? (q + k) * row) eqn:Eeof; [cbn [obs_of_step]; f_equal; apply IH; [exact Hq|lia]|].
      destruct (rem' =? 0) eqn:E0.
      + unfold st_of at 1, tbl_next. rewrite E0. cbn [obs_of_step]. f_equal. apply IH; lia.
      + assert (Hk : k <= rem /\ rem' = rem - k) by (subst rem'; destruct (k <=? rem) eqn:E; lia).
        destruct (step_next (q + k) rem') as (x & Hx & Hs); [lia|lia|].
        rewrite Hx, Hs. cbn [obs_of_step]. f_equal. apply IH.
        * rewrite nlen_tb. assert (q + k + 1 <= n) by lia. nia.
        * intros _. lia.
    - (* size_hint *)
      unfold tbl_size_hint at 1 2. cbn [st_of fst snd]. f_equal. apply IH; assumption.
  Qed.

  Hypothesis Hcount : h_count h = n.
  Hypothesis Htable : h_table h = mkrd o0 tb.

  Lemma hdr_iter_history_lem : forall ops,
    tbl_run dbg hb h (tbl_iter h) ops = iter_spec row (nlen tb) dec 0 n ops.
  Proof.
    intros ops. unfold tbl_iter. rewrite Hcount, Htable.
    replace (mkrd o0 tb, n) with (st_of 0 n).
    - apply hdr_iter_history_gen; lia.
    - unfold st_of. rewrite N.mul_0_l, N.add_0_r. reflexivity.
  Qed.

  (* the full scan (`while let Some(row) = it.next()?`) returns exactly the rows *)
  Lemma tbl_all_loop_dec : forall fuel q, (N.to_nat (n - q) < fuel)%nat -> q <= n ->
    tbl_all_loop fuel dbg hb h (st_of q (n - q)) = Ok (skipn (N.to_nat q) dec, None).
  Proof.
    induction fuel as [|f IH]; intros q Hf Hq; [lia|]. cbn [tbl_all_loop].
    destruct (N.eq_dec q n) as [->|Hne].
    - unfold st_of at 1, tbl_next. rewrite N.sub_diag. change (0 =? 0) with true. cbn [bind].
      rewrite skipn_all2 by (rewrite (proj1 Hdec); unfold n; lia). reflexivity.
    - destruct (step_next q (n - q)) as (x & Hx & Hs); [lia|lia|]. rewrite Hs. cbn [bind].
      replace (n - q - 1) with (n - (q + 1)) by lia. rewrite IH by lia. cbn [bind].
      do 2 f_equal. f_equal.
      replace (N.to_nat (q + 1)) with (S (N.to_nat q)) by lia. symmetry. apply skipn_nth_cons. exact Hx.
  Qed.

  Lemma tbl_all_dec : tbl_all dbg hb h = Ok (dec, None).
  Proof.
    unfold tbl_all, tbl_iter. rewrite Hcount, Htable. cbn [win].
    replace (mkrd o0 tb, n) with (st_of 0 (n - 0)).
    - rewrite tbl_all_loop_dec; [reflexivity| |lia].
      pose proof nlen_tb as Hl. unfold nlen in Hl. pose proof (tbl_field_size_pos _ _ Hsize). unfold row in Hl. nia.
    - unfold st_of. rewrite N.mul_0_l, N.add_0_r, N.sub_0_r. reflexivity.
  Qed.
End History.
