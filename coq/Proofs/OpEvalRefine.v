(* Proofs/OpEvalRefine.v — the model evaluator (Model/OpEval.v) refines the DWARF stack machine over canonical
   values (Spec/StackMachine.v): one-step simulation under the abstraction "generic values modulo
   2^(8*address_size)", lifted by induction on the fuel to whole conversations; whole-evaluation mask invariance
   is a corollary. *)
From Coq Require Import List NArith ZArith Bool Lia ZifyBool ZifyN ZifyNat.
From Coq.Strings Require Import Byte.
Require Import GV.Base.Res GV.Base.Byt GV.Base.Ints GV.Spec.LebSpec GV.Model.Leb GV.Model.Prim
  GV.Model.OpDec GV.Model.OpVal GV.Model.OpEval GV.Spec.StackSpec GV.Spec.StackMachine
  GV.Proofs.Lib GV.Proofs.WidthProofs GV.Proofs.OpDecProofs GV.Proofs.OpValProofs GV.Proofs.OpEvalProofs GV.Proofs.OpParseWf.
Import ListNotations.
Local Open Scope N_scope.

(* ---------------------------------------------------------------- the float record respects the widths
   (a Rust f32/f64 bit pattern has 32/64 bits; so has every integer an `as` cast produces) *)
Definition fw (b : bool) : N := if b then 64 else 32.
Record fops_wf (F : fops) : Prop := mkFopsWf {
  fw_add : forall b x y, f_add F b x y < 2 ^ fw b;
  fw_sub : forall b x y, f_sub F b x y < 2 ^ fw b;
  fw_mul : forall b x y, f_mul F b x y < 2 ^ fw b;
  fw_div : forall b x y, f_div F b x y < 2 ^ fw b;
  fw_of_u64 : forall b x, f_of_u64 F b x < 2 ^ fw b;
  fw_to_int : forall s sg w x, f_to_int F s sg w x < 2 ^ w;
  fw_cvt : forall s x, f_cvt F s x < 2 ^ fw (negb s)
}.

(* an instance for examples: integer arithmetic on the patterns, wrapped to the width *)
Definition wrap_fops : fops :=
  mkFops (fun b x y => (x + y) mod 2 ^ fw b) (fun b x y => (x + 2 ^ fw b - y mod 2 ^ fw b) mod 2 ^ fw b)
         (fun b x y => (x * y) mod 2 ^ fw b) (fun b x y => (x / (y + 1)) mod 2 ^ fw b)
         (fun b x => x mod 2 ^ fw b) (fun _ _ w x => x mod 2 ^ w) (fun s x => x mod 2 ^ fw (negb s)).
Lemma wrap_fops_wf : fops_wf wrap_fops.
Proof. constructor; intros; cbn [wrap_fops f_add f_sub f_mul f_div f_of_u64 f_to_int f_cvt];
  apply N.mod_lt, N.pow_nonzero; lia. Qed.

(* ---------------------------------------------------------------- bounds of the container operations *)
Lemma lt_pow2_log k x : x < 2 ^ k <-> (x = 0 \/ N.log2 x < k).
Proof.
  destruct (N.eq_dec x 0) as [->|NZ].
  - split; [now left|]. intros _. apply N.neq_0_lt_0, N.pow_nonzero. lia.
  - rewrite <- N.log2_lt_pow2 by lia. split; [now right|]. now intros [?|?].
Qed.
Lemma land_lt a b k : a < 2 ^ k -> N.land a b < 2 ^ k.
Proof.
  rewrite !lt_pow2_log. intros [->|H]; [left; apply N.land_0_l|].
  destruct (N.eq_dec (N.land a b) 0); [now left|right].
  pose proof (N.log2_land a b). lia.
Qed.
Lemma lxor_lt a b k : a < 2 ^ k -> b < 2 ^ k -> N.lxor a b < 2 ^ k.
Proof.
  rewrite !lt_pow2_log. intros HA HB.
  destruct (N.eq_dec (N.lxor a b) 0); [now left|right].
  pose proof (N.log2_lxor a b).
  destruct HA as [->|HA], HB as [->|HB]; cbn [N.log2] in *; try lia.
  all: try (rewrite ?N.lxor_0_l, ?N.lxor_0_r in *; lia).
Qed.

(* ---------------------------------------------------------------- wf_value is closed under every Value operation *)
Lemma wf_intro t x : x < 2 ^ width t -> wf_value (mkV t x) = true.
Proof. intros H. unfold wf_value. cbn [vty vbits]. now apply N.ltb_lt. Qed.
Lemma wf_elim v : wf_value v = true -> vbits v < 2 ^ width (vty v).
Proof. unfold wf_value. now intros H%N.ltb_lt. Qed.

Section Closure.
Variable F : fops.
Hypothesis HF : fops_wf F.

Ltac bnd :=
  repeat match goal with |- (if ?c then _ else _) < _ => destruct c end;
  first
  [ assumption
  | apply wN_lt | apply usg_lt | apply w64_lt
  | match goal with
    | |- f_add F ?b ?x ?y < _ => exact (fw_add F HF b x y)
    | |- f_sub F ?b ?x ?y < _ => exact (fw_sub F HF b x y)
    | |- f_mul F ?b ?x ?y < _ => exact (fw_mul F HF b x y)
    | |- f_div F ?b ?x ?y < _ => exact (fw_div F HF b x y)
    | |- f_of_u64 F ?b ?x < _ => exact (fw_of_u64 F HF b x)
    | |- f_to_int F ?s ?g ?w ?x < _ => exact (fw_to_int F HF s g w x)
    | |- f_cvt F ?s ?x < _ => exact (fw_cvt F HF s x)
    end
  | apply land_lt; bnd
  | apply lor_lt; bnd
  | apply lxor_lt; bnd
  | apply shiftr_lt; bnd
  | apply div_lt; bnd
  | apply mod_lt_l; bnd
  | (eapply lt_weaken; [|eassumption]; lia)
  | (unfold two64; lia) ].

Ltac open2 a b :=
  destruct a as [ta va], b as [tb vb]; intros WA%wf_elim WB%wf_elim H; cbn [vty vbits] in *.
Ltac open1 a :=
  destruct a as [ta va]; intros WA%wf_elim H; cbn [vty vbits] in *.
Ltac close := peel; apply wf_intro; cbn [width vty vbits] in *; unfold fneg, fsign_bit;
  change (32 - 1) with 31 in *; change (64 - 1) with 63 in *; bnd.
Ltac tcbn H := cbn [vtype_eqb negb andb tclass_of width is64 vty vbits bind Bool.eqb] in H.

Lemma to_u64_lt v m x : wf_value v = true -> to_u64 v m = Ok x -> x < 2 ^ 64.
Proof.
  destruct v as [t b]. intros W%wf_elim H. unfold to_u64, widen in H. cbn [vty vbits] in *.
  destruct t; cbn [tclass_of width] in *; peel; bnd.
Qed.
Lemma from_u64_wf t x r : x < 2 ^ 64 -> from_u64 F t x = Ok r -> wf_value r = true.
Proof. intros X H. unfold from_u64 in H. destruct t; tcbn H; close. Qed.

Lemma arith_wf iop fop a b m r :
  (forall c x y, fop c x y < 2 ^ fw c) ->
  wf_value a = true -> wf_value b = true -> arith iop fop a b m = Ok r -> wf_value r = true.
Proof.
  intros FO. open2 a b. unfold arith in H. cbn [vty vbits] in H.
  destruct (vtype_eqb ta tb); cbn [negb] in H; [|discriminate].
  destruct ta; tcbn H; peel; apply wf_intro; cbn [width vty vbits]; try bnd; apply FO.
Qed.
Lemma vadd_wf a b m r : wf_value a = true -> wf_value b = true -> vadd F a b m = Ok r -> wf_value r = true.
Proof. apply arith_wf. exact (fw_add F HF). Qed.
Lemma vsub_wf a b m r : wf_value a = true -> wf_value b = true -> vsub F a b m = Ok r -> wf_value r = true.
Proof. apply arith_wf. exact (fw_sub F HF). Qed.
Lemma vmul_wf a b m r : wf_value a = true -> wf_value b = true -> vmul F a b m = Ok r -> wf_value r = true.
Proof. apply arith_wf. exact (fw_mul F HF). Qed.

Lemma vdiv_wf a b m r : wf_value a = true -> wf_value b = true -> vdiv F a b m = Ok r -> wf_value r = true.
Proof.
  open2 a b. unfold vdiv in H. destruct (div_zero_check _ _); [discriminate|]. cbn [vty vbits] in H.
  destruct (vtype_eqb ta tb); cbn [negb] in H; [|discriminate].
  destruct ta; tcbn H; close.
Qed.
Lemma vrem_wf a b m r : wf_value a = true -> wf_value b = true -> vrem a b m = Ok r -> wf_value r = true.
Proof.
  open2 a b. unfold vrem in H. destruct (rem_zero_check _ _); [discriminate|]. cbn [vty vbits] in H.
  destruct (vtype_eqb ta tb); cbn [negb] in H; [|discriminate].
  destruct ta; tcbn H; close.
Qed.
Lemma vnot_wf a m r : wf_value a = true -> vnot F a m = Ok r -> wf_value r = true.
Proof.
  intros W H. unfold vnot in H. destruct (to_u64 a m) as [x| | |] eqn:E; cbn [bind] in H; try discriminate.
  eapply from_u64_wf; [|exact H]. unfold two64. lia.
Qed.
Lemma bitop_wf op a b m r : (forall x y, x < 2 ^ 64 -> y < 2 ^ 64 -> op x y < 2 ^ 64) ->
  wf_value a = true -> wf_value b = true -> bitop F op a b m = Ok r -> wf_value r = true.
Proof.
  intros OP WA WB H. unfold bitop in H. destruct (negb _); [discriminate|].
  destruct (to_u64 a m) as [x| | |] eqn:E1; cbn [bind] in H; try discriminate.
  destruct (to_u64 b m) as [y| | |] eqn:E2; cbn [bind] in H; try discriminate.
  eapply from_u64_wf; [|exact H]. apply OP; [eapply to_u64_lt; [exact WA|exact E1] | eapply to_u64_lt; [exact WB|exact E2]].
Qed.
Lemma vand_wf a b m r : wf_value a = true -> wf_value b = true -> vand F a b m = Ok r -> wf_value r = true.
Proof. apply bitop_wf. intros. now apply land_lt. Qed.
Lemma vor_wf a b m r : wf_value a = true -> wf_value b = true -> vor F a b m = Ok r -> wf_value r = true.
Proof. apply bitop_wf. intros. now apply lor_lt. Qed.
Lemma vxor_wf a b m r : wf_value a = true -> wf_value b = true -> vxor F a b m = Ok r -> wf_value r = true.
Proof. apply bitop_wf. intros. now apply lxor_lt. Qed.
Lemma vabs_wf a m r : wf_value a = true -> vabs a m = Ok r -> wf_value r = true.
Proof. open1 a. unfold vabs in H. cbn [vty vbits] in H. destruct ta; tcbn H; close. Qed.
Lemma vneg_wf a m r : wf_value a = true -> vneg a m = Ok r -> wf_value r = true.
Proof. open1 a. unfold vneg in H. cbn [vty vbits] in H. destruct ta; tcbn H; close. Qed.
Lemma vshl_wf a b m r : wf_value a = true -> wf_value b = true -> vshl a b m = Ok r -> wf_value r = true.
Proof.
  open2 a b. unfold vshl in H. destruct (shift_length _ _) as [n| | |]; cbn [bind] in H; try discriminate.
  cbn [vty vbits] in H. destruct ta; tcbn H; close.
Qed.
Lemma vshr_wf a b m r : wf_value a = true -> wf_value b = true -> vshr a b m = Ok r -> wf_value r = true.
Proof.
  open2 a b. unfold vshr in H. destruct (shift_length _ _) as [n| | |]; cbn [bind] in H; try discriminate.
  cbn [vty vbits] in H. destruct ta; tcbn H; close.
Qed.
Lemma vshra_wf a b m r : wf_value a = true -> wf_value b = true -> vshra a b m = Ok r -> wf_value r = true.
Proof.
  open2 a b. unfold vshra in H. destruct (shift_length _ _) as [n| | |]; cbn [bind] in H; try discriminate.
  cbn [vty vbits] in H. destruct ta; tcbn H; close.
Qed.
Lemma compare_wf zc fc a b m r : compare_op zc fc a b m = Ok r -> wf_value r = true.
Proof. intros H. unfold compare_op in H. destruct (negb _); [discriminate|]. peel. apply wf_intro. cbn [width]. bnd. Qed.
Lemma from_float_wf s t x r : x < 2 ^ fw s -> from_float F s t x = Ok r -> wf_value r = true.
Proof.
  intros X H. unfold from_float in H. destruct t, s; tcbn H; cbn [fw] in X; close.
Qed.
Lemma convert_wf a t m r : wf_value a = true -> convert F a t m = Ok r -> wf_value r = true.
Proof.
  intros W H. unfold convert in H. pose proof (wf_elim _ W) as B.
  destruct (vty a) eqn:T; cbn [width] in B;
    try (destruct (to_u64 a m) as [x| | |] eqn:E; cbn [bind] in H; try discriminate;
         eapply from_u64_wf; [|exact H]; eapply to_u64_lt; eauto);
    (eapply from_float_wf; [|exact H]; exact B).
Qed.
Lemma reinterpret_wf a t m r : wf_value a = true -> reinterpret a t m = Ok r -> wf_value r = true.
Proof.
  open1 a. unfold reinterpret, widen in H. cbn [vty vbits] in H. destruct (negb _); [discriminate|].
  destruct ta, t; tcbn H; close.
Qed.
Lemma value_parse_wf be t bs r : value_parse be t bs = Ok r -> wf_value r = true.
Proof.
  intros H. unfold value_parse in H.
  destruct t; try discriminate; cbn [width] in H;
    match type of H with context [read_un ?n _ _] => destruct (read_un n be bs) as [[v rest]| | |] eqn:E end;
    cbn [bind] in H; try discriminate; inversion H; subst; apply R_un in E; apply wf_intro; cbn [width];
    (eapply N.lt_le_trans; [exact E|]); vm_compute; discriminate.
Qed.
End Closure.

(* ---------------------------------------------------------------- the abstraction of states and results *)
Section Sim.
Variable sz : N.
Variable F : fops.
Hypothesis SZ : addr_size sz.
Hypothesis HF : fops_wf F.

Definition abs_st (s : st) : st :=
  mkSt (s_bytecode s) (s_pc s) (map (canon sz) (s_stack s)) (s_estack s) (map (abs_piece sz) (s_result s))
       (s_iter s) (option_map (canon sz) (s_vres s)) (s_nops s) (s_nparse s).
Definition abs_opres (r : opres) : opres := match r with RComplete l => RComplete (abs_loc sz l) | _ => r end.
Definition mapr (r : res (opres * st)) : res (opres * st) :=
  match r with Ok (o, s) => Ok (abs_opres o, abs_st s) | Err e => Err e | Panic => Panic | OutOfFuel => OutOfFuel end.
Definition mapo (r : res (outcome * st)) : res (outcome * st) :=
  match r with Ok (o, s) => Ok (o, abs_st s) | Err e => Err e | Panic => Panic | OutOfFuel => OutOfFuel end.
Definition maps (r : res st) : res st :=
  match r with Ok s => Ok (abs_st s) | Err e => Err e | Panic => Panic | OutOfFuel => OutOfFuel end.
Definition wf_st (s : st) : Prop := Forall (fun v => wf_value v = true) (s_stack s).
(* the configuration holds Rust values: u64 object address / initial value, u32 iteration limit; faithful model *)
Definition cfg_ok (c : cfg) : Prop :=
  c_canon c = None /\ e_asz (c_enc c) = sz /\ lim_cfg c /\
  (forall v, c_obj c = Some v -> v < 2 ^ 64) /\ (forall v, c_init c = Some v -> v < 2 ^ 64).
(* the answer holds Rust values *)
Definition wf_answer (a : answer) : Prop := wf_value (a_val a) = true /\ a_u64 a < 2 ^ 64.

Ltac sfields := cbn [s_bytecode s_pc s_stack s_estack s_result s_iter s_vres s_nops s_nparse
                     set_stack set_pc set_result set_iter set_vres set_code count_op count_parse abs_st
                     c_enc c_obj c_max c_init c_cap_stack c_cap_expr c_cap_res c_canon abs_cfg] in *.

Lemma full_map {A B} (f : A -> B) cap l : full cap (map f l) = full cap l.
Proof. unfold full. now rewrite map_length. Qed.


Lemma mod_M_64 x : (x mod 2 ^ 64) mod 2 ^ (8 * sz) = x mod 2 ^ (8 * sz).
Proof. apply mod_mod_le, addr_bits, SZ. Qed.
Lemma M_le_64 : 2 ^ (8 * sz) <= 2 ^ 64.
Proof. apply N.pow_le_mono_r; [lia|apply addr_bits, SZ]. Qed.



Lemma sconst_sim z : canon sz (mkV TGeneric (usg 64 z)) = of_int sz TGeneric z.
Proof. rewrite usg_eq. unfold canon, of_int, modulus. cbn [vty vbits tbits]. f_equal. apply of_signed_mod, addr_bits, SZ. Qed.

Lemma frame_sim a off : a < 2 ^ 64 ->
  canon sz (mkV TGeneric (w64 (a + usg 64 off))) = sp_from_u64 sz F TGeneric (a mod modulus sz TGeneric + of_signed 64 off).
Proof.
  intros A. unfold canon, sp_from_u64, modulus. cbn [vty vbits tbits tclass_of]. f_equal.
  rewrite w64_eq, usg_eq. unfold wrap64. rewrite two64_eq, mod_M_64, (N.add_mod (a mod _)), N.mod_mod, <- N.add_mod; try reflexivity.
  all: apply N.pow_nonzero; lia.
Qed.

Lemma push_abs c s v : c_canon c = None ->
  maps (push c s v) = sp_push (abs_cfg sz c) (abs_st s) (canon sz v).
Proof.
  intros CC. unfold push, sp_push, norm. rewrite CC. sfields. rewrite full_map.
  destruct (full _ _); reflexivity.
Qed.
Lemma push_tail c s v : c_canon c = None ->
  mapr (let* s3 := push c s v in Ok (RIncomplete, s3)) =
  let* s3 := sp_push (abs_cfg sz c) (abs_st s) (canon sz v) in Ok (RIncomplete, s3).
Proof. intros CC. rewrite <- push_abs by exact CC. destruct (push c s v); reflexivity. Qed.

Lemma pop_abs s : pop (abs_st s) =
  match pop s with Ok (v, s1) => Ok (canon sz v, abs_st s1) | Err e => Err e | Panic => Panic | OutOfFuel => OutOfFuel end.
Proof. unfold pop. sfields. destruct (s_stack s); reflexivity. Qed.

Lemma push_piece_abs c s p : maps (push_piece c s p) = push_piece (abs_cfg sz c) (abs_st s) (abs_piece sz p).
Proof. unfold push_piece. sfields. rewrite full_map. destruct (full _ _); reflexivity. Qed.

Lemma wf_pop s v r : wf_st s -> s_stack s = v :: r -> wf_value v = true /\ wf_st (set_stack s r).
Proof. unfold wf_st. intros W E. rewrite E in W. inversion W; subst. split; assumption. Qed.
(* a computed value is pushed: on a failure both sides stop with it *)
Lemma res_push_tail c s (r : res value) sr : c_canon c = None -> cres sz r = sr ->
  mapr (let* q := r in let* s3 := push c s q in Ok (RIncomplete, s3)) =
  let* q := sr in let* s3 := sp_push (abs_cfg sz c) (abs_st s) q in Ok (RIncomplete, s3).
Proof. intros CC <-. destruct r; cbn [cres bind mapr]; try reflexivity. now apply push_tail. Qed.
Lemma res_push_abs c s (r : res value) sr : c_canon c = None -> cres sz r = sr ->
  maps (let* q := r in push c s q) = let* q := sr in sp_push (abs_cfg sz c) (abs_st s) q.
Proof. intros CC <-. destruct r; cbn [cres bind maps]; try reflexivity. now apply push_abs. Qed.

(* pop on both sides: the popped value and the remaining stack are well-formed *)
Ltac dpop v :=
  rewrite pop_abs;
  match goal with |- context [pop ?s] =>
    let P := fresh "P" in let r := fresh "r" in let E := fresh "E" in let Wv := fresh "Wv" in let Ws := fresh "Ws" in
    destruct (pop s) as [[v ?]| | |] eqn:P; cbn [bind mapr mapo maps]; try reflexivity;
    apply pop_inv in P; destruct P as (r & E & ->);
    match goal with W : wf_st s |- _ => destruct (wf_pop s v r W E) as (Wv & Ws) end end.

Lemma binop_sim c s f sp : c_canon c = None -> wf_st s -> agrees2 sz f sp ->
  mapr (binop c (amask sz) s f) = sp_binop (abs_cfg sz c) (abs_st s) sp.
Proof. intros CC W AG. unfold binop, sp_binop. dpop v1. dpop v2. apply res_push_tail; [exact CC|now apply AG]. Qed.
Lemma unop_sim c s f sp : c_canon c = None -> wf_st s -> agrees1 sz f sp ->
  mapr (unop c (amask sz) s f) = sp_unop (abs_cfg sz c) (abs_st s) sp.
Proof. intros CC W AG. unfold unop, sp_unop. dpop v. apply res_push_tail; [exact CC|now apply AG]. Qed.

Lemma sp_decode_eq dbg e pc : parse_op dbg e pc = sp_decode e pc.
Proof.
  destruct pc as [|opc bs]; [reflexivity|]. cbn [sp_decode]. rewrite <- decode_table_lemma.
  destruct dbg; [reflexivity|]. exact (eq_sym (parse_op_dbg e (opc :: bs))).
Qed.

Lemma compute_pc_abs s t : compute_pc (abs_st s) t = compute_pc s t.
Proof. reflexivity. Qed.
Lemma nth_error_len {A} (l : list A) i : N.of_nat (length l) <=? i = false -> nth_error l (N.to_nat i) <> None.
Proof. intros H. apply nth_error_Some. lia. Qed.
Lemma nth_error_len2 {A} (l : list A) i : N.of_nat (length l) <=? i = true -> nth_error l (N.to_nat i) = None.
Proof. intros H. apply nth_error_None. lia. Qed.

Ltac dpush CC :=
  match goal with |- context [push ?cc ?ss ?vv] =>
    let H := fresh "PA" in let sn := fresh "sn" in pose proof (push_abs cc ss vv CC) as H;
    destruct (push cc ss vv) as [sn| | |]; cbn [maps] in H; rewrite <- H; cbn [bind mapr mapo maps]; try reflexivity end.
Ltac du64 :=
  match goal with |- context [to_u64 ?v (amask sz)] =>
    match goal with Wv : wf_value v = true |- _ => rewrite (to_u64_sim sz SZ v Wv) end;
    destruct (sp_to_u64 sz (canon sz v)); cbn [bind mapr mapo maps]; try reflexivity end.

Lemma piece_tail c s a b loc : abs_loc sz loc = loc ->
  mapr (let* s2 := push_piece c s (mkPiece a b loc) in Ok (RPiece, s2)) =
  let* s2 := push_piece (abs_cfg sz c) (abs_st s) (mkPiece a b loc) in Ok (RPiece, s2).
Proof.
  intros L. pose proof (push_piece_abs c s (mkPiece a b loc)) as PP. unfold abs_piece in PP. cbn [p_size p_bit_offset p_loc] in PP.
  rewrite L in PP. rewrite <- PP. destruct (push_piece c s _); reflexivity.
Qed.

Lemma step_sim dbg c s : cfg_ok c -> wf_st s ->
  mapr (evaluate_one_operation F dbg c (amask sz) s) = spec_one sz F (abs_cfg sz c) (abs_st s).
Proof.
  intros (CC & ASZ & LIM & OBJ & INI) W.
  unfold evaluate_one_operation, spec_one. rewrite sp_decode_eq.
  change (c_enc (abs_cfg sz c)) with (c_enc c).
  change (s_pc (count_op (count_parse (abs_st s)))) with (s_pc (count_op (count_parse s))).
  destruct (sp_decode (c_enc c) (s_pc (count_op (count_parse s)))) as [[o pc']| | |] eqn:P; cbn [bind mapr mapo maps]; try reflexivity.
  assert (WO : wf_op (c_enc c) o).
  { rewrite <- (sp_decode_eq true) in P. eapply parse_wf; [|exact P]. rewrite ASZ. destruct SZ as [->|[->|[->| ->]]]; lia. }
  set (s1 := set_pc (count_op (count_parse s)) pc').
  change (set_pc (count_op (count_parse (abs_st s))) pc') with (abs_st s1).
  assert (W1 : wf_st s1) by exact W.
  clearbody s1. clear P W.
  destruct o; cbn [spec_step]; try reflexivity;
    try (apply binop_sim; auto with vspec); try (apply unop_sim; auto with vspec).
  - (* deref *) change (c_enc (abs_cfg sz c)) with (c_enc c). destruct (_ <? _); [reflexivity|].
    dpop v. du64. destruct space; [|reflexivity]. dpop v2. du64.
  - (* drop *) dpop v.
  - (* pick *) cbn [abs_st s_stack]. rewrite nth_error_map.
    destruct (N.of_nat (length (s_stack s1)) <=? index) eqn:L.
    + rewrite (nth_error_len2 _ _ L). reflexivity.
    + pose proof (nth_error_len _ _ L) as NE. destruct (nth_error (s_stack s1) (N.to_nat index)) as [v|]; [|congruence].
      cbn [option_map]. apply push_tail. exact CC.
  - (* swap *) dpop v. dpop v2. dpush CC. apply push_tail. exact CC.
  - (* rot *) dpop v. dpop v2. dpop v3. dpush CC. dpush CC. apply push_tail. exact CC.
  - (* plus_uconst *) dpop v.
    pose proof (from_u64_sim sz F (vty v) value) as FU.
    destruct (from_u64 F (vty v) value) as [rhs| | |] eqn:EQ; cbn [cres] in FU; try discriminate FU. cbn [bind].
    inversion FU as [FU']. rewrite canon_ty, <- FU'. apply res_push_tail; [exact CC|].
    apply (vadd_spec sz SZ F); [exact SZ|exact Wv|]. eapply from_u64_wf; [exact HF| |exact EQ]. exact WO.
  - (* bra *) dpop v. du64. destruct (negb _); [|reflexivity]. rewrite compute_pc_abs.
    destruct (compute_pc _ target); try reflexivity.
  - (* skip *) rewrite compute_pc_abs. destruct (compute_pc _ target); reflexivity.
  - (* constu *) rewrite push_tail by exact CC. reflexivity.
  - (* consts *) rewrite push_tail by exact CC. rewrite sconst_sim. reflexivity.
  - (* push_object_address *) cbn [abs_cfg c_obj]. destruct (c_obj c) as [v|]; cbn [option_map]; [|reflexivity].
    rewrite push_tail by exact CC. reflexivity.
  - (* tls *) dpop v. du64.
  - (* piece *) change (s_stack (abs_st s1)) with (map (canon sz) (s_stack s1)).
    destruct (s_stack s1) as [|v0 r0] eqn:ES; cbn [map bind].
    + apply piece_tail. reflexivity.
    + dpop v. du64. apply piece_tail. reflexivity.
  - (* stack_value *) dpop v.
Qed.

(* ---------------------------------------------------------------- well-formedness is preserved by one operation / one answer *)
Ltac cl2 L := eapply L; [| |eassumption]; assumption.
Ltac cl1 L := eapply L; [|eassumption]; assumption.
Ltac wfv :=
  match goal with
  | |- wf_value _ = true =>
    first [ assumption
          | cl2 (vadd_wf F HF) | cl2 (vsub_wf F HF) | cl2 (vmul_wf F HF) | cl2 (vdiv_wf F HF) | cl2 vrem_wf
          | cl2 (vand_wf F HF) | cl2 (vor_wf F HF) | cl2 (vxor_wf F HF)
          | cl1 (vnot_wf F HF) | cl1 vabs_wf | cl1 vneg_wf
          | cl2 vshl_wf | cl2 vshr_wf | cl2 vshra_wf
          | (eapply compare_wf; eassumption)
          | cl1 (convert_wf F HF) | cl1 reinterpret_wf
          | (eapply value_parse_wf; eassumption)
          | match goal with |- wf_value (mkV _ _) = true =>
              apply wf_intro; cbn [width]; first [assumption | apply usg_lt | apply w64_lt | (unfold two64; lia) | eauto] end ]
  end.

Lemma eoo_wf dbg c s r s' : cfg_ok c -> wf_st s ->
  evaluate_one_operation F dbg c (amask sz) s = Ok (r, s') -> wf_st s'.
Proof.
  intros (CC & ASZ & LIM & OBJ & INI) W H. unfold evaluate_one_operation in H.
  destruct (parse_op dbg (c_enc c) (s_pc (count_op (count_parse s)))) as [[o pc']| | |] eqn:P; cbn [bind] in H; try discriminate H.
  assert (WO : wf_op (c_enc c) o).
  { eapply parse_wf; [|exact P]. rewrite ASZ. destruct SZ as [->|[->|[->| ->]]]; lia. }
  clear P. unfold wf_st in *. fields.
  destruct o; unfold binop, unop, veq, vge, vgt, vle, vlt, vne in H; peel; invert_prims; fields;
    repeat match goal with E : s_stack _ = _ |- _ => fields; rewrite E in *; clear E end; fields;
    forall_inv; unfold norm; rewrite ?CC; repeat (apply Forall_cons; [try wfv|]); auto.
  - (* pick *) match goal with E : nth_error _ _ = Some _ |- _ => apply nth_error_In in E; rewrite Forall_forall in W; now apply W end.
  - (* plus_uconst *) eapply (vadd_wf F HF); [| |eassumption]; [assumption|]. eapply (from_u64_wf F HF); [|eassumption]. exact WO.
Qed.

Lemma resume_apply_wf c w a s s' : cfg_ok c -> wf_answer a -> wf_st s ->
  resume_apply F c (amask sz) w a s = Ok s' -> wf_st s'.
Proof.
  intros (CC & ASZ & LIM & OBJ & INI) [WA WU] W H. unfold resume_apply in H. unfold wf_st in *.
  destruct w; peel; invert_prims; fields;
    repeat match goal with E : s_stack _ = _ |- _ => fields; rewrite E in *; clear E end; fields;
    forall_inv; unfold norm; rewrite ?CC; repeat (apply Forall_cons; [try wfv|]); auto.
  - (* register *) eapply (vadd_wf F HF); [| |eassumption]; [assumption|]. eapply (from_u64_wf F HF); [|eassumption]. apply usg_lt.
Qed.

(* ---------------------------------------------------------------- the loop *)
Definition good (c : cfg) (s : st) : Prop := inv s /\ lim_ok c s /\ wf_st s.

Lemma eoe_abs s : end_of_expression (abs_st s) = (fst (end_of_expression s), abs_st (snd (end_of_expression s))).
Proof.
  unfold end_of_expression. change (s_pc (abs_st s)) with (s_pc s). change (s_bytecode (abs_st s)) with (s_bytecode s).
  change (s_estack (abs_st s)) with (s_estack s). destruct (eoe_loop _ _ _) as [b [[pc bc] es]]. reflexivity.
Qed.
Lemma eoe_good c s : good c s -> good c (snd (end_of_expression s)).
Proof.
  intros (I & L & W). destruct (eoe_ok s I) as (I' & IT & _). split; [exact I'|]. split.
  - unfold lim_ok in *. now rewrite IT.
  - unfold wf_st. now rewrite eoe_stack.
Qed.
Lemma count_sim dbg c s : lim_ok c s ->
  maps (count_iteration dbg c s) = sp_count_iteration (abs_cfg sz c) (abs_st s).
Proof.
  unfold count_iteration, sp_count_iteration, lim_ok. change (c_max (abs_cfg sz c)) with (c_max c).
  change (s_iter (abs_st s)) with (s_iter s). destruct (c_max c) as [n|]; [|reflexivity]. intros [NB L].
  destruct (n <=? s_iter s) eqn:E; [reflexivity|]. rewrite chk_add_iter by lia. reflexivity.
Qed.
Lemma count_good dbg c s s2 : good c s -> count_iteration dbg c s = Ok s2 -> good c s2.
Proof.
  intros (I & L & W) H. pose proof (count_iteration_spec dbg c s L) as CS. rewrite H in CS.
  destruct CS as [[_ ->]|(n & MX & LT & ->)]; [exact (conj I (conj L W))|].
  split; [exact I|]. split; [|exact W]. unfold lim_ok in *. rewrite MX in *. fields. lia.
Qed.
Lemma eoo_good dbg c s r s' : cfg_ok c -> good c s ->
  evaluate_one_operation F dbg c (amask sz) s = Ok (r, s') -> good c s'.
Proof.
  intros CK (I & L & W) H. destruct (eoo_ok F dbg c (amask sz) s r s' I H) as (I' & CT). unfold ctl in CT. inversion CT as [[A B C D E]].
  split; [exact I'|]. split; [unfold lim_ok in *; now rewrite C|]. eapply eoo_wf; eauto.
Qed.
Lemma push_piece_good c s p s' : good c s -> push_piece c s p = Ok s' -> good c s'.
Proof. intros (I & L & W) H. apply push_piece_inv in H. subst. exact (conj I (conj L W)). Qed.

Lemma finish_sim c s : wf_st s -> mapo (finish c (amask sz) s) = sp_finish sz (abs_cfg sz c) (abs_st s).
Proof.
  intros W. unfold finish, sp_finish. change (s_result (abs_st s)) with (map (abs_piece sz) (s_result s)).
  destruct (s_result s); cbn [map]; [|reflexivity].
  dpop v. du64.
  change (set_vres (abs_st (set_stack s r)) (Some (canon sz v))) with (abs_st (set_vres (set_stack s r) (Some v))).
  match goal with |- context [push_piece c ?s2 ?p] =>
    pose proof (push_piece_abs c s2 p) as PP; destruct (push_piece c s2 p); cbn [maps] in PP;
    change (abs_piece sz p) with p in PP; rewrite <- PP; reflexivity end.
Qed.

Lemma ei_sim dbg c : cfg_ok c -> forall fuel s, good c s ->
  mapo (evaluate_internal F fuel dbg c (amask sz) s) = sp_internal sz F fuel (abs_cfg sz c) (abs_st s).
Proof.
  intros CK. induction fuel as [|fuel IH]; intros s G; [reflexivity|].
  cbn [evaluate_internal sp_internal]. rewrite eoe_abs.
  pose proof (eoe_good c s G) as G1.
  destruct (end_of_expression s) as [e s1]. cbn [fst snd] in *.
  destruct e; [apply finish_sim; apply G1|].
  rewrite <- (count_sim dbg c s1) by apply G1.
  destruct (count_iteration dbg c s1) as [s2| | |] eqn:CI; cbn [bind maps mapo]; try reflexivity.
  pose proof (count_good dbg c s1 s2 G1 CI) as G2.
  rewrite <- (step_sim dbg c s2 CK) by apply G2.
  destruct (evaluate_one_operation F dbg c (amask sz) s2) as [[r s3]| | |] eqn:EO; cbn [bind mapr mapo]; try reflexivity.
  pose proof (eoo_good dbg c s2 r s3 CK G2 EO) as G3.
  destruct r; cbn [abs_opres].
  - apply IH. exact G3.
  - rewrite eoe_abs. pose proof (eoe_good c s3 G3) as G4. destruct (end_of_expression s3) as [e4 s4]. cbn [fst snd] in *.
    change (s_result (abs_st s4)) with (map (abs_piece sz) (s_result s4)).
    replace (match map (abs_piece sz) (s_result s4) with [] => true | _ :: _ => false end)
      with (match s_result s4 with [] => true | _ :: _ => false end) by (destruct (s_result s4); reflexivity).
    destruct (e4 && _); [reflexivity|]. apply IH. exact G4.
  - rewrite eoe_abs. pose proof (eoe_good c s3 G3) as G4. destruct (end_of_expression s3) as [e4 s4]. cbn [fst snd] in *.
    destruct e4.
    + change (s_result (abs_st s4)) with (map (abs_piece sz) (s_result s4)).
      destruct (s_result s4) eqn:RS; cbn [map]; [|reflexivity].
      pose proof (push_piece_abs c s4 (mkPiece None None l)) as PP.
      destruct (push_piece c s4 (mkPiece None None l)) as [s5| | |] eqn:PE; cbn [maps] in PP;
        change (abs_piece sz (mkPiece None None l)) with (mkPiece None None (abs_loc sz l)) in PP; rewrite <- PP;
        cbn [bind mapo]; try reflexivity.
      apply IH. eapply push_piece_good; eauto.
    + cbv zeta. change (c_enc (abs_cfg sz c)) with (c_enc c).
      change (s_pc (count_parse (abs_st s4))) with (s_pc (count_parse s4)).
      rewrite (sp_decode_eq dbg).
      destruct (sp_decode (c_enc c) (s_pc (count_parse s4))) as [[o2 pc2]| | |] eqn:P2; cbn [bind mapo]; try reflexivity.
      rewrite <- (sp_decode_eq dbg) in P2.
      destruct (parse_op_good dbg (c_enc c) (s_pc (count_parse s4))) as (_ & _ & PG). specialize (PG _ _ P2).
      destruct (parse_op_consumes dbg _ _ _ _ P2) as (b0 & u0 & EQ).
      destruct G4 as (I4 & L4 & W4).
      assert (G5 : good c (set_pc (count_parse s4) pc2)).
      { split; [|split; [exact L4|exact W4]]. destruct I4 as [I4a I4b]. split; [|exact I4b]. fields. eapply sfx_trans; eauto. }
      rewrite !match_piece. destruct (as_piece o2) as [[size_in_bits bit_offset]|].
      2: { destruct I4 as [I4a I4b]. fields. apply sfx_length in I4a. fields. rewrite EQ in I4a. cbn [length] in I4a.
           rewrite app_length in I4a. rewrite chk_sub_ok by lia. cbn [bind]. rewrite chk_sub_ok by lia. reflexivity. }
      pose proof (push_piece_abs c (set_pc (count_parse s4) pc2) (mkPiece (Some size_in_bits) bit_offset l)) as PP.
      destruct (push_piece c (set_pc (count_parse s4) pc2) (mkPiece (Some size_in_bits) bit_offset l)) as [s5| | |] eqn:PE;
        cbn [maps] in PP;
        change (abs_piece sz (mkPiece (Some size_in_bits) bit_offset l)) with (mkPiece (Some size_in_bits) bit_offset (abs_loc sz l)) in PP;
        change (abs_st (set_pc (count_parse s4) pc2)) with (set_pc (count_parse (abs_st s4)) pc2) in PP; rewrite <- PP;
        cbn [bind mapo]; try reflexivity.
      apply IH. eapply push_piece_good; eauto.
  - reflexivity.
Qed.

Lemma ei_good dbg c fuel s o s' : cfg_ok c -> good c s ->
  evaluate_internal F fuel dbg c (amask sz) s = Ok (o, s') -> good c s'.
Proof.
  intros CK. apply (ei_ind F dbg c (amask sz) (good c) (fun _ => good c)).
  - apply eoe_good.
  - apply count_good.
  - intros s0 r s3. now apply eoo_good.
  - intros s0 o2 pc2 (I4 & L4 & W4) P2. destruct (parse_op_good dbg (c_enc c) (s_pc (count_parse s0))) as (_ & _ & PG).
    split; [|split; [exact L4|exact W4]]. destruct I4 as [I4a I4b]. split; [|exact I4b]. fields. eapply sfx_trans; eauto.
  - intros s0 size off loc s5. apply push_piece_good.
  - intros s0 o0 s0' (I1 & L1 & W1) H. unfold finish in H.
    destruct (s_result s0); [|inversion H; subst; exact (conj I1 (conj L1 W1))].
    peel; invert_prims. unfold good, inv, lim_ok, wf_st in *. fields.
    match goal with E : s_stack _ = _ |- _ => rewrite E in W1 end. inversion W1; subst. auto.
  - intros s0 w rq G. exact G.
  - intros s0 loc s5 G _ PP. destruct (push_piece_good c s0 _ s5 G PP) as (_ & L5 & W5).
    split; [split; [exists (s_bytecode s5); symmetry; apply app_nil_r|constructor]|split; assumption].
Qed.

Lemma value_parse_canon be t bs x : value_parse be t bs = Ok x -> canon sz x = x.
Proof.
  intros H. unfold value_parse in H. destruct t; try discriminate H;
    match type of H with context [read_un ?n _ _] => destruct (read_un n be bs) as [[v rest]| | |] end;
    cbn [bind] in H; try discriminate H; inversion H; reflexivity.
Qed.

Lemma resume_apply_sim c w a s : cfg_ok c -> wf_answer a -> wf_st s ->
  maps (resume_apply F c (amask sz) w a s) = sp_resume_apply sz F (abs_cfg sz c) w (abs_answer sz a) (abs_st s).
Proof.
  intros (CC & ASZ & LIM & OBJ & INI) [WA WU] W.
  unfold resume_apply, sp_resume_apply. cbn [abs_answer a_val a_u64 a_bytes a_ty].
  destruct w; try (apply push_abs; exact CC).
  - (* register *)
    pose proof (from_u64_sim sz F (vty (a_val a)) (usg 64 offset)) as FU.
    destruct (from_u64 F (vty (a_val a)) (usg 64 offset)) as [rhs| | |] eqn:EQ; cbn [cres] in FU; try discriminate FU. cbn [bind].
    inversion FU as [FU']. rewrite canon_ty, <- usg_eq, <- FU'. apply res_push_abs; [exact CC|].
    apply (vadd_spec sz SZ F); [exact SZ|exact WA|]. eapply from_u64_wf; [exact HF| |exact EQ]. apply usg_lt.
  - (* frame base *) rewrite push_abs by exact CC. rewrite frame_sim by exact WU. reflexivity.
  - (* at_location *) destruct (a_bytes a); [reflexivity|]. change (s_estack (abs_st s)) with (s_estack s).
    change (c_cap_expr (abs_cfg sz c)) with (c_cap_expr c). destruct (full _ _); reflexivity.
  - (* typed literal *) change (c_enc (abs_cfg sz c)) with (c_enc c).
    destruct (value_parse (e_be (c_enc c)) (a_ty a) v) as [x| | |] eqn:VP; cbn [bind maps]; try reflexivity.
    rewrite push_abs by exact CC. now rewrite (value_parse_canon _ _ _ _ VP).
  - (* convert *) dpop v. apply res_push_abs; [exact CC|now apply convert_spec].
  - (* reinterpret *) dpop v. apply res_push_abs; [exact CC|now apply reinterpret_spec].
Qed.

Lemma resume_sim dbg c fuel w a s : cfg_ok c -> wf_answer a -> good c s ->
  mapo (resume F fuel dbg c (amask sz) w a s) = sp_resume sz F fuel (abs_cfg sz c) w (abs_answer sz a) (abs_st s) /\
  forall o s', resume F fuel dbg c (amask sz) w a s = Ok (o, s') -> good c s'.
Proof.
  intros CK WA (I & L & W). unfold resume, sp_resume.
  rewrite <- (resume_apply_sim c w a s CK WA W).
  destruct (resume_apply F c (amask sz) w a s) as [s1| | |] eqn:RA; cbn [bind maps mapo]; try (split; [reflexivity|discriminate]).
  assert (G1 : good c s1).
  { destruct (resume_apply_ok F c (amask sz) w a s s1 I RA) as (I1 & J1 & _). split; [exact I1|]. split.
    - unfold lim_ok in *. now rewrite J1.
    - eapply resume_apply_wf; eauto. }
  split; [apply ei_sim; assumption|]. intros o s' E. eapply ei_good; eauto.
Qed.

Lemma drive_sim dbg c fuel : cfg_ok c -> forall answers r, Forall wf_answer answers ->
  (forall o s, r = Ok (o, s) -> good c s) ->
  abs_trace sz (drive F fuel dbg c (amask sz) r answers) =
  sp_drive sz F fuel (abs_cfg sz c) (mapo r) (map (abs_answer sz) answers).
Proof.
  intros CK. induction answers as [|a rest IH]; intros r WA RG.
  - destruct r as [[[|w rq] s]| e | |]; cbn [drive sp_drive mapo map]; try reflexivity.
    unfold abs_trace. cbn [fst snd abs_final]. change (s_result (abs_st s)) with (map (abs_piece sz) (s_result s)).
    now rewrite map_rev.
  - inversion WA as [|? ? WA1 WA2]; subst.
    destruct r as [[[|w rq] s]| e | |]; cbn [drive sp_drive mapo map]; try reflexivity.
    + unfold abs_trace. cbn [fst snd abs_final]. change (s_result (abs_st s)) with (map (abs_piece sz) (s_result s)).
      now rewrite map_rev.
    + destruct (resume_sim dbg c fuel w a s CK WA1 (RG _ _ eq_refl)) as [RS RGD].
      specialize (IH (resume F fuel dbg c (amask sz) w a s) WA2 RGD). rewrite RS in IH. rewrite <- IH.
      destruct (drive F fuel dbg c (amask sz) (resume F fuel dbg c (amask sz) w a s) rest) as [rqs f]. reflexivity.
Qed.

Lemma new_mask_amask dbg : new_mask dbg sz = Ok (amask sz).
Proof. destruct SZ as [->|[->|[->| ->]]]; reflexivity. Qed.

Lemma run_sim dbg c fuel program answers : cfg_ok c -> Forall wf_answer answers ->
  abs_trace sz (run F fuel dbg c program answers) = spec_run sz F fuel c program answers.
Proof.
  intros CK WA. pose proof CK as (CC & ASZ & LIM & OBJ & INI). unfold run, spec_run. rewrite ASZ, new_mask_amask.
  assert (G0 : good c (start c program)).
  { split; [apply start_inv|split].
    - unfold lim_ok, lim_cfg in *. destruct (c_max c); [cbn; lia|exact Logic.I].
    - unfold wf_st, start, norm. rewrite CC. fields. destruct (c_init c) as [v|]; repeat constructor.
      apply wf_intro, INI. reflexivity. }
  rewrite drive_sim; [|exact CK|exact WA|].
  - f_equal. unfold evaluate, sp_evaluate. cbn [abs_cfg c_init]. unfold start, norm in G0. rewrite CC in G0.
    destruct (c_init c) as [v|]; cbn [option_map bind].
    + pose proof (push_abs c (initial_state program) (mkV TGeneric v) CC) as PA.
      change (abs_st (initial_state program)) with (initial_state program) in PA.
      change (canon sz (mkV TGeneric v)) with (mkV TGeneric (v mod modulus sz TGeneric)) in PA. rewrite <- PA.
      destruct (push c (initial_state program) (mkV TGeneric v)) as [s1| | |] eqn:PE; cbn [bind maps mapo]; try reflexivity.
      apply push_inv in PE. subst s1. unfold norm. rewrite CC. apply ei_sim; [exact CK|exact G0].
    + change (initial_state program) with (abs_st (initial_state program)) at 2. apply ei_sim; [exact CK|exact G0].
  - intros o s' E. destruct (evaluate_start F fuel dbg c (amask sz) program) as [E1|E1]; rewrite E1 in E; [discriminate|].
    now apply (ei_good dbg c fuel _ o s' CK G0).
Qed.
End Sim.

(* the configuration of the examples refines_ex_hyp, refines_ex_run, mask_invariance_ex (Properties/C07.v): 4-byte
   target, object address 2^32+5, iteration limit 40, initial value 2^32+2 *)
Definition refine_ex_cfg : cfg := mkCfg (mkEnc 4 false 4 false) (Some 4294967301) (Some 40) (Some 4294967298) None None None None.
