(* Proofs/WidthProofs.v — arithmetic modulo 2^k and two's complement (Base/Ints.v to_signed, of_signed)
   at a variable width k. *)
From Coq Require Import NArith ZArith Bool Lia ZifyBool.
Require Import GV.Base.Ints GV.Proofs.Lib.
Local Open Scope N_scope.

Lemma pow2_double k : 2 ^ (k + 1) = 2 * 2 ^ k.
Proof. rewrite N.pow_add_r. change (2 ^ 1) with 2. lia. Qed.
Lemma pow2_half k : 1 <= k -> 2 ^ k = 2 * 2 ^ (k - 1).
Proof. intros K. rewrite <- pow2_double. f_equal. lia. Qed.
Lemma pow2_split j k : j <= k -> 2 ^ k = 2 ^ (k - j) * 2 ^ j.
Proof. intros L. rewrite <- N.pow_add_r. f_equal. lia. Qed.
Lemma ones_pred k : N.ones k = 2 ^ k - 1.
Proof. rewrite N.ones_equiv. lia. Qed.

Lemma lt_weaken x j k : j <= k -> x < 2 ^ j -> x < 2 ^ k.
Proof. intros L H. eapply N.lt_le_trans; [exact H|]. apply N.pow_le_mono_r; lia. Qed.
Lemma div_lt a b k : a < 2 ^ k -> a / b < 2 ^ k.
Proof.
  intros H. destruct (N.eq_dec b 0) as [->|NZ]; [destruct a; cbn; lia|].
  pose proof (N.div_le_upper_bound a b a NZ). assert (a <= b * a) by nia. lia.
Qed.
Lemma mod_lt_l a b k : a < 2 ^ k -> a mod b < 2 ^ k.
Proof. intros H. destruct (N.eq_dec b 0) as [->|NZ]; [destruct a; cbn; lia|]. pose proof (N.mod_le a b NZ). lia. Qed.
Lemma shiftr_lt a n k : a < 2 ^ k -> N.shiftr a n < 2 ^ k.
Proof. intros H. rewrite N.shiftr_div_pow2. now apply div_lt. Qed.

Lemma mod_mod_le j k x : j <= k -> (x mod 2 ^ k) mod 2 ^ j = x mod 2 ^ j.
Proof.
  intros L. pose proof (pow2_pos j). pose proof (pow2_pos (k - j)).
  rewrite (pow2_split j k L), N.mul_comm, N.mod_mul_r, N.mul_comm, N.mod_add, N.mod_mod; lia.
Qed.

(* ---- of_signed k: the residue of an integer modulo 2^k ---- *)
Lemma of_signed_N k x : of_signed k (Z.of_N x) = x mod 2 ^ k.
Proof. unfold of_signed. rewrite <- N2Z.inj_mod by (apply N.pow_nonzero; lia). apply N2Z.id. Qed.
Lemma of_signed_lt k z : of_signed k z < 2 ^ k.
Proof.
  unfold of_signed. pose proof (pow2_pos k).
  pose proof (Z.mod_pos_bound z (Z.of_N (2 ^ k)) ltac:(lia)). lia.
Qed.
Lemma of_signed_mod j k z : j <= k -> of_signed k z mod 2 ^ j = of_signed j z.
Proof.
  intros L. pose proof (pow2_pos j). pose proof (pow2_pos k).
  unfold of_signed. apply N2Z.inj. rewrite N2Z.inj_mod, !Z2N.id by (try apply Z.mod_pos_bound; lia).
  rewrite (pow2_split j k L), N2Z.inj_mul, Z.mul_comm, Z.rem_mul_r, Z.mul_comm, Z.mod_add, Z.mod_mod; lia.
Qed.
Lemma N_mod_eqm k x : (Z.of_N (x mod 2 ^ k) mod Z.of_N (2 ^ k) = Z.of_N x mod Z.of_N (2 ^ k))%Z.
Proof. pose proof (pow2_pos k). rewrite N2Z.inj_mod by lia. apply Z.mod_mod. lia. Qed.

(* wrapping_add of a sign-extended offset *)
Lemma add_of_signed k x t : (x + of_signed k t) mod 2 ^ k = of_signed k (Z.of_N x + t).
Proof.
  pose proof (pow2_pos k). rewrite <- of_signed_N, N2Z.inj_add. unfold of_signed.
  rewrite Z2N.id by (apply Z.mod_pos_bound; lia). now rewrite Zplus_mod_idemp_r.
Qed.

(* ---- to_signed k: the signed reading of a k-bit pattern ---- *)
Lemma to_signed_eqm k x : (to_signed k x mod Z.of_N (2 ^ k) = Z.of_N x mod Z.of_N (2 ^ k))%Z.
Proof.
  pose proof (pow2_pos k). unfold to_signed, wrapN. destruct (_ <? _).
  - apply N_mod_eqm.
  - rewrite Zminus_mod, Z_mod_same_full, Z.sub_0_r, Z.mod_mod by lia. apply N_mod_eqm.
Qed.
Lemma of_signed_to_signed k x : of_signed k (to_signed k x) = x mod 2 ^ k.
Proof. rewrite <- of_signed_N. unfold of_signed. now rewrite to_signed_eqm. Qed.
Lemma to_signed_mod k v : to_signed k (v mod 2 ^ k) = to_signed k v.
Proof. unfold to_signed, wrapN. now rewrite N.mod_mod by (apply N.pow_nonzero; lia). Qed.
Lemma to_signed_cases k x : x < 2 ^ k ->
  to_signed k x = if x <? 2 ^ (k - 1) then Z.of_N x else (Z.of_N x - Z.of_N (2 ^ k))%Z.
Proof. intros X. unfold to_signed. now rewrite wrapN_small. Qed.
Lemma to_signed_eq0 k x : 1 <= k -> x < 2 ^ k -> (to_signed k x =? 0)%Z = (x =? 0).
Proof.
  intros K X. rewrite to_signed_cases by exact X. pose proof (pow2_pos (k - 1)).
  destruct (x <? 2 ^ (k - 1)) eqn:E; lia.
Qed.
Lemma to_signed_nonneg k x : x < 2 ^ k -> (0 <= to_signed k x)%Z -> to_signed k x = Z.of_N x.
Proof. intros X. rewrite to_signed_cases by exact X. destruct (x <? 2 ^ (k - 1)); lia. Qed.
Lemma to_signed_of_signed k z : 1 <= k -> in_signed k z = true -> to_signed k (of_signed k z) = z.
Proof.
  intros K R. unfold in_signed in R. rewrite to_signed_cases by apply of_signed_lt. unfold of_signed.
  rewrite (pow2_half k K) in *. pose proof (pow2_pos (k - 1)). set (h := 2 ^ (k - 1)) in *. clearbody h.
  assert (M : (z mod Z.of_N (2 * h))%Z = if (0 <=? z)%Z then z else (z + Z.of_N (2 * h))%Z).
  { destruct (0 <=? z)%Z eqn:S; [apply Z.mod_small; lia|]. symmetry. apply Z.mod_unique_pos with (q := (-1)%Z); lia. }
  rewrite M. destruct (0 <=? z)%Z eqn:S; destruct (_ <? h) eqn:E; lia.
Qed.

(* ---- bitwise complement in a j-bit field, computed in a 64-bit container ---- *)
Lemma of_signed_not j y : y < 2 ^ j -> of_signed j (-1 - Z.of_N y) = 2 ^ j - 1 - y.
Proof.
  intros Y. unfold of_signed.
  replace (-1 - Z.of_N y)%Z with (Z.of_N (2 ^ j - 1 - y) + (-1) * Z.of_N (2 ^ j))%Z by lia.
  rewrite Z.mod_add, Z.mod_small by lia. apply N2Z.id.
Qed.
Lemma of_signed_m1 j : of_signed j (-1) = 2 ^ j - 1.
Proof. rewrite <- (N.sub_0_r (2 ^ j - 1)). apply (of_signed_not j 0), pow2_pos. Qed.
Lemma not_mod j x : j <= 64 -> x < 2 ^ 64 -> (2 ^ 64 - 1 - x) mod 2 ^ j = 2 ^ j - 1 - x mod 2 ^ j.
Proof.
  intros J X. rewrite <- (of_signed_not 64 x X), (of_signed_mod j 64 _ J).
  rewrite <- of_signed_not by (apply N.mod_lt, N.pow_nonzero; lia).
  unfold of_signed. now rewrite Zminus_mod, <- N_mod_eqm, <- Zminus_mod.
Qed.

(* ---- single bits ---- *)
Lemma testbit_top (k m : N) : m < 2 ^ (k + 1) -> N.testbit m k = (2 ^ k <=? m).
Proof.
  intros H. pose proof (pow2_pos k) as P. rewrite pow2_double in H.
  destruct (N.testbit m k) eqn:T.
  - symmetry. apply N.leb_le. destruct (N.lt_ge_cases m (2 ^ k)) as [L|L]; [|exact L].
    rewrite (N.testbit_eqb m k), (N.div_small m (2 ^ k) L) in T. discriminate.
  - symmetry. apply N.leb_gt. destruct (N.lt_ge_cases m (2 ^ k)) as [L|L]; [exact L|].
    rewrite N.testbit_eqb in T.
    assert (Q : m / 2 ^ k = 1).
    { apply N.le_antisymm.
      - apply N.lt_succ_r. apply N.div_lt_upper_bound; lia.
      - apply N.div_le_lower_bound; lia. }
    rewrite Q in T. discriminate.
Qed.
Lemma land_below_pow2 x k : x < 2 ^ k -> N.land x (2 ^ k) = 0.
Proof.
  intros H. apply N.bits_inj. intros i. rewrite N.land_spec, N.pow2_bits_eqb, N.bits_0.
  destruct (k =? i) eqn:E; [|apply andb_false_r].
  apply N.eqb_eq in E; subst i. rewrite andb_true_r.
  rewrite testbit_top by (rewrite pow2_double; lia). apply N.leb_gt. exact H.
Qed.
(* flipping bit k adds or subtracts 2^k *)
Lemma lxor_pow2 x k : x < 2 ^ (k + 1) ->
  N.lxor x (2 ^ k) = if x <? 2 ^ k then x + 2 ^ k else x - 2 ^ k.
Proof.
  intros H. rewrite pow2_double in H. destruct (x <? 2 ^ k) eqn:E.
  - apply N.ltb_lt in E. symmetry. apply N.add_nocarry_lxor. now apply land_below_pow2.
  - apply N.ltb_ge in E. set (y := x - 2 ^ k). assert (Y : y < 2 ^ k) by (unfold y; lia).
    replace x with (y + 2 ^ k) at 1 by (unfold y; lia).
    rewrite (N.add_nocarry_lxor y (2 ^ k)) by now apply land_below_pow2.
    now rewrite N.lxor_assoc, N.lxor_nilpotent, N.lxor_0_r.
Qed.

(* ---- and, or, xor commute with reduction modulo 2^w ---- *)
Lemma mod_bitwise (op : N -> N -> N) (f : bool -> bool -> bool) (w A B : N) :
  (forall a b i, N.testbit (op a b) i = f (N.testbit a i) (N.testbit b i)) -> f false false = false ->
  op A B mod 2 ^ w = op (A mod 2 ^ w) (B mod 2 ^ w).
Proof.
  intros Hop Hf. apply N.bits_inj. intros i. rewrite Hop.
  destruct (N.lt_ge_cases i w) as [L|L].
  - now rewrite !N.mod_pow2_bits_low, Hop by exact L.
  - now rewrite !N.mod_pow2_bits_high by exact L.
Qed.
Lemma mod_land w A B : N.land A B mod 2 ^ w = N.land (A mod 2 ^ w) (B mod 2 ^ w).
Proof. apply (mod_bitwise N.land andb); [apply N.land_spec|reflexivity]. Qed.
Lemma mod_lor w A B : N.lor A B mod 2 ^ w = N.lor (A mod 2 ^ w) (B mod 2 ^ w).
Proof. apply (mod_bitwise N.lor orb); [apply N.lor_spec|reflexivity]. Qed.
Lemma mod_lxor w A B : N.lxor A B mod 2 ^ w = N.lxor (A mod 2 ^ w) (B mod 2 ^ w).
Proof. apply (mod_bitwise N.lxor xorb); [apply N.lxor_spec|reflexivity]. Qed.
