(* Proofs/OpValProofs.v — Model/OpVal.v (value.rs arithmetic) against the value algebra of Spec/StackSpec.v:
   every Value operation, canonicalised, is the stack machine's operation on the canonical operands. *)
From Coq Require Import List NArith ZArith Bool Lia ZifyBool ZifyN ZifyNat.
From Coq.Strings Require Import Byte.
Require Import GV.Base.Res GV.Base.Byt GV.Base.Ints GV.Model.Leb GV.Model.Prim
  GV.Model.OpDec GV.Model.OpVal GV.Spec.StackSpec GV.Spec.StackMachine GV.Proofs.Lib GV.Proofs.WidthProofs.
Import ListNotations.
Local Open Scope N_scope.

(* ---------------------------------------------------------------- the mask-based helpers are the Base ones *)
Lemma w64_eq x : w64 x = wrap64 x.
Proof. unfold w64, wrap64. change 18446744073709551615 with (N.ones 64). now rewrite N.land_ones. Qed.
Lemma wN_eq bits x : wN bits x = wrapN bits x.
Proof. unfold wN, wrapN. now rewrite N.land_ones. Qed.
Lemma sgn_eq bits x : 1 <= bits -> sgn bits x = to_signed bits x.
Proof.
  intros B. unfold sgn, to_signed. rewrite wN_eq. set (m := wrapN bits x).
  assert (M : m < 2 ^ bits) by (apply N.mod_lt, N.pow_nonzero; lia).
  replace bits with (bits - 1 + 1) in M at 1 by lia.
  rewrite (testbit_top (bits - 1) m M), N.shiftl_1_l.
  destruct (2 ^ (bits - 1) <=? m) eqn:E1; destruct (m <? 2 ^ (bits - 1)) eqn:E2; try reflexivity; lia.
Qed.
Lemma usg_eq bits z : usg bits z = of_signed bits z.
Proof. unfold usg, of_signed. rewrite Z.land_ones by lia. now rewrite N2Z.inj_pow. Qed.

Lemma wN_lt k x : wN k x < 2 ^ k.
Proof. rewrite wN_eq. apply N.mod_lt, N.pow_nonzero. lia. Qed.
Lemma w64_lt x : w64 x < 2 ^ 64.
Proof. rewrite w64_eq. apply wrap64_lt. Qed.
Lemma usg_lt k z : usg k z < 2 ^ k.
Proof. rewrite usg_eq. apply of_signed_lt. Qed.

(* subtracting h = 2^(k-1) from a k-bit pattern whose bit k-1 was flipped, in wrapping arithmetic modulo
   P = 2Q >= 2h, read as signed: the signed reading of the pattern *)
Lemma flip_sub_signed x h P Q : x < 2 * h -> h <= Q -> P = 2 * Q ->
  let y := ((if x <? h then x + h else x - h) + P - h) mod P in
  (if y <? Q then Z.of_N y else (Z.of_N y - Z.of_N P)%Z) = if x <? h then Z.of_N x else (Z.of_N x - Z.of_N (2 * h))%Z.
Proof.
  intros X H ->. destruct (x <? h) eqn:E; cbv zeta.
  - replace (x + h + 2 * Q - h) with (x + 1 * (2 * Q)) by lia.
    rewrite N.mod_add, N.mod_small by lia. destruct (x <? Q) eqn:E2; lia.
  - rewrite N.mod_small by lia. destruct (_ <? Q) eqn:E2; lia.
Qed.

(* sign_extend is two's complement at the width of the mask *)
Lemma sign_extend_eq (k v : N) : 1 <= k <= 64 -> sign_extend v (2 ^ k - 1) = to_signed k v.
Proof.
  intros K. unfold sign_extend. rewrite <- ones_pred, N.land_ones.
  assert (S1 : N.shiftr (N.ones k) 1 + 1 = 2 ^ (k - 1)).
  { rewrite N.shiftr_div_pow2, ones_pred, (pow2_half k) by lia. change (2 ^ 1) with 2.
    pose proof (pow2_pos (k - 1)).
    replace (2 * 2 ^ (k - 1) - 1) with (1 + (2 ^ (k - 1) - 1) * 2) by lia.
    rewrite N.div_add by lia. change (1 / 2) with 0. lia. }
  rewrite S1, !w64_eq, sgn_eq by lia. unfold wrap64. rewrite two64_eq.
  rewrite <- (to_signed_mod k v). set (x := v mod 2 ^ k).
  assert (X : x < 2 ^ k) by (apply N.mod_lt, N.pow_nonzero; lia).
  assert (L : 2 ^ (k - 1) <= 2 ^ (64 - 1)) by (apply N.pow_le_mono_r; lia).
  rewrite (N.mod_small (2 ^ (k - 1))) by (eapply N.le_lt_trans; [exact L|reflexivity]).
  rewrite lxor_pow2 by (replace (k - 1 + 1) with k by lia; exact X).
  rewrite to_signed_mod, (to_signed_cases k x X). unfold to_signed, wrapN. rewrite (pow2_half k) in * by lia.
  apply flip_sub_signed; [exact X|exact L|reflexivity].
Qed.

Lemma mask_bit_size_eq k : mask_bit_size (2 ^ k - 1) = k.
Proof.
  unfold mask_bit_size. destruct (N.eq_dec k 0) as [->|NZ]; [reflexivity|].
  assert (T : 2 <= 2 ^ k) by (rewrite (pow2_half k) by lia; pose proof (pow2_pos (k - 1)); lia).
  rewrite N.size_log2 by lia.
  rewrite N.sub_1_r, N.log2_pred_pow2 by lia. lia.
Qed.

(* ---------------------------------------------------------------- value_ops: model = spec on canonical values *)
Definition cres sz (r : res value) : res value := match r with Ok v => Ok (canon sz v) | x => x end.
Definition amask (sz : N) : N := 2 ^ (8 * sz) - 1.
Definition addr_size (sz : N) : Prop := sz = 1 \/ sz = 2 \/ sz = 4 \/ sz = 8.
Definition agrees1 (sz : N) (m : value -> N -> res value) (s : value -> res value) : Prop :=
  forall a, addr_size sz -> wf_value a = true -> cres sz (m a (amask sz)) = s (canon sz a).
Definition agrees2 (sz : N) (m : value -> value -> N -> res value) (s : value -> value -> res value) : Prop :=
  forall a b, addr_size sz -> wf_value a = true -> wf_value b = true ->
    cres sz (m a b (amask sz)) = s (canon sz a) (canon sz b).

Lemma vtype_eqb_true t u : vtype_eqb t u = true -> t = u.
Proof. destruct t, u; (reflexivity || discriminate). Qed.
Lemma wf_lt t v : wf_value (mkV t v) = true -> v < 2 ^ width t.
Proof. apply N.ltb_lt. Qed.

(* shifts by a count, as multiplication and division by 2^count *)
Lemma shl_spec j x c : of_signed j (if (Z.of_N j <=? Z.of_N c)%Z then 0 else Z.of_N x * 2 ^ Z.of_N c) =
  if j <=? c then 0 else N.shiftl x c mod 2 ^ j.
Proof.
  replace (Z.of_N j <=? Z.of_N c)%Z with (j <=? c) by lia. destruct (j <=? c); [reflexivity|].
  change 2%Z with (Z.of_N 2). now rewrite <- N2Z.inj_pow, <- N2Z.inj_mul, of_signed_N, N.shiftl_mul_pow2.
Qed.
Lemma shr_spec j x c : of_signed j (if (Z.of_N j <=? Z.of_N c)%Z then 0 else Z.of_N x / 2 ^ Z.of_N c) =
  (if j <=? c then 0 else N.shiftr x c) mod 2 ^ j.
Proof.
  replace (Z.of_N j <=? Z.of_N c)%Z with (j <=? c) by lia. destruct (j <=? c); [reflexivity|].
  change 2%Z with (Z.of_N 2). now rewrite <- N2Z.inj_pow, <- N2Z.inj_div, of_signed_N, N.shiftr_div_pow2.
Qed.
Lemma shra_spec j z c : of_signed j (if (Z.of_N j <=? Z.of_N c)%Z then (if (z <? 0)%Z then -1 else 0) else z / 2 ^ Z.of_N c) =
  if j <=? c then (if (z <? 0)%Z then 2 ^ j - 1 else 0) else of_signed j (Z.shiftr z (Z.of_N c)).
Proof.
  replace (Z.of_N j <=? Z.of_N c)%Z with (j <=? c) by lia. rewrite Z.shiftr_div_pow2 by lia.
  destruct (j <=? c); [|reflexivity]. destruct (z <? 0)%Z; [apply of_signed_m1|reflexivity].
Qed.

Section Ops.
Variable sz : N.
Hypothesis SZ : addr_size sz.
Variable F : fops.

Lemma addr_bits : 1 <= 8 * sz <= 64.
Proof. destruct SZ as [-> | [-> | [-> | ->]]]; lia. Qed.
Lemma land_amask x : N.land x (amask sz) = x mod 2 ^ (8 * sz).
Proof. unfold amask. now rewrite <- ones_pred, N.land_ones. Qed.
Lemma amask_se v : sign_extend v (amask sz) = to_signed (8 * sz) v.
Proof. apply sign_extend_eq, addr_bits. Qed.

Lemma canon_ty v : vty (canon sz v) = vty v.
Proof. unfold canon. destruct (vty v) eqn:E; cbn [vty]; congruence. Qed.
Lemma of_int_eq t z : of_int sz t z = mkV t (of_signed (tbits sz t) z).
Proof. reflexivity. Qed.

(* the model's mask helpers and the address mask, written with mod, to_signed and of_signed *)
Ltac vnorm := rewrite ?w64_eq, ?wN_eq, ?usg_eq, ?sgn_eq, ?land_amask, ?amask_se by lia;
  unfold wrap64, wrapN; rewrite ?two64_eq.
(* one case per value type, the functions indexed by the type evaluated: the generic case is left at width 8 * sz
   in a 64-bit container, the typed ones at their literal width *)
Ltac types t := destruct t; cbn [vty vbits canon tclass_of tbits width is64 negb andb bind] in *;
  unfold modulus in *; cbn [tbits] in *; vnorm.

(* plus, minus, mul: the container operation iop computes zop modulo every 2^j with j <= 64, and zop respects
   congruences; so it does not matter which representative of an operand (pattern, signed or unsigned reading) is used *)

Lemma arith_spec iop zop fop :
  (forall m x x' y y', x mod m = x' mod m -> y mod m = y' mod m -> zop x y mod m = zop x' y' mod m)%Z ->
  (forall j x y, j <= 64 -> y < 2 ^ 64 -> of_signed j (zop (Z.of_N x) (Z.of_N y)) = iop x y mod 2 ^ j) ->
  agrees2 sz (arith iop fop) (sp_arith sz zop fop).
Proof.
  intros H1 H2 [t va] [tb vb] _ WA%wf_lt WB%wf_lt. unfold arith, sp_arith, same_type. rewrite !canon_ty. cbn [vty vbits].
  destruct (vtype_eqb t tb) eqn:E; [apply vtype_eqb_true in E; subst tb|reflexivity].
  assert (C : forall j x' y', j <= 64 -> vb < 2 ^ 64 ->
     (x' mod Z.of_N (2 ^ j) = Z.of_N va mod Z.of_N (2 ^ j))%Z -> (y' mod Z.of_N (2 ^ j) = Z.of_N vb mod Z.of_N (2 ^ j))%Z ->
     iop va vb mod 2 ^ j = of_signed j (zop x' y')).
  { intros j x' y' J B X Y. rewrite <- H2 by assumption. unfold of_signed. f_equal. symmetry. now apply H1. }
  unfold cres, is_float, as_int. rewrite of_int_eq. types t; try reflexivity; f_equal; f_equal.
  1: rewrite N.mod_mod, mod_mod_le by (try apply N.pow_nonzero; try apply addr_bits; lia).
  all: apply C; try apply N_mod_eqm; try apply to_signed_eqm; try reflexivity; try apply addr_bits; try lia.
  all: eapply lt_weaken; [|exact WB]; lia.
Qed.
Lemma vadd_spec : agrees2 sz (vadd F) (sp_add sz F).
Proof.
  apply arith_spec.
  - intros m x x' y y' X Y. now rewrite Zplus_mod, X, Y, <- Zplus_mod.
  - intros j x y _ _. now rewrite <- N2Z.inj_add, of_signed_N.
Qed.
Lemma vsub_spec : agrees2 sz (vsub F) (sp_sub sz F).
Proof.
  apply arith_spec.
  - intros m x x' y y' X Y. now rewrite Zminus_mod, X, Y, <- Zminus_mod.
  - intros j x y J Y. rewrite <- of_signed_N, two64_eq. unfold of_signed. f_equal.
    rewrite (pow2_split j 64 J) in *. pose proof (pow2_pos j).
    replace (Z.of_N (x + 2 ^ (64 - j) * 2 ^ j - y)) with (Z.of_N x - Z.of_N y + Z.of_N (2 ^ (64 - j)) * Z.of_N (2 ^ j))%Z by lia.
    rewrite Z.mod_add by lia. reflexivity.
Qed.
Lemma vmul_spec : agrees2 sz (vmul F) (sp_mul sz F).
Proof.
  apply arith_spec.
  - intros m x x' y y' X Y. now rewrite Zmult_mod, X, Y, <- Zmult_mod.
  - intros j x y _ _. now rewrite <- N2Z.inj_mul, of_signed_N.
Qed.

(* div reads a generic divisor as signed, mod as unsigned *)
Lemma zero_check_spec b : wf_value b = true ->
  div_zero_check b (amask sz) = negb (is_float (canon sz b)) && (as_int sz true (canon sz b) =? 0)%Z /\
  rem_zero_check b (amask sz) = negb (is_float (canon sz b)) && (as_int sz false (canon sz b) =? 0)%Z.
Proof.
  destruct b as [t v]. intros W%wf_lt. unfold div_zero_check, rem_zero_check, is_float, as_int.
  types t; rewrite ?to_signed_mod, ?to_signed_eq0 by (assumption || lia); split; reflexivity || lia.
Qed.

Lemma vdiv_spec : agrees2 sz (vdiv F) (sp_div sz F).
Proof.
  intros [t va] [tb vb] _ WA WB. unfold vdiv, sp_div, same_type. rewrite !canon_ty.
  rewrite (proj1 (zero_check_spec _ WB)). destruct (_ && _); [reflexivity|]. cbn [vty vbits].
  destruct (vtype_eqb t tb) eqn:E; [apply vtype_eqb_true in E; subst tb|reflexivity].
  apply wf_lt in WA, WB. unfold cres, is_float, as_int. rewrite of_int_eq.
  types t; rewrite ?of_signed_mod, ?to_signed_mod by apply addr_bits; try reflexivity.
  all: now rewrite <- N2Z.inj_quot, of_signed_N, N.mod_small by now apply div_lt.
Qed.

Lemma vrem_spec : agrees2 sz vrem (sp_rem sz).
Proof.
  intros [t va] [tb vb] _ WA WB. unfold vrem, sp_rem, same_type. rewrite !canon_ty.
  rewrite (proj2 (zero_check_spec _ WB)). destruct (_ && _); [reflexivity|]. cbn [vty vbits].
  destruct (vtype_eqb t tb) eqn:E; [apply vtype_eqb_true in E; subst tb|reflexivity].
  apply wf_lt in WA, WB. unfold cres, is_float, as_int. rewrite of_int_eq.
  types t; try reflexivity; rewrite <- N2Z.inj_rem, of_signed_N; [reflexivity|..].
  all: now rewrite (N.mod_small (va mod vb)) by now apply mod_lt_l.
Qed.

Lemma vneg_spec : agrees1 sz vneg (sp_neg sz).
Proof.
  intros [t v] _ W. unfold vneg, sp_neg, cres, as_int. rewrite of_int_eq.
  types t; rewrite ?of_signed_mod, ?to_signed_mod by apply addr_bits; reflexivity.
Qed.

Lemma vabs_spec : agrees1 sz vabs (sp_abs sz).
Proof.
  intros [t v] _ W%wf_lt. unfold vabs, sp_abs, cres, as_int. rewrite of_int_eq.
  types t; rewrite ?of_signed_mod, ?to_signed_mod by apply addr_bits; try reflexivity.
  all: now rewrite Z.abs_eq, of_signed_N, N.mod_small by (assumption || apply N2Z.is_nonneg).
Qed.


Lemma tbits_bounds t : 1 <= tbits sz t <= 64.
Proof. destruct t; cbn [tbits width]; try lia; apply addr_bits. Qed.
Lemma canon_canonical v : wf_value v = true -> canonical sz (canon sz v).
Proof.
  destruct v as [t v]. intros W%wf_lt. unfold canonical.
  types t; try assumption. apply N.mod_lt, N.pow_nonzero. lia.
Qed.
(* a canonical value is the pattern of the integer it denotes, in either reading *)
Lemma of_signed_as_int gs c : canonical sz c -> of_signed (tbits sz (vty c)) (as_int sz gs c) = vbits c.
Proof.
  unfold canonical, modulus, as_int. intros C.
  destruct (tclass_of (vty c)), gs; rewrite ?of_signed_to_signed, ?of_signed_N; now apply N.mod_small.
Qed.

Lemma to_u64_sim v : wf_value v = true -> to_u64 v (amask sz) = sp_to_u64 sz (canon sz v).
Proof.
  destruct v as [t v]. intros W%wf_lt. unfold to_u64, sp_to_u64, widen, is_float, as_int.
  types t; try reflexivity; rewrite of_signed_N; f_equal; symmetry; apply N.mod_small.
  all: eapply lt_weaken; [|eassumption || (apply N.mod_lt, N.pow_nonzero; lia)]; try apply addr_bits; lia.
Qed.
Lemma from_u64_sim t x : cres sz (from_u64 F t x) = Ok (sp_from_u64 sz F t x).
Proof. unfold from_u64, sp_from_u64, cres. types t; reflexivity. Qed.
Lemma sp_from_u64_int t x : tclass_of t <> CFloat -> sp_from_u64 sz F t x = mkV t (x mod 2 ^ tbits sz t).
Proof. unfold sp_from_u64. now destruct (tclass_of t). Qed.
Lemma is_float_class v : is_float v = false -> tclass_of (vty v) <> CFloat.
Proof. unfold is_float. now destruct (tclass_of (vty v)). Qed.

Lemma vnot_spec : agrees1 sz (vnot F) (sp_not sz).
Proof.
  intros a _ W. unfold vnot, sp_not. rewrite (to_u64_sim a W). unfold sp_to_u64.
  destruct (is_float (canon sz a)) eqn:FL; [reflexivity|]. apply is_float_class in FL. cbn [bind].
  rewrite from_u64_sim, <- canon_ty, sp_from_u64_int, two64_eq by exact FL. pose proof (tbits_bounds (vty (canon sz a))).
  rewrite not_mod, of_signed_mod, of_signed_as_int; [reflexivity|now apply canon_canonical|lia..|apply of_signed_lt].
Qed.

Lemma bitop_spec op : (forall w A B, op A B mod 2 ^ w = op (A mod 2 ^ w) (B mod 2 ^ w)) ->
  agrees2 sz (bitop F op) (sp_bitop op).
Proof.
  intros Hop a b _ WA WB. unfold bitop, sp_bitop, same_type. rewrite !canon_ty.
  destruct (vtype_eqb (vty a) (vty b)) eqn:E; [apply vtype_eqb_true in E|reflexivity]. cbn [negb].
  rewrite (to_u64_sim a WA), (to_u64_sim b WB). unfold sp_to_u64, is_float at 2. rewrite canon_ty, <- E, <- (canon_ty a).
  fold (is_float (canon sz a)). destruct (is_float (canon sz a)) eqn:FL; [reflexivity|]. apply is_float_class in FL. cbn [bind].
  rewrite from_u64_sim, sp_from_u64_int by exact FL. pose proof (tbits_bounds (vty (canon sz a))).
  rewrite Hop, !of_signed_mod, of_signed_as_int by (lia || now apply canon_canonical).
  rewrite (canon_ty a), E, <- (canon_ty b), of_signed_as_int by now apply canon_canonical. reflexivity.
Qed.

Lemma canon_bool (r : bool) : canon sz (mkV TGeneric (if r then 1 else 0)) = bool_value r.
Proof.
  unfold canon, modulus, bool_value. cbn [vty vbits tbits]. rewrite N.mod_small; [reflexivity|].
  destruct r; [apply N.pow_gt_1; pose proof addr_bits; lia|apply pow2_pos].
Qed.
Lemma compare_spec zc fc : agrees2 sz (compare_op zc fc) (sp_compare sz zc fc).
Proof.
  intros [t va] [tb vb] _ WA WB. unfold compare_op, sp_compare, same_type. rewrite !canon_ty. cbn [vty vbits].
  destruct (vtype_eqb t tb) eqn:E; [apply vtype_eqb_true in E; subst tb|reflexivity].
  unfold cres, is_float, as_int. cbn [negb]. rewrite canon_bool. types t; rewrite ?to_signed_mod; reflexivity.
Qed.

Lemma veq_spec : agrees2 sz veq (sp_eq sz).
Proof. apply compare_spec. Qed.
Lemma vge_spec : agrees2 sz vge (sp_ge sz).
Proof. apply compare_spec. Qed.
Lemma vgt_spec : agrees2 sz vgt (sp_gt sz).
Proof. apply compare_spec. Qed.
Lemma vle_spec : agrees2 sz vle (sp_le sz).
Proof. apply compare_spec. Qed.
Lemma vlt_spec : agrees2 sz vlt (sp_lt sz).
Proof. apply compare_spec. Qed.
Lemma vne_spec : agrees2 sz vne (sp_ne sz).
Proof. apply compare_spec. Qed.

Lemma from_float_spec (s : bool) bits t :
  cres sz (from_float F s t bits) = sp_convert sz F (mkV (if s then TF64 else TF32) bits) t.
Proof.
  unfold from_float, sp_convert, cres. rewrite !of_int_eq.
  destruct s; types t; rewrite ?of_signed_N; reflexivity.
Qed.
Lemma convert_spec a t : wf_value a = true -> cres sz (convert F a t (amask sz)) = sp_convert sz F (canon sz a) t.
Proof.
  intros W. unfold convert. pose proof (to_u64_sim a W) as U. destruct a as [ta v].
  destruct ta; try apply (from_float_spec false); try apply (from_float_spec true); cbn [vty].
  all: rewrite U; unfold sp_to_u64, is_float, sp_convert; rewrite canon_ty; cbn [vty tclass_of bind]; rewrite from_u64_sim.
  all: unfold sp_from_u64, modulus; rewrite !of_int_eq; pose proof (tbits_bounds t).
  all: destruct (tclass_of t); try reflexivity; now rewrite of_signed_mod by lia.
Qed.

Lemma bit_size_amask t : bit_size t (amask sz) = tbits sz t.
Proof. destruct t; try reflexivity. apply mask_bit_size_eq. Qed.
(* `x as u64` of a value, cut to its width again, is the pattern *)
Lemma widen_canon t v : wf_value (mkV t v) = true -> widen t v mod 2 ^ tbits sz t = vbits (canon sz (mkV t v)).
Proof.
  intros W%wf_lt. unfold widen. types t; try reflexivity; try now apply N.mod_small.
  all: now rewrite of_signed_mod, of_signed_to_signed, N.mod_small by (assumption || lia).
Qed.
Lemma reinterpret_spec a t : wf_value a = true ->
  cres sz (reinterpret a t (amask sz)) = sp_reinterpret sz (canon sz a) t.
Proof.
  destruct a as [ta v]. intros W. unfold reinterpret, sp_reinterpret. rewrite !bit_size_amask, canon_ty. cbn [vty vbits].
  destruct (tbits sz ta =? tbits sz t) eqn:E; [apply N.eqb_eq in E|reflexivity]. cbn [negb].
  rewrite <- (widen_canon ta v W), E. unfold cres. types t; reflexivity.
Qed.

Lemma shift_length_spec b : wf_value b = true ->
  match shift_length b (amask sz) with
  | Ok v2 => sp_count sz (canon sz b) = Ok (Z.of_N v2)
  | Err e => sp_count sz (canon sz b) = Err e
  | _ => False
  end.
Proof.
  destruct b as [t v]. intros W%wf_lt. unfold shift_length, sp_count, is_float, as_int.
  types t; try reflexivity.
  all: rewrite ?Z.leb_antisym; destruct (_ <? 0)%Z eqn:L; cbn [negb]; try reflexivity; try lia.
  all: now rewrite to_signed_nonneg by (assumption || lia).
Qed.


Lemma vshl_spec : agrees2 sz vshl (sp_shl sz).
Proof.
  intros [t va] b _ WA%wf_lt WB. unfold vshl, sp_shl. pose proof (shift_length_spec b WB) as HS.
  destruct (shift_length b (amask sz)) as [c|e| |]; try contradiction; rewrite HS; cbn [bind]; [|reflexivity].
  unfold amask. rewrite mask_bit_size_eq. fold (amask sz). unfold cres, is_float. rewrite of_int_eq.
  types t; rewrite ?shl_spec; try reflexivity.
  destruct (_ <=? c); [reflexivity|]. now rewrite mod_mod_le by apply addr_bits.
Qed.

Lemma vshr_spec : agrees2 sz vshr (sp_shr sz).
Proof.
  intros [t va] b _ WA%wf_lt WB. unfold vshr, sp_shr. pose proof (shift_length_spec b WB) as HS.
  destruct (shift_length b (amask sz)) as [c|e| |]; try contradiction; rewrite HS; cbn [bind]; [|reflexivity].
  unfold amask. rewrite mask_bit_size_eq. fold (amask sz). unfold cres, as_int. rewrite of_int_eq.
  types t; rewrite ?shr_spec; try reflexivity.
  all: rewrite N.mod_small; [reflexivity|]; destruct (_ <=? c); [apply pow2_pos|now apply shiftr_lt].
Qed.

Lemma vshra_spec : agrees2 sz vshra (sp_shra sz).
Proof.
  intros [t va] b _ WA%wf_lt WB. unfold vshra, sp_shra. pose proof (shift_length_spec b WB) as HS.
  destruct (shift_length b (amask sz)) as [c|e| |]; try contradiction; rewrite HS; cbn [bind]; [|reflexivity].
  unfold amask. rewrite mask_bit_size_eq. fold (amask sz). unfold cres, as_int. rewrite of_int_eq.
  types t; rewrite ?shra_spec, ?to_signed_mod; try reflexivity.
  rewrite <- (of_signed_m1 64), <- (of_signed_m1 (8 * sz)). do 2 f_equal. destruct (_ <=? c); [destruct (_ <? 0)%Z; [|reflexivity]|]; apply of_signed_mod, addr_bits.
Qed.
End Ops.

Lemma vand_spec sz F : addr_size sz -> agrees2 sz (vand F) sp_and.
Proof. intros SZ. apply bitop_spec; [exact SZ|]. intros; apply mod_land. Qed.
Lemma vor_spec sz F : addr_size sz -> agrees2 sz (vor F) sp_or.
Proof. intros SZ. apply bitop_spec; [exact SZ|]. intros; apply mod_lor. Qed.
Lemma vxor_spec sz F : addr_size sz -> agrees2 sz (vxor F) sp_xor.
Proof. intros SZ. apply bitop_spec; [exact SZ|]. intros; apply mod_lxor. Qed.

(* agreement only has to be shown for address sizes *)
Lemma agrees1_intro sz m s : (addr_size sz -> agrees1 sz m s) -> agrees1 sz m s.
Proof. intros H a SZ. now apply H. Qed.
Lemma agrees2_intro sz m s : (addr_size sz -> agrees2 sz m s) -> agrees2 sz m s.
Proof. intros H a b SZ. now apply H. Qed.

Create HintDb vspec.
Global Hint Resolve vadd_spec vsub_spec vmul_spec vdiv_spec vrem_spec vand_spec vor_spec vxor_spec vnot_spec vneg_spec vabs_spec
  veq_spec vge_spec vgt_spec vle_spec vlt_spec vne_spec vshl_spec vshr_spec vshra_spec : vspec.

(* ---------------------------------------------------------------- a fops instance for closed examples *)
Definition no_fops : fops := mkFops (fun _ a _ => a) (fun _ a _ => a) (fun _ a _ => a) (fun _ a _ => a)
  (fun _ x => x) (fun _ _ _ x => x) (fun _ x => x).
