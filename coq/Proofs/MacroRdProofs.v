(* Proofs/MacroRdProofs.v — lemmas about Model/MacroRd.v (src/read/macros.rs) for C01:
   no panic / fuel bound, termination with errors ignored, stop after an error, progress, round trip.
   The theorems themselves are in Properties/C01Macro.v. *)
From Coq Require Import List NArith ZArith Bool Lia.
From Coq.Strings Require Import Byte.
Require Import GV.Base.Res GV.Base.Byt GV.Base.Ints GV.Spec.LebSpec GV.Model.Leb GV.Model.Prim
  GV.Spec.MacroSpec GV.Model.MacroRd GV.Proofs.LebProofs GV.Proofs.PrimProofs.
Import ListNotations.
Local Open Scope N_scope.

(* rest is what remains of bs after a non-empty prefix was consumed *)
Definition consumed (bs rest : list byte) : Prop := exists c, bs = c ++ rest /\ c <> [].

Lemma consumed_cons b r : consumed (b :: r) r.
Proof. exists [b]. split; [reflexivity|discriminate]. Qed.
Lemma consumed_length a b : consumed a b -> (length b < length a)%nat.
Proof. intros (c & -> & Hc). rewrite app_length. destruct c; [contradiction|cbn [length]; lia]. Qed.

(* weak form: possibly nothing consumed *)
Definition suffix (bs rest : list byte) : Prop := exists c, bs = c ++ rest.

Lemma consumed_suffix a b c : consumed a b -> suffix b c -> consumed a c.
Proof.
  intros (x & -> & Hx) (y & ->). exists (x ++ y). split; [now rewrite app_assoc|].
  destruct x; [contradiction|discriminate].
Qed.
Lemma consumed_is_suffix a b : consumed a b -> suffix a b.
Proof. intros (c & -> & _). now exists c. Qed.
Lemma suffix_nil a : suffix a [].
Proof. exists a. now rewrite app_nil_r. Qed.
Lemma suffix_trans a b c : suffix a b -> suffix b c -> suffix a c.
Proof. intros (x & ->) (y & ->). exists (x ++ y). now rewrite app_assoc. Qed.
Lemma suffix_length a b : suffix a b -> (length b <= length a)%nat.
Proof. intros (c & ->). rewrite app_length. lia. Qed.

(* r returns, and when it succeeds what it leaves is a suffix of bs.  Only the type byte of an entry has to be
   seen consumed: the operand readers are all used through this weaker statement. *)
Definition leaves {A} (bs : list byte) (r : res (A * list byte)) : Prop := post (fun p => suffix bs (snd p)) r.

Lemma leaves_ok {A} (a : A) bs : leaves bs (Ok (a, bs)).
Proof. now exists []. Qed.
Lemma leaves_bind {A B} bs (x : res (A * list byte)) (f : A * list byte -> res (B * list byte)) :
  leaves bs x -> (forall a r, leaves r (f (a, r))) -> leaves bs (bind x f).
Proof.
  intros Hx Hf. apply (post_bind _ _ _ _ Hx). intros [a r] _ S.
  apply (post_weaken _ _ _ (Hf a r)). intros p. exact (suffix_trans _ _ _ S).
Qed.

Lemma leaves_u8 bs : leaves bs (read_u8 bs).
Proof. destruct bs as [|b r]; [exact I|]. now exists [b]. Qed.
Lemma leaves_uleb128 dbg bs : leaves bs (read_uleb128 dbg bs).
Proof.
  apply post_intro; [apply read_uleb128_total|]. intros [v r] H.
  apply read_uleb128_ok in H. destruct H as (e & H & _). exists e. exact (split_leb_app _ _ _ H).
Qed.
Lemma leaves_cstr bs : leaves bs (read_cstr bs).
Proof.
  apply post_intro; [apply read_cstr_total|]. intros [s r] H.
  apply read_cstr_ok in H. destruct H as [-> _]. exists (s ++ [x00]). now rewrite <- app_assoc.
Qed.
Lemma leaves_un n be bs : leaves bs (read_un n be bs).
Proof.
  apply post_intro.
  - rewrite read_un_exact. destruct (length bs <? n)%nat; [apply returns_err|apply returns_ok].
  - intros [v r] H. apply read_un_ok_inv in H. destruct H as (h & -> & _). now exists h.
Qed.
Lemma leaves_offset fmt be bs : leaves bs (read_offset fmt be bs).
Proof. unfold read_offset, read_word. destruct fmt; apply leaves_un. Qed.

Lemma leaves_line_str dbg bs : leaves bs (p_line_str dbg bs).
Proof.
  apply leaves_bind; [apply leaves_uleb128|]. intros l r1.
  apply leaves_bind; [apply leaves_cstr|]. intros s r2. apply leaves_ok.
Qed.
Lemma leaves_two_uleb dbg bs : leaves bs (p_two_uleb dbg bs).
Proof.
  apply leaves_bind; [apply leaves_uleb128|]. intros a r1.
  apply leaves_bind; [apply leaves_uleb128|]. intros b r2. apply leaves_ok.
Qed.
Lemma leaves_line_off dbg fmt be bs : leaves bs (p_line_off dbg fmt be bs).
Proof.
  apply leaves_bind; [apply leaves_uleb128|]. intros l r1.
  apply leaves_bind; [apply leaves_offset|]. intros o r2. apply leaves_ok.
Qed.

(* what a successful parse leaves: nothing after the end marker; after an entry a proper suffix of the input, so the
   iterator stays inside its section *)
Definition stepped (bs : list byte) (p : option mentry * list byte) : Prop :=
  match fst p with None => snd p = [] | Some _ => consumed bs (snd p) end.

(* every `let* (p, r') := P in Ok (Some .., r')` arm, P reading the operands that follow the type byte b *)
Lemma entry_arm {A} b r (P : res (A * list byte)) (k : A -> mentry) :
  leaves r P -> post (stepped (b :: r)) (let* (p, r') := P in Ok (Some (k p), r')).
Proof.
  intros H. apply (post_bind _ _ _ _ H). intros [p r'] _ S. exact (consumed_suffix _ _ _ (consumed_cons b r) S).
Qed.

Lemma parse_next_post dbg be it : post (stepped (mi_input it)) (parse_next dbg be it).
Proof.
  unfold parse_next. destruct (mi_input it) as [|b r]; [exact I|]. cbn [read_u8 bind].
  repeat match goal with
  | |- post _ (if ?c then _ else _) => destruct c
  end;
  first [ exact I | reflexivity | exact (consumed_cons b r)
        | apply entry_arm;
          first [apply leaves_line_str | apply leaves_two_uleb | apply leaves_line_off | apply leaves_offset] ].
Qed.

Lemma macro_next_empty dbg be it : mi_input it = [] -> macro_next dbg be it = (Ok None, it).
Proof. intros H. unfold macro_next. rewrite H. reflexivity. Qed.

Lemma set_input_same it : set_input it (mi_input it) = it.
Proof. destruct it; reflexivity. Qed.

Lemma macro_next_cases dbg be it :
  macro_next dbg be it = (Ok None, set_input it []) \/
  (exists e rest, macro_next dbg be it = (Ok (Some e), set_input it rest) /\ consumed (mi_input it) rest) \/
  (exists e, mi_input it <> [] /\ macro_next dbg be it = (Err e, set_input it [])).
Proof.
  destruct (mi_input it) as [|b t] eqn:Hin.
  - left. rewrite <- Hin, set_input_same. now apply macro_next_empty.
  - unfold macro_next. rewrite Hin. pose proof (parse_next_post dbg be it) as G. rewrite Hin in G.
    destruct (parse_next dbg be it) as [[[e|] rest]|e| |]; cbn in G; try contradiction.
    + right. left. exists e, rest. split; [reflexivity|exact G].
    + left. subst rest. reflexivity.
    + right. right. exists e. split; [discriminate|reflexivity].
Qed.

Lemma macro_next_returns dbg be it : returns (fst (macro_next dbg be it)).
Proof.
  destruct (macro_next_cases dbg be it) as [H|[(e & rest & H & _)|(e & _ & H)]];
    rewrite H; cbn [fst]; first [apply returns_ok|apply returns_err].
Qed.

Lemma macro_next_state dbg be it :
  let it' := snd (macro_next dbg be it) in
  mi_fmt64 it' = mi_fmt64 it /\ mi_is_macro it' = mi_is_macro it /\ suffix (mi_input it) (mi_input it').
Proof.
  destruct (macro_next_cases dbg be it) as [H|[(e & rest & H & Hc)|(e & _ & H)]];
    rewrite H; cbn [snd set_input mi_fmt64 mi_is_macro mi_input]; repeat split;
    first [apply suffix_nil|exact (consumed_is_suffix _ _ Hc)].
Qed.

Lemma macro_after_empty dbg be it : mi_input it = [] -> forall j, macro_after j dbg be it = it.
Proof.
  intros H j. induction j as [|j IH]; [reflexivity|].
  cbn [macro_after]. rewrite macro_next_empty by exact H. cbn [snd]. exact IH.
Qed.

Lemma none_forever dbg be it : mi_input it = [] ->
  forall j, fst (macro_next dbg be (macro_after j dbg be it)) = Ok None.
Proof.
  intros H j. rewrite macro_after_empty by exact H. rewrite macro_next_empty by exact H. reflexivity.
Qed.

(* with fuel above the number of remaining bytes the loop finishes, and what it collected is exactly
   what the successive calls of next() returned; after that every call returns Ok(None) *)
Lemma macro_run_spec dbg be : forall fuel it, (length (mi_input it) < fuel)%nat ->
  exists l, macro_run fuel dbg be it = Ok l /\
    (length l <= length (mi_input it))%nat /\
    (forall j, (j < length l)%nat -> ev_of (fst (macro_next dbg be (macro_after j dbg be it))) = nth_error l j) /\
    (forall j, (length l <= j)%nat -> fst (macro_next dbg be (macro_after j dbg be it)) = Ok None) /\
    (forall j e, nth_error l j = Some (EvErr e) -> S j = length l).
Proof.
  induction fuel as [|f IH]; intros it Hf; [lia|].
  (* whatever the first call returned, the calls after it are those made from the state it left *)
  assert (Hafter : forall r it', macro_next dbg be it = (r, it') -> forall j,
            fst (macro_next dbg be (macro_after (S j) dbg be it)) = fst (macro_next dbg be (macro_after j dbg be it'))).
  { intros r it' H j. cbn [macro_after]. rewrite H. reflexivity. }
  cbn [macro_run].
  destruct (macro_next_cases dbg be it) as [H|[(e & rest & H & Hc)|(e & Hin & H)]]; rewrite H.
  - exists []. split; [reflexivity|]. cbn [length]. split; [lia|]. split; [intros j Hj; lia|].
    split; [|intros [|j] e Hj; discriminate].
    intros [|j] _; [cbn [macro_after]; rewrite H; reflexivity|]. rewrite (Hafter _ _ H). now apply none_forever.
  - pose proof (consumed_length _ _ Hc) as Hlen.
    destruct (IH (set_input it rest)) as (l & -> & Hl & Hev & Hnone & Herr); [cbn [set_input mi_input]; lia|].
    cbn [bind]. exists (EvEntry e :: l). split; [reflexivity|].
    cbn [set_input mi_input] in Hl. cbn [length]. split; [lia|]. split; [|split].
    + intros [|j] Hj; [cbn [macro_after nth_error]; rewrite H; reflexivity|].
      rewrite (Hafter _ _ H). apply Hev. lia.
    + intros [|j] Hj; [lia|]. rewrite (Hafter _ _ H). apply Hnone. lia.
    + intros [|j] e' Hj; cbn [nth_error] in Hj; [discriminate|]. f_equal. eapply Herr; eassumption.
  - assert (Hpos : (1 <= length (mi_input it))%nat) by (destruct (mi_input it); [contradiction|cbn [length]; lia]).
    destruct f as [|f']; [lia|]. cbn [macro_run]. rewrite macro_next_empty by reflexivity. cbn [bind].
    exists [EvErr e]. split; [reflexivity|]. cbn [length]. split; [exact Hpos|]. split; [|split].
    + intros [|j] Hj; [|lia]. cbn [macro_after nth_error]. rewrite H. reflexivity.
    + intros [|j] Hj; [lia|]. rewrite (Hafter _ _ H). now apply none_forever.
    + intros [|[|j]] e' Hj; cbn [nth_error] in Hj; try discriminate. reflexivity.
Qed.

Lemma mskip_post n bs : post (suffix bs) (mskip n bs).
Proof.
  unfold mskip. destruct (N.of_nat (length bs) <? n); [exact I|].
  exists (firstn (N.to_nat n) bs). symmetry. apply firstn_skipn.
Qed.

(* the iterator starts inside the section *)
Lemma get_macinfo_post section offset :
  post (fun it => suffix section (mi_input it) /\ mi_fmt64 it = false /\ mi_is_macro it = false)
       (get_macinfo section offset).
Proof.
  unfold get_macinfo. apply (post_bind _ _ _ _ (mskip_post offset section)). intros inp _ S. repeat split. exact S.
Qed.

Lemma parse_header_post be bs :
  post (fun p => suffix bs (snd p) /\ mh_has_table (fst p) = false /\ mh_version (fst p) < two16 /\ mh_flags (fst p) < 256)
       (parse_header be bs).
Proof.
  unfold parse_header.
  apply (post_bind (fun p => suffix bs (snd p) /\ fst p < two16)).
  { apply post_intro; [exact (post_returns _ _ (leaves_un 2 be bs))|]. intros [v r1] H. split.
    - exact (post_ok _ _ _ (leaves_un 2 be bs) H).
    - apply read_un_value_lt in H. exact (proj1 H). }
  intros [v r1] _ [S1 Hv]. destruct r1 as [|b r2]; [exact I|]. cbn [read_u8 bind].
  assert (S2 : suffix bs r2) by (apply (suffix_trans _ _ _ S1); now exists [b]).
  apply (post_bind (fun p => suffix bs (snd p))).
  { destruct (flag_set (b2n b) DEBUG_LINE_OFFSET_FLAG); [|exact S2].
    apply (post_weaken _ _ _ (leaves_offset _ be r2)). intros p. exact (suffix_trans _ _ _ S2). }
  intros [lo r3] _ S3. unfold mh_has_table. destruct (flag_set (b2n b) OPCODE_OPERANDS_TABLE_FLAG) eqn:Ht; [exact I|].
  cbn [post fst snd mh_flags mh_version]. pose proof (b2n_lt b). auto.
Qed.

Lemma get_macros_post be section offset :
  post (fun it => suffix section (mi_input it) /\ mi_is_macro it = true) (get_macros be section offset).
Proof.
  unfold get_macros. apply (post_bind _ _ _ _ (mskip_post offset section)). intros inp _ S.
  apply (post_bind _ _ _ _ (parse_header_post be inp)). intros [h r] _ (S' & _). split; [|reflexivity].
  exact (suffix_trans _ _ _ S S').
Qed.

Lemma run_from_section dbg be section it : suffix section (mi_input it) ->
  returns (macro_run (S (length section)) dbg be it).
Proof.
  intros Hs. apply suffix_length in Hs.
  destruct (macro_run_spec dbg be (S (length section)) it) as (l & -> & _); [lia|]. apply returns_ok.
Qed.

Lemma no_nul_free s : no_nul s = true -> nul_free s.
Proof.
  intros H. apply Forall_forall. intros b Hb. apply (proj1 (forallb_forall _ _) H) in Hb.
  apply N.eqb_neq, negb_true_iff. exact Hb.
Qed.

Lemma read_offset_enc fmt be o r : fits_off fmt o = true -> read_offset fmt be (enc_off fmt be o ++ r) = Ok (o, r).
Proof.
  unfold read_offset, read_word, enc_off, fits_off, off_bytes. destruct fmt; intros H.
  - apply read_un_enc_un_small. change (p256 8) with two64. lia.
  - apply read_un_enc_un_small. change (p256 4) with two32. lia.
Qed.

Lemma p_line_str_enc dbg l s r : l < two64 -> no_nul s = true ->
  p_line_str dbg ((enc_uleb l ++ enc_cstr s) ++ r) = Ok ((l, s), r).
Proof.
  intros Hl Hs. unfold p_line_str, enc_cstr. rewrite <- !app_assoc, read_uleb128_enc by exact Hl. cbn [bind app].
  rewrite read_cstr_app by (apply no_nul_free; exact Hs). reflexivity.
Qed.
Lemma p_two_uleb_enc dbg a b r : a < two64 -> b < two64 ->
  p_two_uleb dbg ((enc_uleb a ++ enc_uleb b) ++ r) = Ok ((a, b), r).
Proof.
  intros Ha Hb. unfold p_two_uleb. rewrite <- app_assoc, read_uleb128_enc by exact Ha. cbn [bind].
  rewrite read_uleb128_enc by exact Hb. reflexivity.
Qed.
Lemma p_line_off_enc dbg fmt be l o r : l < two64 -> fits_off fmt o = true ->
  p_line_off dbg fmt be ((enc_uleb l ++ enc_off fmt be o) ++ r) = Ok ((l, o), r).
Proof.
  intros Hl Ho. unfold p_line_off. rewrite <- app_assoc, read_uleb128_enc by exact Hl. cbn [bind].
  rewrite read_offset_enc by exact Ho. reflexivity.
Qed.

Lemma enc_entry_cons fmt be e : exists b t, enc_entry fmt be e = b :: t.
Proof. destruct e as [l [s|o|i|o]|l [s|o|i|o]|l f| |o|o|n s]; cbn [enc_entry]; eauto. Qed.

Lemma enc_entries_cons fmt be e es : enc_entries fmt be (e :: es) = enc_entry fmt be e ++ enc_entries fmt be es.
Proof. reflexivity. Qed.

Lemma enc_entries_length fmt be es : (length es <= length (enc_entries fmt be es))%nat.
Proof.
  induction es as [|e es IH]; [cbn; lia|]. rewrite enc_entries_cons, app_length.
  destruct (enc_entry_cons fmt be e) as (b & t & ->). cbn [length]. lia.
Qed.

Lemma parse_next_enc dbg be fmt ism e rest :
  wf_entry ism fmt e = true ->
  parse_next dbg be {| mi_input := enc_entry fmt be e ++ rest; mi_fmt64 := fmt; mi_is_macro := ism |}
  = Ok (Some e, rest).
Proof.
  intros Hwf. unfold parse_next. cbn [mi_input mi_fmt64 mi_is_macro].
  destruct e as [l [s|o|i|o]|l [s|o|i|o]|l f| |o|o|n s]; cbn [enc_entry app read_u8 bind];
    cbn [wf_entry wf_mstring] in Hwf;
    repeat match goal with
    | H : _ && _ = true |- _ => apply andb_true_iff in H; destruct H
    | H : ism = true |- _ => subst ism
    | H : negb ism = true |- _ => destruct ism; [discriminate H|clear H]
    end;
    (* the type byte selects the arm of this entry *)
    rewrite b2n_n2b_small by reflexivity;
    unfold DW_MACRO_define, DW_MACRO_undef, DW_MACRO_start_file, DW_MACRO_end_file, DW_MACRO_define_strp,
      DW_MACRO_undef_strp, DW_MACRO_import, DW_MACRO_define_sup, DW_MACRO_undef_sup, DW_MACRO_import_sup,
      DW_MACRO_define_strx, DW_MACRO_undef_strx, DW_MACINFO_vendor_ext;
    cbn [N.eqb Pos.eqb andb];
    first [ rewrite p_line_str_enc by (first [assumption|lia])
          | rewrite p_two_uleb_enc by lia
          | rewrite p_line_off_enc by (first [assumption|lia])
          | rewrite read_offset_enc by assumption
          | idtac ];
    reflexivity.
Qed.

Lemma macro_next_enc dbg be fmt ism e rest :
  wf_entry ism fmt e = true ->
  macro_next dbg be {| mi_input := enc_entry fmt be e ++ rest; mi_fmt64 := fmt; mi_is_macro := ism |}
  = (Ok (Some e), {| mi_input := rest; mi_fmt64 := fmt; mi_is_macro := ism |}).
Proof.
  intros Hwf. unfold macro_next. rewrite parse_next_enc by exact Hwf. cbn [mi_input].
  destruct (enc_entry_cons fmt be e) as (b & t & ->). reflexivity.
Qed.

Lemma macro_next_end dbg be fmt ism tail : ends_list tail ->
  fst (macro_next dbg be {| mi_input := tail; mi_fmt64 := fmt; mi_is_macro := ism |}) = Ok None.
Proof. intros [->|(t & ->)]; reflexivity. Qed.

Lemma macro_run_enc dbg be fmt ism : forall es tail fuel,
  forallb (wf_entry ism fmt) es = true -> ends_list tail -> (length es < fuel)%nat ->
  macro_run fuel dbg be {| mi_input := enc_entries fmt be es ++ tail; mi_fmt64 := fmt; mi_is_macro := ism |}
  = Ok (map EvEntry es).
Proof.
  induction es as [|e es IH]; intros tail fuel Hwf Hend Hf; (destruct fuel as [|f]; [cbn [length] in Hf; lia|]).
  - cbn [enc_entries map concat app macro_run].
    pose proof (macro_next_end dbg be fmt ism tail Hend) as Hn.
    destruct (macro_next dbg be _) as [r it']. cbn [fst] in Hn. subst r. reflexivity.
  - cbn [forallb] in Hwf. apply andb_true_iff in Hwf. destruct Hwf as [He Hes].
    rewrite enc_entries_cons, <- app_assoc. cbn [macro_run]. rewrite macro_next_enc by exact He.
    rewrite IH by (try assumption; cbn [length] in Hf; lia). reflexivity.
Qed.

(* from an iterator standing at a well-formed list inside a section: the ignoring caller collects the entries, and call by
   call the j-th call of next() returns the j-th entry, every later call Ok(None) *)
Lemma roundtrip_from dbg be fmt ism es tail n :
  forallb (wf_entry ism fmt) es = true -> ends_list tail ->
  let it := {| mi_input := enc_entries fmt be es ++ tail; mi_fmt64 := fmt; mi_is_macro := ism |} in
  (length (mi_input it) <= n)%nat ->
  macro_run (S n) dbg be it = Ok (map EvEntry es) /\
  (forall j e, nth_error es j = Some e -> fst (macro_next dbg be (macro_after j dbg be it)) = Ok (Some e)) /\
  (forall j, (length es <= j)%nat -> fst (macro_next dbg be (macro_after j dbg be it)) = Ok None).
Proof.
  intros Hwf Hend it Hn.
  assert (Hlen : (length es <= length (mi_input it))%nat).
  { cbn [it mi_input]. rewrite app_length. pose proof (enc_entries_length fmt be es). lia. }
  split; [apply macro_run_enc; try assumption; lia|].
  destruct (macro_run_spec dbg be (S (length (mi_input it))) it) as (l & Hr & _ & Hev & Hnone & _); [lia|].
  unfold it in Hr at 2. rewrite macro_run_enc in Hr by (try assumption; lia). injection Hr as <-.
  rewrite map_length in *. split; [|exact Hnone].
  intros j e Hj.
  assert (Hlt : (j < length es)%nat) by (apply nth_error_Some; rewrite Hj; discriminate).
  specialize (Hev j Hlt). rewrite (map_nth_error EvEntry j es Hj) in Hev.
  destruct (fst (macro_next dbg be (macro_after j dbg be it))) as [[e'|]|e'| |]; cbn [ev_of] in Hev;
    inversion Hev; subst; reflexivity.
Qed.

Lemma mskip_app pre bs : mskip (N.of_nat (length pre)) (pre ++ bs) = Ok bs.
Proof.
  unfold mskip. rewrite app_length.
  destruct (N.of_nat (length pre + length bs) <? N.of_nat (length pre)) eqn:E; [lia|].
  rewrite Nat2N.id, skipn_app_exact. reflexivity.
Qed.

(* the header is read back; one announcing an operands table is rejected after its other fields were read *)
Lemma parse_header_enc be h rest : wf_header h = true ->
  parse_header be (enc_header be h ++ rest) =
  if mh_has_table h then Err EUnsupportedOpcodeOperandsTable else Ok (h, rest).
Proof.
  destruct h as [ver flags lo]. unfold enc_header, wf_header, mh_has_table, mh_has_line, mh_fmt64.
  cbn [mh_version mh_flags mh_line_offset]. intros Hwf.
  apply andb_true_iff in Hwf. destruct Hwf as [Hwf Hlo]. apply andb_true_iff in Hwf. destruct Hwf as [Hv Hf].
  unfold parse_header, read_u16. rewrite <- !app_assoc.
  rewrite read_un_enc_un_small by (change (p256 2) with two16; lia). cbn [bind app read_u8].
  rewrite b2n_n2b_small by lia.
  destruct (flag_set flags DEBUG_LINE_OFFSET_FLAG).
  - rewrite read_offset_enc by exact Hlo. reflexivity.
  - apply N.eqb_eq in Hlo. subst lo. reflexivity.
Qed.
