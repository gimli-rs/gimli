(* Proofs/FilterAttrsProofs.v — facts about Model/FilterAttrs.v (C19).
   The bounds rule: a unit-relative site records `unit_target`, which lies in the site's own unit, so on a well
   laid out forest it can only name a DIE of that unit.
   The attribute forest, flattened and seen through `entry_of`, is the forest the filter works on.
   entry_ids: for every DIE of the reserved set, ConvertUnit::convert_attributes under the filter's entry_ids and
   under the entry_ids of the unfiltered conversion give the same result once every id is read back as the source
   DIE it stands for, because the two maps agree on every reference of a reserved DIE. *)
From Coq Require Import List NArith ZArith Bool Lia FinFun.
Require Import GV.Base.Res GV.Base.Ints GV.Spec.Graph GV.Model.Filter GV.Spec.FilterSpec GV.Model.FilterAttrs.
Require Import GV.Proofs.Lib GV.Proofs.FilterProofs GV.Proofs.FilterEdges GV.Proofs.FilterConv.
Import ListNotations.
Local Open Scope N_scope.

(* all a site's carrier decides is whether its operand is a unit offset or a .debug_info offset *)
Lemma filter_refs_rel : forall u s,
  filter_refs u s = if site_unit_relative s then unit_target u (s_val s) else [s_val s].
Proof. intros u [[| |n op|k n op] v]; try reflexivity; destruct op; reflexivity. Qed.

Lemma push_site_refs_rel : forall dbg u s deps,
  push_site_refs dbg u s deps =
  if site_unit_relative s then push_unit_ref dbg u (s_val s) deps else push_info_ref (s_val s) deps.
Proof. intros dbg u [[| |n op|k n op] v] deps; try reflexivity; destruct op; reflexivity. Qed.

Lemma conv_site_info : forall u ids s, site_unit_relative s = false ->
  conv_site u ids s = convert_debug_info_ref ids (s_val s) /\ conv_refs u s = [s_val s].
Proof. intros u ids [[| |n op|k n op] v] H; try discriminate; try destruct op; try discriminate; split; reflexivity. Qed.

(* the guard makes the unchecked addition safe whenever the unit lies inside an addressable section *)
Lemma push_unit_ref_exact : forall dbg u v deps, unit_end u <= 2 ^ 64 ->
  push_unit_ref dbg u v deps = Ok (deps ++ unit_target u v).
Proof.
  intros dbg u v deps Hend. unfold push_unit_ref, unit_target.
  destruct (in_bounds u v) eqn:E; [|now rewrite app_nil_r].
  apply in_bounds_iff in E. unfold to_unit_section_offset, unit_end, sec in *.
  rewrite chk_add_ok by lia. reflexivity.
Qed.

Lemma push_site_refs_exact : forall dbg u s deps, unit_end u <= 2 ^ 64 ->
  push_site_refs dbg u s deps = Ok (deps ++ filter_refs u s).
Proof.
  intros dbg u s deps Hend. rewrite push_site_refs_rel, filter_refs_rel.
  destruct (site_unit_relative s); [now apply push_unit_ref_exact|reflexivity].
Qed.

(* every target recorded for a unit-relative site lies inside the byte range of the site's own unit *)
Lemma unit_relative_target_in_unit : forall u s y,
  site_unit_relative s = true -> In y (filter_refs u s) -> in_unit u y = true.
Proof.
  intros u s y Hrel Hy. rewrite filter_refs_rel, Hrel in Hy. unfold unit_target in Hy.
  destruct (in_bounds u (s_val s)) eqn:E; [|destruct Hy].
  destruct Hy as [<-|[]]. apply in_bounds_iff in E. apply in_unit_iff. unfold sec, unit_end. lia.
Qed.

Section ATreeInd.
  Variable P : atree -> Prop.
  Variable Q : list atree -> Prop.
  Hypothesis HN : forall e ks, Q ks -> P (ANode e ks).
  Hypothesis Hnil : Q [].
  Hypothesis Hcons : forall t l, P t -> Q l -> Q (t :: l).
  Fixpoint atree_ind2 (t : atree) : P t :=
    match t with
    | ANode e ks =>
        HN e ks ((fix go (l : list atree) : Q l :=
                    match l with
                    | [] => Hnil
                    | t' :: l' => Hcons t' l' (atree_ind2 t') (go l')
                    end) ks)
    end.
  Lemma aforest_ind2 : forall l, Q l.
  Proof. induction l as [|t l IH]; [exact Hnil|]. apply Hcons; auto. apply atree_ind2. Qed.
End ATreeInd.

Definition raw_of (r : arawent) : rawent :=
  {| r_ent := entry_of (ar_ent r); r_depth := ar_depth r; r_kids := ar_kids r |}.

Lemma is_nil_map : forall (A B : Type) (f : A -> B) l, is_nil (map f l) = is_nil l.
Proof. intros A B f [|x l]; reflexivity. Qed.

Lemma aflatten_tree_eq : forall d e ks,
  aflatten_tree d (ANode e ks) =
  {| ar_ent := e; ar_depth := d; ar_kids := negb (is_nil ks) |} :: aflatten_list (d + 1) ks.
Proof.
  intros d e ks. cbn [aflatten_tree]. f_equal.
  induction ks as [|k ks IH]; cbn [aflatten_list]; auto. now rewrite IH.
Qed.

Lemma aflatten_raw : forall l d, map raw_of (aflatten_list d l) = flatten_list d (map tree_of l).
Proof.
  apply (aforest_ind2
           (fun t => forall d, map raw_of (aflatten_tree d t) = flatten_tree d (tree_of t))
           (fun l => forall d, map raw_of (aflatten_list d l) = flatten_list d (map tree_of l))).
  - intros e ks IH d. rewrite aflatten_tree_eq. cbn [tree_of]. rewrite flatten_tree_eq. cbn [map].
    rewrite IH. unfold raw_of at 1. cbn [ar_ent ar_depth ar_kids]. now rewrite is_nil_map.
  - reflexivity.
  - intros t l Ht Hl d. cbn [aflatten_list map flatten_list]. now rewrite map_app, Ht, Hl.
Qed.

Lemma aflatten_entries : forall l d, map ar_ent (aflatten_list d l) = aforest_entries l.
Proof.
  apply (aforest_ind2
           (fun t => forall d, map ar_ent (aflatten_tree d t) = atree_entries t)
           (fun l => forall d, map ar_ent (aflatten_list d l) = aforest_entries l)).
  - intros e ks IH d. rewrite aflatten_tree_eq. cbn [map ar_ent]. rewrite IH.
    replace (atree_entries (ANode e ks)) with (e :: aforest_entries ks) by reflexivity. reflexivity.
  - reflexivity.
  - intros t l Ht Hl d. cbn [aflatten_list aforest_entries]. now rewrite map_app, Ht, Hl.
Qed.

(* every DIE of the attribute forest is a DIE of the forest the filter works on *)
Lemma aentry_occurs : forall aunits au e, In au aunits -> In e (aunit_entries au) ->
  exists par, occurs (map unit_of aunits) (unit_of au) (entry_of e) par.
Proof.
  intros aunits au e Hau He.
  assert (H : In (entry_of e) (map fst (unit_pairs (unit_of au)))).
  { rewrite <- unit_raw_ents. unfold unit_raw, unit_of. cbn [u_kids].
    rewrite <- aflatten_raw, map_map. change (fun r => r_ent (raw_of r)) with (fun r => entry_of (ar_ent r)).
    rewrite <- (map_map ar_ent entry_of), aflatten_entries. now apply in_map. }
  apply in_map_iff in H. destruct H as [[e' par] [Heq Hin]]. cbn [fst] in Heq. subst e'.
  exists par. split; [now apply in_map|exact Hin].
Qed.

(* a unit-relative reference names a DIE of its own unit or nothing *)

Lemma forest_offs_pairs : forall l top,
  forest_offs l = map (fun p => e_off (fst p)) (forest_pairs top l).
Proof.
  apply (forest_ind2
           (fun t => forall top, tree_offs t = map (fun p => e_off (fst p)) (tree_pairs top t))
           (fun l => forall top, forest_offs l = map (fun p => e_off (fst p)) (forest_pairs top l))).
  - intros e ks IH top. rewrite tree_pairs_eq. cbn [map fst].
    replace (tree_offs (Node e ks)) with (e_off e :: forest_offs ks) by reflexivity.
    f_equal. apply IH.
  - reflexivity.
  - intros t l Ht Hl top. cbn [forest_offs forest_pairs]. rewrite map_app, <- Ht, <- Hl. reflexivity.
Qed.

Lemma own_die_iff : forall u v, own_die u v = true <-> exists e par, In (e, par) (unit_pairs u) /\ e_off e = v.
Proof.
  intros u v. unfold own_die. rewrite mem_n_iff, (forest_offs_pairs (u_kids u) None), in_map_iff. split.
  - intros [[e par] [He Hin]]. exists e, par. auto.
  - intros [e [par [Hin He]]]. exists (e, par). auto.
Qed.

(* on the DIEs of the forest the filter's view and the "own unit only" view of a site coincide *)
Lemma filter_own_refs : forall units u s y,
  wf_layout units -> In u units -> f_valid units y ->
  (In y (filter_refs u s) <-> In y (own_refs u s)).
Proof.
  intros units u s y Hlay Hu Hv. unfold own_refs. rewrite filter_refs_rel.
  destruct (site_unit_relative s); [|tauto]. unfold unit_target. split.
  - destruct (in_bounds u (s_val s)) eqn:Eb; [|intros []]. intros [<-|[]].
    (* the DIE at that offset lies in the byte range of u, so it is a DIE of u *)
    destruct Hv as [u' [e' [par' [Hocc' Heq]]]].
    assert (Hin : in_unit u (sec u (s_val s)) = true).
    { apply in_bounds_iff in Eb. apply in_unit_iff. unfold sec, unit_end. lia. }
    assert (u = u').
    { eapply ordered_unit_unique; [exact (proj1 Hlay)|exact Hu|apply Hocc'|exact Hin|].
      rewrite Heq. eapply occurs_in_unit; eauto. }
    subst u'.
    assert (Hown : own_die u (s_val s) = true).
    { apply own_die_iff. exists e', par'. split; [apply Hocc'|unfold sec in Heq; lia]. }
    rewrite Hown. now left.
  - destruct (own_die u (s_val s)) eqn:Hown; [|intros []]. intros [<-|[]].
    apply own_die_iff in Hown. destruct Hown as [e' [par' [Hin' Hoff]]].
    destruct Hlay as [_ Hins]. destruct (Hins u e' par' (conj Hu Hin')) as [H1 H2].
    assert (Hb : in_bounds u (s_val s) = true) by (apply in_bounds_iff; lia).
    rewrite Hb. now left.
Qed.

Lemma im_get_in : forall y m id, im_get y m = Some id -> In (y, id) m.
Proof.
  intros y m. induction m as [|[k v] m IH]; intros id H; cbn [im_get] in H; [discriminate|].
  destruct (im_get y m) as [v'|] eqn:E.
  - right. apply IH. congruence.
  - destruct (y =? k) eqn:Ek; [|discriminate]. apply N.eqb_eq in Ek. left. congruence.
Qed.

Lemma im_get_none : forall y m, im_get y m = None <-> ~ In y (map fst m).
Proof.
  intros y m. induction m as [|[k v] m IH]; cbn [im_get map fst In]; [tauto|].
  destruct (im_get y m) as [v'|] eqn:E.
  - split; [discriminate|]. intros H. exfalso. apply H. right.
    apply im_get_in in E. apply in_map_iff. exists (y, v'). auto.
  - destruct (y =? k) eqn:Ek.
    + apply N.eqb_eq in Ek. split; [discriminate|]. intros H. exfalso. apply H. left. congruence.
    + apply N.eqb_neq in Ek. split; [|reflexivity]. intros _ [H|H]; [congruence|]. now apply IH.
Qed.

Lemma mem_n_keys : forall x (m : idmap), mem_n x (map fst m) = match im_get x m with Some _ => true | None => false end.
Proof.
  intros x m. destruct (im_get x m) as [id|] eqn:E.
  - apply mem_n_iff. apply im_get_in in E. apply in_map_iff. exists (x, id). auto.
  - apply im_get_none in E. apply not_true_iff_false. now rewrite mem_n_iff.
Qed.

Lemma im_src_in : forall id m y, NoDup (map snd m) -> In (y, id) m -> im_src id m = Some y.
Proof.
  intros id m y. induction m as [|[k [a b]] m IH]; intros Hnd Hin; [destruct Hin|].
  cbn [map snd] in Hnd. inversion Hnd as [|? ? Hnot Hnd']; subst. cbn [im_src].
  destruct Hin as [Heq|Hin].
  - inversion Heq; subst. cbn [fst snd]. now rewrite !N.eqb_refl.
  - destruct ((a =? fst id) && (b =? snd id)) eqn:E.
    + exfalso. apply andb_true_iff in E. destruct E as [E1 E2]. apply N.eqb_eq in E1, E2.
      apply Hnot. apply in_map_iff. exists (y, id). split; [|exact Hin].
      destruct id as [i1 i2]. cbn [fst snd] in *. cbn [snd]. congruence.
    + now apply IH.
Qed.

(* a key of a map with distinct ids is found, under an id that stands for it *)
Lemma im_known : forall (m : idmap) y, NoDup (map snd m) -> In y (map fst m) ->
  exists id, im_get y m = Some id /\ im_src id m = Some y.
Proof.
  intros m y Hnd Hy. destruct (im_get y m) as [id|] eqn:E.
  - exists id. split; auto. apply im_src_in; auto. now apply im_get_in.
  - apply im_get_none in E. contradiction.
Qed.

Lemma combine_fst_len : forall (A B : Type) (l : list A) (l' : list B), length l = length l' ->
  map fst (combine l l') = l.
Proof.
  intros A B l. induction l as [|x l IH]; intros [|y l'] H; cbn in *; try discriminate; auto.
  f_equal. apply IH. lia.
Qed.
Lemma combine_snd_len : forall (A B : Type) (l : list A) (l' : list B), length l = length l' ->
  map snd (combine l l') = l'.
Proof.
  intros A B l. induction l as [|x l IH]; intros [|y l'] H; cbn in *; try discriminate; auto.
  f_equal. apply IH. lia.
Qed.

Lemma section_ids_keys : forall units sl j, map fst (section_ids j units sl) = reserve_all units sl.
Proof.
  induction units as [|u us IH]; intros [|s sl] j; cbn [section_ids reserve_all]; try reflexivity.
  rewrite map_app, IH. unfold unit_ids. cbn [map fst app]. f_equal. f_equal.
  apply combine_fst_len. now rewrite map_length, seq_length.
Qed.

Lemma unit_ids_snd : forall j u s id, In id (map snd (unit_ids j u s)) ->
  id = (j, 0) \/ exists i, id = (j, N.of_nat i) /\ (1 <= i)%nat.
Proof.
  intros j u s id H. unfold unit_ids in H. cbn [map snd] in H. destruct H as [<-|H]; [now left|].
  rewrite combine_snd_len in H by now rewrite map_length, seq_length.
  apply in_map_iff in H. destruct H as [i [<- Hi]]. apply in_seq in Hi. right. exists i. split; [reflexivity|lia].
Qed.

Lemma section_ids_units_ge : forall units sl j id, In id (map snd (section_ids j units sl)) -> j <= fst id.
Proof.
  induction units as [|u us IH]; intros [|s sl] j id H; cbn [section_ids] in H; try (now destruct H).
  rewrite map_app, in_app_iff in H. destruct H as [H|H].
  - apply unit_ids_snd in H. destruct H as [->|[i [-> _]]]; cbn; lia.
  - apply IH in H. lia.
Qed.

Lemma nodup_app : forall (A : Type) (l1 l2 : list A), NoDup l1 -> NoDup l2 ->
  (forall x, In x l1 -> In x l2 -> False) -> NoDup (l1 ++ l2).
Proof.
  intros A l1. induction l1 as [|a l1 IH]; intros l2 H1 H2 Hd; [exact H2|].
  inversion H1; subst. cbn. constructor.
  - rewrite in_app_iff. intros [H|H]; [auto|]. apply (Hd a); [now left|exact H].
  - apply IH; auto. intros x Hx. apply Hd. now right.
Qed.

Lemma section_ids_nodup : forall units sl j, NoDup (map snd (section_ids j units sl)).
Proof.
  induction units as [|u us IH]; intros [|s sl] j; cbn [section_ids]; try apply NoDup_nil.
  rewrite map_app. apply nodup_app.
  - unfold unit_ids. cbn [map snd]. rewrite combine_snd_len by now rewrite map_length, seq_length.
    constructor.
    + intros H. apply in_map_iff in H. destruct H as [i [Heq Hi]]. apply in_seq in Hi.
      inversion Heq. lia.
    + apply FinFun.Injective_map_NoDup; [|apply seq_NoDup].
      intros a b Hab. inversion Hab. lia.
  - apply IH.
  - intros id H1 H2. apply section_ids_units_ge in H2.
    apply unit_ids_snd in H1. destruct H1 as [->|[i [-> _]]]; cbn in H2; lia.
Qed.

Lemma ids_all_keys : forall units x,
  In x (map fst (ids_all units)) <-> is_root units x \/ f_valid units x.
Proof.
  intros units x. unfold ids_all. rewrite section_ids_keys, reserve_all_in, <- ids_all_in, in_flat_map.
  cbn [In]. split; intros [u [Hu [H|H]]]; exists u; auto.
Qed.

Definition dec (m : idmap) (r : res (list eid)) : res (list (option N)) :=
  let* l := r in Ok (map (fun id => im_src id m) l).

(* the two maps agree on the offset y: unknown to both, or known to both under ids that stand for y *)
Definition agree (mF mA : idmap) (y : N) : Prop :=
  (im_get y mF = None /\ im_get y mA = None) \/
  (exists idF idA, im_get y mF = Some idF /\ im_get y mA = Some idA /\
                   im_src idF mF = Some y /\ im_src idA mA = Some y).

(* whatever the carrier, a site is converted by a bounds test and the look-up of `conv_refs` in entry_ids; the
   ids of a location-list entry with begin = end are dropped with the entry *)
Fixpoint lookups (e : error) (m : idmap) (ys : list N) : res (list eid) :=
  match ys with
  | [] => Ok []
  | y :: ys' => match im_get y m with Some id => let* r := lookups e m ys' in Ok (id :: r) | None => Err e end
  end.
Definition site_keep (s : site) (l : list eid) : list eid :=
  match s_car s with CLoc LocEmpty _ _ => [] | _ => l end.

Lemma cv_site_spec : forall u m s,
  cv_site u m s =
  if site_inb u s then let* l := lookups (site_err s) m (conv_refs u s) in Ok (site_keep s l)
  else Err CInvalidUnitRef.
Proof.
  intros u m [[| |n op|k n op] v]; try destruct op; cbn;
    unfold one, cv_unit_ref, cv_info_ref, unit_target;
    try destruct (v =? 0); cbn; try destruct (in_bounds u v); cbn; try destruct (im_get _ m); cbn;
    try destruct k; reflexivity.
Qed.

Lemma lookups_agree : forall e mF mA ys, (forall y, In y ys -> agree mF mA y) ->
  dec mF (lookups e mF ys) = dec mA (lookups e mA ys).
Proof.
  intros e mF mA ys. induction ys as [|y ys IH]; intros H; [reflexivity|]. cbn [lookups].
  specialize (IH (fun z Hz => H z (or_intror Hz))).
  destruct (H y (or_introl eq_refl)) as [[-> ->]|[idF [idA [-> [-> [HF HA]]]]]]; [reflexivity|].
  destruct (lookups e mF ys), (lookups e mA ys); cbn in IH |- *; rewrite ?HF, ?HA; congruence.
Qed.

Lemma dec_site : forall u mF mA s, (forall y, In y (conv_refs u s) -> agree mF mA y) ->
  dec mF (cv_site u mF s) = dec mA (cv_site u mA s).
Proof.
  intros u mF mA s H. rewrite !cv_site_spec. destruct (site_inb u s); [|reflexivity].
  pose proof (lookups_agree (site_err s) mF mA _ H) as Hl.
  destruct (lookups _ mF _), (lookups _ mA _); cbn in Hl |- *; try congruence.
  unfold site_keep. destruct (s_car s) as [| | |[] ? ?]; cbn; congruence.
Qed.

Lemma dec_bind2 : forall m (ra rb : res (list eid)),
  dec m (let* a := ra in let* b := rb in Ok (a ++ b)) =
  (let* a := dec m ra in let* b := dec m rb in Ok (a ++ b)).
Proof.
  intros m ra rb. destruct ra as [a| | |]; cbn; try reflexivity.
  destruct rb as [b| | |]; cbn; try reflexivity. now rewrite map_app.
Qed.

Lemma dec_sites : forall u mF mA ss, (forall s y, In s ss -> In y (conv_refs u s) -> agree mF mA y) ->
  dec mF (cv_sites u mF ss) = dec mA (cv_sites u mA ss).
Proof.
  intros u mF mA ss. induction ss as [|s ss IH]; intros H; [reflexivity|].
  cbn [cv_sites]. rewrite !dec_bind2.
  rewrite (dec_site u mF mA s) by (intros y Hy; apply (H s y); [now left|exact Hy]).
  rewrite IH by (intros s' y Hs' Hy; apply (H s' y); [now right|exact Hy]). reflexivity.
Qed.

Lemma decode_attrs_cons : forall m name body (X : res (list eid)) (Y : res (list cattr)),
  decode_attrs m (let* ids := X in let* r := Y in Ok ({| ca_name := name; ca_body := body; ca_refs := ids |} :: r)) =
  (let* ids := dec m X in let* r := decode_attrs m Y in
   Ok ({| da_name := name; da_body := body; da_refs := ids |} :: r)).
Proof.
  intros m name body X Y. destruct X as [a| | |]; cbn; try reflexivity.
  destruct Y as [b| | |]; cbn; reflexivity.
Qed.

Lemma decode_attributes_eq : forall u mF mA l,
  (forall a s y, In a l -> In s (at_sites a) -> In y (conv_refs u s) -> agree mF mA y) ->
  decode_attrs mF (cv_attributes u mF l) = decode_attrs mA (cv_attributes u mA l).
Proof.
  intros u mF mA l. induction l as [|a l IH]; intros H; [reflexivity|].
  cbn [cv_attributes]. destruct (at_name a =? DW_AT_GNU_locviews).
  - apply IH. intros a' s y Ha'. apply H. now right.
  - rewrite !decode_attrs_cons.
    rewrite (dec_sites u mF mA (at_sites a)) by (intros s y Hs Hy; apply (H a s y); auto; now left).
    rewrite IH by (intros a' s y Ha'; apply H; now right). reflexivity.
Qed.

(* the same for the tolerant loop: the same attributes survive *)
Lemma decode_attributes_tol_eq : forall u mF mA l,
  (forall a s y, In a l -> In s (at_sites a) -> In y (conv_refs u s) -> agree mF mA y) ->
  map (decode_attr mF) (cv_attributes_tol u mF l) = map (decode_attr mA) (cv_attributes_tol u mA l).
Proof.
  intros u mF mA l. induction l as [|a l IH]; intros H; [reflexivity|].
  assert (IH' : map (decode_attr mF) (cv_attributes_tol u mF l) = map (decode_attr mA) (cv_attributes_tol u mA l)).
  { apply IH. intros a' s y Ha'. apply H. now right. }
  cbn [cv_attributes_tol]. destruct (at_name a =? DW_AT_GNU_locviews); [exact IH'|].
  assert (Hd : dec mF (cv_sites u mF (at_sites a)) = dec mA (cv_sites u mA (at_sites a))).
  { apply dec_sites. intros s y Hs Hy. apply (H a s y); auto. now left. }
  destruct (cv_sites u mF (at_sites a)) as [l1| | |], (cv_sites u mA (at_sites a)) as [l2| | |];
    cbn in Hd; try discriminate; try exact IH'.
  cbn [map]. rewrite IH'. unfold decode_attr at 1 3. cbn [ca_name ca_body ca_refs]. inversion Hd. reflexivity.
Qed.

(* every id a conversion puts into an attribute was found in entry_ids *)
Lemma lookups_ids : forall e m ys l id, lookups e m ys = Ok l -> In id l -> exists y, im_get y m = Some id.
Proof.
  intros e m ys. induction ys as [|y ys IH]; intros l id H Hin; cbn [lookups] in H.
  - inversion H; subst. destruct Hin.
  - destruct (im_get y m) as [i|] eqn:E; [|discriminate].
    destruct (lookups e m ys) as [r| | |]; cbn in H; try discriminate.
    inversion H; subst. destruct Hin as [<-|Hin]; eauto.
Qed.

Lemma cv_site_ids : forall u m s l id, cv_site u m s = Ok l -> In id l -> exists y, im_get y m = Some id.
Proof.
  intros u m s l id H Hin. rewrite cv_site_spec in H. destruct (site_inb u s); [|discriminate].
  destruct (lookups (site_err s) m (conv_refs u s)) as [l0| | |] eqn:E; cbn in H; try discriminate.
  inversion H; subst. apply (lookups_ids _ _ _ _ _ E).
  unfold site_keep in Hin. destruct (s_car s) as [| | |[] ? ?]; auto; destruct Hin.
Qed.

Lemma cv_sites_ids : forall u m ss l id, cv_sites u m ss = Ok l -> In id l -> exists y, im_get y m = Some id.
Proof.
  intros u m ss. induction ss as [|s ss IH]; intros l id H Hin; cbn [cv_sites] in H.
  - inversion H; subst. destruct Hin.
  - destruct (cv_site u m s) as [a| | |] eqn:Ea; cbn in H; try discriminate.
    destruct (cv_sites u m ss) as [b| | |] eqn:Eb; cbn in H; try discriminate.
    inversion H; subst. apply in_app_iff in Hin. destruct Hin as [Hin|Hin].
    + eapply cv_site_ids; eauto.
    + eapply IH; eauto.
Qed.

Lemma cv_attributes_ids : forall u m l out a id, cv_attributes u m l = Ok out -> In a out -> In id (ca_refs a) ->
  exists y, im_get y m = Some id.
Proof.
  intros u m l. induction l as [|a0 l IH]; intros out a id H Ha Hid; cbn [cv_attributes] in H.
  - inversion H; subst. destruct Ha.
  - destruct (at_name a0 =? DW_AT_GNU_locviews); [eapply IH; eauto|].
    destruct (cv_sites u m (at_sites a0)) as [ids| | |] eqn:Es; cbn in H; try discriminate.
    destruct (cv_attributes u m l) as [r| | |] eqn:Er; cbn in H; try discriminate.
    inversion H; subst. destruct Ha as [<-|Ha].
    + cbn [ca_refs] in Hid. eapply cv_sites_ids; eauto.
    + eapply IH; eauto.
Qed.

(* the filter's entry_ids: its keys are the unit roots and the reserved DIEs, its ids are distinct, and on the
   reference sites of a reserved DIE it agrees with the entry_ids of the unfiltered conversion, since the filter
   recorded those references and the reserved set is closed under them                          *)
Lemma reserved_agree : forall (dbg : bool) (req : N -> bool) (aunits : list aunit),
  wf_offsets (map unit_of aunits) -> wf_layout (map unit_of aunits) ->
  exists S mF,
    reserved filter_refs dbg req (map unit_of aunits) = Ok S /\
    ids_filtered dbg req (map unit_of aunits) = Ok mF /\
    (forall x, In x (map fst mF) <-> is_root (map unit_of aunits) x \/ In x S) /\
    NoDup (map snd mF) /\
    forall au e, In au aunits -> In e (aunit_entries au) -> In (sec (unit_of au) (ae_off e)) S ->
    forall a s y, In a (filter attr_kept (ae_attrs e)) -> In s (at_sites a) -> In y (conv_refs (unit_of au) s) ->
      agree mF (ids_all (map unit_of aunits)) y.
Proof.
  intros dbg req aunits Hwf Hlay. set (units := map unit_of aunits) in *.
  destruct (filtered_ids filter_refs dbg req units Hwf Hlay)
    as [S [ids [HS [_ [[_ [_ [Hrefs _]]] [Hvalid [Hsl [Hdef HkF]]]]]]]].
  exists S, (section_ids 0 units (map (fun u => filter (in_unit u) S) units)).
  rewrite section_ids_keys, <- Hdef.
  split; [exact HS|]. split; [unfold ids_filtered; rewrite HS; cbn [bind]; now rewrite Hsl|].
  split; [exact HkF|]. split; [apply section_ids_nodup|].
  set (mF := section_ids 0 units _). set (mA := ids_all units).
  assert (HkF' : forall x, In x (map fst mF) <-> is_root units x \/ In x S).
  { intros x. unfold mF. now rewrite section_ids_keys, <- Hdef. }
  intros au e Hau He HeS a s y Ha Hs Hy.
  destruct (aentry_occurs aunits au e Hau He) as [par Hocc]. fold units in Hocc.
  assert (Hsite : In s (e_sites (entry_of e))).
  { unfold entry_of, fu_filter_attributes. cbn [e_sites]. apply in_flat_map. exists a. auto. }
  destruct (im_get y mA) as [idA|] eqn:EA.
  - assert (HyA : In y (map fst mA)).
    { apply im_get_in in EA. apply in_map_iff. exists (y, idA). auto. }
    assert (HyF : In y (map fst mF)).
    { apply HkF'. apply ids_all_keys in HyA. destruct HyA as [Hr|Hv]; [now left|right].
      apply (Hrefs (unit_of au) (entry_of e) par s y Hocc Hsite); auto.
      now apply filter_refs_complete. }
    destruct (im_known mF y (section_ids_nodup _ _ _) HyF) as [idF [H1 H2]].
    destruct (im_known mA y (section_ids_nodup _ _ _) HyA) as [idA' [H3 H4]].
    right. exists idF, idA'. auto.
  - left. split; [|exact EA]. apply im_get_none. apply im_get_none in EA.
    intros HyF. apply EA. apply ids_all_keys. apply HkF' in HyF. destruct HyF as [Hr|Hs']; [now left|right; auto].
Qed.
