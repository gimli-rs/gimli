(* Proofs/OpDecProofs.v — lemmas about Model/OpDec.v (Operation::parse). *)
From Coq Require Import List NArith ZArith Bool Lia ZifyBool ZifyN ZifyNat.
From Coq.Strings Require Import Byte.
Require Import GV.Base.Res GV.Base.Byt GV.Base.Ints GV.Spec.LebSpec GV.Model.Leb GV.Model.Prim
  GV.Model.OpDec GV.Model.OpVal GV.Spec.StackSpec GV.Proofs.LebProofs GV.Proofs.PrimProofs GV.Proofs.WidthProofs.
Import ListNotations.
Local Open Scope N_scope.

Lemma read_u8_un (be : bool) (bs : list byte) : read_u8 bs = read_un 1 be bs.
Proof.
  destruct bs as [|b r]; [reflexivity|].
  unfold read_u8, read_un, read_bytes. cbn [take bind].
  destruct be; unfold be_val; cbn [rev app le_val]; f_equal; f_equal; lia.
Qed.

Ltac dt_step :=
  match goal with
  | |- ?a = ?a => reflexivity
  | |- context [bind (if ?c then _ else _) _] => destruct c eqn:?
  | |- context [bind ?x _] =>
      lazymatch x with
      | context [bind _ _] => fail
      | Ok _ => fail
      | Err _ => fail
      | _ => destruct x as [[? ?]| ? | |]
      end
  | |- context [if ?c then _ else _] => destruct c eqn:?
  end.

Lemma decode_table_lemma (dbg : bool) (e : enc) (opc : byte) (bs : list byte) :
  parse_opcode dbg e opc bs = generic_decode dbg e opc bs.
Proof.
  unfold generic_decode. destruct opc; cbn [parse_opcode op_layout read_operands bind]; try reflexivity.
  (* the opcodes with operands: the same readers on both sides, in the same order *)
  all: unfold parse_wasm, read_operand, read_register, register_from_u64, read_offset, read_u, read_i, two16, two64;
    rewrite ?(read_u8_un (e_be e)); cbn [bind app op_build b2n Byte.to_N];
    repeat (dt_step; cbn [bind app op_build b2n Byte.to_N]); try reflexivity; try (exfalso; lia).
Qed.

(* ---------------------------------------------------------------- no panic, input consumption *)

(* r is what is left of bs after removing a prefix *)
Definition sfx (r bs : list byte) : Prop := exists u, bs = u ++ r.

Lemma sfx_refl bs : sfx bs bs.
Proof. now exists []. Qed.
Lemma sfx_trans a b c : sfx a b -> sfx b c -> sfx a c.
Proof. intros [u ->] [v ->]. exists (v ++ u). now rewrite app_assoc. Qed.
Lemma sfx_cons b r bs : sfx r bs -> sfx r (b :: bs).
Proof. intros [u ->]. now exists (b :: u). Qed.
Lemma sfx_length r bs : sfx r bs -> (length r <= length bs)%nat.
Proof. intros [u ->]. rewrite app_length. lia. Qed.

(* a reader result that is no panic, no fuel exhaustion, and leaves a suffix of its input *)
Definition rgood {A} (bs : list byte) (r : res (A * list byte)) : Prop :=
  r <> Panic /\ r <> OutOfFuel /\ forall v rest, r = Ok (v, rest) -> sfx rest bs.

Lemma rgood_ok {A} bs (v : A) r : sfx r bs -> rgood bs (Ok (v, r)).
Proof. intros H. split; [|split]; try discriminate. intros v' r' E. now inversion E; subst. Qed.
Lemma rgood_err {A} bs e : @rgood A bs (Err e).
Proof. split; [|split]; discriminate. Qed.
Lemma rgood_weaken {A} r bs (x : res (A * list byte)) : sfx r bs -> rgood r x -> rgood bs x.
Proof. intros S (H1 & H2 & H3). split; [|split]; auto. intros v rest E. eapply sfx_trans; eauto. Qed.
Lemma rgood_bind {A B} bs (m : res (A * list byte)) (f : A * list byte -> res (B * list byte)) :
  rgood bs m -> (forall v r, sfx r bs -> rgood bs (f (v, r))) -> rgood bs (bind m f).
Proof.
  intros (H1 & H2 & H3) Hf. destruct m as [[v r]| e | |]; cbn [bind].
  - apply Hf. exact (H3 v r eq_refl).
  - apply rgood_err.
  - now destruct H1.
  - now destruct H2.
Qed.
(* bind of a pure (non-reader) step *)
Lemma rgood_bind_pure {A B} bs (m : res A) (f : A -> res (B * list byte)) :
  m <> Panic -> m <> OutOfFuel -> (forall v, rgood bs (f v)) -> rgood bs (bind m f).
Proof. intros H1 H2 Hf. destruct m; cbn [bind]; auto using rgood_err; contradiction. Qed.

Lemma read_bytes_good n bs : rgood bs (read_bytes n bs).
Proof.
  unfold read_bytes. destruct (take n bs) as [[h t]|] eqn:E; [|apply rgood_err].
  apply rgood_ok. exists h. now apply take_ok in E.
Qed.
Lemma read_un_good n be bs : rgood bs (read_un n be bs).
Proof. unfold read_un. apply rgood_bind; [apply read_bytes_good|]. intros v r S. now apply rgood_ok. Qed.
Lemma read_in_good n be bs : rgood bs (read_in n be bs).
Proof. unfold read_in. apply rgood_bind; [apply read_un_good|]. intros v r S. now apply rgood_ok. Qed.
Lemma read_u8_good bs : rgood bs (read_u8 bs).
Proof. rewrite (read_u8_un false). apply read_un_good. Qed.
Lemma read_address_good sz be bs : rgood bs (read_address sz be bs).
Proof. unfold read_address. repeat (destruct (_ =? _)); auto using read_un_good, rgood_err. Qed.
Lemma read_word_good f be bs : rgood bs (read_word f be bs).
Proof. unfold read_word. destruct f; apply read_un_good. Qed.

Lemma read_uleb128_good dbg bs : rgood bs (read_uleb128 dbg bs).
Proof.
  rewrite read_uleb128_exact. unfold uleb_spec.
  destruct (split_leb bs) as [[en r]|] eqn:S.
  - apply split_leb_app in S. destruct (_ && _); [|apply rgood_err]. apply rgood_ok. now exists en.
  - destruct (_ <=? _)%nat; apply rgood_err.
Qed.
Lemma read_sleb128_good dbg bs : rgood bs (read_sleb128 dbg bs).
Proof.
  rewrite read_sleb128_exact. unfold sleb_spec.
  destruct (split_leb bs) as [[en r]|] eqn:S.
  - apply split_leb_app in S. destruct (_ && _); [|apply rgood_err]. apply rgood_ok. now exists en.
  - destruct (_ <=? _)%nat; apply rgood_err.
Qed.
Lemma read_uleb128_u32_good dbg bs : rgood bs (read_uleb128_u32 dbg bs).
Proof.
  unfold read_uleb128_u32. apply rgood_bind; [apply read_uleb128_good|]. intros v r S.
  destruct (_ <? _); auto using rgood_ok, rgood_err.
Qed.
Lemma split_n_good len bs : rgood bs (split_n len bs).
Proof.
  unfold split_n. destruct (_ <? _); [apply rgood_err|]. apply rgood_ok.
  exists (firstn (N.to_nat len) bs). now rewrite firstn_skipn.
Qed.
Lemma read_register_good dbg bs : rgood bs (read_register dbg bs).
Proof.
  unfold read_register. apply rgood_bind; [apply read_uleb128_good|]. intros v r S.
  unfold register_from_u64. destruct (_ <? _); cbn [bind]; auto using rgood_ok, rgood_err.
Qed.
Lemma read_offset_good e bs : rgood bs (read_offset e bs).
Proof. apply read_word_good. Qed.

Global Hint Resolve read_un_good read_in_good read_u8_good read_address_good read_word_good read_uleb128_good
  read_sleb128_good read_uleb128_u32_good split_n_good read_register_good read_offset_good sfx_refl rgood_err : rgood.

Ltac rgood_step :=
  match goal with
  | |- rgood _ (Ok (_, _)) => apply rgood_ok; eauto using sfx_trans, sfx_refl
  | |- rgood _ (Err _) => apply rgood_err
  | |- rgood _ (if ?c then _ else _) => destruct c
  | |- rgood _ (bind (if ?c then _ else _) _) => destruct c
  | |- rgood ?bs (bind ?m _) =>
      apply rgood_bind;
      [ first [ solve [auto with rgood]
              | match goal with S : sfx ?r bs |- rgood bs (_ ?r) => apply (rgood_weaken r bs _ S); auto with rgood end
              | match goal with S : sfx ?r bs |- rgood bs (_ _ ?r) => apply (rgood_weaken r bs _ S); auto with rgood end
              | match goal with S : sfx ?r bs |- rgood bs (_ _ _ ?r) => apply (rgood_weaken r bs _ S); auto with rgood end
              | match goal with S : sfx ?r bs |- rgood bs (_ _ _ _ ?r) => apply (rgood_weaken r bs _ S); auto with rgood end ]
      | intros ? ? ?; cbn beta iota ]
  end.

Lemma parse_wasm_good dbg e bs : rgood bs (parse_wasm dbg e bs).
Proof. unfold parse_wasm, read_u. repeat rgood_step. Qed.

Lemma parse_opcode_good dbg e opc bs : rgood bs (parse_opcode dbg e opc bs).
Proof.
  destruct opc; unfold parse_opcode; try apply rgood_err; try apply parse_wasm_good;
    unfold read_u, read_i; repeat rgood_step.
Qed.

Lemma parse_op_good dbg e bs : rgood bs (parse_op dbg e bs).
Proof.
  destruct bs as [|b r]; [apply rgood_err|]. cbn [parse_op].
  eapply rgood_weaken; [|apply parse_opcode_good]. apply sfx_cons, sfx_refl.
Qed.

Lemma parse_op_no_panic_lemma dbg e bs : parse_op dbg e bs <> Panic /\ parse_op dbg e bs <> OutOfFuel.
Proof. destruct (parse_op_good dbg e bs) as (H1 & H2 & _). now split. Qed.

(* a successful parse consumes the opcode byte and possibly more *)
Lemma parse_op_consumes dbg e bs o rest :
  parse_op dbg e bs = Ok (o, rest) -> exists b u, bs = b :: u ++ rest.
Proof.
  destruct bs as [|b r]; [discriminate|]. cbn [parse_op]. intros H.
  destruct (parse_opcode_good dbg e b r) as (_ & _ & H3). destruct (H3 _ _ H) as [u ->]. now exists b, u.
Qed.
Lemma parse_op_shorter dbg e bs o rest :
  parse_op dbg e bs = Ok (o, rest) -> (length rest < length bs)%nat.
Proof.
  intros H. apply parse_op_consumes in H. destruct H as (b & u & ->). cbn [length]. rewrite app_length. lia.
Qed.

(* decoding does not depend on the build mode *)
Lemma read_operand_dbg e k bs : read_operand true e k bs = read_operand false e k bs.
Proof.
  destruct k; cbn [read_operand]; unfold read_uleb128_u32; rewrite ?read_uleb128_exact, ?read_sleb128_exact; try reflexivity.
  destruct (read_u8 bs) as [[sub r]| | |]; cbn [bind]; try reflexivity.
  now rewrite !read_uleb128_exact.
Qed.
Lemma read_operands_dbg e ks : forall bs, read_operands true e ks bs = read_operands false e ks bs.
Proof.
  induction ks as [|k ks IH]; intros bs; cbn [read_operands]; [reflexivity|].
  rewrite read_operand_dbg. destruct (read_operand false e k bs) as [[a r]| | |]; cbn [bind]; try reflexivity.
  now rewrite IH.
Qed.
Lemma parse_op_dbg e bs : parse_op true e bs = parse_op false e bs.
Proof.
  destruct bs as [|b r]; [reflexivity|]. cbn [parse_op]. rewrite !decode_table_lemma.
  unfold generic_decode. destruct (op_layout b); [|reflexivity]. now rewrite read_operands_dbg.
Qed.

(* OperationIter: the stated fuel suffices, and the iteration neither panics nor loops *)
Lemma operations_fuel_ok dbg e : forall fuel bs, (length bs < fuel)%nat ->
  snd (operations_fuel fuel dbg e bs) <> Some OutOfFuel /\ snd (operations_fuel fuel dbg e bs) <> Some Panic.
Proof.
  induction fuel as [|f IH]; intros bs L; [lia|]. cbn [operations_fuel].
  destruct bs as [|b r] eqn:Ebs; [cbn; split; discriminate|]. rewrite <- Ebs in *.
  destruct (parse_op_no_panic_lemma dbg e bs) as [NP NF].
  destruct (parse_op dbg e bs) as [[o rest]| x | |] eqn:P; try contradiction.
  - apply parse_op_shorter in P. specialize (IH rest ltac:(lia)).
    destruct (operations_fuel f dbg e rest) as [l t]. exact IH.
  - cbn; split; discriminate.
Qed.

(* ---------------------------------------------------------------- decode (encode o) = o *)
Lemma read_uleb128_enc dbg v r : v < 2 ^ 64 -> read_uleb128 dbg (enc_uleb v ++ r) = Ok (v, r).
Proof. exact (LebProofs.read_uleb128_enc dbg v r). Qed.
Lemma read_enc_sleb dbg z r : in_i64 z = true -> read_sleb128 dbg (enc_sleb z ++ r) = Ok (z, r).
Proof.
  intros H. unfold enc_sleb. destruct (sleb_min_agrees 10 z) as (_ & _ & _ & _ & ->).
  apply read_sleb128_enc; [lia|exact H].
Qed.
Lemma read_in_enc n be z r : (n = 1 \/ n = 2 \/ n = 4 \/ n = 8)%nat -> in_signed (8 * N.of_nat n) z = true ->
  read_in n be (enc_un n be (of_signed (8 * N.of_nat n) z) ++ r) = Ok (z, r).
Proof.
  intros Hn H. unfold read_in. rewrite read_un_enc_un_small by (rewrite p256_pow2; apply of_signed_lt).
  cbn [bind]. now rewrite to_signed_of_signed by (assumption || lia).
Qed.
Lemma split_n_app d r : split_n (N.of_nat (length d)) (d ++ r) = Ok (d, r).
Proof.
  unfold split_n. rewrite app_length. destruct (_ <? _) eqn:E; [lia|].
  now rewrite Nat2N.id, firstn_app_exact, skipn_app_exact.
Qed.
Lemma read_u8_enc v r : v < 256 -> read_u8 (n2b v :: r) = Ok (v, r).
Proof. intros H. cbn [read_u8]. now rewrite b2n_n2b_small. Qed.
Lemma read_register_enc dbg v r : v < 65536 -> read_register dbg (enc_uleb v ++ r) = Ok (v, r).
Proof.
  intros H. unfold read_register, register_from_u64, two16. rewrite read_uleb128_enc by lia. cbn [bind].
  destruct (v <? 65536) eqn:E; [reflexivity|lia].
Qed.
Lemma read_offset_enc e v r : fits_off e v -> read_offset e (enc_off e v ++ r) = Ok (v, r).
Proof. unfold fits_off, read_offset, read_word, enc_off. destruct (e_fmt64 e); intros H; apply read_un_enc_un_small; exact H. Qed.
Lemma read_address_enc e v r : fits_addr e v -> read_address (e_asz e) (e_be e) (enc_addr e v ++ r) = Ok (v, r).
Proof.
  intros [A B]. unfold enc_addr, read_address.
  destruct A as [A | [A | [A | A]]]; rewrite A in *; apply read_un_enc_un_small; exact B.
Qed.
Lemma read_i16_enc e t r : in_signed 16 t = true -> read_i 2 e (enc_i16 e t ++ r) = Ok (t, r).
Proof. intros H. apply (read_in_enc 2); [now right; left|exact H]. Qed.

(* reading back one encoded operand after the other *)
Ltac rt_side := first [ assumption | lia | (unfold u64 in *; lia) | tauto ].
Ltac rt :=
  repeat (rewrite <- ?app_assoc; cbn [app bind]; unfold read_u;
    first [ rewrite read_uleb128_enc by rt_side
          | rewrite read_enc_sleb by rt_side
          | rewrite read_un_enc_un_small by rt_side
          | rewrite read_u8_enc by rt_side
          | rewrite read_register_enc by rt_side
          | rewrite read_offset_enc by rt_side
          | rewrite read_address_enc by rt_side
          | rewrite read_i16_enc by rt_side
          | rewrite read_uleb128_u32_enc by rt_side
          | rewrite split_n_app ]); cbn [app bind].

Lemma decode_roundtrip_lemma dbg e o rest : wf_op e o -> parse_op dbg e (enc_op e o ++ rest) = Ok (o, rest).
Proof.
  intros W. destruct o; cbn [enc_op wf_op] in *; unfold enc_block; try reflexivity.
  all: try (cbn [app parse_op parse_opcode]; rt; reflexivity).
  - (* Deref: with or without a base type *)
    destruct (base_type =? 0) eqn:E; [apply N.eqb_eq in E; subst|]; destruct space; cbn [app parse_op parse_opcode]; rt; reflexivity.
  - (* RegisterOffset: bregx, or regval_type when there is a base type (then the offset is 0) *)
    destruct W as (W1 & W2 & W3 & W4).
    destruct (base_type =? 0) eqn:E; [apply N.eqb_eq in E; subst|apply N.eqb_neq in E; rewrite (W4 E)];
      cbn [app parse_op parse_opcode]; rt; reflexivity.
  - (* Call *) destruct offset; cbn [app parse_op parse_opcode]; rt; reflexivity.
  - (* Piece: DW_OP_piece counts bytes *)
    destruct bit_offset as [off|]; cbn [app parse_op parse_opcode]; [rt; reflexivity|].
    destruct W as [W1 W2]. unfold u64 in W2.
    rewrite read_uleb128_enc by (eapply N.le_lt_trans; [apply (N.div_le_upper_bound size_in_bits 8 size_in_bits); lia|exact W2]).
    cbn [bind]. rewrite N.mul_comm, <- (proj2 (N.div_exact size_in_bits 8 ltac:(lia)) W1), two64_eq.
    destruct (size_in_bits <? 2 ^ 64) eqn:E; [reflexivity|lia].
  - (* ImplicitPointer: an address in DWARF 2, an offset later *)
    cbn [app parse_op parse_opcode]. destruct (e_ver e =? 2); rt; reflexivity.
  - (* Wasm *) cbn [app parse_op parse_opcode parse_wasm read_u8 bind b2n Byte.to_N N.eqb]. rt. reflexivity.
  - cbn [app parse_op parse_opcode parse_wasm read_u8 bind b2n Byte.to_N N.eqb]. rt. reflexivity.
  - cbn [app parse_op parse_opcode parse_wasm read_u8 bind b2n Byte.to_N N.eqb]. rt. reflexivity.
Qed.
