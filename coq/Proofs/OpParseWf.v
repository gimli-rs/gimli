(* Proofs/OpParseWf.v — whatever the reader model decodes is a value of gimli's Operation type in the sense of
   StackSpec.wf_op (field widths, register < 2^16, piece size a whole number of bytes, ...): every opcode.
   One sweep over the opcodes (parse_wf_parsed) gives the field ranges; the address size enters only through the
   operand-less deref forms. *)
From Coq Require Import List NArith ZArith Bool Lia ZifyBool ZifyN ZifyNat.
From Coq.Strings Require Import Byte.
Require Import GV.Base.Res GV.Base.Byt GV.Base.Ints GV.Spec.LebSpec GV.Model.Leb GV.Model.Prim GV.Proofs.LebProofs.
Require Import GV.Model.OpDec GV.Model.OpVal GV.Model.OpEval GV.Spec.StackSpec GV.Proofs.PrimProofs GV.Proofs.OpDecProofs GV.Proofs.OpEvalProofs.
Import ListNotations.
Local Open Scope N_scope.

Lemma R_un n be bs v r : read_un n be bs = Ok (v, r) -> v < 256 ^ N.of_nat n.
Proof. intros H. exact (proj1 (read_un_value_lt _ _ _ _ _ H)). Qed.

Lemma R_in n be bs z r : (0 < n)%nat -> read_in n be bs = Ok (z, r) -> in_signed (8 * N.of_nat n) z = true.
Proof.
  unfold read_in. intros Hn H. apply bind_ok in H as ([v t] & _ & H). injection H as <- _.
  destruct (to_signed_range (8 * N.of_nat n) v ltac:(lia)) as [H1 H2].
  apply andb_true_intro. split; [apply Z.leb_le|apply Z.ltb_lt]; assumption.
Qed.

Lemma R_reg dbg bs v r : read_register dbg bs = Ok (v, r) -> v < 65536.
Proof.
  unfold read_register, register_from_u64. destruct (read_uleb128 dbg bs) as [[x t]|e| |]; cbn [bind]; try discriminate.
  destruct (x <? two16) eqn:E; cbn [bind]; [|discriminate]. intros H; inversion H; subst. unfold two16 in E. lia.
Qed.
Lemma R_addr sz be bs v r : read_address sz be bs = Ok (v, r) ->
  (sz = 1 \/ sz = 2 \/ sz = 4 \/ sz = 8) /\ v < 256 ^ sz.
Proof.
  intros H. destruct (read_address_ok _ _ _ _ _ H) as (Hs & h & _ & _ & _ & Hv). apply size_ok_cases in Hs.
  split; [exact Hs|]. change 256 with (2 ^ 8). rewrite <- N.pow_mul_r. exact Hv.
Qed.
Lemma R_off e bs v r : read_offset e bs = Ok (v, r) -> fits_off e v.
Proof.
  unfold read_offset, read_word, fits_off. destruct (e_fmt64 e); intros H; apply R_un in H; exact H.
Qed.
Lemma R_split len bs d r : split_n len bs = Ok (d, r) -> N.of_nat (length d) = len.
Proof.
  unfold split_n. destruct (N.of_nat (length bs) <? len) eqn:E; [discriminate|]. intros H; inversion H; subst.
  rewrite firstn_length. lia.
Qed.
Lemma in_signed_i64 k z : (k = 8 \/ k = 16 \/ k = 32) -> in_signed k z = true -> in_i64 z = true.
Proof.
  unfold in_signed, in_i64. intros [->|[->| ->]];
    match goal with |- context [Z.of_N ?p] => let x := eval vm_compute in (Z.of_N p) in change (Z.of_N p) with x end; lia.
Qed.

(* what the primitive readers guarantee about the value they return *)
Ltac ranges :=
  repeat match goal with
  | H : read_u _ _ _ = Ok _ |- _ => unfold read_u in H
  | H : read_i _ _ _ = Ok _ |- _ => unfold read_i in H
  | H : read_un _ _ _ = Ok _ |- _ => apply R_un in H
  | H : read_in ?n _ _ = Ok _ |- _ => apply (R_in n) in H; [|lia]
  | H : read_uleb128 _ _ = Ok _ |- _ => apply read_uleb128_ok in H; destruct H as (? & _ & _ & _ & H)
  | H : read_sleb128 _ _ = Ok _ |- _ => apply read_sleb128_ok in H; destruct H as (? & _ & _ & _ & H)
  | H : read_register _ _ = Ok _ |- _ => apply R_reg in H
  | H : read_uleb128_u32 _ _ = Ok _ |- _ => apply read_uleb128_u32_ok in H; destruct H as (? & _ & _ & _ & H)
  | H : read_address _ _ _ = Ok _ |- _ => apply R_addr in H
  | H : read_offset _ _ = Ok _ |- _ => apply R_off in H
  | H : split_n _ _ = Ok _ |- _ => apply R_split in H
  | H : read_u8 _ = Ok (?v, _) |- _ =>
      let b := fresh "b" in apply read_u8_ok in H; destruct H as (b & _ & H); pose proof (b2n_lt b); subst v
  end.

(* StackSpec.wf_op, except that the operand-less DW_OP_deref / DW_OP_xderef carry the address size as their size,
   whatever it is *)
Definition wf_parsed (e : enc) (o : operation) : Prop :=
  match o with
  | ODeref bt size _ => u64 bt /\ (size < 256 \/ (bt = 0 /\ size = e_asz e))
  | _ => wf_op e o
  end.

Theorem parse_wf_parsed dbg e bs o r : parse_op dbg e bs = Ok (o, r) -> wf_parsed e o.
Proof.
  intros H. destruct bs as [|opc t]; [discriminate|]. cbn [parse_op] in H.
  destruct opc; cbn [parse_opcode] in H; try discriminate H; unfold parse_wasm in H.
  all: peel.
  all: repeat match goal with H : (if ?c then _ else _) = Ok _ |- _ => destruct c eqn:? end.
  all: ranges.
  all: cbn [wf_parsed wf_op]; unfold u64, fits_addr, two64, two32 in *.
  all: repeat match goal with |- context [b2n ?b - ?k] => let v := eval vm_compute in (b2n b - k) in change (b2n b - k) with v end.
  all: change (N.of_nat 1) with 1 in *; change (N.of_nat 2) with 2 in *; change (N.of_nat 4) with 4 in *; change (N.of_nat 8) with 8 in *.
  all: change (8 * 1) with 8 in *; change (8 * 2) with 16 in *; change (8 * 4) with 32 in *; change (8 * 8) with 64 in *.
  all: try match goal with |- context [e_ver ?x =? 2] => destruct (e_ver x =? 2) end.
  all: try tauto.
  all: try (repeat split; try assumption; try reflexivity; try tauto; try (intros X; exfalso; apply X; reflexivity);
            try (subst; lia)).
  all: eapply in_signed_i64; [|eassumption]; tauto.
Qed.

Theorem parse_wf dbg e bs o r : e_asz e < 256 -> parse_op dbg e bs = Ok (o, r) -> wf_op e o.
Proof.
  intros Ha H. apply parse_wf_parsed in H. destruct o; try exact H.
  destruct H as [Hb [Hs|[_ ->]]]; split; assumption.
Qed.
