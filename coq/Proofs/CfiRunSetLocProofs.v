(* Proofs/CfiRunSetLocProofs.v — the table evaluation through encoded DW_CFA_set_loc (Model/CfiRunSetLoc.v).
   The loops are CfiRunProofs' generic ones at the parser parse_insn_sl, which consumes input: so fde_rows_sl
   refines CfaSpec.run_spec_lim on (CIE items, FDE items decoded with the FDE's address encoding), has the shape of
   a table and never crashes. Here: that parser, agreement with CfiRun where that is exact, and the set_loc operand
   inside the table. The section-level theorems follow by CfiUwiProofs.uwi_via_*. *)
From Coq Require Import List NArith ZArith Bool Lia ZifyBool ZifyN ZifyNat.
From Coq.Strings Require Import Byte.
Require Import GV.Base.Res GV.Base.Byt GV.Base.Ints GV.Model.Leb GV.Model.Prim.
Require Import GV.Spec.CfaSpec GV.Model.CfiRun GV.Model.CfiRd GV.Model.CfiUwi GV.Model.CfiRunSetLoc.
Require Import GV.Proofs.CfiRunProofs.
Require Import GV.Proofs.CfiRdBase GV.Proofs.CfiRdPtr GV.Proofs.CfiRdBs GV.Proofs.CfiRdIter GV.Proofs.CfiRdSafe GV.Proofs.CfiRdHdr GV.Proofs.CfiRdEnt.
Require Import GV.Proofs.CfiUwiProofs.
Import ListNotations.
Local Open Scope N_scope.

(* the items an iterator with instruction parser P yields from position it on; convertible with
   CfiRunProofs.dec_with *)
Section Items.
Variable P : N -> list byte -> res (insn * list byte).

Definition dec_g (it : cfi_iter) : list CfaSpec.item := decode_fuel_g P (S (length (it_bytes it))) it.
End Items.

Lemma valid_asize_asz_ok a : valid_asize a = true -> asz_ok a.
Proof. intros H. apply valid_asize_cases in H. exact H. Qed.

(* the FDE's instruction parser consumes input and never panics *)
Lemma parse_insn_sl_tame dbg c aa fd off bs :
  asz_ok (ci_asz (fd_cie fd)) -> tame bs (parse_insn_sl dbg c aa fd off bs).
Proof.
  intros Hasz. unfold parse_insn_sl.
  destruct (fde_addr_enc fd) as [e|] eqn:He; [|apply parse_insn_tame].
  destruct bs as [|b r]; [apply parse_insn_tame|].
  destruct (b2n b =? 1); [|apply parse_insn_tame].
  unfold parse_set_loc. rewrite He.
  pose proof (pep_returns dbg (sc_be c) e (mkpp (sc_bases c) None (ci_asz (fd_cie fd))) (mkrd (off + 1) r) Hasz) as [S1 S2].
  destruct (parse_encoded_pointer dbg (sc_be c) e (mkpp (sc_bases c) None (ci_asz (fd_cie fd))) (mkrd (off + 1) r))
    as [[p r1]|e1| |] eqn:E; try congruence; cbn [bind tame]; [|exact I].
  apply pep_advanced, advanced_length in E; [|exact Hasz]. cbn [win] in E.
  destruct p; cbn [pointer_direct bind tame]; [cbn [length]; lia|exact I].
Qed.

Lemma parse_insn_sl_tame_valid dbg c aa fd :
  valid_asize (ci_asz (fd_cie fd)) = true -> forall off bs, tame bs (parse_insn_sl dbg c aa fd off bs).
Proof. intros Hv off bs. apply parse_insn_sl_tame, valid_asize_asz_ok, Hv. Qed.

(* what the reader's table of the FDE record fd must equal: the DWARF call-frame machine (C06 spec, storage limits as
   a guard) on the CIE's initial instructions and on the FDE's instructions AS ITS ITERATOR DECODES THEM, i.e.
   DW_CFA_set_loc operands under the CIE's FDE address encoding *)
Definition spec_of_sl (dbg : bool) (cp : caps) (c : scfg) (aa : bool) (fd : CfiRd.fde) : list srow * outcome :=
  let f := fde_in_of (sc_be c) aa fd in
  run_spec_lim cp (sparams_of f) (f_init f) (spec_end (f_asize f) (f_init f) (f_range f))
    (decode dbg (f_dparams f) (f_cie_off f) (f_cie f)) (fde_items_sl dbg c aa fd).

Theorem model_eq_spec_sl dbg cp c aa fd cx :
  valid_asize (ci_asz (fd_cie fd)) = true ->
  cap_full (max_stack cp) 0 = false ->
  Forall2 row_equiv (fst (fst (fde_rows_sl dbg cp c aa fd cx))) (fst (spec_of_sl dbg cp c aa fd)) /\
  snd (fst (fde_rows_sl dbg cp c aa fd cx)) = snd (spec_of_sl dbg cp c aa fd).
Proof.
  intros Hv. exact (rows_with_eq_spec _ (parse_insn_sl_tame_valid dbg c aa fd Hv) dbg cp (fde_in_of (sc_be c) aa fd) cx Hv).
Qed.

(* FrameDescriptionEntry::unwind_info_for_address = first row of fde.rows() containing the address *)
Lemma fde_uwi_sl_pick dbg cp c aa fd cx a :
  fst (fde_uwi_sl dbg cp c aa fd cx a) =
  pick a (fst (fst (fde_rows_sl dbg cp c aa fd cx))) (snd (fst (fde_rows_sl dbg cp c aa fd cx))).
Proof.
  unfold fde_uwi_sl, fde_rows_sl. cbv zeta.
  destruct (negb (valid_asize (f_asize (fde_in_of (sc_be c) aa fd)))); [reflexivity|].
  destruct (table_new dbg cp (fde_in_of (sc_be c) aa fd) cx) as [t|e| |]; try reflexivity.
  apply find_row_collect_g.
Qed.

Lemma parse_insn_sl_plain dbg c aa fd : fde_addr_enc fd = None ->
  forall off bs, parse_insn_sl dbg c aa fd off bs = parse_insn dbg (sc_be c) (ci_asz (fd_cie fd)) aa off bs.
Proof. intros H off bs. unfold parse_insn_sl. rewrite H. reflexivity. Qed.

(* with an encoding: as long as no instruction of the FDE starts with opcode 0x01 (DW_CFA_set_loc) *)
Fixpoint no_op1 (fuel : nat) (P : N -> list byte -> res (insn * list byte)) (it : cfi_iter) : bool :=
  match fuel with
  | O => true
  | S f =>
      match it_bytes it with
      | [] => true
      | b :: _ =>
          negb (b2n b =? 1) &&
          match iter_next_g P it with
          | (Ok (Some _), it') => no_op1 f P it'
          | _ => true
          end
      end
  end.

Definition setloc_free (dbg : bool) (c : scfg) (aa : bool) (fd : CfiRd.fde) : bool :=
  no_op1 (S (length (win (fd_instr fd)))) (parse_insn_sl dbg c aa fd)
         {| it_off := CfiRd.off (fd_instr fd); it_bytes := win (fd_instr fd) |}.

Lemma no_op1_decode dbg c aa fd : forall fuel it,
  no_op1 fuel (parse_insn_sl dbg c aa fd) it = true ->
  decode_fuel_g (parse_insn_sl dbg c aa fd) fuel it =
  decode_fuel fuel dbg (f_dparams (fde_in_of (sc_be c) aa fd)) it.
Proof.
  induction fuel as [|f IH]; intros it H; [reflexivity|]. cbn [no_op1 decode_fuel_g decode_fuel] in *.
  assert (E : iter_next_g (parse_insn_sl dbg c aa fd) it = CfiRun.iter_next dbg (f_dparams (fde_in_of (sc_be c) aa fd)) it).
  { unfold iter_next_g, CfiRun.iter_next. destruct (it_bytes it) as [|b r] eqn:Eb; [reflexivity|].
    apply andb_true_iff in H. destruct H as [Hb _].
    unfold parse_insn_sl. destruct (fde_addr_enc fd); [|reflexivity].
    destruct (b2n b =? 1); [discriminate|reflexivity]. }
  rewrite <- E. destruct (it_bytes it) as [|b r] eqn:Eb.
  - unfold iter_next_g. rewrite Eb. reflexivity.
  - apply andb_true_iff in H. destruct H as [_ H].
    destruct (iter_next_g (parse_insn_sl dbg c aa fd) it) as [[[i|]|e| |] it']; try reflexivity.
    f_equal. apply IH. exact H.
Qed.

Lemma fde_uwi_sl_spec dbg cp c aa fd cx a :
  valid_asize (ci_asz (fd_cie fd)) = true -> cap_full (max_stack cp) 0 = false ->
  uwi_result_spec a (fst (spec_of_sl dbg cp c aa fd)) (snd (spec_of_sl dbg cp c aa fd))
                  (fst (fde_uwi_sl dbg cp c aa fd cx a)).
Proof.
  intros Hv Hc. rewrite fde_uwi_sl_pick.
  destruct (model_eq_spec_sl dbg cp c aa fd cx Hv Hc) as (H1 & H2). rewrite H2.
  apply pick_row_equiv. exact H1.
Qed.

Lemma uwi_sl_first_covering dbg cp c aa sec cx a items fds :
  asz_ok (sc_asz c) -> entries_all dbg c sec = Ok (items, None) -> parsed_fdes dbg c sec items = Some fds ->
  fst (unwind_info_for_address_sl dbg cp c aa sec cx a) =
  match find (fun f => covers f a) fds with
  | Some fd => fst (fde_uwi_sl dbg cp c aa fd cx a)
  | None => Err ENoUnwindInfoForAddress
  end.
Proof. exact (uwi_via_linear dbg c _ sec cx a items fds). Qed.

(* wherever the FDE's iterator stands on opcode 0x01 under an address encoding, the next item is SetLoc of the
   pointer CfiUwi.parse_set_loc reads at the offset after the opcode, and decoding goes on after the operand *)
Lemma dec_g_set_loc dbg c aa fd enc off r :
  fde_addr_enc fd = Some enc -> asz_ok (ci_asz (fd_cie fd)) ->
  dec_g (parse_insn_sl dbg c aa fd) {| it_off := off; it_bytes := n2b 1 :: r |} =
  match parse_set_loc dbg c fd (mkrd (off + 1) r) with
  | Ok (a, r1) => It (ISetLoc a) :: dec_g (parse_insn_sl dbg c aa fd)
                                      {| it_off := off + consumed (n2b 1 :: r) (win r1); it_bytes := win r1 |}
  | Err e => [Bad e]
  | Panic => [BadPanic]
  | OutOfFuel => [BadFuel]
  end.
Proof.
  intros He Hasz. change dec_g with dec_with.
  rewrite (dec_with_unfold _ (fun o bs => parse_insn_sl_tame dbg c aa fd o bs Hasz)).
  unfold iter_next_g. cbn [it_bytes it_off]. unfold parse_insn_sl. rewrite He.
  change (b2n (n2b 1) =? 1) with true. cbv iota.
  destruct (parse_set_loc dbg c fd (mkrd (off + 1) r)) as [[a r1]|e| |]; reflexivity.
Qed.

Definition spec_unl_sl (dbg : bool) (c : scfg) (aa : bool) (fd : CfiRd.fde) : list srow * outcome :=
  let f := fde_in_of (sc_be c) aa fd in
  run_spec (sparams_of f) (f_init f) (spec_end (f_asize f) (f_init f) (f_range f))
    (decode dbg (f_dparams f) (f_cie_off f) (f_cie f)) (fde_items_sl dbg c aa fd).
Definition within_limits_sl (dbg : bool) (cp : caps) (c : scfg) (aa : bool) (fd : CfiRd.fde) : bool :=
  let f := fde_in_of (sc_be c) aa fd in
  fits_run cp (sparams_of f) (f_init f) (decode dbg (f_dparams f) (f_cie_off f) (f_cie f)) (fde_items_sl dbg c aa fd).

Lemma spec_of_sl_unl dbg cp c aa fd :
  within_limits_sl dbg cp c aa fd = true -> spec_of_sl dbg cp c aa fd = spec_unl_sl dbg c aa fd.
Proof.
  unfold within_limits_sl, spec_of_sl, spec_unl_sl. cbv zeta. intros H.
  match goal with |- run_spec_lim ?c ?p ?i ?e ?ci ?fi = _ => destruct (run_spec_fits c p i e ci fi) as [(_ & E)|(F & _)] end;
    [exact E|congruence].
Qed.

Lemma rows_shape_sl dbg cp c aa fd cx :
  shape (fd_init fd) (end_address (fde_in_of (sc_be c) aa fd))
        (map mspan (fst (fst (fde_rows_sl dbg cp c aa fd cx)))) (snd (fst (fde_rows_sl dbg cp c aa fd cx))).
Proof.
  destruct (valid_asize (ci_asz (fd_cie fd))) eqn:Hv.
  - exact (rows_with_shape _ (parse_insn_sl_tame_valid dbg c aa fd Hv) dbg cp (fde_in_of (sc_be c) aa fd) cx).
  - change (fde_rows_sl dbg cp c aa fd cx) with (rows_with (parse_insn_sl dbg c aa fd) dbg cp (fde_in_of (sc_be c) aa fd) cx).
    rewrite rows_with_invalid by exact Hv. cbn. split; [exact I|constructor].
Qed.

Lemma no_panic_sl dbg cp c aa fd cx :
  cap_full (max_stack cp) 0 = false ->
  snd (fst (fde_rows_sl dbg cp c aa fd cx)) <> Crash /\ snd (fst (fde_rows_sl dbg cp c aa fd cx)) <> Fuel.
Proof.
  intros Hc. destruct (valid_asize (ci_asz (fd_cie fd))) eqn:Hv.
  - exact (rows_with_no_panic _ (parse_insn_sl_tame_valid dbg c aa fd Hv) dbg cp (fde_in_of (sc_be c) aa fd) cx Hc).
  - change (fde_rows_sl dbg cp c aa fd cx) with (rows_with (parse_insn_sl dbg c aa fd) dbg cp (fde_in_of (sc_be c) aa fd) cx).
    rewrite rows_with_invalid by exact Hv. cbn. split; discriminate.
Qed.
