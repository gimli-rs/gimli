(* The static form of reading-side transparency (C18).  The simulation of RelocProofs has a side condition on the
   ghost trace of the relocating run.  Here the condition is stated on the field map of the parser on the applied
   section (what a plain reader sees after linking): if no relocation site touches a span the parser reads plainly,
   every site touching a relocatable field is exactly that field, and the relocated values fit, then the relocating
   run is acceptable, hence transparent.  Proved once for every `prog`. *)
From Coq Require Import List NArith ZArith Bool Lia ZifyBool ZifyN ZifyNat.
From Coq.Strings Require Import Byte.
Require Import GV.Base.Res GV.Base.Byt GV.Base.Ints GV.Model.Leb GV.Model.Prim GV.Spec.FormSpec GV.Model.Attr.
Require Import GV.Model.Reloc GV.Proofs.RelocProofs GV.Model.RelocPar.
Import ListNotations.
Local Open Scope N_scope.


Lemma pt_plain_eq {A} base (f : list byte -> res (A * list byte)) r :
  pt_plain base f r = ([EvPlain (off r - base) (N.of_nat (span (win r) (f (win r))))], rd_lift f r).
Proof.
  unfold pt_plain, rd_lift, rd_len, blen.
  destruct (f (win r)) as [[a rest]|e| |]; cbn [bind span win]; rewrite ?Nat2N.inj_sub; reflexivity.
Qed.

Lemma pt_rel_snd base w f r : snd (pt_rel base w f r) = rd_lift f r.
Proof. unfold pt_rel. destruct (rd_lift f r) as [[a r']|e| |]; reflexivity. Qed.

Lemma tbind_snd {A B} (t : tres A) (g : A -> tres B) : snd (tbind t g) = bind (snd t) (fun a => snd (g a)).
Proof. unfold tbind. destruct t as [tr [a|e| |]]; reflexivity. Qed.

Lemma bind_ext {A B} (r : res A) (f g : A -> res B) : (forall a, f a = g a) -> bind r f = bind r g.
Proof. intros H. destruct r; cbn [bind]; auto. Qed.

Lemma run_plain_tr_snd {A} be dbg base (p : prog A) : forall r,
  snd (run_plain_tr be dbg base p r) = run_plain_rd be dbg p r.
Proof.
  (* every reading constructor is a tbind whose first component has the plain result; then the continuation by IH *)
  assert (Hk : forall V (t : tres (V * rd)) (b : res (V * rd)) (g : V * rd -> tres (A * rd)) (h : V * rd -> res (A * rd)),
             snd t = b -> (forall v r', snd (g (v, r')) = h (v, r')) -> snd (tbind t g) = bind b h).
  { intros V t b g h <- Hg. rewrite tbind_snd. apply bind_ext. intros [v r']. apply Hg. }
  induction p as [a|e| |n k IH|k IH|k IH|n k IH|k IH|size k IH|f k IH|size k IH|f k IH|len sub IHs k IHk];
    intros r; cbn [run_plain_tr run_plain_rd].
  - (* PRet *) reflexivity.
  - (* PFail *) reflexivity.
  - (* PNoFuel *) reflexivity.
  - (* PU *) apply Hk; [now rewrite pt_plain_eq|auto].
  - (* PUleb *) apply Hk; [now rewrite pt_plain_eq|auto].
  - (* PSleb *) apply Hk; [now rewrite pt_plain_eq|auto].
  - (* PSkip *) rewrite tbind_snd. apply bind_ext. intros r'. apply IH.
  - (* PLen *) apply IH.
  - (* PAddr *) apply Hk; [apply pt_rel_snd|auto].
  - (* POffset *) apply Hk; [apply pt_rel_snd|auto].
  - (* PSized *) apply Hk; [apply pt_rel_snd|auto].
  - (* PWord *) apply Hk; [now rewrite pt_plain_eq|auto].
  - (* PSplit *) apply Hk; [reflexivity|]. intros h r'. rewrite tbind_snd, IHs. apply bind_ext. intros [a r'']. apply IHk.
Qed.

Section Static.
  Variables (be dbg : bool) (R : list rrel) (sec : list byte) (base : N).
  Hypothesis HR : sites_disjointb R = true.
  Hypothesis Hfit : fitsb be R sec = true.

  Notation P := (apply_rrels be R sec).
  Notation strel := (st_rel be R sec base).
  Notation rrel_ := (res_rel be R sec base).
  Notation shape_all t := (forallb (shape_okb R) t = true).

  (* each step of the relocating run is acceptable as soon as R respects the field the plain run reads, and then
     the two steps agree *)
  Lemma plain_step {A} (f : list byte -> res (A * list byte)) x r :
    prefix_det f -> strel x r -> shape_all (fst (pt_plain base f r)) ->
    trace_ok R (fst (rr_plain f x)) /\ rrel_ (snd (rr_plain f x)) (snd (pt_plain base f r)).
  Proof.
    intros Hf Hst Hs. assert (Ht : trace_ok R (fst (rr_plain f x))).
    2: { split; auto. rewrite pt_plain_eq. now apply plain_case. }
    destruct Hst as (o & l & Hb & -> & ->). rewrite pt_plain_eq in Hs. rewrite rr_plain_eq.
    cbn [fst reader section win mkst forallb shape_okb] in *.
    change (off (mkRd base sec)) with base. rewrite !off_mkst in *.
    apply andb_true_iff in Hs as [Hs _]. rewrite forallb_forall in Hs.
    assert (Hd : forall r, In r R -> site_disjoint r (N.of_nat o) (N.of_nat (span (slice P o l) (f (slice P o l)))))
      by (intros r Hr; apply site_disjointb_ok; auto).
    pose proof (span_le (slice P o l) (f (slice P o l))) as Hc.
    rewrite slice_length in Hc by now rewrite apply_rrels_length.
    (* the raw section agrees with the applied one on the bytes the plain read depends on *)
    destruct (prefix_det_agree f (slice P o l) (slice sec o l) Hf) as [-> _].
    { rewrite !slice_length; auto. now rewrite apply_rrels_length. }
    { rewrite !firstn_slice by auto. symmetry. now apply slices_agree. }
    constructor; [exact Hd|constructor].
  Qed.

  Lemma rel_step (w : N) (f : list byte -> res (N * list byte)) (hook : N -> N -> res N) x r :
    (forall pos v, hook pos v = Ok (relocate R pos v)) ->
    sized_reader be w f -> strel x r -> shape_all (fst (pt_rel base w f r)) ->
    trace_ok R (fst (rr_rel dbg w f hook x)) /\ rrel_ (snd (rr_rel dbg w f hook x)) (snd (pt_rel base w f r)).
  Proof.
    intros Hh Hs Hst Hsh. assert (Ht : trace_ok R (fst (rr_rel dbg w f hook x))).
    2: { split; auto. rewrite pt_rel_snd. now apply rel_case. }
    destruct Hst as (o & l & Hb & -> & ->).
    assert (HbP : (o + l <= length P)%nat) by now rewrite apply_rrels_length.
    rewrite rr_rel_mkst by auto. unfold pt_rel in Hsh.
    destruct Hs as [(k & Hk & Hw & Hfk) | (e & He)].
    2: { unfold rd_lift. rewrite He. constructor. }
    rewrite !(rd_lift_ext f _ _ Hfk), !rd_lift_read_un in * by auto.
    destruct (Nat.leb_spec k l) as [Hkl|Hkl]; [|constructor].
    cbn [fst forallb shape_okb] in *. rewrite off_mkst in Hsh.
    apply andb_true_iff in Hsh as [Hsh _]. rewrite forallb_forall in Hsh.
    unfold fitsb in Hfit. rewrite forallb_forall in Hfit.
    constructor; [|constructor]. cbn [ev_ok]. split; intros r Hr Hpos; specialize (Hsh r Hr).
    - rewrite Hpos, N.eqb_refl in Hsh. apply N.eqb_eq in Hsh.
      split; auto. specialize (Hfit r Hr). apply N.ltb_lt in Hfit.
      rewrite Hpos, Hsh, <- Hw, !Nat2N.id in Hfit. rewrite <- Hw. exact Hfit.
    - apply N.eqb_neq in Hpos. rewrite Hpos in Hsh. now apply site_disjointb_ok.
  Qed.

  Lemma tbind_static {V A} (t : tres (V * rrd)) (g : V * rrd -> tres (A * rrd))
        (t' : tres (V * rd)) (g' : V * rd -> tres (A * rd)) :
    shape_all (fst (tbind t' g')) ->
    (shape_all (fst t') -> trace_ok R (fst t) /\ rrel_ (snd t) (snd t')) ->
    (forall v x' r', strel x' r' -> shape_all (fst (g' (v, r'))) -> trace_ok R (fst (g (v, x')))) ->
    trace_ok R (fst (tbind t g)).
  Proof.
    intros Hs H1 H2. unfold tbind in *.
    destruct t' as [tr' [[v' r']|e'| |]]; cbn [fst snd] in *.
    1: rewrite forallb_app in Hs; apply andb_true_iff in Hs as [Hs Hs2].
    all: destruct (H1 Hs) as [Ht Hr]; destruct t as [tr [[v x']|e| |]]; cbn [fst snd res_rel] in *;
      try contradiction; auto.
    destruct Hr as [<- Hst]. apply Forall_app. split; [exact Ht|]. eapply H2; eauto.
  Qed.

  Lemma sim_static {A} (p : prog A) : forall x r,
    strel x r -> shape_all (fst (run_plain_tr be dbg base p r)) ->
    trace_ok R (fst (run_reloc_rd be dbg (map_relocator R) p x)).
  Proof.
    induction p as [a|e| |n k IH|k IH|k IH|n k IH|k IH|size k IH|f k IH|size k IH|f k IH|len sub IHs k IHk];
      intros x r Hst Hs; cbn [run_reloc_rd run_plain_tr] in *.
    - (* PRet *) constructor.
    - (* PFail *) constructor.
    - (* PNoFuel *) constructor.
    - (* PU *) eapply tbind_static; [exact Hs | intros; eapply plain_step; eauto using prefix_det_read_un | eauto].
    - (* PUleb *) eapply tbind_static; [exact Hs | intros; eapply plain_step; eauto using prefix_det_uleb | eauto].
    - (* PSleb *) eapply tbind_static; [exact Hs | intros; eapply plain_step; eauto using prefix_det_sleb | eauto].
    - (* PSkip *) destruct Hst as (o & l & Hb & -> & ->). cbn [reader section] in *.
      assert (HbP : (o + l <= length P)%nat) by now rewrite apply_rrels_length.
      rewrite rd_skip_mkst in * by auto.
      destruct (N.ltb_spec (N.of_nat l) n).
      + cbn. constructor.
      + unfold tbind, tret in *. cbn [fst snd bind app] in *.
        eapply IH; eauto. exists (o + N.to_nat n)%nat, (l - N.to_nat n)%nat. repeat split; auto. lia.
    - (* PLen *) destruct Hst as (o & l & Hb & -> & ->). cbn [reader section] in *.
      rewrite !rd_len_mkst in * by (rewrite ?apply_rrels_length; auto).
      eapply IH; eauto. exists o, l. auto.
    - (* PAddr *) eapply tbind_static; [exact Hs | intros; eapply rel_step; eauto using sized_read_address | eauto].
    - (* POffset *) eapply tbind_static; [exact Hs | intros; eapply rel_step; eauto using sized_read_word | eauto].
    - (* PSized *) eapply tbind_static; [exact Hs | intros; eapply rel_step; eauto using sized_read_sized_offset | eauto].
    - (* PWord *) eapply tbind_static; [exact Hs | intros; eapply plain_step; eauto using prefix_det_read_word | eauto].
    - (* PSplit *) destruct Hst as (o & l & Hb & -> & ->).
      assert (HbP : (o + l <= length P)%nat) by now rewrite apply_rrels_length.
      unfold rr_split in *. cbn [reader section] in *.
      rewrite rd_truncate_mkst, rd_skip_mkst by auto.
      rewrite rd_split_mkst in Hs by auto.
      destruct (N.ltb_spec (N.of_nat l) len).
      + cbn. constructor.
      + cbn [bind] in *. unfold tbind at 1 in Hs. unfold tbind at 1. unfold tret in *.
        cbn [fst snd app] in *.
        assert (Hsub : strel (mkRrd (mkRd base sec) (mkst base sec o (N.to_nat len))) (mkst base P o (N.to_nat len)))
          by (exists o, (N.to_nat len); repeat split; auto; lia).
        eapply tbind_static; [exact Hs| |].
        * intros Hs'. split; [eapply IHs; eauto|]. rewrite run_plain_tr_snd. apply sim_run; eauto.
        * intros a x'' r'' _ Hs'. eapply IHk; eauto.
          exists (o + N.to_nat len)%nat, (l - N.to_nat len)%nat. repeat split; auto. lia.
  Qed.
End Static.

Lemma static_okb_sound :
  forall (A : Type) (be dbg : bool) (R : list rrel) (p : prog A) (bs : list byte) (base : N),
  static_okb be dbg base R p bs = true ->
  trace_ok R (fst (run_reloc_rd be dbg (map_relocator R) p (rrd_new (mkRd base bs)))).
Proof.
  intros A be dbg R p bs base H. unfold static_okb in H.
  apply andb_true_iff in H as [H H3]. apply andb_true_iff in H as [H1 H2].
  eapply sim_static; eauto. apply st_rel_start.
Qed.

Lemma static_okb_transparent :
  forall (A : Type) (be dbg : bool) (R : list rrel) (p : prog A) (bs : list byte) (base : N),
  static_okb be dbg base R p bs = true ->
  out_reloc (snd (run_reloc_rd be dbg (map_relocator R) p (rrd_new (mkRd base bs)))) =
  out_plain (mkRd base (apply_rrels be R bs))
            (run_plain_rd be dbg p (mkRd base (apply_rrels be R bs))).
Proof.
  intros A be dbg R p bs base H. pose proof (static_okb_sound _ _ _ _ _ _ _ H) as Ht.
  unfold static_okb in H. apply andb_true_iff in H as [H _]. apply andb_true_iff in H as [H1 _].
  apply res_rel_out, sim_run; auto. apply st_rel_start.
Qed.
