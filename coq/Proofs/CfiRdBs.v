(* Proofs/CfiRdBs.v — EhHdrTable::lookup refines "last row whose location is <= address"
   (C05 clause: binary search), proved against the actual loop of the model:
   split at (len/2)*row_size, pivot = first row of the tail, then len - len/2 rows of the tail or
   len/2 rows of the head. *)
From Coq Require Import List NArith ZArith Bool Lia ZifyBool ZifyN ZifyNat.
From Coq.Strings Require Import Byte.
Require Import GV.Base.Res GV.Base.Byt GV.Base.Ints GV.Model.Leb GV.Model.Prim GV.Spec.LebSpec.
Require Import GV.Spec.CfiSpec GV.Model.CfiRd GV.Proofs.PrimProofs GV.Proofs.CfiRdBase.
Import ListNotations.
Local Open Scope N_scope.

(* result of a pointer parse with the reader state dropped *)
Definition decode_at (dbg be : bool) (enc : N) (pp : pparams) (o : N) (bs : list byte) : res pointer :=
  let* (p, _) := parse_encoded_pointer dbg be enc pp (mkrd o bs) in Ok p.

Lemma tbl_field_size_cases : forall enc size, tbl_field_size enc = Some size ->
  let f := pe_format enc in
  f = 2 /\ size = 2 \/ f = 3 /\ size = 4 \/ f = 4 /\ size = 8 \/
  f = 10 /\ size = 2 \/ f = 11 /\ size = 4 \/ f = 12 /\ size = 8.
Proof.
  intros enc size H f. unfold tbl_field_size in H. fold f in H. cbv zeta in H.
  destruct ((f =? 10) || (f =? 2)) eqn:A; [injection H as <-; lia|].
  destruct ((f =? 11) || (f =? 3)) eqn:B; [injection H as <-; lia|].
  destruct ((f =? 12) || (f =? 4)) eqn:C; [injection H as <-; lia|discriminate].
Qed.

Lemma tbl_field_size_pos : forall enc size, tbl_field_size enc = Some size -> 0 < size.
Proof. intros enc size H. apply tbl_field_size_cases in H. cbv zeta in H. lia. Qed.

Lemma pev_fixed : forall dbg be enc pp size r, tbl_field_size enc = Some size ->
  parse_encoded_value dbg be enc pp r =
  if pe_format enc <? 9 then lift (read_un (N.to_nat size) be) r
  else let* (z, r1) := lift (read_in (N.to_nat size) be) r in Ok (of_i64 z, r1).
Proof.
  intros dbg be enc pp size r H. apply tbl_field_size_cases in H. unfold parse_encoded_value. cbv zeta in *.
  destruct H as [[-> ->]|[[-> ->]|[[-> ->]|[[-> ->]|[[-> ->]|[-> ->]]]]]]; reflexivity.
Qed.

(* a fixed-size field depends only on its own bytes and leaves the reader just after them *)
Lemma pev_field : forall dbg be enc pp size o e rest,
  tbl_field_size enc = Some size -> nlen e = size ->
  parse_encoded_value dbg be enc pp (mkrd o (e ++ rest)) =
  let* (v, _) := parse_encoded_value dbg be enc pp (mkrd o e) in Ok (v, mkrd (o + size) rest).
Proof.
  intros dbg be enc pp size o e rest Hs He. rewrite !(pev_fixed _ _ _ _ _ _ Hs).
  assert (Hl : length e = N.to_nat size) by (unfold nlen in He; lia).
  replace (mkrd o e) with (mkrd o (e ++ [])) by (rewrite app_nil_r; reflexivity).
  destruct (pe_format enc <? 9).
  - rewrite !(lift_app _ _ _ _ _ _ (read_un_app _ be e _ Hl)), He. reflexivity.
  - assert (Hin : forall t, read_in (N.to_nat size) be (e ++ t) = Ok (_, t))
      by (intros t; unfold read_in; rewrite (read_un_app _ be e t Hl); reflexivity).
    rewrite !(lift_app _ _ _ _ _ _ (Hin _)), He. reflexivity.
Qed.

Lemma pep_field : forall dbg be enc pp size o e rest,
  tbl_field_size enc = Some size -> nlen e = size ->
  parse_encoded_pointer dbg be enc pp (mkrd o (e ++ rest)) =
  let* p := decode_at dbg be enc pp o e in Ok (p, mkrd (o + size) rest).
Proof.
  intros dbg be enc pp size o e rest Hs He. unfold decode_at, parse_encoded_pointer.
  destruct (negb (pe_is_valid enc)); [reflexivity|].
  destruct (enc =? DW_EH_PE_omit); [reflexivity|].
  cbn [off].
  match goal with |- (let* base := ?B in _) = _ => destruct B as [base| | |]; cbn [bind]; try reflexivity end.
  rewrite (pev_field _ _ _ _ _ _ _ _ Hs He).
  destruct (parse_encoded_value dbg be enc pp (mkrd o e)) as [[v r1]| | |]; cbn [bind]; try reflexivity.
  destruct (wadd_sized dbg base v (pp_asz pp)); cbn [bind]; reflexivity.
Qed.

Definition flat (rows : list (list byte * list byte)) : list byte :=
  concat (map (fun r => fst r ++ snd r) rows).
Definition wf_rows (size : N) (rows : list (list byte * list byte)) : Prop :=
  Forall (fun r => nlen (fst r) = size /\ nlen (snd r) = size) rows.

Lemma flat_app : forall r1 r2, flat (r1 ++ r2) = flat r1 ++ flat r2.
Proof. intros. unfold flat. rewrite map_app, concat_app. reflexivity. Qed.

Lemma flat_cons : forall r rs, flat (r :: rs) = fst r ++ snd r ++ flat rs.
Proof. intros. unfold flat. cbn [map concat]. rewrite <- app_assoc. reflexivity. Qed.

Lemma nlen_flat : forall size rows, wf_rows size rows -> nlen (flat rows) = N.of_nat (length rows) * (size * 2).
Proof.
  intros size rows H. induction H as [|r rs [H1 H2] _ IH].
  - reflexivity.
  - rewrite flat_cons, !nlen_app, IH, H1, H2. cbn [length]. lia.
Qed.

Lemma wf_rows_app : forall size r1 r2, wf_rows size (r1 ++ r2) <-> wf_rows size r1 /\ wf_rows size r2.
Proof. intros. unfold wf_rows. apply Forall_app. Qed.

Lemma wf_rows_nth : forall size rows i r, wf_rows size rows -> nth_error rows i = Some r ->
  nlen (fst r) = size /\ nlen (snd r) = size.
Proof.
  intros size rows i r H Hi. unfold wf_rows in H. rewrite Forall_forall in H. apply H. eapply nth_error_In. exact Hi.
Qed.

Lemma size_nat_gt : forall n, n < 2 ^ N.of_nat (N.size_nat n).
Proof.
  intros [|p]; [reflexivity|]. cbn [N.size_nat].
  induction p as [p IH|p IH|]; cbn [Pos.size_nat]; rewrite ?Nat2N.inj_succ, ?N.pow_succ_r'; try lia.
Qed.

Lemma lookup_loop_S : forall f dbg hb h row_size address len reader,
  lookup_loop (S f) dbg hb h row_size address len reader =
  if len <=? 1 then Ok reader else
  let* k := (if two64 <=? len / 2 * row_size then Err EUnexpectedEof else Ok (len / 2 * row_size)) in
  let* (head, tail) := rd_split k reader in
  let* (p, _) := parse_encoded_pointer dbg (h_be h) (h_enc h) (hdr_pp hb h) tail in
  let* pivot := pointer_direct p in
  if pivot =? address then Ok tail
  else if pivot <? address then lookup_loop f dbg hb h row_size address (len - len / 2) tail
  else lookup_loop f dbg hb h row_size address (len / 2) head.
Proof. reflexivity. Qed.

(* row i of the table decodes (location field) to Direct (nth i locs) *)
Definition rows_decode (dbg : bool) (hb : sbases) (h : hdr) (size o0 : N)
           (rows : list (list byte * list byte)) (locs : list N) : Prop :=
  length locs = length rows /\
  forall i r, nth_error rows i = Some r ->
    decode_at dbg (h_be h) (h_enc h) (hdr_pp hb h) (o0 + N.of_nat i * (size * 2)) (fst r) = Ok (Direct (nth i locs 0)).

(* the search postcondition for an arbitrary (possibly unsorted) table *)
Definition search_post (locs : list N) (a : N) (k : nat) : Prop :=
  (k < length locs)%nat /\
  (k = 0%nat \/ nth k locs 0 <= a) /\
  ((S k < length locs)%nat -> a < nth (S k) locs 0 \/ nth k locs 0 = a).

Section Bsearch.
  Variables (dbg : bool) (hb : sbases) (h : hdr) (size a o0 : N).
  Variable rows : list (list byte * list byte).
  Variable locs : list N.
  Hypothesis Hsize : tbl_field_size (h_enc h) = Some size.
  Hypothesis Hwf : wf_rows size rows.
  Let row := size * 2.
  Let dec := decode_at dbg (h_be h) (h_enc h) (hdr_pp hb h).
  Let L (i : nat) := nth i locs 0.
  Let n := length rows.
  Hypothesis Hdec : forall i r, nth_error rows i = Some r ->
    dec (o0 + N.of_nat i * row) (fst r) = Ok (Direct (L i)).
  Hypothesis Hnomul : N.of_nat n * row < 2 ^ 64.

  Lemma size_pos : 0 < size.
  Proof using Hsize Hdec Hnomul. exact (tbl_field_size_pos _ _ Hsize). Qed.

  (* at most one row left: the loop returns it *)
  Lemma lookup_loop_one : length locs = length rows -> forall k pre mid post junk,
    rows = pre ++ mid ++ post -> mid <> [] -> (length mid <= 1)%nat ->
    (length pre = 0%nat \/ L (length pre) <= a) ->
    ((length pre + length mid < length rows)%nat -> a < L (length pre + length mid)) ->
    exists i r junk',
      nth_error rows i = Some r /\ search_post locs a i /\
      lookup_loop (S k) dbg hb h row a (N.of_nat (length mid))
        (mkrd (o0 + nlen (flat pre)) (flat mid ++ junk))
      = Ok (mkrd (o0 + N.of_nat i * row) (fst r ++ snd r ++ junk')).
  Proof.
    intros Hlen k pre mid post junk Hrows Hne H1 Hlo Hhi.
    destruct mid as [|r [|r2 mid]]; [congruence| |cbn [length] in H1; lia].
    assert (Hwp : wf_rows size pre) by (rewrite Hrows in Hwf; apply wf_rows_app in Hwf; tauto).
    assert (Hl : length rows = (length pre + 1 + length post)%nat)
      by (rewrite Hrows, !app_length; cbn [length]; lia).
    exists (length pre), r, junk. split; [|split].
    - rewrite Hrows, nth_error_app2, Nat.sub_diag by lia. reflexivity.
    - split; [lia|]. split; [exact Hlo|]. intros Hn. left.
      replace (S (length pre)) with (length pre + length [r])%nat by (cbn [length]; lia).
      apply Hhi. cbn [length]. lia.
    - rewrite lookup_loop_S, flat_cons, (nlen_flat _ _ Hwp). change (flat []) with (@nil byte).
      rewrite app_nil_r, <- app_assoc. reflexivity.
  Qed.

  (* the loop, standing on the rows mid that follow pre; the location sought lies at the last row of pre
     or in mid *)
  Lemma lookup_loop_inv : length locs = length rows -> forall k pre mid post junk,
    rows = pre ++ mid ++ post -> mid <> [] ->
    N.of_nat (length mid) <= 2 ^ N.of_nat k ->
    (length pre = 0%nat \/ L (length pre) <= a) ->
    ((length pre + length mid < length rows)%nat -> a < L (length pre + length mid)) ->
    exists i r junk',
      nth_error rows i = Some r /\ search_post locs a i /\
      lookup_loop (S k) dbg hb h row a (N.of_nat (length mid))
        (mkrd (o0 + nlen (flat pre)) (flat mid ++ junk))
      = Ok (mkrd (o0 + N.of_nat i * row) (fst r ++ snd r ++ junk')).
  Proof.
    intros Hlen. induction k as [|k IH]; intros pre mid post junk Hrows Hne Hk Hlo Hhi.
    { apply (lookup_loop_one Hlen 0%nat pre mid post); try assumption. change (2 ^ N.of_nat 0) with 1 in Hk. lia. }
    destruct (Nat.le_gt_cases (length mid) 1) as [Hone|Hmore]; [apply (lookup_loop_one Hlen (S k) pre mid post); assumption|].
    rewrite lookup_loop_S. destruct (N.of_nat (length mid) <=? 1) eqn:E1; [lia|].
    (* more than one row: split at the middle one *)
    set (m := (length mid / 2)%nat).
    assert (Hm1 : (1 <= m)%nat) by (unfold m; lia).
    assert (Hm2 : (m < length mid)%nat) by (unfold m; lia).
    assert (Hhalf : N.of_nat (length mid) / 2 = N.of_nat m) by (unfold m; lia).
    rewrite Hhalf.
    assert (Hwf3 : wf_rows size pre /\ wf_rows size mid /\ wf_rows size post).
    { rewrite Hrows in Hwf. apply wf_rows_app in Hwf as [H1 H2]. apply wf_rows_app in H2. tauto. }
    destruct Hwf3 as (Hwp & Hwm & Hwpo).
    assert (Hl : length rows = (length pre + length mid + length post)%nat).
    { rewrite Hrows, !app_length. lia. }
    assert (Hmul : N.of_nat m * row < 2 ^ 64) by (unfold n in Hnomul; nia).
    change two64 with (2 ^ 64). destruct (2 ^ 64 <=? N.of_nat m * row) eqn:Emul; [lia|]. cbn [bind].
    replace (flat mid) with (flat (firstn m mid) ++ flat (skipn m mid)) by (rewrite <- flat_app, firstn_skipn; reflexivity).
    rewrite <- app_assoc.
    assert (Hw1 : wf_rows size (firstn m mid) /\ wf_rows size (skipn m mid)).
    { rewrite <- (firstn_skipn m mid) in Hwm. apply wf_rows_app in Hwm. exact Hwm. }
    destruct Hw1 as (Hw1 & Hw2).
    assert (Hl1 : length (firstn m mid) = m) by (rewrite firstn_length; lia).
    assert (Hl2 : length (skipn m mid) = (length mid - m)%nat) by apply skipn_length.
    replace (N.of_nat m * row) with (nlen (flat (firstn m mid)))
      by (rewrite (nlen_flat _ _ Hw1), Hl1; reflexivity).
    rewrite rd_split_app. cbn [bind].
    destruct (skipn m mid) as [|r mid2] eqn:Emid2; [cbn [length] in Hl2; lia|].
    rewrite flat_cons, <- !app_assoc.
    assert (Hr : nlen (fst r) = size) by (inversion Hw2 as [|? ? [H1 _]]; exact H1).
    rewrite (pep_field _ _ _ _ _ _ _ _ Hsize Hr).
    assert (Hnth : nth_error rows (length pre + m) = Some r).
    { rewrite Hrows. rewrite nth_error_app2 by lia.
      replace (length pre + m - length pre)%nat with m by lia.
      rewrite nth_error_app1 by lia.
      rewrite <- (firstn_skipn m mid). rewrite nth_error_app2 by lia.
      rewrite Hl1, Nat.sub_diag, Emid2. reflexivity. }
    assert (Hoff : o0 + nlen (flat pre) + nlen (flat (firstn m mid)) = o0 + N.of_nat (length pre + m) * row).
    { rewrite (nlen_flat _ _ Hwp), (nlen_flat _ _ Hw1), Hl1. unfold row. lia. }
    rewrite Hoff. fold dec. rewrite (Hdec _ _ Hnth). cbn [bind pointer_direct].
    destruct (L (length pre + m) =? a) eqn:Eeq.
    + (* Equal *)
      exists (length pre + m)%nat, r, (flat mid2 ++ junk). split; [exact Hnth|]. split; [|reflexivity].
      split; [lia|]. unfold L in *. split; [right; lia|]. intros _. right. lia.
    + destruct (L (length pre + m) <? a) eqn:Elt.
      * (* Less: continue in the tail *)
        replace (N.of_nat (length mid) - N.of_nat m) with (N.of_nat (length (r :: mid2))) by (rewrite Hl2; lia).
        specialize (IH (pre ++ firstn m mid) (r :: mid2) post junk).
        destruct IH as (i & ri & junk' & Hi1 & Hi2 & Hi3).
        -- rewrite <- app_assoc. rewrite <- Emid2. rewrite (app_assoc (firstn m mid)), firstn_skipn. exact Hrows.
        -- discriminate.
        -- rewrite Hl2. rewrite Nat2N.inj_succ, N.pow_succ_r' in Hk. lia.
        -- right. rewrite app_length, Hl1. lia.
        -- rewrite app_length, Hl1, Hl2. intros Hn. replace (length pre + m + (length mid - m))%nat with (length pre + length mid)%nat by lia.
           apply Hhi. lia.
        -- exists i, ri, junk'. split; [exact Hi1|]. split; [exact Hi2|].
           rewrite flat_app, nlen_app in Hi3. rewrite N.add_assoc in Hi3.
           rewrite flat_cons, <- !app_assoc in Hi3. rewrite Hoff in Hi3. exact Hi3.
      * (* Greater: continue in the head *)
        replace (N.of_nat m) with (N.of_nat (length (firstn m mid))) by (rewrite Hl1; reflexivity).
        specialize (IH pre (firstn m mid) (skipn m mid ++ post) []).
        destruct IH as (i & ri & junk' & Hi1 & Hi2 & Hi3).
        -- rewrite (app_assoc (firstn m mid)), firstn_skipn. exact Hrows.
        -- intros Hnil. rewrite Hnil in Hl1. cbn [length] in Hl1. lia.
        -- rewrite Hl1. rewrite Nat2N.inj_succ, N.pow_succ_r' in Hk. lia.
        -- exact Hlo.
        -- rewrite Hl1. intros _. lia.
        -- exists i, ri, junk'. split; [exact Hi1|]. split; [exact Hi2|].
           rewrite app_nil_r in Hi3. exact Hi3.
  Qed.

  Variable extra : list byte.
  Hypothesis Hne : rows <> [].
  Hypothesis Hcount : h_count h = N.of_nat n.
  Hypothesis Htable : h_table h = mkrd o0 (flat rows ++ extra).

  Lemma bind_ret : forall A (x : res A), (let* p := x in Ok p) = x.
  Proof. intros A [v| | |]; reflexivity. Qed.

  (* the row the search returns, for ANY table whose location fields decode (sorted or not) *)
  Lemma hdr_lookup_rows : length locs = length rows -> exists i r,
    nth_error rows i = Some r /\ search_post locs a i /\
    hdr_lookup dbg hb h a = decode_at dbg (h_be h) (h_enc h) (hdr_pp hb h) (o0 + N.of_nat i * row + size) (snd r).
  Proof.
    intros Hlen. destruct (lookup_loop_inv Hlen (N.size_nat (N.of_nat n)) [] rows [] extra) as (i & r & junk' & Hi1 & Hi2 & Hi3).
    - rewrite app_nil_r. reflexivity.
    - exact Hne.
    - apply N.lt_le_incl, size_nat_gt.
    - left. reflexivity.
    - cbn [length]. unfold n. lia.
    - exists i, r. split; [exact Hi1|]. split; [exact Hi2|].
      unfold hdr_lookup. rewrite Hsize, Hcount, Htable. unfold lookup_fuel.
      change (flat []) with (@nil byte) in Hi3. change (nlen []) with 0 in Hi3. rewrite N.add_0_r in Hi3.
      fold row. fold n in Hi3. rewrite Hi3. cbn [bind].
      destruct (wf_rows_nth _ _ _ _ Hwf Hi1) as (Hr1 & Hr2).
      rewrite <- Hr1 at 1. rewrite rd_skip_app. cbn [bind]. rewrite Hr1.
      rewrite (pep_field _ _ _ _ _ _ _ _ Hsize Hr2).
      destruct (decode_at _ _ _ _ _ (snd r)) as [p| | |]; reflexivity.
  Qed.
End Bsearch.

Lemma last_le_from_spec : forall locs a i best,
  (last_le_from locs a i best = best /\ forall j, (j < length locs)%nat -> a < nth j locs 0) \/
  (exists j, (j < length locs)%nat /\ last_le_from locs a i best = (i + j)%nat /\ nth j locs 0 <= a /\
             forall j', (j < j')%nat -> (j' < length locs)%nat -> a < nth j' locs 0).
Proof.
  induction locs as [|l r IH]; intros a i best.
  - left. split; [reflexivity|]. intros j Hj. cbn [length] in Hj. lia.
  - cbn [last_le_from].
    destruct (IH a (S i) (if l <=? a then i else best)) as [[Hk Hall]|(j & Hj & Hk & Hle & Hall)].
    + destruct (l <=? a) eqn:E.
      * right. exists 0%nat. cbn [length nth]. split; [lia|]. split; [lia|]. split; [lia|].
        intros j' H1 H2. destruct j' as [|j']; [lia|]. cbn [nth]. apply Hall. lia.
      * left. split; [exact Hk|]. intros j Hj. destruct j as [|j]; cbn [nth]; [lia|].
        apply Hall. cbn [length] in Hj. lia.
    + right. exists (S j). cbn [length nth]. split; [lia|]. split; [lia|]. split; [exact Hle|].
      intros j' H1 H2. destruct j' as [|j']; [lia|]. cbn [nth]. apply Hall; lia.
Qed.

Lemma bs_post_unique : forall locs a n i,
  strictly_sorted locs -> length locs = n -> (i < n)%nat ->
  ((i = 0%nat \/ nth i locs 0 <= a) /\ ((S i < n)%nat -> a < nth (S i) locs 0 \/ nth i locs 0 = a)) ->
  i = bs_index locs a.
Proof.
  intros locs a n i Hs Hn Hi [H1 H2]. unfold bs_index.
  destruct (last_le_from_spec locs a 0 0) as [[Hk Hall]|(j & Hj & Hk & Hle & Hall)].
  - rewrite Hk. destruct H1 as [H1|H1]; [exact H1|]. specialize (Hall i). lia.
  - rewrite Hk. cbn [Nat.add].
    destruct (Nat.lt_trichotomy i j) as [Hlt|[Heq|Hgt]]; [exfalso|exact Heq|exfalso].
    + assert (HS : (S i < n)%nat) by lia. specialize (H2 HS).
      assert (Hij : nth i locs 0 < nth j locs 0) by (apply Hs; lia).
      destruct (Nat.eq_dec (S i) j) as [E|E].
      * subst j. lia.
      * assert (nth (S i) locs 0 < nth j locs 0) by (apply Hs; lia). lia.
    + specialize (Hall i Hgt). destruct H1 as [H1|H1]; lia.
Qed.

(* for a table strictly sorted by location the row found is the row of the last location <= a *)
Lemma bsearch_spec_lem : forall dbg hb h size a o0 rows locs extra,
  tbl_field_size (h_enc h) = Some size -> wf_rows size rows -> rows <> [] ->
  h_count h = N.of_nat (length rows) -> h_table h = mkrd o0 (flat rows ++ extra) ->
  rows_decode dbg hb h size o0 rows locs ->
  N.of_nat (length rows) * (size * 2) < 2 ^ 64 ->
  strictly_sorted locs ->
  exists r, nth_error rows (bs_index locs a) = Some r /\
    hdr_lookup dbg hb h a =
    decode_at dbg (h_be h) (h_enc h) (hdr_pp hb h)
      (o0 + N.of_nat (bs_index locs a) * (size * 2) + size) (snd r).
Proof.
  intros dbg hb h size a o0 rows locs extra Hs Hwf Hne Hc Ht Hd Hmul Hsorted.
  destruct (hdr_lookup_rows dbg hb h size a o0 rows locs Hs Hwf (proj2 Hd) Hmul extra Hne Hc Ht (proj1 Hd)) as (k & r & Hk & (Hlt & Hp) & Hl).
  assert (Hk' : k = bs_index locs a) by (eapply bs_post_unique; eauto).
  subst k. exists r. split; assumption.
Qed.
