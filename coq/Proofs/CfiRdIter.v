(* Proofs/CfiRdIter.v — UnwindSection::fde_for_address is the exhaustive scan over entries()
   (C05 clause: linear lookup), for every byte string. *)
From Coq Require Import List NArith ZArith Bool Lia ZifyBool ZifyN ZifyNat.
From Coq.Strings Require Import Byte.
Require Import GV.Base.Res GV.Base.Byt GV.Base.Ints GV.Model.Leb GV.Model.Prim GV.Spec.LebSpec.
Require Import GV.Spec.CfiSpec GV.Model.CfiRd GV.Proofs.CfiRdBase.
Import ListNotations.
Local Open Scope N_scope.

(* the exhaustive scan: walk the entries in section order, parse every FDE, stop at the first one
   that contains the address; an entry that fails to parse ends the scan with its error *)
Fixpoint scan_items (dbg : bool) (c : scfg) (sec : list byte) (a : N) (items : list item) (e : option error)
  : res fde :=
  match items with
  | [] => match e with Some e => Err e | None => Err ENoUnwindInfoForAddress end
  | ICie _ :: r => scan_items dbg c sec a r e
  | IFde p :: r =>
      let* fd := fde_parse dbg c sec p in
      let* b := fde_contains dbg fd a in
      if b then Ok fd else scan_items dbg c sec a r e
  end.

Lemma entries_loop_S : forall f dbg c input,
  entries_loop (S f) dbg c input =
  let* (st, in1) := iter_next (iter_fuel input) dbg c input in
  match st with
  | SNone => Ok ([], None)
  | SErr e => Ok ([], Some e)
  | SSome it => let* (l, e) := entries_loop f dbg c in1 in Ok (it :: l, e)
  end.
Proof. reflexivity. Qed.

Lemma fde_for_address_loop_S : forall f dbg c sec address input,
  fde_for_address_loop (S f) dbg c sec address input =
  let* (st, in1) := iter_next (iter_fuel input) dbg c input in
  match st with
  | SNone => Err ENoUnwindInfoForAddress
  | SErr e => Err e
  | SSome (ICie _) => fde_for_address_loop f dbg c sec address in1
  | SSome (IFde p) =>
      let* fd := fde_parse dbg c sec p in
      let* b := fde_contains dbg fd address in
      if b then Ok fd else fde_for_address_loop f dbg c sec address in1
  end.
Proof. reflexivity. Qed.

Lemma fde_for_address_loop_scan : forall fuel dbg c sec a input items e,
  entries_loop fuel dbg c input = Ok (items, e) ->
  fde_for_address_loop fuel dbg c sec a input = scan_items dbg c sec a items e.
Proof.
  induction fuel as [|f IH]; intros dbg c sec a input items e H; [discriminate|].
  rewrite entries_loop_S in H. rewrite fde_for_address_loop_S.
  destruct (iter_next (iter_fuel input) dbg c input) as [[st in1]| | |]; cbn [bind] in *; try discriminate.
  destruct st as [|it|e1].
  - injection H as <- <-. reflexivity.
  - destruct (entries_loop f dbg c in1) as [[l e2]| | |] eqn:E; cbn [bind] in H; try discriminate.
    injection H as <- <-. cbn [scan_items].
    destruct it as [ci|p].
    + apply IH. exact E.
    + destruct (fde_parse dbg c sec p) as [fd| | |]; cbn [bind]; try reflexivity.
      destruct (fde_contains dbg fd a) as [b| | |]; cbn [bind]; try reflexivity.
      destruct b; [reflexivity|]. apply IH. exact E.
  - injection H as <- <-. reflexivity.
Qed.

(* linear lookup = exhaustive scan, for every section (well-formed or not) whose traversal returns *)
Lemma fde_for_address_scan : forall dbg c sec a items e,
  entries_all dbg c sec = Ok (items, e) ->
  fde_for_address dbg c sec a = scan_items dbg c sec a items e.
Proof. intros. unfold fde_for_address. apply fde_for_address_loop_scan. exact H. Qed.

(* the address range an FDE covers, with the end address wrapped at the CIE's address size *)
Definition covers (f : fde) (a : N) : bool :=
  (fd_init f <=? a) && (a <? (fd_init f + fd_range f) mod 2 ^ (8 * ci_asz (fd_cie f))).

(* all FDE items of a traversal, fully parsed; None if one of them does not parse *)
Fixpoint parsed_fdes (dbg : bool) (c : scfg) (sec : list byte) (items : list item) : option (list fde) :=
  match items with
  | [] => Some []
  | ICie _ :: r => parsed_fdes dbg c sec r
  | IFde p :: r =>
      match fde_parse dbg c sec p, parsed_fdes dbg c sec r with
      | Ok fd, Some l => Some (fd :: l)
      | _, _ => None
      end
  end.

Lemma fde_contains_covers : forall dbg f a, asz_ok (ci_asz (fd_cie f)) -> fde_contains dbg f a = Ok (covers f a).
Proof.
  intros dbg f a H. unfold fde_contains, covers, fde_end. rewrite wadd_sized_ok by exact H.
  destruct (fd_init f <=? a); reflexivity.
Qed.

Lemma scan_items_find : forall dbg c sec a items fds,
  parsed_fdes dbg c sec items = Some fds ->
  Forall (fun f => asz_ok (ci_asz (fd_cie f))) fds ->
  scan_items dbg c sec a items None =
  match find (fun f => covers f a) fds with Some f => Ok f | None => Err ENoUnwindInfoForAddress end.
Proof.
  induction items as [|it r IH]; intros fds Hp Hall.
  - injection Hp as <-. reflexivity.
  - destruct it as [ci|p]; cbn [scan_items parsed_fdes] in *.
    + apply IH; assumption.
    + destruct (fde_parse dbg c sec p) as [fd| | |]; try discriminate.
      destruct (parsed_fdes dbg c sec r) as [l|]; [|discriminate].
      injection Hp as <-. inversion Hall as [|x l' Hx Hl]; subst. cbn [bind find].
      rewrite fde_contains_covers by exact Hx. cbn [bind].
      destruct (covers fd a); [reflexivity|]. apply IH; [reflexivity|exact Hl].
Qed.

Lemma lift_ok : forall A (f : list byte -> res (A * list byte)) r a r',
  lift f r = Ok (a, r') -> exists rest, f (win r) = Ok (a, rest) /\ r' = mkrd (off r + (nlen (win r) - nlen rest)) rest.
Proof.
  intros A f r a r' H. unfold lift in H. destruct (f (win r)) as [[a0 rest]| | |]; cbn [bind] in H; try discriminate.
  injection H as <- <-. eauto.
Qed.

Lemma read_address_size_ok : forall bs s r, read_address_size bs = Ok (s, r) -> asz_ok s.
Proof.
  intros bs s r H. unfold read_address_size in H.
  destruct (read_u8 bs) as [[s0 r0]| | |]; cbn [bind] in H; try discriminate.
  destruct ((s0 =? 1) || (s0 =? 2) || (s0 =? 4) || (s0 =? 8)) eqn:E; [|discriminate].
  injection H as <- <-. unfold asz_ok. lia.
Qed.

(* the address size a CIE is parsed with: the section's, unless a version-4 .debug_frame CIE carries
   its own, which read_address_size has checked *)
Lemma cie_asz_field_ok : forall (own : bool) c r2 asz r3,
  (if own then
     let* (a, q1) := lift read_address_size r2 in
     let* (seg, q2) := rd_u8 q1 in
     if negb (seg =? 0) then Err EUnsupportedSegmentSize else Ok (a, q2)
   else Ok (sc_asz c, r2)) = Ok (asz, r3) ->
  asz_ok (sc_asz c) -> asz_ok asz.
Proof.
  intros [|] c r2 asz r3 H Hc.
  - apply bind_ok in H as ([a q1] & Ha & H). apply bind_ok in H as ([seg q2] & _ & H).
    destruct (negb (seg =? 0)); [discriminate|]. injection H as <- <-.
    apply lift_ok in Ha as (rest & Ha & _). eapply read_address_size_ok. exact Ha.
  - injection H as <- <-. exact Hc.
Qed.

Lemma cie_from_prefix_asz : forall dbg c px ci,
  cie_from_prefix dbg c px = Ok ci -> asz_ok (sc_asz c) -> asz_ok (ci_asz ci).
Proof.
  intros dbg c px ci H Hc. unfold cie_from_prefix in H.
  apply bind_ok in H as ([version r1] & _ & H).
  destruct (negb _); [discriminate|].
  apply bind_ok in H as ([augstr r2] & _ & H).
  apply bind_ok in H as ([asz r3] & Hasz & H).
  apply bind_ok in H as ([caf r4] & _ & H).
  apply bind_ok in H as ([daf r5] & _ & H).
  apply bind_ok in H as ([rar r6] & _ & H).
  apply bind_ok in H as ([aug r7] & _ & H).
  injection H as <-. eapply cie_asz_field_ok; eassumption.
Qed.

Lemma cie_from_offset_asz : forall dbg c sec o ci,
  cie_from_offset dbg c sec o = Ok ci -> asz_ok (sc_asz c) -> asz_ok (ci_asz ci).
Proof.
  intros dbg c sec o ci H Hc. unfold cie_from_offset in H.
  apply bind_ok in H as (input & _ & H).
  apply bind_ok in H as ([opx r] & _ & H).
  destruct opx as [px|]; [|discriminate].
  destruct (negb _); [discriminate|]. eapply cie_from_prefix_asz; eassumption.
Qed.

Lemma fde_parse_asz : forall dbg c sec p fd,
  fde_parse dbg c sec p = Ok fd -> asz_ok (sc_asz c) -> asz_ok (ci_asz (fd_cie fd)).
Proof.
  intros dbg c sec p fd H Hc. unfold fde_parse in H.
  apply bind_ok in H as (ci & Hci & H).
  apply bind_ok in H as ([[ia range] r1] & _ & H).
  apply bind_ok in H as ([ad r2] & _ & H).
  injection H as <-. cbn [fd_cie]. eapply cie_from_offset_asz; eassumption.
Qed.

Lemma parsed_fdes_asz : forall dbg c sec items fds,
  parsed_fdes dbg c sec items = Some fds -> asz_ok (sc_asz c) ->
  Forall (fun f => asz_ok (ci_asz (fd_cie f))) fds.
Proof.
  induction items as [|it r IH]; intros fds H Hc.
  - injection H as <-. constructor.
  - destruct it as [ci|p]; cbn [parsed_fdes] in H.
    + apply IH; assumption.
    + destruct (fde_parse dbg c sec p) as [fd| | |] eqn:E; try discriminate.
      destruct (parsed_fdes dbg c sec r) as [l|]; [|discriminate].
      injection H as <-. constructor; [eapply fde_parse_asz; eassumption|apply IH; auto].
Qed.

Lemma covering_fde_asz : forall dbg c sec items fds a fd,
  parsed_fdes dbg c sec items = Some fds -> asz_ok (sc_asz c) ->
  find (fun f => covers f a) fds = Some fd -> asz_ok (ci_asz (fd_cie fd)).
Proof.
  intros dbg c sec items fds a fd Hp Hc Ef. pose proof (parsed_fdes_asz dbg c sec items fds Hp Hc) as Hall.
  rewrite Forall_forall in Hall. apply Hall. apply find_some in Ef. tauto.
Qed.

Lemma fde_from_offset_asz : forall dbg c sec o fd,
  fde_from_offset dbg c sec o = Ok fd -> asz_ok (sc_asz c) -> asz_ok (ci_asz (fd_cie fd)).
Proof.
  intros dbg c sec o fd H Hc. unfold fde_from_offset in H. apply bind_ok in H as (p & _ & H).
  eapply fde_parse_asz; eassumption.
Qed.

(* for a section whose traversal completes and all of whose FDEs parse, fde_for_address returns the
   first FDE in section order that covers the address, and NoUnwindInfoForAddress exactly when none does *)
Lemma linear_lookup_lem : forall dbg c sec a items fds,
  asz_ok (sc_asz c) ->
  entries_all dbg c sec = Ok (items, None) ->
  parsed_fdes dbg c sec items = Some fds ->
  fde_for_address dbg c sec a =
  match find (fun f => covers f a) fds with Some f => Ok f | None => Err ENoUnwindInfoForAddress end.
Proof.
  intros dbg c sec a items fds Hc He Hp.
  rewrite (fde_for_address_scan _ _ _ _ _ _ He).
  apply scan_items_find; [exact Hp|]. eapply parsed_fdes_asz; eassumption.
Qed.

(* the header path: the FDE at the offset the chosen table row designates, if it covers the address *)
Lemma hdr_fde_for_address_covers : forall dbg hb h c sec a, asz_ok (sc_asz c) ->
  hdr_fde_for_address dbg hb h c sec a =
  let* p := hdr_lookup dbg hb h a in
  let* o := pointer_to_offset dbg h p in
  let* fd := fde_from_offset dbg c sec o in
  if covers fd a then Ok fd else Err ENoUnwindInfoForAddress.
Proof.
  intros dbg hb h c sec a Hc. unfold hdr_fde_for_address.
  destruct (hdr_lookup dbg hb h a) as [p| | |]; try reflexivity. cbn [bind].
  destruct (pointer_to_offset dbg h p) as [o| | |]; try reflexivity. cbn [bind].
  destruct (fde_from_offset dbg c sec o) as [fd| | |] eqn:E; try reflexivity. cbn [bind].
  rewrite fde_contains_covers by (eapply fde_from_offset_asz; eassumption). reflexivity.
Qed.
