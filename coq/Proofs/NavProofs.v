(* Proofs/NavProofs.v — well-formed units (Spec/Forest.v): positioned reads at every entry, next_sibling and
   the tree iterator, as the case "no override" of the walks of Proofs/SibOv*.v; termination and
   panic-freedom of every cursor step over arbitrary input.
   "Theorem n" = the theorems of section (n) of Properties/C02.v. *)
From Coq Require Import List NArith ZArith Bool Lia ZifyBool ZifyN ZifyNat.
From Coq.Strings Require Import Byte.
Require Import GV.Base.Res GV.Base.Byt GV.Base.Ints GV.Model.Leb GV.Model.Prim
               GV.Spec.LebSpec GV.Spec.FormSpec GV.Spec.ListSpec GV.Model.Attr GV.Spec.Forest GV.Model.AbbrevRd
               GV.Model.DieRd GV.Proofs.PrimProofs GV.Proofs.AttrProofs GV.Proofs.AbbrevRdProofs GV.Proofs.DieRdProofs
               GV.Proofs.LebProofs GV.Proofs.EventWalk GV.Proofs.SibOvProofs GV.Proofs.SibOvTreeProofs GV.Proofs.SibOvSibProofs.
Import ListNotations.
Local Open Scope N_scope.

(* ------------------------------------------------------------------ *)
(** * Events at a shifted depth *)

Definition shift_die (k : Z) (d : die) : die :=
  mkDie (d_offset d) (d_depth d - k) (d_tag d) (d_children d) (d_attrs d).
Definition shift (k : Z) (x : xev) : xev := mkX (x_bytes x) (shift_die k (x_die x)) (x_post x - k).

Lemma shift_head codes bigend k d off t :
  shift k (head_ev codes bigend d off t) = head_ev codes bigend (d - k) off t.
Proof.
  unfold shift, head_ev, shift_die, root_die, post_depth. cbn [x_bytes x_die x_post d_offset d_depth d_tag d_children d_attrs].
  f_equal. destruct (has_children t); lia.
Qed.

Lemma shift_null k off d : shift k (null_ev off d) = null_ev off (d - k).
Proof.
  unfold shift, null_ev, shift_die, null_at. cbn [x_bytes x_die x_post d_offset d_depth d_tag d_children d_attrs].
  f_equal. lia.
Qed.

Lemma xbytes_shift k l : xbytes (map (shift k) l) = xbytes l.
Proof. unfold xbytes. rewrite map_map. reflexivity. Qed.

Lemma chain_shift k : forall l off d, chain off d l -> chain off (d - k) (map (shift k) l).
Proof.
  induction l as [|x l IH]; intros off d H; [exact I|]. destruct H as (A & B & C).
  cbn [map chain shift x_die x_bytes x_post shift_die d_offset d_depth]. repeat split; [exact A|lia|].
  apply IH. exact C.
Qed.

Lemma map_on_list {A B} (g : A -> B) (f : N -> tree -> list A) size : forall l off,
  map g (on_list f size off l) = on_list (fun o t => map g (f o t)) size off l.
Proof. induction l as [|t l IH]; intros off; [reflexivity|]. rewrite !on_list_cons, map_app, IH. reflexivity. Qed.

(* shifting the events of a subtree = the events of the subtree at the shifted depth *)
Lemma shift_evs codes bigend k : forall t d off,
  map (shift k) (evs codes bigend d off t) = evs codes bigend (d - k) off t.
Proof.
  induction t as [tag flag items kids IH] using tree_ind'. intros d off.
  set (t := Node tag flag items kids) in *.
  rewrite !evs_unfold. change (t_kids t) with kids. cbn [map]. rewrite shift_head. f_equal.
  destruct (has_children t); [|reflexivity].
  rewrite map_app. cbn [map]. rewrite shift_null. replace (d + 1 - k)%Z with (d - k + 1)%Z by lia. f_equal.
  rewrite map_on_list. apply on_list_ext. eapply Forall_impl; [|exact IH].
  intros k0 Hk o. cbv beta. rewrite Hk. f_equal. lia.
Qed.

Lemma shift_evs_list codes bigend k d off l :
  map (shift k) (evs_list codes bigend d off l) = evs_list codes bigend (d - k) off l.
Proof.
  unfold evs_list. rewrite map_on_list. apply on_list_ext. apply Forall_forall. intros t _ o. apply shift_evs.
Qed.

Lemma shift_pad k : forall n off d, map (shift k) (pad_evs off d n) = pad_evs off (d - k) n.
Proof.
  induction n as [|n IH]; intros off d; [reflexivity|]. cbn [pad_evs map]. rewrite shift_null, IH.
  replace (d - 1 - k)%Z with (d - k - 1)%Z by lia. reflexivity.
Qed.

(* the events of a unit body are readable at every depth *)
Lemma shift_body_ok dbg e tbl codes off f pad k : addr_size_ok e ->
  all_covered tbl codes f -> forest_ok codes e f -> sibs_fit codes off f ->
  Forall (ev_ok dbg e tbl) (map (shift k) (body_evs codes (be e) off f pad)).
Proof.
  intros He H1 H2 H3. unfold body_evs. rewrite map_app, shift_evs_list, shift_pad. apply Forall_app. split.
  - apply evs_list_ok; [exact He|]. apply placed_ok_all; assumption.
  - apply pad_evs_ok.
Qed.

(* ------------------------------------------------------------------ *)
(** * Positioned reads *)

(* a reader started at an event boundary of a unit body, with depth 0 *)
Lemma at_chain_positioned dbg e tbl l1 l2 off E :
  Forall (ev_ok dbg e tbl) (map (shift (end_depth 0 l1)) l2) -> chain off 0 (l1 ++ l2) ->
  E = off + nlen (xbytes (l1 ++ l2)) -> E < two63 ->
  at_chain dbg e tbl E [] (mkRaw (xbytes l2) E 0) (map (shift (end_depth 0 l1)) l2).
Proof.
  intros Hok2 Hch HE HE63. unfold two63 in HE63.
  apply chain_app in Hch. destruct Hch as [_ Hch2]. rewrite xbytes_app, nlen_app in HE.
  split; cbn [r_in r_end r_depth]; rewrite ?app_nil_r, ?xbytes_shift; try reflexivity.
  - exact Hok2.
  - replace (E - nlen (xbytes l2)) with (off + nlen (xbytes l1)) by lia.
    pose proof (chain_shift (end_depth 0 l1) l2 _ _ Hch2) as C. rewrite Z.sub_diag in C. exact C.
  - lia.
  - unfold two64. lia.
  - split; unfold nlen in *; lia.
Qed.

(* where an entry of the forest sits in the event list *)
Lemma on_list_in {A} (f : N -> tree -> list A) size : forall l off p,
  In p (on_list f size off l) ->
  exists la k lb, l = la ++ k :: lb /\ In p (f (off + sumN (map size la)) k).
Proof.
  induction l as [|t l IH]; intros off p H; [destruct H|]. rewrite on_list_cons in H.
  apply in_app_or in H. destruct H as [H|H].
  - exists [], t, l. split; [reflexivity|]. cbn [map sumN fold_right]. rewrite N.add_0_r. exact H.
  - destruct (IH _ _ H) as (la & k & lb & -> & Hin). exists (t :: la), k, lb. split; [reflexivity|].
    cbn [map sumN fold_right]. rewrite N.add_assoc. exact Hin.
Qed.

Lemma evs_list_app codes bigend d la lb off :
  evs_list codes bigend d off (la ++ lb) =
  evs_list codes bigend d off la ++ evs_list codes bigend d (off + forest_size codes la) lb.
Proof. unfold evs_list, forest_size. apply on_list_app. Qed.

Lemma evs_list_len codes bigend d l off : nlen (xbytes (evs_list codes bigend d off l)) = forest_size codes l.
Proof. rewrite evs_list_bytes. apply enc_forest_list_len. Qed.

(* the events of a subtree after its root entry *)
Definition tail_evs (codes : coding) (bigend : bool) (d : Z) (off : N) (t : tree) : list xev :=
  if has_children t
  then evs_list codes bigend (d + 1) (kids_off codes off t) (t_kids t) ++
       [null_ev (off + tree_size codes t - 1) (d + 1)]
  else [].

Lemma evs_tail codes bigend d off t :
  evs codes bigend d off t = head_ev codes bigend d off t :: tail_evs codes bigend d off t.
Proof. rewrite evs_unfold. reflexivity. Qed.

Lemma shift_tail codes bigend k d off t :
  map (shift k) (tail_evs codes bigend d off t) = tail_evs codes bigend (d - k) off t.
Proof.
  pose proof (shift_evs codes bigend k t d off) as H. rewrite !evs_tail in H. cbn [map] in H.
  inversion H. reflexivity.
Qed.

Lemma evs_locate codes bigend : forall t0 d off o t,
  In (o, t) (placed codes off t0) ->
  exists l1 l2 dd, evs codes bigend d off t0 = l1 ++ evs codes bigend dd o t ++ l2 /\
                   o = off + nlen (xbytes l1) /\ end_depth d l1 = dd.
Proof.
  induction t0 as [tag flag items kids IH] using tree_ind'. intros d off o t Hin.
  set (t0 := Node tag flag items kids) in *.
  rewrite placed_unfold in Hin. change (t_kids t0) with kids in Hin. destruct Hin as [Heq|Hin].
  - inversion Heq; subst o t. exists [], [], d.
    split; [rewrite app_nil_r; reflexivity|]. split; [change (nlen (xbytes [])) with 0; lia|reflexivity].
  - destruct (on_list_in _ _ _ _ _ Hin) as (la & k & lb & Ek & Hk).
    rewrite Forall_forall in IH. assert (Hkin : In k kids) by (rewrite Ek; apply in_or_app; right; left; reflexivity).
    destruct (IH k Hkin (d + 1)%Z _ o t Hk) as (m1 & m2 & dd & Em & Ho & Hd).
    assert (Hc : has_children t0 = true).
    { destruct (has_children t0) eqn:E; [reflexivity|]. apply no_children_no_kids in E.
      change (t_kids t0) with kids in E. rewrite E in Hkin. destruct Hkin. }
    rewrite (evs_unfold codes bigend d off t0), Hc. change (t_kids t0) with kids.
    fold (evs_list codes bigend (d + 1) (kids_off codes off t0) kids).
    rewrite Ek, evs_list_app. unfold evs_list at 2. rewrite on_list_cons. unfold forest_size. rewrite Em.
    exists (head_ev codes bigend d off t0 :: evs_list codes bigend (d + 1) (kids_off codes off t0) la ++ m1).
    eexists. exists dd. split; [|split].
    + cbn [app]. f_equal. rewrite <- !app_assoc. reflexivity.
    + rewrite xbytes_cons, xbytes_app, !nlen_app, evs_list_len. cbn [head_ev x_bytes].
      rewrite head_bytes_len. pose proof (kids_off_ge codes off t0). unfold forest_size in *. lia.
    + cbn [end_depth head_ev x_post]. rewrite end_depth_app.
      destruct (evs_list_chain codes bigend (post_depth d t0) la (kids_off codes off t0)) as [_ E].
      unfold post_depth in *. rewrite Hc in *. rewrite E. exact Hd.
Qed.

Lemma evs_list_locate codes bigend d : forall f off o t,
  In (o, t) (on_list (placed codes) (tree_size codes) off f) ->
  exists l1 l2 dd, evs_list codes bigend d off f = l1 ++ evs codes bigend dd o t ++ l2 /\
                   o = off + nlen (xbytes l1) /\ end_depth d l1 = dd.
Proof.
  intros f off o t Hin. destruct (on_list_in _ _ _ _ _ Hin) as (la & k & lb & -> & Hk).
  destruct (evs_locate codes bigend k d _ o t Hk) as (m1 & m2 & dd & Em & Ho & Hd).
  rewrite evs_list_app. unfold evs_list at 2. rewrite on_list_cons. unfold forest_size. rewrite Em.
  exists (evs_list codes bigend d off la ++ m1). eexists. exists dd. split; [|split].
  - rewrite <- !app_assoc. reflexivity.
  - rewrite xbytes_app, nlen_app, evs_list_len. unfold forest_size in *. lia.
  - rewrite end_depth_app. destruct (evs_list_chain codes bigend d la off) as [_ E]. rewrite E. exact Hd.
Qed.

Lemma body_locate codes bigend off f pad o t :
  In (o, t) (on_list (placed codes) (tree_size codes) off f) ->
  exists l1 l2 dd, body_evs codes bigend off f pad =
                     l1 ++ head_ev codes bigend dd o t :: tail_evs codes bigend dd o t ++ l2 /\
                   o = off + nlen (xbytes l1) /\ end_depth 0 l1 = dd.
Proof.
  intros Hin. destruct (evs_list_locate codes bigend 0 f off o t Hin) as (l1 & l2 & dd & E & Ho & Hd).
  unfold body_evs. rewrite E. exists l1, (l2 ++ pad_evs (off + forest_size codes f) 0 pad), dd.
  split; [|split; assumption].
  rewrite evs_unfold. fold (tail_evs codes bigend dd o t). rewrite <- !app_assoc. cbn [app].
  reflexivity.
Qed.

Lemma entries_at_offset_raw dbg h o r :
  entries_raw dbg h (Some o) = Ok r -> entries_at_offset dbg h o = Ok (mkCur r null_die).
Proof.
  unfold entries_raw, entries_at_offset, cursor_new. cbn [bind].
  destruct (range_from dbg h o) as [input| | |]; cbn [bind]; try discriminate.
  intros H. rewrite H. reflexivity.
Qed.

Lemma filter_shift k : forall l,
  filter not_null (map x_die (map (shift k) l)) = map (shift_die k) (filter not_null (map x_die l)).
Proof.
  induction l as [|x l IH]; [reflexivity|]. cbn [map filter shift x_die].
  assert (E : not_null (shift_die k (x_die x)) = not_null (x_die x)) by reflexivity.
  rewrite E. destruct (not_null (x_die x)); cbn [map]; rewrite IH; reflexivity.
Qed.

(* ------------------------------------------------------------------ *)
(** * Well-formed units are units without override *)

Lemma tail_ov_none codes bigend d off t :
  tail_ov codes (fun _ => None) bigend d off t = tail_evs codes bigend d off t.
Proof. unfold tail_ov, tail_evs. rewrite evs_list_ov_none. reflexivity. Qed.

Lemma pk_none e tbl codes E l :
  Forall (placed_ok e tbl codes) l -> Forall (pk codes (fun _ => None) e tbl E) l.
Proof. intros H. eapply Forall_impl; [|exact H]. intros p Hp. exact (conj Hp I). Qed.

(* the events below a root entry: every sibling pointer lands behind the subtree of its entry *)
Lemma tail_span e tbl codes E d off t : Forall (placed_ok e tbl codes) (placed codes off t) ->
  span E d (head_ev codes (be e) d off t) (tail_evs codes (be e) d off t).
Proof. intros Hp. rewrite <- tail_ov_none. exact (tail_ov_span codes _ e tbl E d off t (pk_none e tbl codes E _ Hp)). Qed.

(* the entries of a subtree are among the entries of the tree *)
Lemma placed_sub codes (P : N * tree -> Prop) : forall k ok0 o t,
  In (o, t) (placed codes ok0 k) -> Forall P (placed codes ok0 k) -> Forall P (placed codes o t).
Proof.
  induction k as [tag flag items kids IH] using tree_ind'. intros ok0 o t Hk Hpk.
  set (k := Node tag flag items kids) in *.
  rewrite placed_unfold in Hk, Hpk. change (t_kids k) with kids in *. destruct Hk as [Heq|Hk].
  - inversion Heq; subst. rewrite placed_unfold. exact Hpk.
  - apply Forall_cons_iff in Hpk. destruct Hpk as [_ Hpk].
    destruct (on_list_in _ _ _ _ _ Hk) as (la & k' & lb & Ek & Hk').
    rewrite Forall_forall in IH.
    apply (IH k' ltac:(rewrite Ek; apply in_or_app; right; left; reflexivity) _ _ _ Hk').
    rewrite Ek, on_list_app, on_list_cons in Hpk. apply Forall_app in Hpk. destruct Hpk as [_ Hp].
    apply Forall_app in Hp. tauto.
Qed.

Section Unit.
  Variables (dbg bigend types : bool) (uoff : N) (h : uheader) (codes : coding) (f : list tree) (pad : nat)
            (tbl : abbrevs).
  Let e := unit_enc bigend h.
  Let hl := header_len h.
  Let body := enc_forest codes bigend hl f pad.
  Let hdr := parsed_header bigend types uoff h body.
  Let E := hl + nlen body.
  Hypothesis He : addr_size_ok e.
  Hypothesis Hlen : hl + nlen body < two63.
  Hypothesis Hcov : all_covered tbl codes f.
  Hypothesis Hok : forest_ok codes e f.
  Hypothesis Hfit : sibs_fit codes hl f.

  (* the reader obtained by entries_raw(Some o) for the offset o of an event boundary *)
  Lemma positioned l1 l2 o :
    body_evs codes bigend hl f pad = l1 ++ l2 -> l2 <> [] -> o = hl + nlen (xbytes l1) ->
    entries_raw dbg hdr (Some o) = Ok (mkRaw (xbytes l2) E 0) /\
    at_chain dbg e tbl E [] (mkRaw (xbytes l2) E 0) (map (shift (end_depth 0 l1)) l2).
  Proof.
    intros Hsplit Hne Ho.
    assert (Hb : body = xbytes l1 ++ xbytes l2).
    { unfold body. rewrite <- (body_evs_bytes codes bigend hl f pad), Hsplit. apply xbytes_app. }
    pose proof (shift_body_ok dbg e tbl codes hl f pad (end_depth 0 l1) He Hcov Hok Hfit) as Hev.
    change (be e) with bigend in Hev. rewrite Hsplit, map_app in Hev. apply Forall_app in Hev. destruct Hev as [_ Hev].
    assert (Hne2 : xbytes l2 <> []).
    { destruct l2 as [|x l2]; [congruence|]. inversion Hev as [|? ? ((b & r & Eb) & _) _]; subst.
      cbn [shift x_bytes] in Eb. rewrite xbytes_cons, Eb. discriminate. }
    split.
    - unfold hdr. rewrite Hb. unfold E. rewrite Hb.
      apply entries_raw_at; [rewrite <- Hb; exact Hlen|exact Hne2|exact Ho].
    - apply (at_chain_positioned dbg e tbl l1 l2 hl E); [exact Hev| |unfold E|exact Hlen].
      + rewrite <- Hsplit. apply body_evs_chain.
      + rewrite <- Hsplit, body_evs_bytes. reflexivity.
  Qed.

  (* every entry (o, t) of the unit is such a boundary: the reader started there stands in front of the
     events of the subtree of t and of what follows it, at depths relative to t *)
  Lemma at_entry o t :
    In (o, t) (on_list (placed codes) (tree_size codes) hl f) ->
    exists l1 l2 dd,
      let l := head_ev codes bigend dd o t :: tail_evs codes bigend dd o t ++ l2 in
      body_evs codes bigend hl f pad = l1 ++ l /\
      entries_raw dbg hdr (Some o) = Ok (mkRaw (xbytes l) E 0) /\
      at_chain dbg e tbl E [] (mkRaw (xbytes l) E 0)
               (head_ev codes bigend 0 o t :: tail_evs codes bigend 0 o t ++ map (shift dd) l2) /\
      Forall (placed_ok e tbl codes) (placed codes o t) /\ tree_size codes t <= nlen (xbytes l).
  Proof.
    intros Hin. destruct (body_locate codes bigend hl f pad o t Hin) as (l1 & l2 & dd & Eb & Ho & Hd).
    destruct (positioned l1 _ o Eb ltac:(discriminate) Ho) as [Hraw Hat].
    cbn [map] in Hat. rewrite map_app, Hd, shift_head, shift_tail, Z.sub_diag in Hat.
    exists l1, l2, dd. split; [exact Eb|]. split; [exact Hraw|]. split; [exact Hat|]. split.
    2: { rewrite app_comm_cons, <- evs_tail, xbytes_app, nlen_app, evs_bytes, enc_tree_len. lia. }
    pose proof (placed_ok_all e tbl codes hl f Hcov Hok Hfit) as Hpall.
    destruct (on_list_in _ _ _ _ _ Hin) as (la & k & lb & Ef & Hk).
    rewrite Ef, on_list_app, on_list_cons in Hpall. apply Forall_app in Hpall. destruct Hpall as [_ Hp].
    apply Forall_app in Hp. destruct Hp as [Hpk _].
    exact (placed_sub codes (placed_ok e tbl codes) k _ o t Hk Hpk).
  Qed.

  (* Theorem 6, UnitHeader::entry: at the offset of any entry it returns that entry (depth 0) *)
  Lemma entry_at_offset o t :
    In (o, t) (on_list (placed codes) (tree_size codes) hl f) ->
    entry_at dbg hdr tbl o = Ok (root_die codes o 0 t).
  Proof.
    intros Hin. destruct (at_entry o t Hin) as (l1 & l2 & dd & _ & Hraw & Hat & Hpt & _).
    unfold entry_at. rewrite Hraw. cbn [bind].
    destruct (at_chain_step _ _ _ _ _ _ _ _ Hat) as (Hr & _).
    change (u_enc hdr) with e. rewrite Hr. cbn [bind head_ev x_die].
    destruct (placed_root codes _ _ t Hpt) as (_ & Hn & _).
    rewrite (root_die_not_null codes e o 0 t Hn). reflexivity.
  Qed.

  (* Theorem 6, entries_at_offset: a cursor started at the offset of any entry reports that entry and
     everything after it in preorder, with depths relative to the entry *)
  Lemma dfs_from_offset o t :
    In (o, t) (on_list (placed codes) (tree_size codes) hl f) ->
    exists p1 p2 dd c,
      preorder codes hl 0 f = p1 ++ root_die codes o dd t :: p2 /\
      entries_at_offset dbg hdr o = Ok c /\
      dfs_all (cursor_fuel c) dbg e tbl c = Ok (map (shift_die dd) (root_die codes o dd t :: p2), None).
  Proof.
    intros Hin. destruct (at_entry o t Hin) as (l1 & l2 & dd & Eb & Hraw & Hat & Hpt & _).
    destruct (placed_root codes _ _ t Hpt) as (_ & Hn & _).
    assert (Hdies : forall k, filter not_null (map x_die (head_ev codes bigend k o t :: tail_evs codes bigend k o t ++ l2)) =
                              root_die codes o k t :: filter not_null (map x_die (tail_evs codes bigend k o t ++ l2))).
    { intros k. cbn [map filter head_ev x_die]. unfold not_null at 1.
      rewrite (root_die_not_null codes e o k t Hn). reflexivity. }
    exists (filter not_null (map x_die l1)), (filter not_null (map x_die (tail_evs codes bigend dd o t ++ l2))), dd.
    eexists. split; [|split].
    - rewrite <- (raw_seq_preorder codes e hl f pad Hok), <- body_evs_dies with (bigend := bigend), Eb.
      rewrite map_app, filter_app, Hdies. reflexivity.
    - apply entries_at_offset_raw. exact Hraw.
    - set (c := mkCur _ null_die). change (mkRaw _ E 0) with (c_raw c) in Hat.
      unfold cursor_fuel. rewrite (dfs_all_chain dbg e tbl _ _ _ c Hat (at_chain_fuel _ _ _ _ _ _ _ Hat)).
      rewrite <- Hdies, <- filter_shift. do 4 f_equal.
      cbn [map]. rewrite map_app, shift_head, shift_tail, Z.sub_diag. reflexivity.
  Qed.

  (* Theorem 6a: the tree iterator started at any entry rebuilds that entry's subtree, depth 0 at the
     entry *)
  Lemma tree_is_forest o t :
    In (o, t) (on_list (placed codes) (tree_size codes) hl f) ->
    exists ts, entries_tree dbg hdr (Some o) = Ok ts /\
               walk_tree dbg e tbl ts = Ok (Some (dtree_of codes 0 o t), None).
  Proof.
    intros Hin.
    destruct (at_entry o t Hin) as (l1 & l2 & dd & _ & Hraw & Hat & Hpt & Hsz).
    destruct (placed_root codes _ _ t Hpt) as (_ & Hn & _).
    eexists. split; [apply entries_tree_raw; exact Hraw|].
    cbn [r_in]. unfold walk_tree, tree_root. cbn [tr_root tr_raw r_end].
    destruct (at_chain_step _ _ _ _ _ _ _ _ Hat) as (Hr & Hat1 & _).
    rewrite Hr. clear Hr Hat. change bigend with (be e) in Hat1 |- *.
    cbn [head_ev x_die x_post bind] in Hat1 |- *. rewrite (root_die_not_null codes e o 0 t Hn). cbn [negb tr_entry].
    rewrite <- (tail_ov_none codes (be e) 0) in Hat1 |- *. set (t1 := mkTree _ _ _).
    rewrite (walk_tree_claim_ov codes (fun _ => None) dbg e tbl E [] t 0%Z o _ t1 _ eq_refl Hat1 eq_refl Hpt).
    - cbn [bind]. rewrite <- dtree_ov_none, dtree_ov_unfold. reflexivity.
    - pose proof (kids_lt_size codes t) as Hs. change (be e) with bigend. unfold nlen in Hsz. lia.
  Qed.
End Unit.

(* ------------------------------------------------------------------ *)
(** * Theorem 5: iterating next_sibling reports exactly the following siblings *)

(* Theorem 5, on the bytes of a sibling list: the cursor about to read [t], whose following siblings
   are [ts], and after them the end of the input or a null entry *)
Lemma sibling_correct dbg e tbl codes t ts after off d E c :
  addr_size_ok e ->
  all_covered tbl codes (t :: ts) -> forest_ok codes e (t :: ts) -> sibs_fit codes off (t :: ts) ->
  (after = [] \/ exists more, after = x00 :: more) ->
  c_raw c = mkRaw (on_list (enc_tree codes (be e)) (tree_size codes) off (t :: ts) ++ after) E d ->
  E = off + nlen (on_list (enc_tree codes (be e)) (tree_size codes) off (t :: ts) ++ after) -> E < two64 ->
  depth_ok d (on_list (enc_tree codes (be e)) (tree_size codes) off (t :: ts) ++ after) ->
  exists c1, next_entry dbg e tbl c = Ok (SOk true c1) /\ c_cur c1 = root_die codes off d t /\
             siblings_all (cursor_fuel c1) dbg e tbl c1 = Ok (roots codes (off + tree_size codes t) d ts, None).
Proof.
  intros He H1 H2 H3 Hafter Hraw HE HE64 Hd.
  pose proof (placed_ok_all e tbl codes off (t :: ts) H1 H2 H3) as Hp.
  set (m := match after with [] => [] | _ => [null_ev (off + forest_size codes (t :: ts)) d] end).
  set (rest := tl after).
  assert (Hm : list_end rest d m).
  { unfold m, rest. destruct Hafter as [->|(more & ->)]; [left; split; reflexivity|right; eexists; eexists; reflexivity]. }
  assert (Hbytes : on_list (enc_tree codes (be e)) (tree_size codes) off (t :: ts) ++ after =
                   xbytes (evs_list codes (be e) d off (t :: ts) ++ m) ++ rest).
  { rewrite xbytes_app, evs_list_bytes, <- app_assoc. f_equal. unfold m, rest.
    destruct Hafter as [->|(more & ->)]; reflexivity. }
  rewrite Hbytes in *.
  assert (Hat : at_chain dbg e tbl E rest (c_raw c) (evs_list codes (be e) d off (t :: ts) ++ m)).
  { rewrite Hraw. apply (at_chain_intro dbg e tbl _ off d rest E); try assumption.
    - apply Forall_app. split; [apply evs_list_ok; assumption|].
      unfold m. destruct after; constructor; [apply null_ev_ok|constructor].
    - apply chain_app. destruct (evs_list_chain codes (be e) d (t :: ts) off) as [C Ee]. split; [exact C|].
      rewrite Ee, evs_list_len. unfold m. destruct after; [exact I|].
      cbn [chain null_ev x_die null_at d_offset d_depth]. repeat split. }
  rewrite <- evs_list_ov_none, evs_list_ov_cons in Hat. cbn [app] in Hat. rewrite <- app_assoc in Hat.
  eexists. split; [apply (next_entry_chain _ _ _ _ _ _ _ _ Hat)|]. cbn [head_ev_ov x_die x_post c_cur].
  split; [reflexivity|].
  apply (siblings_iter codes (fun _ => None) dbg e tbl E rest d m Hm ts t off).
  - exact (on_head_intro codes _ dbg e tbl E rest _ d off t _ Hat).
  - apply pk_none. exact Hp.
  - unfold cursor_fuel. cbn [c_raw r_in]. rewrite evs_list_ov_none.
    pose proof (length_le_forest_size codes ts) as L.
    rewrite <- (evs_list_len codes (be e) d ts (off + tree_size codes t)) in L. unfold nlen in L.
    rewrite !xbytes_app, !app_length. lia.
Qed.

(* ------------------------------------------------------------------ *)
(** * Every input: no cursor step panics or runs out of model fuel *)

Lemma read_attributes_length dbg e : forall specs bs vs r,
  read_attributes dbg e specs bs = Ok (vs, r) -> (length r <= length bs)%nat.
Proof.
  induction specs as [|s specs IH]; intros bs vs r; cbn [read_attributes].
  - intros H. inversion H; subst. lia.
  - destruct (parse_attribute dbg e s bs) as [[v r1]| | |] eqn:E1; cbn [bind]; try discriminate.
    destruct (read_attributes dbg e specs r1) as [[vs' r2]| | |] eqn:E2; cbn [bind]; try discriminate.
    intros H. inversion H; subst. apply parse_attribute_length in E1. apply IH in E2. lia.
Qed.

Lemma chk_add_not_oof bits dbg a b : chk_add bits dbg a b <> OutOfFuel.
Proof. unfold chk_add. destruct (a + b <? 2 ^ bits); [discriminate|]. destruct dbg; discriminate. Qed.

(* the reader invariant established by EntriesRaw::new on a slice shorter than 2^63 bytes *)
Definition state_ok (r : raw_st) : Prop := nlen (r_in r) <= r_end r /\ depth_ok (r_depth r) (r_in r).

Lemma depth_ok_shorter d a b : (length b <= length a)%nat -> depth_ok d a -> depth_ok d b.
Proof. unfold depth_ok, nlen. intros H [A B]. split; lia. Qed.

Lemma read_entry_inv dbg e tbl r : state_ok r ->
  match read_entry dbg e tbl r with
  | Ok (ok, d, r') => state_ok r' /\ d_depth d = r_depth r /\ (length (r_in r') < length (r_in r))%nat /\
                      r_end r' = r_end r
  | Err _ => True
  | Panic => False
  | OutOfFuel => False
  end.
Proof.
  intros [Hle [D1 D2]]. unfold read_entry, next_offset, chk_sub.
  replace (nlen (r_in r) <=? r_end r) with true by lia. cbn [bind].
  unfold read_abbreviation. pose proof (read_uleb128_total dbg (r_in r)) as [U1 U2].
  destruct (read_uleb128 dbg (r_in r)) as [[code rest]| | |] eqn:E1; cbn [bind]; try congruence; try exact I.
  apply read_uleb128_skip, skip_leb_shrinks in E1.
  assert (Hl : nlen rest + 1 <= nlen (r_in r)) by (unfold nlen; lia).
  destruct (code =? 0).
  - rewrite chk_s_ok by lia. cbn [bind r_in r_end r_depth d_depth]. unfold state_ok, depth_ok. cbn [r_in r_end r_depth].
    repeat split; lia.
  - destruct (tbl_get tbl code) as [a|]; cbn [bind]; [|exact I].
    assert (Hd : exists d', (if ab_children a then chk_s 64 dbg (r_depth r + 1) else Ok (r_depth r)) = Ok d' /\
                            (r_depth r <= d' <= r_depth r + 1)%Z).
    { destruct (ab_children a); [rewrite chk_s_ok by lia|]; eexists; split; try reflexivity; lia. }
    destruct Hd as (d' & -> & Hd'). cbn [bind r_in r_end r_depth].
    unfold read_attrs. pose proof (read_attributes_res (ab_specs a) dbg e rest) as [A1 A2].
    destruct (read_attributes dbg e (ab_specs a) rest) as [[vs rest']| | |] eqn:E2; cbn [bind]; try congruence; try exact I.
    apply read_attributes_length in E2. cbn [d_depth]. unfold state_ok, depth_ok. cbn [r_in r_end r_depth].
    unfold nlen in *. repeat split; lia.
Qed.

Definition cursor_ok (c : cursor) : Prop :=
  state_ok (c_raw c) /\ depth_ok (d_depth (c_cur c)) (r_in (c_raw c)).

Lemma next_entry_inv dbg e tbl c : cursor_ok c ->
  match next_entry dbg e tbl c with
  | Ok (SOk true c') => cursor_ok c' /\ (length (r_in (c_raw c')) < length (r_in (c_raw c)))%nat
  | Ok (SOk false c') => cursor_ok c' /\ r_in (c_raw c') = []
  | Ok (SErr _ c') => cursor_ok c' /\ r_in (c_raw c') = []
  | Err _ => False
  | Panic => False
  | OutOfFuel => False
  end.
Proof.
  intros [Hs Hc]. unfold next_entry. destruct (raw_is_empty (c_raw c)) eqn:Em.
  - unfold raw_is_empty in Em. destruct (r_in (c_raw c)) eqn:Ei; [|discriminate].
    split; [|exact Ei]. split; cbn [c_raw c_cur set_null d_depth]; [exact Hs|rewrite Ei in *; exact Hc].
  - pose proof (read_entry_inv dbg e tbl (c_raw c) Hs) as H.
    destruct (read_entry dbg e tbl (c_raw c)) as [[[ok d] r']|x| |]; try contradiction.
    + destruct H as (H1 & H2 & H3 & _). split; [|exact H3]. split; cbn [c_raw c_cur]; [exact H1|].
      rewrite H2. destruct Hs as [_ Hd]. apply (depth_ok_shorter _ (r_in (c_raw c))); [lia|exact Hd].
    + destruct Hs as [Hle Hd]. unfold next_offset, chk_sub. replace (nlen (r_in (c_raw c)) <=? r_end (c_raw c)) with true by lia.
      cbn [bind]. split; [|reflexivity]. split; cbn [c_raw c_cur r_in r_end r_depth d_depth]; unfold state_ok; cbn [r_in r_end r_depth].
      * split; [change (nlen (@nil byte)) with 0; lia|]. apply (depth_ok_shorter _ (r_in (c_raw c))); [cbn; lia|exact Hd].
      * apply (depth_ok_shorter _ (r_in (c_raw c))); [cbn; lia|exact Hd].
Qed.

Lemma next_dfs_inv dbg e tbl : forall fuel c, cursor_ok c -> (length (r_in (c_raw c)) < fuel)%nat ->
  match next_dfs fuel dbg e tbl c with
  | Ok (SOk _ c') | Ok (SErr _ c') => cursor_ok c' /\ (length (r_in (c_raw c')) <= length (r_in (c_raw c)))%nat
  | _ => False
  end.
Proof.
  induction fuel as [|fuel IH]; intros c Hc Hf; [lia|]. cbn [next_dfs].
  pose proof (next_entry_inv dbg e tbl c Hc) as H.
  destruct (next_entry dbg e tbl c) as [[[|] c'|x c']| | |]; cbn [bind]; try contradiction.
  - destruct H as [H1 H2]. destruct (negb (is_null (c_cur c'))); [split; [exact H1|lia]|].
    specialize (IH c' H1 ltac:(lia)).
    destruct (next_dfs fuel dbg e tbl c') as [[o c''|x c'']| | |]; try contradiction; (split; [tauto|lia]).
  - destruct H as [H1 H2]. split; [exact H1|rewrite H2; cbn; lia].
  - destruct H as [H1 H2]. split; [exact H1|rewrite H2; cbn; lia].
Qed.

Lemma sibling_jump_inv dbg r cur : state_ok r -> depth_ok (d_depth cur) (r_in r) ->
  exists r', sibling_jump dbg r cur = Ok r' /\ state_ok r' /\ (length (r_in r') <= length (r_in r))%nat /\
             r_end r' = r_end r.
Proof.
  intros Hs Hc.
  assert (Stay : exists r', Ok r = Ok r' /\ state_ok r' /\ (length (r_in r') <= length (r_in r))%nat /\ r_end r' = r_end r)
    by (exists r; split; [reflexivity|split; [exact Hs|split; [lia|reflexivity]]]).
  unfold sibling_jump. destruct (d_children cur); [|exact Stay]. destruct (die_sibling cur) as [o|]; [|exact Stay].
  unfold seek_forward, next_offset, chk_sub. destruct Hs as [Hle Hd].
  replace (nlen (r_in r) <=? r_end r) with true by lia. cbn [bind].
  destruct (o <? r_end r - nlen (r_in r)); cbn [bind]; [exact Stay|].
  pose proof (skip_n_res (o - (r_end r - nlen (r_in r))) (r_in r)) as [S1 S2].
  destruct (skip_n (o - (r_end r - nlen (r_in r))) (r_in r)) as [rest|x| |] eqn:E; cbn [bind]; try congruence.
  apply skip_n_spec in E. destruct E as (hd & E & _). eexists. split; [reflexivity|].
  assert (L : (length rest <= length (r_in r))%nat) by (rewrite E, app_length; lia).
  split; [|split; [exact L|reflexivity]]. split; cbn [r_in r_end r_depth]; [unfold nlen in *; lia|].
  apply (depth_ok_shorter _ (r_in r)); assumption.
Qed.

Lemma sibling_loop_inv dbg e tbl T : forall fuel c, cursor_ok c -> (length (r_in (c_raw c)) < fuel)%nat ->
  match sibling_loop fuel dbg e tbl T c with
  | Ok (SOk _ c') | Ok (SErr _ c') => cursor_ok c'
  | _ => False
  end.
Proof.
  induction fuel as [|fuel IH]; intros c [Hs Hc] Hf; [lia|]. cbn [sibling_loop].
  assert (Hj : exists r1, (match current c with Some cur => sibling_jump dbg (c_raw c) cur | None => Ok (c_raw c) end) = Ok r1 /\
                          state_ok r1 /\ (length (r_in r1) <= length (r_in (c_raw c)))%nat).
  { unfold current. destruct (is_null (c_cur c)); [exists (c_raw c); split; [reflexivity|split; [exact Hs|lia]]|].
    destruct (sibling_jump_inv dbg (c_raw c) (c_cur c) Hs Hc) as (r1 & E1 & H1 & H2 & _). exists r1. auto. }
  destruct Hj as (r1 & -> & Hs1 & Hl1). cbn [bind].
  assert (Hc1 : cursor_ok (mkCur r1 (c_cur c))).
  { split; cbn [c_raw c_cur]; [exact Hs1|]. apply (depth_ok_shorter _ (r_in (c_raw c))); assumption. }
  pose proof (next_entry_inv dbg e tbl _ Hc1) as H.
  destruct (next_entry dbg e tbl (mkCur r1 (c_cur c))) as [[[|] c'|x c']| | |]; cbn [bind]; try contradiction.
  - destruct H as [H1 H2]. cbn [c_raw] in H2. destruct (d_depth (c_cur c') =? T)%Z; [exact H1|].
    apply IH; [exact H1|lia].
  - tauto.
  - tauto.
Qed.

(* the cursor steps of the public API, from any state satisfying the invariant *)
Lemma cursor_steps_total dbg e tbl c : cursor_ok c ->
  (forall r, next_entry dbg e tbl c = r -> r <> Panic /\ r <> OutOfFuel) /\
  (forall r, next_dfs (cursor_fuel c) dbg e tbl c = r -> r <> Panic /\ r <> OutOfFuel) /\
  (forall r, next_sibling (cursor_fuel c) dbg e tbl c = r -> r <> Panic /\ r <> OutOfFuel).
Proof.
  intros Hc. split; [|split]; intros r <-.
  - pose proof (next_entry_inv dbg e tbl c Hc) as H.
    destruct (next_entry dbg e tbl c) as [[[|] c'|x c']| | |]; try contradiction; split; discriminate.
  - pose proof (next_dfs_inv dbg e tbl (cursor_fuel c) c Hc ltac:(unfold cursor_fuel; lia)) as H.
    destruct (next_dfs (cursor_fuel c) dbg e tbl c) as [[o c'|x c']| | |]; try contradiction; split; discriminate.
  - unfold next_sibling. destruct (current c); [|split; discriminate].
    pose proof (sibling_loop_inv dbg e tbl (d_depth d) (cursor_fuel c) c Hc ltac:(unfold cursor_fuel; lia)) as H.
    destruct (sibling_loop (cursor_fuel c) dbg e tbl (d_depth d) c) as [[o c'|x c']| | |]; try contradiction; split; discriminate.
Qed.

(* the invariant holds for every cursor the API hands out on a slice shorter than 2^63 bytes *)
Lemma cursor_new_ok dbg input offset c :
  offset + nlen input < two63 -> cursor_new dbg input offset = Ok c -> cursor_ok c.
Proof.
  intros H. unfold cursor_new, raw_new. unfold two63 in H.
  rewrite chk_add_ok by (change (2 ^ 64) with two64; unfold two64; lia). cbn [bind].
  intros E. inversion E; subst. unfold cursor_ok, state_ok, depth_ok. cbn [c_raw c_cur r_in r_end r_depth null_die d_depth].
  repeat split; lia.
Qed.

(* ---- EntriesTree ---- *)
Definition tree_ok (t : tree_st) : Prop :=
  state_ok (tr_raw t) /\ depth_ok (d_depth (tr_entry t)) (r_in (tr_raw t)) /\
  nlen (tr_root t) <= r_end (tr_raw t) /\ depth_ok 0 (tr_root t).

Lemma tree_root_total dbg e tbl t : tree_ok t ->
  match tree_root dbg e tbl t with
  | Ok t' => tree_ok t'
  | Err _ => True
  | _ => False
  end.
Proof.
  intros (Hs & Hc & Hr & H0). unfold tree_root.
  assert (Hs0 : state_ok (mkRaw (tr_root t) (r_end (tr_raw t)) 0)) by (split; cbn [r_in r_end r_depth]; assumption).
  pose proof (read_entry_inv dbg e tbl _ Hs0) as H.
  destruct (read_entry dbg e tbl (mkRaw (tr_root t) (r_end (tr_raw t)) 0)) as [[[ok d] r']| | |] eqn:Er;
    cbn [bind]; try contradiction; [|exact I].
  destruct H as (H1 & H2 & H3 & Eend). cbn [r_in r_depth r_end] in *. destruct ok; cbn [negb]; [|exact I].
  split; cbn [tr_raw tr_entry tr_root]; [exact H1|]. split.
  - rewrite H2. apply (depth_ok_shorter _ (tr_root t)); [lia|exact H0].
  - split; [rewrite Eend; exact Hr|exact H0].
Qed.

Lemma tree_fail_total dbg t x : state_ok (tr_raw t) -> depth_ok 0 (tr_root t) -> nlen (tr_root t) <= r_end (tr_raw t) ->
  match tree_fail dbg t x with
  | Ok (TOk _ t') | Ok (TErr _ t') => tree_ok t'
  | _ => False
  end.
Proof.
  intros [Hle Hd] H0 Hr. unfold tree_fail, next_offset, chk_sub.
  replace (nlen (r_in (tr_raw t)) <=? r_end (tr_raw t)) with true by lia. cbn [bind].
  assert (Hd0 : depth_ok (r_depth (tr_raw t)) []) by (apply (depth_ok_shorter _ (r_in (tr_raw t))); [cbn; lia|exact Hd]).
  unfold tree_ok, state_ok. cbn [tr_raw tr_entry tr_root r_in r_end r_depth d_depth].
  split; [split; [change (nlen (@nil byte)) with 0; lia|exact Hd0]|]. split; [exact Hd0|]. split; assumption.
Qed.

Lemma tree_next_loop_total dbg e tbl depth : forall fuel t, tree_ok t -> (length (r_in (tr_raw t)) < fuel)%nat ->
  match tree_next_loop fuel dbg e tbl depth t with
  | Ok (TOk _ t') | Ok (TErr _ t') => tree_ok t'
  | _ => False
  end.
Proof.
  induction fuel as [|fuel IH]; intros t (Hs & Hc & Hr & H0) Hf; [lia|]. cbn [tree_next_loop].
  destruct (sibling_jump_inv dbg (tr_raw t) (tr_entry t) Hs Hc) as (r1 & Ej & Hs1 & Hl1 & Eend1). rewrite Ej. cbn [bind].
  destruct (raw_is_empty r1) eqn:Em.
  - unfold tree_ok. cbn [tr_raw tr_entry tr_root set_null d_depth]. split; [exact Hs1|]. split.
    + apply (depth_ok_shorter _ (r_in (tr_raw t))); assumption.
    + split; [rewrite Eend1; exact Hr|exact H0].
  - pose proof (read_entry_inv dbg e tbl r1 Hs1) as H.
    destruct (read_entry dbg e tbl r1) as [[[ok d] r2]|x| |] eqn:Er; try contradiction.
    + destruct H as (H1 & H2 & H3 & Eend2).
      assert (Hok2 : tree_ok (mkTree (tr_root t) r2 d)).
      { unfold tree_ok. cbn [tr_raw tr_entry tr_root]. split; [exact H1|]. split.
        - rewrite H2. destruct Hs1 as [_ Hd1]. apply (depth_ok_shorter _ (r_in r1)); [lia|exact Hd1].
        - split; [rewrite Eend2, Eend1; exact Hr|exact H0]. }
      destruct (d_depth d =? depth)%Z; [exact Hok2|]. apply IH; [exact Hok2|cbn [tr_raw]; lia].
    + apply tree_fail_total; cbn [tr_raw tr_root]; [exact Hs1|exact H0|rewrite Eend1; exact Hr].
Qed.

(* EntriesTree::next(depth) under its documented requirement depth <= entry.depth + 1 *)
Lemma tree_next_total dbg e tbl depth t : tree_ok t ->
  ((d_depth (tr_entry t) < depth)%Z -> (d_depth (tr_entry t) + 1 = depth)%Z) ->
  match tree_next (tree_fuel t) dbg e tbl depth t with
  | Ok (TOk _ t') | Ok (TErr _ t') => tree_ok t'
  | _ => False
  end.
Proof.
  intros Hok Hreq. unfold tree_next. destruct (d_depth (tr_entry t) <? depth)%Z eqn:Hlt.
  - replace (d_depth (tr_entry t) + 1 =? depth)%Z with true by lia. rewrite andb_false_r.
    destruct (negb (d_children (tr_entry t))); [exact Hok|].
    destruct Hok as (Hs & Hc & Hr & H0).
    destruct (raw_is_empty (tr_raw t)).
    + unfold tree_ok. cbn [tr_raw tr_entry tr_root set_null d_depth]. tauto.
    + pose proof (read_entry_inv dbg e tbl (tr_raw t) Hs) as H.
      destruct (read_entry dbg e tbl (tr_raw t)) as [[[ok d] r2]|x| |] eqn:Er; try contradiction.
      * destruct H as (H1 & H2 & H3 & Eend2).
        unfold tree_ok. cbn [tr_raw tr_entry tr_root]. split; [exact H1|]. split.
        -- rewrite H2. destruct Hs as [_ Hd1]. apply (depth_ok_shorter _ (r_in (tr_raw t))); [lia|exact Hd1].
        -- split; [rewrite Eend2; exact Hr|exact H0].
      * apply tree_fail_total; assumption.
  - apply tree_next_loop_total; [exact Hok|unfold tree_fuel; lia].
Qed.

(* ---- unit headers ---- *)

Lemma read_word_res f64 bigend bs : returns (read_word f64 bigend bs).
Proof. unfold read_word. destruct f64; apply read_un_not_panic. Qed.


Lemma parse_unit_type_res bigend f64 code bs : returns (parse_unit_type bigend f64 code bs).
Proof.
  assert (Hso : forall mk : N -> N -> utype,
            returns (let* (s, r1) := read_u64 bigend bs in let* (o, r2) := read_word f64 bigend r1 in Ok (mk s o, r2))).
  { intros mk. apply returns_bind; [apply read_un_not_panic|]. intros [s r1] _.
    apply returns_bind; [apply read_word_res|]. intros [o r2] _. apply returns_ok. }
  assert (Hid : forall mk : N -> utype, returns (let* (i, r1) := read_u64 bigend bs in Ok (mk i, r1))).
  { intros mk. apply returns_bind; [apply read_un_not_panic|]. intros [i r1] _. apply returns_ok. }
  unfold parse_unit_type.
  destruct (code =? 1); [apply returns_ok|]. destruct (code =? 2); [apply Hso|].
  destruct (code =? 3); [apply returns_ok|]. destruct (code =? 4); [apply Hid|].
  destruct (code =? 5); [apply Hid|]. destruct (code =? 6); [apply Hso|apply returns_err].
Qed.

Lemma parse_unit_header_res bigend types uoff bs :
  parse_unit_header bigend types uoff bs <> Panic /\ parse_unit_header bigend types uoff bs <> OutOfFuel.
Proof.
  unfold parse_unit_header.
  apply returns_bind; [apply read_initial_length_returns|]. intros [[len f64] r0] _.
  apply returns_bind; [apply split_n_res|]. intros [rest after] _.
  apply returns_bind; [apply read_un_not_panic|]. intros [version r1] _.
  apply returns_bind; [|intros [[[ut asz] aoff] r2] _; apply returns_bind;
                        [apply parse_unit_type_res|intros [utype r3] _; apply returns_ok]].
  destruct ((2 <=? version) && (version <=? 4)).
  - apply returns_bind; [apply read_word_res|]. intros [aoff ra] _.
    apply returns_bind; [apply read_address_size_returns|]. intros [asz rb] _. apply returns_ok.
  - destruct (version =? 5); [|apply returns_err].
    destruct r1 as [|b ra]; cbn [read_u8 bind]; [apply returns_err|].
    apply returns_bind; [apply read_address_size_returns|]. intros [asz rb] _.
    apply returns_bind; [apply read_word_res|]. intros [aoff rc] _. apply returns_ok.
Qed.

Lemma read_un_le n bigend bs v r : read_un n bigend bs = Ok (v, r) -> (length r <= length bs)%nat.
Proof. intros H. apply read_un_length in H. lia. Qed.
Lemma read_u8_le bs v r : read_u8 bs = Ok (v, r) -> (length r <= length bs)%nat.
Proof. intros H. apply read_u8_ok in H. destruct H as (b & -> & _). cbn. lia. Qed.
Lemma read_word_le f bigend bs v r : read_word f bigend bs = Ok (v, r) -> (length r <= length bs)%nat.
Proof. unfold read_word. destruct f; apply read_un_le. Qed.
Lemma read_address_size_le bs v r : read_address_size bs = Ok (v, r) -> (length r <= length bs)%nat.
Proof.
  unfold read_address_size. destruct (read_u8 bs) as [[s t]| | |] eqn:E; cbn [bind]; try discriminate.
  destruct ((s =? 1) || (s =? 2) || (s =? 4) || (s =? 8)); [|discriminate].
  intros H. inversion H; subst. exact (read_u8_le _ _ _ E).
Qed.

Lemma read_address_size_valid bs v r : read_address_size bs = Ok (v, r) -> valid_asize v = true.
Proof.
  unfold read_address_size, valid_asize. destruct (read_u8 bs) as [[s t]| | |]; cbn [bind]; try discriminate.
  destruct ((s =? 1) || (s =? 2) || (s =? 4) || (s =? 8)) eqn:E; [|discriminate].
  intros H. inversion H; subst. exact E.
Qed.

Lemma parse_unit_type_le bigend f code bs t r :
  parse_unit_type bigend f code bs = Ok (t, r) -> (length r <= length bs)%nat.
Proof.
  assert (Hso : forall mk : N -> N -> utype,
            (let* (s, r1) := read_u64 bigend bs in let* (o, r2) := read_word f bigend r1 in Ok (mk s o, r2)) = Ok (t, r) ->
            (length r <= length bs)%nat).
  { intros mk H. apply bind_ok in H as ([s r1] & E1 & H). apply bind_ok in H as ([o r2] & E2 & H).
    apply read_un_le in E1. apply read_word_le in E2. inversion H; subst. lia. }
  assert (Hid : forall mk : N -> utype,
            (let* (i, r1) := read_u64 bigend bs in Ok (mk i, r1)) = Ok (t, r) -> (length r <= length bs)%nat).
  { intros mk H. apply bind_ok in H as ([i r1] & E1 & H). apply read_un_le in E1. inversion H; subst. lia. }
  assert (Hbs : forall u : utype, Ok (u, bs) = Ok (t, r) -> (length r <= length bs)%nat)
    by (intros u H; inversion H; subst; lia).
  unfold parse_unit_type.
  destruct (code =? 1); [apply Hbs|]. destruct (code =? 2); [apply Hso|].
  destruct (code =? 3); [apply Hbs|]. destruct (code =? 4); [apply Hid|].
  destruct (code =? 5); [apply Hid|]. destruct (code =? 6); [apply Hso|discriminate].
Qed.


(* the size arithmetic of every header the parser returns: the entries are what is left of the unit_length bytes
   that follow the initial length, so header_size = initial length size + unit_length - |entries| cannot
   underflow, and initial length + unit_length is at most the section size *)
Lemma parse_unit_header_sizes bigend types uoff bs h after :
  parse_unit_header bigend types uoff bs = Ok (h, after) ->
  nlen (u_entries h) <= u_length h /\
  initial_length_size (fmt64 (u_enc h)) + u_length h + nlen after = nlen bs /\
  valid_asize (address_size (u_enc h)) = true.
Proof.
  unfold parse_unit_header. intros H.
  apply bind_ok in H. destruct H as ([[len f64] r0] & Ei & H). apply read_initial_length_len in Ei.
  apply bind_ok in H. destruct H as ([rest aft] & Es & H). apply split_n_spec in Es. destruct Es as [Es Hlen].
  apply bind_ok in H. destruct H as ([version r1] & Ev & H). apply read_un_le in Ev.
  apply bind_ok in H. destruct H as ([[[ut asz] aoff] r2] & Ef & H).
  assert (Hr2 : (length r2 <= length r1)%nat /\ valid_asize asz = true).
  { destruct ((2 <=? version) && (version <=? 4)); [|destruct (version =? 5); [|discriminate]].
    - apply bind_ok in Ef. destruct Ef as ([a ra] & Ea & Ef). apply read_word_le in Ea.
      apply bind_ok in Ef. destruct Ef as ([s rb] & Eb & Ef).
      pose proof (read_address_size_valid _ _ _ Eb). apply read_address_size_le in Eb.
      inversion Ef; subst. split; [lia|assumption].
    - apply bind_ok in Ef. destruct Ef as ([a ra] & Ea & Ef). apply read_u8_le in Ea.
      apply bind_ok in Ef. destruct Ef as ([s rb] & Eb & Ef).
      pose proof (read_address_size_valid _ _ _ Eb). apply read_address_size_le in Eb.
      apply bind_ok in Ef. destruct Ef as ([c rc] & Ec & Ef). apply read_word_le in Ec.
      inversion Ef; subst. split; [lia|assumption]. }
  destruct Hr2 as [Hr2 Hva].
  apply bind_ok in H. destruct H as ([utype r3] & Et & H). apply parse_unit_type_le in Et.
  inversion H; subst h after. cbn [u_entries u_length u_enc fmt64 address_size].
  unfold initial_length_size, nlen. rewrite Es, app_length in Ei.
  split; [lia|]. split; [destruct f64; lia|exact Hva].
Qed.

(* the unit iterator: every unit consumes input, the offsets stay below 2^64 *)
Lemma units_loop_total : forall fuel dbg bigend types offset bs,
  (length bs < fuel)%nat -> offset + nlen bs < two64 ->
  units_loop fuel dbg bigend types offset bs <> Panic /\ units_loop fuel dbg bigend types offset bs <> OutOfFuel.
Proof.
  induction fuel as [|fuel IH]; intros dbg bigend types offset bs Hf Hlen; [lia|]. cbn [units_loop].
  destruct (is_nil bs); [split; discriminate|].
  pose proof (parse_unit_header_res bigend types offset bs) as [P1 P2].
  destruct (parse_unit_header bigend types offset bs) as [[h after]| | |] eqn:E; try (split; congruence).
  apply parse_unit_header_sizes in E. destruct E as (_ & E & _).
  assert (initial_length_size (fmt64 (u_enc h)) >= 4) by (unfold initial_length_size; destruct (fmt64 (u_enc h)); lia).
  rewrite chk_sub_ok by lia. cbn [bind].
  rewrite chk_add_ok by (change (2 ^ 64) with two64; lia). cbn [bind].
  destruct (IH dbg bigend types (offset + (nlen bs - nlen after)) after ltac:(unfold nlen in *; lia) ltac:(lia)) as [I1 I2].
  destruct (units_loop fuel dbg bigend types (offset + (nlen bs - nlen after)) after) as [[l e]| | |]; cbn [bind];
    split; congruence.
Qed.

Lemma units_total dbg bigend types section : nlen section < two64 ->
  units dbg bigend types section <> Panic /\ units dbg bigend types section <> OutOfFuel.
Proof. intros H. unfold units. apply units_loop_total; [lia|lia]. Qed.
