(* Proofs/UnitWrProofs.v — lemmas for C11 (written units read back as the same forest). *)
From Coq Require Import List NArith ZArith Bool Lia ZifyBool ZifyN ZifyNat Permutation.
From Coq.Strings Require Import Byte.
Require Import GV.Base.Res GV.Base.Byt GV.Base.Ints GV.Spec.LebSpec GV.Model.Leb GV.Model.Prim.
Require Import GV.Spec.UnitWrSpec GV.Model.UnitWr GV.Proofs.LebProofs GV.Proofs.PrimProofs.
Import ListNotations.
Local Open Scope N_scope.

Lemma blen_app (a b : list byte) : UnitWr.blen (a ++ b) = UnitWr.blen a + UnitWr.blen b.
Proof. unfold UnitWr.blen. rewrite app_length. lia. Qed.

Lemma blen_nil : UnitWr.blen [] = 0.
Proof. reflexivity. Qed.

Lemma blen_cons b (l : list byte) : UnitWr.blen (b :: l) = 1 + UnitWr.blen l.
Proof. unfold UnitWr.blen. cbn [length]. lia. Qed.

Lemma blen_spec_eq (l : list byte) : UnitWrSpec.blen l = UnitWr.blen l.
Proof. reflexivity. Qed.

Lemma chk_add_ok_inv bits a b c : chk_add bits true a b = Ok c -> c = a + b /\ a + b < 2 ^ bits.
Proof.
  unfold chk_add. destruct (a + b <? 2 ^ bits) eqn:E; intros H; [|discriminate].
  injection H as <-. split; [reflexivity|now apply N.ltb_lt].
Qed.

Lemma dassert_true dbg : dassert dbg true = Ok tt.
Proof. unfold dassert. now rewrite andb_false_r. Qed.

Lemma dassert_ok dbg c u : dassert dbg c = Ok u -> dbg = true -> c = true.
Proof. unfold dassert. intros H ->. destruct c; [reflexivity|discriminate]. Qed.

(* from LebProofs.write_uleb128_ok / write_sleb128_ok: a writer that returns has written the minimal encoding, for
   every argument and not only those of the Rust type *)
Lemma write_uleb128_len v bs : write_uleb128 v = Ok bs -> UnitWr.blen bs = uleb128_size v.
Proof. intros H. now destruct (write_uleb128_ok _ _ H) as (_ & -> & _). Qed.

Lemma write_sleb128_len z bs : write_sleb128 z = Ok bs -> UnitWr.blen bs = sleb128_size z.
Proof. intros H. now destruct (write_sleb128_ok _ _ H) as (_ & -> & _). Qed.

Lemma write_uleb128_dec v bs rest : write_uleb128 v = Ok bs -> dec_uleb (bs ++ rest) = Some (v, rest).
Proof. intros H. destruct (write_uleb128_ok _ _ H) as (_ & _ & U & _ & S). unfold dec_uleb. now rewrite S, U. Qed.

Lemma write_sleb128_dec z bs rest : write_sleb128 z = Ok bs -> dec_sleb (bs ++ rest) = Some (z, rest).
Proof. intros H. destruct (write_sleb128_ok _ _ H) as (_ & _ & U & _ & S). unfold dec_sleb. now rewrite S, U. Qed.

Lemma write_uleb128_total v : v < 2 ^ 64 -> exists bs, write_uleb128 v = Ok bs.
Proof. intros H. eexists. apply write_uleb128_enc, H. Qed.

Lemma write_sleb128_total z : (- 2 ^ 63 <= z < 2 ^ 63)%Z -> exists bs, write_sleb128 z = Ok bs.
Proof. intros H. eexists. apply write_sleb128_enc. unfold in_i64. lia. Qed.



(* the first byte of a non-zero code is not the null entry's 0 *)
Lemma uleb_first_byte v bs : write_uleb128 v = Ok bs -> v <> 0 ->
  exists b r, bs = b :: r /\ (b2n b =? 0) = false.
Proof.
  intros H Hnz. destruct (write_uleb128_ok _ _ H) as (-> & _). rewrite enc_uleb_fuel_S.
  destruct (v <? 128) eqn:E; do 2 eexists; (split; [reflexivity|]).
  - rewrite b2n_n2b_small by lia. lia.
  - destruct (cont_byte (v mod 128)) as (_ & -> & _); [apply N.mod_lt|]; lia.
Qed.

Lemma enc_un_blen n be v : UnitWr.blen (enc_un n be v) = N.of_nat n.
Proof. unfold UnitWr.blen. now rewrite enc_un_length. Qed.

Lemma zeros_blen n : UnitWr.blen (zeros n) = n.
Proof. unfold UnitWr.blen, zeros. rewrite repeat_length. lia. Qed.

(* Writer::write_udata, for every value: the size is 1, 2, 4 or 8 and a value wider than a size below 8 is
   refused; u64 values are never refused at 8 (the model truncates what Rust cannot hold) *)
Lemma write_udata_inv be v size bs : write_udata be v size = Ok bs ->
  valid_size size = true /\ bs = enc_un (N.to_nat size) be v /\ (size = 8 \/ v < 256 ^ size).
Proof.
  unfold write_udata, valid_size. intros H.
  destruct (size =? 1) eqn:E1; [apply N.eqb_eq in E1; subst; destruct (v <? 256) eqn:L; [|discriminate]|
  destruct (size =? 2) eqn:E2; [apply N.eqb_eq in E2; subst; destruct (v <? two16) eqn:L; [|discriminate]|
  destruct (size =? 4) eqn:E4; [apply N.eqb_eq in E4; subst; destruct (v <? two32) eqn:L; [|discriminate]|
  destruct (size =? 8) eqn:E8; [apply N.eqb_eq in E8; subst|discriminate]]]].
  all: injection H as <-; split; [reflexivity|]; split; [reflexivity|].
  all: first [left; reflexivity | right; apply N.ltb_lt in L; exact L].
Qed.

Lemma write_udata_len be v size bs : write_udata be v size = Ok bs -> UnitWr.blen bs = size.
Proof. intros H. destruct (write_udata_inv _ _ _ _ H) as (_ & -> & _). rewrite enc_un_blen. lia. Qed.

Lemma write_udata_valid be v size bs : write_udata be v size = Ok bs -> valid_size size = true.
Proof. intros H. apply (write_udata_inv _ _ _ _ H). Qed.

Lemma ops_len_nil : ops_len [] = 0.
Proof. reflexivity. Qed.

Lemma ops_len_cons o r : ops_len (o :: r) = UnitWr.blen (op_bytes o) + ops_len r.
Proof. unfold ops_len, ops_bytes. cbn [flat_map]. now rewrite blen_app. Qed.

Lemma ops_bytes_app a b : ops_bytes (a ++ b) = ops_bytes a ++ ops_bytes b.
Proof. unfold ops_bytes. now rewrite flat_map_app. Qed.

Lemma ops_len_app a b : ops_len (a ++ b) = ops_len a + ops_len b.
Proof. unfold ops_len. now rewrite ops_bytes_app, blen_app. Qed.

Lemma ops_len_wb bs : ops_len [WB bs] = UnitWr.blen bs.
Proof. rewrite ops_len_cons, ops_len_nil. cbn [op_bytes]. lia. Qed.

(* what C15 proves about an expression: the predicted size is the number of bytes written *)
Definition expr_ok (v : aval) : Prop :=
  match v with
  | AvExprloc x => forall bs, x_out x = Ok bs -> x_size x = Ok (UnitWr.blen bs)
  | _ => True
  end.

Ltac binds :=
  repeat match goal with
  | H : bind _ _ = Ok _ |- _ =>
      let a := fresh "a" in let E := fresh "E" in
      apply bind_ok in H; destruct H as [a [E H]]
  end.

(* Writer::write_udata refuses a width other than 1/2/4/8 and a value wider than the field *)
Definition fits (v size : N) : option error :=
  if size =? 1 then (if v <? 256 then None else Some WValueTooLarge)
  else if size =? 2 then (if v <? two16 then None else Some WValueTooLarge)
  else if size =? 4 then (if v <? two32 then None else Some WValueTooLarge)
  else if size =? 8 then None
  else Some WUnsupportedWordSize.

Lemma write_udata_fits be v size :
  match fits v size with
  | Some e => write_udata be v size = Err e
  | None => exists b, write_udata be v size = Ok b
  end.
Proof.
  unfold fits, write_udata.
  destruct (size =? 1); [destruct (v <? 256); eauto|].
  destruct (size =? 2); [destruct (v <? two16); eauto|].
  destruct (size =? 4); [destruct (v <? two32); eauto|].
  destruct (size =? 8); eauto.
Qed.

Lemma write_udata_ok be v size : fits v size = None -> exists b, write_udata be v size = Ok b.
Proof. intros H. assert (W := write_udata_fits be v size). now rewrite H in W. Qed.

Lemma write_udata_no_panic be v size : write_udata be v size <> Panic.
Proof.
  assert (W := write_udata_fits be v size). destruct (fits v size); [rewrite W; discriminate|].
  destruct W as [b ->]. discriminate.
Qed.

(* the debug_assert_form! checks never fire *)
Lemma assert_form_ok dbg e v f : fst (av_form e v) = f -> assert_form dbg e v f = Ok tt.
Proof. intros <-. unfold assert_form. rewrite N.eqb_refl. apply dassert_true. Qed.

Lemma sec_offset_assert_ok dbg e v :
  fst (av_form e v) = (if (e_ver e =? 2) || (e_ver e =? 3) then word_form e DW_FORM_data4 DW_FORM_data8
                       else DW_FORM_sec_offset) ->
  sec_offset_assert dbg e v = Ok tt.
Proof.
  unfold sec_offset_assert. intros H. destruct (4 <=? e_ver e) eqn:V; [|reflexivity].
  apply assert_form_ok. rewrite H. replace ((e_ver e =? 2) || (e_ver e =? 3)) with false by lia. reflexivity.
Qed.

(* the ways AttributeValue::write puts a value into the section; `res` components are computations that
   may fail before anything is written *)
Inductive emit :=
| EFixed (n : nat) (x : N)                          (* write_u8 .. write_u128 *)
| EWord (sz : N) (x : res N)                        (* write_udata(x, sz) *)
| EUleb (x : res N)
| ESleb (z : Z)
| EBlock (size : res N) (body : res (list byte))    (* write_uleb128(size), then the bytes *)
| ECstr (bs : list byte)                            (* the bytes, then a NUL *)
| ENothing
| EUnitRef (id : eid)                               (* placeholder, patched when the unit is complete *)
| EInfoRef (r : dref) (sz : N).                     (* placeholder, patched when all units are written *)

Definition av_emit (dbg : bool) (cx : wcx) (v : aval) : emit :=
  let e := wc_enc cx in
  let w := wsz e in
  match v with
  | AvAddress (AConst x) => EWord (e_asz e) (Ok x)
  | AvAddress (ASym _ _) => EWord (e_asz e) (Err WInvalidAddress)
  | AvBlock bs => EBlock (Ok (UnitWr.blen bs)) (Ok bs)
  | AvData1 x => EFixed 1 x | AvData2 x => EFixed 2 x | AvData4 x => EFixed 4 x
  | AvData8 x | AvDebugTypesRef x => EFixed 8 x
  | AvData16 x => EFixed 16 x
  | AvSdata z => ESleb z
  | AvImplicitConst z => if 5 <=? e_ver e then ENothing else ESleb z
  | AvExprloc x => EBlock (x_size x) (x_out x)
  | AvFlag b => EFixed 1 (if b then 1 else 0)
  | AvFlagPresent => if 4 <=? e_ver e then ENothing else EFixed 1 1
  | AvUnitRef id => EUnitRef id
  | AvDebugInfoRef r => EInfoRef r (if e_ver e =? 2 then e_asz e else w)
  | AvDebugInfoRefSup x | AvDebugMacinfoRef x | AvDebugMacroRef x | AvDebugStrRefSup x => EWord w (Ok x)
  | AvLineProgramRef => EWord w (match wc_line cx with Some o => Ok o | None => Err WInvalidAttributeValue end)
  | AvLocationListRef i => EWord w (idx_get (wc_loc cx) i)
  | AvRangeListRef i => EWord w (idx_get (wc_rng cx) i)
  | AvStringRef i => EWord w (idx_get (wc_str cx) i)
  | AvLineStringRef i => EWord w (idx_get (wc_lstr cx) i)
  | AvString bs => ECstr bs
  | AvUdata x | AvEncoding x | AvDecimalSign x | AvEndianity x | AvAccessibility x | AvVisibility x
  | AvVirtuality x | AvLanguage x | AvAddressClass x | AvIdentifierCase x | AvCallingConvention x
  | AvInline x | AvOrdering x => EUleb (Ok x)
  | AvFileIndex f => EUleb (file_raw dbg (wc_lpv cx) f)
  end.

Definition emit_write (cx : wcx) (m : emit) : res (list wop) :=
  let be := wc_be cx in
  match m with
  | EFixed n x => Ok [WB (enc_un n be x)]
  | EWord sz x => let* v := x in let* b := write_udata be v sz in Ok [WB b]
  | EUleb x => let* v := x in let* b := write_uleb128 v in Ok [WB b]
  | ESleb z => let* b := write_sleb128 z in Ok [WB b]
  | EBlock size body => let* n := size in let* l := write_uleb128 n in let* b := body in Ok [WB l; WB b]
  | ECstr bs => Ok [WB bs; WB [x00]]
  | ENothing => Ok []
  | EUnitRef id => Ok [WUnitRef id (wsz (wc_enc cx))]
  | EInfoRef (DSym _) _ => Err WInvalidReference
  | EInfoRef (DEntry u id) sz => if valid_size sz then Ok [WInfoFix u id sz] else Err WUnsupportedWordSize
  end.

Definition emit_size (dbg : bool) (e : encoding) (m : emit) : res N :=
  match m with
  | EFixed n _ => Ok (N.of_nat n)
  | EWord sz _ | EInfoRef _ sz => Ok sz
  | EUleb x => let* v := x in Ok (uleb128_size v)
  | ESleb z => Ok (sleb128_size z)
  | EBlock size _ => let* n := size in chk_add 64 dbg (uleb128_size n) n
  | ECstr bs => chk_add 64 dbg (UnitWr.blen bs) 1
  | ENothing => Ok 0
  | EUnitRef _ => Ok (wsz e)
  end.

Lemma av_write_emit dbg cx v : av_write dbg cx v = emit_write cx (av_emit dbg cx v).
Proof.
  destruct v; unfold av_write, av_emit; cbn [emit_write].
  all: try match goal with |- context [?k <=? e_ver ?e] => destruct (k <=? e_ver e) eqn:V end.
  all: rewrite ?assert_form_ok, ?sec_offset_assert_ok by (cbn [av_form fst]; rewrite ?V; reflexivity); cbn [bind emit_write].
  all: try reflexivity.
  all: try (destruct (wc_line cx); reflexivity).
  all: try (destruct (wc_be cx); try destruct b; reflexivity).
  destruct a; reflexivity.
Qed.

Lemma av_size_emit dbg cx v :
  av_size dbg (wc_enc cx) (wc_lpv cx) v = emit_size dbg (wc_enc cx) (av_emit dbg cx v).
Proof.
  destruct v; unfold av_size, av_emit; cbn [emit_size].
  all: try match goal with |- context [?k <=? e_ver ?e] => destruct (k <=? e_ver e) eqn:V end.
  all: rewrite ?assert_form_ok, ?sec_offset_assert_ok by (cbn [av_form fst]; rewrite ?V; reflexivity); cbn [bind emit_size].
  all: try reflexivity.
  destruct a; reflexivity.
Qed.

(* the length prefix of a block is the number of bytes that follow (for an expression: C15's size theorem) *)
Definition emit_ok (m : emit) : Prop :=
  match m with EBlock size body => forall bs, body = Ok bs -> size = Ok (UnitWr.blen bs) | _ => True end.

Lemma emit_write_size dbg cx m ops :
  emit_write cx m = Ok ops -> emit_ok m -> ops_len ops < 2 ^ 64 -> emit_size dbg (wc_enc cx) m = Ok (ops_len ops).
Proof.
  destruct m as [n x|sz x|x|z|size body|bs| |id|[s|u id] sz]; cbn [emit_write emit_size emit_ok]; intros H X B; binds;
    try discriminate; try (destruct (valid_size sz); [|discriminate]); injection H as <-;
    rewrite ?ops_len_cons, ?ops_len_nil in *; cbn [op_bytes] in *; rewrite ?zeros_blen, ?enc_un_blen, ?N.add_0_r in *;
    try reflexivity.
  - now rewrite (write_udata_len _ _ _ _ E0).
  - now rewrite E, (write_uleb128_len _ _ E0).
  - now rewrite (write_sleb128_len _ _ E).
  - rewrite (X _ E1) in E. injection E as <-. rewrite (X _ E1), (write_uleb128_len _ _ E0) in *. now apply chk_add_ok.
  - now apply chk_add_ok.
Qed.

Definition emit_ub (e : encoding) (m : emit) : N :=
  match m with
  | EFixed n _ => N.of_nat n
  | EWord sz _ | EInfoRef _ sz => sz
  | EUleb _ | ESleb _ => 10
  | EBlock (Ok n) _ => 10 + n
  | EBlock _ _ | ENothing => 0
  | ECstr bs => UnitWr.blen bs + 1
  | EUnitRef _ => wsz e
  end.

Lemma emit_write_le cx m ops :
  emit_write cx m = Ok ops -> emit_ok m -> ops_len ops <= emit_ub (wc_enc cx) m.
Proof.
  destruct m as [n x|sz x|x|z|size body|bs| |id|[s|u id] sz]; cbn [emit_write emit_ub emit_ok]; intros H X; binds;
    try discriminate; try (destruct (valid_size sz); [|discriminate]); injection H as <-;
    rewrite ?ops_len_cons, ?ops_len_nil; cbn [op_bytes]; rewrite ?zeros_blen, ?enc_un_blen, ?N.add_0_r; try lia.
  - rewrite (write_udata_len _ _ _ _ E0). lia.
  - rewrite (write_uleb128_len _ _ E0). apply uleb128_size_le.
  - rewrite (write_sleb128_len _ _ E). apply sleb128_size_le.
  - rewrite (X _ E1) in E. injection E as <-. rewrite (X _ E1), (write_uleb128_len _ _ E0).
    assert (U := uleb128_size_le (UnitWr.blen a1)). lia.
  - change (UnitWr.blen [x00]) with 1. lia.
Qed.

Lemma emit_size_le dbg e m s : emit_size dbg e m = Ok s -> s <= emit_ub e m.
Proof.
  assert (W : forall a b c, chk_add 64 dbg a b = Ok c -> c <= a + b).
  { unfold chk_add, wrapN. intros a b c H. destruct (a + b <? 2 ^ 64); [injection H as <-; lia|].
    destruct dbg; [discriminate|]. injection H as <-. apply N.mod_le. discriminate. }
  destruct m as [n x|sz x|x|z|size body|bs| |id|r sz]; cbn [emit_size emit_ub]; intros H; binds; try (injection H as <-; lia).
  - injection H as <-. apply uleb128_size_le.
  - injection H as <-. apply sleb128_size_le.
  - rewrite E. apply W in H. assert (U := uleb128_size_le a). lia.
  - now apply W in H.
Qed.

(* what av_typed says of the data handed to a writer *)
Definition emit_typed (m : emit) : Prop :=
  match m with
  | EWord _ x => match x with Ok _ | Err _ => True | _ => False end
  | EUleb x => exists v, x = Ok v /\ v < 2 ^ 64
  | ESleb z => (- 2 ^ 63 <= z < 2 ^ 63)%Z
  | EBlock size body => exists n bs, size = Ok n /\ body = Ok bs /\ n < 2 ^ 63
  | ECstr bs => UnitWr.blen bs < 2 ^ 63
  | _ => True
  end.

(* the requests a writer refuses *)
Definition emit_refused (m : emit) : option error :=
  match m with
  | EWord sz (Ok x) => fits x sz
  | EWord _ (Err er) => Some er
  | EInfoRef (DSym _) _ => Some WInvalidReference
  | EInfoRef (DEntry _ _) sz => if valid_size sz then None else Some WUnsupportedWordSize
  | _ => None
  end.

Lemma emit_refused_err cx m er : emit_refused m = Some er -> emit_write cx m = Err er.
Proof.
  destruct m as [n x|sz [x|e| |]|x|z|size body|bs| |id|[s|u id] sz]; cbn [emit_refused emit_write bind]; try discriminate.
  - intros H. assert (W := write_udata_fits (wc_be cx) x sz). rewrite H in W. now rewrite W.
  - now intros [= ->].
  - now intros [= ->].
  - destruct (valid_size sz); [discriminate|now intros [= ->]].
Qed.

Lemma emit_written cx m : emit_typed m -> emit_refused m = None -> exists ops, emit_write cx m = Ok ops.
Proof.
  destruct m as [n x|sz [x|e| |]|x|z|size body|bs| |id|[s|u id] sz]; cbn [emit_typed emit_refused emit_write bind];
    intros T R; try discriminate; try contradiction; eauto.
  - destruct (write_udata_ok (wc_be cx) x sz R) as [b ->]. cbn [bind]. eauto.
  - destruct T as (v & -> & B). cbn [bind]. destruct (write_uleb128_total v B) as [b ->]. cbn [bind]. eauto.
  - destruct (write_sleb128_total z T) as [b ->]. cbn [bind]. eauto.
  - destruct T as (n & bs & -> & -> & B). cbn [bind]. destruct (write_uleb128_total n ltac:(lia)) as [b ->]. cbn [bind]. eauto.
  - destruct (valid_size sz); [eauto|discriminate].
Qed.

Lemma emit_size_no_panic dbg e m : emit_typed m -> emit_size dbg e m <> Panic.
Proof.
  destruct m as [n x|sz x|x|z|size body|bs| |id|r sz]; cbn [emit_typed emit_size]; intros T; try discriminate.
  - destruct T as (v & -> & _). discriminate.
  - destruct T as (n & bs & -> & _ & B). cbn [bind]. assert (U := uleb128_size_le n). rewrite chk_add_ok by lia. discriminate.
  - rewrite chk_add_ok by lia. discriminate.
Qed.

(* Some e: AttributeValue::write refuses the value with e. The conditions are those of the code: symbolic
   addresses and references (no relocation support in the plain writer), values that do not fit the field,
   a field width that is not 1/2/4/8, a line program reference in a unit without line program. *)
Definition av_unencodable (cx : wcx) (v : aval) : option error :=
  let e := wc_enc cx in
  match v with
  | AvAddress (ASym _ _) => Some WInvalidAddress
  | AvAddress (AConst x) => fits x (e_asz e)
  | AvDebugInfoRef (DSym _) => Some WInvalidReference
  | AvDebugInfoRef (DEntry _ _) =>
      if valid_size (if e_ver e =? 2 then e_asz e else wsz e) then None else Some WUnsupportedWordSize
  | AvDebugInfoRefSup x | AvDebugMacinfoRef x | AvDebugMacroRef x | AvDebugStrRefSup x => fits x (wsz e)
  | AvLineProgramRef => match wc_line cx with None => Some WInvalidAttributeValue | Some o => fits o (wsz e) end
  | _ => None
  end.

Lemma wsz_fits_shape e x : fits x (wsz e) = if e_fmt64 e then None else (if x <? two32 then None else Some WValueTooLarge).
Proof. unfold fits, wsz. destruct (e_fmt64 e); reflexivity. Qed.

(* the value ranges the Rust types guarantee (u8/u16/u32/u64/u128/i64 payloads, Vec lengths below
   isize::MAX, a FileId below usize::MAX) plus: ids issued by the tables of this write exist *)
Definition av_typed (cx : wcx) (v : aval) : Prop :=
  match v with
  | AvBlock bs | AvString bs => UnitWr.blen bs < 2 ^ 63
  | AvUdata x | AvEncoding x | AvDecimalSign x | AvEndianity x | AvAccessibility x | AvVisibility x
  | AvVirtuality x | AvLanguage x | AvAddressClass x | AvIdentifierCase x | AvCallingConvention x
  | AvInline x | AvOrdering x => x < 2 ^ 64
  | AvSdata z | AvImplicitConst z => (- 2 ^ 63 <= z < 2 ^ 63)%Z
  | AvExprloc x => exists n bs, x_size x = Ok n /\ x_out x = Ok bs /\ n < 2 ^ 63
  | AvFileIndex (Some i) => i < 2 ^ 64 - 1
  | AvLocationListRef i => exists o, nth_error (wc_loc cx) i = Some o /\ fits o (wsz (wc_enc cx)) = None
  | AvRangeListRef i => exists o, nth_error (wc_rng cx) i = Some o /\ fits o (wsz (wc_enc cx)) = None
  | AvStringRef i => exists o, nth_error (wc_str cx) i = Some o /\ fits o (wsz (wc_enc cx)) = None
  | AvLineStringRef i => exists o, nth_error (wc_lstr cx) i = Some o /\ fits o (wsz (wc_enc cx)) = None
  | _ => True
  end.

(* an upper bound of AttributeValue::size that does not depend on the build mode *)
Definition asize_ub (e : encoding) (v : aval) : N :=
  match v with
  | AvAddress _ => e_asz e
  | AvBlock bs => 10 + UnitWr.blen bs
  | AvString bs => UnitWr.blen bs + 1
  | AvExprloc x => match x_size x with Ok n => 10 + n | _ => 0 end
  | AvData16 _ => 16
  | AvDebugInfoRef _ => N.max (e_asz e) 8
  | _ => 10
  end.

Lemma wsz_le e : wsz e <= 8.
Proof. unfold wsz. destruct (e_fmt64 e); lia. Qed.

Lemma av_emit_ok dbg cx v : expr_ok v -> emit_ok (av_emit dbg cx v).
Proof.
  destruct v; cbn [av_emit expr_ok emit_ok]; try exact (fun _ => I); try (intros _; destruct (_ <=? _); exact I).
  - destruct a; exact (fun _ => I).
  - intros _ bs' H. now injection H as <-.
  - exact (fun X => X).
Qed.

Lemma av_emit_ub dbg cx v : emit_ub (wc_enc cx) (av_emit dbg cx v) <= asize_ub (wc_enc cx) v.
Proof.
  assert (W := wsz_le (wc_enc cx)).
  destruct v; cbn [av_emit asize_ub emit_ub]; try lia.
  - destruct a; cbn [emit_ub]; lia.
  - destruct (_ <=? _); cbn [emit_ub]; lia.
  - destruct (_ <=? _); cbn [emit_ub]; lia.
  - destruct (_ =? _); lia.
Qed.

Lemma av_emit_typed dbg cx v : av_typed cx v -> emit_typed (av_emit dbg cx v).
Proof.
  assert (L : forall l i, (exists o, nth_error l i = Some o /\ fits o (wsz (wc_enc cx)) = None) ->
                          match idx_get l i with Ok _ | Err _ => True | _ => False end).
  { intros l i (o & E & _). unfold idx_get, unwrap. now rewrite E. }
  destruct v; cbn [av_emit av_typed emit_typed]; intros T; try exact I; try exact T; try (apply L; exact T); eauto.
  - destruct a; exact I.
  - destruct (_ <=? _); [exact I|exact T].
  - destruct (_ <=? _); exact I.
  - destruct (wc_line cx); exact I.
  - destruct f as [i|]; cbn [file_raw]; [|exists 0; split; [reflexivity|lia]].
    destruct (wc_lpv cx <=? 4); [rewrite chk_add_ok by lia|]; eexists; (split; [reflexivity|lia]).
Qed.

Lemma av_emit_refused dbg cx v er : av_unencodable cx v = Some er -> emit_refused (av_emit dbg cx v) = Some er.
Proof.
  destruct v; cbn [av_emit av_unencodable emit_refused]; try discriminate; try exact (fun H => H).
  - destruct a; exact (fun H => H).
  - destruct (wc_line cx); exact (fun H => H).
Qed.

Lemma av_emit_accepted dbg cx v : av_typed cx v -> av_unencodable cx v = None -> emit_refused (av_emit dbg cx v) = None.
Proof.
  assert (L : forall l i, (exists o, nth_error l i = Some o /\ fits o (wsz (wc_enc cx)) = None) ->
                          emit_refused (EWord (wsz (wc_enc cx)) (idx_get l i)) = None).
  { intros l i (o & E & F). unfold idx_get, unwrap. now rewrite E. }
  destruct v; cbn [av_emit av_typed av_unencodable emit_refused]; intros T U; try reflexivity; try exact U; try (apply L; exact T).
  - destruct a; exact U.
  - destruct (_ <=? _); reflexivity.
  - destruct (_ <=? _); reflexivity.
  - destruct (wc_line cx); exact U.
Qed.

Lemma av_write_size dbg cx v ops :
  av_write dbg cx v = Ok ops -> expr_ok v -> ops_len ops < 2 ^ 64 ->
  av_size dbg (wc_enc cx) (wc_lpv cx) v = Ok (ops_len ops).
Proof. rewrite av_write_emit, av_size_emit. intros H X. apply emit_write_size; [exact H|now apply av_emit_ok]. Qed.

(* the bytes written for a value are bounded like its size *)
Lemma av_write_len_ub dbg cx v ops :
  av_write dbg cx v = Ok ops -> expr_ok v -> ops_len ops <= asize_ub (wc_enc cx) v.
Proof.
  rewrite av_write_emit. intros H X. eapply N.le_trans; [|apply (av_emit_ub dbg)].
  apply emit_write_le; [exact H|now apply av_emit_ok].
Qed.

Lemma av_size_le dbg cx v s : av_size dbg (wc_enc cx) (wc_lpv cx) v = Ok s -> s <= asize_ub (wc_enc cx) v.
Proof. rewrite av_size_emit. intros H. eapply N.le_trans; [exact (emit_size_le _ _ _ _ H)|apply av_emit_ub]. Qed.

(* AttributeValue::size never panics on well-typed values, in either build mode *)
Theorem av_size_no_panic_lemma dbg cx v : av_typed cx v -> av_size dbg (wc_enc cx) (wc_lpv cx) v <> Panic.
Proof. rewrite av_size_emit. intros T. now apply emit_size_no_panic, av_emit_typed. Qed.

(* AttributeValue::write never panics on well-typed values: it returns bytes or an error *)
Theorem av_write_no_panic_lemma dbg cx v : av_typed cx v -> av_write dbg cx v <> Panic.
Proof.
  rewrite av_write_emit. intros T. assert (Ty := av_emit_typed dbg cx v T).
  destruct (emit_refused (av_emit dbg cx v)) as [er|] eqn:R.
  - rewrite (emit_refused_err _ _ _ R). discriminate.
  - destruct (emit_written cx _ Ty R) as [ops ->]. discriminate.
Qed.

(* ops produced for attribute values carry no entry marks *)
Definition plain (o : wop) : bool := match o with WMark _ => false | _ => true end.

(* final content of an op list once the unit-relative placeholders hold `f id` *)
Definition op_resolved (f : eid -> list byte) (o : wop) : list byte :=
  match o with WUnitRef id _ => f id | _ => op_bytes o end.
Definition ops_resolved (f : eid -> list byte) (ops : list wop) : list byte := flat_map (op_resolved f) ops.

(* the ops of a value: no marks, placeholders of the format's word width, and a unit-relative placeholder
   only for UnitRef *)
Lemma emit_write_ops cx (f : eid -> list byte) m ops : emit_write cx m = Ok ops ->
  forallb plain ops = true /\
  Forall (fun o => match o with WUnitRef _ w' => w' = wsz (wc_enc cx) | _ => True end) ops /\
  ops_resolved f ops = match m with EUnitRef id => f id | _ => ops_bytes ops end.
Proof.
  destruct m as [n x|sz x|x|z|size body|bs| |id|[s|u id] sz]; cbn [emit_write]; intros H; binds; try discriminate;
    try (destruct (valid_size sz); [|discriminate]); injection H as <-;
    (split; [reflexivity|]); (split; [repeat constructor|]); try reflexivity.
  apply app_nil_r.
Qed.

Lemma av_write_plain dbg cx v ops : av_write dbg cx v = Ok ops -> forallb plain ops = true.
Proof. rewrite av_write_emit. intros H. apply (emit_write_ops cx (fun _ => []) _ _ H). Qed.

(* every unit-relative placeholder has the width of the format's word *)
Lemma av_write_refw dbg cx v ops :
  av_write dbg cx v = Ok ops ->
  Forall (fun o => match o with WUnitRef _ w' => w' = wsz (wc_enc cx) | _ => True end) ops.
Proof. rewrite av_write_emit. intros H. apply (emit_write_ops cx (fun _ => []) _ _ H). Qed.

Lemma av_write_resolved dbg cx f v ops : av_write dbg cx v = Ok ops ->
  ops_resolved f ops = match v with AvUnitRef id => f id | _ => ops_bytes ops end.
Proof.
  rewrite av_write_emit. intros H. destruct (emit_write_ops cx f _ _ H) as (_ & _ & R). revert R.
  destruct v; cbn [av_emit]; try exact (fun R => R); try (destruct (_ <=? _); exact (fun R => R)).
  destruct a; exact (fun R => R).
Qed.

Lemma set_nth_spec {A} i (x : A) : forall l l',
  set_nth i x l = Ok l' ->
  nth_error l' i = Some x /\ (forall j, j <> i -> nth_error l' j = nth_error l j) /\ length l' = length l.
Proof.
  induction i as [|i IH]; intros l l' H; destruct l as [|y r]; cbn [set_nth] in H; try discriminate.
  - injection H as <-. split; [reflexivity|]. split; [|reflexivity].
    intros [|j] Hj; [congruence|reflexivity].
  - apply bind_ok in H. destruct H as [a [Ha H]]. injection H as <-. destruct (IH _ _ Ha) as [A1 [A2 A3]].
    split; [exact A1|]. split.
    + intros [|j] Hj; [reflexivity|]. cbn [nth_error]. apply A2. congruence.
    + cbn [length]. now rewrite A3.
Qed.

Lemma set_nth_total {A} i (x : A) : forall l, (i < length l)%nat -> exists l', set_nth i x l = Ok l'.
Proof.
  induction i as [|i IH]; intros [|y r] H; cbn [length] in H; try lia; cbn [set_nth]; [eauto|].
  destruct (IH r) as [l' E]; [lia|]. rewrite E. cbn. eauto.
Qed.

Section die_induction.
  Variable P : die -> Prop.
  Hypothesis step : forall id tag sib attrs ch, Forall P ch -> P (Die id tag sib attrs ch).
  Fixpoint die_ind2 (d : die) : P d :=
    match d with
    | Die id tag sib attrs ch =>
        step id tag sib attrs ch
          ((fix go (l : list die) : Forall P l :=
              match l with
              | [] => Forall_nil P
              | c :: r => Forall_cons c (die_ind2 c) (go r)
              end) ch)
    end.
End die_induction.

(* ids in the order the two passes visit them *)
Fixpoint die_ids (d : die) : list nat :=
  match d with
  | Die id _ _ _ ch => id :: flat_map die_ids ch
  end.
Definition dies_ids (l : list die) : list nat := flat_map die_ids l.

Fixpoint die_expr_ok (d : die) : Prop :=
  match d with
  | Die _ _ _ attrs ch =>
      Forall (fun p => expr_ok (snd p)) attrs /\
      (fix go (l : list die) : Prop := match l with [] => True | c :: r => die_expr_ok c /\ go r end) ch
  end.
Fixpoint dies_expr_ok (l : list die) : Prop :=
  match l with [] => True | c :: r => die_expr_ok c /\ dies_expr_ok r end.

Lemma die_expr_ok_unfold id tag sib attrs ch :
  die_expr_ok (Die id tag sib attrs ch) = (Forall (fun p => expr_ok (snd p)) attrs /\ dies_expr_ok ch).
Proof. reflexivity. Qed.

Section lists_of_dies.
  Variables (dbg : bool) (e : encoding) (lpv : N) (cx : wcx).
  Fixpoint calc_list (l : list die) (s : cst) : res cst :=
    match l with
    | [] => Ok s
    | c :: r => let* s' := calc dbg e lpv c s in calc_list r s'
    end.
  Fixpoint write_list (l : list die) (p : N) : res (list wop) :=
    match l with
    | [] => Ok []
    | c :: r =>
        let* o := write_die dbg cx c p in
        let* rest := write_list r (p + ops_len o) in
        Ok (o ++ rest)
    end.
End lists_of_dies.

(* the DW_AT_sibling value of an entry with children: the unit offset of what follows its null child *)
Definition sib_patch (dbg : bool) (cx : wcx) (sib : bool) (after : N) : res (list wop) :=
  if sib
  then let* next := chk_sub 64 dbg after (wc_unit_off cx) in
       let* b := write_udata (wc_be cx) next (wsz (wc_enc cx)) in Ok [WB b]
  else Ok [].

Lemma calc_unfold dbg e lpv id tag sib attrs ch st :
  calc dbg e lpv (Die id tag sib attrs ch) st =
  (let* ents := set_nth id (cs_off st) (cs_entries st) in
   let* ab := die_abbrev dbg e (Die id tag sib attrs ch) in
   let (code, tab) := abbrev_add (cs_abbrevs st) ab in
   let* codes := set_nth id code (cs_codes st) in
   let* sz := die_size dbg e lpv (Die id tag sib attrs ch) code in
   let* off := chk_add 64 dbg (cs_off st) sz in
   let st1 := mkCst off ents tab codes in
   match ch with
   | [] => Ok st1
   | _ =>
       let* st2 := calc_list dbg e lpv ch st1 in
       let* off2 := chk_add 64 dbg (cs_off st2) 1 in
       Ok (mkCst off2 (cs_entries st2) (cs_abbrevs st2) (cs_codes st2))
   end).
Proof. reflexivity. Qed.

Lemma write_die_unfold dbg cx id tag sib attrs ch pos :
  write_die dbg cx (Die id tag sib attrs ch) pos =
  (let* _ := (if dbg
              then let* here := debug_info_offset dbg (wc_unit cx) (wc_entries cx) (mkEid (wc_unit cx) id) in
                   dassert dbg (match here with Some o => o =? pos | None => false end)
              else Ok tt) in
   let* code := idx_get (wc_codes cx) id in
   let* cb := write_uleb128 code in
   let* aops := attrs_write dbg cx attrs in
   match ch with
   | [] => Ok (WMark id :: WB cb :: aops)
   | _ =>
       let p0 := pos + (UnitWr.blen cb + (if sib then wsz (wc_enc cx) else 0)) + ops_len aops in
       let* cops := write_list dbg cx ch p0 in
       let* sibb := sib_patch dbg cx sib (p0 + ops_len cops + 1) in
       Ok (WMark id :: WB cb :: sibb ++ aops ++ cops ++ [WB [x00]])
   end).
Proof. destruct ch; [reflexivity|]. destruct sib; reflexivity. Qed.

Lemma calc_inv dbg e lpv id tag sib attrs ch st st' :
  calc dbg e lpv (Die id tag sib attrs ch) st = Ok st' ->
  exists ents ab code tab codes sz off,
    set_nth id (cs_off st) (cs_entries st) = Ok ents /\
    die_abbrev dbg e (Die id tag sib attrs ch) = Ok ab /\
    abbrev_add (cs_abbrevs st) ab = (code, tab) /\
    set_nth id code (cs_codes st) = Ok codes /\
    die_size dbg e lpv (Die id tag sib attrs ch) code = Ok sz /\
    chk_add 64 dbg (cs_off st) sz = Ok off /\
    match ch with
    | [] => st' = mkCst off ents tab codes
    | _ => exists st2 off2,
             calc_list dbg e lpv ch (mkCst off ents tab codes) = Ok st2 /\
             chk_add 64 dbg (cs_off st2) 1 = Ok off2 /\
             st' = mkCst off2 (cs_entries st2) (cs_abbrevs st2) (cs_codes st2)
    end.
Proof.
  intros H. rewrite calc_unfold in H.
  apply bind_ok in H. destruct H as [ents [E1 H]].
  apply bind_ok in H. destruct H as [ab [E2 H]].
  destruct (abbrev_add (cs_abbrevs st) ab) as [code tab] eqn:E3.
  apply bind_ok in H. destruct H as [codes [E4 H]].
  apply bind_ok in H. destruct H as [sz [E5 H]].
  apply bind_ok in H. destruct H as [off [E6 H]]. cbv zeta in H.
  exists ents, ab, code, tab, codes, sz, off. repeat (split; [assumption || reflexivity|]).
  destruct ch; [injection H as <-; reflexivity|].
  apply bind_ok in H. destruct H as [st2 [E7 H]].
  apply bind_ok in H. destruct H as [off2 [E8 H]]. injection H as <-. eauto.
Qed.

Lemma write_die_inv dbg cx id tag sib attrs ch pos ops :
  write_die dbg cx (Die id tag sib attrs ch) pos = Ok ops ->
  exists code cb aops,
    idx_get (wc_codes cx) id = Ok code /\ write_uleb128 code = Ok cb /\ attrs_write dbg cx attrs = Ok aops /\
    match ch with
    | [] => ops = WMark id :: WB cb :: aops
    | _ => let p0 := pos + (UnitWr.blen cb + (if sib then wsz (wc_enc cx) else 0)) + ops_len aops in
           exists cops sibb,
             write_list dbg cx ch p0 = Ok cops /\ sib_patch dbg cx sib (p0 + ops_len cops + 1) = Ok sibb /\
             ops = WMark id :: WB cb :: sibb ++ aops ++ cops ++ [WB [x00]]
    end.
Proof.
  intros H. rewrite write_die_unfold in H.
  apply bind_ok in H. destruct H as [u0 [_ H]].
  apply bind_ok in H. destruct H as [code [E1 H]].
  apply bind_ok in H. destruct H as [cb [E2 H]].
  apply bind_ok in H. destruct H as [aops [E3 H]].
  exists code, cb, aops. repeat (split; [assumption|]).
  destruct ch; [injection H as <-; reflexivity|]. cbv zeta in *.
  apply bind_ok in H. destruct H as [cops [E4 H]].
  apply bind_ok in H. destruct H as [sibb [E5 H]]. injection H as <-. eauto.
Qed.

Lemma sib_patch_inv dbg cx sib after sibb :
  sib_patch dbg cx sib after = Ok sibb ->
  if sib then exists next b, chk_sub 64 dbg after (wc_unit_off cx) = Ok next /\
                             write_udata (wc_be cx) next (wsz (wc_enc cx)) = Ok b /\ sibb = [WB b]
  else sibb = [].
Proof.
  unfold sib_patch. destruct sib; intros H; [|now injection H].
  apply bind_ok in H. destruct H as [next [E1 H]]. apply bind_ok in H. destruct H as [b [E2 H]].
  injection H as <-. eauto.
Qed.

Lemma sib_patch_len dbg cx sib after sibb :
  sib_patch dbg cx sib after = Ok sibb -> ops_len sibb = (if sib then wsz (wc_enc cx) else 0).
Proof.
  intros H. apply sib_patch_inv in H. destruct sib; [|now subst].
  destruct H as [next [b [_ [E ->]]]]. rewrite ops_len_wb. eapply write_udata_len; eassumption.
Qed.

(* Induction along a pass: a property of the runs over single entries (P) and over lists of siblings (Pl)
   holds of every run if it passes from the runs over the children to the run over their parent. *)
Section calc_induction.
  Variables (dbg : bool) (e : encoding) (lpv : N).
  Variables (P : die -> cst -> cst -> Prop) (Pl : list die -> cst -> cst -> Prop).
  Hypothesis Hnil : forall s, Pl [] s s.
  Hypothesis Hcons : forall c r s s1 s2,
    calc dbg e lpv c s = Ok s1 -> P c s s1 -> calc_list dbg e lpv r s1 = Ok s2 -> Pl r s1 s2 -> Pl (c :: r) s s2.
  Hypothesis Hdie : forall d st st', calc dbg e lpv d st = Ok st' ->
    (forall s s', calc_list dbg e lpv (die_children d) s = Ok s' -> Pl (die_children d) s s') -> P d st st'.

  Lemma calc_ind2 :
    (forall d st st', calc dbg e lpv d st = Ok st' -> P d st st') /\
    (forall l s s', calc_list dbg e lpv l s = Ok s' -> Pl l s s').
  Proof.
    assert (L : forall l, Forall (fun c => forall s s', calc dbg e lpv c s = Ok s' -> P c s s') l ->
                          forall s s', calc_list dbg e lpv l s = Ok s' -> Pl l s s').
    { induction 1 as [|c r Hc _ IHr]; intros s s' E; cbn [calc_list] in E.
      - injection E as <-. apply Hnil.
      - apply bind_ok in E. destruct E as [s1 [Ea Eb]]. eapply Hcons; eauto. }
    assert (D : forall d st st', calc dbg e lpv d st = Ok st' -> P d st st').
    { induction d as [id tag sib attrs ch IH] using die_ind2. intros st st' H.
      apply Hdie; [exact H|]. exact (L ch IH). }
    split; [exact D|]. intros l. apply L, Forall_forall. intros d _. apply D.
  Qed.
End calc_induction.

Section write_induction.
  Variables (dbg : bool) (cx : wcx).
  Variables (P : die -> N -> list wop -> Prop) (Pl : list die -> N -> list wop -> Prop).
  Hypothesis Hnil : forall p, Pl [] p [].
  Hypothesis Hcons : forall c r p o ro,
    write_die dbg cx c p = Ok o -> P c p o -> write_list dbg cx r (p + ops_len o) = Ok ro ->
    Pl r (p + ops_len o) ro -> Pl (c :: r) p (o ++ ro).
  Hypothesis Hdie : forall d pos ops, write_die dbg cx d pos = Ok ops ->
    (forall p o, write_list dbg cx (die_children d) p = Ok o -> Pl (die_children d) p o) -> P d pos ops.

  Lemma write_ind2 :
    (forall d pos ops, write_die dbg cx d pos = Ok ops -> P d pos ops) /\
    (forall l p o, write_list dbg cx l p = Ok o -> Pl l p o).
  Proof.
    assert (L : forall l, Forall (fun c => forall p o, write_die dbg cx c p = Ok o -> P c p o) l ->
                          forall p o, write_list dbg cx l p = Ok o -> Pl l p o).
    { induction 1 as [|c r Hc _ IHr]; intros p o E; cbn [write_list] in E.
      - injection E as <-. apply Hnil.
      - apply bind_ok in E. destruct E as [oc [Ea E]]. apply bind_ok in E. destruct E as [ro [Eb E]].
        injection E as <-. eapply Hcons; eauto. }
    assert (D : forall d pos ops, write_die dbg cx d pos = Ok ops -> P d pos ops).
    { induction d as [id tag sib attrs ch IH] using die_ind2. intros pos ops H.
      apply Hdie; [exact H|]. exact (L ch IH). }
    split; [exact D|]. intros l. apply L, Forall_forall. intros d _. apply D.
  Qed.
End write_induction.

Lemma attrs_write_size dbg cx : forall attrs acc aops,
  attrs_write dbg cx attrs = Ok aops -> Forall (fun p => expr_ok (snd p)) attrs ->
  acc + ops_len aops < 2 ^ 64 ->
  attrs_size dbg (wc_enc cx) (wc_lpv cx) acc attrs = Ok (acc + ops_len aops).
Proof.
  induction attrs as [|[n v] r IH]; intros acc aops H X B; cbn [attrs_write attrs_size] in *.
  - injection H as <-. rewrite ops_len_nil. f_equal. lia.
  - binds. injection H as <-. rewrite ops_len_app in *.
    inversion X as [|? ? X1 X2]; subst. cbn [snd] in X1.
    rewrite (av_write_size _ _ _ _ E X1) by lia. cbn [bind].
    rewrite chk_add_ok by lia. cbn [bind].
    rewrite (IH _ _ E0 X2) by lia. f_equal. lia.
Qed.

Lemma die_size_eq dbg cx id tag sib attrs ch code cb aops :
  write_uleb128 code = Ok cb -> attrs_write dbg cx attrs = Ok aops ->
  Forall (fun p => expr_ok (snd p)) attrs ->
  UnitWr.blen cb + (if sib && has_kids ch then wsz (wc_enc cx) else 0) + ops_len aops < 2 ^ 64 ->
  die_size dbg (wc_enc cx) (wc_lpv cx) (Die id tag sib attrs ch) code =
  Ok (UnitWr.blen cb + (if sib && has_kids ch then wsz (wc_enc cx) else 0) + ops_len aops).
Proof.
  intros C A X B. unfold die_size. rewrite <- (write_uleb128_len _ _ C).
  destruct (sib && has_kids ch).
  - rewrite chk_add_ok by lia. cbn [bind]. now apply attrs_write_size.
  - cbn [bind]. rewrite (attrs_write_size _ _ _ _ _ A X) by lia. f_equal. lia.
Qed.

Lemma ops_marks_app : forall a b p, ops_marks p (a ++ b) = ops_marks p a ++ ops_marks (p + ops_len a) b.
Proof.
  induction a as [|o r IH]; intros b p; cbn [app ops_marks].
  - rewrite ops_len_nil. f_equal. lia.
  - rewrite IH, ops_len_cons. replace (p + UnitWr.blen (op_bytes o) + ops_len r) with (p + (UnitWr.blen (op_bytes o) + ops_len r)) by lia.
    destruct o; reflexivity.
Qed.

Lemma ops_marks_plain : forall ops p, forallb plain ops = true -> ops_marks p ops = [].
Proof.
  induction ops as [|o r IH]; intros p H; cbn [ops_marks forallb] in *; [reflexivity|].
  apply andb_true_iff in H. destruct H as [H1 H2]. rewrite (IH _ H2). destruct o; [discriminate|reflexivity..].
Qed.

Lemma ops_marks_wb_plain p b r : forallb plain r = true -> ops_marks p (WB b :: r) = [].
Proof. intros H. cbn [ops_marks]. now apply ops_marks_plain. Qed.

Lemma attrs_write_plain dbg cx : forall attrs aops, attrs_write dbg cx attrs = Ok aops -> forallb plain aops = true.
Proof.
  induction attrs as [|[n v] r IH]; intros aops H; cbn [attrs_write] in H.
  - now injection H as <-.
  - binds. injection H as <-. rewrite forallb_app. rewrite (av_write_plain _ _ _ _ E), (IH _ E0). reflexivity.
Qed.

Lemma sib_patch_plain dbg cx sib after sibb : sib_patch dbg cx sib after = Ok sibb -> forallb plain sibb = true.
Proof. intros H. apply sib_patch_inv in H. destruct sib; [destruct H as (? & ? & _ & _ & ->)|subst]; reflexivity. Qed.

(* the marks of an entry with children: its own, then those of the children *)
Lemma ops_marks_node id cb sibb aops cops p :
  forallb plain sibb = true -> forallb plain aops = true ->
  ops_marks p (WMark id :: WB cb :: sibb ++ aops ++ cops ++ [WB [x00]]) =
  (id, p) :: ops_marks (p + (UnitWr.blen cb + ops_len sibb + ops_len aops)) cops.
Proof.
  intros Ps Pa. cbn [ops_marks op_bytes]. rewrite blen_nil, N.add_0_r. f_equal.
  rewrite !ops_marks_app, (ops_marks_plain sibb), (ops_marks_plain aops) by assumption. cbn [app].
  rewrite (ops_marks_plain [WB [x00]]) by reflexivity. rewrite app_nil_r. f_equal. lia.
Qed.

(* outside `ids` the offset and code tables are left as they were *)
Definition calc_frame_stmt (ids : list nat) (st st' : cst) : Prop :=
  length (cs_entries st') = length (cs_entries st) /\ length (cs_codes st') = length (cs_codes st) /\
  (forall i, ~ In i ids -> nth_error (cs_entries st') i = nth_error (cs_entries st) i /\
                           nth_error (cs_codes st') i = nth_error (cs_codes st) i).

Lemma calc_frame_trans ids1 ids2 s1 s2 s3 :
  calc_frame_stmt ids1 s1 s2 -> calc_frame_stmt ids2 s2 s3 -> calc_frame_stmt (ids1 ++ ids2) s1 s3.
Proof.
  intros [A1 [A2 A3]] [B1 [B2 B3]]. split; [congruence|]. split; [congruence|].
  intros i Hi. rewrite in_app_iff in Hi.
  destruct (A3 i) as [X1 X2]; [tauto|]. destruct (B3 i) as [Y1 Y2]; [tauto|].
  split; congruence.
Qed.

Lemma calc_frames dbg e lpv :
  (forall d st st', calc dbg e lpv d st = Ok st' -> calc_frame_stmt (die_ids d) st st') /\
  (forall l st st', calc_list dbg e lpv l st = Ok st' -> calc_frame_stmt (dies_ids l) st st').
Proof.
  apply calc_ind2.
  - intros s. repeat split; reflexivity.
  - intros c r s s1 s2 _ Hc _ Hr. exact (calc_frame_trans _ _ _ _ _ Hc Hr).
  - intros [id tag sib attrs ch] st st' H IH. cbn [die_children] in IH.
    destruct (calc_inv _ _ _ _ _ _ _ _ _ _ H) as (ents & ab & code & tab & codes & sz & off & E1 & _ & _ & E4 & _ & _ & K).
    destruct (set_nth_spec _ _ _ _ E1) as [_ [S2 S3]]. destruct (set_nth_spec _ _ _ _ E4) as [_ [T2 T3]].
    assert (F1 : calc_frame_stmt [id] st (mkCst off ents tab codes)).
    { split; [exact S3|]. split; [exact T3|]. intros i Hi. cbn [cs_entries cs_codes].
      split; [apply S2|apply T2]; intros ->; apply Hi; now left. }
    destruct ch as [|c r]; [subst st'; exact F1|].
    destruct K as (st2 & off2 & E7 & _ & ->). exact (calc_frame_trans [id] _ _ _ _ F1 (IH _ _ E7)).
Qed.

Definition calc_frame dbg e lpv := proj1 (calc_frames dbg e lpv).
Definition calc_list_frame dbg e lpv := proj2 (calc_frames dbg e lpv).

Definition agree_on (ids : list nat) (a b : list N) : Prop :=
  forall i, In i ids -> nth_error a i = nth_error b i.

(* what the two passes agree on over a run of entries: the size pass moved its offset by the number of bytes
   written, the marks are those entries in order, and each sits where the size pass recorded it *)
Definition agree_stmt (ids : list nat) (st st' : cst) (ops : list wop) : Prop :=
  cs_off st' = cs_off st + ops_len ops /\
  map fst (ops_marks (cs_off st) ops) = ids /\
  (forall i p, In (i, p) (ops_marks (cs_off st) ops) -> nth_error (cs_entries st') i = Some p).


Lemma agree_all dbg cx :
  (forall d st st', calc dbg (wc_enc cx) (wc_lpv cx) d st = Ok st' ->
     forall ops, write_die dbg cx d (cs_off st) = Ok ops ->
       agree_on (die_ids d) (wc_codes cx) (cs_codes st') -> NoDup (die_ids d) -> die_expr_ok d ->
       cs_off st + ops_len ops < 2 ^ 64 -> agree_stmt (die_ids d) st st' ops) /\
  (forall l st st', calc_list dbg (wc_enc cx) (wc_lpv cx) l st = Ok st' ->
     forall ops, write_list dbg cx l (cs_off st) = Ok ops ->
       agree_on (dies_ids l) (wc_codes cx) (cs_codes st') -> NoDup (dies_ids l) -> dies_expr_ok l ->
       cs_off st + ops_len ops < 2 ^ 64 -> agree_stmt (dies_ids l) st st' ops).
Proof.
  apply calc_ind2.
  - intros s ops HW _ _ _ _. injection HW as <-. unfold agree_stmt. rewrite ops_len_nil. cbn [ops_marks map dies_ids flat_map].
    split; [lia|]. split; [reflexivity|]. intros i p [].
  - intros c r st sA st' EC Hc HC Hr ops HW HA HN HX HB. cbn [write_list] in HW.
    apply bind_ok in HW. destruct HW as [o [EW HW]]. apply bind_ok in HW. destruct HW as [rest [EWL HW]].
    injection HW as <-. unfold dies_ids in *. cbn [flat_map] in *. rewrite ops_len_app in HB. destruct HX as [HX1 HX2].
    destruct (NoDup_app_inv _ _ HN) as (N1 & N2 & N3).
    destruct (calc_list_frame _ _ _ _ _ _ HC) as [_ [_ FR]].
    (* the first child: the later ones leave its codes alone *)
    destruct (Hc o EW) as [B1 [B2 B3]]; try assumption; [|lia|].
    { intros i Hi. rewrite HA by (rewrite in_app_iff; tauto). now apply (FR i), N3. }
    destruct (Hr rest) as [C1 [C2 C3]]; try assumption.
    { rewrite B1. exact EWL. } { intros i Hi. apply HA. rewrite in_app_iff. tauto. } { rewrite B1. lia. }
    unfold agree_stmt. rewrite ops_len_app, ops_marks_app, map_app, <- B1.
    split; [lia|]. split; [now rewrite B2, C2|].
    intros i p Hi. rewrite in_app_iff in Hi. destruct Hi as [Hi|Hi]; [|now apply C3].
    destruct (FR i) as [F1 _]; [apply N3; rewrite <- B2; exact (in_map fst _ _ Hi)|]. rewrite F1. now apply B3.
  - intros [id tag sib attrs ch] st st' HC IH ops HW HA HN HX HB. cbn [die_children] in IH.
    rewrite die_expr_ok_unfold in HX. destruct HX as [HXa HXc].
    cbn [die_ids] in *. inversion HN as [|? ? HNid HNch]; subst.
    destruct (calc_inv _ _ _ _ _ _ _ _ _ _ HC)
      as (ents & ab & code & tab & codes & sz & off1 & Eents & _ & _ & Ecodes & Esz & Eoff1 & K).
    destruct (set_nth_spec _ _ _ _ Eents) as [S1 _]. destruct (set_nth_spec _ _ _ _ Ecodes) as [T1 _].
    destruct (write_die_inv _ _ _ _ _ _ _ _ _ HW) as (code' & cb & aops & Ecode' & Ecb & Eaops & W).
    assert (Pa := attrs_write_plain _ _ _ _ Eaops).
    (* the code `write` looks up is the one calculate_offsets stored: the children do not touch it *)
    assert (Hcode : forall stF, calc_frame_stmt (flat_map die_ids ch) (mkCst off1 ents tab codes) stF ->
                    cs_codes st' = cs_codes stF -> code' = code).
    { intros stF [_ [_ F]] Eq. unfold idx_get, unwrap in Ecode'.
      rewrite (HA id (or_introl eq_refl)), Eq in Ecode'.
      destruct (F id HNid) as [_ F2]. rewrite F2 in Ecode'. cbn [cs_codes] in Ecode'. rewrite T1 in Ecode'.
      now injection Ecode' as <-. }
    destruct ch as [|c r].
    + subst st' ops.
      assert (code' = code) by (apply (Hcode (mkCst off1 ents tab codes)); [repeat split|]; reflexivity). subst code'.
      rewrite !ops_len_cons in HB. cbn [op_bytes] in HB. rewrite blen_nil in HB.
      rewrite (die_size_eq dbg cx id tag sib attrs [] code cb aops Ecb Eaops HXa) in Esz
        by (cbn [has_kids]; rewrite andb_false_r; lia).
      cbn [has_kids] in Esz. rewrite andb_false_r in Esz. injection Esz as <-.
      rewrite chk_add_ok in Eoff1 by lia. injection Eoff1 as <-.
      unfold agree_stmt. cbn [cs_off cs_entries flat_map]. rewrite !ops_len_cons. cbn [op_bytes ops_marks].
      rewrite blen_nil, N.add_0_r, (ops_marks_plain aops) by assumption.
      split; [lia|]. split; [reflexivity|]. intros i p [Hi|[]]. injection Hi as <- <-. exact S1.
    + destruct K as (st2 & off2 & Est2 & Eoff2 & ->). cbv zeta in W. destruct W as (cops & sibb & Ecops & Esibb & ->).
      cbn [cs_codes cs_entries cs_off] in *.
      assert (FR := calc_list_frame _ _ _ _ _ _ Est2).
      assert (code' = code) by (apply (Hcode st2 FR); reflexivity). subst code'.
      assert (Lsib := sib_patch_len _ _ _ _ _ Esibb). assert (Psib := sib_patch_plain _ _ _ _ _ Esibb).
      set (w := wsz (wc_enc cx)) in *.
      rewrite !ops_len_cons, !ops_len_app, ops_len_wb in HB. cbn [op_bytes] in HB. rewrite blen_nil, Lsib in HB.
      change (UnitWr.blen [x00]) with 1 in HB.
      rewrite (die_size_eq dbg cx id tag sib attrs (c :: r) code cb aops Ecb Eaops HXa) in Esz
        by (cbn [has_kids]; rewrite andb_true_r; fold w; lia).
      cbn [has_kids] in Esz. rewrite andb_true_r in Esz. fold w in Esz. injection Esz as <-.
      rewrite chk_add_ok in Eoff1 by lia. injection Eoff1 as <-.
      destruct (IH _ _ Est2 cops) as [L1 [L2 L3]]; cbn [cs_off]; try assumption.
      { rewrite <- Ecops. f_equal. lia. } { intros i Hi. apply (HA i). now right. } { lia. }
      cbn [cs_off] in L1, L2, L3.
      rewrite chk_add_ok in Eoff2 by lia. injection Eoff2 as <-.
      unfold agree_stmt. cbn [cs_off cs_entries]. rewrite !ops_len_cons, !ops_len_app, ops_len_wb. cbn [op_bytes].
      rewrite blen_nil, Lsib. change (UnitWr.blen [x00]) with 1.
      split; [lia|]. rewrite ops_marks_node, Lsib by assumption. cbn [map fst].
      split; [now rewrite L2|]. intros i p [Hi|Hi]; [|now apply L3].
      injection Hi as <- <-. destruct FR as [_ [_ FR]]. destruct (FR id HNid) as [F1 _]. rewrite F1. exact S1.
Qed.

Theorem offsets_exact_lemma dbg cx root st0 st ops :
  calc dbg (wc_enc cx) (wc_lpv cx) root st0 = Ok st ->
  wc_codes cx = cs_codes st ->
  write_die dbg cx root (cs_off st0) = Ok ops ->
  NoDup (die_ids root) -> die_expr_ok root ->
  cs_off st0 + ops_len ops < 2 ^ 64 ->
  cs_off st = cs_off st0 + ops_len ops /\
  map fst (ops_marks (cs_off st0) ops) = die_ids root /\
  (forall i p, In (i, p) (ops_marks (cs_off st0) ops) -> nth_error (cs_entries st) i = Some p).
Proof.
  intros HC Hcodes HW HN HX HB.
  apply (proj1 (agree_all dbg cx) root st0 st HC ops HW); try assumption.
  intros i _. now rewrite Hcodes.
Qed.

Lemma write_at_app (pre old tail b : list byte) :
  length old = length b ->
  write_at (pre ++ old ++ tail) (UnitWr.blen pre) b = Ok (pre ++ b ++ tail).
Proof.
  intros L. unfold write_at.
  assert (E1 : (UnitWr.blen (pre ++ old ++ tail) <? UnitWr.blen pre) = false).
  { rewrite blen_app. apply N.ltb_ge. lia. }
  rewrite E1.
  assert (E2 : (UnitWr.blen (pre ++ old ++ tail) - UnitWr.blen pre <? UnitWr.blen b) = false).
  { rewrite !blen_app. apply N.ltb_ge. unfold UnitWr.blen. rewrite L. lia. }
  rewrite E2. unfold UnitWr.blen at 1. rewrite Nat2N.id, firstn_app_exact. do 3 f_equal.
  unfold UnitWr.blen. rewrite Nat2N.id.
  rewrite skipn_app. rewrite skipn_all2 by lia. cbn [app].
  replace (length pre + length b - length pre)%nat with (length b) by lia.
  rewrite <- L. rewrite skipn_app, skipn_all, Nat.sub_diag. reflexivity.
Qed.

(* the value Unit::write patches into the placeholder of a reference to `id` *)
Definition ref_value (dbg be : bool) (unit : nat) (unit_off : N) (entries : list N) (w : N) (id : eid)
  : option (list byte) :=
  match unit_offset dbg unit unit_off entries id with
  | Ok (Some v) => match write_udata be v w with Ok b => Some b | _ => None end
  | _ => None
  end.

Lemma patch_unit_refs_spec dbg be unit unit_off entries w (f : eid -> list byte) : forall ops pre post sec',
  (forall id w', In (WUnitRef id w') ops -> w' = w) ->
  (forall id b, ref_value dbg be unit unit_off entries w id = Some b -> f id = b) ->
  patch_unit_refs dbg be unit unit_off entries w (ops_unit_refs (UnitWr.blen pre) ops)
                  (pre ++ ops_bytes ops ++ post) = Ok sec' ->
  sec' = pre ++ ops_resolved f ops ++ post /\
  (forall id w', In (WUnitRef id w') ops -> ref_value dbg be unit unit_off entries w id = Some (f id)).
Proof.
  induction ops as [|o r IH]; intros pre post sec' HW Hf H.
  - cbn in H. injection H as <-. split; [reflexivity|]. intros ? ? [].
  - assert (HWr : forall id w', In (WUnitRef id w') r -> w' = w) by (intros; eapply HW; right; eassumption).
    assert (Step : forall bytes, op_bytes o = bytes ->
              (forall id w', o <> WUnitRef id w') ->
              patch_unit_refs dbg be unit unit_off entries w (ops_unit_refs (UnitWr.blen (pre ++ bytes)) r)
                              ((pre ++ bytes) ++ ops_bytes r ++ post) = Ok sec' ->
              op_resolved f o = bytes ->
              sec' = pre ++ ops_resolved f (o :: r) ++ post /\
              (forall id w', In (WUnitRef id w') (o :: r) -> ref_value dbg be unit unit_off entries w id = Some (f id))).
    { intros bytes Eb Hno H' Er. destruct (IH _ _ _ HWr Hf H') as [A1 A2]. split.
      - rewrite A1. unfold ops_resolved. cbn [flat_map]. rewrite Er. now rewrite <- !app_assoc.
      - intros id w' [Hi|Hi]; [exfalso; eapply Hno; eassumption|eauto]. }
    destruct o as [m|bs|id w'|u0 id0 sz].
    + apply (Step []); [reflexivity|discriminate| |reflexivity].
      cbn [ops_unit_refs op_bytes] in H. unfold ops_bytes in *. cbn [flat_map op_bytes] in H.
      rewrite blen_nil, N.add_0_r in H. now rewrite !app_nil_r.
    + apply (Step bs); [reflexivity|discriminate| |reflexivity].
      cbn [ops_unit_refs op_bytes] in H. unfold ops_bytes in *. cbn [flat_map op_bytes] in H.
      rewrite blen_app. rewrite <- ?app_assoc in *. exact H.
    + (* a placeholder *)
      assert (w' = w) by (eapply HW; left; reflexivity). subst w'.
      cbn [ops_unit_refs op_bytes patch_unit_refs] in H.
      apply bind_ok in H. destruct H as [t [Et H]].
      apply bind_ok in H. destruct H as [v [Ev H]].
      apply bind_ok in H. destruct H as [sec1 [Esec1 H]].
      destruct t as [v'|]; [|discriminate]. injection Ev as ->.
      unfold write_udata_at in Esec1. apply bind_ok in Esec1. destruct Esec1 as [b [Eb Esec1]].
      assert (Rv : ref_value dbg be unit unit_off entries w id = Some b).
      { unfold ref_value. now rewrite Et, Eb. }
      assert (Lb : UnitWr.blen b = w) by (eapply write_udata_len; eassumption).
      unfold ops_bytes in Esec1. cbn [flat_map op_bytes] in Esec1. rewrite <- app_assoc in Esec1.
      rewrite write_at_app in Esec1.
      2:{ unfold zeros. rewrite repeat_length. unfold UnitWr.blen in Lb. lia. }
      injection Esec1 as <-.
      replace (UnitWr.blen pre + UnitWr.blen (zeros w)) with (UnitWr.blen (pre ++ b)) in H
        by (rewrite blen_app, zeros_blen; lia).
      replace (pre ++ b ++ flat_map op_bytes r ++ post) with ((pre ++ b) ++ ops_bytes r ++ post) in H
        by (unfold ops_bytes; now rewrite <- !app_assoc).
      destruct (IH _ _ _ HWr Hf H) as [A1 A2]. split.
      * rewrite A1. unfold ops_resolved. cbn [flat_map op_resolved]. rewrite (Hf _ _ Rv). now rewrite <- !app_assoc.
      * intros id' w' [Hi|Hi]; [|eauto]. injection Hi as <- <-. now rewrite (Hf _ _ Rv).
    + apply (Step (zeros sz)); [reflexivity|discriminate| |reflexivity].
      cbn [ops_unit_refs op_bytes] in H. unfold ops_bytes in *. cbn [flat_map op_bytes] in H.
      rewrite blen_app. rewrite <- ?app_assoc in *. exact H.
Qed.

Lemma attrs_write_forall dbg cx (Q : wop -> Prop) :
  (forall v ops, av_write dbg cx v = Ok ops -> Forall Q ops) ->
  forall attrs aops, attrs_write dbg cx attrs = Ok aops -> Forall Q aops.
Proof.
  intros HQ. induction attrs as [|[n v] r IH]; intros aops H; cbn [attrs_write] in H.
  - injection H as <-. constructor.
  - binds. injection H as <-. apply Forall_app. split; [eapply HQ; eassumption|apply IH; assumption].
Qed.

Lemma write_die_forall dbg cx (Q : wop -> Prop) :
  (forall v ops, av_write dbg cx v = Ok ops -> Forall Q ops) ->
  (forall bs, Q (WB bs)) -> (forall i, Q (WMark i)) ->
  forall d pos ops, write_die dbg cx d pos = Ok ops -> Forall Q ops.
Proof.
  intros HQ HB HM. apply (write_ind2 dbg cx (fun _ _ => Forall Q) (fun _ _ => Forall Q)).
  - constructor.
  - intros c r p o ro _ Ho _ Hr. apply Forall_app. now split.
  - intros [id tag sib attrs ch] pos ops H IH. cbn [die_children] in IH.
    destruct (write_die_inv _ _ _ _ _ _ _ _ _ H) as (code & cb & aops & _ & _ & Ea & W).
    assert (Qa := attrs_write_forall dbg cx Q HQ _ _ Ea).
    destruct ch as [|c r]; [subst; repeat constructor; auto|].
    cbv zeta in W. destruct W as (cops & sibb & Ec & Es & ->).
    assert (Qs : Forall Q sibb).
    { apply sib_patch_inv in Es. destruct sib; [destruct Es as (? & ? & _ & _ & ->)|subst]; repeat constructor; auto. }
    do 2 (constructor; [auto|]). repeat (apply Forall_app; split); eauto.
Qed.

Lemma write_die_refw dbg cx d pos ops :
  write_die dbg cx d pos = Ok ops ->
  forall id w', In (WUnitRef id w') ops -> w' = wsz (wc_enc cx).
Proof.
  intros H id w' Hi.
  assert (F := write_die_forall dbg cx _ (av_write_refw dbg cx) (fun _ => I) (fun _ => I) _ _ _ H).
  rewrite Forall_forall in F. exact (F _ Hi).
Qed.

Lemma ops_marks_ge : forall ops pos i p, In (i, p) (ops_marks pos ops) -> pos <= p.
Proof.
  induction ops as [|o r IH]; intros pos i p H; cbn [ops_marks] in H; [destruct H|].
  destruct o; try (apply IH in H; lia).
  destruct H as [H|H]; [injection H as <- <-; lia|apply IH in H; lia].
Qed.

(* a mark is a position inside the written bytes *)
Lemma ops_marks_le : forall ops pos i p, In (i, p) (ops_marks pos ops) -> p <= pos + ops_len ops.
Proof.
  induction ops as [|o r IH]; intros pos i p H; cbn [ops_marks] in H; [destruct H|].
  rewrite ops_len_cons. destruct o; try (apply IH in H; lia).
  destruct H as [H|H]; [injection H as _ <-; lia|apply IH in H; cbn [op_bytes] in *; lia].
Qed.

Lemma unit_offset_value dbg unit unit_off entries id v :
  unit_offset dbg unit unit_off entries id = Ok (Some v) ->
  exists x, nth_error entries (id_idx id) = Some x /\ x <> 0 /\ (unit_off <= x -> v = x - unit_off) /\
            (dbg = true -> id_unit id = unit).
Proof.
  unfold unit_offset. intros H.
  apply bind_ok in H. destruct H as [o [Eo H]].
  unfold debug_info_offset in Eo.
  apply bind_ok in Eo. destruct Eo as [u0 [Ea Eo]].
  destruct (nth_error entries (id_idx id)) as [x|] eqn:En; [|injection Eo as <-; discriminate].
  destruct (x =? 0) eqn:Z; injection Eo as <-; [discriminate|].
  apply bind_ok in H. destruct H as [r [Er H]]. injection H as <-.
  exists x. split; [reflexivity|]. split; [now apply N.eqb_neq|]. split.
  - intros L. rewrite chk_sub_ok in Er by assumption. now injection Er as <-.
  - intros ->. apply dassert_ok in Ea; [|reflexivity]. symmetry. now apply Nat.eqb_eq.
Qed.

Lemma calc_nonzero_in_tree dbg e lpv root st0 st i x :
  calc dbg e lpv root st0 = Ok st ->
  (forall j y, nth_error (cs_entries st0) j = Some y -> y = 0) ->
  nth_error (cs_entries st) i = Some x -> x <> 0 -> In i (die_ids root).
Proof.
  intros HC HZ Hn Hx. destruct (in_dec Nat.eq_dec i (die_ids root)) as [Hi|Hi]; [exact Hi|].
  destruct (calc_frame _ _ _ _ _ _ HC) as [_ [_ F]]. destruct (F i Hi) as [F1 _].
  rewrite F1 in Hn. apply HZ in Hn. contradiction.
Qed.

(* every UnitRef placeholder ends up holding the unit-relative offset of the position at which the
   referenced entry was emitted *)
Theorem refs_resolve_lemma dbg cx root st0 st ops pre post sec' (f : eid -> list byte) :
  calc dbg (wc_enc cx) (wc_lpv cx) root st0 = Ok st ->
  wc_codes cx = cs_codes st ->
  write_die dbg cx root (cs_off st0) = Ok ops ->
  NoDup (die_ids root) -> die_expr_ok root ->
  cs_off st0 + ops_len ops < 2 ^ 64 ->
  (forall j y, nth_error (cs_entries st0) j = Some y -> y = 0) ->
  UnitWr.blen pre = cs_off st0 -> wc_unit_off cx <= cs_off st0 ->
  (forall id b, ref_value dbg (wc_be cx) (wc_unit cx) (wc_unit_off cx) (cs_entries st) (wsz (wc_enc cx)) id = Some b -> f id = b) ->
  patch_unit_refs dbg (wc_be cx) (wc_unit cx) (wc_unit_off cx) (cs_entries st) (wsz (wc_enc cx))
                  (ops_unit_refs (cs_off st0) ops) (pre ++ ops_bytes ops ++ post) = Ok sec' ->
  sec' = pre ++ ops_resolved f ops ++ post /\
  (forall id w', In (WUnitRef id w') ops ->
     exists p, In (id_idx id, p) (ops_marks (cs_off st0) ops) /\
               write_udata (wc_be cx) (p - wc_unit_off cx) (wsz (wc_enc cx)) = Ok (f id) /\
               (dbg = true -> id_unit id = wc_unit cx)).
Proof.
  intros HC Hcodes HW HN HX HB HZ Hpre Huoff Hf HP.
  destruct (offsets_exact_lemma _ _ _ _ _ _ HC Hcodes HW HN HX HB) as [O1 [O2 O3]].
  rewrite <- Hpre in HP.
  destruct (patch_unit_refs_spec _ _ _ _ _ _ f ops pre post sec' (write_die_refw _ _ _ _ _ HW) Hf HP) as [A1 A2].
  split; [exact A1|]. intros id w' Hi. specialize (A2 _ _ Hi).
  unfold ref_value in A2.
  destruct (unit_offset dbg (wc_unit cx) (wc_unit_off cx) (cs_entries st) id) as [[v|]| | |] eqn:Eu; try discriminate.
  destruct (write_udata (wc_be cx) v (wsz (wc_enc cx))) as [b| | |] eqn:Eb; try discriminate.
  injection A2 as A2.
  destruct (unit_offset_value _ _ _ _ _ _ Eu) as [x [X1 [X2 [X3 X4]]]].
  assert (Hin : In (id_idx id) (die_ids root)) by (eapply calc_nonzero_in_tree; eassumption).
  rewrite <- O2 in Hin. apply in_map_iff in Hin. destruct Hin as [[i p] [Hfst Hin]]. cbn [fst] in Hfst. subst i.
  assert (Hp := O3 _ _ Hin). rewrite X1 in Hp. injection Hp as ->.
  assert (Hge := ops_marks_ge _ _ _ _ Hin).
  exists p. split; [exact Hin|]. split; [|exact X4].
  rewrite <- X3 by lia. now rewrite Eb, A2.
Qed.

Lemma aspec_eqb_eq a b : aspec_eqb a b = true <-> a = b.
Proof.
  destruct a as [n1 f1 c1], b as [n2 f2 c2]. unfold aspec_eqb. cbn [as_name as_form as_ic].
  rewrite !andb_true_iff, !N.eqb_eq, Z.eqb_eq. split; [intros [[-> ->] ->]; reflexivity|intros H; injection H; auto].
Qed.

Lemma aspecs_eqb_eq : forall a b, aspecs_eqb a b = true <-> a = b.
Proof.
  induction a as [|x r IH]; intros [|y s]; cbn [aspecs_eqb]; split; intros H; try reflexivity; try discriminate.
  - apply andb_true_iff in H. destruct H as [H1 H2]. apply aspec_eqb_eq in H1. apply IH in H2. congruence.
  - injection H as -> ->. apply andb_true_iff. split; [now apply aspec_eqb_eq|now apply IH].
Qed.

Lemma abbrev_eqb_eq a b : abbrev_eqb a b = true <-> a = b.
Proof.
  destruct a as [t1 c1 l1], b as [t2 c2 l2]. unfold abbrev_eqb. cbn [ab_tag ab_children ab_attrs].
  rewrite !andb_true_iff, N.eqb_eq, eqb_true_iff, aspecs_eqb_eq.
  split; [intros [[-> ->] ->]; reflexivity|intros H; injection H; auto].
Qed.

Lemma abbrev_find_some : forall tab a i,
  abbrev_find tab a = Some i ->
  nth_error tab i = Some a /\ (forall j, (j < i)%nat -> nth_error tab j <> Some a).
Proof.
  induction tab as [|x r IH]; intros a i H; cbn [abbrev_find] in H; [discriminate|].
  destruct (abbrev_eqb x a) eqn:E.
  - injection H as <-. apply abbrev_eqb_eq in E. subst. split; [reflexivity|]. intros j Hj. lia.
  - destruct (abbrev_find r a) as [k|] eqn:F; [|discriminate]. injection H as <-.
    destruct (IH _ _ F) as [A B]. split; [exact A|].
    intros [|j] Hj; cbn [nth_error].
    + intros Heq. injection Heq as ->. assert (abbrev_eqb a a = true) by now apply abbrev_eqb_eq. congruence.
    + apply B. lia.
Qed.

Lemma abbrev_find_none : forall tab a, abbrev_find tab a = None -> ~ In a tab.
Proof.
  induction tab as [|x r IH]; intros a H; cbn [abbrev_find] in H; [intros []|].
  destruct (abbrev_eqb x a) eqn:E; [discriminate|].
  destruct (abbrev_find r a) eqn:F; [discriminate|].
  intros [->|Hi]; [|eapply IH; eassumption].
  assert (abbrev_eqb a a = true) by now apply abbrev_eqb_eq. congruence.
Qed.

Lemma abbrev_find_in : forall tab a, In a tab -> exists i, abbrev_find tab a = Some i.
Proof.
  intros tab a Hi. destruct (abbrev_find tab a) eqn:F; [eauto|]. apply abbrev_find_none in F. contradiction.
Qed.

(* AbbreviationTable::add: the returned code is the 1-based position of the first occurrence; the table
   only grows at its end and never holds the same abbreviation twice *)
Lemma abbrev_add_spec tab a code tab' :
  abbrev_add tab a = (code, tab') ->
  abbrev_lookup tab' code = Some a /\
  1 <= code <= N.of_nat (length tab') /\
  (forall c, c < code -> abbrev_lookup tab' c <> Some a) /\
  (In a tab -> tab' = tab) /\ (~ In a tab -> tab' = tab ++ [a] /\ code = N.of_nat (length tab) + 1) /\
  (NoDup tab -> NoDup tab').
Proof.
  unfold abbrev_add. destruct (abbrev_find tab a) as [i|] eqn:F; intros H; injection H as <- <-.
  - destruct (abbrev_find_some _ _ _ F) as [A B].
    assert (Li : (i < length tab)%nat) by (apply nth_error_Some; congruence).
    unfold abbrev_lookup.
    replace (N.of_nat i + 1 =? 0) with false by (symmetry; apply N.eqb_neq; lia).
    replace (N.to_nat (N.of_nat i + 1 - 1)) with i by lia.
    split; [exact A|]. split; [lia|]. split.
    { intros c Hc. destruct (c =? 0) eqn:Z; [discriminate|]. apply N.eqb_neq in Z. apply B. lia. }
    split; [reflexivity|]. split; [|auto].
    intros Hn. exfalso. apply Hn. eapply nth_error_In; eassumption.
  - assert (Hn := abbrev_find_none _ _ F).
    unfold abbrev_lookup.
    replace (N.of_nat (length tab) + 1 =? 0) with false by (symmetry; apply N.eqb_neq; lia).
    replace (N.to_nat (N.of_nat (length tab) + 1 - 1)) with (length tab) by lia.
    split; [rewrite nth_error_app2, Nat.sub_diag by lia; reflexivity|].
    split; [rewrite app_length; cbn [length]; lia|]. split.
    { intros c Hc. destruct (c =? 0) eqn:Z; [discriminate|]. apply N.eqb_neq in Z.
      rewrite nth_error_app1 by lia. intros Hx. apply Hn. eapply nth_error_In; eassumption. }
    split; [intros; contradiction|]. split; [auto|].
    intros ND. now apply NoDup_snoc.
Qed.

Definition strs_bytes (l : list (list byte)) : list byte := flat_map (fun s => s ++ [x00]) l.

Lemma strs_bytes_app a b : strs_bytes (a ++ b) = strs_bytes a ++ strs_bytes b.
Proof. unfold strs_bytes. apply flat_map_app. Qed.

(* invariant: one offset per string, no duplicates, offset i = length of everything before string i,
   len = total length *)
Definition strtab_wf (t : strtab) : Prop :=
  NoDup (st_strings t) /\
  st_len t = UnitWr.blen (strs_bytes (st_strings t)) /\
  length (st_offsets t) = length (st_strings t) /\
  (forall i o, nth_error (st_offsets t) i = Some o ->
               o = UnitWr.blen (strs_bytes (firstn i (st_strings t)))).

Lemma bytes_eqb_eq a b : bytes_eqb a b = true <-> a = b.
Proof. unfold bytes_eqb. destruct (list_eq_dec byte_eq_dec a b); split; intros; congruence. Qed.

Lemma str_find_some : forall l s i, str_find l s = Some i ->
  nth_error l i = Some s /\ (forall j, (j < i)%nat -> nth_error l j <> Some s).
Proof.
  induction l as [|x r IH]; intros s i H; cbn [str_find] in H; [discriminate|].
  destruct (bytes_eqb x s) eqn:E.
  - injection H as <-. apply bytes_eqb_eq in E. subst. split; [reflexivity|]. intros j Hj. lia.
  - destruct (str_find r s) as [k|] eqn:F; [|discriminate]. injection H as <-.
    destruct (IH _ _ F) as [A B]. split; [exact A|].
    intros [|j] Hj; cbn [nth_error].
    + intros Heq. injection Heq as ->. assert (bytes_eqb s s = true) by now apply bytes_eqb_eq. congruence.
    + apply B. lia.
Qed.

Lemma str_find_none : forall l s, str_find l s = None -> ~ In s l.
Proof.
  induction l as [|x r IH]; intros s H; cbn [str_find] in H; [intros []|].
  destruct (bytes_eqb x s) eqn:E; [discriminate|].
  destruct (str_find r s) eqn:F; [discriminate|].
  intros [->|Hi]; [|eapply IH; eassumption].
  assert (bytes_eqb s s = true) by now apply bytes_eqb_eq. congruence.
Qed.

(* add: the id names a copy of the string; an existing copy is reused (table unchanged), a new string is
   appended at offset = old total length *)
Lemma strtab_add_spec dbg t s i t' :
  strtab_wf t -> strtab_add dbg t s = Ok (i, t') ->
  UnitWr.blen (strs_bytes (st_strings t')) < 2 ^ 64 ->
  strtab_wf t' /\ nth_error (st_strings t') i = Some s /\
  (In s (st_strings t) -> t' = t) /\
  (~ In s (st_strings t) -> st_strings t' = st_strings t ++ [s] /\ i = length (st_strings t)) /\
  (forall j x, nth_error (st_strings t) j = Some x -> nth_error (st_strings t') j = Some x) /\
  (forall j o, nth_error (st_offsets t) j = Some o -> nth_error (st_offsets t') j = Some o).
Proof.
  intros [W1 [W2 [W3 W4]]] H B. unfold strtab_add in H.
  destruct (has_nul s); [discriminate|].
  destruct (str_find (st_strings t) s) as [k|] eqn:F.
  - injection H as <- <-. destruct (str_find_some _ _ _ F) as [A _].
    split; [repeat split; assumption|]. split; [exact A|]. split; [reflexivity|].
    split; [intros Hn; exfalso; apply Hn; eapply nth_error_In; eassumption|]. split; auto.
  - assert (Hn := str_find_none _ _ F).
    apply bind_ok in H. destruct H as [l1 [E1 H]]. apply bind_ok in H. destruct H as [len' [E2 H]].
    injection H as <- <-. cbn [st_strings st_offsets st_len] in *.
    rewrite strs_bytes_app, blen_app in B. unfold strs_bytes at 2 in B. cbn [flat_map] in B.
    rewrite app_nil_r, blen_app in B. change (UnitWr.blen [x00]) with 1 in B.
    rewrite chk_add_ok in E1 by lia. injection E1 as <-.
    rewrite chk_add_ok in E2 by lia. injection E2 as <-.
    unfold strtab_wf. cbn [st_strings st_offsets st_len].
    split.
    { split; [now apply NoDup_snoc|]. split.
      - rewrite strs_bytes_app, blen_app. unfold strs_bytes at 2. cbn [flat_map].
        rewrite app_nil_r, blen_app. change (UnitWr.blen [x00]) with 1. lia.
      - split; [rewrite !app_length; cbn [length]; lia|].
        intros j o Hj. destruct (Nat.lt_ge_cases j (length (st_offsets t))) as [Lj|Lj].
        + rewrite nth_error_app1 in Hj by assumption. rewrite firstn_app.
          replace (j - length (st_strings t))%nat with 0%nat by lia. cbn [firstn]. rewrite app_nil_r. now apply W4.
        + rewrite nth_error_app2 in Hj by assumption.
          destruct (j - length (st_offsets t))%nat as [|m] eqn:Em; [|destruct m; discriminate].
          injection Hj as <-. assert (j = length (st_strings t)) by lia. subst j.
          rewrite firstn_app, Nat.sub_diag, firstn_all. cbn [firstn]. now rewrite app_nil_r. }
    split; [rewrite nth_error_app2, Nat.sub_diag by lia; reflexivity|].
    split; [intros; contradiction|]. split; [auto|]. split.
    + intros j x Hj. rewrite nth_error_app1; [exact Hj|]. apply nth_error_Some. congruence.
    + intros j o Hj. rewrite nth_error_app1; [exact Hj|]. apply nth_error_Some. congruence.
Qed.

Definition tag_is_base (ents : list entry) (c : nat) : bool :=
  match nth_error ents c with Some x => en_tag x =? DW_TAG_base_type | None => false end.

Lemma select_tags_spec ents want : forall l r,
  select_tags ents want l = Ok r -> r = filter (fun c => Bool.eqb (tag_is_base ents c) want) l.
Proof.
  induction l as [|c l IH]; intros r H; cbn [select_tags] in H.
  - now injection H as <-.
  - apply bind_ok in H. destruct H as [t [Et H]]. apply bind_ok in H. destruct H as [rest [Er H]].
    injection H as <-. cbn [filter]. rewrite <- (IH _ Er).
    unfold entry_tag_at, unwrap in Et. unfold tag_is_base.
    destruct (nth_error ents c) as [x|]; [|discriminate]. cbn [bind] in Et. injection Et as <-. reflexivity.
Qed.

Lemma patch_unit_refs_all_resolve dbg be unit unit_off entries w : forall refs sec sec',
  patch_unit_refs dbg be unit unit_off entries w refs sec = Ok sec' ->
  forall off id, In (off, id) refs -> exists v, unit_offset dbg unit unit_off entries id = Ok (Some v).
Proof.
  induction refs as [|[o i] r IH]; intros sec sec' H off id Hin; [destruct Hin|].
  cbn [patch_unit_refs] in H.
  apply bind_ok in H. destruct H as [t [Et H]].
  apply bind_ok in H. destruct H as [v [Ev H]].
  apply bind_ok in H. destruct H as [sec1 [_ H]].
  destruct Hin as [Hin|Hin].
  - injection Hin as -> ->. destruct t as [v'|]; [eauto|discriminate].
  - eapply IH; eassumption.
Qed.

(* UnitWrSpec's take_n and le_num are Prim's take and le_val *)
Lemma take_n_app (h rest : list byte) : take_n (length h) (h ++ rest) = Some (h, rest).
Proof. exact (take_app _ h rest eq_refl). Qed.

Lemma fixed_num_enc_un n be v : fixed_num be (enc_un n be v) = v mod 256 ^ N.of_nat n.
Proof.
  unfold fixed_num, enc_un, be_bytes. destruct be; [rewrite rev_involutive|]; exact (le_val_le_bytes n v).
Qed.

Lemma dec_fixed_enc_un n be v rest :
  dec_fixed (N.of_nat n) be (enc_un n be v ++ rest) = Some (RU (v mod 256 ^ N.of_nat n), rest).
Proof.
  unfold dec_fixed. rewrite Nat2N.id. rewrite <- (enc_un_length n be v) at 1.
  rewrite take_n_app. now rewrite fixed_num_enc_un.
Qed.

Lemma write_udata_dec be v size b rest :
  write_udata be v size = Ok b -> dec_fixed size be (b ++ rest) = Some (RU (v mod 2 ^ 64), rest).
Proof.
  intros H. destruct (write_udata_inv _ _ _ _ H) as (V & -> & B).
  rewrite <- (N2Nat.id size) at 1. rewrite dec_fixed_enc_un, N2Nat.id. do 3 f_equal.
  destruct B as [->|B]; [reflexivity|]. apply size_ok_cases in V.
  destruct V as [->|[->|[->| ->]]]; rewrite !N.mod_small; try reflexivity; try exact B;
    (eapply N.lt_trans; [exact B|reflexivity]).
Qed.

Lemma dec_cstr_app : forall bs rest, has_nul bs = false -> dec_cstr (bs ++ x00 :: rest) = Some (bs, rest).
Proof.
  induction bs as [|b r IH]; intros rest H; cbn [app dec_cstr].
  - reflexivity.
  - unfold has_nul in H. cbn [existsb] in H. apply orb_false_iff in H. destruct H as [H1 H2].
    rewrite H1. fold (has_nul r) in H2. now rewrite (IH _ H2).
Qed.

(* the raw value an attribute carries once written (placeholders: 0, patched later) *)
Definition av_raw (cx : wcx) (v : aval) : rval :=
  let e := wc_enc cx in
  let off (l : list N) (i : nat) := match nth_error l i with Some o => RU (o mod 2 ^ 64) | None => RNone end in
  match v with
  | AvAddress (AConst x) => RU (x mod 2 ^ 64)
  | AvAddress (ASym _ _) => RNone
  | AvBlock bs => RB bs
  | AvData1 x => RU (x mod 256 ^ 1) | AvData2 x => RU (x mod 256 ^ 2) | AvData4 x => RU (x mod 256 ^ 4)
  | AvData8 x => RU (x mod 256 ^ 8) | AvData16 x => RU (x mod 256 ^ 16)
  | AvSdata z | AvImplicitConst z => RS z
  | AvUdata x => RU x
  | AvExprloc x => match x_out x with Ok b => RB b | _ => RNone end
  | AvFlag b => RU (if b then 1 else 0)
  | AvFlagPresent => if 4 <=? e_ver e then RNone else RU 1
  | AvUnitRef _ | AvDebugInfoRef _ => RU 0
  | AvDebugInfoRefSup x | AvDebugMacinfoRef x | AvDebugMacroRef x | AvDebugStrRefSup x => RU (x mod 2 ^ 64)
  | AvLineProgramRef => match wc_line cx with Some o => RU (o mod 2 ^ 64) | None => RNone end
  | AvLocationListRef i => off (wc_loc cx) i
  | AvRangeListRef i => off (wc_rng cx) i
  | AvStringRef i => off (wc_str cx) i
  | AvLineStringRef i => off (wc_lstr cx) i
  | AvDebugTypesRef x => RU (x mod 256 ^ 8)
  | AvString bs => RB bs
  | AvEncoding x | AvDecimalSign x | AvEndianity x | AvAccessibility x | AvVisibility x | AvVirtuality x
  | AvLanguage x | AvAddressClass x | AvIdentifierCase x | AvCallingConvention x | AvInline x | AvOrdering x => RU x
  | AvFileIndex None => RU 0
  | AvFileIndex (Some i) => RU (if wc_lpv cx <=? 4 then wrapN 64 (i + 1) else i)
  end.

(* documented precondition of AttributeValue::String ("must not include null bytes"); expressions: the
   length prefix is the number of bytes written *)
Definition av_decodable (v : aval) : Prop :=
  match v with
  | AvString bs => has_nul bs = false
  | AvExprloc x => forall bs, x_out x = Ok bs -> x_size x = Ok (UnitWr.blen bs)
  | _ => True
  end.

Lemma dec_zero_word sz be rest : valid_size sz = true ->
  dec_fixed sz be (zeros sz ++ rest) = Some (RU 0, rest).
Proof.
  intros V. unfold valid_size in V.
  assert (C : sz = 1 \/ sz = 2 \/ sz = 4 \/ sz = 8).
  { repeat rewrite orb_true_iff in V. repeat rewrite N.eqb_eq in V. tauto. }
  destruct C as [-> | [-> | [-> | ->]]]; destruct be; reflexivity.
Qed.

Lemma file_raw_val dbg lpv i r :
  file_raw dbg lpv (Some i) = Ok r -> r = (if lpv <=? 4 then wrapN 64 (i + 1) else i).
Proof.
  unfold file_raw. destruct (lpv <=? 4); [|now intros H; injection H].
  unfold chk_add, wrapN. destruct (i + 1 <? 2 ^ 64) eqn:L.
  - intros H. injection H as <-. apply N.ltb_lt in L. now rewrite N.mod_small.
  - destruct dbg; [discriminate|]. now intros H; injection H.
Qed.

Lemma take_n_blen (h rest : list byte) : take_n (N.to_nat (UnitWr.blen h)) (h ++ rest) = Some (h, rest).
Proof. unfold UnitWr.blen. rewrite Nat2N.id. apply take_n_app. Qed.

(* the forms of word-sized values decode as a word *)
Lemma fd_word_form e be ic bs f4 f8 :
  form_decode e be f4 ic bs = dec_fixed 4 be bs -> form_decode e be f8 ic bs = dec_fixed 8 be bs ->
  form_decode e be (word_form e f4 f8) ic bs = dec_fixed (wsz e) be bs.
Proof. unfold word_form, wsz. now destruct (e_fmt64 e). Qed.

Lemma fd_sec_offset e be ic bs :
  form_decode e be (if (e_ver e =? 2) || (e_ver e =? 3) then word_form e DW_FORM_data4 DW_FORM_data8 else DW_FORM_sec_offset) ic bs =
  dec_fixed (wsz e) be bs.
Proof. destruct (_ || _); [now apply fd_word_form|reflexivity]. Qed.

Lemma fd_uleb e be ic v bs rest :
  write_uleb128 v = Ok bs -> form_decode e be DW_FORM_udata ic (bs ++ rest) = Some (RU v, rest).
Proof.
  intros H. change (match dec_uleb (bs ++ rest) with Some (n, r) => Some (RU n, r) | None => None end = Some (RU v, rest)).
  now rewrite (write_uleb128_dec _ _ rest H).
Qed.

Lemma fd_sleb e be ic z bs rest :
  write_sleb128 z = Ok bs -> form_decode e be DW_FORM_sdata ic (bs ++ rest) = Some (RS z, rest).
Proof.
  intros H. change (match dec_sleb (bs ++ rest) with Some (n, r) => Some (RS n, r) | None => None end = Some (RS z, rest)).
  now rewrite (write_sleb128_dec _ _ rest H).
Qed.

Lemma fd_block e be ic (exprloc : bool) bs l rest :
  write_uleb128 (UnitWr.blen bs) = Ok l ->
  form_decode e be (if exprloc then DW_FORM_exprloc else DW_FORM_block) ic (l ++ bs ++ rest) = Some (RB bs, rest).
Proof.
  intros H.
  assert (G : match dec_uleb (l ++ bs ++ rest) with
              | Some (len, r) => match take_n (N.to_nat len) r with Some (h, t) => Some (RB h, t) | None => None end
              | None => None
              end = Some (RB bs, rest)) by now rewrite (write_uleb128_dec _ _ _ H), take_n_blen.
  destruct exprloc; exact G.
Qed.

Theorem av_write_decodes dbg cx v ops rest :
  av_write dbg cx v = Ok ops -> av_decodable v ->
  form_decode (wc_enc cx) (wc_be cx) (fst (av_form (wc_enc cx) v))
              (match snd (av_form (wc_enc cx) v) with Some z => z | None => 0%Z end)
              (ops_bytes ops ++ rest) = Some (av_raw cx v, rest).
Proof.
  rewrite av_write_emit. intros H X.
  destruct v; cbn [av_emit av_form av_raw av_decodable fst snd] in *.
  all: try match goal with |- context [?k <=? e_ver ?e] => destruct (k <=? e_ver e) end; cbn [fst snd].
  all: try match goal with a : address |- _ => destruct a end.
  all: try match goal with r : dref |- _ => destruct r end.
  all: cbn [emit_write bind] in H; binds; try discriminate.
  all: try (destruct (valid_size _) eqn:V in H; [|discriminate]).
  all: injection H as <-.
  all: unfold ops_bytes; cbn [flat_map op_bytes app]; rewrite ?app_nil_r, <- ?app_assoc.
  all: rewrite ?fd_sec_offset, ?fd_word_form by reflexivity.
  all: try match goal with |- form_decode _ _ _ _ (enc_un ?n _ ?x ++ _) = Some (RU (?x mod _), _) =>
             exact (dec_fixed_enc_un n _ x _) end.
  all: try match goal with E : write_udata _ ?x _ = Ok ?b |- _ (?b ++ _) = Some (RU (?x mod _), _) =>
             exact (write_udata_dec _ _ _ _ _ E) end.
  all: try match goal with E : write_uleb128 ?x = Ok ?b |- form_decode _ _ DW_FORM_udata _ (?b ++ _) = Some (RU ?x, _) =>
             exact (fd_uleb _ _ _ _ _ _ E) end.
  all: try match goal with E : write_sleb128 _ = Ok ?b |- form_decode _ _ DW_FORM_sdata _ (?b ++ _) = _ =>
             exact (fd_sleb _ _ _ _ _ _ E) end.
  all: try match goal with E : idx_get ?l ?i = Ok _ |- _ =>
             unfold idx_get, unwrap in E; destruct (nth_error l i); [injection E as ->|discriminate];
             exact (write_udata_dec _ _ _ _ _ E0) end.
  all: try reflexivity.
  - exact (fd_block _ _ _ false _ _ _ E).
  - rewrite (X _ E1) in E. injection E as <-. rewrite E1. exact (fd_block _ _ _ true _ _ _ E0).
  - rewrite (X _ E1) in E. injection E as <-. rewrite E1. exact (fd_block _ _ _ false _ _ _ E0).
  - destruct b, (wc_be cx); reflexivity.
  - destruct (wc_be cx); reflexivity.
  - apply dec_zero_word. unfold wsz. now destruct (e_fmt64 (wc_enc cx)).
  - exact (dec_zero_word _ _ _ V).
  - destruct (wc_line cx); [injection E as ->|discriminate]. exact (write_udata_dec _ _ _ _ _ E0).
  - change (match dec_cstr (bs ++ x00 :: rest) with Some (s, r) => Some (RB s, r) | None => None end = Some (RB bs, rest)).
    now rewrite dec_cstr_app.
  - destruct f; [apply file_raw_val in E; subst a|injection E as <-]; exact (fd_uleb _ _ _ _ _ _ E0).
Qed.

Fixpoint attrs_ub (e : encoding) (attrs : list (N * aval)) : N :=
  match attrs with [] => 0 | (_, v) :: r => asize_ub e v + attrs_ub e r end.

Fixpoint dsize_ub (e : encoding) (d : die) : N :=
  match d with
  | Die _ _ _ attrs ch =>
      19 + attrs_ub e attrs + (fix go (l : list die) : N := match l with [] => 0 | c :: r => dsize_ub e c + go r end) ch
  end.
Section dsizes.
  Variable e : encoding.
  Fixpoint dsizes_ub (l : list die) : N :=
    match l with [] => 0 | c :: r => dsize_ub e c + dsizes_ub r end.
End dsizes.
Lemma dsize_ub_unfold e id tag sib attrs ch :
  dsize_ub e (Die id tag sib attrs ch) = 19 + attrs_ub e attrs + dsizes_ub e ch.
Proof. reflexivity. Qed.

Fixpoint die_typed (cx : wcx) (d : die) : Prop :=
  match d with
  | Die _ _ _ attrs ch =>
      Forall (fun p => av_typed cx (snd p)) attrs /\
      (fix go (l : list die) : Prop := match l with [] => True | c :: r => die_typed cx c /\ go r end) ch
  end.
Section dtyped.
  Variable cx : wcx.
  Fixpoint dies_typed (l : list die) : Prop :=
    match l with [] => True | c :: r => die_typed cx c /\ dies_typed r end.
End dtyped.
Lemma die_typed_unfold cx id tag sib attrs ch :
  die_typed cx (Die id tag sib attrs ch) = (Forall (fun p => av_typed cx (snd p)) attrs /\ dies_typed cx ch).
Proof. reflexivity. Qed.

Lemma attrs_size_no_panic dbg cx : forall attrs acc,
  Forall (fun p => av_typed cx (snd p)) attrs -> acc + attrs_ub (wc_enc cx) attrs < 2 ^ 64 ->
  attrs_size dbg (wc_enc cx) (wc_lpv cx) acc attrs <> Panic /\
  (forall r, attrs_size dbg (wc_enc cx) (wc_lpv cx) acc attrs = Ok r -> r <= acc + attrs_ub (wc_enc cx) attrs).
Proof.
  induction attrs as [|[n v] r IH]; intros acc T B; cbn [attrs_size attrs_ub] in *.
  - split; [discriminate|]. intros ? H. injection H as <-. lia.
  - inversion T as [|? ? T1 T2]; subst. cbn [snd] in T1.
    assert (NP := av_size_no_panic_lemma dbg cx v T1).
    destruct (av_size dbg (wc_enc cx) (wc_lpv cx) v) as [s| | |] eqn:Es; try (split; [discriminate|intros; discriminate]); [|contradiction].
    cbn [bind]. assert (Ls := av_size_le _ _ _ _ Es).
    rewrite chk_add_ok by lia. cbn [bind].
    destruct (IH (acc + s) T2) as [I1 I2]; [lia|]. split; [exact I1|].
    intros r0 H. specialize (I2 _ H). lia.
Qed.

Lemma aspec_new_form dbg e name v :
  let (form, ic) := av_form e v in exists s, aspec_new dbg name form ic = Ok s.
Proof.
  destruct v; cbn [av_form]; unfold word_form; repeat match goal with |- context [if ?c then _ else _] => destruct c end;
    unfold aspec_new; cbn [Bool.eqb]; rewrite ?dassert_true; cbn [bind]; eauto.
Qed.

Lemma attr_specs_no_panic dbg e : forall attrs, attr_specs dbg e attrs <> Panic.
Proof.
  induction attrs as [|[n v] r IH]; cbn [attr_specs]; [discriminate|].
  assert (A := aspec_new_form dbg e n v). destruct (av_form e v) as [form ic]. destruct A as [s ->]. cbn [bind].
  destruct (attr_specs dbg e r); try discriminate. contradiction.
Qed.

Lemma die_abbrev_no_panic dbg e d : die_abbrev dbg e d <> Panic.
Proof.
  destruct d as [id tag sib attrs ch]. unfold die_abbrev.
  assert (S : exists l, (if sib && has_kids ch
                         then let* s := aspec_new dbg DW_AT_sibling (word_form e DW_FORM_ref4 DW_FORM_ref8) None in Ok [s]
                         else Ok []) = Ok l).
  { destruct (sib && has_kids ch); [|eauto]. unfold aspec_new, word_form.
    destruct (e_fmt64 e); cbn [Bool.eqb]; rewrite dassert_true; cbn [bind]; eauto. }
  destruct S as [l ->]. cbn [bind].
  assert (A := attr_specs_no_panic dbg e attrs).
  destruct (attr_specs dbg e attrs); try discriminate. contradiction.
Qed.

Definition ids_in_range (ids : list nat) (st : cst) : Prop :=
  forall i, In i ids -> (i < length (cs_entries st))%nat /\ (i < length (cs_codes st))%nat.

Definition calc_np (dbg : bool) (cx : wcx) (d : die) : Prop :=
  forall st, die_typed cx d -> ids_in_range (die_ids d) st ->
    cs_off st + dsize_ub (wc_enc cx) d < 2 ^ 64 ->
    calc dbg (wc_enc cx) (wc_lpv cx) d st <> Panic /\
    (forall st', calc dbg (wc_enc cx) (wc_lpv cx) d st = Ok st' -> cs_off st' <= cs_off st + dsize_ub (wc_enc cx) d).

Lemma calc_list_np dbg cx ch :
  Forall (calc_np dbg cx) ch ->
  forall st, dies_typed cx ch -> ids_in_range (dies_ids ch) st ->
    cs_off st + dsizes_ub (wc_enc cx) ch < 2 ^ 64 ->
    calc_list dbg (wc_enc cx) (wc_lpv cx) ch st <> Panic /\
    (forall st', calc_list dbg (wc_enc cx) (wc_lpv cx) ch st = Ok st' -> cs_off st' <= cs_off st + dsizes_ub (wc_enc cx) ch).
Proof.
  induction 1 as [|c r Hc Hr IH]; intros st T R B; cbn [calc_list dsizes_ub dies_typed] in *.
  - split; [discriminate|]. intros ? H. injection H as <-. lia.
  - destruct T as [T1 T2]. unfold dies_ids in R. cbn [flat_map] in R.
    destruct (Hc st T1) as [N1 N2]; [intros i Hi; apply R; apply in_or_app; now left|lia|].
    destruct (calc dbg (wc_enc cx) (wc_lpv cx) c st) as [sA| | |] eqn:EA; try (split; [discriminate|intros; discriminate]); [|contradiction].
    cbn [bind]. specialize (N2 _ eq_refl).
    destruct (calc_frame _ _ _ _ _ _ EA) as [L1 [L2 _]].
    destruct (IH sA T2) as [I1 I2].
    + intros i Hi. destruct (R i) as [R1 R2]; [apply in_or_app; now right|]. rewrite L1, L2. now split.
    + lia.
    + split; [exact I1|]. intros st' H. specialize (I2 _ H). lia.
Qed.

Theorem calc_no_panic_lemma dbg cx : forall d, calc_np dbg cx d.
Proof.
  induction d as [id tag sib attrs ch IH] using die_ind2.
  intros st T R B. rewrite die_typed_unfold in T. destruct T as [Ta Tc].
  rewrite dsize_ub_unfold in *. rewrite calc_unfold.
  destruct (R id (or_introl eq_refl)) as [R1 R2].
  destruct (set_nth_total id (cs_off st) _ R1) as [ents Eents]. rewrite Eents. cbn [bind].
  assert (NA := die_abbrev_no_panic dbg (wc_enc cx) (Die id tag sib attrs ch)).
  destruct (die_abbrev dbg (wc_enc cx) (Die id tag sib attrs ch)) as [ab| | |] eqn:Eab;
    try (split; [discriminate|intros; discriminate]); [|contradiction].
  cbn [bind]. destruct (abbrev_add (cs_abbrevs st) ab) as [code tab].
  destruct (set_nth_total id code _ R2) as [codes Ecodes]. rewrite Ecodes. cbn [bind].
  (* size of this entry *)
  assert (Hsz : die_size dbg (wc_enc cx) (wc_lpv cx) (Die id tag sib attrs ch) code <> Panic /\
                forall sz, die_size dbg (wc_enc cx) (wc_lpv cx) (Die id tag sib attrs ch) code = Ok sz ->
                           sz <= 18 + attrs_ub (wc_enc cx) attrs).
  { unfold die_size. assert (U := uleb128_size_le code).
    assert (W : wsz (wc_enc cx) <= 8) by (unfold wsz; destruct (e_fmt64 (wc_enc cx)); lia).
    destruct (sib && has_kids ch).
    - rewrite chk_add_ok by lia. cbn [bind].
      destruct (attrs_size_no_panic dbg cx attrs (uleb128_size code + wsz (wc_enc cx)) Ta) as [A1 A2]; [lia|].
      split; [exact A1|]. intros sz H. specialize (A2 _ H). lia.
    - cbn [bind]. destruct (attrs_size_no_panic dbg cx attrs (uleb128_size code) Ta) as [A1 A2]; [lia|].
      split; [exact A1|]. intros sz H. specialize (A2 _ H). lia. }
  destruct Hsz as [Hs1 Hs2].
  destruct (die_size dbg (wc_enc cx) (wc_lpv cx) (Die id tag sib attrs ch) code) as [sz| | |] eqn:Esz;
    try (split; [discriminate|intros; discriminate]); [|contradiction].
  cbn [bind]. specialize (Hs2 _ eq_refl).
  rewrite chk_add_ok by lia. cbn [bind]. cbv zeta.
  destruct (set_nth_spec _ _ _ _ Eents) as [_ [_ S3]].
  destruct (set_nth_spec _ _ _ _ Ecodes) as [_ [_ T3]].
  destruct ch as [|c r].
  - split; [discriminate|]. intros st' H. injection H as <-. cbn [cs_off dsizes_ub]. lia.
  - destruct (calc_list_np dbg cx (c :: r) IH (mkCst (cs_off st + sz) ents tab codes) Tc) as [L1 L2].
    + intros i Hi. cbn [cs_entries cs_codes]. rewrite S3, T3. apply R. cbn [die_ids]. now right.
    + cbn [cs_off]. lia.
    + destruct (calc_list dbg (wc_enc cx) (wc_lpv cx) (c :: r) (mkCst (cs_off st + sz) ents tab codes)) as [st2| | |] eqn:E2;
        try (split; [discriminate|intros; discriminate]); [|contradiction].
      cbn [bind]. specialize (L2 _ eq_refl). cbn [cs_off] in L2.
      rewrite chk_add_ok by lia. cbn [bind].
      split; [discriminate|]. intros st' H. injection H as <-. cbn [cs_off]. lia.
Qed.

Lemma attrs_write_len_ub dbg cx : forall attrs aops,
  attrs_write dbg cx attrs = Ok aops -> Forall (fun p => expr_ok (snd p)) attrs ->
  ops_len aops <= attrs_ub (wc_enc cx) attrs.
Proof.
  induction attrs as [|[n v] r IH]; intros aops H X; cbn [attrs_write attrs_ub] in *.
  - injection H as <-. rewrite ops_len_nil. lia.
  - binds. injection H as <-. inversion X as [|? ? X1 X2]; subst. cbn [snd] in X1.
    rewrite ops_len_app.
    match goal with E : av_write _ _ v = Ok _ |- _ => assert (A := av_write_len_ub _ _ _ _ E X1) end.
    match goal with E : attrs_write _ _ r = Ok _ |- _ => assert (B := IH _ E X2) end. lia.
Qed.

Lemma write_len_ub dbg cx :
  (forall d pos ops, write_die dbg cx d pos = Ok ops -> die_expr_ok d -> ops_len ops <= dsize_ub (wc_enc cx) d) /\
  (forall l pos ops, write_list dbg cx l pos = Ok ops -> dies_expr_ok l -> ops_len ops <= dsizes_ub (wc_enc cx) l).
Proof.
  apply write_ind2.
  - intros p _. rewrite ops_len_nil. apply N.le_0_l.
  - intros c r p o ro _ Ho _ Hr [X1 X2]. rewrite ops_len_app. cbn [dsizes_ub]. specialize (Ho X1). specialize (Hr X2). lia.
  - intros [id tag sib attrs ch] pos ops H IH X. cbn [die_children] in IH.
    rewrite die_expr_ok_unfold in X. destruct X as [Xa Xc]. rewrite dsize_ub_unfold.
    destruct (write_die_inv _ _ _ _ _ _ _ _ _ H) as (code & cb & aops & _ & Ecb & Ea & W).
    assert (La := attrs_write_len_ub _ _ _ _ Ea Xa).
    assert (Lc : UnitWr.blen cb <= 10) by (rewrite (write_uleb128_len _ _ Ecb); apply uleb128_size_le).
    destruct ch as [|c r]; [subst; rewrite !ops_len_cons; cbn [op_bytes dsizes_ub]; rewrite blen_nil; lia|].
    cbv zeta in W. destruct W as (cops & sibb & Ec & Es & ->).
    assert (Lk := IH _ _ Ec Xc). assert (Ls := sib_patch_len _ _ _ _ _ Es).
    assert (wsz (wc_enc cx) <= 8) by (unfold wsz; destruct (e_fmt64 (wc_enc cx)); lia).
    rewrite !ops_len_cons, !ops_len_app, ops_len_wb. cbn [op_bytes]. rewrite blen_nil, Ls.
    change (UnitWr.blen [x00]) with 1. destruct sib; lia.
Qed.

Lemma attrs_write_no_panic dbg cx : forall attrs,
  Forall (fun p => av_typed cx (snd p)) attrs -> attrs_write dbg cx attrs <> Panic.
Proof.
  induction attrs as [|[n v] r IH]; intros T; cbn [attrs_write]; [discriminate|].
  inversion T as [|? ? T1 T2]; subst. cbn [snd] in T1.
  assert (A := av_write_no_panic_lemma dbg cx v T1).
  destruct (av_write dbg cx v); try discriminate; [|contradiction]. cbn [bind].
  specialize (IH T2). destruct (attrs_write dbg cx r); try discriminate. contradiction.
Qed.

(* DebuggingInformationEntry::write on the tables of a successful calculate_offsets: its debug assertion holds at
   every entry, every code is found, the sibling subtraction does not underflow *)
Lemma write_passes_no_panic dbg cx :
  (forall d st st', calc dbg (wc_enc cx) (wc_lpv cx) d st = Ok st' ->
     agree_on (die_ids d) (wc_entries cx) (cs_entries st') ->
     agree_on (die_ids d) (wc_codes cx) (cs_codes st') ->
     (forall i c, nth_error (wc_codes cx) i = Some c -> c < 2 ^ 64) ->
     die_typed cx d -> die_expr_ok d -> NoDup (die_ids d) ->
     0 < cs_off st -> wc_unit_off cx <= cs_off st ->
     cs_off st + dsize_ub (wc_enc cx) d < 2 ^ 64 ->
     write_die dbg cx d (cs_off st) <> Panic) /\
  (forall l st st', calc_list dbg (wc_enc cx) (wc_lpv cx) l st = Ok st' ->
     agree_on (dies_ids l) (wc_entries cx) (cs_entries st') ->
     agree_on (dies_ids l) (wc_codes cx) (cs_codes st') ->
     (forall i c, nth_error (wc_codes cx) i = Some c -> c < 2 ^ 64) ->
     dies_typed cx l -> dies_expr_ok l -> NoDup (dies_ids l) ->
     0 < cs_off st -> wc_unit_off cx <= cs_off st ->
     cs_off st + dsizes_ub (wc_enc cx) l < 2 ^ 64 ->
     write_list dbg cx l (cs_off st) <> Panic).
Proof.
  apply calc_ind2.
  - discriminate.
  - intros c r st sA st' EA Hc HC Hr HE HA HK [T1 T2] [X1 X2] ND P0 PU B. cbn [write_list dsizes_ub] in *.
    unfold dies_ids in *. cbn [flat_map] in *.
    destruct (calc_list_frame _ _ _ _ _ _ HC) as [_ [_ FR]]. destruct (NoDup_app_inv _ _ ND) as (NDc & NDr & Dj).
    assert (Ac : agree_on (die_ids c) (wc_codes cx) (cs_codes sA)).
    { intros i Hi. rewrite HA by (apply in_or_app; now left). now apply (FR i), Dj. }
    assert (Ae : agree_on (die_ids c) (wc_entries cx) (cs_entries sA)).
    { intros i Hi. rewrite HE by (apply in_or_app; now left). now apply (FR i), Dj. }
    assert (N1 : write_die dbg cx c (cs_off st) <> Panic) by (apply Hc; try assumption; lia).
    destruct (write_die dbg cx c (cs_off st)) as [o| | |] eqn:EW; try discriminate; [|contradiction].
    cbn [bind]. assert (Lo := proj1 (write_len_ub dbg cx) _ _ _ EW X1).
    destruct (proj1 (agree_all dbg cx) c st sA EA o EW Ac NDc X1 ltac:(lia)) as [G1 _]. rewrite <- G1.
    assert (N2 : write_list dbg cx r (cs_off sA) <> Panic).
    { apply Hr; try assumption; try lia; intros i Hi; [apply HE|apply HA]; apply in_or_app; now right. }
    destruct (write_list dbg cx r (cs_off sA)); try discriminate. contradiction.
  - intros [id tag sib attrs ch] st st' HC IH HE HA HK T X ND P0 PU B. cbn [die_children] in IH.
    rewrite die_typed_unfold in T. destruct T as [Ta Tc].
    rewrite die_expr_ok_unfold in X. destruct X as [Xa Xc].
    rewrite dsize_ub_unfold in B. cbn [die_ids] in *. inversion ND as [|? ? NDid NDch]; subst.
    destruct (calc_inv _ _ _ _ _ _ _ _ _ _ HC)
      as (ents & ab & code & tab & codes & sz & off1 & Eents & _ & _ & Ecodes & Esz & Eoff1 & K).
    destruct (set_nth_spec _ _ _ _ Eents) as [S1 _]. destruct (set_nth_spec _ _ _ _ Ecodes) as [T1 _].
    (* what the final tables hold for this entry *)
    assert (Hfin : nth_error (wc_entries cx) id = Some (cs_off st) /\ nth_error (wc_codes cx) id = Some code).
    { rewrite (HE id (or_introl eq_refl)), (HA id (or_introl eq_refl)).
      destruct ch as [|c r]; [subst st'; now split|].
      destruct K as (st2 & off2 & E2 & _ & ->). cbn [cs_entries cs_codes].
      destruct (calc_list_frame _ _ _ _ _ _ E2) as [_ [_ F]]. destruct (F id NDid) as [F1 F2]. now rewrite F1, F2. }
    destruct Hfin as [He Hc].
    rewrite write_die_unfold.
    (* the debug assertion holds *)
    assert (Hassert : (if dbg
                       then let* here := debug_info_offset dbg (wc_unit cx) (wc_entries cx) (mkEid (wc_unit cx) id) in
                            dassert dbg (match here with Some o => o =? cs_off st | None => false end)
                       else Ok tt) = Ok tt).
    { destruct dbg; [|reflexivity]. unfold debug_info_offset, idx_get, unwrap. cbn [id_unit id_idx].
      rewrite Nat.eqb_refl, dassert_true. cbn [bind]. rewrite He. cbn [bind].
      replace (cs_off st =? 0) with false by lia. rewrite N.eqb_refl. apply dassert_true. }
    rewrite Hassert. cbn [bind]. unfold idx_get, unwrap. rewrite Hc. cbn [bind].
    destruct (write_uleb128_total code (HK _ _ Hc)) as [cb Ecb]. rewrite Ecb. cbn [bind].
    assert (Na := attrs_write_no_panic dbg cx attrs Ta).
    destruct (attrs_write dbg cx attrs) as [aops| | |] eqn:Ea; try discriminate; [|contradiction].
    cbn [bind]. destruct ch as [|c r]; [discriminate|]. cbv zeta.
    (* position of the first child = the running offset after this entry's own bytes *)
    assert (La := attrs_write_len_ub _ _ _ _ Ea Xa).
    assert (Lc : UnitWr.blen cb <= 10) by (rewrite (write_uleb128_len _ _ Ecb); apply uleb128_size_le).
    assert (W : wsz (wc_enc cx) <= 8) by (unfold wsz; destruct (e_fmt64 (wc_enc cx)); lia).
    rewrite (die_size_eq dbg cx id tag sib attrs (c :: r) code cb aops Ecb Ea Xa) in Esz
      by (cbn [has_kids]; rewrite andb_true_r; destruct sib; lia).
    cbn [has_kids] in Esz. rewrite andb_true_r in Esz. injection Esz as <-.
    rewrite chk_add_ok in Eoff1 by (destruct sib; lia). injection Eoff1 as <-.
    destruct K as (st2 & off2 & E2 & _ & ->). cbn [cs_entries cs_codes] in *.
    set (st1 := mkCst (cs_off st + (UnitWr.blen cb + (if sib then wsz (wc_enc cx) else 0) + ops_len aops)) ents tab codes) in *.
    replace (cs_off st + (UnitWr.blen cb + (if sib then wsz (wc_enc cx) else 0)) + ops_len aops) with (cs_off st1)
      by (unfold st1; cbn [cs_off]; lia).
    assert (Nl : write_list dbg cx (c :: r) (cs_off st1) <> Panic).
    { apply (IH _ _ E2); try assumption; try (unfold st1; cbn [cs_off]; destruct sib; lia);
        intros i Hi; [apply HE|apply HA]; now right. }
    destruct (write_list dbg cx (c :: r) (cs_off st1)) as [cops| | |]; try discriminate; [|contradiction].
    cbn [bind]. unfold sib_patch. destruct sib; [|discriminate].
    rewrite chk_sub_ok by (unfold st1; cbn [cs_off]; lia). cbn [bind].
    match goal with |- context [write_udata ?b ?v ?w] =>
      assert (Nu := write_udata_no_panic b v w); destruct (write_udata b v w); try discriminate; contradiction end.
Qed.

Lemma ops_resolved_app f a b : ops_resolved f (a ++ b) = ops_resolved f a ++ ops_resolved f b.
Proof. unfold ops_resolved. apply flat_map_app. Qed.

(* what a reader finds for an attribute once the placeholders are patched *)
Definition av_final (cx : wcx) (f : eid -> list byte) (v : aval) : rval :=
  match v with
  | AvUnitRef id => RU (fixed_num (wc_be cx) (f id))
  | _ => av_raw cx v
  end.

Definition attr_sem (cx : wcx) (f : eid -> list byte) (p : N * aval) : N * N * rval :=
  (fst p, fst (av_form (wc_enc cx) (snd p)), av_final cx f (snd p)).

Lemma dec_fixed_bytes w be (b rest : list byte) :
  UnitWr.blen b = w -> dec_fixed w be (b ++ rest) = Some (RU (fixed_num be b), rest).
Proof. intros <-. unfold dec_fixed. now rewrite take_n_blen. Qed.

Lemma aspec_new_ok dbg name form ic s :
  aspec_new dbg name form ic = Ok s ->
  as_name s = name /\ as_form s = form /\ as_ic s = match ic with Some z => z | None => 0%Z end.
Proof. unfold aspec_new. intros H. binds. injection H as <-. repeat split. Qed.

Lemma decode_attrs_written dbg cx (f : eid -> list byte) : forall attrs aops specs rest,
  attrs_write dbg cx attrs = Ok aops ->
  attr_specs dbg (wc_enc cx) attrs = Ok specs ->
  Forall (fun p => av_decodable (snd p)) attrs ->
  (forall id, UnitWr.blen (f id) = wsz (wc_enc cx)) ->
  decode_attrs (wc_enc cx) (wc_be cx) specs (ops_resolved f aops ++ rest) =
  Some (map (attr_sem cx f) attrs, rest).
Proof.
  induction attrs as [|[n v] r IH]; intros aops specs rest HW HS HD Hf; cbn [attrs_write attr_specs] in *.
  - injection HW as <-. injection HS as <-. reflexivity.
  - apply bind_ok in HW. destruct HW as [o [Eo HW]]. apply bind_ok in HW. destruct HW as [ro [Ero HW]].
    injection HW as <-.
    destruct (av_form (wc_enc cx) v) as [form ic] eqn:EF.
    apply bind_ok in HS. destruct HS as [s [Es HS]]. apply bind_ok in HS. destruct HS as [rs [Ers HS]].
    injection HS as <-.
    destruct (aspec_new_ok _ _ _ _ _ Es) as [A1 [A2 A3]].
    assert (D1 := Forall_inv HD). assert (D2 := Forall_inv_tail HD). cbn [snd] in D1.
    cbn [decode_attrs map]. rewrite ops_resolved_app, <- app_assoc.
    assert (FD : form_decode (wc_enc cx) (wc_be cx) (as_form s) (as_ic s)
                   (ops_resolved f o ++ ops_resolved f ro ++ rest) =
                 Some (av_final cx f v, ops_resolved f ro ++ rest)).
    { rewrite A2, A3, (av_write_resolved _ _ f _ _ Eo).
      destruct v; try (assert (Dv := av_write_decodes dbg cx _ _ (ops_resolved f ro ++ rest) Eo D1);
                       rewrite EF in Dv; cbn [fst snd] in Dv; exact Dv).
      cbn [av_form] in EF. injection EF as <- <-. cbn [av_final].
      rewrite fd_word_form by reflexivity. now apply dec_fixed_bytes. }
    rewrite FD. rewrite (IH _ _ _ Ero Ers D2 Hf).
    unfold attr_sem at 2. cbn [fst snd]. rewrite A1, A2, EF. reflexivity.
Qed.

Lemma ops_resolved_len (f : eid -> list byte) (w : N) : forall ops,
  (forall id, UnitWr.blen (f id) = w) -> (forall id w', In (WUnitRef id w') ops -> w' = w) ->
  UnitWr.blen (ops_resolved f ops) = ops_len ops.
Proof.
  induction ops as [|o r IH]; intros Hf HW; [reflexivity|].
  unfold ops_resolved in *. cbn [flat_map]. rewrite blen_app, ops_len_cons.
  rewrite IH by (auto; intros; eapply HW; right; eassumption). f_equal.
  destruct o; try reflexivity. cbn [op_resolved op_bytes]. rewrite zeros_blen, Hf. symmetry. eapply HW. left. reflexivity.
Qed.

Lemma decode_attrs_app e be : forall s1 s2 bs l1 bs1,
  decode_attrs e be s1 bs = Some (l1, bs1) ->
  decode_attrs e be (s1 ++ s2) bs =
  match decode_attrs e be s2 bs1 with Some (l2, bs2) => Some (l1 ++ l2, bs2) | None => None end.
Proof.
  induction s1 as [|s r IH]; intros s2 bs l1 bs1 H; cbn [decode_attrs app] in *.
  - injection H as E1 E2. subst l1 bs1. destruct (decode_attrs e be s2 bs) as [[l2 b2]|]; reflexivity.
  - destruct (form_decode e be (as_form s) (as_ic s) bs) as [[v b']|]; [|discriminate].
    destruct (decode_attrs e be r b') as [[l b'']|] eqn:E; [|discriminate]. injection H as E1 E2. subst l1 bs1.
    rewrite (IH s2 _ _ _ E). destruct (decode_attrs e be s2 b'') as [[l2 b2]|]; reflexivity.
Qed.

(* each entry of the tree finds its abbreviation under its code in the table the reader uses *)
Section codes.
  Variables (dbg : bool) (cx : wcx) (tab : list abbrev).
  Fixpoint codes_ok (d : die) : Prop :=
    match d with
    | Die id _ _ _ ch =>
        (exists code ab, nth_error (wc_codes cx) id = Some code /\
                         die_abbrev dbg (wc_enc cx) d = Ok ab /\ abbrev_lookup tab code = Some ab) /\
        (fix go (l : list die) : Prop := match l with [] => True | c :: r => codes_ok c /\ go r end) ch
    end.
  Fixpoint codes_ok_list (l : list die) : Prop :=
    match l with [] => True | c :: r => codes_ok c /\ codes_ok_list r end.
End codes.

Lemma codes_ok_unfold dbg cx tab id tag sib attrs ch :
  codes_ok dbg cx tab (Die id tag sib attrs ch) =
  ((exists code ab, nth_error (wc_codes cx) id = Some code /\
                    die_abbrev dbg (wc_enc cx) (Die id tag sib attrs ch) = Ok ab /\ abbrev_lookup tab code = Some ab) /\
   codes_ok_list dbg cx tab ch).
Proof. reflexivity. Qed.

Fixpoint die_decodable (d : die) : Prop :=
  match d with
  | Die _ _ _ attrs ch =>
      Forall (fun p => av_decodable (snd p)) attrs /\
      (fix go (l : list die) : Prop := match l with [] => True | c :: r => die_decodable c /\ go r end) ch
  end.
Fixpoint dies_decodable (l : list die) : Prop :=
  match l with [] => True | c :: r => die_decodable c /\ dies_decodable r end.
Lemma die_decodable_unfold id tag sib attrs ch :
  die_decodable (Die id tag sib attrs ch) = (Forall (fun p => av_decodable (snd p)) attrs /\ dies_decodable ch).
Proof. reflexivity. Qed.

(* the decoded tree corresponds to the written tree: same tags, nesting and attribute lists (with the
   DW_AT_sibling the writer adds), every entry where `write` put it, the sibling value pointing at the end
   of the entry's subtree *)
Inductive dmatch (cx : wcx) (f : eid -> list byte) : die -> N -> N -> sdie -> Prop :=
| DMleaf : forall id tag sib attrs pos endp,
    dmatch cx f (Die id tag sib attrs []) pos endp (SDie pos tag (map (attr_sem cx f) attrs) [])
| DMnode : forall id tag sib attrs c r pos endp p0 kids,
    kmatch cx f (c :: r) p0 (endp - 1) kids -> pos < p0 -> p0 < endp ->
    dmatch cx f (Die id tag sib attrs (c :: r)) pos endp
      (SDie pos tag
         ((if sib then [(DW_AT_sibling, word_form (wc_enc cx) DW_FORM_ref4 DW_FORM_ref8, RU (endp - wc_unit_off cx))]
           else []) ++ map (attr_sem cx f) attrs) kids)
with kmatch (cx : wcx) (f : eid -> list byte) : list die -> N -> N -> list sdie -> Prop :=
| KMnil : forall p, kmatch cx f [] p p []
| KMcons : forall c r p m q k ks,
    dmatch cx f c p m k -> kmatch cx f r m q ks -> kmatch cx f (c :: r) p q (k :: ks).

Lemma abbrev_lookup_nonzero tab code ab : abbrev_lookup tab code = Some ab -> code <> 0.
Proof. unfold abbrev_lookup. destruct (code =? 0) eqn:Z; [discriminate|]. intros _. now apply N.eqb_neq. Qed.

Lemma ops_resolved_cons f o r : ops_resolved f (o :: r) = op_resolved f o ++ ops_resolved f r.
Proof. reflexivity. Qed.

(* a written entry starts with the (non-zero) first byte of its abbreviation code *)
Lemma write_die_first_byte dbg cx (f : eid -> list byte) tab d pos ops :
  write_die dbg cx d pos = Ok ops -> codes_ok dbg cx tab d ->
  exists b r, ops_resolved f ops = b :: r /\ (b2n b =? 0) = false /\ 1 <= ops_len ops.
Proof.
  destruct d as [id tag sib attrs ch]. intros H C.
  rewrite codes_ok_unfold in C. destruct C as [[code [ab [C1 [_ C3]]]] _].
  destruct (write_die_inv _ _ _ _ _ _ _ _ _ H) as (code' & cb & aops & Ec & Ecb & _ & W).
  unfold idx_get, unwrap in Ec. rewrite C1 in Ec. injection Ec as <-.
  destruct (uleb_first_byte _ _ Ecb (abbrev_lookup_nonzero _ _ _ C3)) as [b [r [-> Hb]]].
  assert (L : 1 <= UnitWr.blen (b :: r)) by (rewrite blen_cons; lia).
  exists b. destruct ch; [subst ops|cbv zeta in W; destruct W as (cops & sibb & _ & _ & ->)];
    eexists; rewrite !ops_resolved_cons, !ops_len_cons; cbn [op_resolved op_bytes app];
    (split; [reflexivity|]); (split; [exact Hb|lia]).
Qed.

(* every entry takes at least the byte of its code *)
Lemma write_count dbg cx :
  (forall d pos ops, write_die dbg cx d pos = Ok ops -> N.of_nat (length (die_ids d)) <= ops_len ops) /\
  (forall l p ops, write_list dbg cx l p = Ok ops -> N.of_nat (length (dies_ids l)) <= ops_len ops).
Proof.
  apply write_ind2.
  - intros p. apply N.le_0_l.
  - intros c r p o ro _ Hc _ Hr. unfold dies_ids in *. cbn [flat_map]. rewrite app_length, ops_len_app. lia.
  - intros [id tag sib attrs ch] pos ops H IH. cbn [die_children] in IH.
    destruct (write_die_inv _ _ _ _ _ _ _ _ _ H) as (code & cb & aops & _ & Ecb & _ & W).
    destruct (write_uleb128_ok _ _ Ecb) as (_ & _ & _ & Lc & _). cbn [die_ids length].
    destruct ch; [subst ops|cbv zeta in W; destruct W as (cops & sibb & Ec & _ & ->); specialize (IH _ _ Ec); fold (dies_ids (d :: ch))];
      rewrite !ops_len_cons, ?ops_len_app, ?ops_len_cons; cbn [op_bytes flat_map length]; unfold UnitWr.blen in *; lia.
Qed.

Definition dec_stmt (dbg : bool) (cx : wcx) (f : eid -> list byte) (tab : list abbrev) (d : die) : Prop :=
  forall fuel pos ops rest,
    write_die dbg cx d pos = Ok ops ->
    codes_ok dbg cx tab d -> die_decodable d ->
    (forall id, UnitWr.blen (f id) = wsz (wc_enc cx)) ->
    pos + ops_len ops < 2 ^ 64 -> wc_unit_off cx <= pos ->
    ops_len ops <= N.of_nat fuel ->
    exists sd, decode_die fuel (wc_enc cx) (wc_be cx) tab pos (ops_resolved f ops ++ rest) = Some (sd, rest) /\
               dmatch cx f d pos (pos + ops_len ops) sd.

(* The attributes of an entry with children, whatever the children are: the DW_AT_sibling value (if asked for)
   decodes to the unit offset of `endp`, the position after the entry's null child, and the other attributes
   follow (`Hattrs` is their decoding). *)
Lemma decode_sibling_and_attrs dbg cx (f : eid -> list byte) (sib : bool) sibspec specs sibb aops vals endp tail :
  (if sib then let* s := aspec_new dbg DW_AT_sibling (word_form (wc_enc cx) DW_FORM_ref4 DW_FORM_ref8) None in Ok [s]
   else Ok []) = Ok sibspec ->
  sib_patch dbg cx sib endp = Ok sibb ->
  wc_unit_off cx <= endp -> endp < 2 ^ 64 ->
  (forall tl, decode_attrs (wc_enc cx) (wc_be cx) specs (ops_resolved f aops ++ tl) = Some (vals, tl)) ->
  decode_attrs (wc_enc cx) (wc_be cx) (sibspec ++ specs) (ops_resolved f sibb ++ ops_resolved f aops ++ tail) =
  Some ((if sib then [(DW_AT_sibling, word_form (wc_enc cx) DW_FORM_ref4 DW_FORM_ref8, RU (endp - wc_unit_off cx))]
         else []) ++ vals, tail).
Proof.
  intros Esib Esibb U B Hattrs.
  apply sib_patch_inv in Esibb. destruct sib; [|subst sibb; injection Esib as <-; apply Hattrs].
  destruct Esibb as (next & b & En & Eb & ->).
  apply bind_ok in Esib. destruct Esib as [s [Es Esib]]. injection Esib as <-.
  destruct (aspec_new_ok _ _ _ _ _ Es) as [A1 [A2 A3]].
  rewrite chk_sub_ok in En by exact U. injection En as <-.
  unfold ops_resolved at 1. cbn [flat_map op_resolved op_bytes app]. rewrite app_nil_r.
  cbn [decode_attrs]. rewrite A1, A2, A3.
  assert (FD : form_decode (wc_enc cx) (wc_be cx) (word_form (wc_enc cx) DW_FORM_ref4 DW_FORM_ref8) 0
                 (b ++ ops_resolved f aops ++ tail) =
               Some (RU ((endp - wc_unit_off cx) mod 2 ^ 64), ops_resolved f aops ++ tail)).
  { unfold word_form. unfold wsz in Eb. destruct (e_fmt64 (wc_enc cx)); eapply write_udata_dec; eassumption. }
  rewrite FD, Hattrs, N.mod_small by lia. reflexivity.
Qed.

Lemma decode_written_all dbg cx f tab :
  (forall id, UnitWr.blen (f id) = wsz (wc_enc cx)) ->
  (forall d pos ops, write_die dbg cx d pos = Ok ops ->
     forall fuel rest, codes_ok dbg cx tab d -> die_decodable d ->
       pos + ops_len ops < 2 ^ 64 -> wc_unit_off cx <= pos -> ops_len ops <= N.of_nat fuel ->
       exists sd, decode_die fuel (wc_enc cx) (wc_be cx) tab pos (ops_resolved f ops ++ rest) = Some (sd, rest) /\
                  dmatch cx f d pos (pos + ops_len ops) sd) /\
  (forall l p cops, write_list dbg cx l p = Ok cops ->
     forall fuel n rest, codes_ok_list dbg cx tab l -> dies_decodable l ->
       p + ops_len cops < 2 ^ 64 -> wc_unit_off cx <= p -> ops_len cops <= N.of_nat fuel -> (length (dies_ids l) < n)%nat ->
       exists kids,
         decode_kids (decode_die fuel (wc_enc cx) (wc_be cx) tab) n p (ops_resolved f cops ++ x00 :: rest) = Some (kids, rest) /\
         kmatch cx f l p (p + ops_len cops) kids).
Proof.
  intros Hf. apply write_ind2.
  - intros p fuel n rest _ _ _ _ _ Ln. destruct n as [|k]; [inversion Ln|]. exists []. rewrite ops_len_nil, N.add_0_r.
    split; [reflexivity|constructor].
  - intros c r p o ro Eo Hc Ero Hr fuel n rest [C1 C2] [D1 D2] B U F Ln.
    unfold dies_ids in Ln. cbn [flat_map] in Ln. rewrite app_length in Ln.
    assert (1 <= length (die_ids c))%nat by (destruct c; cbn [die_ids length]; lia).
    rewrite ops_len_app in *. rewrite ops_resolved_app, <- app_assoc.
    destruct n as [|k]; [lia|].
    destruct (write_die_first_byte dbg cx f tab c p o Eo C1) as [b [tl [Eb [Hb Lo]]]].
    destruct (Hc fuel (ops_resolved f ro ++ x00 :: rest) C1 D1 ltac:(lia) U ltac:(lia)) as [k0 [Dk Mk]].
    cbn [decode_kids]. rewrite Eb in *. cbn [app]. rewrite Hb. cbn [app] in Dk. rewrite Dk.
    (* position of the next child *)
    assert (Lr : UnitWr.blen (ops_resolved f o) = ops_len o).
    { apply (ops_resolved_len f (wsz (wc_enc cx))); [exact Hf|]. eapply write_die_refw; eassumption. }
    rewrite Eb in Lr.
    replace (p + (UnitWrSpec.blen (b :: tl ++ ops_resolved f ro ++ x00 :: rest) -
                  UnitWrSpec.blen (ops_resolved f ro ++ x00 :: rest))) with (p + ops_len o).
    2:{ change UnitWrSpec.blen with UnitWr.blen.
        change (b :: tl ++ ops_resolved f ro ++ x00 :: rest) with ((b :: tl) ++ ops_resolved f ro ++ x00 :: rest).
        rewrite blen_app, Lr. lia. }
    destruct (Hr fuel k rest C2 D2 ltac:(lia) ltac:(lia) ltac:(lia) ltac:(unfold dies_ids; lia)) as [ks [Dks Mks]].
    rewrite Dks. exists (k0 :: ks). split; [reflexivity|].
    econstructor; [exact Mk|]. now rewrite N.add_assoc.
  - intros [id tag sib attrs ch] pos ops HW IH fuel rest C D B U F. cbn [die_children] in IH.
    assert (RW := write_die_refw _ _ _ _ _ HW).
    rewrite codes_ok_unfold in C. destruct C as [[code [ab [C1 [C2 C3]]]] Cl].
    rewrite die_decodable_unfold in D. destruct D as [Da Dc].
    destruct (write_die_inv _ _ _ _ _ _ _ _ _ HW) as (code' & cb & aops & Ec & Ecb & Ea & W).
    unfold idx_get, unwrap in Ec. rewrite C1 in Ec. injection Ec as <-.
    assert (Lcb : 1 <= UnitWr.blen cb) by (destruct (write_uleb128_ok _ _ Ecb) as (_ & _ & _ & L & _); unfold UnitWr.blen; lia).
    (* the abbreviation of this entry *)
    unfold die_abbrev in C2.
    apply bind_ok in C2. destruct C2 as [sibspec [Esib C2]].
    apply bind_ok in C2. destruct C2 as [specs [Especs C2]]. injection C2 as <-.
    (* the attribute values *)
    assert (Hattrs : forall tail, decode_attrs (wc_enc cx) (wc_be cx) specs (ops_resolved f aops ++ tail) =
                                  Some (map (attr_sem cx f) attrs, tail)).
    { intros tail. eapply decode_attrs_written; eassumption. }
    assert (Laops : UnitWr.blen (ops_resolved f aops) = ops_len aops).
    { apply (ops_resolved_len f (wsz (wc_enc cx))); [exact Hf|].
      intros i w' Hi. apply (RW i w'). destruct ch; [subst ops|cbv zeta in W; destruct W as (? & ? & _ & _ & ->)];
        do 2 right; [|apply in_or_app; right; apply in_or_app; left]; exact Hi. }
    destruct ch as [|c r].
    + (* leaf *)
      subst ops. cbn [has_kids] in Esib. rewrite andb_false_r in Esib. injection Esib as <-.
      rewrite !ops_len_cons in *. cbn [op_bytes] in *. rewrite blen_nil in *.
      destruct fuel as [|f']; [lia|].
      rewrite !ops_resolved_cons. cbn [op_resolved op_bytes app]. rewrite <- app_assoc.
      cbn [decode_die]. rewrite (write_uleb128_dec _ _ (ops_resolved f aops ++ rest) Ecb).
      rewrite C3. cbn [ab_attrs ab_children ab_tag app has_kids]. rewrite Hattrs.
      eexists. split; [reflexivity|]. constructor.
    + (* node *)
      cbv zeta in W. destruct W as (cops & sibb & Ecops & Esibb & ->).
      cbn [has_kids] in *. rewrite andb_true_r in *.
      set (w := wsz (wc_enc cx)) in *.
      assert (Ls := sib_patch_len _ _ _ _ _ Esibb). fold w in Ls.
      rewrite !ops_len_cons, !ops_len_app, ops_len_wb in *. cbn [op_bytes] in *. rewrite blen_nil, Ls in *.
      change (UnitWr.blen [x00]) with 1 in *.
      destruct fuel as [|f']; [lia|].
      set (p0 := pos + (UnitWr.blen cb + (if sib then w else 0)) + ops_len aops) in *.
      set (endp := pos + (0 + (UnitWr.blen cb + ((if sib then w else 0) + (ops_len aops + (ops_len cops + 1)))))).
      (* children *)
      destruct (IH _ _ Ecops f' f' rest Cl Dc) as [kids [Dk Mk]].
      { unfold p0. lia. } { unfold p0. lia. } { lia. }
      { assert (Cn := proj2 (write_count dbg cx) _ _ _ Ecops). lia. }
      clear IH.
      (* the sibling attribute and the other attributes *)
      assert (Hall := decode_sibling_and_attrs dbg cx f sib sibspec specs sibb aops (map (attr_sem cx f) attrs) endp
                        (ops_resolved f cops ++ x00 :: rest) Esib).
      replace (p0 + ops_len cops + 1) with endp in Esibb by (unfold endp, p0; lia).
      specialize (Hall Esibb ltac:(unfold endp; lia) ltac:(unfold endp; lia) Hattrs).
      rewrite !ops_resolved_cons, !ops_resolved_app. cbn [op_resolved op_bytes app].
      replace (ops_resolved f [WB [x00]]) with [x00] by reflexivity.
      cbn [decode_die]. rewrite <- !app_assoc.
      rewrite (write_uleb128_dec _ _ _ Ecb). rewrite C3. cbn [ab_attrs ab_children ab_tag has_kids].
      cbn [app]. rewrite Hall.
      (* position of the first child *)
      assert (Lsr : UnitWr.blen (ops_resolved f sibb) = if sib then w else 0).
      { rewrite <- Ls. apply (ops_resolved_len f w); [exact Hf|]. intros i w' Hi. apply (RW i w'). do 2 right. apply in_or_app. now left. }
      replace (pos + (UnitWrSpec.blen (cb ++ ops_resolved f sibb ++ ops_resolved f aops ++ ops_resolved f cops ++ x00 :: rest) -
                      UnitWrSpec.blen (ops_resolved f cops ++ x00 :: rest))) with p0
        by (change UnitWrSpec.blen with UnitWr.blen; rewrite !blen_app, Laops, Lsr; unfold p0; lia).
      rewrite Dk. eexists. split; [reflexivity|]. fold endp.
      apply DMnode with (p0 := p0).
      * replace (endp - 1) with (p0 + ops_len cops) by (unfold endp, p0; lia). exact Mk.
      * unfold p0. lia.
      * unfold endp, p0. lia.
Qed.

Theorem decode_written dbg cx f tab : forall d, dec_stmt dbg cx f tab d.
Proof. intros d fuel pos ops rest HW C D Hf. now apply (proj1 (decode_written_all dbg cx f tab Hf)). Qed.

Definition tab_ext (a b : list abbrev) : Prop := exists ext, b = a ++ ext.
Lemma tab_ext_refl a : tab_ext a a. Proof. exists []. now rewrite app_nil_r. Qed.
Lemma tab_ext_trans a b c : tab_ext a b -> tab_ext b c -> tab_ext a c.
Proof. intros [x ->] [y ->]. exists (x ++ y). now rewrite app_assoc. Qed.

Lemma abbrev_add_ext tab a code tab' : abbrev_add tab a = (code, tab') -> tab_ext tab tab'.
Proof.
  unfold abbrev_add. destruct (abbrev_find tab a); intros H; injection H as <- <-; [apply tab_ext_refl|now exists [a]].
Qed.

Lemma abbrev_lookup_ext tab tab' code ab : tab_ext tab tab' -> abbrev_lookup tab code = Some ab -> abbrev_lookup tab' code = Some ab.
Proof.
  intros [ext ->]. unfold abbrev_lookup. destruct (code =? 0); [discriminate|]. intros H.
  rewrite nth_error_app1; [exact H|]. apply nth_error_Some. congruence.
Qed.

Lemma calc_abbrevs_exts dbg e lpv :
  (forall d st st', calc dbg e lpv d st = Ok st' -> tab_ext (cs_abbrevs st) (cs_abbrevs st')) /\
  (forall l st st', calc_list dbg e lpv l st = Ok st' -> tab_ext (cs_abbrevs st) (cs_abbrevs st')).
Proof.
  apply calc_ind2.
  - intros s. apply tab_ext_refl.
  - intros c r s s1 s2 _ Hc _ Hr. exact (tab_ext_trans _ _ _ Hc Hr).
  - intros [id tag sib attrs ch] st st' H IH. cbn [die_children] in IH.
    destruct (calc_inv _ _ _ _ _ _ _ _ _ _ H) as (ents & ab & code & tab & codes & sz & off & _ & _ & EA & _ & _ & _ & K).
    assert (X := abbrev_add_ext _ _ _ _ EA).
    destruct ch; [subst st'; exact X|]. destruct K as (st2 & off2 & E2 & _ & ->).
    exact (tab_ext_trans _ _ _ X (IH _ _ E2)).
Qed.

Definition calc_list_abbrevs_ext dbg e lpv := proj2 (calc_abbrevs_exts dbg e lpv).

(* every entry finds its abbreviation under its code in any table that extends the one calculate_offsets built *)
Lemma calc_codes_oks dbg cx tabF :
  (forall d st st', calc dbg (wc_enc cx) (wc_lpv cx) d st = Ok st' ->
     tab_ext (cs_abbrevs st') tabF -> agree_on (die_ids d) (wc_codes cx) (cs_codes st') -> NoDup (die_ids d) ->
     codes_ok dbg cx tabF d) /\
  (forall l st st', calc_list dbg (wc_enc cx) (wc_lpv cx) l st = Ok st' ->
     tab_ext (cs_abbrevs st') tabF -> agree_on (dies_ids l) (wc_codes cx) (cs_codes st') -> NoDup (dies_ids l) ->
     codes_ok_list dbg cx tabF l).
Proof.
  apply calc_ind2.
  - intros; exact I.
  - intros c r st sA st' EA Hc H Hr X A ND. unfold dies_ids in *. cbn [flat_map] in *.
    destruct (calc_list_frame _ _ _ _ _ _ H) as [_ [_ FR]]. destruct (NoDup_app_inv _ _ ND) as (N1 & N2 & N3).
    split.
    + apply Hc; [|intros i Hi|exact N1].
      * exact (tab_ext_trans _ _ _ (calc_list_abbrevs_ext _ _ _ _ _ _ H) X).
      * rewrite A by (apply in_or_app; now left). now apply (FR i), N3.
    + apply Hr; [exact X| |exact N2]. intros i Hi. apply A. apply in_or_app. now right.
  - intros [id tag sib attrs ch] st st' H IH X A ND. cbn [die_children] in IH.
    cbn [die_ids] in *. inversion ND as [|? ? NDid NDch]; subst.
    destruct (calc_inv _ _ _ _ _ _ _ _ _ _ H) as (ents & ab & code & tab & codes & sz & off & _ & Eab & EA & Ecodes & _ & _ & K).
    destruct (set_nth_spec _ _ _ _ Ecodes) as [T1 _]. destruct (abbrev_add_spec _ _ _ _ EA) as [L _].
    rewrite codes_ok_unfold.
    destruct ch as [|c r].
    + subst st'. cbn [cs_abbrevs cs_codes] in *. split; [|exact I].
      exists code, ab. split; [rewrite (A id (or_introl eq_refl)); exact T1|]. split; [exact Eab|].
      eapply abbrev_lookup_ext; eassumption.
    + destruct K as (st2 & off2 & E2 & _ & ->). cbn [cs_abbrevs cs_codes] in *.
      destruct (calc_list_frame _ _ _ _ _ _ E2) as [_ [_ FR]].
      split.
      * exists code, ab. split; [rewrite (A id (or_introl eq_refl)); destruct (FR id NDid) as [_ ->]; exact T1|].
        split; [exact Eab|]. eapply abbrev_lookup_ext; [|exact L].
        exact (tab_ext_trans _ _ _ (calc_list_abbrevs_ext _ _ _ _ _ _ E2) X).
      * apply (IH _ _ E2); [exact X| |exact NDch]. intros i Hi. apply A. now right.
Qed.

Definition calc_codes_ok dbg cx tabF := proj1 (calc_codes_oks dbg cx tabF).

Theorem roundtrip_lemma dbg cx root st0 st ops pre post sec' (f : eid -> list byte) fuel rest :
  calc dbg (wc_enc cx) (wc_lpv cx) root st0 = Ok st ->
  wc_codes cx = cs_codes st ->
  write_die dbg cx root (cs_off st0) = Ok ops ->
  NoDup (die_ids root) -> die_expr_ok root -> die_decodable root ->
  cs_off st0 + ops_len ops < 2 ^ 64 ->
  (forall j y, nth_error (cs_entries st0) j = Some y -> y = 0) ->
  UnitWr.blen pre = cs_off st0 -> wc_unit_off cx <= cs_off st0 ->
  (forall id b, ref_value dbg (wc_be cx) (wc_unit cx) (wc_unit_off cx) (cs_entries st) (wsz (wc_enc cx)) id = Some b -> f id = b) ->
  (forall id, UnitWr.blen (f id) = wsz (wc_enc cx)) ->
  patch_unit_refs dbg (wc_be cx) (wc_unit cx) (wc_unit_off cx) (cs_entries st) (wsz (wc_enc cx))
                  (ops_unit_refs (cs_off st0) ops) (pre ++ ops_bytes ops ++ post) = Ok sec' ->
  ops_len ops <= N.of_nat fuel ->
  exists sd,
    sec' = pre ++ ops_resolved f ops ++ post /\
    decode_die fuel (wc_enc cx) (wc_be cx) (cs_abbrevs st) (cs_off st0) (ops_resolved f ops ++ rest) = Some (sd, rest) /\
    dmatch cx f root (cs_off st0) (cs_off st0 + ops_len ops) sd /\
    (forall id w', In (WUnitRef id w') ops ->
       exists p, In (id_idx id, p) (ops_marks (cs_off st0) ops) /\
                 nth_error (cs_entries st) (id_idx id) = Some p /\
                 fixed_num (wc_be cx) (f id) = p - wc_unit_off cx).
Proof.
  intros HC Hcodes HW ND HX HD HB HZ Hpre Hu Hf Hfl HP HF.
  destruct (refs_resolve_lemma dbg cx root st0 st ops pre post sec' f HC Hcodes HW ND HX HB HZ Hpre Hu Hf HP) as [R1 R2].
  destruct (offsets_exact_lemma _ _ _ _ _ _ HC Hcodes HW ND HX HB) as [_ [_ O3]].
  assert (CK : codes_ok dbg cx (cs_abbrevs st) root).
  { eapply calc_codes_ok; [exact HC|apply tab_ext_refl| |exact ND]. intros i _. now rewrite Hcodes. }
  destruct (decode_written dbg cx f (cs_abbrevs st) root fuel (cs_off st0) ops rest HW CK HD Hfl HB Hu HF) as [sd [D1 D2]].
  exists sd. split; [exact R1|]. split; [exact D1|]. split; [exact D2|].
  intros id w' Hi. destruct (R2 _ _ Hi) as [p [P1 [P2 _]]]. exists p. split; [exact P1|]. split; [now apply O3|].
  assert (Dd := write_udata_dec _ _ _ _ [] P2).
  assert (Lb := write_udata_len _ _ _ _ P2).
  rewrite (dec_fixed_bytes _ _ _ [] Lb) in Dd. injection Dd as Dd. rewrite Dd.
  apply N.mod_small. assert (Hge := ops_marks_ge _ _ _ _ P1).
  assert (Hm := O3 _ _ P1).
  assert (Hle := ops_marks_le _ _ _ _ P1). lia.
Qed.

Lemma repeat_zero_nth n j y : nth_error (repeat 0 n) j = Some y -> y = 0.
Proof. intros H. apply nth_error_In in H. now apply repeat_spec in H. Qed.

Lemma ops_len_ops_bytes ops : UnitWr.blen (ops_bytes ops) = ops_len ops.
Proof. reflexivity. Qed.

(* patching overwrites in place *)
Lemma write_at_blen sec off bs sec' : write_at sec off bs = Ok sec' -> UnitWr.blen sec' = UnitWr.blen sec.
Proof.
  unfold write_at. destruct (UnitWr.blen sec <? off) eqn:L1; [discriminate|].
  destruct (UnitWr.blen sec - off <? UnitWr.blen bs) eqn:L2; [discriminate|]. intros H. injection H as <-.
  apply N.ltb_ge in L1. apply N.ltb_ge in L2.
  unfold UnitWr.blen in *. rewrite !app_length, firstn_length, skipn_length. lia.
Qed.

Lemma patch_unit_refs_blen dbg be unit unit_off entries w : forall refs s s',
  patch_unit_refs dbg be unit unit_off entries w refs s = Ok s' -> UnitWr.blen s' = UnitWr.blen s.
Proof.
  induction refs as [|[o i] r IH]; intros s s' H; cbn [patch_unit_refs] in H; [now injection H as <-|].
  binds. rewrite (IH _ _ H). unfold write_udata_at in *. binds. eapply write_at_blen; eassumption.
Qed.

Lemma upd_nth_0_length {A} (f : A -> A) (l l' : list A) : upd_nth 0 f l = Ok l' -> length l' = length l.
Proof. destruct l as [|y r]; cbn [upd_nth]; [discriminate|]. intros H. injection H as <-. reflexivity. Qed.

Theorem unit_write_roundtrip_lemma dbg be uidx u p lstr str info abbrev_off out :
  unit_write dbg be uidx u p lstr str info abbrev_off = Ok out ->
  exists ents1 ents2 root st line rng loc hdr,
    (* the tree: root attributes adjusted for DW_AT_stmt_list, base types first *)
    reorder_base_types ents1 = Ok ents2 /\ length ents1 = length (u_entries u) /\
    tree_of (S (length ents2)) ents2 0 = Ok root /\
    let e := u_enc u in
    let pos0 := UnitWr.blen info + UnitWr.blen hdr in
    let cx := mkWcx e be uidx (UnitWr.blen info) (cs_entries st) (cs_codes st) line lstr str rng loc (up_lp_version p) in
    calc dbg e (up_lp_version p) root (mkCst pos0 (repeat 0 (length ents2)) [] (repeat 0 (length ents2))) = Ok st /\
    uo_entries out = cs_entries st /\ uo_abbrevs out = cs_abbrevs st /\ uo_unit_off out = UnitWr.blen info /\
    (NoDup (die_ids root) -> die_expr_ok root -> die_decodable root -> UnitWr.blen (uo_info out) < 2 ^ 64 ->
     forall f : eid -> list byte,
       (forall id b, ref_value dbg be uidx (UnitWr.blen info) (cs_entries st) (wsz e) id = Some b -> f id = b) ->
       (forall id, UnitWr.blen (f id) = wsz e) ->
     exists ops hdr' sd,
       write_die dbg cx root pos0 = Ok ops /\
       uo_info out = info ++ hdr' ++ ops_resolved f ops /\ UnitWr.blen hdr' = UnitWr.blen hdr /\
       uo_fixups out = ops_fixups pos0 ops /\
       decode_die (S (length (ops_bytes ops))) e be (cs_abbrevs st) pos0 (ops_resolved f ops) = Some (sd, []) /\
       dmatch cx f root pos0 (pos0 + ops_len ops) sd /\
       (forall i q, In (i, q) (ops_marks pos0 ops) -> nth_error (uo_entries out) i = Some q) /\
       (forall id w', In (WUnitRef id w') ops ->
          exists q, In (id_idx id, q) (ops_marks pos0 ops) /\ fixed_num be (f id) = q - UnitWr.blen info)).
Proof.
  unfold unit_write. intros H.
  apply bind_ok in H. destruct H as [ents1 [E1 H]].
  apply bind_ok in H. destruct H as [line [Eline H]].
  apply bind_ok in H. destruct H as [len0 [Elen0 H]].
  apply bind_ok in H. destruct H as [hdrr [Ehdr H]].
  apply bind_ok in H. destruct H as [ents2 [E2 H]].
  apply bind_ok in H. destruct H as [root [Eroot H]].
  apply bind_ok in H. destruct H as [st [Est H]].
  apply bind_ok in H. destruct H as [rng [Erng H]].
  apply bind_ok in H. destruct H as [loc [Eloc H]].
  apply bind_ok in H. destruct H as [ops [Eops H]].
  apply bind_ok in H. destruct H as [u0 [Eres H]].
  apply bind_ok in H. destruct H as [sec2 [Esec2 H]].
  apply bind_ok in H. destruct H as [sec3 [Esec3 H]]. injection H as <-.
  cbn [uo_info uo_fixups uo_unit_off uo_entries uo_abbrevs].
  set (e := u_enc u) in *. set (w := wsz e) in *.
  set (esc := if e_fmt64 e then enc_un 4 be 4294967295 else []) in *.
  set (hdr := esc ++ len0 ++ enc_un 2 be (e_ver e) ++ hdrr) in *.
  exists ents1, ents2, root, st, line, rng, loc, hdr.
  split; [exact E2|]. split.
  { exact (upd_nth_0_length _ _ _ E1). }
  split; [exact Eroot|]. cbv zeta.
  split; [exact Est|]. split; [reflexivity|]. split; [reflexivity|]. split; [reflexivity|].
  intros ND HX HD HB f Hf Hfl.
  set (pos0 := UnitWr.blen info + UnitWr.blen hdr) in *.
  set (cx := mkWcx e be uidx (UnitWr.blen info) (cs_entries st) (cs_codes st) line lstr str rng loc (up_lp_version p)) in *.
  (* the length patch rewrites only the placeholder in the header *)
  unfold write_udata_at in Esec2. apply bind_ok in Esec2. destruct Esec2 as [lenb [Elenb Esec2]].
  assert (Llen0 : UnitWr.blen len0 = w) by (eapply write_udata_len; eassumption).
  assert (Llenb : UnitWr.blen lenb = w) by (eapply write_udata_len; eassumption).
  assert (Esec1 : info ++ hdr ++ ops_bytes ops =
                  (info ++ esc) ++ len0 ++ (enc_un 2 be (e_ver e) ++ hdrr ++ ops_bytes ops)).
  { unfold hdr. now rewrite <- !app_assoc. }
  rewrite Esec1 in Esec2.
  replace (UnitWr.blen info + UnitWr.blen esc) with (UnitWr.blen (info ++ esc)) in Esec2 by apply blen_app.
  rewrite write_at_app in Esec2 by (unfold UnitWr.blen in *; lia). injection Esec2 as <-.
  set (hdr' := esc ++ lenb ++ enc_un 2 be (e_ver e) ++ hdrr).
  assert (Lh : UnitWr.blen hdr' = UnitWr.blen hdr) by (unfold hdr', hdr; rewrite !blen_app; lia).
  assert (Esec2' : (info ++ esc) ++ lenb ++ enc_un 2 be (e_ver e) ++ hdrr ++ ops_bytes ops =
                   (info ++ hdr') ++ ops_bytes ops ++ []).
  { unfold hdr'. now rewrite app_nil_r, <- !app_assoc. }
  rewrite Esec2' in Esec3.
  assert (Lpre : UnitWr.blen (info ++ hdr') = pos0) by (rewrite blen_app, Lh; reflexivity).
  (* size of the section after the unit *)
  assert (Hlen3 : UnitWr.blen sec3 = UnitWr.blen (info ++ hdr') + ops_len ops).
  { rewrite (patch_unit_refs_blen _ _ _ _ _ _ _ _ _ Esec3), !blen_app, blen_nil. unfold ops_len. lia. }
  assert (HB' : pos0 + ops_len ops < 2 ^ 64) by (rewrite <- Lpre, <- Hlen3; exact HB).
  destruct (roundtrip_lemma dbg cx root (mkCst pos0 (repeat 0 (length ents2)) [] (repeat 0 (length ents2))) st ops
              (info ++ hdr') [] sec3 f (S (length (ops_bytes ops))) []) as [sd [R1 [R2 [R3 R4]]]];
    try assumption; try reflexivity.
  { intros j y Hj. cbn [cs_entries] in Hj. eapply repeat_zero_nth; eassumption. }
  { cbn [cs_off wc_unit_off cx]. unfold pos0. lia. }
  { unfold ops_len, UnitWr.blen. lia. }
  destruct (offsets_exact_lemma dbg cx root _ st ops Est eq_refl Eops ND HX HB') as [_ [_ O3]].
  exists ops, hdr', sd. split; [exact Eops|]. split; [rewrite R1, app_nil_r, <- app_assoc; reflexivity|].
  split; [exact Lh|]. split; [reflexivity|]. rewrite app_nil_r in R2. split; [exact R2|]. split; [exact R3|].
  split; [exact O3|].
  intros id w' Hi. destruct (R4 _ _ Hi) as [q [Q1 [_ Q3]]]. exists q. split; [exact Q1|exact Q3].
Qed.

Lemma dassert_unit dbg unit id : (dbg = true -> id_unit id = unit) -> dassert dbg (Nat.eqb unit (id_unit id)) = Ok tt.
Proof.
  intros H. destruct dbg; [|reflexivity]. rewrite (H eq_refl), Nat.eqb_refl. apply dassert_true.
Qed.

(* an id outside the written tree, also one beyond the entries vector (reserved, never added), has no offset
   (gimli c42c00d): patching then answers InvalidReference *)
Lemma unit_offset_dangling dbg e lpv root st0 st unit unit_off id :
  calc dbg e lpv root st0 = Ok st ->
  (forall j y, nth_error (cs_entries st0) j = Some y -> y = 0) ->
  ~ In (id_idx id) (die_ids root) -> (dbg = true -> id_unit id = unit) ->
  unit_offset dbg unit unit_off (cs_entries st) id = Ok None.
Proof.
  intros HC HZ Hn Hu. unfold unit_offset, debug_info_offset. rewrite (dassert_unit _ _ _ Hu). cbn [bind].
  destruct (nth_error (cs_entries st) (id_idx id)) as [x|] eqn:En; [|reflexivity].
  destruct (calc_frame _ _ _ _ _ _ HC) as [_ [_ F]]. destruct (F _ Hn) as [F1 _].
  rewrite F1 in En. apply HZ in En. subst x. reflexivity.
Qed.

Lemma write_at_no_panic sec off bs : write_at sec off bs <> Panic.
Proof. unfold write_at. destruct (_ <? off); [discriminate|]. destruct (_ <? _); discriminate. Qed.

(* what a reader using the line program's numbering finds for a written file index (gimli c92c4f4: the index is
   written in that numbering) *)
Definition file_of_raw (lpv raw : N) : option N :=
  if lpv <=? 4 then (if raw =? 0 then None else Some (raw - 1)) else Some raw.

Lemma file_index_roundtrip_lemma dbg lpv i r :
  i + 1 < 2 ^ 64 -> file_raw dbg lpv (Some i) = Ok r -> file_of_raw lpv r = Some i.
Proof.
  intros B H. apply file_raw_val in H. unfold file_of_raw. destruct (lpv <=? 4); [|now subst].
  rewrite wrapN_small in H by exact B. subst r.
  replace (i + 1 =? 0) with false by (symmetry; apply N.eqb_neq; lia). f_equal. lia.
Qed.

