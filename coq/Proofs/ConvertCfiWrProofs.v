(* Proofs/ConvertCfiWrProofs.v — C12 ∘ C14 ∘ C06: the converted CFI programs, written by the frame-table
   writer (Model/CfiWr.v) and decoded again (Spec/CfaEncSpec.v, theorems fde_program_read /
   cie_program_read of C14), run on the table machine of the reader (Spec/CfaSpec.v) under the ORIGINAL
   alignment factors, give the unwind information of the source programs. *)
From Coq Require Import List NArith ZArith Bool Lia ZifyBool ZifyN ZifyNat.
From Coq.Strings Require Import Byte.
Require Import GV.Base.Res GV.Base.Byt GV.Base.Ints GV.Spec.CfaEncSpec GV.Spec.CfaSpec.
Require Import GV.Model.ConvertArith GV.Model.ConvertCfi GV.Model.CfiWr.
Require Import GV.Proofs.ConvertCfiProofs GV.Proofs.CfiWrProofs.
Import ListNotations.
Local Open Scope N_scope.

(* ------------------------------------------------------------------ equality as the expression relation *)

Lemma rule_rel_eq x y : rule_rel eq x y <-> y = x.
Proof.
  destruct x; cbn [rule_rel]; split; intros H; try exact H;
    match type of H with
    | ex _ => destruct H as [e' [-> <-]]; reflexivity
    | _ = _ => subst y; eexists; split; reflexivity
    end.
Qed.
Lemma cfa_rel_eq x y : cfa_rel eq x y <-> y = x.
Proof.
  destruct x; cbn [cfa_rel]; split; intros H; try exact H;
    match type of H with
    | ex _ => destruct H as [e' [-> <-]]; reflexivity
    | _ = _ => subst y; eexists; split; reflexivity
    end.
Qed.
Lemma rmap_rel_eq m m' : rmap_rel eq m m' -> m' = m.
Proof.
  induction 1 as [|[r x] [r' x'] m m' [Hf Hr] _ IH]; [reflexivity|].
  cbn [fst snd] in Hf, Hr. apply rule_rel_eq in Hr. subst. reflexivity.
Qed.
Lemma content_rel_eq x y : content_rel eq x y -> y = x.
Proof.
  destruct x as [[c n] m], y as [[c' n'] m']. unfold content_rel. cbn [fst snd]. intros [Hc [Hn Hm]].
  apply cfa_rel_eq in Hc. apply rmap_rel_eq in Hm. subst. reflexivity.
Qed.

Lemma unw_rel_trans_eq R x y z : unw_rel R x y -> unw_rel eq z y -> unw_rel R x z.
Proof.
  destruct x as [x|], y as [y|], z as [z|]; cbn [unw_rel]; try tauto.
  intros H1 H2. apply content_rel_eq in H2. subst y. exact H1.
Qed.

(* ------------------------------------------------------------------ a decoded instruction means its [sem] *)

Definition adv_fits (caf : N) (d : dinsn) : Prop :=
  match d with DAdvance x => x * caf < 2 ^ 64 | _ => True end.

Lemma rule_rel_eq_refl x : rule_rel eq x x.
Proof. apply rule_rel_eq. reflexivity. Qed.

Lemma sem_means plc p d : adv_fits (sp_caf p) d ->
  means eq plc p (rd_of_dinsn plc d) (sem (sp_caf p) (sp_daf p) d).
Proof.
  intros Hadv. destruct d; cbn [sem rd_of_dinsn means den_cfi adv_fits] in *;
    try (apply insn_same_sem; cbn [insn_same]; try reflexivity; eexists; split; reflexivity).
  - exists delta. auto.
  - apply sem_set_rule with (r := r) (x := ROffset (wrap_i64 (Z.of_N fo * sp_daf p))); [apply rule_rel_eq_refl| |];
      intros; cbn [spec_step]; [|rewrite factored_unit]; reflexivity.
  - reflexivity.
  - apply sem_set_cfa with (r := r) (z := wrap_i64 (Z.of_N o)); intros; cbn [spec_step]; [|rewrite factored_unit]; reflexivity.
  - apply sem_set_cfa_offset with (z := wrap_i64 (Z.of_N o)); intros; cbn [spec_step]; [|rewrite factored_unit]; reflexivity.
  - apply sem_set_rule with (r := r) (x := ROffset (wrap_i64 (fo * sp_daf p))); [apply rule_rel_eq_refl| |];
      intros; cbn [spec_step]; [|rewrite factored_unit]; reflexivity.
  - apply sem_set_cfa with (r := r) (z := wrap_i64 (fo * sp_daf p)); intros; cbn [spec_step]; [|rewrite factored_unit]; reflexivity.
  - apply sem_set_cfa_offset with (z := wrap_i64 (fo * sp_daf p)); intros; cbn [spec_step]; [|rewrite factored_unit]; reflexivity.
  - apply sem_set_rule with (r := r) (x := RValOffset (wrap_i64 (Z.of_N fo * sp_daf p))); [apply rule_rel_eq_refl| |];
      intros; cbn [spec_step]; [|rewrite factored_unit]; reflexivity.
  - apply sem_set_rule with (r := r) (x := RValOffset (wrap_i64 (fo * sp_daf p))); [apply rule_rel_eq_refl| |];
      intros; cbn [spec_step]; [|rewrite factored_unit]; reflexivity.
Qed.

Lemma sem_means_all plc p ds : Forall (adv_fits (sp_caf p)) ds ->
  Forall2 (means eq plc p) (map (rd_of_dinsn plc) ds) (map (sem (sp_caf p) (sp_daf p)) ds).
Proof. induction 1; cbn [map]; constructor; [apply sem_means; assumption|assumption]. Qed.

Lemma insns_of_minsn l : insns_of (map MInsn l) = l.
Proof. induction l as [|c l IH]; [reflexivity|]. unfold insns_of in *. cbn [map flat_map app]. rewrite IH. reflexivity. Qed.

(* ------------------------------------------------------------------ source table = table read back *)

Lemma cfi_convert_readback_sound_lemma (p : sparams) (xconv : uexpr -> res (list byte)) (plc : list byte -> uexpr)
      (cie fde : list item) (cl : list cfi) (fl : list (N * cfi)) (init end_ : N) (rows rows2 : list srow)
      (dsc dsf : list dinsn) :
  sp_asize p <= 8 ->
  conv_cie (sp_caf p) (sp_daf p) xconv cie = Ok cl ->
  conv_fde (sp_caf p) (sp_daf p) xconv fde = Ok fl ->
  run_spec p init end_ cie fde = (rows, Done) ->
  (* what C14 proves about the bytes written for cl and fl *)
  map (sem (sp_caf p) (sp_daf p)) dsc = map MInsn cl ->
  locate 0 (map (sem (sp_caf p) (sp_daf p)) dsf) = fl ->
  Forall (adv_fits (sp_caf p)) dsc -> Forall (adv_fits (sp_caf p)) dsf ->
  (* reading them back under the same factors *)
  run_spec p init end_ (map It (map (rd_of_dinsn plc) dsc)) (map It (map (rd_of_dinsn plc) dsf)) = (rows2, Done) ->
  forall a, init <= a -> a < end_ ->
    unw_rel (conv_R xconv plc) (content_at rows a) (content_at rows2 a).
Proof.
  intros Hasz Hc Hf Hrun Hdc Hdf Hac Haf Hrun2 a Ha He.
  destruct (cfi_insn_convert_sound_lemma p xconv plc cie fde cl fl init end_ rows Hasz Hc Hf Hrun) as [rows' [Hr' Hcov]].
  destruct (table_of_means eq plc p _ _ _ _ init end_ rows2 Hasz (sem_means_all plc p dsc Hac) (sem_means_all plc p dsf Haf) Hrun2)
    as [rows2' [Hr2' Hcov2]].
  rewrite Hdc, insns_of_minsn, Hdf in Hr2'. unfold converted_rows in Hr'. rewrite Hr' in Hr2'.
  inversion Hr2'; subst rows2'.
  eapply unw_rel_trans_eq; [apply Hcov; assumption|apply Hcov2; assumption].
Qed.

(* ------------------------------------------------------------------ the whole chain: convert, write, decode, run *)

(* registers are u16 in the reader's instruction type *)
Definition insn_typed (i : insn) : bool :=
  match i with
  | IDefCfa r _ | IDefCfaSf r _ | IDefCfaRegister r | IUndefined r | ISameValue r
  | IOffset r _ | IOffsetExtendedSf r _ | IValOffset r _ | IValOffsetSf r _
  | IExpression r _ | IValExpression r _ | IRestore r => r <? 65536
  | IRegister d s => (d <? 65536) && (s <? 65536)
  | _ => true
  end.
Definition item_typed (x : item) : bool := match x with It i => insn_typed i | _ => true end.

Lemma in_signed_is_i32 z : in_signed 32 z = true -> is_i32 z = true.
Proof. unfold in_signed, is_i32. change (2 ^ (32 - 1)) with 2147483648. lia. Qed.

Lemma conv_step_wf caf daf xconv o i o' c :
  (forall e b, xconv e = Ok b -> is_blob b = true) ->
  insn_typed i = true ->
  conv_step caf daf xconv o i = Ok (o', Some c) -> cfi_wf c = true.
Proof.
  intros Hx Ht H.
  destruct i; cbn [conv_step] in H; try discriminate;
    try (apply bind_ok in H; destruct H as [v [Hv H]]);
    inversion H; subst; clear H; cbn [cfi_wf insn_typed] in *; unfold is_u16;
    try (apply convert_offset_ok in Hv; destruct Hv as [_ Hv]; apply in_signed_is_i32 in Hv);
    try (apply convert_factored_offset_ok in Hv; destruct Hv as [_ [_ Hv]]; apply in_signed_is_i32 in Hv);
    try (apply convert_unsigned_factored_offset_ok in Hv; destruct Hv as [_ [_ Hv]]; apply in_signed_is_i32 in Hv);
    try (apply Hx in Hv);
    try (apply convert_args_size_ok in Hv; destruct Hv as [-> Hv]; unfold is_u32);
    try reflexivity; try (rewrite ?Ht, ?Hv; reflexivity); try assumption; try lia.
Qed.

Lemma conv_cie_from_wf caf daf xconv :
  (forall e b, xconv e = Ok b -> is_blob b = true) ->
  forall items o l, forallb item_typed items = true ->
  conv_cie_from caf daf xconv o items = Ok l -> forallb cfi_wf l = true.
Proof.
  intros Hx. induction items as [|it items IH]; intros o l Ht H.
  - cbn in H. inversion H. reflexivity.
  - cbn [forallb] in Ht. apply andb_true_iff in Ht. destruct Ht as [Ht1 Ht2].
    destruct it as [i|e| |]; cbn [conv_cie_from] in H; try discriminate.
    apply bind_ok in H. destruct H as [[o1 c] [Hstep H]].
    apply bind_ok in H. destruct H as [l1 [Hl1 H]]. inversion H; subst l; clear H.
    specialize (IH o1 l1 Ht2 Hl1). destruct c as [x|]; [|exact IH].
    cbn [forallb]. rewrite IH. rewrite (conv_step_wf _ _ _ _ _ _ _ Hx Ht1 Hstep). reflexivity.
Qed.

Lemma conv_step_offset caf daf xconv o i o' c :
  o < 2 ^ 32 -> conv_step caf daf xconv o i = Ok (o', c) -> o' < 2 ^ 32.
Proof.
  intros Ho H. destruct i; cbn [conv_step] in H; try discriminate;
    try (apply bind_ok in H; destruct H as [v [Hv H]]); inversion H; subst; try exact Ho.
  apply convert_advance_ok in Hv. lia.
Qed.

Lemma conv_fde_from_wf caf daf xconv :
  (forall e b, xconv e = Ok b -> is_blob b = true) ->
  forall items o l, forallb item_typed items = true -> o < 2 ^ 32 ->
  conv_fde_from caf daf xconv o items = Ok l -> forallb fde_insn_wf l = true.
Proof.
  intros Hx. induction items as [|it items IH]; intros o l Ht Ho H.
  - cbn in H. inversion H. reflexivity.
  - cbn [forallb] in Ht. apply andb_true_iff in Ht. destruct Ht as [Ht1 Ht2].
    destruct it as [i|e| |]; cbn [conv_fde_from] in H; try discriminate.
    apply bind_ok in H. destruct H as [[o1 c] [Hstep H]].
    apply bind_ok in H. destruct H as [l1 [Hl1 H]]. inversion H; subst l; clear H.
    pose proof (conv_step_offset _ _ _ _ _ _ _ Ho Hstep) as Ho1.
    specialize (IH o1 l1 Ht2 Ho1 Hl1). destruct c as [x|]; [|exact IH].
    cbn [forallb]. rewrite IH. unfold fde_insn_wf. cbn [fst snd].
    rewrite (conv_step_wf _ _ _ _ _ _ _ Hx Ht1 Hstep). unfold is_u32.
    change 4294967296 with (2 ^ 32). replace (o1 <? 2 ^ 32) with true by lia. reflexivity.
Qed.

Lemma le_num_lt bs : le_num bs < 256 ^ N.of_nat (length bs).
Proof.
  induction bs as [|b bs IH]; [cbn; lia|]. cbn [le_num length]. rewrite Nat2N.inj_succ, N.pow_succ_r'.
  pose proof (b2n_lt b). lia.
Qed.

Lemma fixed_lt n be bs v r : fixed n be bs = Some (v, r) -> v < 256 ^ N.of_nat n.
Proof.
  unfold fixed. destruct (length bs <? n)%nat eqn:E; [discriminate|]. intros H; inversion H; subst.
  assert (L : length (firstn n bs) = n) by (apply firstn_length_le; apply Nat.ltb_ge in E; lia).
  unfold num. destruct be.
  - pose proof (le_num_lt (rev (firstn n bs))) as B. rewrite rev_length, L in B. exact B.
  - pose proof (le_num_lt (firstn n bs)) as B. rewrite L in B. exact B.
Qed.

(* decoded advances are at most 32 bits wide *)
Lemma decode1_adv be bs x r : decode1 be bs = Some (DAdvance x, r) -> x < 2 ^ 32.
Proof.
  unfold decode1. destruct bs as [|b t]; [discriminate|].
  assert (P32 : 2 ^ 32 = 4294967296) by reflexivity.
  repeat match goal with
         | |- context [if ?c then _ else _] => destruct c eqn:?
         end;
    unfold omap;
    repeat match goal with
           | |- context [match ?o with Some _ => _ | None => _ end] =>
               let E := fresh "E" in destruct o as [[? ?]|] eqn:E
           end; intros H; try discriminate; inversion H; subst; clear H.
  - pose proof (N.mod_lt (b2n b) 64). lia.
  - apply fixed_lt in E. change (256 ^ N.of_nat 1) with 256 in E. lia.
  - apply fixed_lt in E. change (256 ^ N.of_nat 2) with 65536 in E. lia.
  - apply fixed_lt in E. change (256 ^ N.of_nat 4) with 4294967296 in E. lia.
Qed.

Lemma decode_fuel_adv be caf : caf < 256 -> forall fuel bs ds, decode_fuel fuel be bs = Some ds -> Forall (adv_fits caf) ds.
Proof.
  intros Hc. induction fuel as [|f IH]; intros bs ds H.
  - destruct bs; [inversion H; constructor|discriminate].
  - destruct bs as [|b t]; [inversion H; constructor|]. cbn [decode_fuel] in H.
    destruct (decode1 be (b :: t)) as [[d r]|] eqn:E1; [|discriminate].
    destruct (decode_fuel f be r) as [ds1|] eqn:E2; [|discriminate]. inversion H; subst.
    constructor; [|eapply IH; eauto].
    destruct d; cbn [adv_fits]; auto. apply decode1_adv in E1.
    assert (2 ^ 32 * 256 < 2 ^ 64) by (vm_compute; reflexivity). nia.
Qed.

(* ------------------------------------------------------------------ normal form: a second conversion *)

(* converting what is read back from a written (converted) table reproduces the write-side programs.
   xconv2 = the second expression conversion; on the place of a written expression it has to give back the
   written expression (normal form of expressions). *)

Lemma is_i32_in_signed z : is_i32 z = true -> in_signed 32 z = true.
Proof. unfold in_signed, is_i32. change (2 ^ (32 - 1)) with 2147483648. lia. Qed.

(* the checked conversions succeed on what fits the writer's i32 *)
Lemma convert_offset_i32 n : is_i32 (Z.of_N n) = true -> convert_offset n = Ok (Z.of_N n).
Proof. intros H. unfold convert_offset. rewrite (is_i32_in_signed _ H). reflexivity. Qed.

Lemma convert_factored_offset_i32 f daf : is_i32 (f * daf) = true -> convert_factored_offset f daf = Ok (f * daf)%Z.
Proof.
  intros H. apply is_i32_in_signed in H. unfold convert_factored_offset. rewrite (in_signed_32_64 _ H), H. reflexivity.
Qed.

Lemma convert_unsigned_factored_offset_i32 fo daf : daf <> 0%Z -> is_i32 (Z.of_N fo * daf) = true ->
  convert_unsigned_factored_offset fo daf = Ok (Z.of_N fo * daf)%Z.
Proof.
  intros Hd H. unfold convert_unsigned_factored_offset.
  assert (H64 : in_signed 64 (Z.of_N fo) = true).
  { unfold is_i32 in H. unfold in_signed. change (2 ^ (64 - 1)) with 9223372036854775808. nia. }
  rewrite H64. apply convert_factored_offset_i32, H.
Qed.

Lemma conv_step_rd caf daf xconv2 plc o d c :
  daf <> 0%Z -> (forall b, xconv2 (plc b) = Ok b) ->
  sem caf daf d = MInsn c -> cfi_wf c = true ->
  conv_step caf daf xconv2 o (rd_of_dinsn plc d) = Ok (o, Some c).
Proof.
  intros Hd Hx Hs Hw.
  destruct d; cbn [sem] in Hs; try discriminate; inversion Hs; subst c; clear Hs;
    cbn [rd_of_dinsn conv_step cfi_wf] in *; rewrite ?Hx; cbn [bind]; try reflexivity;
    try match type of Hw with (is_u16 _ && _) = true => apply andb_true_iff in Hw; destruct Hw as [_ Hw] end;
    try rewrite (convert_offset_i32 _ Hw); try rewrite (convert_factored_offset_i32 _ _ Hw);
    try rewrite (convert_unsigned_factored_offset_i32 _ _ Hd Hw); try reflexivity.
  (* args_size *)
  unfold convert_args_size. unfold is_u32 in Hw. change (2 ^ 32) with 4294967296. rewrite Hw. reflexivity.
Qed.

(* total location advance of a decoded program, in bytes *)
Fixpoint adv_sum (caf : N) (ds : list dinsn) : N :=
  match ds with
  | [] => 0
  | DAdvance x :: r => x * caf + adv_sum caf r
  | _ :: r => adv_sum caf r
  end.

Definition dinsn_wf (caf : N) (daf : Z) (d : dinsn) : bool :=
  match sem caf daf d with MInsn c => cfi_wf c | _ => true end.

Lemma fde_normal_form_lemma caf daf xconv2 plc : daf <> 0%Z -> caf < 2 ^ 32 -> (forall b, xconv2 (plc b) = Ok b) ->
  forall ds o, forallb (dinsn_wf caf daf) ds = true -> o + adv_sum caf ds < 2 ^ 32 ->
  conv_fde_from caf daf xconv2 o (map It (map (rd_of_dinsn plc) ds)) = Ok (locate o (map (sem caf daf) ds)).
Proof.
  intros Hd Hc Hx. induction ds as [|d ds IH]; intros o Hw Hs; [reflexivity|].
  cbn [forallb] in Hw. apply andb_true_iff in Hw. destruct Hw as [Hwd Hwl].
  cbn [map conv_fde_from]. unfold dinsn_wf in Hwd.
  destruct (sem caf daf d) as [c|b|] eqn:Es.
  - rewrite (conv_step_rd caf daf xconv2 plc o d c Hd Hx Es Hwd). cbn [bind locate].
    assert (adv_sum caf (d :: ds) = adv_sum caf ds) by (destruct d; cbn [sem] in Es; try discriminate; reflexivity).
    rewrite IH; [reflexivity|exact Hwl|lia].
  - destruct d; cbn [sem] in Es; try discriminate. inversion Es; subst b.
    cbn [rd_of_dinsn conv_step adv_sum] in *. unfold convert_advance.
    replace (caf <? 2 ^ 32) with true by lia.
    replace (delta * caf <? 2 ^ 32) with true by lia. replace (o + delta * caf <? 2 ^ 32) with true by lia.
    cbn [bind locate]. rewrite IH; [reflexivity|exact Hwl|lia].
  - destruct d; cbn [sem] in Es; try discriminate. cbn [rd_of_dinsn conv_step bind locate adv_sum] in *.
    rewrite IH; [reflexivity|exact Hwl|exact Hs].
Qed.
