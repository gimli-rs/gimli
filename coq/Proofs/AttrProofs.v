(* Proofs/AttrProofs.v — Model/Attr.v (C03). parse_direct_known ties the chain of form tests in
   parse_attribute, once, to the form table of Spec/FormSpec.v: the data is read as form_layout says and
   valued as form_value says. Sizes, skipping, ranges and round trips are then facts about layouts. *)
From Coq Require Import List NArith ZArith Bool Lia ZifyBool ZifyN ZifyNat.
From Coq.Strings Require Import Byte.
Require Import GV.Base.Res GV.Base.Byt GV.Base.Ints GV.Model.Leb GV.Model.Prim
               GV.Spec.LebSpec GV.Spec.FormSpec GV.Model.Attr GV.Proofs.LebProofs GV.Proofs.PrimProofs.
Import ListNotations.
Local Open Scope N_scope.

Lemma read_un_length n bigend bs v r :
  read_un n bigend bs = Ok (v, r) -> length bs = (n + length r)%nat.
Proof. intros H. apply read_un_value_lt in H. apply H. Qed.

Lemma read_un_not_panic n bigend bs : read_un n bigend bs <> Panic /\ read_un n bigend bs <> OutOfFuel.
Proof. rewrite read_un_exact. destruct (length bs <? n)%nat; split; discriminate. Qed.

Lemma split_n_spec : forall bs n h t, split_n n bs = Ok (h, t) -> bs = h ++ t /\ N.of_nat (length h) = n.
Proof.
  induction bs as [|b r IH]; intros n h t H; cbn in H.
  - destruct (N.eqb_spec n 0); inversion H; subst; auto.
  - destruct (N.eqb_spec n 0).
    + inversion H; subst; auto.
    + destruct (split_n (N.pred n) r) as [[h' t']| | |] eqn:E; cbn in H; inversion H; subst.
      apply IH in E. destruct E as [-> E]. split; [reflexivity|]. cbn [length]. lia.
Qed.

Lemma split_n_app : forall h t, split_n (N.of_nat (length h)) (h ++ t) = Ok (h, t).
Proof.
  induction h as [|b h IH]; intros t.
  - cbn. destruct t; reflexivity.
  - cbn [length app split_n]. destruct (N.eqb_spec (N.of_nat (S (length h))) 0); [lia|].
    replace (N.pred (N.of_nat (S (length h)))) with (N.of_nat (length h)) by lia.
    rewrite IH. reflexivity.
Qed.

Lemma split_n_res : forall bs n, split_n n bs <> Panic /\ split_n n bs <> OutOfFuel.
Proof.
  induction bs as [|b r IH]; intros n; cbn; destruct (n =? 0); try (split; discriminate).
  apply returns_bind; [apply IH|]. intros [h t] _. apply returns_ok.
Qed.

Lemma skip_n_spec bs n t : skip_n n bs = Ok t -> exists h, bs = h ++ t /\ N.of_nat (length h) = n.
Proof.
  unfold skip_n. destruct (split_n n bs) as [[h t']| | |] eqn:E; cbn; intros H; inversion H; subst.
  apply split_n_spec in E. destruct E; eauto.
Qed.

Lemma skip_n_app h t : skip_n (N.of_nat (length h)) (h ++ t) = Ok t.
Proof. unfold skip_n. rewrite split_n_app. reflexivity. Qed.

Lemma skip_leb_ok bs r : skip_leb bs = Ok (tt, r) -> exists e, bs = e ++ r /\ (1 <= length e)%nat.
Proof.
  rewrite skip_leb_exact. destruct (split_leb bs) as [[e x]|] eqn:E; [|discriminate].
  intros H; injection H as <-. exists e. split; [eapply split_leb_app|eapply split_leb_nonempty]; exact E.
Qed.

Lemma skip_leb_shrinks bs r : skip_leb bs = Ok (tt, r) -> (length r < length bs)%nat.
Proof. intros H. apply skip_leb_ok in H. destruct H as (e & -> & L). rewrite app_length. lia. Qed.

Lemma read_uleb128_skip dbg bs v r : read_uleb128 dbg bs = Ok (v, r) -> skip_leb bs = Ok (tt, r).
Proof.
  intros H. apply read_uleb128_ok in H. destruct H as (e & E & _). rewrite skip_leb_exact, E. reflexivity.
Qed.

Lemma read_sleb128_skip dbg bs v r : read_sleb128 dbg bs = Ok (v, r) -> skip_leb bs = Ok (tt, r).
Proof.
  intros H. apply read_sleb128_ok in H. destruct H as (e & E & _). rewrite skip_leb_exact, E. reflexivity.
Qed.

Lemma read_u16leb_shrinks bs v r : read_uleb128_u16 bs = Ok (v, r) -> (length r < length bs)%nat.
Proof.
  intros H. apply read_uleb128_u16_ok in H. destruct H as (e & E & _).
  rewrite (split_leb_app _ _ _ E), app_length. pose proof (split_leb_nonempty _ _ _ E). lia.
Qed.

Lemma enc_uleb_cons v : exists b r, enc_uleb v = b :: r.
Proof.
  unfold enc_uleb.
  change (enc_uleb_fuel 19 v)
    with (if v <? 128 then [n2b v] else n2b (128 + v mod 128) :: enc_uleb_fuel 18 (v / 128)).
  destruct (v <? 128); eauto.
Qed.

Lemma enc_uleb_length v : (1 <= length (enc_uleb v))%nat.
Proof. destruct (enc_uleb_cons v) as (b & r & E). rewrite E. cbn. lia. Qed.

Lemma has_cont_01 : has_cont 0 = false /\ has_cont 1 = false /\ has_cont 127 = false.
Proof. repeat split; reflexivity. Qed.

Definition known_codes : list N := map form_code all_forms.

Lemma form_of_code_some c f : form_of_code c = Some f -> c = form_code f.
Proof.
  unfold form_of_code. intros H. apply find_some in H. destruct H as [_ H].
  apply N.eqb_eq in H. auto.
Qed.

Lemma form_of_code_code f : form_of_code (form_code f) = Some f.
Proof. destruct f; reflexivity. Qed.

Lemma form_of_code_none c : form_of_code c = None ->
  forall k, existsb (N.eqb k) known_codes = true -> (c =? k) = false.
Proof.
  unfold form_of_code. intros H k Hk.
  apply existsb_exists in Hk. destruct Hk as (k' & Hin & Hk'). apply N.eqb_eq in Hk'. subst k'.
  unfold known_codes in Hin. apply in_map_iff in Hin. destruct Hin as (f & <- & Hf).
  rewrite N.eqb_sym. eapply find_none in H; eauto.
Qed.

Lemma code_lt_u16 f : form_code f < 65536.
Proof. destruct f; reflexivity. Qed.

Lemma get_attribute_size_known f e :
  get_attribute_size (form_code f) e = layout_fixed_size (form_layout f e).
Proof. destruct f; reflexivity. Qed.

Lemma get_attribute_size_unknown c e : form_of_code c = None -> get_attribute_size c e = None.
Proof.
  intros Hn. unfold get_attribute_size.
  rewrite !(form_of_code_none c Hn) by reflexivity. reflexivity.
Qed.

Lemma allow_section_offset_spec name ver : allow_section_offset name ver = legacy_section_offset name ver.
Proof.
  unfold allow_section_offset, legacy_section_offset, legacy_pointer_names.
  cbn [existsb].
  unfold DW_AT_location, DW_AT_stmt_list, DW_AT_string_length, DW_AT_return_addr, DW_AT_start_scope,
    DW_AT_frame_base, DW_AT_macro_info, DW_AT_macros, DW_AT_segment, DW_AT_static_link, DW_AT_use_location,
    DW_AT_vtable_elem_location, DW_AT_ranges, DW_AT_data_member_location.
  repeat match goal with |- context [N.eqb name ?k] => destruct (N.eqb_spec name k); [subst; reflexivity|] end.
  reflexivity.
Qed.

Definition read_prefix (dbg bigend : bool) (p : prefix_kind) (bs : list byte) : res (N * list byte) :=
  match p with
  | P1 => read_u8 bs
  | P2 => read_u16 bigend bs
  | P4 => read_u32 bigend bs
  | PUleb => read_uleb128 dbg bs
  end.

(* the data of one attribute, read as its layout says *)
Definition read_layout (dbg bigend : bool) (l : layout) (bs : list byte) : res (raw * list byte) :=
  match l with
  | LFixed n => let* (v, r) := read_un (N.to_nat n) bigend bs in Ok (RNum v, r)
  | LUleb => let* (v, r) := read_uleb128 dbg bs in Ok (RNum v, r)
  | LSleb => let* (z, r) := read_sleb128 dbg bs in Ok (RInt z, r)
  | LBlock p => let* (b, r) := read_block (read_prefix dbg bigend p bs) in Ok (RBytes b, r)
  | LCstring => let* (s, r) := read_cstr bs in Ok (RBytes s, r)
  | LNone => Ok (RNone, bs)
  | LIndirect => Err EUnknownForm
  end.

Definition valid_size (n : N) : bool := (n =? 1) || (n =? 2) || (n =? 4) || (n =? 8).

(* conditions under which a known form is refused before any byte is read *)
Definition form_guard (e : enc) (spec : aspec) (f : form) : option error :=
  match f with
  | F_addr => if valid_size (address_size e) then None else Some EUnsupportedAddressSize
  | F_ref_addr =>
      if (version e =? 2) && negb (valid_size (address_size e)) then Some EUnsupportedOffsetSize else None
  | F_implicit_const => if at_form spec =? DW_FORM_implicit_const then None else Some EInvalidImplicitConst
  | _ => None
  end.

Definition decode_by_layout (dbg : bool) (e : enc) (spec : aspec) (f : form) (bs : list byte)
  : res (attr_value * list byte) :=
  match form_guard e spec f with
  | Some err => Err err
  | None =>
      let* (data, r) := read_layout dbg (be e) (form_layout f e) bs in
      match form_value e (at_name spec) (at_implicit spec) f data with
      | Some v => Ok (v, r)
      | None => Err EOther
      end
  end.

Lemma read_u8_un bigend bs : read_u8 bs = read_un 1 bigend bs.
Proof.
  destruct bs as [|b r]; [reflexivity|]. unfold read_un, read_bytes, be_val. cbn.
  destruct bigend; f_equal; f_equal; lia.
Qed.

Lemma read_word_un f64 bigend bs :
  read_word f64 bigend bs = read_un (N.to_nat (if f64 then 8 else 4)) bigend bs.
Proof. destruct f64; reflexivity. Qed.

Ltac unfold_forms :=
  unfold DW_FORM_addr, DW_FORM_block2, DW_FORM_block4, DW_FORM_data2, DW_FORM_data4, DW_FORM_data8,
    DW_FORM_string, DW_FORM_block, DW_FORM_block1, DW_FORM_data1, DW_FORM_flag, DW_FORM_sdata,
    DW_FORM_strp, DW_FORM_udata, DW_FORM_ref_addr, DW_FORM_ref1, DW_FORM_ref2, DW_FORM_ref4,
    DW_FORM_ref8, DW_FORM_ref_udata, DW_FORM_indirect, DW_FORM_sec_offset, DW_FORM_exprloc,
    DW_FORM_flag_present, DW_FORM_strx, DW_FORM_addrx, DW_FORM_ref_sup4, DW_FORM_strp_sup,
    DW_FORM_data16, DW_FORM_line_strp, DW_FORM_ref_sig8, DW_FORM_implicit_const, DW_FORM_loclistx,
    DW_FORM_rnglistx, DW_FORM_ref_sup8, DW_FORM_strx1, DW_FORM_strx2, DW_FORM_strx3, DW_FORM_strx4,
    DW_FORM_addrx1, DW_FORM_addrx2, DW_FORM_addrx3, DW_FORM_addrx4, DW_FORM_GNU_addr_index,
    DW_FORM_GNU_str_index, DW_FORM_GNU_ref_alt, DW_FORM_GNU_strp_alt in *.

Ltac to_nat_lits :=
  change (N.to_nat 0) with 0%nat in *; change (N.to_nat 1) with 1%nat in *;
  change (N.to_nat 2) with 2%nat in *; change (N.to_nat 3) with 3%nat in *;
  change (N.to_nat 4) with 4%nat in *; change (N.to_nat 8) with 8%nat in *;
  change (N.to_nat 16) with 16%nat in *.

(* parse_attribute's arm for a known form other than DW_FORM_indirect is: guard, then the form's layout,
   then the form's value. First the three forms that have a guard. *)
Lemma parse_direct_addr dbg e spec bs :
  parse_direct dbg e spec (form_code F_addr) bs = decode_by_layout dbg e spec F_addr bs.
Proof.
  unfold decode_by_layout, parse_direct. cbn [form_code form_guard form_layout read_layout N.eqb Pos.eqb DW_FORM_addr].
  rewrite read_address_exact. change (PrimSpec.size_ok (address_size e)) with (valid_size (address_size e)).
  destruct (valid_size (address_size e)); [|reflexivity].
  destruct (read_un (N.to_nat (address_size e)) (be e) bs) as [[? ?]| | |]; reflexivity.
Qed.

(* DWARF 2: address sized; later: offset sized *)
Lemma parse_direct_ref_addr dbg e spec bs :
  parse_direct dbg e spec (form_code F_ref_addr) bs = decode_by_layout dbg e spec F_ref_addr bs.
Proof.
  unfold decode_by_layout, parse_direct. unfold_forms.
  cbn [form_code form_guard form_layout read_layout N.eqb Pos.eqb].
  destruct (version e =? 2); cbn [andb].
  - rewrite read_sized_offset_exact. change (PrimSpec.size_ok (address_size e)) with (valid_size (address_size e)).
    destruct (valid_size (address_size e)); [|reflexivity].
    destruct (read_un (N.to_nat (address_size e)) (be e) bs) as [[? ?]| | |]; reflexivity.
  - unfold read_offset, read_word, word_bytes. destruct (fmt64 e); to_nat_lits;
      match goal with |- context [bind ?r _] => destruct r as [[? ?]| | |] end; reflexivity.
Qed.

Lemma parse_direct_implicit_const dbg e spec bs :
  parse_direct dbg e spec (form_code F_implicit_const) bs = decode_by_layout dbg e spec F_implicit_const bs.
Proof.
  unfold decode_by_layout, parse_direct, implicit_const_value.
  cbn [form_code form_guard form_layout read_layout]. unfold_forms. cbn [N.eqb Pos.eqb orb].
  destruct (at_form spec =? 33); reflexivity.
Qed.

(* and the form that reads nothing *)
Lemma parse_direct_flag_present dbg e spec bs :
  parse_direct dbg e spec (form_code F_flag_present) bs = decode_by_layout dbg e spec F_flag_present bs.
Proof. reflexivity. Qed.

Lemma parse_direct_known dbg e spec f bs : f <> F_indirect ->
  parse_direct dbg e spec (form_code f) bs = decode_by_layout dbg e spec f bs.
Proof.
  intros Hni. destruct f; try congruence; clear Hni.
  all: try apply parse_direct_addr; try apply parse_direct_ref_addr; try apply parse_direct_implicit_const;
    try apply parse_direct_flag_present.
  (* Every other form has no guard. Expose its arm of parse_direct and its rows of the specification tables:
     each side makes the same single call of a reader (read_un, a LEB128 reader, read_block, read_cstr) ... *)
  all: unfold decode_by_layout; destruct e as [ver f64 asz bigend];
    cbn [form_guard form_layout read_layout read_prefix form_code form_value
         version fmt64 address_size be word_bytes];
    unfold parse_direct; unfold_forms;
    cbn [N.eqb Pos.eqb orb andb version fmt64 address_size be];
    unfold read_u16, read_u32, read_u64, read_u128, read_offset, read_word, read_uint, read_block, word_bytes;
    cbn [version fmt64 address_size be Nat.ltb Nat.leb];
    rewrite ?allow_section_offset_spec; rewrite ?(read_u8_un bigend).
  (* ... up to the offset size (f64) and, for data4 / data8, the test for a legacy section offset. Once these are
     decided and the result of the call is named, both sides compute. *)
  all: destruct f64; to_nat_lits;
    repeat match goal with |- context [if ?c then _ else _] => destruct c eqn:? end;
    repeat match goal with
           | |- context [bind ?r _] =>
               match r with
               | bind _ _ => fail 1
               | _ => destruct r as [[? ?]| | |] eqn:?; cbn [bind]
               end
           end;
    reflexivity.
Qed.

Lemma parse_direct_unknown dbg e spec c bs : form_of_code c = None ->
  parse_direct dbg e spec c bs = Err EUnknownForm.
Proof.
  intros Hn. unfold parse_direct. rewrite !(form_of_code_none c Hn) by reflexivity. reflexivity.
Qed.

Lemma parse_form_direct fuel dbg e spec c bs : c <> DW_FORM_indirect ->
  parse_form fuel dbg e spec c bs = parse_direct dbg e spec c bs.
Proof.
  intros H. destruct fuel; cbn [parse_form]; destruct (N.eqb_spec c DW_FORM_indirect); congruence.
Qed.

Lemma parse_form_indirect fuel dbg e spec bs :
  parse_form (S fuel) dbg e spec DW_FORM_indirect bs =
  let* (c, r) := read_uleb128_u16 bs in parse_form fuel dbg e spec c r.
Proof. reflexivity. Qed.

(* any two amounts of fuel above the input length give the same answer *)
Lemma parse_form_fuel : forall f1 f2 dbg e spec c bs,
  (length bs < f1)%nat -> (length bs < f2)%nat ->
  parse_form f1 dbg e spec c bs = parse_form f2 dbg e spec c bs.
Proof.
  induction f1 as [|f1 IH]; intros f2 dbg e spec c bs L1 L2; [lia|].
  destruct f2 as [|f2]; [lia|].
  destruct (N.eq_dec c DW_FORM_indirect) as [->|Hc].
  - rewrite !parse_form_indirect.
    destruct (read_uleb128_u16 bs) as [[c' r]| | |] eqn:R; cbn [bind]; try reflexivity.
    apply read_u16leb_shrinks in R. apply IH; lia.
  - rewrite !parse_form_direct by assumption. reflexivity.
Qed.

(* parse_form looks at the specification only through its name and implicit constant *)
Lemma parse_form_spec_irrelevant : forall fuel dbg e s1 s2 c bs,
  at_name s1 = at_name s2 -> implicit_const_value s1 = implicit_const_value s2 ->
  parse_form fuel dbg e s1 c bs = parse_form fuel dbg e s2 c bs.
Proof.
  induction fuel as [|fuel IH]; intros dbg e s1 s2 c bs Hn Hi; cbn [parse_form].
  - destruct (c =? DW_FORM_indirect); [reflexivity|]. unfold parse_direct. rewrite Hn, Hi. reflexivity.
  - destruct (c =? DW_FORM_indirect).
    + destruct (read_uleb128_u16 bs) as [[c' r']| | |]; cbn [bind]; try reflexivity. apply IH; assumption.
    + unfold parse_direct. rewrite Hn, Hi. reflexivity.
Qed.

Lemma form_code_indirect f : form_code f = DW_FORM_indirect -> f = F_indirect.
Proof. destruct f; intros H; try reflexivity; discriminate H. Qed.

Lemma parse_direct_indirect dbg e spec bs : parse_direct dbg e spec DW_FORM_indirect bs = Err EUnknownForm.
Proof. reflexivity. Qed.

(* the direct arms of parse_attribute are the form table of the specification *)
Lemma parse_direct_spec dbg e spec c bs : c <> DW_FORM_indirect ->
  parse_direct dbg e spec c bs =
  match form_of_code c with Some f => decode_by_layout dbg e spec f bs | None => Err EUnknownForm end.
Proof.
  intros H. destruct (form_of_code c) as [f|] eqn:E.
  - apply form_of_code_some in E. subst c. apply parse_direct_known. intros ->. apply H. reflexivity.
  - apply parse_direct_unknown. assumption.
Qed.

Lemma read_prefix_res dbg bigend p bs : returns (read_prefix dbg bigend p bs).
Proof.
  destruct p; cbn [read_prefix]; rewrite ?(read_u8_un bigend);
    [apply read_un_not_panic..|apply read_uleb128_total].
Qed.

Lemma read_layout_res dbg bigend l bs : returns (read_layout dbg bigend l bs).
Proof.
  destruct l as [n| | |p| | |]; cbn [read_layout]; try (split; discriminate);
    apply returns_bind; try (intros [v r] _; apply returns_ok).
  - apply read_un_not_panic.
  - apply read_uleb128_total.
  - apply read_sleb128_total.
  - apply returns_bind; [apply read_prefix_res|]. intros [len t] _. apply split_n_res.
  - apply read_cstr_total.
Qed.

Lemma decode_by_layout_res dbg e spec f bs : returns (decode_by_layout dbg e spec f bs).
Proof.
  unfold decode_by_layout. destruct (form_guard e spec f); [apply returns_err|].
  apply returns_bind; [apply read_layout_res|]. intros [d r] _.
  destruct (form_value e (at_name spec) (at_implicit spec) f d); split; discriminate.
Qed.

Lemma parse_direct_res dbg e spec c bs : returns (parse_direct dbg e spec c bs).
Proof.
  destruct (N.eq_dec c DW_FORM_indirect) as [->|Hc]; [rewrite parse_direct_indirect; apply returns_err|].
  rewrite parse_direct_spec by assumption.
  destruct (form_of_code c); [apply decode_by_layout_res|apply returns_err].
Qed.

Lemma parse_form_res : forall fuel dbg e spec c bs, (length bs < fuel)%nat ->
  returns (parse_form fuel dbg e spec c bs).
Proof.
  induction fuel as [|fuel IH]; intros dbg e spec c bs L; [lia|].
  destruct (N.eq_dec c DW_FORM_indirect) as [->|Hc].
  - rewrite parse_form_indirect. apply returns_bind; [apply read_uleb128_u16_no_panic|].
    intros [c' r] R. apply read_u16leb_shrinks in R. apply IH. lia.
  - rewrite parse_form_direct by assumption. apply parse_direct_res.
Qed.

Lemma parse_attribute_res dbg e spec bs : returns (parse_attribute dbg e spec bs).
Proof. unfold parse_attribute. apply parse_form_res. lia. Qed.

Lemma read_prefix_suffix dbg bigend p bs len t :
  read_prefix dbg bigend p bs = Ok (len, t) -> exists used, bs = used ++ t.
Proof.
  destruct p; cbn [read_prefix]; intros R.
  - apply read_u8_ok in R. destruct R as (x & -> & _). exists [x]. reflexivity.
  - apply read_un_ok_inv in R. destruct R as (h & -> & _). eauto.
  - apply read_un_ok_inv in R. destruct R as (h & -> & _). eauto.
  - apply read_uleb128_skip, skip_leb_ok in R. destruct R as (u & -> & _). eauto.
Qed.

(* the bytes a layout consumes are a prefix of the input, of the layout's size when that is fixed *)
Lemma read_layout_consumes dbg bigend l bs d r :
  read_layout dbg bigend l bs = Ok (d, r) ->
  exists used, bs = used ++ r /\ forall n, layout_fixed_size l = Some n -> N.of_nat (length used) = n.
Proof.
  destruct l as [m| | |p| | |]; cbn [read_layout layout_fixed_size]; intros H.
  - destruct (read_un (N.to_nat m) bigend bs) as [[v t]| | |] eqn:R; cbn [bind] in H; inversion H; subst.
    apply read_un_ok_inv in R. destruct R as (h & -> & L & _). exists h. split; [reflexivity|].
    intros n S. inversion S; subst. lia.
  - destruct (read_uleb128 dbg bs) as [[v t]| | |] eqn:R; cbn [bind] in H; inversion H; subst.
    apply read_uleb128_skip, skip_leb_ok in R. destruct R as (u & -> & _). exists u. split; [reflexivity|discriminate].
  - destruct (read_sleb128 dbg bs) as [[v t]| | |] eqn:R; cbn [bind] in H; inversion H; subst.
    apply read_sleb128_skip, skip_leb_ok in R. destruct R as (u & -> & _). exists u. split; [reflexivity|discriminate].
  - unfold read_block in H.
    destruct (read_prefix dbg bigend p bs) as [[len t]| | |] eqn:R; cbn [bind] in H; try discriminate.
    destruct (split_n len t) as [[b t']| | |] eqn:S; cbn [bind] in H; inversion H; subst.
    apply split_n_spec in S. destruct S as [-> _].
    apply read_prefix_suffix in R. destruct R as [u ->].
    exists (u ++ b). split; [rewrite app_assoc; reflexivity|discriminate].
  - destruct (read_cstr bs) as [[v t]| | |] eqn:R; cbn [bind] in H; inversion H; subst.
    apply read_cstr_ok in R. destruct R as [-> _]. exists (v ++ [x00]).
    split; [rewrite <- app_assoc; reflexivity|discriminate].
  - inversion H; subst. exists []. split; [reflexivity|]. intros n S. inversion S; reflexivity.
  - discriminate.
Qed.

(* a direct arm: the form is known, its guard passed, the data was read by its layout and valued *)
Lemma parse_direct_ok dbg e spec c bs v r :
  parse_direct dbg e spec c bs = Ok (v, r) ->
  exists f d, c = form_code f /\ f <> F_indirect /\ form_guard e spec f = None /\
              read_layout dbg (be e) (form_layout f e) bs = Ok (d, r) /\
              form_value e (at_name spec) (at_implicit spec) f d = Some v.
Proof.
  intros P.
  assert (Hc : c <> DW_FORM_indirect) by (intros ->; discriminate P).
  rewrite parse_direct_spec in P by assumption.
  destruct (form_of_code c) as [f|] eqn:E; [|discriminate]. apply form_of_code_some in E. subst c.
  assert (Hf : f <> F_indirect) by (intros ->; apply Hc; reflexivity).
  unfold decode_by_layout in P.
  destruct (form_guard e spec f) eqn:G; [discriminate|].
  destruct (read_layout dbg (be e) (form_layout f e) bs) as [[d t]| | |] eqn:R; cbn [bind] in P;
    try discriminate.
  destruct (form_value e (at_name spec) (at_implicit spec) f d) eqn:V; inversion P; subst.
  exists f, d. repeat split; assumption || reflexivity.
Qed.

(* the loop: after some DW_FORM_indirect hops, a direct arm succeeded on what was left *)
Lemma parse_form_ok : forall fuel dbg e spec c bs v r,
  parse_form fuel dbg e spec c bs = Ok (v, r) ->
  exists c' bs', parse_direct dbg e spec c' bs' = Ok (v, r) /\ (length bs' <= length bs)%nat.
Proof.
  induction fuel as [|fuel IH]; intros dbg e spec c bs v r P;
    (destruct (N.eq_dec c DW_FORM_indirect) as [->|Hc];
     [|rewrite parse_form_direct in P by assumption; eauto]).
  - discriminate P.
  - rewrite parse_form_indirect in P.
    destruct (read_uleb128_u16 bs) as [[c' bs1]| | |] eqn:R; cbn [bind] in P; try discriminate.
    apply read_u16leb_shrinks in R. apply IH in P. destruct P as (c'' & bs' & P & L).
    exists c'', bs'. split; [exact P|lia].
Qed.

Lemma parse_attribute_length dbg e spec bs v r :
  parse_attribute dbg e spec bs = Ok (v, r) -> (length r <= length bs)%nat.
Proof.
  intros P. apply parse_form_ok in P. destruct P as (c & bs' & P & L).
  apply parse_direct_ok in P. destruct P as (f & d & _ & _ & _ & R & _).
  apply read_layout_consumes in R. destruct R as (u & -> & _). rewrite app_length in L. lia.
Qed.

Lemma fixed_size_is_consumed dbg e spec bs v r n :
  get_attribute_size (at_form spec) e = Some n ->
  parse_attribute dbg e spec bs = Ok (v, r) ->
  N.of_nat (length bs) = N.of_nat (length r) + n.
Proof.
  intros S P. unfold parse_attribute in P.
  rewrite parse_form_direct in P by (intros E; rewrite E in S; discriminate S).
  apply parse_direct_ok in P. destruct P as (f & d & E & _ & _ & R & _).
  rewrite E, get_attribute_size_known in S.
  apply read_layout_consumes in R. destruct R as (u & -> & F). rewrite app_length, <- (F n S). lia.
Qed.

Definition skip_layout (dbg bigend : bool) (l : layout) (bs : list byte) : res (N * list byte) :=
  match l with
  | LBlock p => read_prefix dbg bigend p bs
  | LCstring => let* (_, t) := read_cstr bs in Ok (0, t)
  | LUleb | LSleb => let* (_, t) := skip_leb bs in Ok (0, t)
  | _ => Err EUnknownForm
  end.

Lemma skip_var_known dbg e f bs : f <> F_indirect -> layout_fixed_size (form_layout f e) = None ->
  skip_var dbg e (form_code f) bs = skip_layout dbg (be e) (form_layout f e) bs.
Proof.
  intros Hi Hv. destruct f; try congruence; try discriminate Hv; reflexivity.
Qed.

Lemma skip_var_unknown dbg e c bs : form_of_code c = None -> skip_var dbg e c bs = Err EUnknownForm.
Proof. intros Hn. unfold skip_var. rewrite !(form_of_code_none c Hn) by reflexivity. reflexivity. Qed.

Lemma skip_n_0 bs : skip_n 0 bs = Ok bs.
Proof. destruct bs; reflexivity. Qed.

Lemma flush_is_skip_n sb bs : (if sb =? 0 then Ok bs else skip_n sb bs) = skip_n sb bs.
Proof. destruct (N.eqb_spec sb 0) as [->|]; [rewrite skip_n_0|]; reflexivity. Qed.

Lemma skip_n_compose sb r p n u p' :
  skip_n sb r = Ok p -> p = u ++ p' -> N.of_nat (length u) = n ->
  skip_n (sb + n) r = Ok p' /\ sb + n <= N.of_nat (length r).
Proof.
  intros H -> <-. apply skip_n_spec in H. destruct H as (h & -> & <-).
  rewrite app_assoc. replace (N.of_nat (length h) + N.of_nat (length u)) with (N.of_nat (length (h ++ u)))
    by (rewrite app_length; lia).
  split; [apply skip_n_app|]. rewrite !app_length. lia.
Qed.

Lemma skip_leb_length bs r : skip_leb bs = Ok (tt, r) -> (length r <= length bs)%nat.
Proof. intros H. apply skip_leb_shrinks in H. lia. Qed.

Lemma read_prefix_length dbg bigend p bs len t :
  read_prefix dbg bigend p bs = Ok (len, t) -> (length t <= length bs)%nat.
Proof. intros H. apply read_prefix_suffix in H. destruct H as [u ->]. rewrite app_length. lia. Qed.

Lemma skip_layout_read dbg bigend l p d p' :
  read_layout dbg bigend l p = Ok (d, p') -> layout_fixed_size l = None ->
  exists sb' r', skip_layout dbg bigend l p = Ok (sb', r') /\ skip_n sb' r' = Ok p' /\
                 (length r' <= length p)%nat.
Proof.
  destruct l as [m| | |pk| | |]; cbn [read_layout layout_fixed_size skip_layout]; intros H S; try discriminate.
  - destruct (read_uleb128 dbg p) as [[v t]| | |] eqn:R; cbn [bind] in H; inversion H; subst.
    apply read_uleb128_skip in R. rewrite R. cbn [bind]. exists 0, p'.
    split; [reflexivity|]. split; [apply skip_n_0|]. eapply skip_leb_length; eauto.
  - destruct (read_sleb128 dbg p) as [[v t]| | |] eqn:R; cbn [bind] in H; inversion H; subst.
    apply read_sleb128_skip in R. rewrite R. cbn [bind]. exists 0, p'.
    split; [reflexivity|]. split; [apply skip_n_0|]. eapply skip_leb_length; eauto.
  - unfold read_block in H.
    destruct (read_prefix dbg bigend pk p) as [[len t]| | |] eqn:R; cbn [bind] in H; try discriminate.
    destruct (split_n len t) as [[b t']| | |] eqn:Sp; cbn [bind] in H; inversion H; subst.
    exists len, t. split; [reflexivity|]. split.
    + unfold skip_n. rewrite Sp. reflexivity.
    + eapply read_prefix_length; eauto.
  - destruct (read_cstr p) as [[s t]| | |] eqn:R; cbn [bind] in *; inversion H; subst.
    exists 0, p'. split; [reflexivity|]. split; [apply skip_n_0|].
    apply read_cstr_ok in R. destruct R as [-> _]. rewrite app_length. cbn. lia.
Qed.

(* The skipper lags behind the reader: it stands at r with sb bytes still to skip, the reader at
   p = r without its first sb bytes (skip_n sb r = Ok p). One direct form keeps that relation: a fixed
   size is added to the pending skip, a variable form flushes it first. *)
Lemma skip_direct_follows_read fuel dbg e spec c p v p' sb r :
  parse_direct dbg e spec c p = Ok (v, p') ->
  skip_n sb r = Ok p -> N.of_nat (length r) < two64 ->
  exists sb' r', skip_form (S fuel) dbg e sb c r = Ok (sb', r') /\ skip_n sb' r' = Ok p' /\
                 (length r' <= length r)%nat.
Proof.
  intros P K B. apply parse_direct_ok in P. destruct P as (f & d & -> & Hf & _ & R & _).
  cbn [skip_form]. rewrite get_attribute_size_known.
  destruct (layout_fixed_size (form_layout f e)) as [n|] eqn:S.
  - destruct (read_layout_consumes _ _ _ _ _ _ R) as (u & -> & F).
    destruct (skip_n_compose sb r (u ++ p') n u p' K eq_refl (F n S)) as [K' Le].
    destruct (N.ltb_spec (sb + n) two64); [|lia].
    exists (sb + n), r. auto.
  - rewrite flush_is_skip_n, K. cbn [bind].
    destruct (N.eqb_spec (form_code f) DW_FORM_indirect) as [C|_];
      [apply form_code_indirect in C; congruence|].
    rewrite skip_var_known by assumption.
    destruct (skip_layout_read _ _ _ _ _ _ R S) as (sb' & r' & A & A' & A'').
    exists sb', r'. split; [assumption|]. split; [assumption|].
    apply skip_n_spec in K. destruct K as (h & -> & _). rewrite app_length. lia.
Qed.

Lemma skip_form_follows_read : forall fuel dbg e spec c p v p' sb r fuel2,
  parse_form fuel dbg e spec c p = Ok (v, p') ->
  skip_n sb r = Ok p -> N.of_nat (length r) < two64 -> (length r < fuel2)%nat ->
  exists sb' r', skip_form fuel2 dbg e sb c r = Ok (sb', r') /\ skip_n sb' r' = Ok p' /\
                 (length r' <= length r)%nat.
Proof.
  induction fuel as [|fuel IH]; intros dbg e spec c p v p' sb r fuel2 P K B F;
    (destruct fuel2 as [|k]; [lia|]);
    (destruct (N.eq_dec c DW_FORM_indirect) as [->|Hc];
     [|rewrite parse_form_direct in P by assumption; eapply skip_direct_follows_read; eassumption]).
  - discriminate P.
  - rewrite parse_form_indirect in P.
    destruct (read_uleb128_u16 p) as [[c' p1]| | |] eqn:R; cbn [bind] in P; try discriminate.
    cbn [skip_form]. change (get_attribute_size DW_FORM_indirect e) with (@None N).
    rewrite flush_is_skip_n, K. cbn [bind]. rewrite N.eqb_refl, R. cbn [bind].
    pose proof (read_u16leb_shrinks _ _ _ R) as Sh.
    assert (Lp : (length p <= length r)%nat).
    { apply skip_n_spec in K. destruct K as (h & -> & _). rewrite app_length. lia. }
    destruct (IH dbg e spec c' p1 v p' 0 p1 k P (skip_n_0 p1)) as (sb' & r' & A & A' & A''); [lia|lia|].
    exists sb', r'. split; [assumption|]. split; [assumption|]. lia.
Qed.

Lemma skip_specs_follow_read : forall specs dbg e p vs pf sb r,
  read_attributes dbg e specs p = Ok (vs, pf) ->
  skip_n sb r = Ok p -> N.of_nat (length r) < two64 ->
  exists sb' r', skip_specs dbg e sb specs r = Ok (sb', r') /\ skip_n sb' r' = Ok pf.
Proof.
  induction specs as [|s t IH]; intros dbg e p vs pf sb r R K B; cbn [read_attributes skip_specs] in *.
  - inversion R; subst. eauto.
  - destruct (parse_attribute dbg e s p) as [[v p1]| | |] eqn:P; cbn [bind] in R; try discriminate.
    destruct (read_attributes dbg e t p1) as [[vs' pf']| | |] eqn:R'; cbn [bind] in R; inversion R; subst.
    unfold parse_attribute in P.
    destruct (skip_form_follows_read _ _ _ _ _ _ _ _ sb r (S (length r)) P K B) as (sb1 & r1 & A & A' & A''); [lia|].
    rewrite A. cbn [bind]. eapply IH; eauto. lia.
Qed.

Lemma skip_eq_read dbg e specs bs vs r :
  N.of_nat (length bs) < two64 ->
  read_attributes dbg e specs bs = Ok (vs, r) ->
  skip_attributes dbg e specs bs = Ok r.
Proof.
  intros B R. unfold skip_attributes.
  destruct (skip_specs_follow_read specs dbg e bs vs r 0 bs R (skip_n_0 bs) B) as (sb & r' & A & A').
  rewrite A. cbn [bind]. rewrite flush_is_skip_n. assumption.
Qed.

Lemma skip_leb_res bs : returns (skip_leb bs).
Proof. rewrite skip_leb_exact. destruct (split_leb bs) as [[e r]|]; split; discriminate. Qed.

Lemma skip_n_res n bs : skip_n n bs <> Panic /\ skip_n n bs <> OutOfFuel.
Proof. apply returns_bind; [apply split_n_res|]. intros [h t] _. apply returns_ok. Qed.

Lemma skip_var_res dbg e c bs : returns (skip_var dbg e c bs).
Proof.
  unfold skip_var.
  repeat match goal with |- context [if ?c then _ else _] => destruct c end;
    rewrite ?(read_u8_un (be e)); try apply returns_err;
    try apply read_un_not_panic; try apply read_uleb128_total.
  - apply returns_bind; [apply read_cstr_total|]. intros [s t] _. apply returns_ok.
  - apply returns_bind; [apply skip_leb_res|]. intros [u t] _. apply returns_ok.
Qed.

Lemma skip_form_res : forall fuel dbg e sb c r, (length r < fuel)%nat ->
  returns (skip_form fuel dbg e sb c r).
Proof.
  induction fuel as [|fuel IH]; intros dbg e sb c r L; [lia|].
  cbn [skip_form].
  destruct (get_attribute_size c e) as [len|].
  - destruct (sb + len <? two64); split; discriminate.
  - rewrite flush_is_skip_n. apply returns_bind; [apply skip_n_res|]. intros p K.
    destruct (c =? DW_FORM_indirect); [|apply skip_var_res].
    apply returns_bind; [apply read_uleb128_u16_no_panic|]. intros [c' p1] R.
    apply IH. apply read_u16leb_shrinks in R.
    apply skip_n_spec in K. destruct K as (h & -> & _). rewrite app_length in L. lia.
Qed.

Lemma skip_specs_res : forall specs dbg e sb r, returns (skip_specs dbg e sb specs r).
Proof.
  induction specs as [|s t IH]; intros dbg e sb r; cbn [skip_specs]; [apply returns_ok|].
  apply returns_bind; [apply skip_form_res; lia|]. intros [sb' r'] _. apply IH.
Qed.

Lemma skip_attributes_res dbg e specs bs : returns (skip_attributes dbg e specs bs).
Proof.
  apply returns_bind; [apply skip_specs_res|]. intros [sb r] _. rewrite flush_is_skip_n. apply skip_n_res.
Qed.

Lemma read_attributes_res : forall specs dbg e bs,
  read_attributes dbg e specs bs <> Panic /\ read_attributes dbg e specs bs <> OutOfFuel.
Proof.
  induction specs as [|s t IH]; intros dbg e bs; cbn [read_attributes]; [apply returns_ok|].
  apply returns_bind; [apply parse_attribute_res|]. intros [v r] _.
  apply returns_bind; [apply IH|]. intros [vs r'] _. apply returns_ok.
Qed.

Lemma no_panic dbg e spec specs bs :
  (parse_attribute dbg e spec bs <> Panic /\ parse_attribute dbg e spec bs <> OutOfFuel) /\
  (read_attributes dbg e specs bs <> Panic /\ read_attributes dbg e specs bs <> OutOfFuel) /\
  (skip_attributes dbg e specs bs <> Panic /\ skip_attributes dbg e specs bs <> OutOfFuel).
Proof.
  split; [apply parse_attribute_res|]. split; [apply read_attributes_res|apply skip_attributes_res].
Qed.

(* the build mode is irrelevant *)
Lemma read_uleb128_dbg dbg bs : read_uleb128 dbg bs = read_uleb128 false bs.
Proof. rewrite !read_uleb128_exact. reflexivity. Qed.

Lemma read_sleb128_dbg dbg bs : read_sleb128 dbg bs = read_sleb128 false bs.
Proof. rewrite !read_sleb128_exact. reflexivity. Qed.

Lemma parse_direct_dbg dbg e spec c bs : parse_direct dbg e spec c bs = parse_direct false e spec c bs.
Proof.
  unfold parse_direct. rewrite (read_uleb128_dbg dbg), (read_sleb128_dbg dbg). reflexivity.
Qed.

Lemma parse_form_dbg : forall fuel dbg e spec c bs,
  parse_form fuel dbg e spec c bs = parse_form fuel false e spec c bs.
Proof.
  induction fuel as [|fuel IH]; intros; cbn [parse_form].
  - destruct (c =? DW_FORM_indirect); [reflexivity|apply parse_direct_dbg].
  - destruct (c =? DW_FORM_indirect); [|apply parse_direct_dbg].
    destruct (read_uleb128_u16 bs) as [[c' r]| | |]; cbn [bind]; try reflexivity. apply IH.
Qed.

Lemma parse_attribute_dbg dbg e spec bs : parse_attribute dbg e spec bs = parse_attribute false e spec bs.
Proof. apply parse_form_dbg. Qed.

Lemma skip_form_dbg : forall fuel dbg e sb c r, skip_form fuel dbg e sb c r = skip_form fuel false e sb c r.
Proof.
  induction fuel as [|fuel IH]; intros; cbn [skip_form];
    destruct (get_attribute_size c e); try reflexivity;
    destruct (if sb =? 0 then Ok r else skip_n sb r); cbn [bind]; try reflexivity;
    destruct (c =? DW_FORM_indirect);
    try (unfold skip_var; rewrite (read_uleb128_dbg dbg); reflexivity); try reflexivity.
  destruct (read_uleb128_u16 a) as [[c' r']| | |]; cbn [bind]; try reflexivity. apply IH.
Qed.

Lemma skip_attributes_dbg dbg e specs bs : skip_attributes dbg e specs bs = skip_attributes false e specs bs.
Proof.
  unfold skip_attributes. f_equal. generalize 0 as sb. revert bs.
  induction specs as [|s t IH]; intros bs sb; cbn [skip_specs]; [reflexivity|].
  rewrite skip_form_dbg. destruct (skip_form (S (length bs)) false e sb (at_form s) bs) as [[sb' r]| | |];
    cbn [bind]; try reflexivity. apply IH.
Qed.

Lemma read_sleb128_enc_sleb dbg z rest :
  (-9223372036854775808 <= z < 9223372036854775808)%Z ->
  read_sleb128 dbg (enc_sleb z ++ rest) = Ok (z, rest).
Proof.
  intros H. unfold enc_sleb. destruct (sleb_min_agrees 10 z) as (_ & _ & _ & -> & _).
  apply read_sleb128_enc; [lia|]. unfold in_i64. lia.
Qed.

(* FormSpec's fixed-width encoder is the one of Model/Prim.v *)
Lemma le_enc_le_bytes : forall n v, le_enc n v = le_bytes n v.
Proof.
  induction n as [|n IH]; intros v; cbn [le_enc le_bytes]; [reflexivity|].
  rewrite IH. f_equal. unfold n2b. rewrite N.mod_mod by discriminate. reflexivity.
Qed.

Lemma enc_fixed_enc_un n bigend v : enc_fixed n bigend v = enc_un n bigend v.
Proof. unfold enc_fixed, enc_un, be_bytes. rewrite le_enc_le_bytes. reflexivity. Qed.

Lemma read_un_enc n bigend v rest : v < 256 ^ N.of_nat n ->
  read_un n bigend (enc_fixed n bigend v ++ rest) = Ok (v, rest).
Proof. rewrite enc_fixed_enc_un. apply read_un_enc_un_small. Qed.

Lemma pow256 n : 256 ^ n = 2 ^ (8 * n).
Proof. rewrite N.pow_mul_r. reflexivity. Qed.

Lemma read_prefix_enc dbg bigend p len rest : len < prefix_bound p ->
  read_prefix dbg bigend p (enc_prefix p bigend len ++ rest) = Ok (len, rest).
Proof.
  destruct p; cbn [read_prefix enc_prefix prefix_bound]; intros H.
  - rewrite (read_u8_un bigend). apply read_un_enc. exact H.
  - apply read_un_enc. exact H.
  - apply read_un_enc. exact H.
  - apply read_uleb128_enc. exact H.
Qed.

Lemma read_layout_enc dbg bigend l d payload rest :
  raw_fits l d -> enc_layout l bigend d = Some payload ->
  read_layout dbg bigend l (payload ++ rest) = Ok (d, rest).
Proof.
  destruct l as [n| | |p| | |]; destruct d as [v|z|b|]; cbn [raw_fits enc_layout read_layout];
    intros F E; try contradiction; try discriminate; inversion E; subst; clear E.
  - rewrite read_un_enc; [reflexivity|]. rewrite pow256, N2Nat.id. exact F.
  - rewrite read_uleb128_enc by exact F. reflexivity.
  - rewrite read_sleb128_enc_sleb by exact F. reflexivity.
  - unfold read_block. rewrite <- app_assoc, read_prefix_enc by exact F. cbn [bind].
    rewrite split_n_app. reflexivity.
  - rewrite <- app_assoc. cbn [app]. rewrite read_cstr_app; [reflexivity|].
    eapply Forall_impl; [|exact F]. intros x Hx E. apply Hx, b2n_inj, E.
  - reflexivity.
Qed.

Lemma read_u16leb_code f rest :
  read_uleb128_u16 (enc_uleb (form_code f) ++ rest) = Ok (form_code f, rest).
Proof. apply read_uleb128_u16_enc, code_lt_u16. Qed.

Lemma parse_form_hops : forall depth fuel dbg e spec f data,
  (depth <= fuel)%nat -> depth <> O ->
  parse_form fuel dbg e spec DW_FORM_indirect (enc_hops depth f ++ data)
  = parse_form (fuel - depth) dbg e spec (form_code f) data.
Proof.
  induction depth as [|depth IH]; intros fuel dbg e spec f data L NZ; [congruence|].
  destruct fuel as [|fuel]; [lia|].
  rewrite parse_form_indirect.
  destruct depth as [|depth].
  - cbn [enc_hops]. rewrite read_u16leb_code. cbn [bind]. replace (S fuel - 1)%nat with fuel by lia. reflexivity.
  - change (enc_hops (S (S depth)) f) with (enc_uleb indirect_code ++ enc_hops (S depth) f).
    rewrite <- app_assoc.
    change indirect_code with (form_code F_indirect). rewrite read_u16leb_code. cbn [bind].
    change (form_code F_indirect) with DW_FORM_indirect.
    rewrite IH by lia. reflexivity.
Qed.

Lemma enc_hops_length depth f : (depth <= length (enc_hops depth f))%nat.
Proof.
  induction depth as [|depth IH]; [cbn; lia|].
  destruct depth as [|depth].
  - apply enc_uleb_length.
  - change (enc_hops (S (S depth)) f) with (enc_uleb indirect_code ++ enc_hops (S depth) f).
    rewrite app_length. change (length (enc_uleb indirect_code)) with 1%nat. lia.
Qed.

Definition addr_size_ok (e : enc) : Prop := valid_size (address_size e) = true.

Lemma attr_roundtrip dbg e name implicit depth f d payload v rest :
  f <> F_indirect ->
  addr_size_ok e ->
  (f = F_implicit_const -> depth = O) ->
  raw_fits (form_layout f e) d ->
  enc_layout (form_layout f e) (be e) d = Some payload ->
  form_value e name implicit f d = Some v ->
  parse_attribute dbg e (mkSpec name (spec_form depth f) implicit) (enc_hops depth f ++ payload ++ rest)
  = Ok (v, rest).
Proof.
  intros Hf Ha Hi Fit Enc Val.
  assert (Hc : form_code f <> DW_FORM_indirect) by (intros C; apply form_code_indirect in C; congruence).
  assert (Direct : forall fuel spec, at_name spec = name -> at_implicit spec = implicit ->
            (f = F_implicit_const -> at_form spec = DW_FORM_implicit_const) ->
            parse_form fuel dbg e spec (form_code f) (payload ++ rest) = Ok (v, rest)).
  { intros fuel spec Hn Him Hic.
    rewrite parse_form_direct by assumption. rewrite parse_direct_known by assumption.
    unfold decode_by_layout.
    assert (G : form_guard e spec f = None).
    { unfold addr_size_ok in Ha. destruct f; cbn [form_guard]; try reflexivity.
      - rewrite Ha. reflexivity.
      - rewrite Ha. cbn [negb]. rewrite andb_false_r. reflexivity.
      - rewrite Hic by reflexivity. reflexivity. }
    rewrite G, (read_layout_enc _ _ _ _ _ _ Fit Enc). cbn [bind]. rewrite Hn, Him, Val. reflexivity. }
  unfold parse_attribute. cbn [at_form].
  destruct depth as [|depth].
  - cbn [spec_form enc_hops app]. apply Direct; try reflexivity. intros ->. reflexivity.
  - change (spec_form (S depth) f) with DW_FORM_indirect.
    rewrite parse_form_hops.
    + apply Direct; try reflexivity. intros E. specialize (Hi E). discriminate.
    + pose proof (enc_hops_length (S depth) f). rewrite app_length. lia.
    + discriminate.
Qed.

Lemma to_signed_twos bits n : 0 < bits -> n < 2 ^ bits -> to_signed bits n = twos bits n.
Proof.
  intros Hb H. unfold to_signed, twos, wrapN. rewrite N.mod_small by assumption. reflexivity.
Qed.

Lemma twos_nonneg bits n : n < 2 ^ bits -> (0 <= twos bits n)%Z -> twos bits n = Z.of_N n.
Proof. unfold twos. destruct (n <? 2 ^ (bits - 1)); [reflexivity|lia]. Qed.

Lemma of_i64_nonneg z : (0 <= z < 18446744073709551616)%Z -> of_i64 z = Z.to_N z.
Proof.
  intros H. unfold of_i64, of_signed. change (Z.of_N (2 ^ 64)) with 18446744073709551616%Z.
  rewrite Z.mod_small by lia. reflexivity.
Qed.

Lemma udata_value_spec v : value_in_range v -> udata_value v = unsigned_reading v.
Proof.
  destruct v; cbn [value_in_range udata_value unsigned_reading]; intros H; try reflexivity.
  destruct (Z.ltb_spec z 0); destruct (Z.leb_spec 0 z); try lia; try reflexivity.
  rewrite of_i64_nonneg by lia. reflexivity.
Qed.

Lemma sdata_value_spec v : value_in_range v -> sdata_value v = signed_reading v.
Proof.
  destruct v; cbn [value_in_range sdata_value signed_reading]; intros H; try reflexivity.
  1-4: unfold to_i8, to_i16, to_i32, to_i64; rewrite to_signed_twos by (try reflexivity; exact H);
       reflexivity.
  - destruct (N.ltb_spec (two63 - 1) n); destruct (N.ltb_spec n two63); unfold two63 in *; try lia;
      try reflexivity.
    rewrite to_i64_small by assumption. reflexivity.
Qed.

Lemma udata_sdata v : value_in_range v ->
  udata_value v = unsigned_reading v /\ sdata_value v = signed_reading v.
Proof. intros H; split; [apply udata_value_spec|apply sdata_value_spec]; assumption. Qed.

Lemma udata_value_payload v n : value_in_range v -> udata_value v = Some n ->
  payload_of v = PInt (Z.of_N n) /\ n < two64.
Proof.
  intros R. rewrite udata_value_spec by assumption.
  destruct v; cbn [value_in_range unsigned_reading payload_of] in *; intros H; try discriminate;
    try (inversion H; subst; split; [reflexivity|unfold two16, two32, two64 in *; lia]).
  destruct (Z.leb_spec 0 z); inversion H; subst. split; [f_equal|unfold two64]; lia.
Qed.

Lemma apply_conv_payload c v r : value_in_range v -> apply_conv c v = Some r ->
  payload_of r = payload_of v /\ value_in_range r.
Proof.
  intros R. destruct c as [t| |t| |t]; cbn [apply_conv]; unfold option_map, u8_value, u16_value.
  - destruct (udata_value v) as [n|] eqn:U; [|discriminate].
    destruct (udata_value_payload v n R U) as [P B].
    destruct (N.ltb_spec n 256); [|discriminate]. intros E; inversion E; subst.
    rewrite P. destruct t; cbn; auto.
  - destruct (udata_value v) as [n|] eqn:U; [|discriminate].
    destruct (udata_value_payload v n R U) as [P B].
    destruct (N.ltb_spec n two16); [|discriminate]. intros E; inversion E; subst.
    rewrite P. cbn; auto.
  - destruct (udata_value v) as [n|] eqn:U; [|discriminate].
    destruct (udata_value_payload v n R U) as [P B].
    intros E; inversion E; subst. rewrite P. destruct t; cbn; auto.
  - destruct v; cbn [exprloc_value]; intros E; inversion E; subst; cbn; auto.
  - destruct v; cbn [offset_value]; intros E; inversion E; subst.
    cbn [value_in_range] in R. destruct t; cbn; auto.
Qed.

Lemma apply_convs_payload : forall cs v, value_in_range v ->
  payload_of (apply_convs cs v) = payload_of v /\ value_in_range (apply_convs cs v).
Proof.
  induction cs as [|c t IH]; intros v R; cbn [apply_convs]; [auto|].
  destruct (apply_conv c v) as [r|] eqn:A; [|apply IH; assumption].
  eapply apply_conv_payload; eauto.
Qed.

Lemma normalise_payload name v : value_in_range v ->
  payload_of (attr_normalise name v) = payload_of v /\ value_in_range (attr_normalise name v).
Proof. intros R. apply apply_convs_payload. assumption. Qed.

Definition raw_in_range (l : layout) (d : raw) : Prop :=
  match l, d with
  | LFixed n, RNum v => v < 256 ^ n
  | LUleb, RNum v => v < two64
  | LSleb, RInt z => (-9223372036854775808 <= z < 9223372036854775808)%Z
  | _, _ => True
  end.

Lemma read_layout_range dbg bigend l bs d r : read_layout dbg bigend l bs = Ok (d, r) -> raw_in_range l d.
Proof.
  destruct l as [n| | |p| | |]; cbn [read_layout]; intros H.
  - destruct (read_un (N.to_nat n) bigend bs) as [[v t]| | |] eqn:R; cbn [bind] in H; inversion H; subst.
    apply read_un_value_lt in R. destruct R as [R _]. unfold p256 in R. rewrite N2Nat.id in R. exact R.
  - destruct (read_uleb128 dbg bs) as [[v t]| | |] eqn:R; cbn [bind] in H; inversion H; subst.
    apply read_uleb128_ok in R. destruct R as (_ & _ & _ & _ & R). exact R.
  - destruct (read_sleb128 dbg bs) as [[v t]| | |] eqn:R; cbn [bind] in H; inversion H; subst.
    apply read_sleb128_ok in R. destruct R as (_ & _ & _ & _ & R). unfold in_i64 in R. cbn [raw_in_range]. lia.
  - destruct (read_block (read_prefix dbg bigend p bs)) as [[v t]| | |]; cbn [bind] in H; inversion H; exact I.
  - destruct (read_cstr bs) as [[v t]| | |]; cbn [bind] in H; inversion H; exact I.
  - inversion H; exact I.
  - discriminate.
Qed.

Lemma valid_size_pow n : valid_size n = true -> 256 ^ n <= two64.
Proof.
  unfold valid_size. intros H.
  destruct (N.eqb_spec n 1); [subst; vm_compute; discriminate|].
  destruct (N.eqb_spec n 2); [subst; vm_compute; discriminate|].
  destruct (N.eqb_spec n 4); [subst; vm_compute; discriminate|].
  destruct (N.eqb_spec n 8); [subst; vm_compute; discriminate|]. discriminate.
Qed.

Lemma word_bytes_pow e : 256 ^ word_bytes e <= two64.
Proof. unfold word_bytes. destruct (fmt64 e); vm_compute; discriminate. Qed.

Lemma form_value_range e spec f d v :
  form_guard e spec f = None -> raw_in_range (form_layout f e) d ->
  (-9223372036854775808 <= at_implicit spec < 9223372036854775808)%Z ->
  form_value e (at_name spec) (at_implicit spec) f d = Some v -> value_in_range v.
Proof.
  intros G R I V. pose proof (word_bytes_pow e) as W.
  destruct f; destruct d as [n|z|b|]; cbn [form_value form_layout raw_in_range form_guard] in *;
    try discriminate; inversion V; subst; clear V; cbn [value_in_range]; try exact I; try assumption;
    try (change (256 ^ 1) with 256 in R; change (256 ^ 2) with 65536 in R;
         change (256 ^ 3) with 16777216 in R; change (256 ^ 4) with 4294967296 in R;
         change (256 ^ 8) with 18446744073709551616 in R;
         unfold two16, two32, two64 in *; lia).
  - (* addr *) destruct (valid_size (address_size e)) eqn:Va; [|discriminate]. apply valid_size_pow in Va. lia.
  - (* data4 *) change (256 ^ 4) with two32 in R.
    destruct (negb (fmt64 e) && legacy_section_offset (at_name spec) (version e)); cbn [value_in_range];
      unfold two32, two64 in *; lia.
  - (* data8 *) change (256 ^ 8) with two64 in R.
    destruct (fmt64 e && legacy_section_offset (at_name spec) (version e)); exact R.
  - (* ref_addr *) destruct (version e =? 2); cbn [andb negb] in G; [|lia].
    destruct (valid_size (address_size e)) eqn:Va; [|discriminate]. apply valid_size_pow in Va. lia.
Qed.

(* forms on which the line-table reader and the DIE reader agree *)
Definition line_forms : list form :=
  [F_block1; F_block2; F_block4; F_block; F_data1; F_data2; F_data4; F_data8; F_udata; F_sdata; F_flag;
   F_sec_offset; F_string; F_strp; F_strp_sup; F_GNU_strp_alt; F_line_strp; F_strx; F_GNU_str_index;
   F_strx1; F_strx2; F_strx3; F_strx4].
Definition line_codes : list N := map form_code (F_data16 :: line_forms).
