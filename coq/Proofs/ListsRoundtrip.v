(* Proofs/ListsRoundtrip.v — C16 x C08: the list WRITER model (Model/ListsWr.v) composed with the list READER
   model (Model/ListsRd.v, property C08).
   For every list the writers accept, the bytes they emit are C08's spec encoding (the ListSpec encoders) of the
   translated entries, those entries are well formed in C08's sense, and the two resolution specs
   (ListWrSpec.resolve, ListSpec.resolve_rng/resolve_loc) agree on them; the lemmas behind C08's raw_roundtrip and
   resolve_refines theorems (ListsRdProofs.*_all_enc) then give what the reader model's raw and resolving iterators
   yield.
   ListSpec / ListsRd share constructor names with ListWrSpec (LBase, LOffsetPair, amod, …): they are only
   `Require`d here and always written qualified. *)
From Coq Require Import List NArith ZArith Bool Lia ZifyBool ZifyN ZifyNat.
From Coq.Strings Require Import Byte.
Require Import GV.Base.Res GV.Base.Byt GV.Base.Ints GV.Spec.LebSpec GV.Model.Leb GV.Model.Prim
  GV.Proofs.LebProofs GV.Spec.ListWrSpec GV.Model.ListsWr GV.Proofs.ListsWrProofs.
Require GV.Spec.ListSpec GV.Model.ListsRd GV.Proofs.ListsRdProofs.
Import ListNotations.
Local Open Scope N_scope.

(* ListWrSpec.ent -> the reader's raw entry (address part) *)
Definition tr_ent (e : ent) : ListSpec.lent :=
  match e with
  | EBase a => ListSpec.LBase a
  | EOffsetPair b e _ => ListSpec.LOffsetPair b e
  | EStartEnd b e _ => ListSpec.LStartEnd b e
  | EStartLength b len _ => ListSpec.LStartLength b len
  | EDefault _ => ListSpec.LDefault
  | EPair b e _ => ListSpec.LPair b e
  end.
Definition ent_data (e : ent) : list byte :=
  match e with
  | EBase _ => []
  | EOffsetPair _ _ d | EStartEnd _ _ d | EStartLength _ _ d | EDefault d | EPair _ _ d => d
  end.
(* ... with its expression bytes (location lists) *)
Definition tr_loc (e : ent) : ListSpec.lloc := (tr_ent e, ent_data e).

(* the reader's view of the unit encoding *)
Definition rd_cfg (be : bool) (asz version : N) : ListSpec.lcfg := ListSpec.Build_lcfg be asz version.

Lemma rt_fits_u64 v : v < 2 ^ 64 -> ListSpec.fits_u64 v = true.
Proof. unfold ListSpec.fits_u64, ListSpec.u64_max. change (2 ^ 64) with 18446744073709551616. lia. Qed.

Lemma rt_fits_addr be asz version v : v < amod asz -> ListSpec.fits_addr (rd_cfg be asz version) v = true.
Proof. unfold ListSpec.fits_addr, ListSpec.amod, amod, rd_cfg. cbn [ListSpec.c_asize]. lia. Qed.

Lemma rt_opt_expr5 loc be asz d x :
  opt_expression loc be 5 d = Ok x -> N.of_nat (length d) < 2 ^ 64 ->
  x = (if loc then ListSpec.enc_data (rd_cfg be asz 5) d else []).
Proof.
  unfold opt_expression, write_expression. destruct loc; intros H Hd; [|now inversion H].
  change (5 <=? 4) with false in H. cbv iota in H. rewrite lw_write_uleb in H by exact Hd. now inversion H.
Qed.

Lemma rt_wf_data5 be asz d : N.of_nat (length d) < 2 ^ 64 -> ListSpec.wf_data (rd_cfg be asz 5) d = true.
Proof. apply rt_fits_u64. Qed.

Lemma rt_entry5 loc be asz x b :
  write_entry_v5 loc be 5 asz x = Ok b -> wf loc x ->
  exists e, ent_of x = Some e /\
    b = (if loc then ListSpec.enc_lle (rd_cfg be asz 5) (tr_loc e) else ListSpec.enc_rle (rd_cfg be asz 5) (tr_ent e)) /\
    (if loc then ListSpec.wf_lle (rd_cfg be asz 5) (tr_loc e) else ListSpec.wf_rle (rd_cfg be asz 5) (tr_ent e)) = true.
Proof.
  intros H Hw. pose proof (lw_wf_nodata _ _ Hw) as Hn. destruct Hw as [Hwf [Hd Hr]].
  destruct x as [a|b0 e0 d|b0 e0 d|b0 len d|d]; cbn [write_entry_v5] in H; cbn [wloc_wf data_of] in *.
  - bind_ok H. inversion H; subst.
    destruct (lw_write_address_ok _ _ _ _ E Hwf) as [v [-> [Hs [Hv ->]]]].
    exists (EBase v). split; [reflexivity|].
    pose proof (rt_fits_addr be asz 5 v Hv) as Hf.
    destruct loc; cbn [tr_loc tr_ent ent_data ListSpec.enc_lle ListSpec.enc_rle ListSpec.wf_lle ListSpec.wf_rle ListSpec.has_data];
      (split; [reflexivity|]); rewrite Hf; reflexivity.
  - destruct Hwf as [Hb He]. rewrite !lw_write_uleb in H by assumption. cbn [bind] in H. bind_ok H. inversion H; subst.
    exists (EOffsetPair b0 e0 d). split; [reflexivity|]. rewrite (rt_opt_expr5 _ _ asz _ _ E Hd).
    destruct loc; cbn [tr_loc tr_ent ent_data ListSpec.enc_lle ListSpec.enc_rle ListSpec.wf_lle ListSpec.wf_rle ListSpec.has_data].
    + split; [reflexivity|]. rewrite (rt_wf_data5 be asz d Hd), (rt_fits_u64 _ Hb), (rt_fits_u64 _ He). reflexivity.
    + split; [rewrite app_nil_r; reflexivity|]. rewrite (rt_fits_u64 _ Hb), (rt_fits_u64 _ He). reflexivity.
  - destruct Hwf as [Hb He]. bind_ok H. bind_ok H. bind_ok H. inversion H; subst.
    destruct (lw_write_address_ok _ _ _ _ E Hb) as [vb [-> [Hs [Hvb ->]]]].
    destruct (lw_write_address_ok _ _ _ _ E0 He) as [ve [-> [_ [Hve ->]]]].
    exists (EStartEnd vb ve d). split; [reflexivity|]. rewrite (rt_opt_expr5 _ _ asz _ _ E1 Hd).
    pose proof (rt_fits_addr be asz 5 vb Hvb) as Hf1. pose proof (rt_fits_addr be asz 5 ve Hve) as Hf2.
    destruct loc; cbn [tr_loc tr_ent ent_data ListSpec.enc_lle ListSpec.enc_rle ListSpec.wf_lle ListSpec.wf_rle ListSpec.has_data].
    + split; [reflexivity|]. rewrite (rt_wf_data5 be asz d Hd), Hf1, Hf2. reflexivity.
    + split; [rewrite app_nil_r; reflexivity|]. rewrite Hf1, Hf2. reflexivity.
  - destruct Hwf as [Hb Hl]. rewrite lw_write_uleb in H by assumption. bind_ok H. cbn [bind] in H. bind_ok H.
    inversion H; subst.
    destruct (lw_write_address_ok _ _ _ _ E Hb) as [vb [-> [Hs [Hvb ->]]]].
    exists (EStartLength vb len d). split; [reflexivity|]. rewrite (rt_opt_expr5 _ _ asz _ _ E0 Hd).
    pose proof (rt_fits_addr be asz 5 vb Hvb) as Hf1.
    destruct loc; cbn [tr_loc tr_ent ent_data ListSpec.enc_lle ListSpec.enc_rle ListSpec.wf_lle ListSpec.wf_rle ListSpec.has_data].
    + split; [reflexivity|]. rewrite (rt_wf_data5 be asz d Hd), Hf1, (rt_fits_u64 _ Hl). reflexivity.
    + split; [rewrite app_nil_r; reflexivity|]. rewrite Hf1, (rt_fits_u64 _ Hl). reflexivity.
  - bind_ok H. inversion H; subst. destruct loc.
    + exists (EDefault d). split; [reflexivity|]. rewrite (rt_opt_expr5 _ _ asz _ _ E Hd).
      cbn [tr_loc tr_ent ent_data ListSpec.enc_lle ListSpec.wf_lle ListSpec.has_data].
      split; [reflexivity|]. rewrite (rt_wf_data5 be asz d Hd). reflexivity.
    + destruct (Hr eq_refl) as [r Hx]. destruct r; discriminate Hx.
Qed.

Lemma rt_list5 loc be asz : forall l bs,
  write_list_v5 loc be 5 asz l = Ok bs -> Forall (wf loc) l ->
  exists es, ents_of l = Some es /\
    bs = (if loc then ListSpec.enc_loclist (rd_cfg be asz 5) (map tr_loc es)
          else ListSpec.enc_rnglist (rd_cfg be asz 5) (map tr_ent es)) /\
    (if loc then forallb (ListSpec.wf_lle (rd_cfg be asz 5)) (map tr_loc es)
     else forallb (ListSpec.wf_rle (rd_cfg be asz 5)) (map tr_ent es)) = true.
Proof.
  induction l as [|x r IH]; intros bs H Hwf; cbn [write_list_v5] in H.
  - inversion H; subst. exists []. split; [reflexivity|]. destruct loc; split; reflexivity.
  - bind_ok H. bind_ok H. inversion H; subst. inversion Hwf as [|? ? Hx Hr]; subst.
    destruct (rt_entry5 _ _ _ _ _ E Hx) as [e [He [Hb Hw]]].
    destruct (IH _ eq_refl Hr) as [es [Hes [Hbs Hws]]].
    exists (e :: es). split; [cbn [ents_of]; rewrite He, Hes; reflexivity|].
    destruct loc; cbn [map forallb]; unfold ListSpec.enc_loclist, ListSpec.enc_rnglist in *; cbn [map concat];
      (split; [rewrite <- app_assoc; rewrite Hb, Hbs; reflexivity|rewrite Hw, Hws; reflexivity]).
Qed.

Lemma rt_pair4 loc be asz version p :
  pair_ok loc asz p -> pair_nomark asz p ->
  enc_pair4 loc be asz p =
    (if loc then ListSpec.enc_locpair (rd_cfg be asz version) (tr_loc p) else ListSpec.enc_pair (rd_cfg be asz version) (tr_ent p)) /\
  (if loc then ListSpec.wf_locpair (rd_cfg be asz version) (tr_loc p) else ListSpec.wf_pair (rd_cfg be asz version) (tr_ent p)) = true.
Proof.
  intros Hok Hnm. destruct p as [a|b e d|b e d|b len d|d|b e d]; cbn [pair_ok] in Hok; try contradiction.
  - pose proof (rt_fits_addr be asz version a Hok) as Hf.
    destruct loc; cbn [enc_pair4 tr_loc tr_ent ent_data ListSpec.enc_locpair ListSpec.enc_pair ListSpec.wf_locpair ListSpec.wf_pair];
      (split; [reflexivity|]); rewrite Hf; reflexivity.
  - destruct Hok as [Hb [He [Hz [Hd Hn]]]]. cbn [pair_nomark] in Hnm.
    pose proof (rt_fits_addr be asz version b Hb) as Hf1. pose proof (rt_fits_addr be asz version e He) as Hf2.
    assert (Hz' : negb ((b =? 0) && (e =? 0)) = true) by lia.
    assert (Hm' : negb (b =? ListSpec.aones (ListSpec.c_asize (rd_cfg be asz version))) = true).
    { unfold ListSpec.aones, ListSpec.amod, rd_cfg. cbn [ListSpec.c_asize]. unfold mask_of in Hnm. lia. }
    destruct loc; cbn [enc_pair4 tr_loc tr_ent ent_data ListSpec.enc_locpair ListSpec.enc_pair ListSpec.wf_locpair ListSpec.wf_pair].
    + split; [reflexivity|]. rewrite Hf1, Hf2, Hz', Hm'. cbn [andb]. lia.
    + split; [rewrite app_nil_r; reflexivity|]. rewrite Hf1, Hf2, Hz', Hm'. reflexivity.
Qed.

Lemma rt_list4 loc be asz version ps :
  Forall (pair_ok loc asz) ps -> Forall (pair_nomark asz) ps ->
  enc_list4 loc be asz ps =
    (if loc then ListSpec.enc_loc (rd_cfg be asz version) (map tr_loc ps)
     else ListSpec.enc_ranges (rd_cfg be asz version) (map tr_ent ps)) /\
  (if loc then forallb (ListSpec.wf_locpair (rd_cfg be asz version)) (map tr_loc ps)
   else forallb (ListSpec.wf_pair (rd_cfg be asz version)) (map tr_ent ps)) = true.
Proof.
  intros Hok Hnm. unfold enc_list4, ListSpec.enc_loc, ListSpec.enc_ranges.
  assert (G : flat_map (enc_pair4 loc be asz) ps =
              (if loc then concat (map (ListSpec.enc_locpair (rd_cfg be asz version)) (map tr_loc ps))
               else concat (map (ListSpec.enc_pair (rd_cfg be asz version)) (map tr_ent ps))) /\
              (if loc then forallb (ListSpec.wf_locpair (rd_cfg be asz version)) (map tr_loc ps)
               else forallb (ListSpec.wf_pair (rd_cfg be asz version)) (map tr_ent ps)) = true).
  { induction ps as [|p ps IH]; [destruct loc; split; reflexivity|].
    inversion Hok; inversion Hnm; subst.
    destruct (rt_pair4 loc be asz version p) as [Hb Hw]; try assumption.
    destruct IH as [Hbs Hws]; try assumption.
    cbn [flat_map map concat forallb]. rewrite Hb, Hbs.
    destruct loc; (split; [reflexivity|]); rewrite Hw, Hws; reflexivity. }
  destruct G as [Hb Hw]. rewrite Hb. split; [|exact Hw].
  destruct loc; reflexivity.
Qed.

Lemma rt_live_keep sz r : ListSpec.live sz r = keep sz r.
Proof. unfold ListSpec.live, keep, ListSpec.atomb, tombstone, ListSpec.amod, amod. apply andb_comm. Qed.

Lemma rt_resolve_loc sz tbl : size_ok sz -> forall es base,
  ListSpec.resolve_loc sz tbl base (map tr_loc es) = Some (resolve sz base es).
Proof.
  intros Hs. assert (Hd : ListSpec.live sz (0, ListSpec.u64_max) = true)
    by (destruct Hs as [-> | [-> | [-> | ->]]]; vm_compute; reflexivity).
  induction es as [|e es IH]; intros base; [reflexivity|].
  cbn [map ListSpec.resolve_loc]. unfold tr_loc at 1.
  destruct e as [a|b e d|b e d|b len d|d|b e d]; cbn [tr_ent ent_data ListSpec.resolve1 resolve].
  - rewrite IH. reflexivity.
  - change (ListSpec.atomb sz) with (tombstone sz). destruct (tombstone sz <=? base); rewrite IH; [reflexivity|].
    unfold emit, ListSpec.wadd. change (ListSpec.amod sz) with (amod sz). rewrite rt_live_keep. reflexivity.
  - rewrite IH. unfold emit. rewrite rt_live_keep. reflexivity.
  - rewrite IH. unfold emit, ListSpec.wadd. change (ListSpec.amod sz) with (amod sz). rewrite rt_live_keep. reflexivity.
  - rewrite IH, Hd. reflexivity.
  - change (ListSpec.atomb sz) with (tombstone sz). destruct (tombstone sz <=? base); rewrite IH; [reflexivity|].
    unfold emit, ListSpec.wadd. change (ListSpec.amod sz) with (amod sz). rewrite rt_live_keep. reflexivity.
Qed.

Lemma rt_resolve_rng sz tbl : size_ok sz -> forall es base,
  ListSpec.resolve_rng sz tbl base (map tr_ent es) = Some (map fst (resolve sz base es)).
Proof.
  intros Hs es base. replace (map tr_ent es) with (map fst (map tr_loc es)) by (rewrite map_map; reflexivity).
  now rewrite ListsRdProofs.resolve_rng_fst, rt_resolve_loc.
Qed.

Lemma rt_valid_asize asz : size_ok asz -> ListSpec.valid_asize asz = true.
Proof. intros [-> | [-> | [-> | ->]]]; reflexivity. Qed.

Definition no_addr_table : ListsRd.lctx := ListsRd.Build_lctx [] 0.

(* a DWARF 5 range list: the reader's raw iterator yields the written entries, its resolving iterator their meaning *)
Lemma rt_reader_rng5 dbg be asz l bs (pre post other : list byte) :
  write_list_v5 false be 5 asz l = Ok bs -> Forall (wf false) l -> size_ok asz ->
  exists es, ents_of l = Some es /\
    ListsRd.raw_ranges_all dbg (rd_cfg be asz 5) other (pre ++ bs ++ post) (N.of_nat (length pre))
      = Ok (map ListsRd.EvItem (map tr_ent es)) /\
    forall x base, N.of_nat (length (ListsRd.x_addr x)) < two64 ->
      ListsRd.ranges_all dbg (rd_cfg be asz 5) x other (pre ++ bs ++ post) (N.of_nat (length pre)) base
        = Ok (map ListsRd.EvItem (map fst (resolve asz base es))).
Proof.
  intros H Hwf Hs. destruct (rt_list5 false be asz l bs H Hwf) as [es [He [-> Hw]]]. cbv iota in Hw.
  pose proof (rt_valid_asize _ Hs) as Hv.
  exists es. split; [exact He|]. split.
  - exact (ListsRdProofs.raw_ranges_all_enc dbg (rd_cfg be asz 5) (map tr_ent es) pre post other Hv Hw).
  - intros x base Hx.
    exact (ListsRdProofs.ranges_all_enc dbg (rd_cfg be asz 5) x (map tr_ent es) pre post other base _ Hv Hx Hw
             (rt_resolve_rng asz _ Hs es base)).
Qed.

Lemma rt_reader_loc5 dbg be asz l bs (pre post other : list byte) :
  write_list_v5 true be 5 asz l = Ok bs -> Forall (wf true) l -> size_ok asz ->
  exists es, ents_of l = Some es /\
    ListsRd.raw_locations_all dbg (rd_cfg be asz 5) false other (pre ++ bs ++ post) (N.of_nat (length pre))
      = Ok (map ListsRd.EvItem (map tr_loc es)) /\
    forall x base, N.of_nat (length (ListsRd.x_addr x)) < two64 ->
      ListsRd.locations_all dbg (rd_cfg be asz 5) false x other (pre ++ bs ++ post) (N.of_nat (length pre)) base
        = Ok (map ListsRd.EvItem (resolve asz base es)).
Proof.
  intros H Hwf Hs. destruct (rt_list5 true be asz l bs H Hwf) as [es [He [-> Hw]]]. cbv iota in Hw.
  pose proof (rt_valid_asize _ Hs) as Hv.
  exists es. split; [exact He|]. split.
  - exact (ListsRdProofs.raw_locations_all_enc dbg (rd_cfg be asz 5) false (map tr_loc es) pre post other Hv Hw).
  - intros x base Hx.
    exact (ListsRdProofs.locations_all_enc dbg (rd_cfg be asz 5) false x (map tr_loc es) pre post other base _ Hv Hx Hw
             (rt_resolve_loc asz _ Hs es base)).
Qed.

Lemma rt_version_cases version : 2 <= version <= 4 -> version = 2 \/ version = 3 \/ version = 4.
Proof. lia. Qed.

(* DWARF 2-4 range list: the reader sees the pairs, which resolve (given the writer's base-address discipline)
   to the meaning of the written list *)
Lemma rt_reader_rng4 dbg be version asz hb base l bs (pre post other : list byte) :
  write_list_v4 false be version asz (marker asz) hb l = Ok bs -> 2 <= version <= 4 -> Forall (wf false) l ->
  (hb = false -> base = 0) ->
  exists ps es, pairs_of l = Some ps /\ ents_of l = Some es /\
    ListsRd.raw_ranges_all dbg (rd_cfg be asz version) (pre ++ bs ++ post) other (N.of_nat (length pre))
      = Ok (map ListsRd.EvItem (map tr_ent ps)) /\
    forall x, N.of_nat (length (ListsRd.x_addr x)) < two64 ->
      ListsRd.ranges_all dbg (rd_cfg be asz version) x (pre ++ bs ++ post) other (N.of_nat (length pre)) base
        = Ok (map ListsRd.EvItem (map fst (resolve asz base es))).
Proof.
  intros H Hver Hwf Hb.
  destruct (write_list_v4_pairs _ _ _ _ _ _ _ H ltac:(lia) Hwf) as [Hs [ps [es [Hp [He [-> [Hok [Hnm Hres]]]]]]]].
  destruct (rt_list4 false be asz version ps Hok Hnm) as [Henc Hw]. cbv iota in Henc, Hw. rewrite Henc.
  pose proof (rt_valid_asize _ Hs) as Hv.
  exists ps, es. split; [exact Hp|]. split; [exact He|].
  destruct (rt_version_cases _ Hver) as [-> | [-> | ->]];
    match goal with |- context [rd_cfg be asz ?v] =>
      split;
      [exact (ListsRdProofs.raw_ranges_all_enc dbg (rd_cfg be asz v) (map tr_ent ps) pre post other Hv Hw)
      |intros x Hx; rewrite <- (Hres base Hb);
       exact (ListsRdProofs.ranges_all_enc dbg (rd_cfg be asz v) x (map tr_ent ps) pre post other base _ Hv Hx Hw
                (rt_resolve_rng asz _ Hs ps base))]
    end.
Qed.

Lemma rt_reader_loc4 dbg be version asz hb base l bs (pre post other : list byte) :
  write_list_v4 true be version asz (marker asz) hb l = Ok bs -> 2 <= version <= 4 -> Forall (wf true) l ->
  (hb = false -> base = 0) ->
  exists ps es, pairs_of l = Some ps /\ ents_of l = Some es /\
    ListsRd.raw_locations_all dbg (rd_cfg be asz version) false (pre ++ bs ++ post) other (N.of_nat (length pre))
      = Ok (map ListsRd.EvItem (map tr_loc ps)) /\
    forall x, N.of_nat (length (ListsRd.x_addr x)) < two64 ->
      ListsRd.locations_all dbg (rd_cfg be asz version) false x (pre ++ bs ++ post) other (N.of_nat (length pre)) base
        = Ok (map ListsRd.EvItem (resolve asz base es)).
Proof.
  intros H Hver Hwf Hb.
  destruct (write_list_v4_pairs _ _ _ _ _ _ _ H ltac:(lia) Hwf) as [Hs [ps [es [Hp [He [-> [Hok [Hnm Hres]]]]]]]].
  destruct (rt_list4 true be asz version ps Hok Hnm) as [Henc Hw]. cbv iota in Henc, Hw. rewrite Henc.
  pose proof (rt_valid_asize _ Hs) as Hv.
  exists ps, es. split; [exact Hp|]. split; [exact He|].
  destruct (rt_version_cases _ Hver) as [-> | [-> | ->]];
    match goal with |- context [rd_cfg be asz ?v] =>
      split;
      [exact (ListsRdProofs.raw_locations_all_enc dbg (rd_cfg be asz v) false (map tr_loc ps) pre post other Hv Hw)
      |intros x Hx; rewrite <- (Hres base Hb);
       exact (ListsRdProofs.locations_all_enc dbg (rd_cfg be asz v) false x (map tr_loc ps) pre post other base _ Hv Hx Hw
                (rt_resolve_loc asz _ Hs ps base))]
    end.
Qed.

Lemma rt_unit_reader_v5 dbg be fmt64 asz attrs rstart lstart rtbl ltbl rb ro lb lo (rsec lsec other : list byte) :
  unit_write_lists be fmt64 5 asz attrs rstart lstart rtbl ltbl = Ok ((rb, ro), (lb, lo)) -> size_ok asz ->
  N.of_nat (length rsec) = rstart -> N.of_nat (length lsec) = lstart -> unit_wf rtbl ltbl ->
  (forall i l, nth_error rtbl i = Some l ->
     exists o es, nth_error ro i = Some o /\ ents_of (map loc_of_range l) = Some es /\
       ListsRd.raw_ranges_all dbg (rd_cfg be asz 5) other (rsec ++ rb) o = Ok (map ListsRd.EvItem (map tr_ent es)) /\
       forall x base, N.of_nat (length (ListsRd.x_addr x)) < two64 ->
         exists rs, meaning_rng asz base l = Some rs /\
           ListsRd.ranges_all dbg (rd_cfg be asz 5) x other (rsec ++ rb) o base = Ok (map ListsRd.EvItem rs)) /\
  (forall i l, nth_error ltbl i = Some l ->
     exists o es, nth_error lo i = Some o /\ ents_of l = Some es /\
       ListsRd.raw_locations_all dbg (rd_cfg be asz 5) false other (lsec ++ lb) o = Ok (map ListsRd.EvItem (map tr_loc es)) /\
       forall x base, N.of_nat (length (ListsRd.x_addr x)) < two64 ->
         exists rs, meaning_loc asz base l = Some rs /\
           ListsRd.locations_all dbg (rd_cfg be asz 5) false x other (lsec ++ lb) o base = Ok (map ListsRd.EvItem rs)).
Proof.
  intros H Hs Hrs Hls [Hwr Hwl]. destruct (lw_unit_tables _ _ _ _ _ _ _ _ _ _ _ H) as [Hr Hl]. split.
  - intros i l Hi.
    destruct (lw_table_layout_v5 _ _ _ _ _ _ _ _ _ rsec Hr Hrs i _ (map_nth_error _ _ _ Hi)) as [pre [bs [post [Ho [Hw Hsec]]]]].
    pose proof (lw_wf_map_range _ Hwr) as Hwr'. rewrite Forall_forall in Hwr'.
    assert (Hwl' : Forall (wf false) (map loc_of_range l)) by (apply Hwr'; apply in_map; eapply nth_error_In; eauto).
    destruct (rt_reader_rng5 dbg be asz _ bs pre post other Hw Hwl' Hs) as [es [He [Hraw Hres]]].
    exists (N.of_nat (length pre)), es. split; [exact Ho|]. split; [exact He|]. rewrite Hsec. split; [exact Hraw|].
    intros x base Hx. exists (map fst (resolve asz base es)). split; [|now apply Hres].
    unfold meaning_rng. now rewrite He.
  - intros i l Hi.
    destruct (lw_table_layout_v5 _ _ _ _ _ _ _ _ _ lsec Hl Hls i _ Hi) as [pre [bs [post [Ho [Hw Hsec]]]]].
    rewrite Forall_forall in Hwl.
    assert (Hwl' : Forall (wf true) l) by (apply Hwl; eapply nth_error_In; eauto).
    destruct (rt_reader_loc5 dbg be asz _ bs pre post other Hw Hwl' Hs) as [es [He [Hraw Hres]]].
    exists (N.of_nat (length pre)), es. split; [exact Ho|]. split; [exact He|]. rewrite Hsec. split; [exact Hraw|].
    intros x base Hx. exists (resolve asz base es). split; [|now apply Hres].
    unfold meaning_loc. now rewrite He.
Qed.

Lemma rt_unit_reader_v4 dbg be fmt64 version asz attrs rstart lstart rtbl ltbl rb ro lb lo (rsec lsec other : list byte) :
  unit_write_lists be fmt64 version asz attrs rstart lstart rtbl ltbl = Ok ((rb, ro), (lb, lo)) -> 2 <= version <= 4 ->
  N.of_nat (length rsec) = rstart -> N.of_nat (length lsec) = lstart -> unit_wf rtbl ltbl ->
  (forall i l, nth_error rtbl i = Some l ->
     exists o ps, nth_error ro i = Some o /\ pairs_of (map loc_of_range l) = Some ps /\
       ListsRd.raw_ranges_all dbg (rd_cfg be asz version) (rsec ++ rb) other o = Ok (map ListsRd.EvItem (map tr_ent ps)) /\
       forall x, N.of_nat (length (ListsRd.x_addr x)) < two64 ->
         exists rs, meaning_rng asz (unit_base attrs) l = Some rs /\
           ListsRd.ranges_all dbg (rd_cfg be asz version) x (rsec ++ rb) other o (unit_base attrs) = Ok (map ListsRd.EvItem rs)) /\
  (forall i l, nth_error ltbl i = Some l ->
     exists o ps, nth_error lo i = Some o /\ pairs_of l = Some ps /\
       ListsRd.raw_locations_all dbg (rd_cfg be asz version) false (lsec ++ lb) other o = Ok (map ListsRd.EvItem (map tr_loc ps)) /\
       forall x, N.of_nat (length (ListsRd.x_addr x)) < two64 ->
         exists rs, meaning_loc asz (unit_base attrs) l = Some rs /\
           ListsRd.locations_all dbg (rd_cfg be asz version) false x (lsec ++ lb) other o (unit_base attrs) = Ok (map ListsRd.EvItem rs)).
Proof.
  intros H Hv Hrs Hls [Hwr Hwl]. destruct (lw_unit_tables _ _ _ _ _ _ _ _ _ _ _ H) as [Hr Hl].
  pose proof (lw_base_from_root attrs) as Hb. split.
  - intros i l Hi.
    destruct (lw_table_layout_v4 _ _ _ _ _ _ _ _ _ _ rsec Hr Hv Hrs i _ (map_nth_error _ _ _ Hi)) as [pre [bs [post [Ho [Hw Hsec]]]]].
    pose proof (lw_wf_map_range _ Hwr) as Hwr'. rewrite Forall_forall in Hwr'.
    assert (Hwl' : Forall (wf false) (map loc_of_range l)) by (apply Hwr'; apply in_map; eapply nth_error_In; eauto).
    destruct (rt_reader_rng4 dbg be version asz _ (unit_base attrs) _ bs pre post other Hw Hv Hwl' Hb) as [ps [es [Hp [He [Hraw Hres]]]]].
    exists (N.of_nat (length pre)), ps. split; [exact Ho|]. split; [exact Hp|]. rewrite Hsec. split; [exact Hraw|].
    intros x Hx. exists (map fst (resolve asz (unit_base attrs) es)). split; [|now apply Hres].
    unfold meaning_rng. now rewrite He.
  - intros i l Hi.
    destruct (lw_table_layout_v4 _ _ _ _ _ _ _ _ _ _ lsec Hl Hv Hls i _ Hi) as [pre [bs [post [Ho [Hw Hsec]]]]].
    rewrite Forall_forall in Hwl.
    assert (Hwl' : Forall (wf true) l) by (apply Hwl; eapply nth_error_In; eauto).
    destruct (rt_reader_loc4 dbg be version asz _ (unit_base attrs) _ bs pre post other Hw Hv Hwl' Hb) as [ps [es [Hp [He [Hraw Hres]]]]].
    exists (N.of_nat (length pre)), ps. split; [exact Ho|]. split; [exact Hp|]. rewrite Hsec. split; [exact Hraw|].
    intros x Hx. exists (resolve asz (unit_base attrs) es). split; [|now apply Hres].
    unfold meaning_loc. now rewrite He.
Qed.
