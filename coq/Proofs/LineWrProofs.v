(* One row of write::LineProgram (Model/LineWr.v) against the DWARF line state machine of Spec/LineAdvSpec.v:
   the opcode selection of generate_row (advance_insns) and its register instructions (field_insns). Property C13. *)
From Coq Require Import List NArith ZArith Bool Lia ZifyBool ZifyN ZifyNat.
From Coq.Strings Require Import Byte.
Require Import GV.Base.Res GV.Base.Byt GV.Base.Ints GV.Model.Leb GV.Model.Prim.
Require Import GV.Spec.LineAdvSpec GV.Model.LineWr GV.Proofs.Lib.
Import ListNotations.

Lemma pow64 : (2 ^ 64 = 18446744073709551616)%N. Proof. reflexivity. Qed.

(* i64 as u64 *)
Lemma of_i64_Z z : (-9223372036854775808 <= z < 9223372036854775808)%Z ->
  Z.of_N (of_i64 z) = (z mod 18446744073709551616)%Z.
Proof.
  intros H. unfold of_i64, of_signed. rewrite pow64.
  rewrite Z2N.id; [reflexivity|]. apply Z.mod_pos_bound. lia.
Qed.

(* (a as u64).wrapping_sub(b as u64), for i64 values a, b *)
Lemma wrapping_sub_i64 a b :
  (-9223372036854775808 <= a < 9223372036854775808)%Z ->
  (-9223372036854775808 <= b < 9223372036854775808)%Z ->
  Z.of_N (wrap64 (of_i64 a + two64 - of_i64 b)) = ((a - b) mod 18446744073709551616)%Z.
Proof.
  intros Ha Hb. pose proof (of_i64_Z a Ha) as Ea. pose proof (of_i64_Z b Hb) as Eb.
  unfold wrap64, two64. lia.
Qed.

Lemma to_i8_small n : (n < 128)%N -> to_i8 n = Z.of_N n.
Proof.
  intros H. unfold to_i8, to_signed, wrapN. change (2 ^ 8)%N with 256%N. change (2 ^ (8 - 1))%N with 128%N.
  rewrite N.mod_small by lia. destruct (N.ltb_spec n 128); [reflexivity | lia].
Qed.

Lemma chk_s8_ok dbg z : (-128 <= z < 128)%Z -> chk_s 8 dbg z = Ok z.
Proof.
  intros H. unfold chk_s.
  assert (E : in_signed 8 z = true).
  { unfold in_signed. change (Z.of_N (2 ^ (8 - 1))) with 128%Z.
    apply andb_true_intro; split; [apply Z.leb_le | apply Z.ltb_lt]; lia. }
  now rewrite E.
Qed.

Lemma run_app p a b r :
  run p (a ++ b) r =
  let (rows1, r1) := run p a r in let (rows2, r2) := run p b r1 in (rows1 ++ rows2, r2).
Proof.
  revert r. induction a as [|i a IH]; intros r; cbn [app run].
  - destruct (run p b r); reflexivity.
  - destruct (step p i r) as [rows0 r0]. rewrite IH.
    destruct (run p a r0) as [rows1 r1]. destruct (run p b r1) as [rows2 r2].
    now rewrite app_assoc.
Qed.

Lemma op_adv_0 p r : (0 < lp_max_ops p)%Z -> (0 <= r_op_index r < lp_max_ops p)%Z -> op_adv p 0 r = r.
Proof.
  intros Hm Hi. unfold op_adv. destruct r; cbn in *.
  rewrite Z.add_0_r. rewrite Z.div_small, Z.mod_small by lia. f_equal. lia.
Qed.

Lemma div_mod_add_split i b a m : (0 < m)%Z ->
  ((i + b) / m + ((i + b) mod m + a) / m = (i + b + a) / m)%Z /\
  (((i + b) mod m + a) mod m = (i + b + a) mod m)%Z.
Proof.
  intros Hm. split.
  - rewrite (Z.div_mod (i + b) m) at 3 by lia.
    replace (m * ((i + b) / m) + (i + b) mod m + a)%Z with (((i + b) mod m + a) + ((i + b) / m) * m)%Z by ring.
    rewrite Z.div_add by lia. ring.
  - rewrite Z.add_mod_idemp_l by lia. reflexivity.
Qed.

Lemma op_adv_op_adv p a b r : (0 < lp_max_ops p)%Z ->
  op_adv p a (op_adv p b r) = op_adv p (b + a) r.
Proof.
  intros Hm. unfold op_adv. cbn.
  destruct (div_mod_add_split (r_op_index r) b a (lp_max_ops p) Hm) as [Hd Hmod].
  rewrite Z.add_assoc. rewrite <- Hd, Hmod. f_equal. ring.
Qed.

Lemma op_adv_line_adv p n d r : op_adv p n (line_adv d r) = line_adv d (op_adv p n r).
Proof. reflexivity. Qed.

Lemma line_adv_line_adv a b r : line_adv a (line_adv b r) = line_adv (b + a) r.
Proof. unfold line_adv; cbn. f_equal. ring. Qed.

Lemma line_adv_0 r : line_adv 0 r = r.
Proof. unfold line_adv. destruct r; cbn. f_equal. ring. Qed.

(* decomposition of an adjusted special opcode *)
Lemma special_decompose sl k lr : (0 <= sl < lr)%Z ->
  ((sl + k * lr) / lr = k)%Z /\ ((sl + k * lr) mod lr = sl)%Z.
Proof.
  intros H. split.
  - rewrite Z.div_add by lia. rewrite Z.div_small by lia. ring.
  - rewrite Z.mod_add by lia. apply Z.mod_small; lia.
Qed.

(* the documented precondition of LineProgram::new plus the field widths *)
Definition enc_ok (l : lenc) : Prop :=
  (-128 <= le_line_base l <= 0)%Z /\ (0 < le_line_base l + Z.of_N (le_line_range l))%Z /\
  (le_line_range l <= 255)%N /\ (1 <= le_min_len l)%N /\ (1 <= le_max_ops l)%N.

Definition i64 (z : Z) : Prop := (-9223372036854775808 <= z < 9223372036854775808)%Z.

Definition regs_ok (p : lparams) (r : regs) : Prop := (0 <= r_op_index r < lp_max_ops p)%Z.

Definition special_ok (i : linsn) : Prop :=
  match i with ISpecial v => (13 <= v <= 255)%N | _ => True end.

Lemma special_default_val l : enc_ok l -> Z.of_N (special_default l) = (13 - le_line_base l)%Z.
Proof.
  intros (Hb & _). unfold special_default, OPCODE_BASE, wrap64, two64.
  assert (E : Z.of_N (of_i64 (le_line_base l)) = (le_line_base l mod 18446744073709551616)%Z)
    by (apply of_i64_Z; lia).
  lia.
Qed.

Lemma regs_ok_line_adv p d r : regs_ok p r -> regs_ok p (line_adv d r).
Proof. exact (fun H => H). Qed.

Lemma regs_ok_op_adv p n r : (0 < lp_max_ops p)%Z -> regs_ok p (op_adv p n r).
Proof. intros Hm. unfold regs_ok, op_adv; cbn. apply Z.mod_pos_bound; lia. Qed.

(* the line advance: a special opcode candidate, or DW_LNS_advance_line and the default candidate *)
Lemma line_stage_ok dbg l ladv : enc_ok l -> i64 ladv ->
  exists special use pre,
    adv_line_stage dbg l ladv = Ok (special, use, pre) /\
    (13 <= special)%N /\ (special - 13 < le_line_range l)%N /\ (special <= 255)%N /\
    (use = false -> special = special_default l) /\
    (pre = [] \/ pre = [IAdvanceLine ladv]) /\
    (forall ver p r, run p (map (denote ver) pre) r =
                     ([], line_adv (ladv - (le_line_base l + (Z.of_N special - 13))) r)).
Proof.
  intros Hok Hl. pose proof (special_default_val l Hok) as Hdef.
  destruct Hok as (Hb & Hr & Hr255 & _). unfold i64 in Hl.
  unfold adv_line_stage.
  destruct (Z.eqb_spec ladv 0) as [E0|E0]; cbn [negb].
  - (* no line advance *)
    exists (special_default l), false, []. repeat split; try lia; auto.
    intros ver p r. cbn [map run]. subst ladv.
    replace (0 - (le_line_base l + (Z.of_N (special_default l) - 13)))%Z with 0%Z by lia.
    now rewrite line_adv_0.
  - assert (Esl : Z.of_N (wrap64 (of_i64 ladv + two64 - of_i64 (le_line_base l)))
                  = ((ladv - le_line_base l) mod 18446744073709551616)%Z)
      by (apply wrapping_sub_i64; lia).
    set (sl := wrap64 (of_i64 ladv + two64 - of_i64 (le_line_base l))) in *.
    destruct (N.ltb_spec sl (le_line_range l)) as [Hlt|Hge];
      [rewrite chk_add_ok by (unfold OPCODE_BASE; lia); unfold OPCODE_BASE; cbn [bind];
       destruct (N.leb_spec (13 + sl) 255) as [Hfit|Hbig] |].
    { (* the line advance fits a special opcode *)
      exists (13 + sl)%N, true, []. repeat split; try lia; auto; try discriminate.
      intros ver p r. cbn [map run].
      replace (ladv - (le_line_base l + (Z.of_N (13 + sl) - 13)))%Z with 0%Z by lia.
      now rewrite line_adv_0. }
    (* otherwise, for the line range or for the byte: DW_LNS_advance_line *)
    all: exists (special_default l), false, [IAdvanceLine ladv]; repeat split; try lia; auto;
      intros ver p r; cbn [map denote run step exec app];
      replace (ladv - (le_line_base l + (Z.of_N (special_default l) - 13)))%Z with ladv by lia; reflexivity.
Qed.

Lemma op_range_le special oadv lr : (1 <= lr)%N -> (special <= 12 + lr)%N ->
  (255 < special + oadv * lr)%N -> (242 / lr <= oadv)%N.
Proof.
  intros Hlr Hs Hgt. destruct (N.le_gt_cases (242 / lr) oadv) as [H|H]; [exact H|exfalso].
  assert (H1 : ((oadv + 1) * lr <= (242 / lr) * lr)%N) by (apply N.mul_le_mono_r; lia).
  assert (H2 : (lr * (242 / lr) <= 242)%N) by (apply N.mul_div_le; lia).
  lia.
Qed.

(* the saturating fit test decides the exact (unbounded) inequality *)
Lemma sat_fit s a b : (sat_add64 s (sat_mul64 a b) <=? 255)%N = (s + a * b <=? 255)%N.
Proof.
  unfold sat_add64, sat_mul64, two64.
  destruct (N.leb_spec (s + a * b) 255); destruct (N.leb_spec (N.min (s + N.min (a * b) (18446744073709551616 - 1)) (18446744073709551616 - 1)) 255); try reflexivity; lia.
Qed.

Lemma sat_mul_small a b : (a * b <= 255)%N -> sat_mul64 a b = (a * b)%N.
Proof. intros H. unfold sat_mul64, two64. lia. Qed.

(* the operation advance: k of it folded into the special opcode candidate, the rest (all, or 242 / line_range)
   left to DW_LNS_advance_pc or DW_LNS_const_add_pc *)
Lemma op_stage_ok dbg l special use oadv : enc_ok l ->
  (13 <= special)%N -> (special - 13 < le_line_range l)%N ->
  exists special' use' mid k,
    adv_op_stage dbg l special use oadv = Ok (special', use', mid) /\
    special' = (special + k * le_line_range l)%N /\ (k <= oadv)%N /\
    (special <= 255 -> special' <= 255)%N /\
    (use' = false -> use = false /\ k = 0%N) /\
    (mid = [] \/ mid = [IConstAddPc] \/ mid = [IAdvancePc oadv]) /\
    (forall ver r, regs_ok (params_of l) r ->
       run (params_of l) (map (denote ver) mid) r = ([], op_adv (params_of l) (Z.of_N (oadv - k)) r)).
Proof.
  intros Hok H13 Hsl. destruct Hok as (Hb & Hr & Hr255 & Hmin & Hmax).
  set (lr := le_line_range l) in *.
  assert (Hlr : (1 <= lr)%N) by lia.
  assert (Hmaxz : (0 < lp_max_ops (params_of l))%Z) by (cbn; lia).
  unfold adv_op_stage. fold lr.
  destruct (N.eqb_spec oadv 0) as [E0|E0]; cbn [negb].
  - (* no operation advance *)
    exists special, use, [], 0%N. subst oadv. repeat split; try lia; auto.
    intros ver r Hr0. cbn [map run]. now rewrite op_adv_0.
  - rewrite sat_fit.
    destruct (N.leb_spec (special + oadv * lr) 255) as [Hle|Hgt]; cbn [bind].
    + (* folded into the special opcode *)
      rewrite sat_fit.
      destruct (N.leb_spec (special + oadv * lr) 255) as [_|Hc]; [|lia].
      rewrite sat_mul_small by lia. rewrite chk_add_ok by lia. cbn [bind].
      exists (special + oadv * lr)%N, true, [], oadv. repeat split; try lia; auto; try discriminate.
      intros ver r Hr0. cbn [map run]. rewrite N.sub_diag. now rewrite op_adv_0.
    + destruct (N.eqb_spec lr 0) as [Hz|_]; [lia|].
      unfold OPCODE_BASE. change (255 - 13)%N with 242%N.
      pose proof (op_range_le special oadv lr Hlr ltac:(lia) Hgt) as Hq.
      rewrite chk_sub_ok by exact Hq. cbn [bind].
      set (q := (242 / lr)%N) in *.
      rewrite sat_fit.
      destruct (N.leb_spec (special + (oadv - q) * lr) 255) as [Hle2|Hgt2].
      * (* DW_LNS_const_add_pc + special opcode *)
        rewrite sat_mul_small by lia. rewrite chk_add_ok by lia. cbn [bind].
        exists (special + (oadv - q) * lr)%N, true, [IConstAddPc], (oadv - q)%N.
        repeat split; try lia; auto; try discriminate.
        intros ver r Hr0. cbn [map denote run step exec app].
        unfold special_op_adv. cbn [params_of lp_opcode_base lp_line_range]. fold lr.
        unfold OPCODE_BASE. change (255 - Z.of_N 13)%Z with 242%Z.
        f_equal. f_equal. unfold q. lia.
      * (* DW_LNS_advance_pc *)
        exists special, use, [IAdvancePc oadv], 0%N. repeat split; try lia; auto.
        intros ver r Hr0. cbn [map denote run step exec app]. now rewrite N.sub_0_r.
Qed.

Lemma debug_asserts_ok dbg l : enc_ok l -> adv_debug_asserts dbg l = Ok tt.
Proof.
  intros (Hb & Hr & _). unfold adv_debug_asserts. destruct dbg; [|reflexivity].
  destruct (Z.leb_spec (le_line_base l) 0) as [_|Hc]; [|lia]. cbn [negb].
  destruct (Z.leb_spec 0 (le_line_base l + Z.of_N (le_line_range l))) as [_|Hc]; [reflexivity|lia].
Qed.

(* advance_insns never fails; it emits at most one DW_LNS_advance_line, at most one operation-advance instruction
   and then the row: a special opcode that is a byte >= 13, or DW_LNS_copy *)
Lemma advance_parts dbg l ladv oadv :
  enc_ok l -> i64 ladv ->
  exists pre mid fin,
    advance_insns dbg l ladv oadv = Ok (pre ++ mid ++ fin) /\
    (pre = [] \/ pre = [IAdvanceLine ladv]) /\
    (mid = [] \/ mid = [IConstAddPc] \/ mid = [IAdvancePc oadv]) /\
    (fin = [ICopy] \/ exists v, (13 <= v <= 255)%N /\ fin = [ISpecial v]) /\
    forall ver r, regs_ok (params_of l) r ->
      run (params_of l) (map (denote ver) (pre ++ mid ++ fin)) r =
      ([op_adv (params_of l) (Z.of_N oadv) (line_adv ladv r)],
       after_row (params_of l) (op_adv (params_of l) (Z.of_N oadv) (line_adv ladv r))).
Proof.
  intros Hok Hl.
  pose proof (special_default_val l Hok) as Hdef.
  destruct (line_stage_ok dbg l ladv Hok Hl) as (special & use & pre & E1 & H13 & Hsl & Hsp255 & Huse & Spre & Rpre).
  destruct (op_stage_ok dbg l special use oadv Hok H13 Hsl)
    as (special' & use' & mid & k & E2 & Hs' & Hk & H255 & Huse' & Smid & Rmid).
  unfold advance_insns. rewrite (debug_asserts_ok dbg l Hok). cbn [bind].
  rewrite E1. cbn [bind]. rewrite E2. cbn [bind].
  destruct Hok as (Hb & Hr & Hr255 & Hmin & Hmax).
  set (lr := le_line_range l) in *.
  assert (Hs255 : (special' <= 255)%N) by (apply H255; exact Hsp255).
  assert (Hmaxz : (0 < lp_max_ops (params_of l))%Z) by (cbn; lia).
  assert (Hkl : (k = 0%N) \/ (lr <= k * lr)%N).
  { destruct (N.eq_dec k 0) as [->|Hk0]; [now left|right].
    replace lr with (1 * lr)%N at 1 by lia. apply N.mul_le_mono_r. lia. }
  unfold adv_final.
  destruct (use' && negb (special' =? special_default l)%N) eqn:Efin.
  - (* special opcode *)
    assert (Hdbg : (dbg && ((special' <? OPCODE_BASE)%N || (255 <? special')%N))%bool = false).
    { unfold OPCODE_BASE. destruct (N.ltb_spec special' 13); [lia|].
      destruct (N.ltb_spec 255 special'); [lia|]. now rewrite andb_false_r. }
    rewrite Hdbg. cbn [bind]. rewrite wrap8_small by lia.
    exists pre, mid, [ISpecial special']. split; [reflexivity|]. split; [exact Spre|]. split; [exact Smid|].
    split; [right; exists special'; split; [lia|reflexivity]|].
    intros ver r Hr0. rewrite !map_app. rewrite run_app, Rpre. cbv beta iota.
    rewrite run_app, Rmid by (apply regs_ok_line_adv; exact Hr0). cbv beta iota.
    cbn [map denote run step exec app].
    (* the special opcode carries the k operation advances and the line advance left over *)
    assert (Esp : special_op_adv (params_of l) (Z.of_N special') = Z.of_N k /\
                  special_line_adv (params_of l) (Z.of_N special') = (le_line_base l + (Z.of_N special - 13))%Z).
    { unfold special_op_adv, special_line_adv. cbn [params_of lp_opcode_base lp_line_range lp_line_base].
      fold lr. unfold OPCODE_BASE.
      replace (Z.of_N special' - Z.of_N 13)%Z with (Z.of_N special - 13 + Z.of_N k * Z.of_N lr)%Z by lia.
      destruct (special_decompose (Z.of_N special - 13) (Z.of_N k) (Z.of_N lr) ltac:(lia)) as [-> ->].
      split; reflexivity. }
    destruct Esp as [-> ->].
    rewrite op_adv_line_adv, op_adv_op_adv by exact Hmaxz.
    rewrite <- op_adv_line_adv, line_adv_line_adv.
    replace (Z.of_N (oadv - k) + Z.of_N k)%Z with (Z.of_N oadv) by lia.
    replace (ladv - (le_line_base l + (Z.of_N special - 13)) + (le_line_base l + (Z.of_N special - 13)))%Z
      with ladv by lia.
    reflexivity.
  - (* DW_LNS_copy: nothing is left to advance *)
    assert (Hnone : k = 0%N /\ (le_line_base l + (Z.of_N special - 13) = 0)%Z).
    { destruct use'.
      - cbn [andb] in Efin. apply negb_false_iff in Efin. apply N.eqb_eq in Efin.
        rewrite Efin in Hs'. destruct Hkl as [->|Hge]; lia.
      - destruct (Huse' eq_refl) as [Hu ->]. rewrite (Huse Hu). lia. }
    destruct Hnone as [-> Hrl].
    exists pre, mid, [ICopy]. split; [reflexivity|]. split; [exact Spre|]. split; [exact Smid|].
    split; [left; reflexivity|].
    intros ver r Hr0. rewrite !map_app. rewrite run_app, Rpre. cbv beta iota.
    rewrite run_app, Rmid by (apply regs_ok_line_adv; exact Hr0). cbv beta iota.
    cbn [map denote run step exec app]. rewrite N.sub_0_r.
    replace (ladv - (le_line_base l + (Z.of_N special - 13)))%Z with ladv by lia.
    reflexivity.
Qed.

Lemma advance_correct dbg l ladv oadv :
  enc_ok l -> i64 ladv ->
  exists insns,
    advance_insns dbg l ladv oadv = Ok insns /\
    Forall special_ok insns /\
    forall ver r, regs_ok (params_of l) r ->
      run (params_of l) (map (denote ver) insns) r =
      ([op_adv (params_of l) (Z.of_N oadv) (line_adv ladv r)],
       after_row (params_of l) (op_adv (params_of l) (Z.of_N oadv) (line_adv ladv r))).
Proof.
  intros Hok Hl. destruct (advance_parts dbg l ladv oadv Hok Hl) as (pre & mid & fin & E & Hpre & Hmid & Hfin & R).
  exists (pre ++ mid ++ fin). split; [exact E|]. split; [|exact R].
  apply Forall_app; split; [|apply Forall_app; split].
  - destruct Hpre as [-> | ->]; repeat constructor.
  - destruct Hmid as [-> | [-> | ->]]; repeat constructor.
  - destruct Hfin as [-> | (v & Hv & ->)]; constructor; [exact I|constructor|exact Hv|constructor].
Qed.

(* the file number a FileId is written as (FileId::raw) *)
Definition raw (ver : N) (f : N) : Z := Z.of_N (if (ver <=? 4)%N then f + 1 else f)%N.

(* the writer's picture of the reader (prev_row) agrees with the reader's registers *)
Definition synced (ver : N) (prev : wrow) (r : regs) : Prop :=
  r_op_index r = Z.of_N (w_op_index prev) /\ r_file r = raw ver (w_file prev) /\
  r_line r = Z.of_N (w_line prev) /\ r_column r = Z.of_N (w_column prev) /\
  r_is_stmt r = w_is_statement prev /\ r_isa r = Z.of_N (w_isa prev) /\
  r_discriminator r = 0%Z /\ r_basic_block r = false /\ r_prologue_end r = false /\
  r_epilogue_begin r = false /\ r_end_sequence r = false.

(* registers after the field instructions of a row: every non-address field is the row's *)
Definition fields_set (ver : N) (row : wrow) (r : regs) : regs :=
  mkRegs (r_address r) (r_op_index r) (raw ver (w_file row)) (r_line r) (Z.of_N (w_column row))
         (w_is_statement row) (w_basic_block row) false (w_prologue_end row) (w_epilogue_begin row)
         (Z.of_N (w_isa row)) (Z.of_N (w_discriminator row)).

Lemma row_fields ver p row prev r : synced ver prev r ->
  run p (map (denote ver) (field_insns row prev)) r = ([], fields_set ver row r).
Proof.
  intros H. unfold synced in H. unfold field_insns, fields_set.
  destruct r as [addr opi file line col stmt bb es pe eb isa disc].
  destruct row as [rao ropi rfile rline rcol rdisc rstmt rbb rpe reb risa].
  destruct prev as [pao popi pfile pline pcol pdisc pstmt pbb ppe peb pisa].
  cbn in H. destruct H as (-> & -> & -> & -> & -> & -> & -> & -> & -> & -> & ->).
  cbn [w_address_offset w_op_index w_file w_line w_column w_discriminator w_is_statement w_basic_block
       w_prologue_end w_epilogue_begin w_isa r_address r_op_index r_line].
  destruct (N.eqb_spec rdisc 0) as [->|?]; destruct rbb; destruct rpe; destruct reb;
  destruct rstmt; destruct pstmt;
  destruct (N.eqb_spec rfile pfile) as [->|?]; destruct (N.eqb_spec rcol pcol) as [->|?];
  destruct (N.eqb_spec risa pisa) as [->|?]; reflexivity.
Qed.

Lemma in_when {A} (c : bool) (x i : A) : In i (if c then [x] else []) <-> c = true /\ i = x.
Proof. destruct c; cbn; intuition (discriminate || auto). Qed.

(* field_insns holds exactly one instruction for each flag that is set and each persistent register that
   differs from the writer's picture of the reader *)
Lemma in_field_insns i row prev :
  In i (field_insns row prev) <->
     w_discriminator row <> 0%N /\ i = ISetDiscriminator (w_discriminator row)
  \/ w_basic_block row = true /\ i = ISetBasicBlock
  \/ w_prologue_end row = true /\ i = ISetPrologueEnd
  \/ w_epilogue_begin row = true /\ i = ISetEpilogueBegin
  \/ w_is_statement row <> w_is_statement prev /\ i = INegateStatement
  \/ w_file row <> w_file prev /\ i = ISetFile (w_file row)
  \/ w_column row <> w_column prev /\ i = ISetColumn (w_column row)
  \/ w_isa row <> w_isa prev /\ i = ISetIsa (w_isa row).
Proof.
  unfold field_insns.
  rewrite !in_app_iff, !in_when, !negb_true_iff, !N.eqb_neq, eqb_false_iff. reflexivity.
Qed.

Lemma field_insns_special_ok row prev : Forall special_ok (field_insns row prev).
Proof.
  apply Forall_forall. intros i H. apply in_field_insns in H.
  intuition (subst; exact I).
Qed.
