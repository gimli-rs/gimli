(* Proofs/AbbrevCacheProofs.v — the abbreviation cache is transparent (C20). *)
From Coq Require Import List NArith Bool Lia.
Require Import GV.Model.AbbrevCache.
Import ListNotations.
Local Open Scope N_scope.

Section Proofs.
  Context {A : Type}.
  Variable parse : N -> A.

  (* invariant: every cached entry holds exactly what parsing its key yields *)
  Definition faithful (c : @cache A) : Prop := forall k v, In (k, v) c -> v = parse k.

  Lemma insert_faithful k (c : @cache A) : faithful c -> faithful (insert k (parse k) c).
  Proof.
    induction c as [|[k' v'] r IH]; intros H k0 v0; cbn [insert].
    - intros [E|[]]. inversion E; subst. reflexivity.
    - destruct (k =? k') eqn:E.
      + intros [E'|Hin]; [inversion E'; subst; reflexivity|]. apply (H k0 v0). right. exact Hin.
      + intros [E'|Hin].
        * inversion E'; subst. apply (H k0 v0). left. reflexivity.
        * apply IH; [|exact Hin]. intros k1 v1 H1. apply (H k1 v1). right. exact H1.
  Qed.

  Lemma fold_faithful l : forall c, faithful c ->
    faithful (fold_left (fun c o => insert o (parse o) c) l c).
  Proof.
    induction l as [|o r IH]; intros c H; cbn [fold_left]; [exact H|].
    apply IH. apply insert_faithful. exact H.
  Qed.

  Lemma populate_faithful s offs : faithful (populate parse s offs).
  Proof. unfold populate. apply fold_faithful. intros k v []. Qed.

  Lemma lookup_in k (c : @cache A) v : lookup k c = Some v -> In (k, v) c.
  Proof.
    induction c as [|[k' v'] r IH]; cbn [lookup]; [discriminate|].
    destruct (k =? k') eqn:E.
    - intros H; inversion H; subst. apply N.eqb_eq in E; subst. left. reflexivity.
    - intros H. right. apply IH. exact H.
  Qed.

  Lemma get_faithful (c : @cache A) o : faithful c -> get parse c o = parse o.
  Proof.
    intros H. unfold get. destruct (lookup o c) eqn:E; [|reflexivity].
    apply lookup_in in E. apply (H _ _ E).
  Qed.

End Proofs.

Lemma retain_second_in prev count l o :
  In o (retain_second prev count l) -> In o l.
Proof.
  revert prev count. induction l as [|x r IH]; intros prev count; cbn [retain_second]; [intros []|].
  destruct ((count =? 0) || negb (prev =? x)); cbn [fst snd].
  - destruct (1 =? 2) eqn:E; [discriminate|]. intros H. right. eapply IH. exact H.
  - destruct (count + 1 =? 2).
    + intros [->|H]; [left; reflexivity|right; eapply IH; exact H].
    + intros H. right. eapply IH. exact H.
Qed.
