(* Proofs/SibBadProofs.v — which DW_AT_sibling values the DW_AT_sibling fast path of
   EntriesCursor::next_sibling / EntriesTree::next ignores, and which it believes, for EVERY reader
   state and EVERY entry (no well-formedness assumed). The attribute is consulted only through
   DieRd.sibling_jump (DebuggingInformationEntry::sibling + EntriesRaw::seek_forward). *)
From Coq Require Import List NArith ZArith Bool Lia ZifyBool ZifyN ZifyNat.
From Coq.Strings Require Import Byte.
Require Import GV.Base.Res GV.Base.Byt GV.Base.Ints GV.Model.Leb GV.Model.Prim
               GV.Spec.FormSpec GV.Model.Attr GV.Spec.Forest GV.Model.AbbrevRd GV.Model.DieRd
               GV.Proofs.AttrProofs GV.Proofs.DieRdProofs.
Import ListNotations.
Local Open Scope N_scope.

(* the value classes that are ignored: the entry has no children; there is no DW_AT_sibling, or its
   (normalised) value is not a unit reference (DW_FORM_data*, udata, ref_addr, sec_offset, strings,
   ...); the reference points backwards or at the entry itself; it points before the reader, i.e.
   into the entry's own abbreviation code / attribute bytes; it points beyond the end of the unit *)
Definition sib_ignored (r : raw_st) (cur : die) : Prop :=
  d_children cur = false \/
  match die_attr_value cur DW_AT_sibling with
  | Some (VUnitRef o) => o <= d_offset cur \/ o < r_end r - nlen (r_in r) \/ r_end r < o
  | _ => True
  end.

Lemma skip_n_short n bs : nlen bs < n -> exists x, skip_n n bs = Err x.
Proof.
  intros H. pose proof (skip_n_res n bs) as [P O].
  destruct (skip_n n bs) as [t|x| |] eqn:E; try congruence; [|eauto].
  exfalso. apply skip_n_spec in E. destruct E as (hd & -> & L). unfold nlen in H. rewrite app_length in H. lia.
Qed.

Lemma skip_n_enough n bs : n <= nlen bs -> skip_n n bs = Ok (skipn (N.to_nat n) bs).
Proof.
  intros H. rewrite <- (firstn_skipn (N.to_nat n) bs) at 1.
  replace n with (N.of_nat (length (firstn (N.to_nat n) bs))) at 1; [apply skip_n_app|].
  rewrite firstn_length. unfold nlen in H. lia.
Qed.

Lemma bad_sibling_ignored dbg r cur :
  nlen (r_in r) <= r_end r -> sib_ignored r cur -> sibling_jump dbg r cur = Ok r.
Proof.
  intros Hle [Hc|Hv]; unfold sibling_jump; [rewrite Hc; reflexivity|].
  destruct (d_children cur); [|reflexivity]. unfold die_sibling.
  destruct (die_attr_value cur DW_AT_sibling) as [v|]; [|reflexivity].
  destruct v; try reflexivity.
  match goal with |- context [d_offset cur <? ?o] => rename o into off end.
  destruct (N.ltb_spec (d_offset cur) off) as [Hlt|Hge]; [|reflexivity].
  unfold seek_forward, next_offset, chk_sub. replace (nlen (r_in r) <=? r_end r) with true by lia. cbn [bind].
  destruct (N.ltb_spec off (r_end r - nlen (r_in r))) as [Hb|Hb]; [reflexivity|].
  destruct Hv as [Hv|[Hv|Hv]]; try lia.
  destruct (skip_n_short (off - (r_end r - nlen (r_in r))) (r_in r) ltac:(lia)) as (x & ->). reflexivity.
Qed.

(* the boundary: every other value — a unit reference beyond the entry, at or after the reader, at or
   before the end of the unit — is believed: the reader moves there and takes the entry's depth *)
Lemma sibling_believed dbg r cur o :
  nlen (r_in r) <= r_end r -> d_children cur = true ->
  die_attr_value cur DW_AT_sibling = Some (VUnitRef o) -> d_offset cur < o ->
  r_end r - nlen (r_in r) <= o <= r_end r ->
  sibling_jump dbg r cur =
  Ok (mkRaw (skipn (N.to_nat (o - (r_end r - nlen (r_in r)))) (r_in r)) (r_end r) (d_depth cur)).
Proof.
  intros Hle Hc Hv Hlt [Hlo Hhi]. unfold sibling_jump, die_sibling. rewrite Hc, Hv.
  replace (d_offset cur <? o) with true by lia.
  unfold seek_forward, next_offset, chk_sub. replace (nlen (r_in r) <=? r_end r) with true by lia. cbn [bind].
  replace (o <? r_end r - nlen (r_in r)) with false by lia.
  rewrite skip_n_enough by lia. reflexivity.
Qed.

(* the two classes are complementary *)
Lemma sibling_classes r cur : nlen (r_in r) <= r_end r ->
  sib_ignored r cur \/
  exists o, d_children cur = true /\ die_attr_value cur DW_AT_sibling = Some (VUnitRef o) /\ d_offset cur < o /\
            r_end r - nlen (r_in r) <= o <= r_end r.
Proof.
  intros Hle. unfold sib_ignored. destruct (d_children cur); [|left; left; reflexivity].
  destruct (die_attr_value cur DW_AT_sibling) as [v|]; [|left; right; exact I].
  destruct v; try (left; right; exact I).
  match goal with |- context [VUnitRef ?o] => rename o into off end.
  destruct (N.le_gt_cases off (d_offset cur)); [left; right; left; assumption|].
  destruct (N.lt_ge_cases off (r_end r - nlen (r_in r))); [left; right; right; left; assumption|].
  destruct (N.lt_ge_cases (r_end r) off); [left; right; right; right; assumption|].
  right. exists off. repeat split; try assumption; lia.
Qed.
