(* Proofs/PrimProofs.v — exactness of the fixed-width, sized, initial-length codecs (C09). *)
From Coq Require Import List NArith ZArith Bool Lia ZifyBool ZifyN ZifyNat.
From Coq.Strings Require Import Byte.
Require Import GV.Base.Res GV.Base.Byt GV.Base.Ints GV.Spec.LebSpec GV.Spec.PrimSpec.
Require Import GV.Model.Leb GV.Model.Prim GV.Proofs.Lib.
Import ListNotations.
Local Open Scope N_scope.

(* powers of 256 indexed by a length *)

Definition p256 (n : nat) : N := 256 ^ N.of_nat n.

Lemma p256_0 : p256 0 = 1.
Proof. reflexivity. Qed.

Lemma p256_S n : p256 (S n) = 256 * p256 n.
Proof. unfold p256. rewrite Nat2N.inj_succ, N.pow_succ_r'. reflexivity. Qed.

Lemma p256_pos n : 0 < p256 n.
Proof. induction n as [|n IH]; [rewrite p256_0|rewrite p256_S]; lia. Qed.

Lemma p256_pow2 n : p256 n = 2 ^ (8 * N.of_nat n).
Proof. unfold p256. rewrite N.pow_mul_r. reflexivity. Qed.

Lemma le_val_lt bs : le_val bs < p256 (length bs).
Proof.
  induction bs as [|b r IH]; cbn [le_val length]; [rewrite p256_0; lia|].
  rewrite p256_S. pose proof (b2n_lt b). lia.
Qed.

Lemma le_val_app a b : le_val (a ++ b) = le_val a + p256 (length a) * le_val b.
Proof.
  induction a as [|x a IH]; cbn [le_val length app]; [rewrite p256_0; lia|].
  rewrite IH, p256_S. lia.
Qed.

Lemma be_val_cons b r : be_val (b :: r) = b2n b * p256 (length r) + be_val r.
Proof.
  unfold be_val. cbn [rev]. rewrite le_val_app, rev_length. cbn [le_val]. lia.
Qed.

Lemma be_val_lt bs : be_val bs < p256 (length bs).
Proof. unfold be_val. rewrite <- rev_length. apply le_val_lt. Qed.

(* the model's recursive values are the positional sums *)

Lemma nsum_cons x l : nsum (x :: l) = x + nsum l.
Proof. reflexivity. Qed.

Lemma nsum_scale (c : N) (g : nat -> N) l :
  nsum (map (fun i => c * g i) l) = c * nsum (map g l).
Proof.
  induction l as [|x l IH]; cbn [map]; [unfold nsum; cbn [fold_right]; lia|].
  rewrite !nsum_cons, IH. lia.
Qed.

Lemma nsum_ext (f g : nat -> N) l : (forall i, In i l -> f i = g i) -> nsum (map f l) = nsum (map g l).
Proof.
  induction l as [|x l IH]; intros H; cbn [map]; [reflexivity|].
  rewrite !nsum_cons.
  rewrite IH by (intros; apply H; right; assumption). rewrite (H x) by (left; reflexivity). reflexivity.
Qed.

Theorem le_val_is_sum bs : le_val bs = le_sum bs.
Proof.
  induction bs as [|b r IH]; [reflexivity|].
  unfold le_sum. cbn [le_val length seq map]. rewrite nsum_cons.
  rewrite <- seq_shift, map_map.
  rewrite (nsum_ext _ (fun i => 256 * (byte_at r i * 256 ^ N.of_nat i))).
  - rewrite nsum_scale. fold (le_sum r). rewrite <- IH.
    unfold byte_at. cbn [nth]. change (256 ^ N.of_nat 0) with 1. lia.
  - intros i _. unfold byte_at. cbn [nth]. rewrite Nat2N.inj_succ, N.pow_succ_r'. lia.
Qed.

Theorem be_val_is_sum bs : be_val bs = be_sum bs.
Proof.
  induction bs as [|b r IH]; [reflexivity|].
  rewrite be_val_cons. unfold be_sum. cbn [length seq map]. rewrite nsum_cons.
  rewrite <- seq_shift, map_map.
  rewrite (nsum_ext _ (fun i => byte_at r i * 256 ^ N.of_nat (length r - 1 - i))).
  - fold (be_sum r). rewrite <- IH. unfold byte_at, p256. cbn [nth].
    replace (S (length r) - 1 - 0)%nat with (length r) by lia. reflexivity.
  - intros i _. unfold byte_at. cbn [nth].
    replace (S (length r) - 1 - S i)%nat with (length r - 1 - i)%nat by lia. reflexivity.
Qed.

Lemma val_is_sum (be : bool) bs : (if be then be_val bs else le_val bs) = val_sum be bs.
Proof. destruct be; [apply be_val_is_sum|apply le_val_is_sum]. Qed.

Lemma val_sum_lt be bs : val_sum be bs < p256 (length bs).
Proof. rewrite <- val_is_sum. destruct be; [apply be_val_lt|apply le_val_lt]. Qed.

Lemma val_sum_lt_pow2 be bs : val_sum be bs < 2 ^ (8 * N.of_nat (length bs)).
Proof. rewrite <- p256_pow2. apply val_sum_lt. Qed.

Lemma take_exact : forall n bs,
  take n bs = if (length bs <? n)%nat then None else Some (firstn n bs, skipn n bs).
Proof.
  induction n as [|n IH]; intros bs; [reflexivity|].
  destruct bs as [|b r]; [reflexivity|].
  cbn [take length firstn skipn]. rewrite IH.
  change (S (length r) <? S n)%nat with (length r <? n)%nat.
  destruct (length r <? n)%nat; reflexivity.
Qed.

Lemma take_app n h t : length h = n -> take n (h ++ t) = Some (h, t).
Proof.
  intros <-. rewrite take_exact, app_length.
  destruct (length h + length t <? length h)%nat eqn:E; [lia|].
  rewrite firstn_app_exact, skipn_app_exact. reflexivity.
Qed.

Lemma take_ok n bs h t : take n bs = Some (h, t) -> bs = h ++ t /\ length h = n.
Proof.
  rewrite take_exact. destruct (length bs <? n)%nat eqn:E; [discriminate|].
  intros H; injection H as <- <-. rewrite firstn_skipn, firstn_length_le by lia. split; reflexivity.
Qed.

Lemma read_bytes_ok n bs h t : read_bytes n bs = Ok (h, t) -> bs = h ++ t /\ length h = n.
Proof.
  unfold read_bytes. destruct (take n bs) as [[h' t']|] eqn:E; [|discriminate].
  intros H; injection H as <- <-. exact (take_ok _ _ _ _ E).
Qed.

Lemma read_u8_ok bs v r : read_u8 bs = Ok (v, r) -> exists b, bs = b :: r /\ v = b2n b.
Proof. destruct bs as [|b r']; [discriminate|]. intros H; injection H as <- <-. exists b. split; reflexivity. Qed.

(* read_cstr models Reader::read_null_terminated_slice *)

Definition nul_free (s : list byte) : Prop := Forall (fun b => b2n b <> 0) s.

Lemma read_cstr_ok : forall bs s r, read_cstr bs = Ok (s, r) -> bs = s ++ x00 :: r /\ nul_free s.
Proof.
  induction bs as [|b bs IH]; intros s r; cbn [read_cstr]; [discriminate|].
  destruct (b2n b =? 0) eqn:E.
  - intros H; injection H as <- <-. split; [|constructor]. cbn [app]. f_equal.
    apply b2n_inj. apply N.eqb_eq in E. exact E.
  - destruct (read_cstr bs) as [[s' t']| | |]; try discriminate. cbn [bind].
    intros H; injection H as <- <-. destruct (IH s' t' eq_refl) as [-> Hs].
    split; [reflexivity|]. constructor; [apply N.eqb_neq, E|exact Hs].
Qed.

Lemma read_cstr_app s r : nul_free s -> read_cstr (s ++ x00 :: r) = Ok (s, r).
Proof.
  induction 1 as [|b s Hb _ IH]; [reflexivity|].
  cbn [app read_cstr]. apply N.eqb_neq in Hb. rewrite Hb, IH. reflexivity.
Qed.

Lemma read_cstr_total bs : read_cstr bs <> Panic /\ read_cstr bs <> OutOfFuel.
Proof.
  induction bs as [|b bs [IH1 IH2]]; cbn [read_cstr]; [split; discriminate|].
  destruct (b2n b =? 0); [split; discriminate|].
  destruct (read_cstr bs) as [[? ?]| | |]; cbn [bind]; split; congruence.
Qed.

(* read_un: every width, both byte orders, every input *)

Theorem read_un_exact n be bs :
  read_un n be bs =
  if (length bs <? n)%nat then Err EUnexpectedEof
  else Ok (val_sum be (firstn n bs), skipn n bs).
Proof.
  unfold read_un, read_bytes. rewrite take_exact.
  destruct (length bs <? n)%nat; [reflexivity|]. cbn [bind]. rewrite val_is_sum. reflexivity.
Qed.

Lemma read_un_app n be h t : length h = n -> read_un n be (h ++ t) = Ok (val_sum be h, t).
Proof.
  intros H. unfold read_un, read_bytes. rewrite (take_app n h t H). cbn [bind].
  rewrite val_is_sum. reflexivity.
Qed.

Lemma read_un_eof_iff n be bs : read_un n be bs = Err EUnexpectedEof <-> (length bs < n)%nat.
Proof.
  rewrite read_un_exact. destruct (length bs <? n)%nat eqn:E; split; intros H; try reflexivity; try lia.
  discriminate H.
Qed.

Lemma read_un_ok_inv n be bs v rest : read_un n be bs = Ok (v, rest) ->
  exists h, bs = h ++ rest /\ length h = n /\ v = val_sum be h /\ v < 2 ^ (8 * N.of_nat n).
Proof.
  rewrite read_un_exact. destruct (length bs <? n)%nat eqn:E; [discriminate|].
  intros H; inversion H; subst. exists (firstn n bs).
  assert (Hl : length (firstn n bs) = n) by (apply firstn_length_le; lia).
  split; [symmetry; apply firstn_skipn|]. split; [exact Hl|]. split; [reflexivity|].
  rewrite <- Hl at 2. apply val_sum_lt_pow2.
Qed.

Lemma read_un_value_lt n be bs v rest : read_un n be bs = Ok (v, rest) -> v < p256 n /\ length bs = (n + length rest)%nat.
Proof.
  intros H. destruct (read_un_ok_inv _ _ _ _ _ H) as (h & -> & <- & _ & Hlt).
  split; [now rewrite p256_pow2|apply app_length].
Qed.

(* the readers return (no panic, no fuel) *)
Lemma read_un_returns n be bs : returns (read_un n be bs).
Proof. rewrite read_un_exact. destruct (length bs <? n)%nat; [apply returns_err|apply returns_ok]. Qed.

Lemma read_u8_returns bs : returns (read_u8 bs).
Proof. destruct bs; [apply returns_err|apply returns_ok]. Qed.

Lemma read_address_size_returns bs : returns (read_address_size bs).
Proof.
  unfold read_address_size. apply returns_bind; [apply read_u8_returns|]. intros [s r] _.
  destruct ((s =? 1) || (s =? 2) || (s =? 4) || (s =? 8)); [apply returns_ok|apply returns_err].
Qed.

Lemma read_initial_length_returns be bs : returns (read_initial_length be bs).
Proof.
  unfold read_initial_length. apply returns_bind; [apply read_un_returns|]. intros [v r] _.
  destruct (v <? 4294967280); [apply returns_ok|]. destruct (v =? 4294967295); [|apply returns_err].
  apply returns_bind; [apply read_un_returns|]. intros [v8 r8] _. apply returns_ok.
Qed.

Lemma read_initial_length_len be bs len f64 r :
  read_initial_length be bs = Ok ((len, f64), r) -> length bs = ((if f64 then 12 else 4) + length r)%nat.
Proof.
  unfold read_initial_length. intros H.
  apply bind_ok in H. destruct H as ([v r4] & E4 & H). apply read_un_value_lt in E4. destruct E4 as [_ E4].
  destruct (v <? 4294967280); [inversion H; subst; lia|].
  destruct (v =? 4294967295); [|discriminate].
  apply bind_ok in H. destruct H as ([v8 r8] & E8 & H). apply read_un_value_lt in E8. destruct E8 as [_ E8].
  inversion H; subst. lia.
Qed.

Lemma le_bytes_length n v : length (le_bytes n v) = n.
Proof. revert v. induction n as [|n IH]; intros v; cbn [le_bytes length]; [reflexivity|]. rewrite IH. reflexivity. Qed.

Lemma enc_un_length n be v : length (enc_un n be v) = n.
Proof. unfold enc_un, be_bytes. destruct be; [rewrite rev_length|]; apply le_bytes_length. Qed.

Section WithDivMod.

Lemma le_val_le_bytes : forall n v, le_val (le_bytes n v) = v mod p256 n.
Proof.
  induction n as [|n IH]; intros v; cbn [le_bytes le_val].
  - rewrite p256_0. lia.
  - rewrite IH, b2n_n2b, p256_S. pose proof (p256_pos n) as Hp.
    rewrite N.mod_mul_r by lia. lia.
Qed.

Lemma le_bytes_le_val : forall bs, le_bytes (length bs) (le_val bs) = bs.
Proof.
  induction bs as [|b r IH]; [reflexivity|]. cbn [length le_bytes le_val].
  pose proof (b2n_lt b) as Hb.
  assert (Hq : (b2n b + 256 * le_val r) / 256 = le_val r) by lia.
  assert (Hm : n2b (b2n b + 256 * le_val r) = b).
  { apply b2n_inj. rewrite b2n_n2b. lia. }
  rewrite Hq, Hm, IH. reflexivity.
Qed.
End WithDivMod.

Lemma val_sum_enc_un n be v : val_sum be (enc_un n be v) = v mod p256 n.
Proof.
  rewrite <- val_is_sum. unfold enc_un, be_bytes, be_val. destruct be.
  - rewrite rev_involutive. apply le_val_le_bytes.
  - apply le_val_le_bytes.
Qed.

Theorem read_un_enc_un n be v r : read_un n be (enc_un n be v ++ r) = Ok (v mod p256 n, r).
Proof. rewrite read_un_app by apply enc_un_length. rewrite val_sum_enc_un. reflexivity. Qed.

Theorem read_un_enc_un_small n be v r : v < p256 n -> read_un n be (enc_un n be v ++ r) = Ok (v, r).
Proof. intros H. rewrite read_un_enc_un, N.mod_small by exact H. reflexivity. Qed.

Lemma to_signed_small bits u : u < 2 ^ bits -> to_signed bits u = signed_at bits u.
Proof. intros H. unfold to_signed, signed_at. rewrite wrapN_small by exact H. reflexivity. Qed.

Lemma read_in_app n be h t : length h = n ->
  read_in n be (h ++ t) = Ok (signed_at (8 * N.of_nat n) (val_sum be h), t).
Proof.
  intros H. unfold read_in. rewrite (read_un_app n be h t H). cbn [bind].
  rewrite to_signed_small; [reflexivity|]. rewrite <- H. apply val_sum_lt_pow2.
Qed.

Lemma size_ok_cases size : size_ok size = true <-> size = 1 \/ size = 2 \/ size = 4 \/ size = 8.
Proof. unfold size_ok. lia. Qed.

(* the dispatch on size = 1, 2, 4, 8 that the sized readers and writers share *)
Lemma by_size {A} (F : N -> A) (E : A) size :
  (if size =? 1 then F 1 else if size =? 2 then F 2 else if size =? 4 then F 4
   else if size =? 8 then F 8 else E) =
  if size_ok size then F size else E.
Proof.
  unfold size_ok.
  destruct (N.eqb_spec size 1) as [->|]; [reflexivity|]. destruct (N.eqb_spec size 2) as [->|]; [reflexivity|].
  destruct (N.eqb_spec size 4) as [->|]; [reflexivity|]. destruct (N.eqb_spec size 8) as [->|]; reflexivity.
Qed.

Theorem read_address_exact size be bs :
  read_address size be bs =
  if size_ok size then read_un (N.to_nat size) be bs else Err EUnsupportedAddressSize.
Proof. exact (by_size (fun s => read_un (N.to_nat s) be bs) _ size). Qed.

Theorem read_sized_offset_exact size be bs :
  read_sized_offset size be bs =
  if size_ok size then read_un (N.to_nat size) be bs else Err EUnsupportedOffsetSize.
Proof. exact (by_size (fun s => read_un (N.to_nat s) be bs) _ size). Qed.

Lemma sized_read_ok size be bs e v rest :
  (if size_ok size then read_un (N.to_nat size) be bs else Err e) = Ok (v, rest) ->
  size_ok size = true /\
  exists h, bs = h ++ rest /\ N.of_nat (length h) = size /\ v = val_sum be h /\ v < 2 ^ (8 * size).
Proof.
  destruct (size_ok size); [|discriminate]. intros H. split; [reflexivity|].
  destruct (read_un_ok_inv _ _ _ _ _ H) as (h & Hb & Hl & Hv & Hlt).
  exists h. rewrite N2Nat.id in Hlt. repeat split; try assumption. lia.
Qed.

Theorem read_address_ok size be bs v rest : read_address size be bs = Ok (v, rest) ->
  size_ok size = true /\
  exists h, bs = h ++ rest /\ N.of_nat (length h) = size /\ v = val_sum be h /\ v < 2 ^ (8 * size).
Proof. rewrite read_address_exact. apply sized_read_ok. Qed.

(* a u64 is written at size 8 without a test *)
Theorem write_udata_spec be v size :
  write_udata be v size =
  if size_ok size then
    (if (size =? 8) || (v <? 2 ^ (8 * size)) then Ok (enc_un (N.to_nat size) be v) else Err WValueTooLarge)
  else Err WUnsupportedWordSize.
Proof.
  rewrite <- (by_size (fun s => if (s =? 8) || (v <? 2 ^ (8 * s)) then Ok (enc_un (N.to_nat s) be v)
                                else Err WValueTooLarge)). cbv beta.
  change (2 ^ (8 * 1)) with 256. change (2 ^ (8 * 2)) with two16. change (2 ^ (8 * 4)) with two32.
  reflexivity.
Qed.

Theorem write_sdata_spec be v size :
  write_sdata be v size =
  if size_ok size then
    (if (size =? 8) || in_signed (8 * size) v then Ok (enc_un (N.to_nat size) be (of_signed (8 * size) v))
     else Err WValueTooLarge)
  else Err WUnsupportedWordSize.
Proof.
  exact (by_size (fun s => if (s =? 8) || in_signed (8 * s) v
                           then Ok (enc_un (N.to_nat s) be (of_signed (8 * s) v))
                           else Err WValueTooLarge) _ size).
Qed.

Lemma write_udata_inv be v size e : write_udata be v size = Ok e ->
  size_ok size = true /\ e = enc_un (N.to_nat size) be v.
Proof.
  rewrite write_udata_spec. destruct (size_ok size); [|discriminate].
  destruct ((size =? 8) || (v <? 2 ^ (8 * size))); [|discriminate]. intros H; inversion H. auto.
Qed.

Lemma write_sdata_inv be v size e : write_sdata be v size = Ok e ->
  size_ok size = true /\ e = enc_un (N.to_nat size) be (of_signed (8 * size) v).
Proof.
  rewrite write_sdata_spec. destruct (size_ok size); [|discriminate].
  destruct ((size =? 8) || in_signed (8 * size) v); [|discriminate]. intros H; inversion H. auto.
Qed.

Lemma write_udata_no_panic be v size : write_udata be v size <> Panic.
Proof.
  rewrite write_udata_spec. destruct (size_ok size); [|discriminate].
  destruct ((size =? 8) || (v <? 2 ^ (8 * size))); discriminate.
Qed.

Lemma write_sdata_no_panic be v size : write_sdata be v size <> Panic.
Proof.
  rewrite write_sdata_spec. destruct (size_ok size); [|discriminate].
  destruct ((size =? 8) || in_signed (8 * size) v); discriminate.
Qed.

Lemma signed_roundtrip bits v : 1 <= bits -> in_signed bits v = true ->
  of_signed bits v < 2 ^ bits /\ signed_at bits (of_signed bits v) = v.
Proof.
  intros Hb Hin. unfold in_signed in Hin. apply andb_true_iff in Hin. destruct Hin as [Hlo Hhi].
  apply Z.leb_le in Hlo. apply Z.ltb_lt in Hhi. unfold of_signed, signed_at.
  replace (2 ^ bits) with (2 * 2 ^ (bits - 1))
    by (replace bits with (N.succ (bits - 1)) at 2 by lia; symmetry; apply N.pow_succ_r').
  pose proof (pow2_pos (bits - 1)) as HH. set (H := 2 ^ (bits - 1)) in *. clearbody H. clear Hb.
  (* a negative v is represented by v + 2H >= H, a nonnegative one by itself *)
  destruct (Z.neg_nonneg_cases v) as [Hneg|Hpos].
  - replace (v mod Z.of_N (2 * H))%Z with (v + Z.of_N (2 * H))%Z
      by (rewrite <- (Z.mod_add v 1 (Z.of_N (2 * H))), Z.mod_small; lia).
    rewrite (proj2 (N.ltb_ge _ H)) by lia. lia.
  - rewrite Z.mod_small by lia. rewrite (proj2 (N.ltb_lt _ H)) by lia. lia.
Qed.

Theorem read_in_enc_signed n be v r : (1 <= n)%nat -> in_signed (8 * N.of_nat n) v = true ->
  read_in n be (enc_un n be (of_signed (8 * N.of_nat n) v) ++ r) = Ok (v, r).
Proof.
  intros Hn Hin. destruct (signed_roundtrip (8 * N.of_nat n) v ltac:(lia) Hin) as (Hlt & Hrt).
  rewrite read_in_app by apply enc_un_length.
  rewrite val_sum_enc_un, N.mod_small by (rewrite p256_pow2; exact Hlt). now rewrite Hrt.
Qed.

Theorem write_initial_length_exact fmt64 be len :
  write_initial_length fmt64 be len =
  if fmt64 then Ok (enc_un 4 be 4294967295 ++ enc_un 8 be len)
  else if len <? 4294967280 then Ok (enc_un 4 be len)
  else if len <=? 4294967295 then Err WInitialLengthOverflow
  else Err WValueTooLarge.
Proof.
  unfold write_initial_length. rewrite write_udata_spec. destruct fmt64; [reflexivity|].
  cbn [negb andb word_size size_ok N.eqb Pos.eqb orb bind]. change (2 ^ (8 * 4)) with 4294967296.
  destruct (len <? 4294967280) eqn:E1, (4294967280 <=? len) eqn:E2; try lia; cbn [andb].
  - destruct (len <? 4294967296) eqn:E3; [reflexivity|lia].
  - destruct (len <=? 4294967295) eqn:E3, (len <? 4294967296) eqn:E4; try lia; reflexivity.
Qed.

Theorem add_sized_ok a len size s : add_sized a len size = Ok s ->
  s = a + len /\ s <= mask_of size /\ s < two64.
Proof.
  unfold add_sized. destruct (two64 <=? a + len) eqn:E1; [discriminate|].
  destruct (mask_of size <? a + len) eqn:E2; [discriminate|].
  intros H; inversion H; subst. lia.
Qed.

Lemma size_ok_le8 size : size_ok size = true -> 1 <= size <= 8.
Proof. intros E. apply size_ok_cases in E. lia. Qed.

(* what makes sizes up to 8 work: 2^64 is a multiple of 2^(8 size) *)
Lemma two64_split size : size <= 8 -> two64 = 2 ^ (8 * size) * 2 ^ (64 - 8 * size).
Proof. intros H. rewrite <- N.pow_add_r. change two64 with (2 ^ 64). f_equal. lia. Qed.

Theorem add_sized_exact a len size : size_ok size = true ->
  add_sized a len size = if a + len <=? 2 ^ (8 * size) - 1 then Ok (a + len) else Err EAddressOverflow.
Proof.
  intros E. apply size_ok_le8 in E. unfold add_sized. fold (mask_of size).
  assert (Hm : mask_of size < two64).
  { unfold mask_of. rewrite (two64_split size) by lia.
    pose proof (pow2_pos (8 * size)). pose proof (pow2_pos (64 - 8 * size)). nia. }
  destruct (two64 <=? a + len) eqn:E1, (mask_of size <? a + len) eqn:E2,
           (a + len <=? mask_of size) eqn:E3; try lia; reflexivity.
Qed.

Lemma mask_of_ones size : mask_of size = N.ones (8 * size).
Proof. unfold mask_of. rewrite N.ones_equiv, N.sub_1_r. reflexivity. Qed.

Theorem wrapping_add_sized_exact a len size : size_ok size = true ->
  wrapping_add_sized a len size = (a + len) mod 2 ^ (8 * size).
Proof.
  intros E. apply size_ok_le8 in E. unfold wrapping_add_sized, wrap64.
  rewrite mask_of_ones, N.land_ones, (two64_split size) by lia.
  rewrite N.mod_mul_r by (apply N.pow_nonzero; discriminate).
  rewrite (N.mul_comm (2 ^ (8 * size))), N.mod_add, N.mod_mod by (apply N.pow_nonzero; discriminate).
  reflexivity.
Qed.

Theorem min_tombstone_exact size : size_ok size = true -> min_tombstone size = 2 ^ (8 * size) - 2.
Proof.
  intros E. unfold min_tombstone. rewrite wrapping_add_sized_exact, N.add_0_l by exact E.
  apply size_ok_le8 in E. symmetry. apply N.mod_unique with (q := 2 ^ (64 - 8 * size) - 1).
  - pose proof (pow2_pos (8 * size)). lia.
  - rewrite (two64_split size) by lia. pose proof (pow2_pos (64 - 8 * size)).
    assert (2 ^ 8 <= 2 ^ (8 * size)) by (apply N.pow_le_mono_r; lia). change (2 ^ 8) with 256 in *. nia.
Qed.

(* `!0 >> (64 - 8 size)` keeps the low 8 size ones; none of the u8 operations overflows *)
Theorem ones_sized_ok dbg size : size_ok size = true -> ones_sized dbg size = Ok (mask_of size).
Proof.
  intros E. apply size_ok_le8 in E. unfold ones_sized.
  rewrite chk_mul_ok by (change (2 ^ 8) with 256; lia). cbn [bind].
  rewrite chk_sub_ok by lia. cbn [bind].
  destruct (64 <=? 64 - size * 8) eqn:E1; [lia|].
  change (two64 - 1) with (N.ones 64). rewrite N.shiftr_div_pow2, N.ones_div_pow2, mask_of_ones by lia.
  do 2 f_equal. lia.
Qed.

Lemma read_address_size_exact : forall bs : list byte,
  read_address_size bs =
  match bs with
  | [] => Err EUnexpectedEof
  | b :: r => if size_ok (b2n b) then Ok (b2n b, r) else Err EUnsupportedAddressSize
  end.
Proof. destruct bs; reflexivity. Qed.

Lemma read_in_exact : forall (n : nat) (be : bool) (bs : list byte),
  read_in n be bs =
  if (length bs <? n)%nat then Err EUnexpectedEof
  else Ok (signed_at (8 * N.of_nat n) (val_sum be (firstn n bs)), skipn n bs).
Proof.
  intros n be bs. destruct (length bs <? n)%nat eqn:E.
  - unfold read_in. rewrite read_un_exact, E. reflexivity.
  - rewrite <- (firstn_skipn n bs) at 1. apply read_in_app. apply firstn_length_le, Nat.ltb_ge, E.
Qed.

Lemma write_udata_exact : forall (be : bool) (v size : N), v < two64 ->
  write_udata be v size =
  if size_ok size then
    (if v <? 2 ^ (8 * size) then Ok (enc_un (N.to_nat size) be v) else Err WValueTooLarge)
  else Err WUnsupportedWordSize.
Proof.
  intros be v size Hv. rewrite write_udata_spec. destruct (size_ok size); [|reflexivity].
  destruct (N.eqb_spec size 8) as [->|]; [|reflexivity]. cbn [orb].
  now rewrite (proj2 (N.ltb_lt v (2 ^ (8 * 8))) Hv).
Qed.

Lemma write_udata_ok : forall (be : bool) (v size : N) (bs : list byte), v < two64 ->
  write_udata be v size = Ok bs ->
  size_ok size = true /\ v < 2 ^ (8 * size) /\
  N.of_nat (length bs) = size /\ val_sum be bs = v /\
  forall r, read_un (N.to_nat size) be (bs ++ r) = Ok (v, r) /\
            read_address size be (bs ++ r) = Ok (v, r) /\
            read_sized_offset size be (bs ++ r) = Ok (v, r).
Proof.
  intros be v size bs Hv. rewrite write_udata_exact by exact Hv.
  destruct (size_ok size) eqn:E; [|discriminate].
  destruct (v <? 2 ^ (8 * size)) eqn:Elt; [|discriminate]. apply N.ltb_lt in Elt.
  intros H; inversion H; subst bs. clear H.
  assert (Hp : v < p256 (N.to_nat size)) by (rewrite p256_pow2, N2Nat.id; exact Elt).
  split; [reflexivity|]. split; [exact Elt|]. split; [rewrite enc_un_length; apply N2Nat.id|].
  split; [rewrite val_sum_enc_un; apply N.mod_small; exact Hp|].
  intros r. rewrite read_address_exact, read_sized_offset_exact, E.
  rewrite read_un_enc_un_small by exact Hp. repeat split; reflexivity.
Qed.

Lemma write_sdata_exact : forall (be : bool) (v : Z) (size : N), in_i64 v = true ->
  write_sdata be v size =
  if size_ok size then
    (if in_signed (8 * size) v then Ok (enc_un (N.to_nat size) be (of_signed (8 * size) v))
     else Err WValueTooLarge)
  else Err WUnsupportedWordSize.
Proof.
  intros be v size Hv. rewrite write_sdata_spec. destruct (size_ok size); [|reflexivity].
  destruct (N.eqb_spec size 8) as [->|]; [|reflexivity]. cbn [orb].
  change (in_signed (8 * 8) v) with (in_i64 v). now rewrite Hv.
Qed.

Lemma write_sdata_ok : forall (be : bool) (v : Z) (size : N) (bs : list byte), in_i64 v = true ->
  write_sdata be v size = Ok bs ->
  size_ok size = true /\ in_signed (8 * size) v = true /\
  N.of_nat (length bs) = size /\
  forall r, read_in (N.to_nat size) be (bs ++ r) = Ok (v, r).
Proof.
  intros be v size bs Hv. rewrite write_sdata_exact by exact Hv.
  destruct (size_ok size) eqn:E; [|discriminate].
  destruct (in_signed (8 * size) v) eqn:Ein; [|discriminate].
  intros H; inversion H; subst bs. clear H. apply size_ok_le8 in E.
  split; [reflexivity|]. split; [reflexivity|]. split; [rewrite enc_un_length; apply N2Nat.id|].
  intros r. pose proof (read_in_enc_signed (N.to_nat size) be v r) as H. rewrite N2Nat.id in H.
  apply H; [lia|exact Ein].
Qed.
