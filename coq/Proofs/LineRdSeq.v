(* Proofs/LineRdSeq.v — sequences()/resume_from(): the instruction decoder is local (its result depends
   only on the bytes it consumes), so replaying the slice cut by remove_trailing from a fresh row yields
   exactly the rows of the straight run; bounds are the first and the end address. *)
From Coq Require Import List NArith ZArith Bool Lia ZifyBool ZifyN ZifyNat.
From Coq.Strings Require Import Byte.
Require Import GV.Base.Res GV.Base.Byt GV.Base.Ints GV.Model.Leb GV.Model.Prim GV.Spec.LineSpec GV.Model.LineRd
               GV.Proofs.LineRdBase GV.Proofs.LineRdMono.
Import ListNotations.
Local Open Scope N_scope.

(* `local p`: if p succeeds on a ++ suf and leaves at least suf, it succeeds identically on a alone *)
Definition local {A} (p : list byte -> res (A * list byte)) : Prop :=
  forall a suf v r, p (a ++ suf) = Ok (v, r) -> (length suf <= length r)%nat ->
  exists x, r = x ++ suf /\ p a = Ok (v, x).

Lemma local_bind {A B} (p : list byte -> res (A * list byte)) (q : A -> list byte -> res (B * list byte)) :
  local p -> (forall v, local (q v)) ->
  (forall inp v r, p inp = Ok (v, r) -> (length r <= length inp)%nat) ->
  (forall v inp w r, q v inp = Ok (w, r) -> (length r <= length inp)%nat) ->
  local (fun inp => let* (v, r) := p inp in q v r).
Proof.
  intros Lp Lq Sp Sq a suf w r H Hl. cbn beta in *.
  destruct (p (a ++ suf)) as [[v r1]| | |] eqn:E; cbn [bind] in H; try discriminate.
  assert (length suf <= length r1)%nat by (apply Sq in H; lia).
  destruct (Lp _ _ _ _ E H0) as [x1 [-> E1]]. rewrite E1. cbn [bind].
  exact (Lq v _ _ _ _ H Hl).
Qed.

Lemma framed_local {A} Q (p : list byte -> res (A * list byte)) : framed Q p -> local p.
Proof.
  intros F a suf v r H Hl. destruct (framed_ok _ _ _ _ _ F H) as (c & E & _ & T).
  apply app_eq_app in E as [l [[-> ->]|[-> ->]]].
  - exists l. split; [reflexivity|apply T].
  - rewrite app_length in Hl. destruct l; [|simpl in Hl; lia].
    exists []. split; [reflexivity|]. specialize (T []). now rewrite !app_nil_r in T.
Qed.

Lemma read_u8_local : local read_u8.
Proof. exact (framed_local _ _ read_u8_framed). Qed.

Lemma read_cstr_local : local read_cstr.
Proof. exact (framed_local _ _ read_cstr_framed). Qed.

Lemma parse_insn_local dbg be h : local (parse_insn dbg be h).
Proof. exact (framed_local _ _ (parse_insn_framed dbg be h)). Qed.

(* fuel beyond the input length is irrelevant *)
Lemma next_row_loop_fuel dbg be res h : forall f1 f2 r inp added q,
  (length inp < f1)%nat -> (length inp < f2)%nat ->
  next_row_loop f1 dbg be res h r inp added q = next_row_loop f2 dbg be res h r inp added q.
Proof.
  induction f1 as [|f1 IH]; intros f2 r inp added q H1 H2; [lia|].
  destruct f2 as [|f2]; [lia|]. cbn [next_row_loop].
  destruct inp as [|b inp]; [reflexivity|].
  pose proof (parse_insn_good dbg be h (b :: inp)) as G.
  destruct (parse_insn dbg be h (b :: inp)) as [[i rest]| | |]; cbn [post] in G; try reflexivity.
  destruct G as (_ & G & _). cbn [snd length] in *.
  destruct (execute dbg h r i) as [[r' x]| | |]; try reflexivity.
  destruct x; [destruct (r_tomb r' && negb (r_end r' && q))|..]; try reflexivity; apply IH; lia.
Qed.

Lemma next_row_loop_len dbg be res h fuel r inp added q out st' :
  next_row_loop fuel dbg be res h r inp added q = (out, st') -> (length (st_inp st') <= length inp)%nat.
Proof.
  intros H. pose proof (next_row_loop_frame dbg be res h fuel r inp added q) as F. rewrite H in F.
  apply sfx_len, F.
Qed.

Lemma next_row_loop_row dbg be res h fuel r inp added q st' :
  next_row_loop fuel dbg be res h r inp added q = (NRow, st') ->
  (length (st_inp st') < length inp)%nat /\ st_inseq st' = negb (r_end (st_row st')).
Proof.
  intros H. pose proof (next_row_loop_frame dbg be res h fuel r inp added q) as F. rewrite H in F.
  now apply F.
Qed.

Lemma next_row_loop_local dbg be h : forall fuel res res' r a suf added added' q st',
  next_row_loop fuel dbg be res h r (a ++ suf) added q = (NRow, st') ->
  (length suf <= length (st_inp st'))%nat ->
  exists x st'', st_inp st' = x ++ suf /\
    next_row_loop fuel dbg be res' h r a added' q = (NRow, st'') /\
    st_row st'' = st_row st' /\ st_inp st'' = x /\ st_inseq st'' = st_inseq st'.
Proof.
  induction fuel as [|f IH]; intros res res' r a suf added added' q st' H Hl; [discriminate|].
  destruct a as [|b a].
  { apply next_row_loop_row in H as [H _]. cbn [app] in H. lia. }
  cbn [app next_row_loop] in H |- *.
  destruct (parse_insn dbg be h (b :: a ++ suf)) as [[i rest]| | |] eqn:Ep; try discriminate.
  assert (Lr : (length suf <= length rest)%nat).
  { destruct (execute dbg h r i) as [[r' x]| | |]; try discriminate.
    destruct x; [destruct (r_tomb r' && negb (r_end r' && q))|..]; try discriminate.
    - apply next_row_loop_len in H. lia.
    - inversion H; subst. exact Hl.
    - apply next_row_loop_len in H. lia. }
  destruct (parse_insn_local dbg be h (b :: a) suf i rest Ep Lr) as [x1 [-> Ep']].
  rewrite Ep'.
  destruct (execute dbg h r i) as [[r' x]| | |]; try discriminate.
  destruct x; [destruct (r_tomb r' && negb (r_end r' && q)) eqn:Et|..]; try discriminate.
  - eapply IH; eauto.
  - inversion H; subst. cbn [st_inp st_row st_inseq] in *. eexists _, _. repeat split; reflexivity.
  - eapply IH; eauto.
Qed.

(* successive next_row calls of the straight run that each return a row *)
Section Steps.
Variables (dbg be : bool) (h : header).

Inductive steps : lr_state -> list row -> lr_state -> Prop :=
| steps_nil st : steps st [] st
| steps_cons st st' rs stk :
    next_row dbg be false h st = (NRow, st') -> steps st' rs stk -> steps st (st_row st' :: rs) stk.

Lemma steps_snoc st0 pre st st' :
  steps st0 pre st -> next_row dbg be false h st = (NRow, st') -> steps st0 (pre ++ [st_row st']) st'.
Proof.
  induction 1 as [st|st st1 rs stk N St IH]; intros Hn.
  - cbn [app]. econstructor; [exact Hn|constructor].
  - cbn [app]. econstructor; [exact N|]. apply IH. exact Hn.
Qed.

Lemma steps_sfx st rs stk : steps st rs stk -> sfx (st_inp stk) (st_inp st).
Proof.
  induction 1 as [st|st st1 rs stk N St IH]; [apply sfx_refl|].
  pose proof (next_row_frame dbg be false h st) as F. rewrite N in F. eapply sfx_trans; [exact IH|apply F].
Qed.

(* replaying a slice from a state with the same row and in_sequence flag: the same rows, then the end *)
Lemma resume_sim : forall st rs stk, steps st rs stk ->
  forall str fuel, row_reset h (st_row str) = row_reset h (st_row st) -> st_inseq str = st_inseq st ->
  st_inp st = st_inp str ++ st_inp stk ->
  (length (st_inp str) < fuel)%nat ->
  exists stf, rows_loop fuel dbg be true h str = (rs, SEnd, stf).
Proof.
  induction 1 as [st|st st1 rs stk N St IH]; intros str fuel Hr Hq Hi Hf.
  - assert (E : st_inp str = []).
    { apply (f_equal (@length byte)) in Hi. rewrite app_length in Hi.
      destruct (st_inp str); [reflexivity|simpl in Hi; lia]. }
    destruct fuel as [|f]; [lia|]. cbn [rows_loop]. unfold next_row. rewrite E. cbn [length next_row_loop].
    eexists. reflexivity.
  - destruct fuel as [|f]; [lia|]. cbn [rows_loop].
    unfold next_row in N. rewrite Hi in N.
    pose proof (steps_sfx _ _ _ St) as Sf. apply sfx_len in Sf.
    destruct (next_row_loop_local dbg be h _ false true _ _ _ _ (st_added str) _ _ N Sf)
      as (x & st2 & X1 & X2 & X3 & X4 & X5).
    unfold next_row. rewrite Hr, Hq.
    rewrite (next_row_loop_fuel dbg be true h (S (length (st_inp str))) (S (length (st_inp str ++ st_inp stk))))
      by (rewrite ?app_length; lia).
    rewrite X2.
    destruct (next_row_loop_row _ _ _ _ _ _ _ _ _ _ X2) as [X2' _].
    destruct (IH st2 f ltac:(rewrite X3; reflexivity) X5 ltac:(rewrite X1, X4; reflexivity) ltac:(lia)) as (stf & L1).
    rewrite L1. eexists. rewrite X3. reflexivity.
Qed.
End Steps.

Definition seq_shape (s : line_seq) (rows : list row) : Prop :=
  exists body e, rows = body ++ [e] /\ Forall (fun r => r_end r = false) body /\ r_end e = true /\
    sq_end s = r_addr e /\ sq_start s = match body with [] => 0 | r :: _ => r_addr r end.

Definition seq_good (dbg be : bool) (h : header) (s : line_seq) : Prop :=
  snd (resume_rows dbg be h s) = SEnd /\ seq_shape s (fst (resume_rows dbg be h s)).

Lemma remove_trailing_app a b : remove_trailing (a ++ b) b = a.
Proof.
  unfold remove_trailing. now rewrite app_length, Nat.add_sub, firstn_app_exact.
Qed.

Lemma seq_loop_rel dbg be h : forall fuel st0 pre st start files ss,
  row_reset h (st_row st0) = row_new h -> st_inseq st0 = false ->
  steps dbg be h st0 pre st -> Forall (fun r => r_end r = false) pre ->
  start = match pre with [] => None | r :: _ => Some (r_addr r) end ->
  (length (st_inp st) < fuel)%nat ->
  seq_loop fuel dbg be h st (st_inp st0) start = Ok (files, ss) ->
  exists l stf tail,
    rows_loop fuel dbg be false h st = (l, SEnd, stf) /\
    pre ++ l = concat (map (fun s => fst (resume_rows dbg be h s)) ss) ++ tail /\
    Forall (fun r => r_end r = false) tail /\ Forall (seq_good dbg be h) ss /\ files = st_added stf.
Proof.
  induction fuel as [|f IH]; intros st0 pre st start files ss Fr Fq St Fp Hs Hf H; [lia|].
  cbn [seq_loop] in H. cbn [rows_loop].
  destruct (next_row dbg be false h st) as [out st'] eqn:N.
  destruct out; try discriminate.
  - (* a row *)
    destruct (next_row_loop_row _ _ _ _ _ _ _ _ _ _ N) as [N1 N2].
    pose proof (steps_snoc _ _ _ _ _ _ _ St N) as St'.
    destruct (r_end (st_row st')) eqn:Ee.
    + destruct (seq_loop f dbg be h st' (st_inp st') None) as [[fs ss']| | |] eqn:E; cbn [bind] in H; try discriminate.
      inversion H; subst files ss; clear H.
      assert (Fr' : row_reset h (st_row st') = row_new h) by (unfold row_reset; rewrite Ee; reflexivity).
      assert (Fq' : st_inseq st' = false) by (rewrite N2; try rewrite Ee; reflexivity).
      destruct (IH st' [] st' None fs ss' Fr' Fq' (steps_nil _ _ _ _) (Forall_nil _) eq_refl ltac:(lia) E)
        as (l & stf & tail & L1 & L2 & L3 & L4 & L5).
      rewrite L1. exists (st_row st' :: l), stf, tail.
      pose proof (steps_sfx _ _ _ _ _ _ St') as [a Ea].
      assert (G : resume_rows dbg be h
                    (mk_seq (match start with Some a0 => a0 | None => 0 end) (r_addr (st_row st'))
                            (remove_trailing (st_inp st0) (st_inp st'))) = (pre ++ [st_row st'], SEnd)).
      { rewrite Ea, remove_trailing_app. unfold resume_rows. cbn [sq_insns].
        destruct (resume_sim dbg be h _ _ _ St' (st_init h a) (S (length a))) as (stf0 & R1).
        - cbn [st_row st_init]. rewrite Fr. reflexivity.
        - cbn [st_inseq st_init]. symmetry. exact Fq.
        - exact Ea.
        - cbn. lia.
        - rewrite R1. reflexivity. }
      split; [reflexivity|]. split; [|split; [exact L3|split; [|exact L5]]].
      * cbn [map concat fst]. rewrite G. cbn [fst]. rewrite <- !app_assoc. cbn [app] in L2 |- *.
        rewrite <- L2. reflexivity.
      * constructor; [|exact L4]. unfold seq_good. rewrite G. cbn [fst snd]. split; [reflexivity|].
        exists pre, (st_row st'). cbn [sq_end sq_start]. repeat split; auto.
        subst start. destruct pre; reflexivity.
    + assert (Fp' : Forall (fun r => r_end r = false) (pre ++ [st_row st'])).
      { apply Forall_app. split; [exact Fp|]. constructor; [exact Ee|constructor]. }
      destruct (IH st0 (pre ++ [st_row st']) st'
                  (match start with None => Some (r_addr (st_row st')) | Some a => Some a end)
                  files ss Fr Fq St' Fp' ltac:(subst start; destruct pre; reflexivity) ltac:(lia) H)
        as (l & stf & tail & L1 & L2 & L3 & L4 & L5).
      rewrite L1. exists (st_row st' :: l), stf, tail. split; [reflexivity|].
      split; [|split; [exact L3|split; [exact L4|exact L5]]].
      rewrite <- L2, <- app_assoc. reflexivity.
  - (* end of the program *)
    inversion H; subst. exists [], st', pre. rewrite app_nil_r. repeat split; auto.
Qed.

Lemma chain_body_last h : forall body a e,
  chain h a (body ++ [e]) -> Forall (fun r => r_end r = false) body ->
  a <= r_addr e /\ r_addr e <= amask h /\ match body with [] => True | r :: _ => r_addr r <= r_addr e end.
Proof.
  induction body as [|r body IH]; intros a e C F.
  - cbn [app chain] in C. destruct C as (C1 & C2 & _). repeat split; assumption.
  - cbn [app chain] in C. destruct C as (C1 & C2 & C3). inversion F as [|? ? Fr Fb]; subst.
    rewrite Fr in C3. destruct (IH _ _ C3 Fb) as (J1 & J2 & _). repeat split; [lia|exact J2|exact J1].
Qed.

Lemma seq_good_bounds dbg be h s : hdr_ok h -> seq_good dbg be h s ->
  sq_start s <= sq_end s /\ sq_end s <= amask h /\ rows_monotone (fst (resume_rows dbg be h s)).
Proof.
  intros Hh [_ (body & e & Er & Fb & _ & Eend & Estart)]. unfold resume_rows in *.
  destruct (rows_loop _ dbg be true h _) as [[rs st] stf] eqn:R. cbn [fst] in *.
  destruct (rows_init_post _ _ _ _ _ _ _ _ Hh R) as [C _].
  pose proof (proj1 (chain_monotone _ _ _ C)) as M. subst rs.
  destruct (chain_body_last h body 0 e C Fb) as (_ & J2 & J3). rewrite Estart, Eend.
  split; [destruct body; [lia|exact J3]|split; [exact J2|exact M]].
Qed.
