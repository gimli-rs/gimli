(* program_roundtrip: what the line WRITER model writes, the line READER model
   (Model/LineRd.v, property C04) reads back as the meaning of the script. Composition of
   LineRtBytes (bytes = reference encoding), LineRtScript (emitted programs are well-formed and mean the
   script) and C04's rows_refine_spec / header_roundtrip theorems. *)
From Coq Require Import List NArith ZArith Bool Lia ZifyBool ZifyN ZifyNat.
From Coq.Strings Require Import Byte.
Require Import GV.Base.Res GV.Base.Byt GV.Base.Ints GV.Model.Leb GV.Model.Prim.
Require Import GV.Spec.LineSpec GV.Model.LineRd GV.Proofs.LineRdBase GV.Proofs.LineRdRefine GV.Proofs.LineRdInsn.
Require GV.Spec.LineAdvSpec GV.Model.LineWr GV.Proofs.LineWrProofs GV.Proofs.LineWrSeqProofs.
Require Import GV.Proofs.LebProofs GV.Proofs.LineRdHdr GV.Proofs.LineRdHdr5.
Require Import GV.Proofs.LineRtBytes GV.Proofs.LineRtRows GV.Proofs.LineRtScript.
Import ListNotations.

Local Open Scope Z_scope.

(* script_enc_ok only looks at the address size of the header *)
Lemma bounds_ext h1 h2 s : h_addr_size h1 = h_addr_size h2 -> bounds h1 s -> bounds h2 s.
Proof. intros E. unfold bounds, addr_mask. now rewrite E. Qed.

Lemma script_enc_ok_ext h1 h2 ver lp : h_addr_size h1 = h_addr_size h2 ->
  forall ops st, script_enc_ok h1 ver lp st ops -> script_enc_ok h2 ver lp st ops.
Proof.
  intros E. induction ops as [|o ops IH]; intros st H; [exact I|].
  cbn [script_enc_ok] in *. destruct H as [Ho Hr]. split; [|apply IH; exact Hr].
  destruct o as [[a|]|a|row|off opi]; try exact I; unfold addr_mask in *; try (rewrite <- E; exact Ho).
  - destruct Ho as [Hu Hb]. split; [exact Hu|]. eapply bounds_ext; eassumption.
  - eapply bounds_ext; eassumption.
Qed.

(* a header record that only carries an address size: what script_enc_ok needs to be stated *)
Definition hdr_of_asz (asz : N) : header :=
  mk_header false 0 asz 0 0 0 0 false 0%Z 0 0 [] [] [] [] [] [].

Section Rows.
Variables (dbg be : bool) (e : W.enc) (l : W.lenc) (h0 : header) (p : W.prog) (ops : list P2.rop).
Hypothesis HP : enc_params_ok e l.
Hypothesis Hok : P1.enc_ok l.
Hypothesis Hver : (W.e_version e <= 5)%N.
Hypothesis Hfresh : P2.fresh_prog e l p.
Hypothesis Hasz : h_addr_size h0 = W.e_addr_size e.
Hypothesis Hscript : P2.script_ok e l (W.wrow_initial e l) false ops.
Hypothesis Henc : script_enc_ok h0 (W.e_version e) (W.params_of l) (A.init_regs (W.params_of l), 0%N) ops.

(* the script runs, and LineInstruction::write writes what it has emitted *)
Lemma script_writes : exists p' prog,
  P2.apply_rops dbg p ops = Ok p' /\ W.insns_write dbg be e (W.p_insns p') = Ok prog.
Proof.
  set (hc := mk_header (W.e_fmt64 e) (W.e_version e) (W.e_addr_size e) 0 0 (W.le_min_len l) (W.le_max_ops l)
               (W.le_default_is_stmt l) (W.le_line_base l) (W.le_line_range l) 13 W.std_opcode_lengths
               [] [] [] [] []).
  assert (HMc : hdr_matches e l hc) by (unfold hdr_matches, hc; cbn; repeat split).
  destruct (fresh_script_wf e l hc HMc HP dbg p ops Hfresh Hok Hver Hscript) as (p' & Eap & _ & Een & _).
  { eapply script_enc_ok_ext; [|exact Henc]. exact Hasz. }
  exists p', (enc_prog be hc (map (tr (W.e_version e)) (W.p_insns p'))).
  split; [exact Eap|]. apply insns_write_enc; [reflexivity|exact Een].
Qed.

(* For every header `h` that carries the writer's parameters (whatever its tables) and whose program bytes
   are what LineInstruction::write produced for the script: the reader's rows() runs to the end without
   error and returns exactly the rows the script means. *)
Theorem rows_readback h p' :
  hdr_matches e l h ->
  P2.apply_rops dbg p ops = Ok p' -> W.insns_write dbg be e (W.p_insns p') = Ok (h_program h) ->
  exists rs, rows_model dbg be h = (rs, SEnd) /\
    map rep rs = map r2s (fst (P2.meaning (W.e_version e) (W.params_of l) (A.init_regs (W.params_of l), 0%N) ops)) /\
    Forall (fun r => r_tomb r = false) rs.
Proof.
  intros HM Eap Hprog. pose proof HM as (_ & Ha & _ & _ & Hd & _).
  destruct (fresh_script_wf e l h HM HP dbg p ops Hfresh Hok Hver Hscript) as (p'' & Eap' & Wf & Een & Nos & Run).
  { eapply script_enc_ok_ext; [|exact Henc]. congruence. }
  rewrite Eap in Eap'. injection Eap' as <-.
  rewrite (insns_write_enc dbg be e h _ Ha Een) in Hprog. injection Hprog as Hprog.
  assert (Hs0 : s_init h = r2s (A.init_regs (W.params_of l)))
    by (unfold s_init, r2s, A.init_regs; cbn; now rewrite Hd).
  destruct (rows_refine_spec_lemma dbg be h (map (tr (W.e_version e)) (W.p_insns p'))) as (rs & R1 & R2 & R3).
  - unfold prog_wf. rewrite (pwf_params_wf h (hdr_matches_pwf e l h HM HP)), Hs0, Wf. reflexivity.
  - symmetry. exact Hprog.
  - exists rs. split; [exact R1|]. split; [|exact R3].
    rewrite R2. unfold rows_spec. rewrite srun_rows, Hs0.
    destruct (srun_iso e l h _ (A.init_regs (W.params_of l)) _ _ HM Nos eq_refl Run) as [Iso _].
    rewrite Iso. reflexivity.
Qed.

End Rows.

Local Open Scope N_scope.

Definition dir4_ok (d : W.lstr) : Prop := exists s, d = W.LStr s /\ s <> [] /\ no_nul s = true.
Definition file4_ok (f : (W.lstr * N) * W.finfo) : Prop :=
  exists s, fst (fst f) = W.LStr s /\ s <> [] /\ no_nul s = true /\ snd (fst f) < two64 /\
            W.fi_timestamp (snd f) < two64 /\ W.fi_size (snd f) < two64.

Definition lstr_val (d : W.lstr) : form_val := match d with W.LStr s => VString s | _ => VString [] end.
Definition raw_dir4 (d : W.lstr) : list form_val := [lstr_val d].
Definition raw_file4 (f : (W.lstr * N) * W.finfo) : list form_val :=
  [lstr_val (fst (fst f)); VUdata (snd (fst f)); VUdata (W.fi_timestamp (snd f)); VUdata (W.fi_size (snd f))].

(* the raw header (LineSpec vocabulary) that LineProgram::write emits for versions 2-4 *)
Definition raw4 (p : W.prog) : raw_header :=
  let e := W.p_enc p in let l := W.p_lenc p in
  mk_raw (W.e_fmt64 e) (W.e_version e) (W.e_addr_size e) (W.le_min_len l) (W.le_max_ops l)
         (W.le_default_is_stmt l) (W.le_line_base l) (W.le_line_range l) 13 W.std_opcode_lengths
         [] (map raw_dir4 (tl (W.p_dirs p))) [] (map raw_file4 (W.p_files p)).

Lemma dirs_write4 dbg be e ls ss : forall ds, W.e_version e <= 4 -> Forall dir4_ok ds ->
  W.dirs_write dbg be W.DW_FORM_string e ls ss ds =
  Ok (concat (map (enc_entry be (W.e_fmt64 e) dir_fmt_v4) (map raw_dir4 ds))).
Proof.
  induction ds as [|d ds IH]; intros Hv F; [reflexivity|].
  inversion F as [|x xs (s & -> & Hs & Hn) F']; subst. cbn [W.dirs_write map concat].
  unfold W.lstr_write. cbn [W.lstr_form]. change (W.DW_FORM_string =? W.DW_FORM_string) with true. cbn [negb].
  destruct s as [|b s]; [contradiction|]. rewrite andb_false_r. cbn [bind]. rewrite (IH Hv F'). cbn [bind].
  cbn [raw_dir4 lstr_val enc_entry dir_fmt_v4 enc_val ef_form]. change (FORM_string =? FORM_string) with true.
  cbv iota. now rewrite app_nil_r.
Qed.

Lemma files_write4 dbg be e ls ss : forall fs, W.e_version e <= 4 -> Forall file4_ok fs ->
  W.files_write_v4 dbg be e ls ss fs =
  Ok (concat (map (enc_entry be (W.e_fmt64 e) file_fmt_v4) (map raw_file4 fs))).
Proof.
  induction fs as [|[[fl dir] info] fs IH]; intros Hv F; [reflexivity|].
  inversion F as [|x xs (s & Hf & Hs & Hn & Hd & Ht & Hz) F']; subst x xs.
  cbn [fst snd] in *. subst fl. cbn [W.files_write_v4 map concat].
  unfold W.lstr_write. cbn [W.lstr_form]. change (W.DW_FORM_string =? W.DW_FORM_string) with true. cbn [negb].
  destruct s as [|b s]; [contradiction|]. rewrite andb_false_r. cbn [bind].
  rewrite (proj1 (write_uleb128_enc _ Hd)), (proj1 (write_uleb128_enc _ Ht)), (proj1 (write_uleb128_enc _ Hz)).
  cbn [bind]. rewrite (IH Hv F'). cbn [bind].
  cbn [raw_file4 lstr_val fst snd enc_entry file_fmt_v4 enc_val ef_form].
  change (FORM_string =? FORM_string) with true. change (FORM_udata =? FORM_udata) with true. cbv iota.
  rewrite app_nil_r, <- !app_assoc. reflexivity.
Qed.

Lemma enc_word_udata be (fmt64 : bool) v : v < (if fmt64 then two64 else 4294967296) ->
  write_udata be v (word_size fmt64) = Ok (enc_word be fmt64 v).
Proof.
  intros H. unfold enc_word, word_size. destruct fmt64.
  - apply (write_udata_enc be v 8); [right; right; right; reflexivity|exact H].
  - apply (write_udata_enc be v 4); [right; right; left; reflexivity|exact H].
Qed.

Lemma write_initial_length_enc be (fmt64 : bool) v : v < (if fmt64 then two64 else 4294967280) ->
  write_initial_length fmt64 be v =
  Ok ((if fmt64 then enc_fixed 4 be 4294967295 else []) ++ enc_word be fmt64 v).
Proof.
  intros H. unfold write_initial_length.
  destruct fmt64; cbn [negb andb].
  - rewrite enc_word_udata by exact H. cbn [bind]. reflexivity.
  - destruct (N.leb_spec 4294967280 v); [lia|]. cbn [andb].
    rewrite enc_word_udata by lia. reflexivity.
Qed.

(* the fixed fields and the tables LineProgram::write assembles for versions 2-4 are the reference header body of raw4 *)
Lemma header_body4 be p : W.e_version (W.p_enc p) <= 4 ->
  ([n2b (W.le_min_len (W.p_lenc p))]
     ++ (if 4 <=? W.e_version (W.p_enc p) then [n2b (W.le_max_ops (W.p_lenc p))] else [])
     ++ [n2b (W.b2N (W.le_default_is_stmt (W.p_lenc p)))]
     ++ [n2b (of_signed 8 (W.le_line_base (W.p_lenc p))); n2b (W.le_line_range (W.p_lenc p)); n2b W.OPCODE_BASE]
     ++ W.std_opcode_lengths)
  ++ (concat (map (enc_entry be (W.e_fmt64 (W.p_enc p)) dir_fmt_v4) (map raw_dir4 (tl (W.p_dirs p)))) ++ [x00]
      ++ concat (map (enc_entry be (W.e_fmt64 (W.p_enc p)) file_fmt_v4) (map raw_file4 (W.p_files p))) ++ [x00])
  = enc_header_body be (raw4 p).
Proof.
  intros Hv. unfold enc_header_body, raw4.
  cbn [rh_version rh_min_inst_len rh_max_ops rh_default_is_stmt rh_line_base rh_line_range rh_opcode_base
       rh_std_lengths rh_dirs rh_files rh_fmt64].
  destruct (N.leb_spec (W.e_version (W.p_enc p)) 4) as [_|Hc]; [|lia].
  replace (n2b (W.b2N (W.le_default_is_stmt (W.p_lenc p)))) with (if W.le_default_is_stmt (W.p_lenc p) then x01 else x00)
    by (destruct (W.le_default_is_stmt (W.p_lenc p)); reflexivity).
  change (of_signed 8 (W.le_line_base (W.p_lenc p))) with (Z.to_N (W.le_line_base (W.p_lenc p) mod 256)%Z).
  unfold W.OPCODE_BASE. rewrite <- !app_assoc. reflexivity.
Qed.

(* The frame LineProgram::write puts around the header fields and tables `body`: version (and address size),
   header length, then the program, all behind the initial length. *)
Lemma write_framed dbg be e (r : raw_header) pre insns prog (ls ss : W.strtab) :
  rh_fmt64 r = W.e_fmt64 e ->
  pre = enc_fixed 2 be (rh_version r) ++ (if 5 <=? rh_version r then [n2b (rh_addr_size r); x00] else []) ->
  W.insns_write dbg be e insns = Ok prog ->
  len_n (enc_after_len be r prog) < (if W.e_fmt64 e then two64 else 4294967280) ->
  (let body := enc_header_body be r in
   let* hl := write_udata be (N.of_nat (length body)) (word_size (W.e_fmt64 e)) in
   let* ins := W.insns_write dbg be e insns in
   let after := pre ++ hl ++ body ++ ins in
   let* il := write_initial_length (W.e_fmt64 e) be (N.of_nat (length after)) in
   Ok (il ++ after, ls, ss)) = Ok (enc_unit be r prog, ls, ss).
Proof.
  intros Ef -> Hins Hlen. cbv zeta. unfold enc_unit. unfold enc_after_len in *. rewrite Ef in *.
  set (body := enc_header_body be r) in *.
  unfold len_n in *. rewrite !app_length, enc_fixed_length in Hlen.
  rewrite enc_word_udata by (destruct (W.e_fmt64 e); unfold two64 in *; lia). cbn [bind].
  rewrite Hins. cbn [bind]. rewrite <- !app_assoc.
  rewrite write_initial_length_enc by (rewrite !app_length, enc_fixed_length; exact Hlen).
  cbn [bind]. rewrite <- !app_assoc. reflexivity.
Qed.

(* LineProgram::write for versions 2-4 produces exactly the reference encoding of raw4 *)
Lemma write_v4 dbg be p unit_enc ls ss prog :
  2 <= W.e_version (W.p_enc p) <= 4 ->
  W.e_addr_size unit_enc = W.e_addr_size (W.p_enc p) ->
  (W.e_version (W.p_enc p) < 4 -> W.le_max_ops (W.p_lenc p) = 1) ->
  Forall dir4_ok (tl (W.p_dirs p)) -> Forall file4_ok (W.p_files p) ->
  W.insns_write dbg be (W.p_enc p) (W.p_insns p) = Ok prog ->
  len_n (enc_after_len be (raw4 p) prog) < (if W.e_fmt64 (W.p_enc p) then two64 else 4294967280) ->
  W.write dbg be p unit_enc ls ss = Ok (enc_unit be (raw4 p) prog, ls, ss).
Proof.
  intros Hv Hasz Hm Fd Ff Hins Hlen.
  set (e := W.p_enc p) in *. set (l := W.p_lenc p) in *.
  unfold W.write. fold e l.
  rewrite (proj2 (N.leb_gt 5 (W.e_version e))) at 1 by lia. rewrite andb_false_r.
  rewrite Hasz, N.eqb_refl. cbn [negb orb].
  destruct (N.ltb_spec (W.e_version e) 2) as [Hc|_]; [lia|].
  destruct (N.ltb_spec 5 (W.e_version e)) as [Hc|_]; [lia|]. cbn [orb].
  assert (Emo : (if 4 <=? W.e_version e then Ok [n2b (W.le_max_ops l)]
                 else if negb (W.le_max_ops l =? 1) then Err WNeedVersion else Ok [])
                = Ok (if 4 <=? W.e_version e then [n2b (W.le_max_ops l)] else [])).
  { destruct (N.leb_spec 4 (W.e_version e)); [reflexivity|]. rewrite Hm by lia. reflexivity. }
  rewrite Emo. cbn [bind].
  destruct (N.leb_spec (W.e_version e) 4) as [_|Hc]; [|lia].
  rewrite (dirs_write4 dbg be e ls ss _ ltac:(lia) Fd). cbn [bind].
  rewrite (files_write4 dbg be e ls ss _ ltac:(lia) Ff). cbn [bind].
  pose proof (header_body4 be p ltac:(fold e; lia)) as Ehdr. fold e l in Ehdr.
  rewrite Ehdr. apply (write_framed dbg be e (raw4 p)); try assumption; [reflexivity|].
  reflexivity.
Qed.

(* the row calls leave the encodings, the tables and the file_has_* flags alone *)
Lemma apply_rop_frame dbg p o p' : P2.apply_rop dbg p o = Ok p' ->
  exists prev row ins b,
    p' = W.mkProg (W.p_enc p) (W.p_lenc p) (W.p_dirs p) (W.p_files p) (W.p_has_timestamp p) (W.p_has_size p)
                  (W.p_has_md5 p) (W.p_has_source p) prev row ins b.
Proof.
  destruct o as [a|a|row|off opi]; cbn [P2.apply_rop]; intros H.
  - unfold W.begin_sequence in H. destruct (W.p_in_seq p); [discriminate|].
    destruct a; injection H as <-; repeat eexists.
  - injection H as <-. repeat eexists.
  - unfold W.generate_row in H. apply bind_ok in H as ([c d] & _ & H).
    apply bind_ok in H as (opa & _ & H). apply bind_ok in H as (adv & _ & H). injection H as <-. repeat eexists.
  - unfold W.end_sequence in H. apply bind_ok in H as (opa & _ & H). injection H as <-. repeat eexists.
Qed.

Lemma apply_rops_frame dbg : forall ops p p', P2.apply_rops dbg p ops = Ok p' ->
  exists prev row ins b,
    p' = W.mkProg (W.p_enc p) (W.p_lenc p) (W.p_dirs p) (W.p_files p) (W.p_has_timestamp p) (W.p_has_size p)
                  (W.p_has_md5 p) (W.p_has_source p) prev row ins b.
Proof.
  induction ops as [|o ops IH]; intros p p' H; cbn [P2.apply_rops] in H.
  - injection H as <-. destruct p. repeat eexists.
  - apply bind_ok in H as (p1 & H1 & H). destruct (apply_rop_frame dbg p o p1 H1) as (? & ? & ? & ? & ->).
    exact (IH _ _ H).
Qed.

(* the tables a reader must see for versions 2-4 *)
Definition file4_entry (f : (W.lstr * N) * W.finfo) : file_entry :=
  mk_file (lstr_val (fst (fst f))) (snd (fst f)) (W.fi_timestamp (snd f)) (W.fi_size (snd f)) (repeat x00 16) None.

Lemma dirs_of_raw4 : forall ds,
  flat_map (fun o : option form_val => match o with Some v => [v] | None => [] end)
           (map (fun vals => dir_of_entry dir_fmt_v4 vals None) (map raw_dir4 ds)) = map lstr_val ds.
Proof. induction ds as [|d ds IH]; [reflexivity|]. cbn [map flat_map]. rewrite IH. reflexivity. Qed.

(* program_roundtrip, versions 2-4, both formats, both byte orders, all address sizes: a program with any
   (inline, non-empty, NUL-free) directory and file tables, then any script of row calls that respects
   script_ok and script_enc_ok; LineProgram::write succeeds, LineProgramHeader::parse decodes the unit,
   rows() returns exactly the rows the script means, and the tables read back. *)
Theorem program_roundtrip_v2_v4 dbg be e l p0 ops unit_enc ls ss :
  W.p_insns p0 = [] -> W.p_prev p0 = W.wrow_initial e l -> W.p_in_seq p0 = false ->
  W.p_enc p0 = e -> W.p_lenc p0 = l ->
  2 <= W.e_version e <= 4 -> (W.e_version e < 4 -> W.le_max_ops l = 1) ->
  enc_params_ok e l -> P1.enc_ok l -> W.e_addr_size unit_enc = W.e_addr_size e ->
  Forall dir4_ok (tl (W.p_dirs p0)) -> Forall file4_ok (W.p_files p0) ->
  P2.script_ok e l (W.wrow_initial e l) false ops ->
  script_enc_ok (hdr_of_asz (W.e_addr_size e)) (W.e_version e) (W.params_of l)
                (A.init_regs (W.params_of l), 0) ops ->
  (forall p' prog, P2.apply_rops dbg p0 ops = Ok p' -> W.insns_write dbg be e (W.p_insns p') = Ok prog ->
     len_n (enc_after_len be (raw4 p') prog) < (if W.e_fmt64 e then two64 else 4294967280)) ->
  exists p' bytes h rs,
    P2.apply_rops dbg p0 ops = Ok p' /\
    W.write dbg be p' unit_enc ls ss = Ok (bytes, ls, ss) /\
    parse_header dbg be (W.e_addr_size e) bytes = Ok h /\
    rows_model dbg be h = (rs, SEnd) /\
    map rep rs = map r2s (fst (P2.meaning (W.e_version e) (W.params_of l) (A.init_regs (W.params_of l), 0) ops)) /\
    Forall (fun r => r_tomb r = false) rs /\
    h_dirs h = map lstr_val (tl (W.p_dirs p0)) /\ h_files h = map file4_entry (W.p_files p0) /\
    hdr_matches e l h.
Proof.
  intros Ins Prev Seq Enc Lenc Hv Hm HP Hok Hasz Fd Ff Hscript Henc Hfits.
  assert (Hfresh : P2.fresh_prog e l p0) by (repeat split; assumption).
  assert (Hver : (W.e_version e <= 5)%N) by lia.
  destruct (script_writes dbg be e l (hdr_of_asz (W.e_addr_size e)) p0 ops HP Hok Hver Hfresh eq_refl Hscript Henc)
    as (p' & prog & Eap & Hprog).
  pose proof (Hfits p' prog Eap Hprog) as Hlen.
  destruct (apply_rops_frame dbg ops p0 p' Eap) as (prev & row & ins & b & Ep'). rewrite Enc, Lenc in Ep'.
  assert (Hw : W.write dbg be p' unit_enc ls ss = Ok (enc_unit be (raw4 p') prog, ls, ss))
    by (apply write_v4; subst p'; assumption).
  assert (Hraw : raw_wf4 be (raw4 p') prog).
  { pose proof HP as (Hsz & Hmil & Hmops & Hlr & Hlb). subst p'.
    constructor; cbn [raw4 rh_version rh_min_inst_len rh_max_ops rh_line_range rh_opcode_base rh_line_base
                      rh_std_lengths rh_dirs rh_files rh_fmt64 W.p_enc W.p_lenc W.p_dirs W.p_files];
      try lia; try reflexivity.
    - clear -Fd. induction Fd as [|d ds (s & -> & Hs & Hn) F IH]; cbn [map]; constructor; [|exact IH].
      exists s. repeat split; assumption.
    - clear -Ff. induction Ff as [|f fs (s & Hf & Hs & Hn & Hd & Ht & Hz) F IH]; cbn [map];
        constructor; [|exact IH].
      exists s, (snd (fst f)), (W.fi_timestamp (snd f)), (W.fi_size (snd f)).
      unfold raw_file4. rewrite Hf. repeat split; assumption. }
  pose proof (header_roundtrip_v4_lemma dbg be (W.e_addr_size e) (raw4 p') prog [] Hraw) as Hparse.
  rewrite app_nil_r in Hparse.
  set (h := header_of_raw be (W.e_addr_size e) (raw4 p') prog) in *.
  assert (HM : hdr_matches e l h).
  { unfold hdr_matches, h, header_of_raw. subst p'. cbn.
    destruct (N.leb_spec 5 (W.e_version e)) as [Hc|_]; [lia|].
    repeat split. destruct (N.leb_spec 4 (W.e_version e)); [reflexivity|]. symmetry. apply Hm. lia. }
  destruct (rows_readback dbg be e l (hdr_of_asz (W.e_addr_size e)) p0 ops HP Hok Hver Hfresh eq_refl Hscript Henc h p' HM
              Eap Hprog)
    as (rs & R1 & R2 & R3).
  exists p', (enc_unit be (raw4 p') prog), h, rs.
  split; [exact Eap|]. split; [exact Hw|]. split; [exact Hparse|]. split; [exact R1|].
  split; [exact R2|]. split; [exact R3|]. split; [|split; [|exact HM]].
  - unfold h, header_of_raw, dirs_of_raw. subst p'. cbn [h_dirs raw4 rh_version rh_dirs W.p_enc W.p_dirs].
    destruct (N.leb_spec (W.e_version e) 4) as [_|Hc]; [|lia]. apply dirs_of_raw4.
  - unfold h, header_of_raw, files_of_raw. subst p'. cbn [h_files raw4 rh_version rh_files W.p_enc W.p_files].
    destruct (N.leb_spec (W.e_version e) 4) as [_|Hc]; [|lia]. rewrite !map_map. apply map_ext. reflexivity.
Qed.

Definition ex_enc : W.enc := W.mkEnc false 4 8.
Definition ex_lenc : W.lenc := W.mkLenc 1 2 true (-5) 14.
Definition ex_info : W.finfo := W.mkFinfo 1234 5678 (repeat x00 16) None.

(* new(..); add_directory("inc"); add_file("a.c", dir 1, info); add_file("b.h", dir 0, None) *)
Definition ex_prog : res W.prog :=
  let* p := W.lp_new false ex_enc ex_lenc (W.LStr [x64]) None (W.LStr [x66]) None in
  let* (p, d) := W.add_directory p (W.LStr [x69; x6e; x63]) in
  let* (p, _) := W.add_file p (W.LStr [x61; x2e; x63]) d (Some ex_info) in
  let* (p, _) := W.add_file p (W.LStr [x62; x2e; x68]) 0 None in
  Ok p.

Definition ex_ops : list P2.rop :=
  [P2.RBegin (Some 4096%N); P2.RRow (P2.prow 0 0 7); P2.RRow (P2.prow 3 1 18446744073709551615);
   P2.RSetAddr 8192; P2.RRow (P2.prow 4 0 2); P2.RRow (P2.prow 10 1 2); P2.REnd 12 0;
   P2.RSetAddr 100; P2.RRow (P2.prow 0 0 1); P2.REnd 1 1].
