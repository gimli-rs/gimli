(* Proofs/DieRdProofs.v — lemmas about Model/DieRd.v (unit headers, entries, cursors, trees). *)
From Coq Require Import List NArith ZArith Bool Lia ZifyBool ZifyN ZifyNat.
From Coq.Strings Require Import Byte.
Require Import GV.Base.Res GV.Base.Byt GV.Base.Ints GV.Model.Leb GV.Model.Prim
               GV.Spec.LebSpec GV.Spec.FormSpec GV.Model.Attr GV.Spec.Forest GV.Model.AbbrevRd
               GV.Model.DieRd GV.Proofs.LebProofs GV.Proofs.PrimProofs GV.Proofs.AttrProofs
               GV.Proofs.AbbrevRdProofs.
Import ListNotations.
Local Open Scope N_scope.

Lemma nlen_app {A} (a b : list A) : nlen (a ++ b) = nlen a + nlen b.
Proof. unfold nlen. rewrite app_length. lia. Qed.
Lemma nlen_cons {A} (x : A) (l : list A) : nlen (x :: l) = 1 + nlen l.
Proof. unfold nlen. cbn [length]. lia. Qed.
Lemma nlen_nil {A} : nlen (@nil A) = 0. Proof. reflexivity. Qed.

Lemma enc_fixed_length n bigend v : length (enc_fixed n bigend v) = n.
Proof. rewrite enc_fixed_enc_un. apply enc_un_length. Qed.
Lemma nlen_enc_fixed n bigend v : nlen (enc_fixed n bigend v) = N.of_nat n.
Proof. unfold nlen. rewrite enc_fixed_length. reflexivity. Qed.

Lemma enc_utype_len bigend fmt64 t : nlen (enc_utype bigend fmt64 t) = nlen (enc_utype false fmt64 t).
Proof. destruct t; cbn [enc_utype]; rewrite ?nlen_app, ?nlen_enc_fixed; reflexivity. Qed.

Lemma header_fields_len bigend h : nlen (enc_header_fields bigend h) = nlen (enc_header_fields false h).
Proof.
  unfold enc_header_fields. rewrite !nlen_app, (enc_utype_len bigend), !nlen_enc_fixed.
  destruct (uh_version h =? 5); rewrite ?nlen_app, ?nlen_cons, ?nlen_enc_fixed, ?nlen_nil; reflexivity.
Qed.

Lemma unit_length_of_be bigend h n : unit_length_of bigend h n = unit_length_of false h n.
Proof. unfold unit_length_of. rewrite header_fields_len. reflexivity. Qed.

Lemma header_len_split h :
  header_len h = initial_length_size (uh_fmt64 h) + nlen (enc_header_fields false h).
Proof.
  unfold header_len, enc_header, enc_initial_length, initial_length_size. rewrite nlen_app.
  destruct (uh_fmt64 h); rewrite ?nlen_app, !nlen_enc_fixed; reflexivity.
Qed.

Lemma read_initial_length_enc bigend (f64 : bool) len rest :
  (if f64 then len < two64 else len < 4294967280) ->
  read_initial_length bigend (enc_initial_length bigend f64 len ++ rest) = Ok ((len, f64), rest).
Proof.
  intros H. unfold read_initial_length, enc_initial_length. destruct f64.
  - rewrite <- app_assoc. rewrite read_un_enc by (cbn; lia). cbn [bind].
    change (4294967295 <? 4294967280) with false. change (4294967295 =? 4294967295) with true. cbv iota.
    rewrite read_un_enc by (change (256 ^ N.of_nat 8) with two64; exact H). reflexivity.
  - rewrite read_un_enc by (change (256 ^ N.of_nat 4) with 4294967296; lia). cbn [bind].
    replace (len <? 4294967280) with true by lia. reflexivity.
Qed.

Lemma read_word_enc (f64 : bool) bigend v rest :
  v < 2 ^ (8 * N.of_nat (word f64)) ->
  read_word f64 bigend (enc_fixed (word f64) bigend v ++ rest) = Ok (v, rest).
Proof.
  intros H. unfold read_word. destruct f64; cbn [word] in *; apply read_un_enc; rewrite pow256; exact H.
Qed.

Lemma read_u64_enc bigend v rest : v < two64 -> read_u64 bigend (enc_fixed 8 bigend v ++ rest) = Ok (v, rest).
Proof. intros H. apply read_un_enc. exact H. Qed.

Lemma parse_unit_type_enc bigend (f64 : bool) t rest :
  match t with
  | UCompile | UPartial => True
  | UType s o | USplitType s o => s < two64 /\ o < 2 ^ (8 * N.of_nat (word f64))
  | USkeleton i | USplitCompile i => i < two64
  end ->
  parse_unit_type bigend f64 (ut_code t) (enc_utype bigend f64 t ++ rest) = Ok (t, rest).
Proof.
  destruct t; cbn [ut_code enc_utype parse_unit_type N.eqb Pos.eqb app]; intros H; try reflexivity;
    rewrite <- ?app_assoc.
  - destruct H. rewrite read_u64_enc by assumption. cbn [bind]. rewrite read_word_enc by assumption. reflexivity.
  - rewrite read_u64_enc by assumption. reflexivity.
  - rewrite read_u64_enc by assumption. reflexivity.
  - destruct H. rewrite read_u64_enc by assumption. cbn [bind]. rewrite read_word_enc by assumption. reflexivity.
Qed.

Lemma read_address_size_byte asz rest :
  asz = 1 \/ asz = 2 \/ asz = 4 \/ asz = 8 -> read_address_size (n2b asz :: rest) = Ok (asz, rest).
Proof. intros [->|[->|[->| ->]]]; reflexivity. Qed.

Definition parsed_header (bigend types : bool) (uoff : N) (h : uheader) (body : list byte) : unit_header :=
  mkUnit (mkEnc (uh_version h) (uh_fmt64 h) (uh_asize h) bigend)
         (unit_length_of bigend h (nlen body)) (uh_type h) (uh_abbrev_off h) types uoff body.

Lemma header_roundtrip bigend types uoff h body rest :
  uheader_ok types h (nlen body) ->
  parse_unit_header bigend types uoff (enc_unit bigend h body ++ rest) =
  Ok (parsed_header bigend types uoff h body, rest).
Proof.
  intros (Hv & Ha & Ho & Ht & Hl). unfold parsed_header.
  destruct h as [version f64 asz ut aoff]. cbn [uh_version uh_fmt64 uh_asize uh_type uh_abbrev_off] in *.
  unfold parse_unit_header, enc_unit, enc_header. cbn [uh_fmt64].
  set (h := mkUH version f64 asz ut aoff) in *.
  set (fields := enc_header_fields bigend h).
  rewrite <- !app_assoc.
  rewrite <- (unit_length_of_be bigend) in Hl.
  rewrite read_initial_length_enc by (destruct f64; [lia|exact Hl]). cbn [bind].
  assert (Esplit : split_n (unit_length_of bigend h (nlen body)) (fields ++ body ++ rest)
                   = Ok (fields ++ body, rest)).
  { unfold unit_length_of. fold fields. rewrite <- nlen_app. rewrite app_assoc. apply split_n_app. }
  rewrite Esplit. cbn [bind]. clear Esplit.
  unfold fields, enc_header_fields. cbn [uh_version uh_fmt64 uh_asize uh_type uh_abbrev_off h].
  rewrite <- !app_assoc. unfold read_u16.
  rewrite read_un_enc by (change (256 ^ N.of_nat 2) with 65536; lia). cbn [bind].
  assert (Hty : match ut with
                | UCompile | UPartial => True
                | UType s o | USplitType s o => s < two64 /\ o < 2 ^ (8 * N.of_nat (word f64))
                | USkeleton i | USplitCompile i => i < two64
                end).
  { unfold utype_ok in Ht. cbn [uh_type uh_version uh_fmt64 h] in Ht. destruct ut; tauto. }
  destruct (N.eqb_spec version 5) as [V5|V5].
  - subst version. change ((2 <=? 5) && (5 <=? 4)) with false. cbv iota.
    rewrite <- ?app_assoc. cbn [app read_u8 bind]. rewrite b2n_n2b_small by (destruct ut; cbn; lia).
    rewrite read_address_size_byte by assumption. cbn [bind].
    rewrite read_word_enc by assumption. cbn [bind].
    rewrite parse_unit_type_enc by assumption. reflexivity.
  - replace ((2 <=? version) && (version <=? 4)) with true by lia.
    rewrite <- ?app_assoc. rewrite read_word_enc by assumption. cbn [bind app].
    rewrite read_address_size_byte by assumption. cbn [bind].
    unfold utype_ok in Ht. cbn [uh_type uh_version uh_fmt64 h] in Ht.
    destruct ut; try (exfalso; lia).
    + destruct Ht as [Ht|Ht]; [lia|]. subst types. cbn [enc_utype app]. reflexivity.
    + destruct Ht as ([Ht|Ht] & _); [lia|]. subst types.
      rewrite (parse_unit_type_enc bigend f64 (UType signature type_offset)) by assumption. reflexivity.
Qed.

(* header_size of a parsed header is the length of the encoded header; nothing overflows *)
Lemma header_size_parsed dbg bigend types uoff h body :
  unit_length_of false h (nlen body) + 12 < two64 ->
  header_size dbg (parsed_header bigend types uoff h body) = Ok (header_len h).
Proof.
  intros Hl. unfold header_size, length_including_self, parsed_header.
  cbn [u_enc u_length u_entries fmt64]. rewrite unit_length_of_be.
  unfold chk_add. change (2 ^ 64) with two64.
  assert (initial_length_size (uh_fmt64 h) <= 12) by (destruct (uh_fmt64 h); cbn; lia).
  replace (initial_length_size (uh_fmt64 h) + unit_length_of false h (nlen body) <? two64) with true by lia.
  cbn [bind]. unfold chk_sub.
  rewrite header_len_split. unfold unit_length_of in *.
  replace (nlen body <=? initial_length_size (uh_fmt64 h) + (nlen (enc_header_fields false h) + nlen body))
    with true by lia.
  f_equal. lia.
Qed.

Lemma header_size_unit dbg bigend types uoff h body :
  header_len h + nlen body < two63 ->
  header_size dbg (parsed_header bigend types uoff h body) = Ok (header_len h).
Proof.
  intros Hlen. apply header_size_parsed. rewrite header_len_split in Hlen.
  unfold unit_length_of, two63 in *. unfold two64.
  assert (initial_length_size (uh_fmt64 h) >= 4) by (destruct (uh_fmt64 h); cbn; lia). lia.
Qed.

Lemma tree_ind' (P : tree -> Prop) :
  (forall tag flag items kids, Forall P kids -> P (Node tag flag items kids)) -> forall t, P t.
Proof.
  intros H. fix IH 1. intros [tag flag items kids]. apply H.
  induction kids as [|k kids IHk]; constructor; [apply IH|exact IHk].
Qed.

Lemma on_list_cons {A} (f : N -> tree -> list A) size off t r :
  on_list f size off (t :: r) = f off t ++ on_list f size (off + size t) r.
Proof. reflexivity. Qed.

Lemma on_list_app {A} (f : N -> tree -> list A) size : forall a off b,
  on_list f size off (a ++ b) = on_list f size off a ++ on_list f size (off + sumN (map size a)) b.
Proof.
  induction a as [|t a IH]; intros off b.
  - cbn [app map sumN fold_right on_list]. rewrite N.add_0_r. reflexivity.
  - cbn [app map]. rewrite !on_list_cons, IH, <- app_assoc. cbn [sumN fold_right].
    rewrite N.add_assoc. reflexivity.
Qed.

Lemma on_list_ext {A} (f g : N -> tree -> list A) size : forall l off,
  Forall (fun t => forall o, f o t = g o t) l -> on_list f size off l = on_list g size off l.
Proof.
  induction l as [|t l IH]; intros off H; [reflexivity|]. inversion H; subst.
  rewrite !on_list_cons. f_equal; auto.
Qed.

Lemma sumN_app a b : sumN (a ++ b) = sumN a + sumN b.
Proof. unfold sumN. induction a as [|x a IH]; cbn [app fold_right]; [lia|]. rewrite IH. lia. Qed.

Lemma enc_item_len bigend next it : nlen (enc_item bigend next it) = item_len it.
Proof. destruct it; cbn [enc_item item_len]; [reflexivity|apply nlen_enc_fixed]. Qed.

Lemma nlen_concat_items bigend next items :
  nlen (concat (map (enc_item bigend next) items)) = sumN (map item_len items).
Proof.
  induction items as [|it items IH]; cbn [map concat sumN fold_right]; [reflexivity|].
  rewrite nlen_app, enc_item_len, IH. reflexivity.
Qed.

Lemma tree_size_unfold codes t :
  tree_size codes t =
  nlen (enc_uleb (t_code codes t)) + sumN (map item_len (t_items t)) +
  (if has_children t then sumN (map (tree_size codes) (t_kids t)) + 1 else 0).
Proof. destruct t. reflexivity. Qed.

Lemma tree_size_pos codes t : 1 <= tree_size codes t.
Proof.
  rewrite tree_size_unfold. pose proof (enc_uleb_length (t_code codes t)). unfold nlen. lia.
Qed.

Lemma enc_tree_unfold codes bigend off t :
  enc_tree codes bigend off t =
  enc_uleb (t_code codes t) ++ concat (map (enc_item bigend (off + tree_size codes t)) (t_items t)) ++
  (if has_children t
   then on_list (enc_tree codes bigend) (tree_size codes) (kids_off codes off t) (t_kids t) ++ [x00]
   else []).
Proof. destruct t. reflexivity. Qed.

Lemma on_list_len codes bigend : forall l off,
  Forall (fun t => forall o, nlen (enc_tree codes bigend o t) = tree_size codes t) l ->
  nlen (on_list (enc_tree codes bigend) (tree_size codes) off l) = sumN (map (tree_size codes) l).
Proof.
  induction l as [|t l IH]; intros off H; [reflexivity|]. inversion H; subst.
  rewrite on_list_cons, nlen_app. cbn [map sumN fold_right]. rewrite IH by assumption.
  fold (sumN (map (tree_size codes) l)). f_equal. auto.
Qed.

Lemma enc_tree_len codes bigend : forall t off, nlen (enc_tree codes bigend off t) = tree_size codes t.
Proof.
  induction t as [tag flag items kids IH] using tree_ind'. intros off.
  rewrite enc_tree_unfold, tree_size_unfold. cbn [t_items t_kids].
  rewrite !nlen_app, nlen_concat_items.
  destruct (has_children (Node tag flag items kids)).
  - rewrite nlen_app, on_list_len by exact IH. change (nlen [x00]) with 1. lia.
  - change (nlen (@nil byte)) with 0. lia.
Qed.

Lemma enc_forest_list_len codes bigend off f :
  nlen (on_list (enc_tree codes bigend) (tree_size codes) off f) = forest_size codes f.
Proof. apply on_list_len. apply Forall_forall. intros t _ o. apply enc_tree_len. Qed.

(* children exist only under DW_CHILDREN_yes *)
Lemma no_children_no_kids t : has_children t = false -> t_kids t = [].
Proof. destruct t as [tag flag items [|k kids]]; cbn; [reflexivity|]. destruct flag; discriminate. Qed.

Definition depth_ok (d : Z) (inp : list byte) : Prop :=
  (- 9223372036854775808 + Z.of_N (nlen inp) <= d /\ d + Z.of_N (nlen inp) < 9223372036854775808)%Z.


Lemma next_offset_ok dbg inp E d : nlen inp <= E -> next_offset dbg (mkRaw inp E d) = Ok (E - nlen inp).
Proof.
  intros H. unfold next_offset, chk_sub. cbn [r_end r_in].
  replace (nlen inp <=? E) with true by lia. reflexivity.
Qed.

Lemma read_null dbg e tbl rest E d :
  nlen (x00 :: rest) <= E -> depth_ok d (x00 :: rest) ->
  read_entry dbg e tbl (mkRaw (x00 :: rest) E d) =
  Ok (false, null_at (E - nlen (x00 :: rest)) d, mkRaw rest E (d - 1)).
Proof.
  intros HE [D1 D2]. unfold read_entry. cbn [r_depth]. rewrite next_offset_ok by assumption. cbn [bind].
  unfold read_abbreviation. cbn [r_in r_end r_depth read_uleb128 has_cont b2n Byte.to_N N.land N.eqb negb bind].
  rewrite nlen_cons in D1, D2.
  rewrite chk_s_ok by lia. reflexivity.
Qed.

(* attributes of an entry; a DW_AT_sibling attribute is an ordinary DW_FORM_ref<n> attribute *)
Lemma sib_attr_roundtrip dbg e w next rest : addr_size_ok e ->
  next < 2 ^ (8 * N.of_nat (sib_len w)) ->
  parse_attribute dbg e (sib_spec w) (enc_fixed (sib_len w) (be e) next ++ rest) = Ok (VUnitRef next, rest).
Proof.
  intros He H.
  pose (f := match w with W1 => F_ref1 | W2 => F_ref2 | W4 => F_ref4 | W8 => F_ref8 end).
  pose proof (attr_roundtrip dbg e DW_AT_sibling 0 O f (RNum next) (enc_fixed (sib_len w) (be e) next)
                (VUnitRef next) rest) as A.
  destruct w; apply A; try discriminate; try reflexivity; assumption.
Qed.

Lemma attr_ok_roundtrip dbg e a rest : addr_size_ok e -> attr_ok e a ->
  parse_attribute dbg e (a_spec a) (a_bytes a ++ rest) = Ok (a_value a, rest).
Proof.
  intros He (u & (Hf & Hi & Hfit & _) & Hr). unfold resolve in Hr.
  destruct (enc_layout (form_layout (u_form u) e) (be e) (u_data u)) as [p|] eqn:E1; [|discriminate].
  destruct (form_value e (u_name u) (u_implicit u) (u_form u) (u_data u)) as [v|] eqn:E2; [|discriminate].
  inversion Hr; subst a. cbn [a_spec a_bytes a_value]. rewrite <- app_assoc.
  apply (attr_roundtrip dbg e (u_name u) (u_implicit u) (u_hops u) (u_form u) (u_data u) p v rest); assumption.
Qed.

Definition item_ok (e : enc) (it : item) : Prop := match it with IAttr a => attr_ok e a | ISib _ => True end.
Definition item_fits (next : N) (it : item) : Prop :=
  match it with ISib w => next < 2 ^ (8 * N.of_nat (sib_len w)) | IAttr _ => True end.

Lemma read_items dbg e next : forall items rest,
  addr_size_ok e -> Forall (item_ok e) items -> Forall (item_fits next) items ->
  read_attrs dbg e (map item_spec items) (concat (map (enc_item (be e) next) items) ++ rest) =
  Ok (map (item_val next) items, rest).
Proof.
  intros items rest He. unfold read_attrs.
  assert (G : forall items rest, Forall (item_ok e) items -> Forall (item_fits next) items ->
              read_attributes dbg e (map item_spec items) (concat (map (enc_item (be e) next) items) ++ rest) =
              Ok (map (fun it => snd (item_val next it)) items, rest)).
  { clear items rest. induction items as [|it items IH]; intros rest Hok Hfit; [reflexivity|].
    inversion Hok; subst. inversion Hfit; subst.
    cbn [map concat read_attributes]. rewrite <- app_assoc.
    assert (E : parse_attribute dbg e (item_spec it)
                  (enc_item (be e) next it ++ concat (map (enc_item (be e) next) items) ++ rest) =
                Ok (snd (item_val next it), concat (map (enc_item (be e) next) items) ++ rest)).
    { destruct it as [a|w]; cbn [item_spec enc_item item_val snd].
      - apply attr_ok_roundtrip; assumption.
      - apply sib_attr_roundtrip; assumption. }
    rewrite E. cbn [bind]. rewrite IH by assumption. reflexivity. }
  intros Hok Hfit. rewrite G by assumption. cbn [bind]. f_equal. f_equal.
  clear. induction items as [|it items IH]; [reflexivity|]. cbn [map combine]. rewrite IH. f_equal.
  destruct it; reflexivity.
Qed.

(* the bytes of an entry itself, and the bytes after them: its children and their terminator *)
Definition head_bytes (codes : coding) (bigend : bool) (off : N) (t : tree) : list byte :=
  enc_uleb (t_code codes t) ++ concat (map (enc_item bigend (off + tree_size codes t)) (t_items t)).

Definition kids_bytes (codes : coding) (bigend : bool) (off : N) (t : tree) : list byte :=
  if has_children t
  then on_list (enc_tree codes bigend) (tree_size codes) (kids_off codes off t) (t_kids t) ++ [x00]
  else [].

Lemma enc_tree_split codes bigend off t :
  enc_tree codes bigend off t = head_bytes codes bigend off t ++ kids_bytes codes bigend off t.
Proof. rewrite enc_tree_unfold. unfold head_bytes, kids_bytes. rewrite app_assoc. reflexivity. Qed.

Lemma head_bytes_len codes bigend off t :
  nlen (head_bytes codes bigend off t) = kids_off codes off t - off.
Proof. unfold head_bytes, kids_off. rewrite nlen_app, nlen_concat_items. lia. Qed.

Lemma kids_off_ge codes off t : off < kids_off codes off t.
Proof. unfold kids_off. pose proof (enc_uleb_length (t_code codes t)). unfold nlen. lia. Qed.

Lemma head_bytes_cons codes bigend off t : exists b r, head_bytes codes bigend off t = b :: r.
Proof. unfold head_bytes. destruct (enc_uleb_cons (t_code codes t)) as (b & r & E). rewrite E. cbn [app]. eauto. Qed.

Definition covered (tbl : abbrevs) (codes : coding) (t : tree) : Prop :=
  tbl_get tbl (t_code codes t) = Some (t_abbrev codes t).

Definition post_depth (d : Z) (t : tree) : Z := if has_children t then (d + 1)%Z else d.

(* the root entry of a tree, whatever value v stands in its DW_AT_sibling slots and whatever follows its
   attributes (the encoder of Spec/Forest.v writes v = off + tree_size codes t) *)
Lemma read_head dbg e tbl codes t off d v rest E :
  addr_size_ok e -> covered tbl codes t -> node_ok codes e t -> Forall (item_fits v) (t_items t) ->
  let hb := enc_uleb (t_code codes t) ++ concat (map (enc_item (be e) v) (t_items t)) in
  E = off + nlen hb + nlen rest -> E < two64 -> depth_ok d (hb ++ rest) ->
  read_entry dbg e tbl (mkRaw (hb ++ rest) E d) =
  Ok (true, mkDie off d (t_tag t) (has_children t) (map (item_val v) (t_items t)), mkRaw rest E (post_depth d t)).
Proof.
  intros He Hcov [Hab Hitems] Hfit hb HE HE64 [D1 D2].
  unfold read_entry. cbn [r_depth].
  rewrite next_offset_ok by (rewrite nlen_app; lia). cbn [bind].
  replace (E - nlen (hb ++ rest)) with off by (rewrite nlen_app; lia).
  unfold read_abbreviation. cbn [r_in r_end r_depth].
  rewrite nlen_app in D1, D2. unfold hb in *. clear hb. rewrite <- !app_assoc.
  destruct Hab as (Hc & Htag & Hspecs). cbn [t_abbrev ab_code] in Hc.
  rewrite read_uleb128_enc by lia. cbn [bind].
  replace (t_code codes t =? 0) with false by lia.
  unfold covered in Hcov. rewrite Hcov.
  destruct (enc_uleb_cons (t_code codes t)) as (b0 & r0 & Eh).
  rewrite Eh in D1, D2. cbn [app] in D1, D2. rewrite nlen_cons in D1, D2.
  assert (Hd : (if has_children t then chk_s 64 dbg (d + 1) else Ok d) = Ok (post_depth d t)).
  { unfold post_depth. destruct (has_children t); [apply chk_s_ok; lia|reflexivity]. }
  unfold t_abbrev. cbn [ab_children ab_specs ab_tag].
  rewrite Hd. cbn [bind r_in r_end r_depth ab_children ab_specs ab_tag].
  unfold t_specs. rewrite read_items; try assumption.
  reflexivity.
Qed.

Lemma root_die_not_null codes e off d t : node_ok codes e t -> is_null (root_die codes off d t) = false.
Proof.
  intros [(_ & Ht & _) _]. cbn [t_abbrev ab_tag] in Ht. unfold is_null, root_die. cbn [d_tag]. lia.
Qed.

Record xev : Type := mkX { x_bytes : list byte; x_die : die; x_post : Z }.

Definition xbytes (l : list xev) : list byte := concat (map x_bytes l).

(* reading an event's bytes, at its offset and depth, reports its entry and moves to x_post *)
Definition ev_ok (dbg : bool) (e : enc) (tbl : abbrevs) (x : xev) : Prop :=
  (exists b r, x_bytes x = b :: r) /\
  (d_depth (x_die x) - 1 <= x_post x <= d_depth (x_die x) + 1)%Z /\
  forall rest E,
    E = d_offset (x_die x) + nlen (x_bytes x) + nlen rest -> E < two64 ->
    depth_ok (d_depth (x_die x)) (x_bytes x ++ rest) ->
    read_entry dbg e tbl (mkRaw (x_bytes x ++ rest) E (d_depth (x_die x))) =
    Ok (negb (is_null (x_die x)), x_die x, mkRaw rest E (x_post x)).

Definition null_ev (off : N) (d : Z) : xev := mkX [x00] (null_at off d) (d - 1).

Lemma null_ev_ok dbg e tbl off d : ev_ok dbg e tbl (null_ev off d).
Proof.
  split; [cbn; eauto|]. split; [cbn [null_ev x_die x_post null_at d_depth]; lia|].
  intros rest E HE HE64 Hd. cbn [null_ev x_bytes x_die x_post null_at d_depth d_offset app] in *.
  rewrite read_null; [|rewrite nlen_cons in *; change (nlen [x00]) with 1 in HE; lia|exact Hd].
  replace (E - nlen (x00 :: rest)) with off by (rewrite nlen_cons; change (nlen [x00]) with 1 in HE; lia).
  reflexivity.
Qed.

Definition head_ev (codes : coding) (bigend : bool) (d : Z) (off : N) (t : tree) : xev :=
  mkX (head_bytes codes bigend off t) (root_die codes off d t) (post_depth d t).

Lemma head_ev_ok dbg e tbl codes d off t :
  addr_size_ok e -> covered tbl codes t -> node_ok codes e t -> node_fits codes (off, t) ->
  ev_ok dbg e tbl (head_ev codes (be e) d off t).
Proof.
  intros He Hc Hok Hfit. split; [apply head_bytes_cons|].
  split; [cbn [head_ev x_die x_post root_die d_depth]; unfold post_depth; destruct (has_children t); lia|].
  intros rest E HE HE64 Hd. cbn [head_ev x_bytes x_die x_post] in *.
  rewrite (root_die_not_null codes e off d t Hok). cbn [negb].
  cbn [root_die d_depth d_offset] in *. apply (read_head dbg e tbl codes t off d (off + tree_size codes t)); assumption.
Qed.

Fixpoint evs (codes : coding) (bigend : bool) (d : Z) (off : N) (t : tree) : list xev :=
  match t with
  | Node tag flag items kids =>
      head_ev codes bigend d off t ::
      (if has_children t
       then on_list (evs codes bigend (d + 1)) (tree_size codes) (kids_off codes off t) kids ++
            [null_ev (off + tree_size codes t - 1) (d + 1)]
       else [])
  end.

Lemma evs_unfold codes bigend d off t :
  evs codes bigend d off t =
  head_ev codes bigend d off t ::
  (if has_children t
   then on_list (evs codes bigend (d + 1)) (tree_size codes) (kids_off codes off t) (t_kids t) ++
        [null_ev (off + tree_size codes t - 1) (d + 1)]
   else []).
Proof. destruct t. reflexivity. Qed.

Definition evs_list (codes : coding) (bigend : bool) (d : Z) (off : N) (l : list tree) : list xev :=
  on_list (evs codes bigend d) (tree_size codes) off l.

Lemma xbytes_app a b : xbytes (a ++ b) = xbytes a ++ xbytes b.
Proof. unfold xbytes. rewrite map_app, concat_app. reflexivity. Qed.

(* the events spell the encoding *)
Lemma evs_list_bytes_of codes bigend d : forall l off,
  Forall (fun t => forall d o, xbytes (evs codes bigend d o t) = enc_tree codes bigend o t) l ->
  xbytes (evs_list codes bigend d off l) = on_list (enc_tree codes bigend) (tree_size codes) off l.
Proof.
  unfold evs_list. induction l as [|t l IH]; intros off H; [reflexivity|]. inversion H; subst.
  rewrite !on_list_cons, xbytes_app, IH by assumption. f_equal. auto.
Qed.

Lemma evs_bytes codes bigend : forall t d off, xbytes (evs codes bigend d off t) = enc_tree codes bigend off t.
Proof.
  induction t as [tag flag items kids IH] using tree_ind'. intros d off.
  rewrite evs_unfold, enc_tree_split. cbn [t_kids]. unfold kids_bytes.
  change (xbytes (?x :: ?l)) with (x_bytes x ++ xbytes l). cbn [head_ev x_bytes]. f_equal.
  destruct (has_children (Node tag flag items kids)); [|reflexivity].
  rewrite xbytes_app. fold (evs_list codes bigend (d + 1) (kids_off codes off (Node tag flag items kids)) kids).
  rewrite evs_list_bytes_of by exact IH. reflexivity.
Qed.

Lemma evs_list_bytes codes bigend d l off :
  xbytes (evs_list codes bigend d off l) = on_list (enc_tree codes bigend) (tree_size codes) off l.
Proof. apply evs_list_bytes_of. apply Forall_forall. intros t _ d' o. apply evs_bytes. Qed.

(* the events report the entry sequence of the specification *)
Lemma evs_list_dies_of codes bigend d : forall l off,
  Forall (fun t => forall d o, map x_die (evs codes bigend d o t) = seq_tree codes d o t) l ->
  map x_die (evs_list codes bigend d off l) = on_list (seq_tree codes d) (tree_size codes) off l.
Proof.
  unfold evs_list. induction l as [|t l IH]; intros off H; [reflexivity|]. inversion H; subst.
  rewrite !on_list_cons, map_app, IH by assumption. f_equal. auto.
Qed.

Lemma seq_tree_unfold codes d off t :
  seq_tree codes d off t =
  root_die codes off d t ::
  (if has_children t
   then on_list (seq_tree codes (d + 1)) (tree_size codes) (kids_off codes off t) (t_kids t) ++
        [null_at (off + tree_size codes t - 1) (d + 1)]
   else []).
Proof. destruct t. reflexivity. Qed.

Lemma evs_dies codes bigend : forall t d off, map x_die (evs codes bigend d off t) = seq_tree codes d off t.
Proof.
  induction t as [tag flag items kids IH] using tree_ind'. intros d off.
  rewrite evs_unfold, seq_tree_unfold. cbn [t_kids map head_ev x_die]. f_equal.
  destruct (has_children (Node tag flag items kids)); [|reflexivity].
  rewrite map_app. fold (evs_list codes bigend (d + 1) (kids_off codes off (Node tag flag items kids)) kids).
  rewrite evs_list_dies_of by exact IH. reflexivity.
Qed.

Lemma evs_list_dies codes bigend d l off :
  map x_die (evs_list codes bigend d off l) = on_list (seq_tree codes d) (tree_size codes) off l.
Proof. apply evs_list_dies_of. apply Forall_forall. intros t _ d' o. apply evs_dies. Qed.

(* offsets and depths of consecutive events *)
Fixpoint chain (off : N) (d : Z) (l : list xev) : Prop :=
  match l with
  | [] => True
  | x :: l' => d_offset (x_die x) = off /\ d_depth (x_die x) = d /\
               chain (off + nlen (x_bytes x)) (x_post x) l'
  end.
Fixpoint end_depth (d : Z) (l : list xev) : Z :=
  match l with [] => d | x :: l' => end_depth (x_post x) l' end.

Lemma chain_app : forall l1 off d l2,
  chain off d (l1 ++ l2) <-> chain off d l1 /\ chain (off + nlen (xbytes l1)) (end_depth d l1) l2.
Proof.
  induction l1 as [|x l1 IH]; intros off d l2.
  - cbn [app chain end_depth xbytes map concat]. change (nlen (@nil byte)) with 0. rewrite N.add_0_r. tauto.
  - cbn [app chain end_depth]. rewrite IH.
    change (xbytes (x :: l1)) with (x_bytes x ++ xbytes l1). rewrite nlen_app, N.add_assoc. tauto.
Qed.

Lemma end_depth_app : forall l1 d l2, end_depth d (l1 ++ l2) = end_depth (end_depth d l1) l2.
Proof. induction l1 as [|x l1 IH]; intros d l2; [reflexivity|]. cbn [app end_depth]. apply IH. Qed.

Lemma evs_list_chain_of codes bigend d : forall l off,
  Forall (fun t => forall d o, chain o d (evs codes bigend d o t) /\ end_depth d (evs codes bigend d o t) = d) l ->
  chain off d (evs_list codes bigend d off l) /\ end_depth d (evs_list codes bigend d off l) = d.
Proof.
  unfold evs_list. induction l as [|t l IH]; intros off H; [split; reflexivity|]. inversion H as [|? ? Ht Hl]; subst.
  rewrite on_list_cons. destruct (Ht d off) as [C1 E1]. destruct (IH (off + tree_size codes t) Hl) as [C2 E2].
  split.
  - apply chain_app. split; [exact C1|]. rewrite E1, evs_bytes, enc_tree_len. exact C2.
  - rewrite end_depth_app, E1. exact E2.
Qed.

Lemma evs_chain codes bigend : forall t d off,
  chain off d (evs codes bigend d off t) /\ end_depth d (evs codes bigend d off t) = d.
Proof.
  induction t as [tag flag items kids IH] using tree_ind'. intros d off.
  set (t := Node tag flag items kids) in *.
  rewrite evs_unfold. change (t_kids t) with kids.
  cbn [chain end_depth head_ev x_die x_bytes x_post root_die d_offset d_depth].
  unfold post_depth. destruct (has_children t) eqn:Hc.
  - fold (evs_list codes bigend (d + 1) (kids_off codes off t) kids).
    destruct (evs_list_chain_of codes bigend (d + 1) kids (kids_off codes off t) IH) as [C E].
    pose proof (kids_off_ge codes off t) as Hk.
    rewrite head_bytes_len. replace (off + (kids_off codes off t - off)) with (kids_off codes off t) by lia.
    split.
    + split; [reflexivity|]. split; [reflexivity|]. apply chain_app. split; [exact C|].
      rewrite E. cbn [chain null_ev x_die null_at d_offset d_depth]. repeat split.
      rewrite evs_list_bytes, enc_forest_list_len.
      rewrite (tree_size_unfold codes t), Hc. unfold kids_off, forest_size. cbn [t_kids t]. lia.
    + rewrite end_depth_app, E. cbn [end_depth null_ev x_post]. lia.
  - cbn [chain end_depth]. auto.
Qed.

Lemma evs_list_chain codes bigend d l off :
  chain off d (evs_list codes bigend d off l) /\ end_depth d (evs_list codes bigend d off l) = d.
Proof. apply evs_list_chain_of. apply Forall_forall. intros t _ d' o. apply evs_chain. Qed.

(* every event of a well-formed forest is readable *)
Definition placed_ok (e : enc) (tbl : abbrevs) (codes : coding) (p : N * tree) : Prop :=
  covered tbl codes (snd p) /\ node_ok codes e (snd p) /\ node_fits codes p.

Lemma placed_unfold codes off t :
  placed codes off t = (off, t) :: on_list (placed codes) (tree_size codes) (kids_off codes off t) (t_kids t).
Proof. destruct t. reflexivity. Qed.

Lemma placed_root codes (P : N * tree -> Prop) off t : Forall P (placed codes off t) -> P (off, t).
Proof. rewrite placed_unfold. intros H. inversion H. assumption. Qed.

Lemma evs_list_ok_of dbg e tbl codes d : forall l off,
  Forall (fun t => forall d o, Forall (placed_ok e tbl codes) (placed codes o t) ->
                               Forall (ev_ok dbg e tbl) (evs codes (be e) d o t)) l ->
  Forall (placed_ok e tbl codes) (on_list (placed codes) (tree_size codes) off l) ->
  Forall (ev_ok dbg e tbl) (evs_list codes (be e) d off l).
Proof.
  unfold evs_list. induction l as [|t l IH]; intros off H Hp; [constructor|]. inversion H; subst.
  rewrite on_list_cons in *. apply Forall_app in Hp. destruct Hp as [Hp1 Hp2].
  apply Forall_app. split; auto.
Qed.

Lemma evs_ok dbg e tbl codes : addr_size_ok e -> forall t d off,
  Forall (placed_ok e tbl codes) (placed codes off t) -> Forall (ev_ok dbg e tbl) (evs codes (be e) d off t).
Proof.
  intros He. induction t as [tag flag items kids IH] using tree_ind'. intros d off Hp.
  set (t := Node tag flag items kids) in *.
  rewrite placed_unfold in Hp. inversion Hp as [|? ? (Hc & Hok & Hfit) Hk]; subst. cbn [snd t_kids t] in *.
  rewrite evs_unfold. change (t_kids t) with kids. constructor; [apply head_ev_ok; assumption|].
  destruct (has_children t); [|constructor].
  apply Forall_app. split; [|constructor; [apply null_ev_ok|constructor]].
  apply (evs_list_ok_of dbg e tbl codes (d + 1) kids); assumption.
Qed.

Lemma evs_list_ok dbg e tbl codes d l off : addr_size_ok e ->
  Forall (placed_ok e tbl codes) (on_list (placed codes) (tree_size codes) off l) ->
  Forall (ev_ok dbg e tbl) (evs_list codes (be e) d off l).
Proof.
  intros He. apply evs_list_ok_of. apply Forall_forall. intros t _ d' o. apply evs_ok. exact He.
Qed.

Fixpoint pad_evs (off : N) (d : Z) (n : nat) : list xev :=
  match n with O => [] | S k => null_ev off d :: pad_evs (off + 1) (d - 1) k end.

Lemma pad_evs_bytes : forall n off d, xbytes (pad_evs off d n) = repeat x00 n.
Proof. induction n as [|n IH]; intros off d; [reflexivity|]. cbn [pad_evs repeat]. change (xbytes (?x :: ?l)) with (x_bytes x ++ xbytes l). rewrite IH. reflexivity. Qed.
Lemma pad_evs_dies : forall n off d, map x_die (pad_evs off d n) = pad_nulls off d n.
Proof. induction n as [|n IH]; intros off d; [reflexivity|]. cbn [pad_evs pad_nulls map]. rewrite IH. reflexivity. Qed.
Lemma pad_evs_chain : forall n off d, chain off d (pad_evs off d n).
Proof.
  induction n as [|n IH]; intros off d; [exact I|]. cbn [pad_evs chain null_ev x_die x_bytes x_post null_at d_offset d_depth].
  repeat split. change (nlen [x00]) with 1. apply IH.
Qed.
Lemma pad_evs_ok dbg e tbl : forall n off d, Forall (ev_ok dbg e tbl) (pad_evs off d n).
Proof. induction n as [|n IH]; intros off d; constructor; [apply null_ev_ok|apply IH]. Qed.

Lemma depth_ok_step d x rest :
  (exists b r, x_bytes x = b :: r) -> (d - 1 <= x_post x <= d + 1)%Z ->
  depth_ok d (x_bytes x ++ rest) -> depth_ok (x_post x) rest.
Proof.
  intros (b & r & E) Hp [D1 D2]. rewrite E in D1, D2. cbn [app] in D1, D2. rewrite nlen_cons, nlen_app in D1, D2.
  split; lia.
Qed.

Record at_chain (dbg : bool) (e : enc) (tbl : abbrevs) (E : N) (rest : list byte) (r : raw_st) (l : list xev)
  : Prop := mkAt {
  at_ok : Forall (ev_ok dbg e tbl) l;
  at_in : r_in r = xbytes l ++ rest;
  at_end : r_end r = E;
  at_chn : chain (E - nlen (xbytes l ++ rest)) (r_depth r) l;
  at_le : nlen (xbytes l ++ rest) <= E;
  at_lt : E < two64;
  at_depth : depth_ok (r_depth r) (xbytes l ++ rest)
}.

Lemma at_chain_step dbg e tbl E rest r x l :
  at_chain dbg e tbl E rest r (x :: l) ->
  read_entry dbg e tbl r = Ok (negb (is_null (x_die x)), x_die x, mkRaw (xbytes l ++ rest) E (x_post x)) /\
  at_chain dbg e tbl E rest (mkRaw (xbytes l ++ rest) E (x_post x)) l /\
  d_offset (x_die x) = E - nlen (xbytes (x :: l) ++ rest) /\ d_depth (x_die x) = r_depth r /\
  (exists b r0, r_in r = b :: r0).
Proof.
  intros [Hok Hin Hend Hch Hle Hlt Hd]. apply Forall_cons_iff in Hok. destruct Hok as [Hx Hl].
  destruct Hch as (Ho & Hdd & Hch). destruct Hx as (Hne & Hpost & Hread).
  change (xbytes (x :: l)) with (x_bytes x ++ xbytes l) in *. rewrite <- app_assoc in *.
  rewrite !nlen_app in *.
  destruct r as [inp E' d]. cbn [r_in r_end r_depth] in *. subst inp E'.
  split; [|split; [|split; [|split]]].
  - rewrite <- Hdd. apply Hread; [rewrite Ho, !nlen_app; lia|exact Hlt|rewrite Hdd; exact Hd].
  - split; cbn [r_in r_end r_depth]; try assumption; try reflexivity.
    + rewrite nlen_app. replace (E - (nlen (xbytes l) + nlen rest)) with (E - (nlen (x_bytes x) + (nlen (xbytes l) + nlen rest)) + nlen (x_bytes x)) by lia.
      exact Hch.
    + rewrite nlen_app. lia.
    + apply (depth_ok_step d x); [exact Hne|lia|exact Hd].
  - exact Ho.
  - exact Hdd.
  - destruct Hne as (b & r0 & Eb). rewrite Eb. cbn [app]. eauto.
Qed.

Lemma xbytes_length_le : forall l, Forall (fun x => exists b r, x_bytes x = b :: r) l ->
  (length l <= length (xbytes l))%nat.
Proof.
  induction l as [|x l IH]; intros H; [cbn; lia|]. inversion H as [|? ? (b & r & E) Hl]; subst.
  change (xbytes (x :: l)) with (x_bytes x ++ xbytes l). rewrite app_length, E. cbn [length].
  specialize (IH Hl). lia.
Qed.

Lemma at_chain_fuel dbg e tbl E rest r l :
  at_chain dbg e tbl E rest r l -> (length l < S (length (r_in r)))%nat.
Proof.
  intros [Hok Hin _ _ _ _ _]. rewrite Hin, app_length.
  assert ((length l <= length (xbytes l))%nat); [|lia].
  apply xbytes_length_le. eapply Forall_impl; [|exact Hok]. intros x (H & _). exact H.
Qed.

(* the cursor at the start of a well-formed unit *)
Lemma at_chain_intro dbg e tbl l off d rest E :
  Forall (ev_ok dbg e tbl) l -> chain off d l -> E = off + nlen (xbytes l ++ rest) -> E < two64 ->
  depth_ok d (xbytes l ++ rest) ->
  at_chain dbg e tbl E rest (mkRaw (xbytes l ++ rest) E d) l.
Proof.
  intros Hok Hch HE HE64 Hd. split; cbn [r_in r_end r_depth]; try reflexivity; try assumption.
  - replace (E - nlen (xbytes l ++ rest)) with off by lia. exact Hch.
  - lia.
Qed.

Lemma at_chain_init dbg e tbl l off E :
  Forall (ev_ok dbg e tbl) l -> chain off 0 l -> E = off + nlen (xbytes l) -> E < two63 ->
  at_chain dbg e tbl E [] (mkRaw (xbytes l) E 0) l.
Proof.
  intros Hok Hch HE HE63. unfold two63 in HE63.
  pose proof (at_chain_intro dbg e tbl l off 0 [] E Hok Hch) as H. rewrite app_nil_r in H.
  apply H; [exact HE|unfold two64; lia|split; unfold nlen in *; lia].
Qed.

(* `while !entries.is_empty() { entries.read_entry(..) }` reports every event *)
Lemma raw_loop_at_chain dbg e tbl E : forall l fuel r,
  at_chain dbg e tbl E [] r l -> (length l < fuel)%nat ->
  raw_loop fuel dbg e tbl r = Ok (map x_die l, None).
Proof.
  induction l as [|x l IH]; intros fuel r Hat Hf; (destruct fuel; [lia|]); cbn [raw_loop]; unfold raw_is_empty.
  - destruct Hat as [_ Hin _ _ _ _ _]. rewrite Hin. reflexivity.
  - destruct (at_chain_step _ _ _ _ _ _ _ _ Hat) as (Hr & Hat' & _ & _ & (b & r0 & Eb)).
    rewrite Eb. cbn [is_nil]. rewrite Hr, (IH fuel _ Hat') by (cbn in Hf; lia). reflexivity.
Qed.

Lemma next_entry_chain dbg e tbl E rest c x l :
  at_chain dbg e tbl E rest (c_raw c) (x :: l) ->
  next_entry dbg e tbl c = Ok (SOk true (mkCur (mkRaw (xbytes l ++ rest) E (x_post x)) (x_die x))).
Proof.
  intros H. destruct (at_chain_step _ _ _ _ _ _ _ _ H) as (Hr & _ & _ & _ & (b & r0 & Eb)).
  unfold next_entry, raw_is_empty. rewrite Eb. cbn [is_nil]. rewrite Hr. reflexivity.
Qed.

Lemma next_entry_end dbg e tbl c : r_in (c_raw c) = [] ->
  next_entry dbg e tbl c = Ok (SOk false (mkCur (c_raw c) (set_null (c_cur c)))).
Proof. intros H. unfold next_entry, raw_is_empty. rewrite H. reflexivity. Qed.

(* `while cursor.next_entry()?` reports every event *)
Lemma entries_all_chain dbg e tbl E : forall l fuel c,
  at_chain dbg e tbl E [] (c_raw c) l -> (length l < fuel)%nat ->
  entries_all fuel dbg e tbl c = Ok (map x_die l, None).
Proof.
  induction l as [|x l IH]; intros fuel c Hat Hf; (destruct fuel; [lia|]); cbn [entries_all].
  - rewrite next_entry_end; [reflexivity|]. destruct Hat as [_ Hin _ _ _ _ _]. exact Hin.
  - rewrite (next_entry_chain _ _ _ _ _ _ _ _ Hat). cbn [bind c_cur].
    destruct (at_chain_step _ _ _ _ _ _ _ _ Hat) as (_ & Hat' & _).
    rewrite (IH fuel (mkCur (mkRaw (xbytes l ++ []) E (x_post x)) (x_die x))); [reflexivity|exact Hat'|cbn in Hf; lia].
Qed.

Definition not_null (d : die) : bool := negb (is_null d).

(* next_dfs: skip the leading null events *)
Fixpoint skip_nulls (l : list xev) : list xev :=
  match l with
  | [] => []
  | x :: l' => if is_null (x_die x) then skip_nulls l' else l
  end.

Lemma skip_nulls_filter : forall l,
  match skip_nulls l with
  | [] => filter not_null (map x_die l) = []
  | x :: l' => filter not_null (map x_die l) = x_die x :: filter not_null (map x_die l') /\
               is_null (x_die x) = false /\ (length l' < length l)%nat
  end.
Proof.
  induction l as [|x l IH]; [reflexivity|]. cbn [skip_nulls map filter].
  assert (Hn : not_null (x_die x) = negb (is_null (x_die x))) by reflexivity.
  destruct (is_null (x_die x)) eqn:En; cbn [negb] in Hn; rewrite Hn.
  - destruct (skip_nulls l) as [|y l']; [exact IH|]. destruct IH as (A & B & C).
    split; [exact A|]. split; [exact B|]. cbn [length]. lia.
  - split; [reflexivity|]. split; [exact En|]. cbn [length]. lia.
Qed.

Lemma next_dfs_chain dbg e tbl E : forall l fuel c,
  at_chain dbg e tbl E [] (c_raw c) l -> (length l < fuel)%nat ->
  match skip_nulls l with
  | [] => exists c', next_dfs fuel dbg e tbl c = Ok (SOk None c')
  | x :: l' => next_dfs fuel dbg e tbl c =
                 Ok (SOk (Some (x_die x)) (mkCur (mkRaw (xbytes l' ++ []) E (x_post x)) (x_die x))) /\
               at_chain dbg e tbl E [] (mkRaw (xbytes l' ++ []) E (x_post x)) l'
  end.
Proof.
  induction l as [|x l IH]; intros fuel c Hat Hf; (destruct fuel; [lia|]); cbn [next_dfs skip_nulls].
  - rewrite next_entry_end; [cbn [bind]; eauto|]. destruct Hat as [_ Hin _ _ _ _ _]. exact Hin.
  - rewrite (next_entry_chain _ _ _ _ _ _ _ _ Hat). cbn [bind c_cur].
    destruct (at_chain_step _ _ _ _ _ _ _ _ Hat) as (_ & Hat' & _).
    destruct (is_null (x_die x)) eqn:En; cbn [negb].
    + apply (IH fuel (mkCur (mkRaw (xbytes l ++ []) E (x_post x)) (x_die x))); [exact Hat'|cbn in Hf; lia].
    + split; [reflexivity|exact Hat'].
Qed.

(* C02 (4): `while let Some(entry) = cursor.next_dfs()?` reports the non-null events *)
Lemma dfs_all_chain dbg e tbl E : forall fuel l c,
  at_chain dbg e tbl E [] (c_raw c) l -> (length l < fuel)%nat ->
  dfs_all fuel dbg e tbl c = Ok (filter not_null (map x_die l), None).
Proof.
  induction fuel as [|fuel IH]; intros l c Hat Hf; [lia|]. cbn [dfs_all].
  pose proof (next_dfs_chain dbg e tbl E l (cursor_fuel c) c Hat (at_chain_fuel _ _ _ _ _ _ _ Hat)) as Hn.
  pose proof (skip_nulls_filter l) as Hs.
  destruct (skip_nulls l) as [|x l'].
  - destruct Hn as (c' & Hn). rewrite Hn, Hs. reflexivity.
  - destruct Hn as (Hn & Hat'). destruct Hs as (Hs & _ & Hlen). rewrite Hn, Hs. cbn [bind].
    rewrite (IH l' (mkCur (mkRaw (xbytes l' ++ []) E (x_post x)) (x_die x))); [reflexivity|exact Hat'|lia].
Qed.

Lemma placed_nodes codes : forall t off, map snd (placed codes off t) = nodes t.
Proof.
  induction t as [tag flag items kids IH] using tree_ind'. intros off.
  rewrite placed_unfold. cbn [map snd nodes t_kids]. f_equal.
  generalize (kids_off codes off (Node tag flag items kids)). clear -IH.
  induction kids as [|k kids IHk]; intros o; [reflexivity|]. inversion IH; subst.
  rewrite on_list_cons, map_app. cbn [flat_map]. f_equal; auto.
Qed.

Lemma placed_list_nodes codes : forall f off,
  map snd (on_list (placed codes) (tree_size codes) off f) = forest_nodes f.
Proof.
  induction f as [|t f IH]; intros off; [reflexivity|].
  rewrite on_list_cons, map_app, placed_nodes, IH. reflexivity.
Qed.

Definition all_covered (tbl : abbrevs) (codes : coding) (f : list tree) : Prop :=
  Forall (covered tbl codes) (forest_nodes f).

Lemma placed_ok_all e tbl codes off f :
  all_covered tbl codes f -> forest_ok codes e f -> sibs_fit codes off f ->
  Forall (placed_ok e tbl codes) (on_list (placed codes) (tree_size codes) off f).
Proof.
  unfold all_covered, forest_ok, sibs_fit. rewrite <- (placed_list_nodes codes f off).
  set (l := on_list (placed codes) (tree_size codes) off f). clearbody l.
  rewrite !Forall_forall. intros H1 H2 H3 p Hp. unfold placed_ok. split; [|split].
  - apply H1. apply in_map. exact Hp.
  - apply H2. apply in_map. exact Hp.
  - apply H3. exact Hp.
Qed.

(* all events of a unit body *)
Definition body_evs (codes : coding) (bigend : bool) (off : N) (f : list tree) (pad : nat) : list xev :=
  evs_list codes bigend 0 off f ++ pad_evs (off + forest_size codes f) 0 pad.

Lemma body_evs_bytes codes bigend off f pad :
  xbytes (body_evs codes bigend off f pad) = enc_forest codes bigend off f pad.
Proof. unfold body_evs, enc_forest. rewrite xbytes_app, evs_list_bytes, pad_evs_bytes. reflexivity. Qed.

Lemma body_evs_dies codes bigend off f pad :
  map x_die (body_evs codes bigend off f pad) = raw_seq codes off f pad.
Proof. unfold body_evs, raw_seq. rewrite map_app, evs_list_dies, pad_evs_dies. reflexivity. Qed.

Lemma body_evs_chain codes bigend off f pad : chain off 0 (body_evs codes bigend off f pad).
Proof.
  unfold body_evs. apply chain_app. destruct (evs_list_chain codes bigend 0 f off) as [C E].
  split; [exact C|]. rewrite E, evs_list_bytes, enc_forest_list_len. apply pad_evs_chain.
Qed.

Lemma body_evs_ok dbg e tbl codes off f pad : addr_size_ok e ->
  all_covered tbl codes f -> forest_ok codes e f -> sibs_fit codes off f ->
  Forall (ev_ok dbg e tbl) (body_evs codes (be e) off f pad).
Proof.
  intros He H1 H2 H3. unfold body_evs. apply Forall_app. split.
  - apply evs_list_ok; [exact He|]. apply placed_ok_all; assumption.
  - apply pad_evs_ok.
Qed.

Definition unit_enc (bigend : bool) (h : uheader) : enc :=
  mkEnc (uh_version h) (uh_fmt64 h) (uh_asize h) bigend.

Lemma unit_at_chain dbg bigend h codes f pad tbl :
  let e := unit_enc bigend h in
  let body := enc_forest codes bigend (header_len h) f pad in
  addr_size_ok e -> header_len h + nlen body < two63 ->
  all_covered tbl codes f -> forest_ok codes e f -> sibs_fit codes (header_len h) f ->
  at_chain dbg e tbl (header_len h + nlen body) [] (mkRaw body (header_len h + nlen body) 0)
           (body_evs codes bigend (header_len h) f pad).
Proof.
  intros e body He Hlen H1 H2 H3. unfold body.
  rewrite <- (body_evs_bytes codes bigend (header_len h) f pad).
  apply (at_chain_init dbg e tbl _ (header_len h)).
  - change bigend with (be e). apply body_evs_ok; assumption.
  - apply body_evs_chain.
  - reflexivity.
  - rewrite body_evs_bytes. exact Hlen.
Qed.

(* positioned access: the entries from a unit offset on *)
Lemma skip_n_app_len pre post : skip_n (nlen pre) (pre ++ post) = Ok post.
Proof. apply skip_n_app. Qed.

Lemma entries_raw_at dbg bigend types uoff h pre post o :
  header_len h + nlen (pre ++ post) < two63 -> post <> [] -> o = header_len h + nlen pre ->
  entries_raw dbg (parsed_header bigend types uoff h (pre ++ post)) (Some o) =
  Ok (mkRaw post (header_len h + nlen (pre ++ post)) 0).
Proof.
  intros Hlen Hpost Ho. unfold entries_raw, range_from, is_in_bounds. cbn [bind].
  rewrite header_size_unit by assumption. cbn [bind]. replace (o <? header_len h) with false by lia.
  cbn [parsed_header u_entries]. rewrite nlen_app in *.
  assert (0 < nlen post) by (destruct post; [congruence|rewrite nlen_cons; lia]).
  replace (o - header_len h <? nlen pre + nlen post) with true by lia. cbn [negb bind].
  unfold chk_sub. replace (header_len h <=? o) with true by lia. cbn [bind].
  replace (o - header_len h) with (nlen pre) by lia. rewrite skip_n_app_len. cbn [bind].
  unfold raw_new, chk_add. change (2 ^ 64) with two64. unfold two63 in Hlen. unfold two64.
  replace (o + nlen post <? 18446744073709551616) with true by lia. cbn [bind]. f_equal. f_equal. lia.
Qed.

Lemma entries_raw_root dbg bigend types uoff h body :
  header_len h + nlen body < two63 -> body <> [] ->
  entries_raw dbg (parsed_header bigend types uoff h body) None = Ok (mkRaw body (header_len h + nlen body) 0).
Proof.
  intros Hlen Hb. unfold entries_raw.
  rewrite header_size_unit by assumption. cbn [bind].
  pose proof (entries_raw_at dbg bigend types uoff h [] body (header_len h)) as H.
  cbn [app] in H. unfold entries_raw in H. cbn [bind] in H. apply H; [assumption|assumption|].
  change (nlen (@nil byte)) with 0. lia.
Qed.

Lemma entries_parsed dbg bigend types uoff h body :
  header_len h + nlen body < two63 ->
  entries dbg (parsed_header bigend types uoff h body) =
  Ok (mkCur (mkRaw body (header_len h + nlen body) 0) null_die).
Proof.
  intros Hlen. unfold entries.
  rewrite header_size_unit by assumption. cbn [bind parsed_header u_entries]. unfold cursor_new, raw_new, chk_add.
  change (2 ^ 64) with two64. unfold two63 in Hlen. unfold two64.
  replace (header_len h + nlen body <? 18446744073709551616) with true by lia. reflexivity.
Qed.

(* C02 (3) *)
Lemma raw_is_preorder dbg bigend types uoff h codes f pad tbl :
  let e := unit_enc bigend h in
  let body := enc_forest codes bigend (header_len h) f pad in
  addr_size_ok e -> header_len h + nlen body < two63 -> body <> [] ->
  all_covered tbl codes f -> forest_ok codes e f -> sibs_fit codes (header_len h) f ->
  read_all_raw dbg (parsed_header bigend types uoff h body) tbl None =
  Ok (raw_seq codes (header_len h) f pad, None).
Proof.
  intros e body He Hlen Hb H1 H2 H3. unfold read_all_raw.
  rewrite entries_raw_root by assumption. cbn [bind].
  change (u_enc (parsed_header bigend types uoff h body)) with e.
  pose proof (unit_at_chain dbg bigend h codes f pad tbl He Hlen H1 H2 H3) as Hat. fold e body in Hat.
  rewrite <- (body_evs_dies codes bigend).
  apply (raw_loop_at_chain dbg e tbl (header_len h + nlen body)); [exact Hat|].
  apply (at_chain_fuel _ _ _ _ _ _ _ Hat).
Qed.

(* the entries proper of the raw sequence are the preorder *)
Lemma filter_seq_list_of codes e d : forall l off,
  Forall (fun t => Forall (node_ok codes e) (nodes t) ->
                   forall d o, filter not_null (seq_tree codes d o t) = pre_tree codes d o t) l ->
  Forall (node_ok codes e) (forest_nodes l) ->
  filter not_null (on_list (seq_tree codes d) (tree_size codes) off l) =
  on_list (pre_tree codes d) (tree_size codes) off l.
Proof.
  induction l as [|t l IH]; intros off H Hok; [reflexivity|]. inversion H; subst.
  cbn [forest_nodes flat_map] in Hok. apply Forall_app in Hok. destruct Hok as [Ht Hl].
  rewrite !on_list_cons, filter_app. f_equal; auto.
Qed.

Lemma filter_seq_tree codes e : forall t, Forall (node_ok codes e) (nodes t) ->
  forall d off, filter not_null (seq_tree codes d off t) = pre_tree codes d off t.
Proof.
  induction t as [tag flag items kids IH] using tree_ind'. intros Hok d off.
  set (t := Node tag flag items kids) in *.
  cbn [nodes t] in Hok. inversion Hok as [|? ? Ht Hk]; subst.
  rewrite seq_tree_unfold. change (pre_tree codes d off t) with
    (root_die codes off d t :: on_list (pre_tree codes (d + 1)) (tree_size codes) (kids_off codes off t) kids).
  change (t_kids t) with kids. cbn [filter]. unfold not_null at 1.
  rewrite (root_die_not_null codes e off d t Ht). cbn [negb]. f_equal.
  destruct (has_children t) eqn:Hc.
  - rewrite filter_app. cbn [filter not_null is_null null_at d_tag N.eqb negb]. rewrite app_nil_r.
    apply (filter_seq_list_of codes e (d + 1) kids); assumption.
  - apply no_children_no_kids in Hc. change (t_kids t) with kids in Hc. subst kids. reflexivity.
Qed.

Lemma filter_pad_nulls : forall n off d, filter not_null (pad_nulls off d n) = [].
Proof. induction n as [|n IH]; intros off d; [reflexivity|]. cbn [pad_nulls filter not_null is_null null_at d_tag N.eqb negb]. apply IH. Qed.

Lemma raw_seq_preorder codes e off f pad : forest_ok codes e f ->
  filter not_null (raw_seq codes off f pad) = preorder codes off 0 f.
Proof.
  intros Hok. unfold raw_seq, preorder. rewrite filter_app, filter_pad_nulls, app_nil_r.
  apply (filter_seq_list_of codes e 0 f); [|exact Hok].
  apply Forall_forall. intros t _ Ht d o. apply (filter_seq_tree codes e); assumption.
Qed.

Lemma dfs_is_preorder dbg bigend types uoff h codes f pad tbl :
  let e := unit_enc bigend h in
  let body := enc_forest codes bigend (header_len h) f pad in
  addr_size_ok e -> header_len h + nlen body < two63 ->
  all_covered tbl codes f -> forest_ok codes e f -> sibs_fit codes (header_len h) f ->
  exists c, entries dbg (parsed_header bigend types uoff h body) = Ok c /\
            dfs_all (cursor_fuel c) dbg e tbl c = Ok (preorder codes (header_len h) 0 f, None) /\
            entries_all (cursor_fuel c) dbg e tbl c = Ok (raw_seq codes (header_len h) f pad, None).
Proof.
  intros e body He Hlen H1 H2 H3. eexists. split; [apply entries_parsed; exact Hlen|].
  pose proof (unit_at_chain dbg bigend h codes f pad tbl He Hlen H1 H2 H3) as Hat.
  fold e body in Hat.
  set (c := mkCur (mkRaw body (header_len h + nlen body) 0) null_die).
  change (mkRaw body (header_len h + nlen body) 0) with (c_raw c) in Hat.
  pose proof (at_chain_fuel _ _ _ _ _ _ _ Hat) as Hf. unfold cursor_fuel.
  split.
  - rewrite (dfs_all_chain dbg e tbl _ _ _ c Hat Hf). rewrite body_evs_dies.
    rewrite (raw_seq_preorder codes e) by assumption. reflexivity.
  - rewrite (entries_all_chain dbg e tbl _ _ _ c Hat Hf). rewrite body_evs_dies. reflexivity.
Qed.

Lemma aspec_eqb_eq a b : aspec_eqb a b = true <-> a = b.
Proof.
  unfold aspec_eqb. destruct a as [n1 f1 i1], b as [n2 f2 i2]. cbn [at_name at_form at_implicit].
  split.
  - intros H. apply andb_prop in H. destruct H as [H H3]. apply andb_prop in H. destruct H as [H1 H2].
    apply N.eqb_eq in H1, H2. apply Z.eqb_eq in H3. subst. reflexivity.
  - intros H. inversion H; subst. rewrite !N.eqb_refl, Z.eqb_refl. reflexivity.
Qed.

Lemma specs_eqb_eq : forall a b, specs_eqb a b = true <-> a = b.
Proof.
  induction a as [|x a IH]; intros [|y b]; cbn [specs_eqb]; split; try discriminate; try reflexivity.
  - intros H. apply andb_prop in H. destruct H as [H1 H2]. apply aspec_eqb_eq in H1. apply IH in H2. subst. reflexivity.
  - intros H. inversion H; subst. apply andb_true_intro. split; [apply aspec_eqb_eq|apply IH]; reflexivity.
Qed.

Lemma abbrev_eqb_eq a b : abbrev_eqb a b = true <-> a = b.
Proof.
  unfold abbrev_eqb. destruct a as [c1 t1 h1 s1], b as [c2 t2 h2 s2]. cbn [ab_code ab_tag ab_children ab_specs].
  split.
  - intros H. apply andb_prop in H. destruct H as [H H4]. apply andb_prop in H. destruct H as [H H3].
    apply andb_prop in H. destruct H as [H1 H2]. apply N.eqb_eq in H1, H2. apply Bool.eqb_prop in H3.
    apply specs_eqb_eq in H4. subst. reflexivity.
  - intros H. inversion H; subst. rewrite !N.eqb_refl, Bool.eqb_reflx.
    cbn [andb]. apply specs_eqb_eq. reflexivity.
Qed.

Lemma dedup_in : forall l x, In x (dedup l) <-> In x l.
Proof.
  induction l as [|a l IH]; intros x; [tauto|]. cbn [dedup In]. rewrite filter_In, IH.
  split.
  - intros [H|[H _]]; auto.
  - intros [H|H]; [auto|]. destruct (abbrev_eqb a x) eqn:E.
    + apply abbrev_eqb_eq in E. auto.
    + right. split; [exact H|reflexivity].
Qed.

Lemma NoDup_map_filter {A B} (g : A -> B) (p : A -> bool) : forall l, NoDup (map g l) -> NoDup (map g (filter p l)).
Proof.
  induction l as [|a l IH]; intros H; [constructor|]. cbn [map] in H. inversion H as [|? ? Hn Hl]; subst.
  cbn [filter]. destruct (p a); [|auto]. cbn [map]. constructor; [|auto].
  intros Hin. apply Hn. apply in_map_iff in Hin. destruct Hin as (x & E & Hx). apply filter_In in Hx.
  apply in_map_iff. exists x. tauto.
Qed.

Lemma dedup_codes_nodup : forall l,
  (forall a b, In a l -> In b l -> ab_code a = ab_code b -> a = b) -> NoDup (codes_of (dedup l)).
Proof.
  induction l as [|a l IH]; intros Hinj; [constructor|]. cbn [dedup codes_of map]. constructor.
  - intros Hin. apply in_map_iff in Hin. destruct Hin as (b & E & Hb). apply filter_In in Hb.
    destruct Hb as [Hb Hne]. apply (proj1 (dedup_in _ _)) in Hb.
    assert (a = b) by (apply Hinj; [left; reflexivity|right; exact Hb|symmetry; exact E]).
    subst b. assert (abbrev_eqb a a = true) by (apply abbrev_eqb_eq; reflexivity).
    rewrite H in Hne. discriminate.
  - apply NoDup_map_filter. apply IH. intros x y Hx Hy. apply Hinj; right; assumption.
Qed.

