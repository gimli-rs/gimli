(* Proofs/CfaScriptProofs.v — property C14, unwind rows: the reader models (C06 CfiRun table evaluation over
   the instruction windows that C05 CfiRd hands out) on the bytes produced by the writer model (CfiWr) return
   the rows of the call-frame machine defined directly over the writer's script (Spec/CfaScriptSpec.v).
   First the relations between the reader-side spec state (CfaSpec, expressions = section references) and the
   script state (expressions = bytes), with the lemma that the effect of a reader instruction depends only on
   its C14 meaning (CfaEncSpec.sem); then whole programs: a reader item list that implements the script
   ([implc]/[impl]) makes CfaSpec.run_spec_lim compute script_rows_lim; then the writer's areas decode to such
   lists, which composes with C06 (model_eq_spec); last the written entries, tables, and the limit-free case. *)
From Coq Require Import List NArith ZArith Bool Lia ZifyBool ZifyN ZifyNat.
From Coq.Strings Require Import Byte.
Require Import GV.Base.Res GV.Base.Byt GV.Base.Ints GV.Spec.LebSpec GV.Model.Leb GV.Model.Prim.
Require GV.Model.CfiRun GV.Proofs.CfiRunProofs.
Require Import GV.Proofs.PrimProofs.
Require Import GV.Spec.CfaEncSpec GV.Model.CfiWr GV.Proofs.CfiWrProofs GV.Proofs.CfiRoundtrip.
Require Import GV.Spec.CfaScriptSpec.
Require Import GV.Spec.CfaSpec.
Import ListNotations.
Local Open Scope N_scope.

Lemma wrap_i64_i32 z : is_i32 z = true -> wrap_i64 z = z.
Proof.
  intros H. apply is_i32_iff in H. unfold wrap_i64, wrap_signed.
  destruct (signed_roundtrip 64 z) as (Hlt & Hrt);
    [lia|unfold in_signed; change (Z.of_N (2 ^ (64 - 1))) with 9223372036854775808%Z; lia|].
  rewrite to_signed_small by exact Hlt. exact Hrt.
Qed.

(* [X ue e]: the section reference ue designates the bytes e *)
Definition rule_rel (X : uexpr -> list byte -> Prop) (a : rule) (b : xrule) : Prop :=
  match a, b with
  | RUndefined, XUndefined => True
  | RSameValue, XSameValue => True
  | ROffset x, XOffset y => x = y
  | RValOffset x, XValOffset y => x = y
  | RRegister x, XRegister y => x = y
  | RConstant x, XConstant y => x = y
  | RExpression u, XExpression e => X u e
  | RValExpression u, XValExpression e => X u e
  | _, _ => False
  end.

Definition cfa_rel (X : uexpr -> list byte -> Prop) (a : cfa_rule) (b : xcfa) : Prop :=
  match a, b with
  | CfaRegOff r o, XCfaRegOff r' o' => r = r' /\ o = o'
  | CfaExpr u, XCfaExpr e => X u e
  | _, _ => False
  end.

Definition pair_rel X (p : reg * rule) (q : N * xrule) : Prop := fst p = fst q /\ rule_rel X (snd p) (snd q).
(* the two maps list the same registers in the same order with related rules *)
Definition map_rel X (m : CfaSpec.rmap) (xm : xmap) : Prop := Forall2 (pair_rel X) m xm.
Definition orule_rel X (a : option rule) (b : option xrule) : Prop :=
  match a, b with
  | Some x, Some y => rule_rel X x y
  | None, None => True
  | _, _ => False
  end.
Definition omap_rel X (a : option CfaSpec.rmap) (b : option xmap) : Prop :=
  match a, b with
  | Some m, Some xm => map_rel X m xm
  | None, None => True
  | _, _ => False
  end.
Definition entry_rel X (e : cfa_rule * CfaSpec.rmap * N) (x : xcfa * xmap * N) : Prop :=
  cfa_rel X (fst (fst e)) (fst (fst x)) /\ map_rel X (snd (fst e)) (snd (fst x)) /\ snd e = snd x.
Definition state_rel X (s : sstate) (xs : xstate) : Prop :=
  cfa_rel X (s_cfa s) (x_cfa xs) /\ map_rel X (s_rules s) (x_rules xs) /\ s_args s = x_args xs /\
  Forall2 (entry_rel X) (s_stack s) (x_stack xs).
Definition srow_rel X (sr : srow) (xr : xrow) : Prop :=
  sr_start sr = xr_start xr /\ sr_end sr = xr_end xr /\ cfa_rel X (sr_cfa sr) (xr_cfa xr) /\
  sr_args sr = xr_args xr /\ map_rel X (sr_rules sr) (xr_rules xr).

Section Rel.
Variable X : uexpr -> list byte -> Prop.

Lemma lookup_rel r m xm : map_rel X m xm -> orule_rel X (CfaSpec.lookup r m) (xlookup r xm).
Proof.
  induction 1 as [|[g x] [g' y] m xm [Hg Hr] _ IH]; [exact I|].
  cbn [fst snd] in Hg, Hr. subst g'. cbn [CfaSpec.lookup xlookup].
  destruct (g =? r); [exact Hr|exact IH].
Qed.

Lemma remove_rel r m xm : map_rel X m xm -> map_rel X (remove r m) (xremove r xm).
Proof.
  induction 1 as [|[g x] [g' y] m xm [Hg Hr] _ IH]; [constructor|].
  cbn [fst snd] in Hg, Hr. subst g'. unfold remove, xremove in *. cbn [filter fst].
  destruct (negb (g =? r)); [constructor; [split; [reflexivity|exact Hr]|exact IH]|exact IH].
Qed.

Lemma update_rel r o xo m xm : orule_rel X o xo -> map_rel X m xm -> map_rel X (update r o m) (xupdate r xo xm).
Proof.
  intros Ho Hm. destruct o as [x|], xo as [y|]; cbn [orule_rel] in Ho; try contradiction; cbn [update xupdate].
  - constructor; [split; [reflexivity|exact Ho]|apply remove_rel; exact Hm].
  - apply remove_rel; exact Hm.
Qed.

Lemma map_rel_length m xm : map_rel X m xm -> length m = length xm.
Proof. induction 1; cbn [length]; congruence. Qed.

Lemma sim_set r x y s xs : state_rel X s xs -> rule_rel X x y -> state_rel X (set_rule r x s) (x_set r y xs).
Proof.
  intros (H1 & H2 & H3 & H4) Hr. unfold set_rule, x_set, with_rules, x_with_rules, state_rel.
  cbn [s_cfa s_rules s_args s_stack x_cfa x_rules x_args x_stack].
  repeat split; try assumption. apply update_rel; [exact Hr|exact H2].
Qed.

Lemma sim_cfa c xc s xs : state_rel X s xs -> cfa_rel X c xc -> state_rel X (with_cfa c s) (x_with_cfa xc xs).
Proof.
  intros (H1 & H2 & H3 & H4) Hr. unfold with_cfa, x_with_cfa, state_rel.
  cbn [s_cfa s_rules s_args s_stack x_cfa x_rules x_args x_stack]. repeat split; assumption.
Qed.

(* a reader instruction whose C14 meaning (under the CIE's factors) is the abstract instruction i, with its
   expression operand designating the bytes of i's expression *)
Definition insn_rel (caf : N) (daf : Z) (ri : insn) (i : cfi) : Prop :=
  exists d off total,
    ri = to_insn off total d /\ sem caf daf d = MInsn i /\ cfi_wf i = true /\
    forall e, expr_of d = Some e -> X (rd_uexpr off total e) e.

Definition step_agrees (loc : N) (rs : res (sstate * option srow)) (rx : res xstate) : Prop :=
  match rs, rx with
  | Ok (s', None), Ok xs' => s_loc s' = loc /\ state_rel X s' xs'
  | Err e, Err e' => e = e'
  | _, _ => False
  end.

(* the effect of a reader instruction on the call-frame state is the effect of its meaning on the script state *)
Lemma step_by_meaning p aa ini xini s xs ri i :
  state_rel X s xs -> omap_rel X ini xini -> insn_rel (sp_caf p) (sp_daf p) ri i -> vendor_ok aa i = true ->
  step_agrees (s_loc s) (spec_step p ini s ri) (script_step aa xini xs i).
Proof.
  intros Hst Hini (d & off & total & -> & Hsem & Hwf & Hex) Hv.
  pose proof Hst as (Hc & Hm & Ha & Hk).
  destruct d; cbn [sem] in Hsem; try discriminate; injection Hsem as <-;
    cbn [to_insn spec_step script_step cfi_wf] in *;
    repeat match goal with
           | Hx : _ && _ = true |- _ => apply andb_true_iff in Hx; destruct Hx
           end; unfold step_agrees.
  - split; [reflexivity|]. apply sim_set; [exact Hst|]. cbn [rule_rel]. unfold factored. apply wrap_i64_i32. assumption.
  - destruct ini as [m|], xini as [xm|]; cbn [omap_rel] in Hini; try contradiction; [|reflexivity].
    split; [reflexivity|]. unfold with_rules, x_with_rules, state_rel.
    cbn [s_cfa s_rules s_args s_stack x_cfa x_rules x_args x_stack]. repeat split; try assumption.
    apply update_rel; [apply lookup_rel; exact Hini|exact Hm].
  - split; [reflexivity|]. apply sim_set; [exact Hst|exact I].
  - split; [reflexivity|]. apply sim_set; [exact Hst|exact I].
  - split; [reflexivity|]. apply sim_set; [exact Hst|reflexivity].
  - split; [reflexivity|]. unfold state_rel. cbn [s_cfa s_rules s_args s_stack x_cfa x_rules x_args x_stack].
    repeat split; try assumption. constructor; [|exact Hk]. unfold entry_rel. cbn [fst snd]. auto.
  - destruct Hk as [|[[c0 m0] a0] [[xc0 xm0] xa0] st xst (E1 & E2 & E3) Hk']; [reflexivity|].
    cbn [fst snd] in E1, E2, E3. split; [reflexivity|]. unfold state_rel.
    cbn [s_cfa s_rules s_args s_stack x_cfa x_rules x_args x_stack]. auto.
  - split; [reflexivity|]. apply sim_cfa; [exact Hst|]. cbn [cfa_rel]. split; [reflexivity|]. apply wrap_i64_i32. assumption.
  - destruct (s_cfa s) as [r0 o0|u0], (x_cfa xs) as [r1 o1|e1]; cbn [cfa_rel] in Hc; try contradiction; [|reflexivity].
    destruct Hc as [-> ->]. split; [reflexivity|]. apply sim_cfa; [exact Hst|]. cbn [cfa_rel]. auto.
  - destruct (s_cfa s) as [r0 o0|u0], (x_cfa xs) as [r1 o1|e1]; cbn [cfa_rel] in Hc; try contradiction; [|reflexivity].
    destruct Hc as [-> ->]. split; [reflexivity|]. apply sim_cfa; [exact Hst|]. cbn [cfa_rel]. split; [reflexivity|].
    apply wrap_i64_i32. assumption.
  - split; [reflexivity|]. apply sim_cfa; [exact Hst|]. cbn [cfa_rel]. apply Hex. reflexivity.
  - split; [reflexivity|]. apply sim_set; [exact Hst|]. cbn [rule_rel]. apply Hex. reflexivity.
  - split; [reflexivity|]. apply sim_set; [exact Hst|]. cbn [rule_rel]. unfold factored. apply wrap_i64_i32. assumption.
  - split; [reflexivity|]. apply sim_cfa; [exact Hst|]. cbn [cfa_rel]. split; [reflexivity|]. unfold factored.
    apply wrap_i64_i32. assumption.
  - destruct (s_cfa s) as [r0 o0|u0], (x_cfa xs) as [r1 o1|e1]; cbn [cfa_rel] in Hc; try contradiction; [|reflexivity].
    destruct Hc as [-> ->]. split; [reflexivity|]. apply sim_cfa; [exact Hst|]. cbn [cfa_rel]. split; [reflexivity|].
    unfold factored. apply wrap_i64_i32. assumption.
  - split; [reflexivity|]. apply sim_set; [exact Hst|]. cbn [rule_rel]. unfold factored. apply wrap_i64_i32. assumption.
  - split; [reflexivity|]. apply sim_set; [exact Hst|]. cbn [rule_rel]. unfold factored. apply wrap_i64_i32. assumption.
  - split; [reflexivity|]. apply sim_set; [exact Hst|]. cbn [rule_rel]. apply Hex. reflexivity.
  - split; [reflexivity|]. unfold with_args, x_with_args, state_rel.
    cbn [s_cfa s_rules s_args s_stack x_cfa x_rules x_args x_stack]. auto.
  - unfold vendor_ok in Hv. cbn in Hv. rewrite orb_false_r in Hv. subst aa. cbn [negb].
    pose proof (lookup_rel RA_SIGN_STATE _ _ Hm) as Hl.
    destruct (CfaSpec.lookup RA_SIGN_STATE (s_rules s)) as [x|], (xlookup RA_SIGN_STATE (x_rules xs)) as [y|];
      cbn [orule_rel] in Hl; try contradiction.
    + destruct x, y; cbn [rule_rel] in Hl; try contradiction; try reflexivity.
      subst. split; [reflexivity|]. apply sim_set; [exact Hst|reflexivity].
    + split; [reflexivity|]. apply sim_set; [exact Hst|reflexivity].
Qed.

(* the storage-limit check sees the same occupancy *)
Lemma guard_rel c ini xini s xs :
  state_rel X s xs -> omap_rel X ini xini -> guard c ini s = xguard c xini xs.
Proof.
  intros (_ & Hm & _ & Hk) Hini. unfold guard, xguard, stack_occ, x_stack_occ, rules_occ, x_rules_occ.
  rewrite (map_rel_length _ _ Hm).
  assert (Hl : length (s_stack s) = length (x_stack xs)) by (induction Hk; cbn [length]; congruence).
  rewrite Hl.
  destruct ini as [m|], xini as [xm|]; cbn [omap_rel] in Hini; try contradiction; [|reflexivity].
  rewrite (map_rel_length _ _ Hini). reflexivity.
Qed.

End Rel.

Lemma insn_rel_mono (X Y : uexpr -> list byte -> Prop) caf daf ri i :
  (forall u e, X u e -> Y u e) -> insn_rel X caf daf ri i -> insn_rel Y caf daf ri i.
Proof.
  intros H (d & off & total & E1 & E2 & E3 & E4). exists d, off, total. repeat split; try assumption.
  intros e He. apply H, E4, He.
Qed.

Lemma vendor_bad aa i : vendor_ok aa i = false -> aa = false /\ i = NegateRaState.
Proof. unfold vendor_ok. destruct aa; [discriminate|]. destruct i; cbn; try discriminate. auto. Qed.

Section Progs.
Variable X : uexpr -> list byte -> Prop.
Variable caf : N.
Variable daf : Z.
Variable aa : bool.

(* the reader's item list of a CIE instruction area implements the abstract instruction list:
   one reader instruction per abstract instruction with that meaning, then nop padding; a negate_ra_state the
   reader's vendor does not know ends the list with UnknownCallFrameInstruction *)
Inductive implc : list cfi -> list item -> Prop :=
| implc_nil n : implc [] (map It (repeat INop n))
| implc_cons i ri l items :
    insn_rel X caf daf ri i -> vendor_ok aa i = true -> implc l items -> implc (i :: l) (It ri :: items)
| implc_bad i l : vendor_ok aa i = false -> implc (i :: l) [Bad EUnknownCallFrameInstruction].

(* ... and of an FDE instruction area the (offset, instruction) script: an advance_loc by the factored
   distance exactly where the offset grows, then the items of the script at the new offset *)
Inductive impl : N -> list (N * cfi) -> list item -> Prop :=
| impl_nil prev n : impl prev [] (map It (repeat INop n))
| impl_same prev i ri l items :
    insn_rel X caf daf ri i -> vendor_ok aa i = true -> impl prev l items ->
    impl prev ((prev, i) :: l) (It ri :: items)
| impl_same_bad prev i l :
    vendor_ok aa i = false -> impl prev ((prev, i) :: l) [Bad EUnknownCallFrameInstruction]
| impl_adv prev off delta i l items :
    prev < off -> delta * caf = off - prev -> off - prev < two64 ->
    impl off ((off, i) :: l) items ->
    impl prev ((off, i) :: l) (It (IAdvanceLoc delta) :: items).

Variable c : caps.
Variable p : sparams.
Hypothesis Hcaf : sp_caf p = caf.
Hypothesis Hdaf : sp_daf p = daf.

Lemma xguard_cases xini xs : xguard c xini xs = Ok tt \/ exists e, xguard c xini xs = Err e.
Proof.
  unfold xguard. destruct (over _ _); [right; eexists; reflexivity|].
  destruct (over _ _); [right; eexists; reflexivity|left; reflexivity].
Qed.

Lemma step_lim_sim ini xini s xs ri i :
  state_rel X s xs -> omap_rel X ini xini -> insn_rel X caf daf ri i -> vendor_ok aa i = true ->
  match step_lim c p ini s ri, xstep_lim c aa xini xs i with
  | Ok (s', None), Ok xs' => s_loc s' = s_loc s /\ state_rel X s' xs' /\ guard c ini s' = Ok tt
  | Err e, Err e' => e = e'
  | _, _ => False
  end.
Proof.
  intros Hst Hini Hrel Hv. rewrite <- Hcaf, <- Hdaf in Hrel.
  pose proof (step_by_meaning X p aa ini xini s xs ri i Hst Hini Hrel Hv) as H.
  unfold step_lim, xstep_lim, step_agrees in *.
  destruct (spec_step p ini s ri) as [[s1 [row|]]|e| |], (script_step aa xini xs i) as [xs1|e'| |];
    try contradiction; cbn [bind].
  - destruct H as [Hl Hs1]. rewrite (guard_rel X c ini xini s1 xs1 Hs1 Hini).
    destruct (xguard_cases xini xs1) as [G|(e & G)]; rewrite G; cbn [bind].
    + split; [exact Hl|]. split; [exact Hs1|]. rewrite (guard_rel X c ini xini s1 xs1 Hs1 Hini). exact G.
    + reflexivity.
  - exact H.
Qed.

Lemma vendor_bad_step xini xs i :
  vendor_ok aa i = false -> xstep_lim c aa xini xs i = Err EUnknownCallFrameInstruction.
Proof. intros H. apply vendor_bad in H as [-> ->]. reflexivity. Qed.

Lemma nops_run ini e s n :
  guard c ini s = Ok tt -> spec_run c p ini e s (map It (repeat INop n)) = ([row_of s e], (Done, s)).
Proof.
  intros G. induction n as [|n IH]; [reflexivity|].
  cbn [repeat map spec_run]. unfold step_lim. cbn [spec_step bind]. rewrite G. cbn [bind]. exact IH.
Qed.

Lemma cie_sim e : forall l items, implc l items -> forall s xs,
  state_rel X s xs -> guard c None s = Ok tt ->
  match script_cie c aa xs l with
  | Ok xs' => exists rows s', spec_run c p None e s items = (rows, (Done, s')) /\ state_rel X s' xs' /\
                              guard c None s' = Ok tt
  | Err er => exists rows s', spec_run c p None e s items = (rows, (Fail er, s'))
  | _ => False
  end.
Proof.
  induction 1 as [n|i ri l items Hrel Hv _ IH|i l Hv]; intros s xs Hst G.
  - cbn [script_cie]. exists [row_of s e], s. split; [apply nops_run; exact G|]. auto.
  - cbn [script_cie spec_run].
    pose proof (step_lim_sim None None s xs ri i Hst I Hrel Hv) as H.
    destruct (step_lim c p None s ri) as [[s1 [row|]]|er| |], (xstep_lim c aa None xs i) as [xs1|er'| |];
      try contradiction; cbn [bind].
    + destruct H as (_ & Hs1 & G1). apply IH; assumption.
    + subst er'. exists [], s. reflexivity.
  - cbn [script_cie]. rewrite (vendor_bad_step None xs i Hv). cbn [bind spec_run].
    exists [], s. reflexivity.
Qed.

Lemma fde_sim ini xini asz init e : sp_asize p = asz -> omap_rel X ini xini ->
  forall prev l items, impl prev l items -> forall s xs,
  state_rel X s xs -> guard c ini s = Ok tt -> s_loc s = init + prev ->
  Forall2 (srow_rel X) (fst (spec_run c p ini e s items)) (fst (script_fde c aa xini asz init e prev xs l)) /\
  fst (snd (spec_run c p ini e s items)) = snd (script_fde c aa xini asz init e prev xs l).
Proof.
  intros Hasz Hini.
  assert (Hrow : forall s xs a b, state_rel X s xs -> s_loc s = a -> srow_rel X (row_of s b) (xrow_of xs a b)).
  { intros s xs a b (H1 & H2 & H3 & _) Hl. unfold srow_rel, row_of, xrow_of.
    cbn [sr_start sr_end sr_cfa sr_args sr_rules xr_start xr_end xr_cfa xr_args xr_rules]. auto. }
  induction 1 as [prev n|prev i ri l items Hrel Hv _ IH|prev i l Hv|prev off delta i l items Hlt Hmul Hsm _ IH];
    intros s xs Hst G Hloc.
  - rewrite (nops_run ini e s n G). cbn [script_fde fst snd]. split; [|reflexivity].
    constructor; [|constructor]. apply Hrow; assumption.
  - cbn [script_fde spec_run]. rewrite N.ltb_irrefl.
    pose proof (step_lim_sim ini xini s xs ri i Hst Hini Hrel Hv) as H.
    destruct (step_lim c p ini s ri) as [[s1 [row|]]|er| |], (xstep_lim c aa xini xs i) as [xs1|er'| |];
      try contradiction.
    + destruct H as (Hl & Hs1 & G1). apply IH; [assumption|assumption|congruence].
    + subst er'. cbn [fst snd outcome_of]. split; [constructor|reflexivity].
  - cbn [script_fde spec_run]. rewrite N.ltb_irrefl. rewrite (vendor_bad_step xini xs i Hv).
    cbn [fst snd outcome_of]. split; [constructor|reflexivity].
  - (* the advance completes the row; what follows is the script at the new offset *)
    specialize (IH (with_loc (init + off) s) xs Hst G eq_refl).
    cbn [script_fde] in IH |- *. rewrite N.ltb_irrefl in IH. replace (prev <? off) with true by lia.
    cbn [spec_run]. unfold step_lim. cbn [spec_step].
    replace (s_loc s + wrap64 (delta * sp_caf p)) with (init + off)
      by (rewrite Hcaf, Hmul; unfold wrap64; rewrite N.mod_small by exact Hsm; lia).
    rewrite Hasz. destruct (2 ^ (8 * asz) <=? init + off); [cbn [bind fst snd]; split; [constructor|reflexivity]|].
    cbn [bind]. change (guard c ini (with_loc (init + off) s)) with (guard c ini s). rewrite G. cbn [bind].
    destruct (spec_run c p ini e (with_loc (init + off) s) items) as [rows [o sf]].
    destruct (xstep_lim c aa xini xs i) as [xs1| | |]; cbn [fst snd] in *.
    + destruct (script_fde c aa xini asz init e off xs1 l) as [xrows xo]. cbn [fst snd] in *.
      split; [constructor; [apply Hrow; assumption|apply IH]|apply IH].
    + split; [constructor; [apply Hrow; assumption|apply IH]|apply IH].
    + split; [constructor; [apply Hrow; assumption|apply IH]|apply IH].
    + split; [constructor; [apply Hrow; assumption|apply IH]|apply IH].
Qed.

Lemma rows_sim asz init range lc lf itc itf :
  sp_asize p = asz -> CfiRun.cap_full (max_stack c) 0 = false ->
  implc lc itc -> impl 0 lf itf ->
  Forall2 (srow_rel X) (fst (run_spec_lim c p init (spec_end asz init range) itc itf))
                       (fst (script_rows_lim c aa asz init range lc lf)) /\
  snd (run_spec_lim c p init (spec_end asz init range) itc itf) = snd (script_rows_lim c aa asz init range lc lf).
Proof.
  intros Hasz Hcap Hc Hf. unfold run_spec_lim, script_rows_lim.
  assert (G0 : guard c None init_state = Ok tt).
  { unfold guard, stack_occ, rules_occ. cbn [init_state s_stack s_rules length Nat.add].
    rewrite <- CfiRunProofs.cap_full_over, Hcap. destruct (max_rules c); reflexivity. }
  assert (S0 : state_rel X init_state init_x).
  { unfold state_rel. cbn. repeat split; constructor. }
  pose proof (cie_sim 0 lc itc Hc init_state init_x S0 G0) as H.
  destruct (script_cie c aa init_x lc) as [xsc|er| |]; try contradiction.
  - destruct H as (rows & sc & -> & Hsc & Gc).
    assert (Hini : omap_rel X (Some (s_rules sc)) (Some (x_rules xsc))) by (destruct Hsc as (_ & H2 & _); exact H2).
    change (guard c (Some (s_rules sc)) (with_loc init sc)) with (guard c (Some (s_rules sc)) sc).
    rewrite (guard_rel X c _ _ sc xsc Hsc Hini).
    destruct (xguard_cases (Some (x_rules xsc)) xsc) as [G|(e & G)]; rewrite G.
    + assert (G' : guard c (Some (s_rules sc)) (with_loc init sc) = Ok tt).
      { change (guard c (Some (s_rules sc)) (with_loc init sc)) with (guard c (Some (s_rules sc)) sc).
        rewrite (guard_rel X c _ _ sc xsc Hsc Hini). exact G. }
      pose proof (fde_sim (Some (s_rules sc)) (Some (x_rules xsc)) asz init (spec_end asz init range) Hasz Hini
                          0 lf itf Hf (with_loc init sc) xsc Hsc G' ltac:(cbn [with_loc s_loc]; lia)) as H.
      destruct (spec_run c p (Some (s_rules sc)) (spec_end asz init range) (with_loc init sc) itf) as [r [o sf]].
      cbn [fst snd] in *. exact H.
    + cbn [fst snd outcome_of]. split; [constructor|reflexivity].
  - destruct H as (rows & sc & ->). cbn [fst snd outcome_of]. split; [constructor|reflexivity].
Qed.

End Progs.

Lemma implc_mono (X Y : uexpr -> list byte -> Prop) caf daf aa l items :
  (forall u e, X u e -> Y u e) -> implc X caf daf aa l items -> implc Y caf daf aa l items.
Proof.
  intros H. induction 1; [constructor|constructor; try assumption; eapply insn_rel_mono; eassumption|constructor; assumption].
Qed.

Lemma impl_mono (X Y : uexpr -> list byte -> Prop) caf daf aa prev l items :
  (forall u e, X u e -> Y u e) -> impl X caf daf aa prev l items -> impl Y caf daf aa prev l items.
Proof.
  intros H. induction 1; [constructor| |constructor; assumption|econstructor; eassumption].
  constructor; try assumption. eapply insn_rel_mono; eassumption.
Qed.

(* the section reference u designates the bytes e inside the area that starts at section offset base *)
Definition in_area (base : N) (area : list byte) (u : uexpr) (e : list byte) : Prop :=
  base <= ue_off u /\ ue_len u = len e /\ bytes_at base area (ue_off u) (ue_len u) = e.

Lemma written_insn_rel caf daf i (a : list byte) base pre rest d :
  cfi_wf i = true -> sem caf daf d = MInsn i -> (forall e, expr_of d = Some e -> exists p, a = p ++ e) ->
  insn_rel (in_area base (pre ++ a ++ rest)) caf daf (to_insn (base + len pre) (len a) d) i.
Proof.
  intros Hwf Hs Hex. exists d, (base + len pre), (len a). repeat split; try assumption.
  - destruct (Hex e H) as (q & ->). unfold rd_uexpr. cbn [ue_off]. rewrite len_app. lia.
  - destruct (Hex e H) as (q & ->). unfold rd_uexpr. cbn [ue_off ue_len]. apply bytes_at_here.
Qed.

(* one written instruction under the reader's lazy decoder, whatever its build mode *)
Lemma decode_written_insn dbg be aa asz caf daf i b base pre rest :
  cfi_wf i = true -> is_i8 daf = true -> write_insn dbg daf i = Ok b ->
  if vendor_ok aa i
  then exists ri, insn_rel (in_area base (pre ++ b ++ rest)) caf daf ri i /\
         forall dbg', CfiRun.decode dbg' (dp_of be aa asz) (base + len pre) (b ++ rest)
                      = It ri :: CfiRun.decode dbg' (dp_of be aa asz) (base + len pre + len b) rest
  else forall dbg', CfiRun.decode dbg' (dp_of be aa asz) (base + len pre) (b ++ rest) = [Bad EUnknownCallFrameInstruction].
Proof.
  intros Hi Hdaf Eb.
  destruct (write_insn_enc dbg be caf daf i b Hi Hdaf Eb) as (d & -> & Hs & Hok).
  pose proof (fun dbg' => parse_enc dbg' be asz aa (base + len pre) d rest Hok) as Hrd.
  destruct (vendor_ok aa i) eqn:Hv.
  - exists (to_insn (base + len pre) (len (enc_dinsn be d)) d).
    split; [apply written_insn_rel; [exact Hi|exact Hs|apply enc_dinsn_expr]|].
    intros dbg'. apply rdec_cons; [apply enc_dinsn_nonempty|]. cbn [dp_of CfiRun.d_be CfiRun.d_asize CfiRun.d_aarch64].
    rewrite Hrd. unfold vendor_ok in Hv.
    destruct d; cbn [sem] in Hs; try discriminate; injection Hs as <-; try reflexivity.
    destruct aa; [reflexivity|cbn in Hv; discriminate].
  - intros dbg'. apply rdec_bad; [apply enc_dinsn_nonempty|]. cbn [dp_of CfiRun.d_be CfiRun.d_asize CfiRun.d_aarch64].
    rewrite Hrd. apply vendor_bad in Hv as [-> ->].
    destruct d; cbn [sem] in Hs; try discriminate. reflexivity.
Qed.

(* the items the reader decodes from a written CIE area, in every build mode, implement the instruction list *)
Lemma write_insns_implc dbg be aa asz caf daf : forall l bs base pre pad,
  forallb cfi_wf l = true -> is_i8 daf = true -> write_insns dbg daf l = Ok bs -> all_nop pad = true ->
  exists items, implc (in_area base (pre ++ bs ++ pad)) caf daf aa l items /\
    forall dbg', CfiRun.decode dbg' (dp_of be aa asz) (base + len pre) (bs ++ pad) = items.
Proof.
  induction l as [|i r IH]; intros bs base pre pad Hwf Hdaf H Hpad.
  - cbn [write_insns] in H. injection H as <-. exists (map It (repeat INop (length pad))).
    split; [constructor|]. intros dbg'. apply rdec_nops. exact Hpad.
  - cbn [write_insns] in H. cbn [forallb] in Hwf. apply andb_true_iff in Hwf. destruct Hwf as [Hi Hr].
    destruct (write_insn dbg daf i) as [a| | |] eqn:Ea; try discriminate. cbn [bind] in H.
    destruct (write_insns dbg daf r) as [b| | |] eqn:Eb; try discriminate. cbn [bind] in H. injection H as <-.
    rewrite <- (app_assoc a b pad).
    pose proof (decode_written_insn dbg be aa asz caf daf i a base pre (b ++ pad) Hi Hdaf Ea) as D.
    destruct (vendor_ok aa i) eqn:Hv.
    + destruct D as (ri & Hrel & Hdec).
      destruct (IH b base (pre ++ a) pad Hr Hdaf eq_refl Hpad) as (items & Himp & Hit).
      rewrite len_app, N.add_assoc in Hit. rewrite <- app_assoc in Himp.
      exists (It ri :: items). split; [apply implc_cons; assumption|].
      intros dbg'. rewrite Hdec, Hit. reflexivity.
    + exists [Bad EUnknownCallFrameInstruction]. split; [apply implc_bad; exact Hv|exact D].
Qed.

Lemma write_fde_insns_impl dbg be aa asz caf daf : forall (l : list (N * cfi)) prev bs base pre pad,
  forallb fde_insn_wf l = true -> is_u8 caf = true -> is_i8 daf = true -> is_u32 prev = true ->
  write_fde_insns dbg be caf daf prev l = Ok bs -> all_nop pad = true ->
  exists items, impl (in_area base (pre ++ bs ++ pad)) caf daf aa prev l items /\
    forall dbg', CfiRun.decode dbg' (dp_of be aa asz) (base + len pre) (bs ++ pad) = items.
Proof.
  induction l as [|[off i] r IH]; intros prev bs base pre pad Hwf Hcaf Hdaf Hprev H Hpad.
  - cbn [write_fde_insns] in H. injection H as <-. exists (map It (repeat INop (length pad))).
    split; [constructor|]. intros dbg'. apply rdec_nops. exact Hpad.
  - cbn [write_fde_insns] in H. cbn [forallb] in Hwf. apply andb_true_iff in Hwf. destruct Hwf as [Hi Hr].
    unfold fde_insn_wf in Hi. cbn [fst snd] in Hi. apply andb_true_iff in Hi. destruct Hi as [Hoff Hi].
    destruct (write_advance_loc dbg be caf prev off) as [a| | |] eqn:Ea; try discriminate. cbn [bind] in H.
    destruct (write_insn dbg daf i) as [b| | |] eqn:Eb; try discriminate. cbn [bind] in H.
    destruct (write_fde_insns dbg be caf daf off r) as [c| | |] eqn:Ec; try discriminate. cbn [bind] in H.
    injection H as <-.
    (* the instruction, then the rest of the script, at the new offset *)
    assert (Hcur : exists tl, impl (in_area base (pre ++ (a ++ b ++ c) ++ pad)) caf daf aa off ((off, i) :: r) tl /\
              forall dbg', CfiRun.decode dbg' (dp_of be aa asz) (base + len (pre ++ a)) (b ++ c ++ pad) = tl).
    { pose proof (decode_written_insn dbg be aa asz caf daf i b base (pre ++ a) (c ++ pad) Hi Hdaf Eb) as D.
      replace ((pre ++ a) ++ b ++ c ++ pad) with (pre ++ (a ++ b ++ c) ++ pad) in D by (now rewrite <- !app_assoc).
      destruct (vendor_ok aa i) eqn:Hv.
      - destruct D as (ri & Hrel & Hdec).
        destruct (IH off c base (pre ++ a ++ b) pad Hr Hcaf Hdaf Hoff Ec Hpad) as (items & Himp & Hit).
        replace ((pre ++ a ++ b) ++ c ++ pad) with (pre ++ (a ++ b ++ c) ++ pad) in Himp by (now rewrite <- !app_assoc).
        replace (base + len (pre ++ a ++ b)) with (base + len (pre ++ a) + len b) in Hit by (rewrite !len_app; lia).
        exists (It ri :: items). split; [apply impl_same; assumption|]. intros dbg'. rewrite Hdec, Hit. reflexivity.
      - exists [Bad EUnknownCallFrameInstruction]. split; [apply impl_same_bad; exact Hv|exact D]. }
    destruct Hcur as (tl & Himp & Htl).
    (* the advance, if any, in front *)
    destruct (write_advance_loc_ok dbg be caf prev off a Hcaf Hprev Hoff Ea)
      as [[-> ->]|(delta & Hlt & Hmul & Hdl & ->)].
    + exists tl. rewrite app_nil_r in Htl. split; [exact Himp|]. intros dbg'. rewrite <- !app_assoc. apply Htl.
    + exists (It (IAdvanceLoc delta) :: tl). apply is_u32_iff in Hoff.
      split; [apply impl_adv; try assumption; unfold two64; lia|].
      intros dbg'. rewrite <- !app_assoc.
      rewrite (rdec_cons dbg' (dp_of be aa asz) (base + len pre) (adv_enc be delta) (b ++ c ++ pad) (IAdvanceLoc delta)
                 (adv_enc_nonempty be delta) (parse_enc dbg' be asz aa (base + len pre) (DAdvance delta) _ Hdl)).
      rewrite <- N.add_assoc, <- len_app, Htl. reflexivity.
Qed.

(* what a row of the reader's table model says, against a script row: same span, args size, CFA, and for
   EVERY register the same rule, expression operands designating (X) the bytes of the script's expression *)
Definition row_sees (X : uexpr -> list byte -> Prop) (r : CfiRun.row) (xr : xrow) : Prop :=
  CfiRun.r_start r = xr_start xr /\ CfiRun.r_end r = xr_end xr /\ CfiRun.r_args r = xr_args xr /\
  cfa_rel X (CfiRun.r_cfa r) (xr_cfa xr) /\
  forall g, orule_rel X (CfiRun.rm_get g (CfiRun.r_regs r)) (xlookup g (xr_rules xr)).

Lemma row_sees_compose X r sr xr : CfiRunProofs.row_equiv r sr -> srow_rel X sr xr -> row_sees X r xr.
Proof.
  intros (A1 & A2 & A3 & A4 & A5) (B1 & B2 & B3 & B4 & B5). unfold row_sees.
  rewrite A1, A2, A3, A4. repeat split; try assumption. intros g. rewrite A5. apply lookup_rel. exact B5.
Qed.

Lemma Forall2_compose {A B C} (P : A -> B -> Prop) (Q : B -> C -> Prop) (R : A -> C -> Prop) :
  (forall a b c, P a b -> Q b c -> R a c) ->
  forall l1 l2 l3, Forall2 P l1 l2 -> Forall2 Q l2 l3 -> Forall2 R l1 l3.
Proof.
  intros H l1 l2 l3 H1. revert l3. induction H1 as [|a b l1 l2 Hab _ IH]; intros l3 H2; inversion H2; subst; constructor.
  - eapply H; eassumption.
  - apply IH. assumption.
Qed.

(* an expression reference lies in the CIE's or in the FDE's instruction area *)
Definition in2 (cbase : N) (carea : list byte) (fbase : N) (farea : list byte) (u : uexpr) (e : list byte) : Prop :=
  in_area cbase carea u e \/ in_area fbase farea u e.

Definition mk_fde_in (be aa : bool) (asz caf : N) (daf : Z) (init range coff : N) (carea : list byte)
           (foff : N) (farea : list byte) : CfiRun.fde_in :=
  {| CfiRun.f_caf := caf; CfiRun.f_daf := daf; CfiRun.f_asize := asz; CfiRun.f_be := be; CfiRun.f_aarch64 := aa;
     CfiRun.f_init := init; CfiRun.f_range := range; CfiRun.f_cie_off := coff; CfiRun.f_cie := carea;
     CfiRun.f_fde_off := foff; CfiRun.f_fde := farea |}.

(* the composition: the unwind table the reader model (C06) computes from two written instruction areas, at
   whatever section offsets they lie and whatever nop padding follows them, is the table of the script
   machine — with the context's storage limits, any reader vendor, any build mode *)
Theorem rows_by_script_areas dbg be aa asz caf daf (lc : list cfi) (lf : list (N * cfi)) ci fi pad1 pad2 :
  forallb cfi_wf lc = true -> forallb fde_insn_wf lf = true -> is_u8 caf = true -> is_i8 daf = true ->
  asz_ok asz ->
  write_insns dbg daf lc = Ok ci -> write_fde_insns dbg be caf daf 0 lf = Ok fi ->
  all_nop pad1 = true -> all_nop pad2 = true ->
  forall dbg' caps cx init range coff foff,
    CfiRun.cap_full (max_stack caps) 0 = false ->
    let fin := mk_fde_in be aa asz caf daf init range coff (ci ++ pad1) foff (fi ++ pad2) in
    let scr := script_rows_lim caps aa asz init range lc lf in
    Forall2 (row_sees (in2 coff (ci ++ pad1) foff (fi ++ pad2))) (fst (fst (CfiRun.fde_rows dbg' caps fin cx))) (fst scr) /\
    snd (fst (CfiRun.fde_rows dbg' caps fin cx)) = snd scr.
Proof.
  intros Hlc Hlf Hcaf Hdaf Hasz Hci Hfi Hp1 Hp2 dbg' caps cx init range coff foff Hcap fin scr.
  destruct (CfiRunProofs.model_eq_spec dbg' caps fin cx (valid_asize_of asz Hasz) Hcap) as [M1 M2].
  set (X := in2 coff (ci ++ pad1) foff (fi ++ pad2)).
  destruct (write_insns_implc dbg be aa asz caf daf lc ci coff [] pad1 Hlc Hdaf Hci Hp1) as (itc & I1 & D1).
  destruct (write_fde_insns_impl dbg be aa asz caf daf lf 0 fi foff [] pad2 Hlf Hcaf Hdaf eq_refl Hfi Hp2) as (itf & I2 & D2).
  change (len []) with 0 in D1, D2. rewrite N.add_0_r in D1, D2. cbn [app] in I1, I2.
  apply (implc_mono _ X) in I1; [|intros u e H; left; exact H].
  apply (impl_mono _ X) in I2; [|intros u e H; right; exact H].
  pose proof (rows_sim X caf daf aa caps (CfiRunProofs.sparams_of fin) eq_refl eq_refl asz init range lc lf itc itf
                       eq_refl Hcap I1 I2) as [S1 S2].
  unfold CfiRunProofs.spec_of in M1, M2.
  cbn [fin mk_fde_in CfiRun.f_dparams CfiRun.f_be CfiRun.f_asize CfiRun.f_aarch64 CfiRun.f_cie_off CfiRun.f_cie
       CfiRun.f_fde_off CfiRun.f_fde CfiRun.f_init CfiRun.f_range] in M1, M2.
  fold (dp_of be aa asz) in M1, M2. rewrite D1, D2 in M1, M2. fold fin in M1, M2.
  split.
  - eapply Forall2_compose; [|exact M1|exact S1]. intros a b c0. apply row_sees_compose.
  - rewrite M2. exact S2.
Qed.

Theorem rows_read_by_reader_full dbg be eh aa cpos fpos coff (c : CfiWr.cie) (f : CfiWr.fde) cb fb :
  cie_wf c = true -> fde_wf f = true ->
  cie_write dbg be eh cpos c = Ok cb -> fde_write dbg be eh fpos coff c f = Ok fb ->
  exists cil chdr carea fil fhdr farea,
    cb = cil ++ chdr ++ carea /\ fb = fil ++ fhdr ++ farea /\
    len cil = ilen_size (c_fmt64 c) /\ len fil = ilen_size (c_fmt64 c) /\
    forall dbg' caps cx init range,
      CfiRun.cap_full (max_stack caps) 0 = false ->
      let cbase := cpos + len cil + len chdr in
      let fbase := fpos + len fil + len fhdr in
      let fi := fde_in_of be aa c init range cbase carea fbase farea in
      let scr := script_rows_lim caps aa (c_asize c) init range (c_insns c) (f_insns f) in
      Forall2 (row_sees (in2 cbase carea fbase farea)) (fst (fst (CfiRun.fde_rows dbg' caps fi cx))) (fst scr) /\
      snd (fst (CfiRun.fde_rows dbg' caps fi cx)) = snd scr.
Proof.
  intros Hwf Hfw Hc Hf.
  destruct (cie_wf_parts c Hwf) as (_ & Hcaf & Hdaf & Hins).
  pose proof (fde_wf_parts f Hfw) as Hfins.
  destruct (cie_write_parts dbg be eh cpos c cb Hc) as (Hasz & cil & chdr & ci & pad1 & -> & _ & Hl1 & Hw1 & Hn1 & _).
  destruct (fde_write_parts dbg be eh fpos coff c f fb Hf) as (_ & _ & fil & fhdr & fi & pad2 & -> & _ & Hl2 & Hw2 & Hn2 & _).
  exists cil, chdr, (ci ++ pad1), fil, fhdr, (fi ++ pad2).
  split; [reflexivity|]. split; [reflexivity|]. split; [exact Hl1|]. split; [exact Hl2|].
  intros dbg' caps cx init range Hcap.
  exact (rows_by_script_areas dbg be aa (c_asize c) (c_caf c) (c_daf c) (c_insns c) (f_insns f) ci fi pad1 pad2
           Hins Hfins Hcaf Hdaf Hasz Hw1 Hw2 Hn1 Hn2 dbg' caps cx init range _ _ Hcap).
Qed.

Lemma insn_rel_imatch base area caf daf ri i :
  insn_rel (in_area base area) caf daf ri i -> exists d, imatch base area d ri /\ sem caf daf d = MInsn i.
Proof.
  intros (d & off & total & -> & Hs & _ & Hx). exists d. split; [|exact Hs].
  exists off, total. split; [reflexivity|]. intros e He. destruct (Hx e He) as (H1 & _ & H3). split; assumption.
Qed.

(* when the reader's vendor knows every instruction, the decoded items are the reader's forms of decoded
   instructions with the script's meanings, followed by nops *)
Lemma implc_insns base area caf daf aa l items :
  implc (in_area base area) caf daf aa l items -> forallb (vendor_ok aa) l = true ->
  exists ds is n, items = map It (is ++ repeat INop n) /\ map (sem caf daf) ds = map MInsn l /\
                  Forall2 (imatch base area) ds is.
Proof.
  induction 1 as [n|i ri l items Hrel Hv _ IH|i l Hv]; cbn [forallb]; intros Hall.
  - exists [], [], n. repeat split; constructor.
  - apply andb_true_iff in Hall. destruct (IH (proj2 Hall)) as (ds & is & n & -> & Hs & Hf).
    destruct (insn_rel_imatch _ _ _ _ _ _ Hrel) as (d & Hd & Hsd).
    exists (d :: ds), (ri :: is), n. cbn [map app]. rewrite Hsd, Hs. repeat split. constructor; assumption.
  - rewrite Hv in Hall. discriminate.
Qed.

Lemma impl_insns base area caf daf aa prev l items :
  impl (in_area base area) caf daf aa prev l items -> forallb (fun p => vendor_ok aa (snd p)) l = true ->
  exists ds is n, items = map It (is ++ repeat INop n) /\ locate prev (map (sem caf daf) ds) = l /\
                  Forall2 (imatch base area) ds is.
Proof.
  induction 1 as [prev n|prev i ri l items Hrel Hv _ IH|prev i l Hv|prev off delta i l items Hlt Hmul Hsm _ IH];
    cbn [forallb snd]; intros Hall.
  - exists [], [], n. repeat split; constructor.
  - apply andb_true_iff in Hall. destruct (IH (proj2 Hall)) as (ds & is & n & -> & Hs & Hf).
    destruct (insn_rel_imatch _ _ _ _ _ _ Hrel) as (d & Hd & Hsd).
    exists (d :: ds), (ri :: is), n. cbn [map app locate]. rewrite Hsd. cbn [locate]. rewrite Hs.
    repeat split. constructor; assumption.
  - rewrite Hv in Hall. discriminate.
  - destruct (IH Hall) as (ds & is & n & -> & Hs & Hf).
    exists (DAdvance delta :: ds), (IAdvanceLoc delta :: is), n. cbn [map app sem locate].
    replace (prev + delta * caf) with off by lia. repeat split; [exact Hs|].
    constructor; [|exact Hf]. exists 0, 0. split; [reflexivity|discriminate].
Qed.

(* The unwind rows gimli's reader model produces for a written FDE are those of the DWARF call-frame machine
   (CfaSpec.run_spec, no storage limits) run on the reader's form of the two written programs, which are the
   supplied CIE instructions and the supplied FDE instructions at their code offsets. *)
Lemma rows_read_by_reader_lem dbg be eh aa cpos fpos coff (c : CfiWr.cie) (f : CfiWr.fde) cb fb :
  cie_wf c = true -> fde_wf f = true ->
  forallb (vendor_ok aa) (c_insns c) = true -> forallb (fun p => vendor_ok aa (snd p)) (f_insns f) = true ->
  cie_write dbg be eh cpos c = Ok cb -> fde_write dbg be eh fpos coff c f = Ok fb ->
  exists cil chdr carea fil fhdr farea dsc dsf ic ifd n1 n2,
    cb = cil ++ chdr ++ carea /\ fb = fil ++ fhdr ++ farea /\
    map (sem (c_caf c) (c_daf c)) dsc = map MInsn (c_insns c) /\
    locate 0 (map (sem (c_caf c) (c_daf c)) dsf) = f_insns f /\
    Forall2 (imatch (cpos + len cil + len chdr) carea) dsc ic /\
    Forall2 (imatch (fpos + len fil + len fhdr) farea) dsf ifd /\
    forall dbg' caps cx init range,
      let fi := fde_in_of be aa c init range (cpos + len cil + len chdr) carea (fpos + len fil + len fhdr) farea in
      let spec := run_spec (CfiRunProofs.sparams_of fi) init (spec_end (c_asize c) init range)
                           (map It (ic ++ repeat INop n1)) (map It (ifd ++ repeat INop n2)) in
      CfiRunProofs.spec_unl dbg' fi = spec /\
      (CfiRun.cap_full (max_stack caps) 0 = false -> CfiRunProofs.within_limits dbg' caps fi = true ->
       Forall2 CfiRunProofs.row_equiv (fst (fst (CfiRun.fde_rows dbg' caps fi cx))) (fst spec) /\
       snd (fst (CfiRun.fde_rows dbg' caps fi cx)) = snd spec).
Proof.
  intros Hwf Hfw Hvc Hvf Hc Hf.
  destruct (cie_wf_parts c Hwf) as (_ & Hcaf & Hdaf & Hins).
  pose proof (fde_wf_parts f Hfw) as Hfins.
  destruct (cie_write_parts dbg be eh cpos c cb Hc) as (Hasz & cil & chdr & ci & pad1 & -> & _ & _ & Hw1 & Hn1 & _).
  destruct (fde_write_parts dbg be eh fpos coff c f fb Hf) as (_ & _ & fil & fhdr & fi & pad2 & -> & _ & _ & Hw2 & Hn2 & _).
  destruct (write_insns_implc dbg be aa (c_asize c) (c_caf c) (c_daf c) (c_insns c) ci (cpos + len cil + len chdr) [] pad1
              Hins Hdaf Hw1 Hn1) as (itc & I1 & D1).
  destruct (write_fde_insns_impl dbg be aa (c_asize c) (c_caf c) (c_daf c) (f_insns f) 0 fi (fpos + len fil + len fhdr) [] pad2
              Hfins Hcaf Hdaf eq_refl Hw2 Hn2) as (itf & I2 & D2).
  change (len []) with 0 in D1, D2. rewrite N.add_0_r in D1, D2. cbn [app] in I1, I2.
  destruct (implc_insns _ _ _ _ _ _ _ I1 Hvc) as (dsc & ic & n1 & -> & M1 & F1).
  destruct (impl_insns _ _ _ _ _ _ _ _ I2 Hvf) as (dsf & ifd & n2 & -> & M2 & F2).
  exists cil, chdr, (ci ++ pad1), fil, fhdr, (fi ++ pad2), dsc, dsf, ic, ifd, n1, n2.
  split; [reflexivity|]. split; [reflexivity|]. split; [exact M1|]. split; [exact M2|]. split; [exact F1|]. split; [exact F2|].
  intros dbg' caps cx init range fin spec.
  assert (Hs : CfiRunProofs.spec_unl dbg' fin = spec).
  { unfold CfiRunProofs.spec_unl, CfiRunProofs.cie_items, CfiRunProofs.fde_items, spec, fin.
    cbn [fde_in_of CfiRun.f_dparams CfiRun.f_be CfiRun.f_asize CfiRun.f_aarch64 CfiRun.f_cie_off CfiRun.f_cie
         CfiRun.f_fde_off CfiRun.f_fde CfiRun.f_init CfiRun.f_range].
    fold (dp_of be aa (c_asize c)). rewrite D1, D2. reflexivity. }
  split; [exact Hs|]. intros Hcap Hlim.
  rewrite <- Hs. apply CfiRunProofs.no_silent_limit_thm; [|exact Hcap|exact Hlim].
  apply valid_asize_of. exact Hasz.
Qed.

Require GV.Model.CfiRd GV.Model.CfiUwi.

(* the bridge from C05's FDE record to the already-parsed CIE/FDE C06 evaluates: for the records the entry
   reader returns for a written CIE and FDE, CfiUwi.fde_in_of — the adapter used by unwind_info_for_address —
   is the fde_in of the two written areas *)
Lemma seen_rows dbg be aa (c : CfiWr.cie) (f : CfiWr.fde) o b (ci : CfiRd.cie) o' b' (fd : CfiRd.fde) :
  cie_wf c = true -> fde_wf f = true -> asz_ok (c_asize c) ->
  cie_seen dbg c o b ci -> fde_seen dbg be c f o' b' ci fd ->
  forall dbg' caps cx,
    CfiRun.cap_full (max_stack caps) 0 = false ->
    let fi := CfiUwi.fde_in_of be aa fd in
    let scr := script_rows_lim caps aa (c_asize c) (CfiRd.fd_init fd) (CfiRd.fd_range fd) (c_insns c) (f_insns f) in
    Forall2 (row_sees (in2 (CfiRd.off (CfiRd.ci_instr ci)) (CfiRd.win (CfiRd.ci_instr ci))
                           (CfiRd.off (CfiRd.fd_instr fd)) (CfiRd.win (CfiRd.fd_instr fd))))
            (fst (fst (CfiRun.fde_rows dbg' caps fi cx))) (fst scr) /\
    snd (fst (CfiRun.fde_rows dbg' caps fi cx)) = snd scr.
Proof.
  intros Hwf Hfw Hasz (_ & _ & _ & A4 & A5 & A6 & _ & _ & ins1 & pad1 & Hw1 & Hn1 & _ & Hwin1 & _)
         (_ & _ & B3 & _ & _ & _ & ins2 & pad2 & Hw2 & Hn2 & _ & Hwin2) dbg' caps cx Hcap.
  destruct (cie_wf_parts c Hwf) as (_ & Hcaf & Hdaf & Hins).
  pose proof (fde_wf_parts f Hfw) as Hfins.
  cbv zeta.
  assert (E : CfiUwi.fde_in_of be aa fd =
              mk_fde_in be aa (c_asize c) (c_caf c) (c_daf c) (CfiRd.fd_init fd) (CfiRd.fd_range fd)
                        (CfiRd.off (CfiRd.ci_instr ci)) (ins1 ++ pad1) (CfiRd.off (CfiRd.fd_instr fd)) (ins2 ++ pad2)).
  { unfold CfiUwi.fde_in_of, mk_fde_in. rewrite B3, A4, A5, A6, Hwin1, Hwin2. reflexivity. }
  rewrite E, Hwin1, Hwin2.
  exact (rows_by_script_areas dbg be aa (c_asize c) (c_caf c) (c_daf c) (c_insns c) (f_insns f) ins1 ins2 pad1 pad2
           Hins Hfins Hcaf Hdaf Hasz Hw1 Hw2 Hn1 Hn2 dbg' caps cx _ _ _ _ Hcap).
Qed.

(* per tile of a written section: what the reader's table evaluation returns for the k-th FDE tile *)
Section TableRows.
  Variables (dbg' be eh : bool) (asz : N) (cies : list CfiWr.cie) (fdes : list (nat * CfiWr.fde)) (sec : list byte).

  Definition fde_rows_by_script (c : CfiWr.cie) (f : CfiWr.fde) (fd : CfiRd.fde) : Prop :=
    CfiRd.fd_init fd = addr_val (f_addr f) mod 2 ^ (8 * c_asize c) /\ CfiRd.fd_range fd = f_len f /\
    forall aa dbg2 caps cx,
      CfiRun.cap_full (max_stack caps) 0 = false ->
      let fi := CfiUwi.fde_in_of be aa fd in
      let scr := script_rows_lim caps aa (c_asize c) (CfiRd.fd_init fd) (CfiRd.fd_range fd) (c_insns c) (f_insns f) in
      Forall2 (row_sees (in2 (CfiRd.off (CfiRd.ci_instr (CfiRd.fd_cie fd))) (CfiRd.win (CfiRd.ci_instr (CfiRd.fd_cie fd)))
                             (CfiRd.off (CfiRd.fd_instr fd)) (CfiRd.win (CfiRd.fd_instr fd))))
              (fst (fst (CfiRun.fde_rows dbg2 caps fi cx))) (fst scr) /\
      snd (fst (CfiRun.fde_rows dbg2 caps fi cx)) = snd scr.

  Fixpoint rows_seen (chunks : list (CfaEncSpec.item * list byte)) (items : list CfiRd.item) : Prop :=
    match chunks, items with
    | [], [] => True
    | (CfaEncSpec.ICie _, _) :: r, CfiRd.ICie _ :: its => rows_seen r its
    | (CfaEncSpec.IFde k, _) :: r, CfiRd.IFde p :: its =>
        (exists idx f c fd,
           nth_error fdes k = Some (idx, f) /\ nth_error cies idx = Some c /\
           CfiRd.fde_parse dbg' (rd_cfg eh be asz) sec p = Ok fd /\ fde_rows_by_script c f fd)
        /\ rows_seen r its
    | _, _ => False
    end.
End TableRows.

Lemma reader_sees_rows dbg dbg' be eh asz cies fdes sec :
  Forall (fun c => cie_wf c = true /\ c_asize c = asz) cies ->
  Forall (fun p => fde_wf (snd p) = true) fdes ->
  asz_ok asz ->
  forall chunks pos placed items,
    reader_sees dbg dbg' be eh asz cies fdes sec pos placed chunks items ->
    rows_seen dbg' be eh asz cies fdes sec chunks items.
Proof.
  intros HC HF Hasz. induction chunks as [|[[idx|k] b] r IH]; intros pos placed items H; destruct items as [|[ci|p] its];
    cbn [reader_sees rows_seen] in *; try contradiction; try exact I.
  - destruct H as [_ H]. eapply IH. exact H.
  - destruct H as [(idx & f & c & coff & ci & fd & Hk & Hn & _ & Hpc & _ & _ & Hparse & Hseen) H].
    split; [|eapply IH; exact H].
    exists idx, f, c, fd. split; [exact Hk|]. split; [exact Hn|]. split; [exact Hparse|].
    assert (Hcw : cie_wf c = true /\ c_asize c = asz).
    { rewrite Forall_forall in HC. apply HC. eapply nth_error_In. exact Hn. }
    destruct Hcw as [Hcw Hca].
    assert (Hfw : fde_wf f = true).
    { rewrite Forall_forall in HF. apply (HF (idx, f)). eapply nth_error_In. exact Hk. }
    destruct Hpc as (c' & cb & pre & post & Hn' & _ & _ & Hcs & _).
    rewrite Hn in Hn'. injection Hn' as <-.
    pose proof Hseen as (_ & _ & B3 & B4 & B5 & _).
    split; [exact B4|]. split; [exact B5|].
    intros aa dbg2 caps cx Hcap. rewrite B3.
    apply (seen_rows dbg be aa c f coff cb ci pos b fd Hcw Hfw ltac:(rewrite Hca; exact Hasz) Hcs Hseen dbg2 caps cx Hcap).
Qed.

(* table_rows_read_by_reader: entries_read_by_reader, and for every FDE tile the unwind table that the reader
   model computes for the FDE record the entry reader returned is the table of the script machine *)
Theorem table_rows_read_by_reader_lem dbg dbg' be eh asz (t : ftable) bs :
  Forall (fun c => cie_wf c = true /\ c_asize c = asz) (t_cies t) ->
  Forall (fun p => fde_wf (snd p) = true) (t_fdes t) ->
  len bs + 16 < 4294967295 ->
  write_table dbg be eh 0 t = Ok bs ->
  exists chunks items,
    map fst chunks = plan [] 0 (map fst (t_fdes t)) /\
    bs = concat (map snd chunks) /\
    CfiRd.entries_all dbg' (rd_cfg eh be asz) bs = Ok (items, None) /\
    reader_sees dbg dbg' be eh asz (t_cies t) (t_fdes t) bs 0 [] chunks items /\
    rows_seen dbg' be eh asz (t_cies t) (t_fdes t) bs chunks items.
Proof.
  intros HC HF Hsmall H.
  destruct (entries_read_by_reader_lem dbg dbg' be eh asz t bs HC HF Hsmall H) as (chunks & items & H1 & H2 & H3 & H4).
  exists chunks, items. repeat split; try assumption.
  destruct (t_fdes t) as [|[idx f] fr] eqn:Ef.
  - (* no FDE: nothing is written *)
    cbn [map plan] in H1. destruct chunks; [|discriminate]. destruct items; [exact I|]. cbn [reader_sees] in H4. contradiction.
  - (* the address size is that of a written CIE *)
    assert (Hasz : asz_ok asz).
    { destruct (write_table_tiled dbg be eh 0 t bs H) as (ch & Hp & _ & Hwt).
      rewrite Ef in Hp. cbn [map plan existsb] in Hp. destruct ch as [|[it0 b0] ch]; [discriminate|].
      cbn [map fst] in Hp. injection Hp as Hit _. subst it0.
      cbn [well_tiled] in Hwt. destruct Hwt as [(c & Hn & Hw) _].
      assert (Hcw : cie_wf c = true /\ c_asize c = asz).
      { rewrite Forall_forall in HC. apply HC. eapply nth_error_In. exact Hn. }
      destruct Hcw as [_ <-]. exact (proj1 (cie_write_parts _ _ _ _ _ _ Hw)). }
    rewrite <- Ef in *. eapply reader_sees_rows; eassumption.
Qed.

Lemma xstep_lim_fits c aa ini s i :
  match script_step aa ini s i with
  | Ok s' => xguard_ok c ini s' = true
  | _ => True
  end -> xstep_lim c aa ini s i = xstep_lim no_caps aa ini s i.
Proof.
  unfold xstep_lim. destruct (script_step aa ini s i) as [s'|e| |]; cbn [bind]; try reflexivity.
  unfold xguard_ok. intros G. destruct (xguard c ini s') as [[]|e| |]; try discriminate. reflexivity.
Qed.

Lemma script_cie_fits c aa : forall l s,
  xfits c aa None s l = true -> script_cie c aa s l = script_cie no_caps aa s l.
Proof.
  induction l as [|i r IH]; intros s H; [reflexivity|]. cbn [xfits script_cie] in *.
  rewrite (xstep_lim_fits c aa None s i).
  - unfold xstep_lim. destruct (script_step aa None s i) as [s'|e| |]; cbn [bind]; try reflexivity.
    apply andb_true_iff in H. destruct H as [_ H]. change (xguard no_caps None s') with (Ok tt : res unit). cbn [bind].
    apply IH. exact H.
  - destruct (script_step aa None s i); [|exact I|exact I|exact I]. apply andb_true_iff in H. tauto.
Qed.

Lemma script_fde_fits c aa ini asz init e : forall l cur s,
  xfits c aa ini s (map snd l) = true ->
  script_fde c aa ini asz init e cur s l = script_fde no_caps aa ini asz init e cur s l.
Proof.
  induction l as [|[off i] r IH]; intros cur s H; [reflexivity|]. cbn [map snd xfits script_fde] in *.
  assert (E : xstep_lim c aa ini s i = xstep_lim no_caps aa ini s i).
  { apply xstep_lim_fits. destruct (script_step aa ini s i); [|exact I|exact I|exact I]. apply andb_true_iff in H. tauto. }
  rewrite E.
  assert (Hn : forall s', xstep_lim no_caps aa ini s i = Ok s' -> xfits c aa ini s' (map snd r) = true).
  { intros s' Hs. unfold xstep_lim in Hs. destruct (script_step aa ini s i) as [s1|e1| |]; cbn [bind] in Hs; try discriminate.
    change (xguard no_caps ini s1) with (Ok tt : res unit) in Hs. cbn [bind] in Hs. injection Hs as <-.
    apply andb_true_iff in H. tauto. }
  destruct (cur <? off).
  - destruct (2 ^ (8 * asz) <=? init + off); [reflexivity|].
    destruct (xstep_lim no_caps aa ini s i) as [s'|e1| |]; try reflexivity.
    rewrite (IH off s' (Hn s' eq_refl)). reflexivity.
  - destruct (xstep_lim no_caps aa ini s i) as [s'|e1| |]; try reflexivity.
    apply IH. apply Hn. reflexivity.
Qed.

(* when the occupancy of the unlimited evaluation never exceeds the capacities, the capacities are invisible *)
Theorem script_fits_unlimited c aa asz init range cie fde :
  script_fits c aa cie fde = true ->
  script_rows_lim c aa asz init range cie fde = script_rows aa asz init range cie fde.
Proof.
  unfold script_fits, script_rows, script_rows_lim. intros H. apply andb_true_iff in H. destruct H as [H1 H2].
  rewrite (script_cie_fits c aa cie init_x H1).
  destruct (script_cie no_caps aa init_x cie) as [sc|e| |]; try reflexivity.
  apply andb_true_iff in H2. destruct H2 as [G H2]. unfold xguard_ok in G.
  destruct (xguard c (Some (x_rules sc)) sc) as [[]|e| |]; try discriminate.
  change (xguard no_caps (Some (x_rules sc)) sc) with (Ok tt : res unit).
  apply script_fde_fits. exact H2.
Qed.
