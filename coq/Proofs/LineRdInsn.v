(* Proofs/LineRdInsn.v — LineInstruction::parse inverts the reference encoder on every well-formed
   instruction, for every header (incl. opcode_base <> 13 and unknown standard/extended opcodes). *)
From Coq Require Import List NArith ZArith Bool Lia ZifyBool ZifyN ZifyNat.
From Coq.Strings Require Import Byte.
Require Import GV.Base.Res GV.Base.Byt GV.Base.Ints GV.Model.Leb GV.Model.Prim GV.Spec.LebSpec GV.Spec.LineSpec
               GV.Model.LineRd GV.Proofs.LebProofs GV.Proofs.PrimProofs GV.Proofs.LineRdBase GV.Proofs.LineRdMono
               GV.Proofs.LineRdRefine.
Import ListNotations.
Local Open Scope N_scope.

Lemma bytes_eqb_eq a b : bytes_eqb a b = true -> a = b.
Proof. unfold bytes_eqb. destruct (list_eq_dec Byte.byte_eq_dec a b); [auto|discriminate]. Qed.

Lemma enc_uleb_len v : v < two64 -> (length (enc_uleb v) <= 10)%nat.
Proof. intros H. destruct (enc_uleb_spec v [] H) as (_ & _ & L & _). lia. Qed.

Lemma skip_ulebs_lebs dbg : forall fuel k args tail,
  lebs_ok fuel (N.of_nat k) args = true -> skip_ulebs dbg k (args ++ tail) = Ok tail.
Proof.
  induction fuel as [|f IH]; intros k args tail H; cbn [lebs_ok] in H; [discriminate|].
  destruct k as [|k].
  - cbn in H. destruct args; [reflexivity|discriminate].
  - destruct (N.of_nat (S k) =? 0) eqn:E; [lia|].
    destruct (split_leb args) as [[e rest]|] eqn:S; [|discriminate].
    apply andb_true_iff in H as [H H3]. apply andb_true_iff in H as [H1 H2].
    apply bytes_eqb_eq in H1. apply split_leb_app in S. subst args.
    cbn [skip_ulebs]. rewrite <- app_assoc, <- H1.
    rewrite read_uleb128_enc by (unfold two64; lia). cbn [bind].
    apply IH. replace (N.of_nat (S k) - 1) with (N.of_nat k) in H3 by lia. exact H3.
Qed.

(* an unknown standard opcode: the number of LEB128 operands comes from standard_opcode_lengths *)
Lemma parse_unk_std dbg be h op n input :
  13 <= op -> op < h_opcode_base h -> op < 256 -> nth_len h op = Some n ->
  parse_insn dbg be h (n2b op :: input) =
  if n =? 0 then Ok (IUnkStd0 op, input)
  else if n =? 1 then let* (a, input) := read_uleb128 dbg input in Ok (IUnkStd1 op a, input)
  else let* input' := skip_ulebs dbg (N.to_nat n) input in
       Ok (IUnkStdN op (firstn (length input - length input') input), input').
Proof.
  intros H13 Hb H256 Hn. cbn [parse_insn]. rewrite b2n_n2b_small by exact H256.
  assert (E : forall c, c <= 12 -> (op =? c) = false) by (intros c Hc; apply N.eqb_neq; lia).
  rewrite !E by lia. rewrite (proj2 (N.leb_gt _ _)) by exact Hb.
  unfold nth_len in Hn. destruct (nth_error (h_std_lengths h) (N.to_nat (op - 1))) as [b|] eqn:Nt; [|discriminate].
  injection Hn as <-. destruct (nth_error_skipn _ _ _ Nt) as [tl Sk].
  assert (Ln : (N.to_nat (op - 1) < length (h_std_lengths h))%nat) by (apply nth_error_Some; congruence).
  unfold skip_n. rewrite (proj2 (N.ltb_ge _ _)) by lia. cbn [bind]. rewrite Sk. reflexivity.
Qed.

(* an extended opcode: the length prefix and the split give back the payload and what follows it *)
Lemma ext_prefix dbg payload tail {A} (k : list byte -> list byte -> res A) : len_n payload < two64 ->
  (let* (len, input) := read_uleb128 dbg (enc_uleb (len_n payload) ++ payload ++ tail) in
   let* (instr_rest, input) := split_n len input in k instr_rest input) = k payload tail.
Proof. intros H. rewrite read_uleb128_enc by exact H. cbn [bind]. rewrite split_n_app. reflexivity. Qed.

Lemma insn_roundtrip_lemma dbg be h i tail :
  pwf h -> insn_wf h i = true -> parse_insn dbg be h (enc_insn be h i ++ tail) = Ok (i, tail).
Proof.
  intros P W. pose proof P as [Pm Po Pl Pb Ps Plb Pstd].
  destruct i; cbn [insn_wf] in W; unfold std_known, u64b in W; fold two64 in W.
  (* the known standard opcodes: the dispatch computes on the opcode byte *)
  2-13: cbn [enc_insn app parse_insn b2n Byte.to_N N.eqb Pos.eqb]; rewrite (proj2 (N.leb_gt _ _)) by lia.
  (* the extended opcodes *)
  17-21: cbn [enc_insn]; unfold enc_ext; cbn [app parse_insn b2n Byte.to_N N.eqb Pos.eqb]; rewrite <- app_assoc.
  - (* ISpecial *)
    cbn [enc_insn app parse_insn]. rewrite b2n_n2b_small by lia.
    rewrite (proj2 (N.eqb_neq op 0)) by lia. rewrite (proj2 (N.leb_le _ _)) by lia. reflexivity.
  - reflexivity.
  - rewrite read_uleb128_enc by lia. reflexivity.
  - rewrite read_sleb_enc by lia. reflexivity.
  - rewrite read_uleb128_enc by lia. reflexivity.
  - rewrite read_uleb128_enc by lia. reflexivity.
  - reflexivity.
  - reflexivity.
  - reflexivity.
  - unfold read_u16. rewrite read_un_enc by (change (256 ^ N.of_nat 2) with 65536; lia). reflexivity.
  - reflexivity.
  - reflexivity.
  - rewrite read_uleb128_enc by lia. reflexivity.
  - (* IUnkStd0 *)
    destruct (nth_len h op) as [[|?]|] eqn:Nl; try (rewrite andb_false_r in W; discriminate).
    cbn [enc_insn app]. rewrite (parse_unk_std dbg be h op 0) by (lia || exact Nl). reflexivity.
  - (* IUnkStd1 *)
    destruct (nth_len h op) as [[|[| |]]|] eqn:Nl; try (rewrite andb_false_r in W; discriminate).
    cbn [enc_insn app]. rewrite (parse_unk_std dbg be h op 1) by (lia || exact Nl). cbn [N.eqb Pos.eqb].
    rewrite read_uleb128_enc by lia. reflexivity.
  - (* IUnkStdN *)
    destruct (nth_len h op) as [k|] eqn:Nl; [|rewrite andb_false_r in W; discriminate].
    apply andb_true_iff in W as [W Wk]. apply andb_true_iff in Wk as [Wk Wa].
    cbn [enc_insn app]. rewrite (parse_unk_std dbg be h op k) by (lia || exact Nl).
    rewrite (proj2 (N.eqb_neq k 0)), (proj2 (N.eqb_neq k 1)) by lia.
    rewrite (skip_ulebs_lebs dbg (S (length args))) by (rewrite N2Nat.id; exact Wa). cbn [bind].
    rewrite app_length, Nat.add_sub, firstn_app_exact. reflexivity.
  - (* IEndSequence *)
    rewrite (ext_prefix dbg [x01]) by (cbn; unfold two64; lia). reflexivity.
  - (* ISetAddress *)
    apply andb_true_iff in W as [W1 W2]. rewrite (addr_mask_amask h) in W2. unfold amask in W2.
    rewrite (ext_prefix dbg (x02 :: _)) by (unfold len_n; cbn [length]; rewrite enc_fixed_length; unfold two64; lia).
    cbn [read_u8 bind b2n Byte.to_N N.eqb Pos.eqb].
    rewrite <- (app_nil_r (enc_fixed _ _ _)), read_address_enc by (exact W1 || lia). reflexivity.
  - (* IDefineFile *)
    apply andb_true_iff in W as [W1 W2].
    destruct f as [path d t s md5 src]. cbn [fe_path fe_source fe_dir fe_time fe_size fe_md5] in *.
    destruct path as [| | | | | | | | |p| | | |]; try discriminate. destruct src; [discriminate|].
    apply andb_true_iff in W2 as [W2 W8]. apply andb_true_iff in W2 as [W2 W7].
    apply andb_true_iff in W2 as [W2 W6]. apply andb_true_iff in W2 as [W2 W5]. apply andb_true_iff in W2 as [W3 W4].
    apply bytes_eqb_eq in W7. subst md5. apply no_nul_free in W3.
    pose proof (enc_uleb_len d ltac:(lia)). pose proof (enc_uleb_len t ltac:(lia)). pose proof (enc_uleb_len s ltac:(lia)).
    rewrite (ext_prefix dbg (x03 :: _))
      by (unfold len_n; cbn [length]; rewrite !app_length; cbn [length]; rewrite !app_length; unfold two64 in *; lia).
    cbn [read_u8 bind b2n Byte.to_N N.eqb Pos.eqb]. rewrite W1, read_cstr_app by exact W3. cbn [bind].
    unfold file_entry_parse. rewrite read_uleb128_enc by lia. cbn [bind]. rewrite read_uleb128_enc by lia. cbn [bind].
    rewrite <- (app_nil_r (enc_uleb s)), read_uleb128_enc by lia. reflexivity.
  - (* ISetDiscriminator *)
    apply N.ltb_lt in W. pose proof (enc_uleb_len n W).
    rewrite (ext_prefix dbg (x04 :: _)) by (unfold len_n; cbn [length]; unfold two64; lia).
    cbn [read_u8 bind b2n Byte.to_N N.eqb Pos.eqb].
    rewrite <- (app_nil_r (enc_uleb n)), read_uleb128_enc by exact W. reflexivity.
  - (* IUnkExt *)
    rewrite (ext_prefix dbg (n2b op :: bs)) by (unfold len_n; cbn [length]; lia).
    cbn [read_u8 bind]. rewrite b2n_n2b_small by lia.
    rewrite (proj2 (N.eqb_neq op 1)), (proj2 (N.eqb_neq op 2)), (proj2 (N.eqb_neq op 4)) by lia.
    destruct (N.eqb_spec op 3) as [->|]; [|reflexivity]. rewrite (proj2 (N.leb_gt _ _)) by lia. reflexivity.
Qed.

Lemma enc_prog_cons be h i is : enc_prog be h (i :: is) = enc_insn be h i ++ enc_prog be h is.
Proof. reflexivity. Qed.

Lemma step_wf_insn_wf h s i : step_wf h s i = true -> insn_wf h i = true.
Proof. intros H. now apply step_wf_parts in H as [H _]. Qed.

Lemma next_row_loop_refine dbg be resumed h : pwf h ->
  forall is fuel r added inseq,
  inv h r -> r_end r = false -> prog_wf_from h (rep r) is = true ->
  (length (enc_prog be h is) < fuel)%nat ->
  match rows_from h (rep r) is with
  | [] => exists st', next_row_loop fuel dbg be resumed h r (enc_prog be h is) added inseq = (NNone, st')
  | srow :: rest =>
      exists st' is',
        next_row_loop fuel dbg be resumed h r (enc_prog be h is) added inseq = (NRow, st') /\
        rep (st_row st') = srow /\ r_tomb (st_row st') = false /\
        st_inp st' = enc_prog be h is' /\
        (length (st_inp st') < length (enc_prog be h is))%nat /\
        inv h (row_reset h (st_row st')) /\ r_end (row_reset h (st_row st')) = false /\
        prog_wf_from h (rep (row_reset h (st_row st'))) is' = true /\
        rows_from h (rep (row_reset h (st_row st'))) is' = rest
  end.
Proof.
  intros P. induction is as [|i is IH]; intros fuel r added inseq I En W Hf.
  - cbn [rows_from]. destruct fuel; [simpl in Hf; lia|]. cbn. eexists. reflexivity.
  - cbn [prog_wf_from] in W. apply andb_true_iff in W as [W1 W2].
    rewrite enc_prog_cons in *.
    pose proof (insn_roundtrip_lemma dbg be h i (enc_prog be h is) P (step_wf_insn_wf _ _ _ W1)) as RT.
    pose proof (parse_insn_good dbg be h (enc_insn be h i ++ enc_prog be h is)) as G. rewrite RT in G.
    destruct G as (_ & Len & _). cbn [snd] in Len.
    destruct fuel as [|f]; [lia|]. cbn [next_row_loop].
    destruct (enc_insn be h i ++ enc_prog be h is) as [|b0 inp0] eqn:Einp; [simpl in Len; lia|].
    rewrite RT.
    pose proof (exec_sim dbg h r i P I En W1) as X. unfold exec_sim_stmt in X.
    cbn [rows_from].
    destruct (exec_spec h (rep r) i) as [s' [srow|]].
    + destruct X as (r1 & X1 & X2 & X3 & X4 & X5). rewrite X1, X3. cbn [andb].
      exists (mk_st r1 (enc_prog be h is) added (negb (r_end r1))), is. cbn [st_row st_inp].
      split; [reflexivity|]. split; [exact X2|]. split; [exact X3|]. split; [reflexivity|].
      split; [exact Len|]. split; [exact X5|]. split.
      * destruct (r_end r1) eqn:Ee.
        -- unfold row_reset. rewrite Ee. reflexivity.
        -- rewrite (row_reset_noend h r1 Ee). reflexivity.
      * rewrite X4. split; [exact W2|reflexivity].
    + destruct X as (r1 & X1 & X2 & X3 & X4). rewrite X1.
      subst s'. cbn [fst] in W2.
      specialize (IH f r1 (add_file resumed i added) inseq X3 X4 W2 ltac:(cbn [length] in *; lia)).
      destruct (rows_from h (rep r1) is) as [|srow rest].
      * exact IH.
      * destruct IH as (st' & is' & J1 & J2 & J3 & J4 & J5 & J6 & J7 & J8 & J9).
        exists st', is'. split; [exact J1|]. split; [exact J2|]. split; [exact J3|]. split; [exact J4|].
        split; [clear - J5 Len; lia|]. split; [exact J6|]. split; [exact J7|]. split; [exact J8|exact J9].
Qed.

Lemma rows_loop_refine dbg be resumed h : pwf h ->
  forall fuel is st,
  inv h (row_reset h (st_row st)) -> r_end (row_reset h (st_row st)) = false ->
  prog_wf_from h (rep (row_reset h (st_row st))) is = true ->
  st_inp st = enc_prog be h is -> (length (st_inp st) < fuel)%nat ->
  exists l stf,
    rows_loop fuel dbg be resumed h st = (l, SEnd, stf) /\
    map rep l = rows_from h (rep (row_reset h (st_row st))) is /\
    Forall (fun r => r_tomb r = false) l.
Proof.
  intros P. induction fuel as [|f IH]; intros is st I En W Hi Hf; [lia|].
  cbn [rows_loop]. unfold next_row. rewrite Hi.
  pose proof (next_row_loop_refine dbg be resumed h P is (S (length (enc_prog be h is)))
                (row_reset h (st_row st)) (st_added st) (st_inseq st) I En W ltac:(lia)) as R.
  destruct (rows_from h (rep (row_reset h (st_row st))) is) as [|srow rest].
  - destruct R as [st' ->]. exists [], st'. repeat split. constructor.
  - destruct R as (st' & is' & -> & R2 & R3 & R4 & R5 & R6 & R7 & R8 & R9).
    destruct (IH is' st' R6 R7 R8 R4 ltac:(rewrite Hi in Hf; lia)) as (l & stf & L1 & L2 & L3).
    rewrite L1. exists (st_row st' :: l), stf. split; [reflexivity|]. split.
    + cbn [map]. rewrite R2, L2, R9. reflexivity.
    + constructor; [exact R3|exact L3].
Qed.

Lemma row_reset_new h : row_reset h (row_new h) = row_new h.
Proof. reflexivity. Qed.

Lemma rows_refine_spec_lemma dbg be h is :
  prog_wf h is = true -> h_program h = enc_prog be h is ->
  exists rs, rows_model dbg be h = (rs, SEnd) /\ map rep rs = rows_spec h is /\
             Forall (fun r => r_tomb r = false) rs.
Proof.
  intros W Hp. unfold prog_wf in W. apply andb_true_iff in W as [W1 W2].
  pose proof (params_wf_pwf h W1) as P.
  assert (I0 : inv h (row_new h)).
  { split; [reflexivity|]. cbn. destruct P. lia. }
  destruct (rows_loop_refine dbg be false h P (S (length (h_program h))) is
              (st_init h (h_program h))) as (l & stf & L1 & L2 & L3).
  - exact I0.
  - reflexivity.
  - exact W2.
  - exact Hp.
  - cbn. lia.
  - unfold rows_model, rows_full. rewrite L1. exists l. split; [reflexivity|]. split; [exact L2|exact L3].
Qed.

(* VLIW header: min_inst_len 4, max_ops 3, line_base -3, line_range 12, opcode_base 10 (so opcodes
   10..255 are special and DW_LNS_set_prologue_end.. do not exist), one unknown-free std table *)
Definition vliw_program : list insn :=
  [ISetAddress 4096; ISpecial 200; IAdvancePc 7; IConstAddPc; IFixedAddPc 3; IAdvanceLine (-2)%Z; ICopy;
   IUnkExt 128 [x01; x02]; ISetDiscriminator 5; ISpecial 10; IEndSequence;
   ISetAddress 8192; ICopy; IEndSequence].
Definition vliw_header (be : bool) : header :=
  let h0 := mk_header false 4 4 0 0 4 3 true (-3) 12 10 [x00; x01; x01; x01; x01; x00; x00; x00; x01] [] [] [] [] [] in
  mk_header false 4 4 0 0 4 3 true (-3) 12 10 [x00; x01; x01; x01; x01; x00; x00; x00; x01] [] [] [] []
            (enc_prog be h0 vliw_program).
