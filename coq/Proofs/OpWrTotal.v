(* Proofs/OpWrTotal.v — C15 (6): Expression::size / Expression::write never panic on values of the Rust types,
   in either build mode, as long as branch targets exist, the unit-offset table covers the referenced entries
   and the expression is smaller than 2^63 bytes by a crude count. In particular the three debug_assert_eq!s of
   Expression::write cannot fire and no usize/i64 arithmetic overflows. *)
From Coq Require Import List NArith ZArith Bool Lia ZifyBool ZifyN ZifyNat.
From Coq.Strings Require Import Byte.
Require Import GV.Base.Res GV.Base.Byt GV.Base.Ints GV.Spec.LebSpec GV.Model.Leb GV.Model.Prim.
Require Import GV.Spec.OpEncSpec GV.Model.OpWr GV.Proofs.LebProofs GV.Proofs.OpWrProofs GV.Proofs.OpWrDec.
Import ListNotations.
Local Open Scope N_scope.
Ltac Zify.zify_post_hook ::= Z.div_mod_to_equations.

(* a crude upper bound of the encoded size: 300 per operation plus its blobs plus what it nests *)
Definition weights_with (w : wop -> N) : list wop -> N :=
  fix go (l : list wop) : N := match l with [] => 0 | x :: r => w x + go r end.

Fixpoint weight (o : wop) : N :=
  match o with
  | WoRaw b => blen b
  | WoConstType _ v => 300 + blen v
  | WoImplicitValue d => 300 + blen d
  | WoEntryValue ex => 300 + weights_with weight ex
  | _ => 300
  end.
Definition weights (l : list wop) : N := weights_with weight l.

(* every branch target names an operation of its own expression, or its end *)
Fixpoint tgt_ok (n : N) (o : wop) : bool :=
  match o with
  | WoSkip t => t <=? n
  | WoBranch t => t <=? n
  | WoEntryValue ex => forallb (tgt_ok (N.of_nat (length ex))) ex
  | _ => true
  end.
Definition targets_ok (ex : list wop) : bool := forallb (tgt_ok (N.of_nat (length ex))) ex.

(* entries whose unit offset is looked up *)
Fixpoint op_entries (o : wop) : list N :=
  match o with
  | WoEntryValue ex => flat_map op_entries ex
  | _ => match uses_entry o with Some en => [en] | None => [] end
  end.

Definition lookups_ok (dbg : bool) (uo : option uoffs) (ens : list N) : Prop :=
  forall en, In en ens -> entry_offset dbg uo en <> Panic.

(* ---- component facts ---- *)
Definition np {A} (r : res A) : Prop := r <> Panic /\ r <> OutOfFuel.

(* np is Lib.returns: the returns_* lemmas apply to it *)
Lemma np_uleb v : v < 2 ^ 64 -> np (write_uleb128 v).
Proof. intros H. destruct (write_uleb128_enc v H) as [-> _]. apply returns_ok. Qed.
Lemma np_sleb v : in_i64 v = true -> np (write_sleb128 v).
Proof. intros H. destruct (write_sleb128_enc v H) as [-> _]. apply returns_ok. Qed.
Lemma np_udata be v s : np (write_udata be v s).
Proof.
  unfold write_udata. repeat match goal with |- context [if ?c then _ else _] => destruct c end;
    first [apply returns_ok|apply returns_err].
Qed.
Lemma np_sdata be v s : np (write_sdata be v s).
Proof.
  unfold write_sdata. repeat match goal with |- context [if ?c then _ else _] => destruct c end;
    first [apply returns_ok|apply returns_err].
Qed.
Lemma np_address be a s : np (write_address be a s).
Proof. destruct a; cbn [write_address]; [apply np_udata|apply returns_err]. Qed.
Lemma np_ref be refs r s at_ : np (write_ref be refs r s at_).
Proof.
  unfold write_ref. destruct r; [apply returns_err|]. destruct refs; [|apply returns_err].
  apply returns_bind; [apply np_udata|intros; apply returns_ok].
Qed.
Lemma np_lit dbg k v : v < 32 -> k + 32 <= 256 -> np (chk_add 8 dbg k (wrap8 v)).
Proof. intros Hv Hk. rewrite wrap8_small, chk_add_ok by lia. apply returns_ok. Qed.

Lemma np_entry_offset dbg uo en : entry_offset dbg uo en <> Panic -> np (entry_offset dbg uo en).
Proof.
  intros H. split; [exact H|]. rewrite entry_offset_cases. destruct uo as [u|]; [|discriminate].
  destruct (nth_N (uo_entries u) en) as [off|]; [|discriminate].
  destruct (off =? 0); [discriminate|]. unfold chk_sub.
  destruct (uo_unit u <=? off); [discriminate|]. destruct dbg; discriminate.
Qed.

(* ---- sizes: total and bounded by the weight ---- *)
Definition size_good (r : res N) (w : N) : Prop :=
  (exists n, r = Ok n /\ n <= w) \/ (exists er, r = Err er).

Lemma size_good_np r w : size_good r w -> np r.
Proof. intros [[n [-> _]]|[er ->]]; [apply returns_ok|apply returns_err]. Qed.

Lemma base_size_good dbg uo en : entry_offset dbg uo en <> Panic -> size_good (base_size dbg uo en) 10.
Proof.
  intros H. destruct (entry_offset dbg uo en) as [off|er| |] eqn:E.
  - left. exists (uleb128_size off). split; [apply entry_offset_base_size; exact E|apply uleb128_size_le].
  - right. exists er. apply entry_offset_base_size_err. exact E.
  - congruence.
  - exfalso. destruct (np_entry_offset dbg uo en) as [_ X]; [rewrite E; discriminate|]. apply X. exact E.
Qed.

Lemma wf_enc_asize e : wf_enc e = true -> e_asize e < 256.
Proof. unfold wf_enc. intros H. apply andb_true_iff in H. destruct H as [_ H]. lia. Qed.

Lemma iptr_size_le e : wf_enc e = true -> iptr_size e < 256.
Proof.
  intros H. unfold iptr_size, word_size. pose proof (wf_enc_asize e H).
  destruct (e_version e =? 2); [assumption|]. destruct (e_fmt64 e); lia.
Qed.

(* every operand is at most 10 bytes (LEB128), the address size, or a blob counted by the weight *)
Lemma size_op_leaf_good dbg e uo o :
  (forall ex, o <> WoEntryValue ex) ->
  wf_enc e = true -> lookups_ok dbg uo (op_entries o) -> weight o < 2 ^ 63 ->
  size_good (size_op dbg e uo o) (weight o).
Proof.
  intros Hne He Hlk Hw.
  pose proof (wf_enc_asize e He) as Ha. pose proof (iptr_size_le e He) as Hi.
  assert (Hword : word_size (e_fmt64 e) <= 8) by (unfold word_size; destruct (e_fmt64 e); lia).
  destruct o; try (exfalso; eapply Hne; reflexivity); cbn [size_op weight] in *.
  all: try match goal with |- context [match ?b with Some _ => _ | None => _ end] => destruct b end.
  all: repeat match goal with
       | Hk : lookups_ok ?d ?u _ |- context [base_size ?d ?u ?b] =>
           let Hb := fresh "Hb" in
           assert (Hb : entry_offset d u b <> Panic) by (apply Hk; cbn; auto);
           destruct (base_size_good d u b Hb) as [[? [-> ?]]|[? ->]]; cbn [bind]
       end.
  all: try (right; eexists; reflexivity).
  all: repeat match goal with |- context [if ?c then _ else _] => destruct c end.
  all: cbn [bind].
  all: repeat match goal with
       | |- context [uleb128_size ?v] => pose proof (uleb128_size_le v); generalize dependent (uleb128_size v); intros
       | |- context [sleb128_size ?v] => pose proof (sleb128_size_le v); generalize dependent (sleb128_size v); intros
       end.
  all: repeat (rewrite uadd_ok by lia; cbn [bind]).
  all: try (left; eexists; split; [reflexivity|lia]).
Qed.

Lemma weights_cons o r : weights (o :: r) = weight o + weights r.
Proof. reflexivity. Qed.
Lemma weights_nil : weights [] = 0.
Proof. reflexivity. Qed.

Lemma sum_sizes_good dbg szf : forall ex acc,
  Forall (fun o => size_good (szf o) (weight o)) ex ->
  acc + weights ex < 2 ^ 63 ->
  size_good (sum_sizes dbg szf acc ex) (acc + weights ex).
Proof.
  induction ex as [|o r IH]; intros acc HF Hb.
  - left. exists acc. rewrite sum_sizes_nil, weights_nil. split; [reflexivity|lia].
  - rewrite weights_cons in Hb. inversion HF as [|? ? Ho Hr]; subst.
    rewrite sum_sizes_cons.
    destruct Ho as [[n [-> Hn]]|[er ->]]; cbn [bind]; [|right; eexists; reflexivity].
    rewrite uadd_ok by lia. cbn [bind].
    destruct (IH (acc + n) Hr) as [[m [-> Hm]]|[er ->]]; [lia| |right; eexists; reflexivity].
    left. exists m. split; [reflexivity|]. rewrite weights_cons. lia.
Qed.

Lemma lookups_ok_in dbg uo ex o : lookups_ok dbg uo (flat_map op_entries ex) -> In o ex -> lookups_ok dbg uo (op_entries o).
Proof. intros H Hin en Hen. apply H. apply in_flat_map. exists o. auto. Qed.

Lemma weights_in : forall ex o, In o ex -> weight o <= weights ex.
Proof.
  induction ex as [|x r IH]; intros o Hin; [destruct Hin|].
  destruct Hin as [->|Hin]; rewrite weights_cons; [lia|]. specialize (IH o Hin). lia.
Qed.

(* the hypotheses about an expression hold of each of its operations *)
Lemma each_op dbg uo (P : wop -> Prop) ex :
  lookups_ok dbg uo (flat_map op_entries ex) -> weights ex < 2 ^ 63 ->
  Forall (fun o => lookups_ok dbg uo (op_entries o) -> weight o < 2 ^ 63 -> P o) ex -> Forall P ex.
Proof.
  intros Hlk Hw HF. rewrite Forall_forall in *. intros o Hin.
  apply HF; [exact Hin|eapply lookups_ok_in; eauto|]. pose proof (weights_in ex o Hin). lia.
Qed.

Lemma size_op_good dbg e uo : wf_enc e = true -> forall o,
  lookups_ok dbg uo (op_entries o) -> weight o < 2 ^ 63 -> size_good (size_op dbg e uo o) (weight o).
Proof.
  intros He. induction o as [o Hleaf|ex IH] using wop_nested_ind; intros Hlk Hw.
  - apply size_op_leaf_good; assumption.
  - cbn [weight] in Hw |- *. fold (weights ex) in Hw |- *. cbn [op_entries] in Hlk. cbn [size_op].
    destruct (sum_sizes_good dbg (size_op dbg e uo) ex 0) as [[n [-> Hle]]|[er ->]];
      [apply (each_op dbg uo); [exact Hlk|lia|exact IH]|lia| |right; eexists; reflexivity].
    cbn [bind]. pose proof (uleb128_size_le n).
    rewrite uadd_ok by lia. cbn [bind]. rewrite uadd_ok by lia.
    left. eexists. split; [reflexivity|lia].
Qed.

Lemma size_ops_good dbg e uo ex :
  wf_enc e = true -> lookups_ok dbg uo (flat_map op_entries ex) -> weights ex < 2 ^ 63 ->
  Forall (fun o => size_good (size_op dbg e uo o) (weight o)) ex.
Proof.
  intros He Hlk Hw. apply (each_op dbg uo); [exact Hlk|exact Hw|].
  apply Forall_forall. intros o _. apply size_op_good. exact He.
Qed.

Lemma size_expr_good dbg e uo ex :
  wf_enc e = true -> lookups_ok dbg uo (flat_map op_entries ex) -> weights ex < 2 ^ 63 ->
  size_good (size_expr dbg e uo ex) (weights ex).
Proof.
  intros He Hlk Hw. apply (sum_sizes_good dbg (size_op dbg e uo) ex 0); [apply size_ops_good; assumption|lia].
Qed.

(* ---- writing ---- *)
Lemma nth_N_some {A} : forall (l : list A) n, n < N.of_nat (length l) -> exists x, nth_N l n = Some x.
Proof.
  induction l as [|x r IH]; intros n Hn; cbn [length] in Hn; [lia|]. cbn [nth_N].
  destruct (n =? 0) eqn:E; [eexists; reflexivity|]. apply IH. lia.
Qed.

Lemma np_branch dbg be offsets t after :
  after + 2 < 2 ^ 63 -> Forall (fun x => x < 2 ^ 63) offsets -> t < N.of_nat (length offsets) ->
  np (branch_operand dbg be offsets t after).
Proof.
  intros Ha Ho Ht. rewrite branch_operand_spec;
    [|exact Ha|intros tv Htv; apply nth_N_In in Htv; rewrite Forall_forall in Ho; apply Ho; exact Htv].
  destruct (nth_N_some offsets t Ht) as [tv ->]. cbv zeta.
  destruct (in_signed 16 (Z.of_N tv - (Z.of_N after + 2))); [apply returns_ok|apply returns_err].
Qed.

(* np of a composite from np of its parts; the primitive writers by their own lemmas *)
Ltac np_step :=
  match goal with
  | |- returns (Ok _) => apply returns_ok
  | |- returns (Err _) => apply returns_err
  | |- returns (write_udata _ _ _) => apply np_udata
  | |- returns (write_sdata _ _ _) => apply np_sdata
  | |- returns (write_address _ _ _) => apply np_address
  | |- returns (write_ref _ _ _ _ _) => apply np_ref
  | |- returns (write_sleb128 _) => apply np_sleb; assumption
  | |- returns (chk_add 8 _ _ (wrap8 _)) => apply np_lit; lia
  | |- returns (bind _ _) => apply returns_bind; [|intros ? ?]
  | |- returns (let '(_, _) := ?a in _) => destruct a
  | |- returns (match ?b with Some _ => _ | None => _ end) => destruct b
  | Hk : lookups_ok _ _ _ |- returns (entry_offset _ _ _) => apply np_entry_offset; apply Hk; cbn; auto
  | Hu : wf_uoffs _ = true, Hx : entry_offset _ _ _ = Ok ?a |- returns (write_uleb128 ?a) =>
      apply np_uleb; eapply entry_offset_lt; [exact Hu|exact Hx]
  | Hi : (?i <? two32) = true |- returns (write_uleb128 ?i) =>
      apply np_uleb; apply N.ltb_lt in Hi; eapply N.lt_trans; [exact Hi|reflexivity]
  | |- returns (write_uleb128 _) => apply np_uleb; lia
  | |- returns (branch_operand _ _ _ _ _) => apply np_branch; [lia|assumption|lia]
  end.

(* Operands are values of the Rust types, so the LEB128 writers stay within their ten bytes and the opcode
   arithmetic of lit/reg/breg stays below 256; looked-up entries are in the table; branch targets index the
   offsets vector and all positions are below 2^63, so the i64 displacement arithmetic does not overflow. *)
Lemma write_op_leaf_np dbg e uo refs offsets pos o :
  (forall ex, o <> WoEntryValue ex) ->
  wf_uoffs uo = true -> wf_op o = true ->
  tgt_ok (N.of_nat (length offsets) - 1) o = true -> (1 <= length offsets)%nat ->
  lookups_ok dbg uo (op_entries o) ->
  pos + weight o < 2 ^ 63 -> Forall (fun x => x < 2 ^ 63) offsets ->
  np (write_op dbg e uo refs offsets pos o).
Proof.
  intros Hne Huo Hwf Htg Hlen Hlk Hw Hoffs.
  destruct o; try (exfalso; eapply Hne; reflexivity);
    cbn [write_op wf_op tgt_ok weight op_entries uses_entry] in *; unfold only.
  all: repeat match goal with H : _ && _ = true |- _ => apply andb_true_iff in H; destruct H end.
  all: repeat match goal with H : is_u64 _ = true |- _ => apply is_u64_lt in H end.
  all: repeat match goal with |- context [if ?c then _ else _] => destruct c eqn:? end.
  all: change @np with @returns; repeat np_step.
Qed.

(* ---- emitted length is bounded by the weight ---- *)
Lemma write_loop_len_le dbg (wr : N -> wop -> wres) : forall ex pos offs bs fx,
  Forall (fun o => forall pos b f, wr pos o = Ok (b, f) -> blen b <= weight o) ex ->
  write_loop dbg wr pos ex offs = Ok (bs, fx) -> blen bs <= weights ex.
Proof.
  induction ex as [|o r IH]; intros pos offs bs fx HF H.
  - rewrite write_loop_nil in H. inversion H; subst. rewrite blen_nil. lia.
  - rewrite write_loop_cons in H. destruct offs as [|off offs']; [discriminate|].
    destruct (dbg && negb (pos =? off)); [discriminate|].
    apply bind_ok in H. destruct H as [[b1 f1] [H1 H]].
    apply bind_ok in H. destruct H as [[b2 f2] [H2 H]]. inversion H; subst. clear H.
    inversion HF as [|? ? Ho Hr]; subst.
    rewrite blen_app, weights_cons. specialize (Ho _ _ _ H1). specialize (IH _ _ _ _ Hr H2). lia.
Qed.

Lemma write_op_leaf_len_le dbg e uo refs offsets pos o b f :
  (forall ex, o <> WoEntryValue ex) -> wf_enc e = true ->
  write_op dbg e uo refs offsets pos o = Ok (b, f) -> blen b <= weight o.
Proof.
  intros Hne He H.
  pose proof (wf_enc_asize e He) as Ha. pose proof (iptr_size_le e He) as Hi.
  assert (Hword : word_size (e_fmt64 e) <= 8) by (unfold word_size; destruct (e_fmt64 e); lia).
  destruct o; try (exfalso; eapply Hne; reflexivity); cbn [write_op weight] in *.
  all: inv_all.
  all: len_facts.
  all: rewrite ?blen_cons, ?blen_app, ?blen_cons, ?blen_app, ?blen_cons, ?blen_nil in *.
  all: repeat match goal with
       | Hx : _ = uleb128_size ?v |- _ => pose proof (uleb128_size_le v); rewrite <- Hx in *; clear Hx
       | Hx : _ = sleb128_size ?v |- _ => pose proof (sleb128_size_le v); rewrite <- Hx in *; clear Hx
       end.
  all: try lia.
Qed.

Lemma write_op_len_le dbg e uo refs : wf_enc e = true -> forall o offsets pos b f,
  write_op dbg e uo refs offsets pos o = Ok (b, f) -> blen b <= weight o.
Proof.
  intros He. induction o as [o Hleaf|ex IH] using wop_nested_ind; intros offsets pos b f H.
  - eapply write_op_leaf_len_le; eauto.
  - cbn [write_op] in H.
    apply bind_ok in H. destruct H as [len [Hlen H]].
    apply bind_ok in H. destruct H as [lb [Hlb H]].
    apply bind_ok in H. destruct H as [[inner fi] [Hw H]]. inversion H; subst. clear H.
    unfold write_expr_with in Hw.
    apply bind_ok in Hw. destruct Hw as [[offs fin] [_ Hw]].
    apply bind_ok in Hw. destruct Hw as [[b2 f2] [Hl Hw]].
    destruct (dbg && negb (pos + 1 + blen lb + blen b2 =? fin)); [discriminate|]. inversion Hw; subst. clear Hw.
    assert (Hin : blen inner <= weights ex).
    { eapply write_loop_len_le; [|exact Hl]. eapply Forall_impl; [|exact IH].
      intros o Ho p b1 f1 H1. eapply Ho; eauto. }
    apply write_uleb128_len in Hlb. pose proof (uleb128_size_le len).
    cbn [weight]. fold (weights ex). rewrite blen_cons, blen_app. lia.
Qed.

(* ---- Expression::write: offsets fit, the debug assertions hold, nothing panics ---- *)
Lemma calc_offsets_good dbg szf : forall ex pos,
  Forall (fun o => size_good (szf o) (weight o)) ex ->
  pos + weights ex < 2 ^ 63 ->
  match calc_offsets dbg szf pos ex with
  | Ok (offs, fin) =>
      length offs = length ex /\ Forall (fun x => x < 2 ^ 63) offs /\ fin <= pos + weights ex
  | Err _ => True
  | _ => False
  end.
Proof.
  induction ex as [|o r IH]; intros pos HF Hb.
  - rewrite calc_offsets_nil, weights_nil. repeat split; [constructor|lia].
  - rewrite weights_cons in Hb. inversion HF as [|? ? Ho Hr]; subst.
    rewrite calc_offsets_cons.
    destruct Ho as [[n [-> Hn]]|[er ->]]; cbn [bind]; [|exact I].
    rewrite uadd_ok by lia. cbn [bind].
    specialize (IH (pos + n) Hr). destruct (calc_offsets dbg szf (pos + n) r) as [[t fin]|er| |]; cbn [bind].
    + destruct IH as [L [F E]]; [lia|]. cbn [length]. rewrite weights_cons.
      repeat split; [lia|constructor; [lia|exact F]|lia].
    + exact I.
    + apply IH. lia.
    + apply IH. lia.
Qed.

Lemma write_loop_np dbg (wr : N -> wop -> wres) (szf : wop -> res N) : forall ex pos offs fin rest,
  calc_offsets dbg szf pos ex = Ok (offs, fin) ->
  Forall (fun o => forall p, p + weight o < 2 ^ 63 -> np (wr p o)) ex ->
  Forall (fun o => forall p b f, wr p o = Ok (b, f) ->
                   blen b <= weight o /\ (blen b < 2 ^ 64 -> szf o = Ok (blen b))) ex ->
  pos + weights ex < 2 ^ 63 ->
  np (write_loop dbg wr pos ex (offs ++ rest)) /\
  (forall bs fx, write_loop dbg wr pos ex (offs ++ rest) = Ok (bs, fx) -> pos + blen bs = fin).
Proof.
  induction ex as [|o r IH]; intros pos offs fin rest Hc Hnp Hsz Hb.
  - rewrite calc_offsets_nil in Hc. inversion Hc; subst. rewrite write_loop_nil.
    split; [apply returns_ok|]. intros bs fx H. inversion H; subst. rewrite blen_nil. lia.
  - rewrite weights_cons in Hb.
    inversion Hnp as [|? ? Hno Hnr]; subst. inversion Hsz as [|? ? Hso Hsr]; subst.
    rewrite calc_offsets_cons in Hc.
    apply bind_ok in Hc. destruct Hc as [s [Hs Hc]].
    apply bind_ok in Hc. destruct Hc as [off' [Hoff Hc]].
    apply bind_ok in Hc. destruct Hc as [[t fin'] [Ht Hc]]. inversion Hc; subst. clear Hc.
    cbn [app]. rewrite write_loop_cons. rewrite N.eqb_refl. cbn [negb]. rewrite andb_false_r.
    assert (Hstep : forall b f, wr pos o = Ok (b, f) -> off' = pos + blen b /\ blen b <= weight o).
    { intros b f Hw. destruct (Hso _ _ _ Hw) as [Hle Heq].
      rewrite Heq in Hs by lia.
      inversion Hs; subst s. rewrite uadd_ok in Hoff by lia. inversion Hoff. split; [reflexivity|exact Hle]. }
    split.
    + apply returns_bind; [apply Hno; lia|]. intros [b f] Hw. destruct (Hstep _ _ Hw) as [-> Hle].
      destruct (IH (pos + blen b) t fin rest Ht Hnr Hsr) as [Hn _]; [lia|].
      apply returns_bind; [exact Hn|]. intros [b2 f2] _. apply returns_ok.
    + intros bs fx H.
      apply bind_ok in H. destruct H as [[b f] [Hw H]]. destruct (Hstep _ _ Hw) as [-> Hle].
      apply bind_ok in H. destruct H as [[b2 f2] [H2 H]]. inversion H; subst. clear H.
      destruct (IH (pos + blen b) t fin rest Ht Hnr Hsr) as [_ He]; [lia|].
      rewrite blen_app. rewrite <- (He _ _ H2). lia.
Qed.

Lemma targets_len_eq (offs : list N) (fin : N) (ex : list wop) :
  length offs = length ex -> N.of_nat (length (offs ++ [fin])) - 1 = N.of_nat (length ex).
Proof. intros H. rewrite app_length. cbn [length]. lia. Qed.

Definition op_np_stmt dbg e uo refs (o : wop) : Prop :=
  forall offsets pos,
  wf_op o = true -> tgt_ok (N.of_nat (length offsets) - 1) o = true -> (1 <= length offsets)%nat ->
  lookups_ok dbg uo (op_entries o) -> pos + weight o < 2 ^ 63 -> Forall (fun x => x < 2 ^ 63) offsets ->
  np (write_op dbg e uo refs offsets pos o).

Lemma write_expr_with_np dbg e uo refs ex base :
  wf_enc e = true ->
  Forall (op_np_stmt dbg e uo refs) ex ->
  forallb wf_op ex = true -> targets_ok ex = true -> lookups_ok dbg uo (flat_map op_entries ex) ->
  base + weights ex < 2 ^ 63 ->
  np (write_expr_with (write_op dbg e uo refs) (size_op dbg e uo) dbg base ex).
Proof.
  intros He HF Hwf Htg Hlk Hb. unfold write_expr_with.
  assert (Hsg : Forall (fun o => size_good (size_op dbg e uo o) (weight o)) ex) by (apply size_ops_good; [assumption..|lia]).
  pose proof (calc_offsets_good dbg (size_op dbg e uo) ex base Hsg Hb) as Hc.
  destruct (calc_offsets dbg (size_op dbg e uo) base ex) as [[offs fin]|er| |] eqn:Ec; cbn [bind];
    [|apply returns_err|destruct Hc|destruct Hc].
  destruct Hc as [Hlen [Hoffs Hfin]].
  assert (Hall : Forall (fun x => x < 2 ^ 63) (offs ++ [fin])).
  { apply Forall_app. split; [exact Hoffs|]. constructor; [lia|constructor]. }
  destruct (write_loop_np dbg (write_op dbg e uo refs (offs ++ [fin])) (size_op dbg e uo) ex base offs fin [fin] Ec)
    as [Hn Hend].
  - rewrite Forall_forall in HF. apply Forall_forall. intros o Hin p Hp.
    rewrite forallb_forall in Hwf. unfold targets_ok in Htg. rewrite forallb_forall in Htg.
    apply (HF o Hin).
    + apply Hwf; exact Hin.
    + rewrite (targets_len_eq _ _ _ Hlen). apply Htg; exact Hin.
    + rewrite app_length. cbn [length]. lia.
    + eapply lookups_ok_in; eauto.
    + exact Hp.
    + exact Hall.
  - apply Forall_forall. intros o Hin p b f Hw. split.
    + eapply write_op_len_le; eauto.
    + intros Hlt. eapply op_size_write_all; eauto.
  - exact Hb.
  - apply returns_bind; [exact Hn|]. intros [bs fx] Hw. rewrite (Hend _ _ Hw). rewrite N.eqb_refl.
    cbn [negb]. rewrite andb_false_r. apply returns_ok.
Qed.

Theorem write_op_np dbg e uo refs :
  wf_enc e = true -> wf_uoffs uo = true -> forall o, op_np_stmt dbg e uo refs o.
Proof.
  intros He Huo. induction o as [o Hleaf|ex IH] using wop_nested_ind; unfold op_np_stmt;
    intros offsets pos Hwf Htg Hlen Hlk Hw Hoffs.
  - apply write_op_leaf_np; assumption.
  - cbn [write_op wf_op tgt_ok op_entries weight] in *. fold (weights ex) in Hw.
    assert (Hsg : Forall (fun o => size_good (size_op dbg e uo o) (weight o)) ex) by (apply size_ops_good; [assumption..|lia]).
    destruct (sum_sizes_good dbg (size_op dbg e uo) ex 0 Hsg) as [[n [Hn Hle]]|[er Her]]; [lia| |].
    + rewrite Hn. cbn [bind].
      apply returns_bind; [apply np_uleb; lia|].
      intros lb Hlb. apply write_uleb128_len in Hlb. pose proof (uleb128_size_le n).
      apply returns_bind; [|intros [bs fx] _; apply returns_ok].
      apply write_expr_with_np; try assumption. lia.
    + rewrite Her. cbn [bind]. apply returns_err.
Qed.

(* a sufficient, checkable condition for lookups_ok *)
Lemma lookups_ok_table dbg uo ens :
  match uo with
  | None => True
  | Some u => forall en, In en ens -> exists off, nth_N (uo_entries u) en = Some off /\ (off = 0 \/ uo_unit u <= off)
  end -> lookups_ok dbg uo ens.
Proof.
  intros H en Hin. rewrite entry_offset_cases. destruct uo as [u|]; [|discriminate].
  destruct (H en Hin) as [off [-> Hoff]]. destruct (off =? 0) eqn:E; [discriminate|].
  unfold chk_sub. destruct (uo_unit u <=? off) eqn:E2; [discriminate|]. lia.
Qed.

(* ---- sizes do not change when more entries of the unit get their offsets (calculate_offsets sees a prefix of
        the table Operation::write sees) ---- *)
Definition extends (u1 u2 : uoffs) : Prop :=
  uo_unit u1 = uo_unit u2 /\
  forall en off, nth_N (uo_entries u1) en = Some off -> off <> 0 -> nth_N (uo_entries u2) en = Some off.

Lemma base_size_mono dbg u1 u2 en n :
  extends u1 u2 -> base_size dbg (Some u1) en = Ok n -> base_size dbg (Some u2) en = Ok n.
Proof.
  intros [Hu He] H. unfold base_size, unit_offset, debug_info_offset in *.
  destruct (nth_N (uo_entries u1) en) as [off|] eqn:E1; [|discriminate].
  destruct (off =? 0) eqn:E0; [discriminate|].
  rewrite (He en off E1) by lia. rewrite E0. rewrite <- Hu. exact H.
Qed.

Lemma sum_sizes_mono dbg (f g : wop -> res N) : forall ex acc n,
  Forall (fun o => forall m, f o = Ok m -> g o = Ok m) ex ->
  sum_sizes dbg f acc ex = Ok n -> sum_sizes dbg g acc ex = Ok n.
Proof.
  induction ex as [|o r IH]; intros acc n HF H; [exact H|].
  rewrite sum_sizes_cons in *. inversion HF as [|? ? Ho Hr]; subst.
  apply bind_ok in H. destruct H as [s [Hs H]]. rewrite (Ho _ Hs). cbn [bind].
  apply bind_ok in H. destruct H as [a [Ha H]]. rewrite Ha. cbn [bind]. eapply IH; eauto.
Qed.

Theorem size_op_mono dbg e u1 u2 : extends u1 u2 -> forall o n,
  size_op dbg e (Some u1) o = Ok n -> size_op dbg e (Some u2) o = Ok n.
Proof.
  intros Hx. induction o as [o Hleaf|ex IH] using wop_nested_ind; intros n H.
  - destruct o; try (exfalso; eapply Hleaf; reflexivity); cbn [size_op] in *; try exact H.
    all: try match type of H with context [match ?b with Some _ => _ | None => _ end] => destruct b; [|exact H] end.
    all: apply bind_ok in H; destruct H as [m [Hm H]].
    all: repeat match type of Hm with
         | bind (base_size _ _ _) _ = Ok _ =>
             let b := fresh "b" in let Hb := fresh "Hb" in
             apply bind_ok in Hm; destruct Hm as [b [Hb Hm]];
             rewrite (base_size_mono _ _ _ _ _ Hx Hb); cbn [bind]
         | base_size _ _ _ = Ok _ => rewrite (base_size_mono _ _ _ _ _ Hx Hm); cbn [bind]
         end.
    all: try (rewrite Hm; cbn [bind]); exact H.
  - cbn [size_op] in *. apply bind_ok in H. destruct H as [m [Hm H]].
    apply bind_ok in Hm. destruct Hm as [len [Hlen Hm]].
    rewrite (sum_sizes_mono dbg (size_op dbg e (Some u1)) (size_op dbg e (Some u2)) ex 0 len IH Hlen).
    cbn [bind]. rewrite Hm. cbn [bind]. exact H.
Qed.

Theorem size_expr_mono dbg e u1 u2 ex n :
  extends u1 u2 -> size_expr dbg e (Some u1) ex = Ok n -> size_expr dbg e (Some u2) ex = Ok n.
Proof.
  intros Hx H. unfold size_expr in *. eapply sum_sizes_mono; [|exact H].
  apply Forall_forall. intros o _ m. apply size_op_mono. exact Hx.
Qed.
