(* Relocation is transparent (C18): the writer half by an invariant relating the recording writer's state to the
   directly written bytes, the reader half by a simulation between RelocateReader on the raw section and the
   plain reader on the section with the relocations applied. *)
From Coq Require Import List NArith ZArith Bool Lia ZifyBool ZifyN ZifyNat.
From Coq.Strings Require Import Byte.
Require Import GV.Base.Res GV.Base.Byt GV.Base.Ints GV.Spec.LebSpec GV.Spec.PrimSpec GV.Model.Leb GV.Model.Prim GV.Model.Reloc.
Require Import GV.Proofs.LebProofs GV.Proofs.PrimProofs.
Import ListNotations.
Local Open Scope N_scope.


Lemma list_ext {A} : forall (a b : list A), (forall i, nth_error a i = nth_error b i) -> a = b.
Proof.
  induction a as [|x a IH]; intros [|y b] H; auto.
  - specialize (H O); discriminate.
  - specialize (H O); discriminate.
  - f_equal.
    + specialize (H O); cbn in H; congruence.
    + apply IH; intros i; exact (H (S i)).
Qed.

Lemma nth_error_firstn {A} (l : list A) n i :
  nth_error (firstn n l) i = if (i <? n)%nat then nth_error l i else None.
Proof.
  revert n i; induction l as [|x l IH]; intros n i.
  - rewrite firstn_nil. destruct i; cbn [nth_error]; destruct (Nat.ltb _ n); reflexivity.
  - destruct n as [|n].
    + cbn. destruct i; reflexivity.
    + destruct i as [|i]; cbn [firstn nth_error].
      * reflexivity.
      * rewrite IH. change (S i <? S n)%nat with (i <? n)%nat. reflexivity.
Qed.

Lemma nth_error_skipn_add {A} (l : list A) n i : nth_error (skipn n l) i = nth_error l (n + i)%nat.
Proof.
  revert l; induction n as [|n IH]; intros l; cbn; auto.
  destruct l; cbn; auto. destruct i; auto.
Qed.

Lemma nth_error_ge {A} (l : list A) i : (length l <= i)%nat -> nth_error l i = None.
Proof. apply nth_error_None. Qed.

Lemma nth_error_app {A} (a b : list A) i :
  nth_error (a ++ b) i = if (i <? length a)%nat then nth_error a i else nth_error b (i - length a)%nat.
Proof.
  destruct (Nat.ltb_spec i (length a)).
  - now apply nth_error_app1.
  - now apply nth_error_app2.
Qed.

Lemma nth_error_patch (pos : nat) (new bs : list byte) i :
  (pos + length new <= length bs)%nat ->
  nth_error (patch pos new bs) i =
  if ((pos <=? i) && (i <? pos + length new))%nat then nth_error new (i - pos)%nat else nth_error bs i.
Proof.
  intros Hb. unfold patch.
  rewrite nth_error_app, firstn_length, Nat.min_l by lia.
  destruct (Nat.ltb_spec i pos) as [Hi|Hi].
  - rewrite nth_error_firstn.
    destruct (Nat.ltb_spec i pos); try lia.
    destruct (Nat.leb_spec pos i); try lia. reflexivity.
  - rewrite nth_error_app.
    destruct (Nat.leb_spec pos i); try lia. cbn [andb].
    destruct (Nat.ltb_spec (i - pos) (length new)), (Nat.ltb_spec i (pos + length new)); try lia; auto.
    rewrite nth_error_skipn_add. f_equal. lia.
Qed.

Lemma patch_length pos new bs :
  (pos + length new <= length bs)%nat -> length (patch pos new bs) = length bs.
Proof.
  intros H. unfold patch. rewrite !app_length, firstn_length, skipn_length. lia.
Qed.

Lemma patch_app_l pos new a b :
  (pos + length new <= length a)%nat -> patch pos new (a ++ b) = patch pos new a ++ b.
Proof.
  intros H. apply list_ext; intros i.
  rewrite nth_error_patch by (rewrite app_length; lia).
  rewrite !nth_error_app, patch_length by lia.
  rewrite nth_error_patch by lia.
  destruct (Nat.leb_spec pos i), (Nat.ltb_spec i (pos + length new)), (Nat.ltb_spec i (length a)); cbn [andb]; auto; lia.
Qed.

Lemma patch_end a new old :
  length old = length new -> patch (length a) new (a ++ old) = a ++ new.
Proof.
  intros H. unfold patch.
  rewrite firstn_app, Nat.sub_diag, firstn_all, firstn_O, app_nil_r.
  rewrite skipn_app, skipn_all2 by lia.
  replace (length a + length new - length a)%nat with (length old) by lia.
  now rewrite skipn_all, !app_nil_r.
Qed.

Lemma patch_patch_same pos n1 n2 bs :
  length n1 = length n2 -> (pos + length n1 <= length bs)%nat ->
  patch pos n2 (patch pos n1 bs) = patch pos n2 bs.
Proof.
  intros Hl Hb. apply list_ext; intros i.
  rewrite nth_error_patch by (rewrite patch_length; lia).
  rewrite (nth_error_patch pos n2 bs) by lia.
  destruct ((pos <=? i) && (i <? pos + length n2))%nat eqn:E; auto.
  rewrite nth_error_patch by lia.
  rewrite Hl, E. reflexivity.
Qed.

Lemma patch_comm p1 n1 p2 n2 bs :
  (p1 + length n1 <= length bs)%nat -> (p2 + length n2 <= length bs)%nat ->
  (p1 + length n1 <= p2 \/ p2 + length n2 <= p1)%nat ->
  patch p1 n1 (patch p2 n2 bs) = patch p2 n2 (patch p1 n1 bs).
Proof.
  intros H1 H2 Hd. apply list_ext; intros i.
  rewrite !nth_error_patch by (rewrite ?patch_length; lia).
  destruct (Nat.leb_spec p1 i), (Nat.ltb_spec i (p1 + length n1)),
           (Nat.leb_spec p2 i), (Nat.ltb_spec i (p2 + length n2)); cbn [andb]; auto; lia.
Qed.

Lemma le_bytes_mod n v : le_bytes n (v mod 2 ^ (8 * N.of_nat n)) = le_bytes n v.
Proof.
  rewrite <- p256_pow2, <- le_val_le_bytes. rewrite <- (le_bytes_length n v) at 1. apply le_bytes_le_val.
Qed.

Lemma enc_un_mod n be v : enc_un n be (v mod 2 ^ (8 * N.of_nat n)) = enc_un n be v.
Proof. unfold enc_un, be_bytes. now rewrite le_bytes_mod. Qed.

Lemma write_udata_len be v size e : write_udata be v size = Ok e -> blen e = size.
Proof.
  intros H. apply write_udata_inv in H as [_ ->]. unfold blen. rewrite enc_un_length. lia.
Qed.

Lemma to_i64_cong v : exists q, to_i64 v = (Z.of_N v + q * 2 ^ 64)%Z.
Proof.
  unfold to_i64, to_signed, wrapN. pose proof (N.div_mod v (2 ^ 64) ltac:(discriminate)) as E.
  apply (f_equal Z.of_N) in E. rewrite N2Z.inj_add, N2Z.inj_mul in E.
  change (Z.of_N (2 ^ 64)) with (2 ^ 64)%Z in *.
  destruct (_ <? _); [exists (- Z.of_N (v / 2 ^ 64))%Z | exists (- Z.of_N (v / 2 ^ 64) - 1)%Z]; rewrite E; ring.
Qed.

(* the low k bits of a u64 survive the cast to i64 and back *)
Lemma of_to_i64_low v k : k <= 64 -> of_signed k (to_i64 v) = v mod 2 ^ k.
Proof.
  intros Hk. destruct (to_i64_cong v) as [q ->]. unfold of_signed.
  replace 64%Z with (Z.of_N (64 - k) + Z.of_N k)%Z by lia.
  rewrite N2Z.inj_pow, Z.pow_add_r, Z.mul_assoc, Z_mod_plus_full by lia.
  change 2%Z with (Z.of_N 2). rewrite <- N2Z.inj_pow, <- N2Z.inj_mod, N2Z.id. reflexivity.
Qed.

(* write_sdata of the cast to i64 writes the low bytes of the u64 *)
Lemma write_sdata_i64_ok be v size e :
  write_sdata be (to_i64 v) size = Ok e -> e = enc_un (N.to_nat size) be v.
Proof.
  intros H. apply write_sdata_inv in H as [Hs ->]. apply size_ok_cases in Hs.
  rewrite of_to_i64_low by lia. rewrite <- (N2Nat.id size) at 2. apply enc_un_mod.
Qed.

Definition site_in (b : list byte) (r : reloc) : Prop := r_off r + r_size r <= blen b.

Lemma apply_reloc_length env be r b : length (apply_reloc env be r b) = length b.
Proof.
  unfold apply_reloc. destruct (N.ltb_spec (blen b) (r_off r + r_size r)); auto.
  apply patch_length. rewrite enc_un_length. unfold blen in *. lia.
Qed.

Lemma apply_relocs_length env be rs : forall b, length (apply_relocs env be rs b) = length b.
Proof.
  unfold apply_relocs. induction rs as [|r rs IH]; intros b; cbn [fold_left]; auto.
  rewrite IH. apply apply_reloc_length.
Qed.

Lemma blen_apply_relocs env be rs b : blen (apply_relocs env be rs b) = blen b.
Proof. unfold blen. now rewrite apply_relocs_length. Qed.

Lemma apply_relocs_snoc env be rs r b :
  apply_relocs env be (rs ++ [r]) b = apply_reloc env be r (apply_relocs env be rs b).
Proof. unfold apply_relocs. now rewrite fold_left_app. Qed.

Lemma apply_reloc_app env be r b x :
  site_in b r -> apply_reloc env be r (b ++ x) = apply_reloc env be r b ++ x.
Proof.
  unfold site_in, apply_reloc, blen. intros H. rewrite app_length.
  destruct (N.ltb_spec (N.of_nat (length b + length x)) (r_off r + r_size r)); try lia.
  destruct (N.ltb_spec (N.of_nat (length b)) (r_off r + r_size r)); try lia.
  apply patch_app_l. rewrite enc_un_length. lia.
Qed.

Lemma site_in_len b b' r : length b = length b' -> site_in b r -> site_in b' r.
Proof. unfold site_in, blen. intros ->. auto. Qed.

Lemma apply_relocs_app env be rs : forall b x,
  Forall (site_in b) rs -> apply_relocs env be rs (b ++ x) = apply_relocs env be rs b ++ x.
Proof.
  unfold apply_relocs. induction rs as [|r rs IH]; intros b x H; cbn [fold_left]; auto.
  inversion H as [|? ? Hr Hrs]; subst.
  rewrite apply_reloc_app by exact Hr.
  apply IH. eapply Forall_impl; [|exact Hrs].
  intros r'. apply site_in_len. now rewrite apply_reloc_length.
Qed.

Definition site_away (pos n : N) (r : reloc) : Prop :=
  r_off r + r_size r <= pos \/ pos + n <= r_off r.

Lemma apply_reloc_patch env be r pos new b :
  pos + blen new <= blen b -> site_away pos (blen new) r ->
  apply_reloc env be r (patch (N.to_nat pos) new b) = patch (N.to_nat pos) new (apply_reloc env be r b).
Proof.
  unfold site_away, apply_reloc, blen. intros Hb Hd.
  rewrite patch_length by lia.
  destruct (N.ltb_spec (N.of_nat (length b)) (r_off r + r_size r)); auto.
  apply patch_comm; rewrite ?enc_un_length; lia.
Qed.

Lemma apply_relocs_patch env be rs pos new : forall b,
  pos + blen new <= blen b -> Forall (site_away pos (blen new)) rs ->
  apply_relocs env be rs (patch (N.to_nat pos) new b) = patch (N.to_nat pos) new (apply_relocs env be rs b).
Proof.
  unfold apply_relocs. induction rs as [|r rs IH]; intros b Hb H; cbn [fold_left]; auto.
  inversion H as [|? ? Hr Hrs]; subst.
  rewrite apply_reloc_patch by auto.
  apply IH; auto. unfold blen in *. now rewrite apply_reloc_length.
Qed.

(* a fresh relocation over a placeholder of the right width yields the encoded value *)
Lemma apply_reloc_end env be r a old :
  r_off r = blen a -> blen old = r_size r ->
  apply_reloc env be r (a ++ old) = a ++ enc_un (N.to_nat (r_size r)) be (reloc_value env r).
Proof.
  intros Ho Hl. unfold apply_reloc, blen in *. rewrite app_length.
  destruct (N.ltb_spec (N.of_nat (length a + length old)) (r_off r + r_size r)); try lia.
  rewrite Ho. rewrite Nat2N.id. apply patch_end. rewrite enc_un_length. lia.
Qed.

Lemma apply_reloc_over env be r old b :
  blen old = r_size r -> r_off r + r_size r <= blen b ->
  apply_reloc env be r (patch (N.to_nat (r_off r)) old b) =
  patch (N.to_nat (r_off r)) (enc_un (N.to_nat (r_size r)) be (reloc_value env r)) b.
Proof.
  intros Hl Hb. unfold apply_reloc, blen in *. rewrite patch_length by lia.
  destruct (N.ltb_spec (N.of_nat (length b)) (r_off r + r_size r)); try lia.
  apply patch_patch_same; rewrite ?enc_un_length; lia.
Qed.

Lemma of_to_i64 v : of_i64 (to_i64 v) = wrap64 v.
Proof. apply of_to_i64_low. lia. Qed.

Lemma wadd64s_to_i64 a v : wadd64s a (to_i64 v) = wrap64 (a + v).
Proof.
  unfold wadd64s. rewrite of_to_i64. unfold wrap64.
  rewrite N.add_mod_idemp_r by (unfold two64; lia). reflexivity.
Qed.

Definition winv (env : target -> N) (be : bool) (st : wstate) (bp : list byte) : Prop :=
  apply_relocs env be (snd st) (fst st) = bp /\ Forall (site_in (fst st)) (snd st).

Lemma winv_blen env be b rs bp : winv env be (b, rs) bp -> blen bp = blen b.
Proof. intros [<- _]. cbn [fst snd]. apply blen_apply_relocs. Qed.

Lemma site_in_app b e r : site_in b r -> site_in (b ++ e) r.
Proof. unfold site_in, blen. rewrite app_length. lia. Qed.

Lemma winv_app env be b rs bp e : winv env be (b, rs) bp -> winv env be (b ++ e, rs) (bp ++ e).
Proof.
  intros [H1 H2]; cbn [fst snd] in *. split; cbn [fst snd].
  - rewrite apply_relocs_app by exact H2. now rewrite H1.
  - eapply Forall_impl; [|exact H2]. intros r. apply site_in_app.
Qed.

Lemma winv_snoc_end env be b rs bp r old :
  winv env be (b, rs) bp -> r_off r = blen b -> blen old = r_size r ->
  winv env be (b ++ old, rs ++ [r]) (bp ++ enc_un (N.to_nat (r_size r)) be (reloc_value env r)).
Proof.
  intros Hi Ho Hl. pose proof (winv_blen _ _ _ _ _ Hi) as Hlen.
  destruct (winv_app env be b rs bp old Hi) as [H1 H2]; cbn [fst snd] in *.
  split; cbn [fst snd].
  - rewrite apply_relocs_snoc, H1. apply apply_reloc_end; congruence.
  - apply Forall_app; split; auto. constructor; auto.
    unfold site_in, blen in *. rewrite app_length. lia.
Qed.

Lemma winv_patch env be b rs bp pos new :
  winv env be (b, rs) bp -> pos + blen new <= blen b -> Forall (site_away pos (blen new)) rs ->
  winv env be (patch (N.to_nat pos) new b, rs) (patch (N.to_nat pos) new bp).
Proof.
  intros [H1 H2] Hb Hd; cbn [fst snd] in *. split; cbn [fst snd].
  - rewrite apply_relocs_patch by auto. now rewrite H1.
  - eapply Forall_impl; [|exact H2]. intros r. apply site_in_len.
    rewrite patch_length; auto. unfold blen in *. lia.
Qed.

Lemma winv_offset_at env be b rs bp r old :
  winv env be (b, rs) bp -> r_off r + r_size r <= blen b -> blen old = r_size r ->
  Forall (site_away (r_off r) (r_size r)) rs ->
  winv env be (patch (N.to_nat (r_off r)) old b, rs ++ [r])
       (patch (N.to_nat (r_off r)) (enc_un (N.to_nat (r_size r)) be (reloc_value env r)) bp).
Proof.
  intros Hi Hb Hl Hd. pose proof (winv_blen _ _ _ _ _ Hi) as Hlen.
  assert (Hp : winv env be (patch (N.to_nat (r_off r)) old b, rs) (patch (N.to_nat (r_off r)) old bp)).
  { apply winv_patch; auto; rewrite Hl; auto. }
  destruct Hp as [H1 H2]; cbn [fst snd] in *. split; cbn [fst snd].
  - rewrite apply_relocs_snoc, H1. apply apply_reloc_over; auto. lia.
  - apply Forall_app; split; auto. constructor; auto.
    unfold site_in, blen in *. rewrite patch_length; lia.
Qed.

Lemma ev_write_at_ok buf pos e x :
  ev_write_at buf pos e = Ok x -> x = patch (N.to_nat pos) e buf /\ pos + blen e <= blen buf.
Proof.
  unfold ev_write_at. intros H.
  destruct (N.ltb_spec (blen buf) pos); try discriminate.
  destruct (N.ltb_spec (blen buf - pos) (blen e)); try discriminate.
  inversion H. split; auto. lia.
Qed.

Lemma ev_udata_ok be buf v size x :
  ev_udata be buf v size = Ok x -> exists e, write_udata be v size = Ok e /\ blen e = size /\ x = buf ++ e.
Proof.
  unfold ev_udata. intros H. apply bind_ok in H as (e & He & H). inversion H.
  exists e. repeat split; auto. eapply write_udata_len; eauto.
Qed.

Lemma ev_udata_at_ok be buf pos v size x :
  ev_udata_at be buf pos v size = Ok x ->
  exists e, write_udata be v size = Ok e /\ blen e = size /\
            x = patch (N.to_nat pos) e buf /\ pos + size <= blen buf.
Proof.
  unfold ev_udata_at. intros H. apply bind_ok in H as (e & He & H).
  apply ev_write_at_ok in H as [-> Hb]. pose proof (write_udata_len _ _ _ _ He) as Hl.
  exists e. repeat split; auto. lia.
Qed.

Lemma ok_pair_inv {A B} (r : res A) (y : B) a y' : (let* x := r in Ok (x, y)) = Ok (a, y') -> r = Ok a /\ y' = y.
Proof. destruct r; cbn; intros H; inversion H; auto. Qed.

Lemma at_ok_away op rs pos n :
  at_range op = Some (pos, n) -> at_ok op rs = true -> Forall (site_away pos n) rs.
Proof.
  unfold at_ok. intros ->. rewrite forallb_forall. intros H. apply Forall_forall. intros r Hr.
  specialize (H r Hr). unfold ranges_disjoint in H. unfold site_away. lia.
Qed.

(* the pointer data written for a resolved symbolic eh pointer is the value at the size the recording writer chose:
   formats absptr/udata2/4/8 through write_udata, sdata2/4/8 through write_sdata of the cast to i64 *)
Lemma eh_sym_data be eh size sz v e :
  eh_sym_size eh size = Ok sz -> eh_pointer_data be v (eh_format eh) size = Ok e ->
  e = enc_un (N.to_nat sz) be v.
Proof.
  unfold eh_sym_size, eh_pointer_data. generalize (eh_format eh) as f. intros f.
  assert (Hu : forall s, Ok s = Ok sz -> write_udata be v s = Ok e -> e = enc_un (N.to_nat sz) be v)
    by (intros s Es H; inversion Es; subst; now apply write_udata_inv in H).
  assert (Hi : forall s, Ok s = Ok sz -> write_sdata be (to_i64 v) s = Ok e -> e = enc_un (N.to_nat sz) be v)
    by (intros s Es H; inversion Es; subst; now apply write_sdata_i64_ok in H).
  destruct (N.eqb_spec f 0) as [->|_]; [apply Hu|].
  destruct (N.eqb_spec f 1) as [->|_]; [discriminate|].
  destruct (N.eqb_spec f 2) as [->|_]; [apply Hu|].
  destruct (N.eqb_spec f 3) as [->|_]; [apply Hu|].
  destruct (N.eqb_spec f 4) as [->|_]; [apply Hu|].
  destruct (N.eqb_spec f 9) as [->|_]; [discriminate|].
  destruct (N.eqb_spec f 10) as [->|_]; [apply Hi|].
  destruct (N.eqb_spec f 11) as [->|_]; [apply Hi|].
  destruct (N.eqb_spec f 12) as [->|_]; [apply Hi|].
  discriminate.
Qed.

Lemma winv_step env be op b rs bp b1 rs1 bp1 :
  at_ok op rs = true ->
  winv env be (b, rs) bp ->
  step_reloc be op (b, rs) = Ok (b1, rs1) ->
  step_plain be (resolve env op) bp = Ok bp1 ->
  winv env be (b1, rs1) bp1.
Proof.
  intros Hat Hi Hr Hp. pose proof (winv_blen _ _ _ _ _ Hi) as Hlen.
  (* both writers append the bytes of the same write_udata *)
  assert (Hsame : forall v size x y, ev_udata be b v size = Ok x -> ev_udata be bp v size = Ok y -> winv env be (x, rs) y).
  { intros v size x y Hx Hy. apply ev_udata_ok in Hx as (e & He & _ & ->). apply ev_udata_ok in Hy as (e' & He' & _ & ->).
    rewrite He in He'. inversion He'. now apply winv_app. }
  destruct op as [bs|pos bs|v size|pos v size|[v|s addend] size|v sect size|pos v sect size|[v|s addend] eh size|sym size];
    cbn [step_reloc step_plain resolve resolve_addr] in Hr, Hp; try apply ok_pair_inv in Hr as [Hr ->].
  - (* WBytes *) inversion Hr; inversion Hp; subst. now apply winv_app.
  - (* WAt *)
    apply ev_write_at_ok in Hr as [-> Hb]. apply ev_write_at_ok in Hp as [-> _].
    apply winv_patch; auto. eapply at_ok_away; eauto. reflexivity.
  - (* WUdata *) eapply Hsame; eauto.
  - (* WUdataAt *)
    apply ev_udata_at_ok in Hr as (e & He & Hl & -> & Hb). apply ev_udata_at_ok in Hp as (e' & He' & _ & -> & _).
    rewrite He in He'. inversion He'; subst e'.
    apply winv_patch; auto; [lia|]. eapply at_ok_away; eauto. cbn [at_range]. now rewrite Hl.
  - (* WAddr, constant *) eapply Hsame; eauto.
  - (* WAddr, symbolic *)
    apply ev_udata_ok in Hr as (z & _ & Hzl & ->). apply ev_udata_ok in Hp as (e & He & _ & ->).
    apply write_udata_inv in He as [_ ->].
    exact (winv_snoc_end env be b rs bp (mkReloc (blen b) size (TSym s) addend None) z Hi eq_refl Hzl).
  - (* WOffset *)
    apply ev_udata_ok in Hr as (z & _ & Hzl & ->). apply ev_udata_ok in Hp as (e & He & _ & ->).
    apply write_udata_inv in He as [_ ->]. rewrite <- wadd64s_to_i64.
    exact (winv_snoc_end env be b rs bp (mkReloc (blen b) size (TSect sect) (to_i64 v) None) z Hi eq_refl Hzl).
  - (* WOffsetAt *)
    apply ev_udata_at_ok in Hr as (z & _ & Hzl & -> & Hb). apply ev_udata_at_ok in Hp as (e & He & _ & -> & _).
    apply write_udata_inv in He as [_ ->]. rewrite <- wadd64s_to_i64.
    apply (winv_offset_at env be b rs bp (mkReloc pos size (TSect sect) (to_i64 v) None) z); auto.
    eapply at_ok_away; eauto. reflexivity.
  - (* WEhPtr, constant *)
    apply bind_ok in Hr as (e & He & Hr). apply bind_ok in Hp as (e' & He' & Hp).
    inversion Hr; inversion Hp; subst. rewrite Hlen, He in He'. inversion He'; subst. now apply winv_app.
  - (* WEhPtr, symbolic: the plain writer's pointer data is the relocation's value at the size recorded *)
    apply bind_ok in Hr as (sz & Hsz & Hr). apply ok_pair_inv in Hr as [Hr ->].
    apply ev_udata_ok in Hr as (z & _ & Hzl & ->).
    apply bind_ok in Hp as (e & He & Hp). injection Hp as <-.
    set (r := mkReloc (blen b) sz (TSym s) addend (Some eh)).
    assert (Ee : e = enc_un (N.to_nat (r_size r)) be (reloc_value env r)).
    { unfold eh_plain in He. unfold reloc_value, r; cbn [r_target r_addend r_ehpe r_off r_size].
      destruct (N.eqb_spec (eh_application eh) 0) as [E0|E0].
      - rewrite E0. cbn [N.eqb]. eapply eh_sym_data; eauto.
      - destruct (N.eqb_spec (eh_application eh) 16) as [E16|E16]; try discriminate.
        rewrite Hlen in He. eapply eh_sym_data; eauto. }
    rewrite Ee. apply winv_snoc_end; auto.
  - (* WRef *) discriminate.
Qed.

Lemma winv_run env be : forall ws b rs bp b' rs' bp',
  no_clobber be ws (b, rs) = true ->
  winv env be (b, rs) bp ->
  run_reloc be ws (b, rs) = Ok (b', rs') ->
  run_plain be (map (resolve env) ws) bp = Ok bp' ->
  winv env be (b', rs') bp'.
Proof.
  induction ws as [|op ws IH]; intros b rs bp b' rs' bp' Hnc Hi Hr Hp.
  - cbn in Hr, Hp. inversion Hr; inversion Hp; subst. exact Hi.
  - cbn [run_reloc run_plain map no_clobber] in Hr, Hp, Hnc.
    apply bind_ok in Hr as ([b1 rs1] & Hs & Hr).
    apply bind_ok in Hp as (bp1 & Hsp & Hp).
    rewrite Hs in Hnc. apply andb_true_iff in Hnc as [Hat Hnc]. cbn [snd] in Hat.
    exact (IH b1 rs1 bp1 b' rs' bp' Hnc (winv_step env be op b rs bp b1 rs1 bp1 Hat Hi Hs Hsp) Hr Hp).
Qed.

Lemma patch_blen pos new b : pos + blen new <= blen b -> blen (patch (N.to_nat pos) new b) = blen b.
Proof. unfold blen. intros H. rewrite patch_length; lia. Qed.

Lemma step_reloc_spec be op b rs b1 rs1 :
  step_reloc be op (b, rs) = Ok (b1, rs1) ->
  rs1 = rs ++ op_relocs (blen b) op /\ blen b1 = blen b + op_len be (blen b) op.
Proof.
  intros Hr.
  assert (Happ : forall e, blen (b ++ e) = blen b + blen e) by (intros; unfold blen; rewrite app_length; lia).
  (* write_udata appends `size` bytes, write_udata_at none *)
  assert (Hud : forall v size x, ev_udata be b v size = Ok x -> blen x = blen b + size).
  { intros v size x Hx. apply ev_udata_ok in Hx as (e & _ & Hl & ->). now rewrite Happ, Hl. }
  assert (Hat : forall pos v size x, ev_udata_at be b pos v size = Ok x -> blen x = blen b + 0).
  { intros pos v size x Hx. apply ev_udata_at_ok in Hx as (e & _ & Hl & -> & Hb). rewrite patch_blen; lia. }
  destruct op as [bs|pos bs|v size|pos v size|[v|s addend] size|v sect size|pos v sect size|[v|s addend] eh size|sym size];
    cbn [step_reloc step_plain op_relocs op_len] in Hr |- *; try apply ok_pair_inv in Hr as [Hr ->];
    rewrite ?app_nil_r.
  - (* WBytes *) inversion Hr. auto.
  - (* WAt *) apply ev_write_at_ok in Hr as [-> Hb]. rewrite patch_blen by auto. split; auto; lia.
  - (* WUdata *) eauto.
  - (* WUdataAt *) eauto.
  - (* WAddr, constant *) eauto.
  - (* WAddr, symbolic *) eauto.
  - (* WOffset *) eauto.
  - (* WOffsetAt *) eauto.
  - (* WEhPtr, constant *) apply bind_ok in Hr as (e & He & Hr). inversion Hr. rewrite He, Happ. auto.
  - (* WEhPtr, symbolic *)
    apply bind_ok in Hr as (sz & Hsz & Hr). apply ok_pair_inv in Hr as [Hr ->]. rewrite Hsz. eauto.
  - (* WRef *) discriminate.
Qed.

Lemma run_reloc_spec be : forall ws b rs b' rs',
  run_reloc be ws (b, rs) = Ok (b', rs') -> rs' = rs ++ spec_relocs be (blen b) ws.
Proof.
  induction ws as [|op ws IH]; intros b rs b' rs' Hr.
  - cbn in Hr. inversion Hr; subst. cbn. now rewrite app_nil_r.
  - cbn [run_reloc spec_relocs] in *.
    apply bind_ok in Hr as ([b1 rs1] & Hs & Hr).
    apply step_reloc_spec in Hs as [-> Hl].
    apply IH in Hr. rewrite Hr, Hl, app_assoc. reflexivity.
Qed.

Lemma nth_error_slice (s : list byte) o l i :
  nth_error (slice s o l) i = if (i <? l)%nat then nth_error s (o + i)%nat else None.
Proof. unfold slice. rewrite nth_error_firstn, nth_error_skipn_add. reflexivity. Qed.

Lemma slice_length (s : list byte) o l : (o + l <= length s)%nat -> length (slice s o l) = l.
Proof. intros H. unfold slice. rewrite firstn_length, skipn_length. lia. Qed.

Lemma firstn_slice (s : list byte) o l c : (c <= l)%nat -> firstn c (slice s o l) = slice s o c.
Proof. intros H. unfold slice. rewrite firstn_firstn. f_equal. lia. Qed.

Lemma skipn_slice (s : list byte) o l c :
  (c <= l)%nat -> skipn c (slice s o l) = slice s (o + c) (l - c).
Proof.
  intros H. apply list_ext; intros i.
  rewrite nth_error_skipn_add, !nth_error_slice.
  destruct (Nat.ltb_spec (c + i) l), (Nat.ltb_spec i (l - c)); try lia; auto.
  f_equal. lia.
Qed.

Lemma slice_ext (s t : list byte) o l :
  (forall i, (o <= i < o + l)%nat -> nth_error s i = nth_error t i) -> slice s o l = slice t o l.
Proof.
  intros H. apply list_ext; intros i. rewrite !nth_error_slice.
  destruct (Nat.ltb_spec i l); auto. apply H. lia.
Qed.

Lemma slice_patch_in pos new bs :
  (pos + length new <= length bs)%nat -> slice (patch pos new bs) pos (length new) = new.
Proof.
  intros H. apply list_ext; intros i. rewrite nth_error_slice, nth_error_patch by auto.
  destruct (Nat.ltb_spec i (length new)).
  - destruct (Nat.leb_spec pos (pos + i)), (Nat.ltb_spec (pos + i) (pos + length new)); try lia.
    cbn [andb]. f_equal. lia.
  - symmetry. apply nth_error_None. lia.
Qed.

Lemma le_val_bound bs : le_val bs < 2 ^ (8 * N.of_nat (length bs)).
Proof. rewrite <- p256_pow2. apply le_val_lt. Qed.

Lemma dec_enc_un n be x : dec_un be (enc_un n be x) = x mod 2 ^ (8 * N.of_nat n).
Proof. unfold dec_un. now rewrite val_is_sum, val_sum_enc_un, p256_pow2. Qed.

Lemma read_un_spec n be w :
  read_un n be w =
  if (n <=? length w)%nat then Ok (dec_un be (firstn n w), skipn n w) else Err EUnexpectedEof.
Proof.
  rewrite read_un_exact, <- val_is_sum.
  destruct (Nat.ltb_spec (length w) n), (Nat.leb_spec n (length w)); try lia; reflexivity.
Qed.

Lemma apply_rrel_length be r bs : length (apply_rrel be r bs) = length bs.
Proof.
  unfold apply_rrel. destruct (N.ltb_spec (blen bs) (rr_pos r + rr_w r)); auto.
  apply patch_length. rewrite enc_un_length. unfold blen in *. lia.
Qed.

Lemma apply_rrels_length be R : forall bs, length (apply_rrels be R bs) = length bs.
Proof.
  unfold apply_rrels. induction R as [|r R IH]; intros bs; cbn [fold_left]; auto.
  rewrite IH. apply apply_rrel_length.
Qed.

Definition idx_away (r : rrel) (i : nat) : Prop :=
  N.of_nat i < rr_pos r \/ rr_pos r + rr_w r <= N.of_nat i.

Lemma apply_rrel_away be r bs i : idx_away r i -> nth_error (apply_rrel be r bs) i = nth_error bs i.
Proof.
  unfold idx_away, apply_rrel. intros H.
  destruct (N.ltb_spec (blen bs) (rr_pos r + rr_w r)); auto.
  rewrite nth_error_patch by (rewrite enc_un_length; unfold blen in *; lia).
  rewrite enc_un_length.
  destruct (Nat.leb_spec (N.to_nat (rr_pos r)) i), (Nat.ltb_spec i (N.to_nat (rr_pos r) + N.to_nat (rr_w r)));
    cbn [andb]; auto; lia.
Qed.

Lemma apply_rrels_away be R : forall bs i,
  (forall r, In r R -> idx_away r i) -> nth_error (apply_rrels be R bs) i = nth_error bs i.
Proof.
  unfold apply_rrels. induction R as [|r R IH]; intros bs i H; cbn [fold_left]; auto.
  rewrite IH by (intros r' Hr'; apply H; now right).
  apply apply_rrel_away. apply H. now left.
Qed.

Lemma sites_disjointb_cons r R :
  sites_disjointb (r :: R) = true ->
  (forall r', In r' R -> site_disjoint r' (rr_pos r) (rr_w r)) /\ sites_disjointb R = true.
Proof.
  cbn [sites_disjointb]. rewrite andb_true_iff, forallb_forall. intros [H1 H2]. split; auto.
  intros r' Hr'. specialize (H1 r' Hr'). unfold site_disjointb in H1. unfold site_disjoint. lia.
Qed.

Definition rrel_in (bs : list byte) (r : rrel) : Prop := rr_pos r + rr_w r <= blen bs.

(* the field of a relocation of a pairwise disjoint set holds its encoded relocated value *)
Lemma apply_rrels_site be R : forall bs r,
  sites_disjointb R = true -> In r R -> rrel_in bs r ->
  slice (apply_rrels be R bs) (N.to_nat (rr_pos r)) (N.to_nat (rr_w r)) =
  enc_un (N.to_nat (rr_w r)) be
    (rrel_value r (dec_un be (slice bs (N.to_nat (rr_pos r)) (N.to_nat (rr_w r))))).
Proof.
  induction R as [|r0 R IH]; intros bs r Hd Hin Hb; [destruct Hin|].
  apply sites_disjointb_cons in Hd as [Hd0 Hd].
  change (apply_rrels be (r0 :: R) bs) with (apply_rrels be R (apply_rrel be r0 bs)).
  destruct Hin as [->|Hin].
  - (* the head: patched now, untouched afterwards *)
    transitivity (slice (apply_rrel be r bs) (N.to_nat (rr_pos r)) (N.to_nat (rr_w r))).
    + apply slice_ext. intros i Hi. apply apply_rrels_away. intros r' Hr'.
      specialize (Hd0 r' Hr'). unfold site_disjoint in Hd0. unfold idx_away. lia.
    + unfold apply_rrel. unfold rrel_in in Hb.
      destruct (N.ltb_spec (blen bs) (rr_pos r + rr_w r)); try lia.
      set (e := enc_un _ _ _).
      replace (N.to_nat (rr_w r)) with (length e) at 1 by (unfold e; apply enc_un_length).
      apply slice_patch_in. unfold e. rewrite enc_un_length. unfold blen in *. lia.
  - (* a later one: the head does not touch its field *)
    specialize (Hd0 r Hin). unfold site_disjoint in Hd0.
    rewrite IH; auto.
    + f_equal. f_equal. f_equal. apply slice_ext. intros i Hi. apply apply_rrel_away.
      unfold idx_away. lia.
    + unfold rrel_in, blen in *. now rewrite apply_rrel_length.
Qed.

(* the relocation map finds the unique entry at a position *)
Lemma relocate_unique R : forall r pos v,
  sites_disjointb R = true -> In r R -> rr_pos r = pos ->
  (forall r', In r' R -> rr_pos r' = pos -> 1 <= rr_w r') ->
  relocate R pos v = rrel_value r v.
Proof.
  unfold relocate. induction R as [|r0 R IH]; intros r pos v Hd Hin Hp Hall; [destruct Hin|].
  pose proof (Hall r Hin Hp) as Hw.
  apply sites_disjointb_cons in Hd as [Hd0 Hd]. cbn [find].
  destruct (N.eqb_spec (rr_pos r0) pos) as [E|E].
  - destruct Hin as [->|Hin]; auto.
    exfalso. specialize (Hd0 r Hin). unfold site_disjoint in Hd0.
    specialize (Hall r0 (or_introl eq_refl) E). lia.
  - destruct Hin as [->|Hin]; [contradiction|].
    apply IH; auto. intros r' Hr'. apply Hall. now right.
Qed.

Lemma relocate_none R pos v : (forall r, In r R -> rr_pos r <> pos) -> relocate R pos v = v.
Proof.
  unfold relocate. induction R as [|r0 R IH]; intros H; cbn [find]; auto.
  destruct (N.eqb_spec (rr_pos r0) pos) as [E|E].
  - exfalso. apply (H r0); auto. now left.
  - apply IH. intros r Hr. apply H. now right.
Qed.

Definition prefix_det {A} (f : list byte -> res (A * list byte)) : Prop :=
  forall w v rest, f w = Ok (v, rest) ->
    exists c, (c <= length w)%nat /\ rest = skipn c w /\
      forall w', firstn c w' = firstn c w -> (c <= length w')%nat -> f w' = Ok (v, skipn c w').

Lemma prefix_det_read_un n be : prefix_det (read_un n be).
Proof.
  intros w v rest H. rewrite read_un_spec in H.
  destruct (Nat.leb_spec n (length w)); try discriminate. inversion H; subst.
  exists n. repeat split; auto. intros w' Hw' Hl. rewrite read_un_spec.
  destruct (Nat.leb_spec n (length w')); try lia. now rewrite Hw'.
Qed.

Lemma prefix_det_ext {A} (f g : list byte -> res (A * list byte)) :
  (forall w, f w = g w) -> prefix_det g -> prefix_det f.
Proof.
  intros E Hg w v rest H. rewrite E in H. destruct (Hg w v rest H) as (c & Hc & Hr & Hw).
  exists c. repeat split; auto. intros w' H1 H2. rewrite E. auto.
Qed.

Lemma prefix_det_read_word f be : prefix_det (read_word f be).
Proof. unfold read_word. destruct f; apply prefix_det_read_un. Qed.

Lemma split_leb_prefix bs e rest t : split_leb bs = Some (e, rest) -> split_leb (e ++ t) = Some (e, t).
Proof.
  intros H. rewrite (split_leb_app _ _ _ H) in H.
  destruct (split_leb_local e rest e rest H) as (x & Hx & He); auto.
  apply app_inv_tail with (l1 := []) in Hx. subst x. exact (split_leb_ext _ _ _ t He).
Qed.

(* a reader that decodes the terminated LEB128 prefix of its input looks at nothing else *)
Lemma prefix_det_split {A} (f : list byte -> res (A * list byte)) (ok : list byte -> bool) (val : list byte -> A) bad :
  (forall w, f w = match split_leb w with
                   | None => if (10 <=? length w)%nat then Err bad else Err EUnexpectedEof
                   | Some (e, rest) => if ok e then Ok (val e, rest) else Err bad
                   end) ->
  prefix_det f.
Proof.
  intros Hf w v rest H. rewrite Hf in H.
  destruct (split_leb w) as [[e r]|] eqn:Es; [|destruct (10 <=? length w)%nat; discriminate].
  destruct (ok e) eqn:Ec; [|discriminate]. inversion H; subst.
  rewrite (split_leb_app _ _ _ Es). exists (length e). rewrite app_length, skipn_app_exact.
  repeat split; [lia|]. intros w' Hw' _. rewrite firstn_app_exact in Hw'.
  rewrite Hf. rewrite <- (firstn_skipn (length e) w') at 1.
  rewrite Hw', (split_leb_prefix _ _ _ _ Es), Ec. reflexivity.
Qed.

Lemma prefix_det_uleb dbg : prefix_det (read_uleb128 dbg).
Proof.
  apply (prefix_det_split _ (fun e => (length e <=? 10)%nat && (uval e <? 2 ^ 64)) uval EBadUnsignedLeb128).
  exact (read_uleb128_exact dbg).
Qed.

Lemma prefix_det_sleb dbg : prefix_det (read_sleb128 dbg).
Proof.
  apply (prefix_det_split _ (fun e => (length e <=? 10)%nat && in_i64 (sval e)) sval EBadSignedLeb128).
  exact (read_sleb128_exact dbg).
Qed.

(* the bytes the outcome of a read depends on: those it consumed, or all of them when it failed *)
Definition span {A} (w : list byte) (a : res (A * list byte)) : nat :=
  match a with Ok (_, rest) => length w - length rest | _ => length w end.

Lemma span_le {A} w (a : res (A * list byte)) : (span w a <= length w)%nat.
Proof. destruct a as [[v rest]|e| |]; cbn [span]; lia. Qed.

Lemma prefix_det_agree {A} (f : list byte -> res (A * list byte)) w w' :
  prefix_det f -> length w' = length w ->
  firstn (span w (f w)) w' = firstn (span w (f w)) w ->
  span w' (f w') = span w (f w) /\
  match f w with
  | Ok (v, rest) => rest = skipn (span w (f w)) w /\ f w' = Ok (v, skipn (span w (f w)) w')
  | a => f w' = a
  end.
Proof.
  intros Hf Hl H. destruct (f w) as [[v rest]|e| |] eqn:E; cbn [span] in *.
  1: { destruct (Hf _ _ _ E) as (c & Hc & -> & Hdet). rewrite skipn_length in *.
       replace (length w - (length w - c))%nat with c in * by lia.
       rewrite (Hdet w') by (auto; lia). cbn [span]. rewrite skipn_length. repeat split; auto; lia. }
  all: rewrite <- Hl, firstn_all, Hl, firstn_all in H; subst w'; rewrite E; auto.
Qed.

(* the three relocatable methods read a fixed-width unsigned field or reject the size *)
Definition sized_reader (be : bool) (w : N) (f : list byte -> res (N * list byte)) : Prop :=
  (exists k, (1 <= k)%nat /\ N.of_nat k = w /\ forall bs, f bs = read_un k be bs) \/
  (exists e, forall bs, f bs = Err e).

Lemma sized_by_size be size e f :
  (forall bs, f bs = if size_ok size then read_un (N.to_nat size) be bs else Err e) -> sized_reader be size f.
Proof.
  intros Hf. destruct (size_ok size) eqn:E; [left|right; eauto].
  exists (N.to_nat size). apply size_ok_cases in E. repeat split; auto; lia.
Qed.

Lemma sized_read_address size be : sized_reader be size (read_address size be).
Proof. apply (sized_by_size be size EUnsupportedAddressSize). intros; apply read_address_exact. Qed.

Lemma sized_read_sized_offset size be : sized_reader be size (read_sized_offset size be).
Proof. apply (sized_by_size be size EUnsupportedOffsetSize). intros; apply read_sized_offset_exact. Qed.

Lemma sized_read_word f be : sized_reader be (word_size f) (read_word f be).
Proof.
  unfold sized_reader, read_word, word_size.
  destruct f; [left; exists 8%nat; repeat split; auto; lia|left; exists 4%nat; repeat split; auto; lia].
Qed.

Definition reloc_method (be : bool) (w : N) (f : list byte -> res (N * list byte)) : Prop :=
  f = read_address w be \/ f = read_sized_offset w be \/ (exists fmt, w = word_size fmt /\ f = read_word fmt be).

Lemma reloc_method_sized be w f : reloc_method be w f -> sized_reader be w f.
Proof.
  intros [->|[->|(fmt & -> & ->)]].
  - apply sized_read_address.
  - apply sized_read_sized_offset.
  - apply sized_read_word.
Qed.

Lemma reloc_method_read_un be w f :
  reloc_method be w f -> w = 1 \/ w = 2 \/ w = 4 \/ w = 8 -> forall bs, f bs = read_un (N.to_nat w) be bs.
Proof.
  intros [->|[->|(fmt & -> & ->)]] Hw bs.
  - destruct Hw as [->|[->|[->| ->]]]; reflexivity.
  - destruct Hw as [->|[->|[->| ->]]]; reflexivity.
  - destruct fmt; reflexivity.
Qed.

(* The window [o, o+l) of a section s that starts at address base, as an EndianSlice.  Every reader state
   reachable from RelocateReader::new has this form. *)
Definition mkst (base : N) (s : list byte) (o l : nat) : rd := mkRd (base + N.of_nat o) (slice s o l).

Lemma mkst_whole base (s : list byte) : mkst base s 0 (length s) = mkRd base s.
Proof. unfold mkst, slice. cbn [skipn]. rewrite firstn_all. f_equal. lia. Qed.

Lemma off_mkst base s o l : off (mkst base s o l) - base = N.of_nat o.
Proof. unfold mkst. cbn [off]. lia. Qed.

Lemma rd_len_mkst base s o l : (o + l <= length s)%nat -> rd_len (mkst base s o l) = N.of_nat l.
Proof. intros H. unfold rd_len, mkst, blen. cbn [win]. now rewrite slice_length. Qed.

Lemma rd_lift_mkst {A} base (f : list byte -> res (A * list byte)) s o l v c :
  (o + l <= length s)%nat -> (c <= l)%nat ->
  f (slice s o l) = Ok (v, skipn c (slice s o l)) ->
  rd_lift f (mkst base s o l) = Ok (v, mkst base s (o + c) (l - c)).
Proof.
  intros Hb Hc Hf. unfold rd_lift, mkst. cbn [win off]. rewrite Hf. cbn [bind].
  unfold rd_len, blen. cbn [win]. rewrite skipn_length, slice_length, skipn_slice by auto.
  do 2 f_equal. f_equal. lia.
Qed.

Lemma rd_lift_fail {A} (f : list byte -> res (A * list byte)) (r : rd) :
  (forall v rest, f (win r) <> Ok (v, rest)) ->
  rd_lift f r = match f (win r) with Ok _ => Panic | Err e => Err e | Panic => Panic | OutOfFuel => OutOfFuel end.
Proof.
  intros H. unfold rd_lift. destruct (f (win r)) as [[v rest]| | |]; auto. exfalso. eapply H; eauto.
Qed.

Lemma rd_lift_ext {A} (f g : list byte -> res (A * list byte)) r : (forall bs, f bs = g bs) -> rd_lift f r = rd_lift g r.
Proof. intros H. unfold rd_lift. now rewrite H. Qed.

Lemma rd_lift_read_un be base k s o l :
  (o + l <= length s)%nat ->
  rd_lift (read_un k be) (mkst base s o l) =
  if (k <=? l)%nat then Ok (dec_un be (slice s o k), mkst base s (o + k) (l - k)) else Err EUnexpectedEof.
Proof.
  intros Hb. destruct (Nat.leb_spec k l) as [Hk|Hk].
  - apply rd_lift_mkst; auto. rewrite read_un_spec, slice_length by auto.
    destruct (Nat.leb_spec k l); try lia. now rewrite firstn_slice.
  - unfold rd_lift, mkst. cbn [win]. rewrite read_un_spec, slice_length by auto.
    destruct (Nat.leb_spec k l); try lia. reflexivity.
Qed.

Lemma rd_skip_mkst base s o l n :
  (o + l <= length s)%nat ->
  rd_skip n (mkst base s o l) =
  if N.of_nat l <? n then Err EUnexpectedEof else Ok (mkst base s (o + N.to_nat n) (l - N.to_nat n)).
Proof.
  intros Hb. unfold rd_skip. rewrite rd_len_mkst by auto.
  destruct (N.ltb_spec (N.of_nat l) n); auto.
  unfold mkst. cbn [off win]. rewrite skipn_slice by lia. do 2 f_equal. lia.
Qed.

Lemma rd_truncate_mkst base s o l n :
  (o + l <= length s)%nat ->
  rd_truncate n (mkst base s o l) =
  if N.of_nat l <? n then Err EUnexpectedEof else Ok (mkst base s o (N.to_nat n)).
Proof.
  intros Hb. unfold rd_truncate. rewrite rd_len_mkst by auto.
  destruct (N.ltb_spec (N.of_nat l) n); auto.
  unfold mkst. cbn [off win]. rewrite firstn_slice by lia. reflexivity.
Qed.

Lemma rd_split_mkst base s o l n :
  (o + l <= length s)%nat ->
  rd_split n (mkst base s o l) =
  if N.of_nat l <? n then Err EUnexpectedEof
  else Ok (mkst base s o (N.to_nat n), mkst base s (o + N.to_nat n) (l - N.to_nat n)).
Proof.
  intros Hb. unfold rd_split. rewrite rd_len_mkst by auto.
  destruct (N.ltb_spec (N.of_nat l) n); auto.
  unfold mkst. cbn [off win]. rewrite firstn_slice, skipn_slice by lia. do 3 f_equal. lia.
Qed.

Lemma offset_from_mkst dbg base sec o l :
  (o + l <= length sec)%nat -> rd_offset_from dbg (mkst base sec o l) (mkRd base sec) = Ok (N.of_nat o).
Proof.
  intros H. unfold rd_offset_from. rewrite rd_len_mkst by auto. unfold mkst, rd_len, blen. cbn [off win].
  destruct (N.ltb_spec (base + N.of_nat o) base); try lia.
  destruct (N.ltb_spec (base + N.of_nat (length sec)) (base + N.of_nat o + N.of_nat l)); try lia.
  rewrite andb_false_r. unfold chk_sub.
  destruct (N.leb_spec base (base + N.of_nat o)); try lia. f_equal. lia.
Qed.

Lemma rr_plain_eq {A} (f : list byte -> res (A * list byte)) x :
  rr_plain f x =
  ([EvPlain (off (reader x) - off (section x)) (N.of_nat (span (win (reader x)) (f (win (reader x)))))],
   let* (a, r') := rd_lift f (reader x) in Ok (a, mkRrd (section x) r')).
Proof.
  unfold rr_plain, rd_lift, rd_len, blen.
  destruct (f (win (reader x))) as [[a rest]|e| |]; cbn [bind span win]; rewrite ?Nat2N.inj_sub; reflexivity.
Qed.

Lemma rr_rel_mkst dbg base w f hook sec o l :
  (o + l <= length sec)%nat ->
  rr_rel dbg w f hook (mkRrd (mkRd base sec) (mkst base sec o l)) =
  match rd_lift f (mkst base sec o l) with
  | Ok (v, r') => ([EvRel (N.of_nat o) w v], let* v' := hook (N.of_nat o) v in Ok (v', mkRrd (mkRd base sec) r'))
  | Err e => ([], Err e)
  | Panic => ([], Panic)
  | OutOfFuel => ([], OutOfFuel)
  end.
Proof. intros Hb. unfold rr_rel. cbn [reader section]. now rewrite offset_from_mkst. Qed.

Section Sim.
  Variables (be dbg : bool) (R : list rrel) (sec : list byte) (base : N).
  Hypothesis HR : sites_disjointb R = true.

  Notation P := (apply_rrels be R sec).

  (* the relocating reader over the raw section and the plain reader over the pre-applied section
     look at the same window *)
  Definition st_rel (x : rrd) (r : rd) : Prop :=
    exists o l, (o + l <= length sec)%nat /\
      x = mkRrd (mkRd base sec) (mkst base sec o l) /\ r = mkst base P o l.

  Definition res_rel {A} (a : res (A * rrd)) (b : res (A * rd)) : Prop :=
    match a, b with
    | Ok (v, x), Ok (v', r) => v = v' /\ st_rel x r
    | Err e, Err e' => e = e'
    | Panic, Panic => True
    | OutOfFuel, OutOfFuel => True
    | _, _ => False
    end.

  Lemma slices_agree o n :
    (forall r, In r R -> site_disjoint r (N.of_nat o) (N.of_nat n)) ->
    slice P o n = slice sec o n.
  Proof.
    intros H. apply slice_ext. intros i Hi. apply apply_rrels_away. intros r Hr.
    specialize (H r Hr). unfold site_disjoint in H. unfold idx_away. lia.
  Qed.

  (* a site of R whose relocated value fits holds that value in the pre-applied section *)
  Lemma applied_site_value r :
    In r R -> rrel_in sec r ->
    let o := N.to_nat (rr_pos r) in let k := N.to_nat (rr_w r) in
    rrel_value r (dec_un be (slice sec o k)) < 2 ^ (8 * rr_w r) ->
    dec_un be (slice P o k) = rrel_value r (dec_un be (slice sec o k)).
  Proof.
    intros Hin Hb o k Hfit. unfold o, k. rewrite apply_rrels_site, dec_enc_un, N2Nat.id by auto.
    now apply N.mod_small.
  Qed.

  Lemma plain_case {A} (f : list byte -> res (A * list byte)) x r :
    prefix_det f -> st_rel x r -> trace_ok R (fst (rr_plain f x)) ->
    res_rel (snd (rr_plain f x)) (rd_lift f r).
  Proof.
    intros Hf (o & l & Hb & -> & ->) Ht. rewrite rr_plain_eq in *. cbn [fst snd reader section] in *.
    change (off (mkRd base sec)) with base in Ht. rewrite off_mkst in Ht.
    apply Forall_inv in Ht. cbn [ev_ok win mkst] in Ht.
    remember (span (slice sec o l) (f (slice sec o l))) as c eqn:Ec.
    assert (Hc : (c <= l)%nat) by (subst c; rewrite <- (slice_length sec o l Hb) at 3; apply span_le).
    assert (HbP : (o + l <= length P)%nat) by now rewrite apply_rrels_length.
    (* the applied section agrees with the raw one on the bytes the read depends on *)
    destruct (prefix_det_agree f (slice sec o l) (slice P o l) Hf) as [_ H].
    { now rewrite !slice_length. }
    { rewrite <- Ec, !firstn_slice by auto. apply slices_agree.
      intros r Hr. specialize (Ht r Hr). unfold site_disjoint in *. lia. }
    rewrite <- Ec in H. clear Ec.
    destruct (f (slice sec o l)) as [[v rest]|e| |] eqn:E.
    2-4: unfold rd_lift; cbn [win mkst]; rewrite E, H; cbn; auto.
    destruct H as [-> H].
    rewrite (rd_lift_mkst base f sec o l v c Hb Hc E), (rd_lift_mkst base f P o l v c HbP Hc H).
    cbn [bind res_rel]. split; auto. exists (o + c)%nat, (l - c)%nat. repeat split; auto. lia.
  Qed.

  Lemma rel_case (w : N) (f : list byte -> res (N * list byte)) (hook : N -> N -> res N) x r :
    (forall pos v, hook pos v = Ok (relocate R pos v)) ->
    sized_reader be w f -> st_rel x r ->
    trace_ok R (fst (rr_rel dbg w f hook x)) ->
    res_rel (snd (rr_rel dbg w f hook x)) (rd_lift f r).
  Proof.
    intros Hh Hs (o & l & Hb & -> & ->) Ht. rewrite rr_rel_mkst in * by auto.
    assert (HbP : (o + l <= length P)%nat) by now rewrite apply_rrels_length.
    destruct Hs as [(k & Hk & Hw & Hfk) | (e & He)].
    2: { unfold rd_lift. rewrite !He. cbn. reflexivity. }
    rewrite !(rd_lift_ext f _ _ Hfk), !rd_lift_read_un in * by auto.
    destruct (Nat.leb_spec k l) as [Hkl|Hkl]; [|cbn; reflexivity].
    cbn [fst snd] in *. rewrite Hh. cbn [bind res_rel].
    set (v := dec_un be (slice sec o k)) in *.
    apply Forall_inv in Ht. cbn [ev_ok] in Ht. destruct Ht as (H1 & H2).
    split; [|exists (o + k)%nat, (l - k)%nat; repeat split; auto; lia].
    destruct (find (fun r => rr_pos r =? N.of_nat o) R) as [r|] eqn:Efind.
    - (* a site at this position: it is this field, and the applied section holds the relocated value *)
      apply find_some in Efind as [Hin Hpos]. apply N.eqb_eq in Hpos.
      destruct (H1 r Hin Hpos) as [Hrw H3].
      rewrite (relocate_unique R r) by (auto; try lia; intros r' Hr' Hp'; destruct (H1 r' Hr' Hp'); lia).
      pose proof (applied_site_value r Hin) as Hsite. cbn zeta in Hsite.
      rewrite Hpos, Hrw, <- Hw, !Nat2N.id in Hsite. symmetry. apply Hsite; try lia.
      + unfold rrel_in, blen. lia.
      + rewrite Hw. exact H3.
    - (* no site at this position: every site is away from the field *)
      assert (Hnone : forall r, In r R -> rr_pos r <> N.of_nat o).
      { intros r Hr Hp. pose proof (find_none _ _ Efind r Hr) as Hf. cbn in Hf.
        apply N.eqb_neq in Hf. contradiction. }
      rewrite relocate_none, slices_agree by (auto; try lia; intros r Hr; rewrite Hw; auto). reflexivity.
  Qed.

  Lemma tbind_rel {V A} (t : tres (V * rrd)) (g : V * rrd -> tres (A * rrd))
        (b : res (V * rd)) (h : V * rd -> res (A * rd)) :
    trace_ok R (fst (tbind t g)) ->
    (trace_ok R (fst t) -> res_rel (snd t) b) ->
    (forall v x' r', st_rel x' r' -> trace_ok R (fst (g (v, x'))) ->
                     res_rel (snd (g (v, x'))) (h (v, r'))) ->
    res_rel (snd (tbind t g)) (bind b h).
  Proof.
    intros Ht H1 H2. unfold tbind in *. destruct t as [tr [[v x']|e| |]]; cbn [fst snd] in *.
    1: apply Forall_app in Ht as [Ht Ht2].
    all: specialize (H1 Ht); destruct b as [[v' r']|e'| |]; cbn [res_rel] in H1; try contradiction; cbn; auto.
    destruct H1 as [<- Hst]. apply H2; auto.
  Qed.

  Lemma sim_run {A} (p : prog A) : forall x r,
    st_rel x r ->
    trace_ok R (fst (run_reloc_rd be dbg (map_relocator R) p x)) ->
    res_rel (snd (run_reloc_rd be dbg (map_relocator R) p x)) (run_plain_rd be dbg p r).
  Proof.
    induction p as [a|e| |n k IH|k IH|k IH|n k IH|k IH|size k IH|f k IH|size k IH|f k IH|len sub IHs k IHk];
      intros x r Hst Ht; cbn [run_reloc_rd run_plain_rd] in *.
    - (* PRet *) cbn. auto.
    - (* PFail *) cbn. auto.
    - (* PNoFuel *) cbn. auto.
    - (* PU *) apply tbind_rel; [exact Ht | intros; apply plain_case; auto using prefix_det_read_un | auto].
    - (* PUleb *) apply tbind_rel; [exact Ht | intros; apply plain_case; auto using prefix_det_uleb | auto].
    - (* PSleb *) apply tbind_rel; [exact Ht | intros; apply plain_case; auto using prefix_det_sleb | auto].
    - (* PSkip *) destruct Hst as (o & l & Hb & -> & ->). cbn [reader section] in *.
      assert (HbP : (o + l <= length P)%nat) by now rewrite apply_rrels_length.
      rewrite !rd_skip_mkst in * by auto.
      destruct (N.ltb_spec (N.of_nat l) n).
      + cbn. reflexivity.
      + unfold tbind, tret in *. cbn [fst snd bind app] in *.
        apply IH; auto. exists (o + N.to_nat n)%nat, (l - N.to_nat n)%nat. repeat split; auto. lia.
    - (* PLen *) destruct Hst as (o & l & Hb & -> & ->). cbn [reader section] in *.
      rewrite !rd_len_mkst in * by (rewrite ?apply_rrels_length; auto).
      apply IH; auto. exists o, l. auto.
    - (* PAddr *) apply tbind_rel; [exact Ht | intros; apply rel_case; auto using sized_read_address | auto].
    - (* POffset *) apply tbind_rel; [exact Ht | intros; apply rel_case; auto using sized_read_word | auto].
    - (* PSized *) apply tbind_rel; [exact Ht | intros; apply rel_case; auto using sized_read_sized_offset | auto].
    - (* PWord *) apply tbind_rel; [exact Ht | intros; apply plain_case; auto using prefix_det_read_word | auto].
    - (* PSplit *) destruct Hst as (o & l & Hb & -> & ->).
      assert (HbP : (o + l <= length P)%nat) by now rewrite apply_rrels_length.
      unfold rr_split in *. cbn [reader section] in *.
      rewrite rd_truncate_mkst, rd_skip_mkst, rd_split_mkst in * by auto.
      destruct (N.ltb_spec (N.of_nat l) len).
      + cbn. reflexivity.
      + cbn [bind] in *. unfold tbind at 1 in Ht. unfold tbind at 1. unfold tret in *.
        cbn [fst snd app] in *.
        apply tbind_rel; [exact Ht| |].
        * intros Ht'. apply IHs; auto. exists o, (N.to_nat len). repeat split; auto. lia.
        * intros a x'' r'' _ Ht'. apply IHk; auto.
          exists (o + N.to_nat len)%nat, (l - N.to_nat len)%nat. repeat split; auto. lia.
  Qed.

  Lemma st_rel_start : st_rel (rrd_new (mkRd base sec)) (mkRd base P).
  Proof.
    exists 0%nat, (length sec). repeat split; auto.
    - unfold rrd_new. now rewrite mkst_whole.
    - rewrite <- (apply_rrels_length be R sec). now rewrite mkst_whole.
  Qed.

  Lemma res_rel_out {A} (a : res (A * rrd)) (b : res (A * rd)) :
    res_rel a b -> out_reloc a = out_plain (mkRd base P) b.
  Proof.
    unfold res_rel, out_reloc, out_plain.
    destruct a as [[v x]|e| |], b as [[v' r]|e'| |]; cbn [bind]; try contradiction; auto.
    - intros [<- (o & l & Hb & -> & ->)]. cbn [reader section off].
      rewrite !rd_len_mkst by (rewrite ?apply_rrels_length; auto).
      unfold mkst. cbn [off]. do 2 f_equal.
    - now intros ->.
  Qed.

  (* one relocatable read of k bytes exactly on a site of R whose relocated value fits: both readers return that value *)
  Lemma rel_read_site (r : rrel) (l : nat) f :
    (forall r', In r' R -> 1 <= rr_w r') -> In r R ->
    let o := N.to_nat (rr_pos r) in
    let k := N.to_nat (rr_w r) in
    (forall bs, f bs = read_un k be bs) -> (k <= l)%nat -> (o + l <= length sec)%nat ->
    let v := dec_un be (slice sec o k) in
    rrel_value r v < 2 ^ (8 * rr_w r) ->
    let x := mkRrd (mkRd base sec) (mkRd (base + rr_pos r) (slice sec o l)) in
    snd (rr_rel dbg (rr_w r) f (fun pos v => Ok (relocate R pos v)) x) =
      Ok (rrel_value r v, mkRrd (mkRd base sec) (mkRd (base + rr_pos r + rr_w r) (slice sec (o + k) (l - k)))) /\
    rd_lift f (mkRd (base + rr_pos r) (slice P o l)) =
      Ok (rrel_value r v, mkRd (base + rr_pos r + rr_w r) (slice P (o + k) (l - k))).
  Proof.
    intros Hw1 Hin o k Hfk Hkl Hb v Hfit x.
    assert (HbP : (o + l <= length P)%nat) by now rewrite apply_rrels_length.
    assert (Eo : forall s, mkRd (base + rr_pos r) (slice s o l) = mkst base s o l)
      by (intros; unfold mkst, o; now rewrite N2Nat.id).
    assert (Ek : forall s, mkRd (base + rr_pos r + rr_w r) (slice s (o + k) (l - k)) = mkst base s (o + k) (l - k))
      by (intros; unfold mkst, o, k; now rewrite Nat2N.inj_add, !N2Nat.id, N.add_assoc).
    unfold x. rewrite !Eo, !Ek, rr_rel_mkst, !(rd_lift_ext f _ _ Hfk), !rd_lift_read_un by auto.
    destruct (Nat.leb_spec k l); try lia. cbn [snd bind]. split.
    - rewrite (relocate_unique R r) by (auto; unfold o; lia). reflexivity.
    - do 2 f_equal. apply applied_site_value; auto. unfold rrel_in, blen, o, k in *. lia.
  Qed.
End Sim.

Lemma site_disjointb_ok r pos n : site_disjointb r pos n = true -> site_disjoint r pos n.
Proof. unfold site_disjointb, site_disjoint. lia. Qed.

Lemma ev_okb_ok R e : ev_okb R e = true -> ev_ok R e.
Proof.
  destruct e as [pos n|pos w v]; cbn [ev_okb ev_ok]; rewrite forallb_forall; intros H.
  - intros r Hr. apply site_disjointb_ok. auto.
  - split; intros r Hr Hp; specialize (H r Hr).
    + apply N.eqb_eq in Hp. rewrite Hp in H. apply andb_true_iff in H as [H1 H2].
      apply N.eqb_eq in H1. apply N.ltb_lt in H2. auto.
    + apply N.eqb_neq in Hp. rewrite Hp in H. now apply site_disjointb_ok.
Qed.

(* the empty relocation set accepts every trace *)
Lemma trace_ok_nil t : trace_ok [] t.
Proof.
  unfold trace_ok. apply Forall_forall. intros [pos n|pos w v] _; cbn [ev_ok].
  - intros r [].
  - split; intros r [].
Qed.

Section NoPanic.
  Variables (be dbg : bool) (rl : relocator) (sec : list byte) (base : N).
  Hypothesis Hrl1 : forall pos v, rl_addr rl pos v <> Panic.
  Hypothesis Hrl2 : forall pos v, rl_off rl pos v <> Panic.

  (* reachable states: the inner reader's window lies inside the section *)
  Definition rinv (x : rrd) : Prop :=
    exists o l, (o + l <= length sec)%nat /\ x = mkRrd (mkRd base sec) (mkst base sec o l).

  Definition np {A} (r : res (A * rrd)) : Prop :=
    match r with Ok (_, x') => rinv x' | Panic => False | _ => True end.

  Lemma np_tbind {V A} (t : tres (V * rrd)) (g : V * rrd -> tres (A * rrd)) :
    np (snd t) -> (forall v x', rinv x' -> np (snd (g (v, x')))) -> np (snd (tbind t g)).
  Proof.
    intros H1 H2. unfold tbind. destruct t as [tr [[v x']|e| |]]; cbn [fst snd np] in *; auto.
  Qed.

  Lemma np_plain {A} (f : list byte -> res (A * list byte)) x :
    prefix_det f -> (forall w, f w <> Panic) -> rinv x -> np (snd (rr_plain f x)).
  Proof.
    intros Hf Hnp (o & l & Hb & ->). rewrite rr_plain_eq. cbn [snd reader section].
    destruct (f (slice sec o l)) as [[v rest]|e| |] eqn:Ef.
    2-4: unfold rd_lift, mkst; cbn [win]; rewrite Ef; cbn; auto; exact (Hnp _ Ef).
    destruct (Hf _ _ _ Ef) as (c & Hc & -> & _). rewrite slice_length in Hc by auto.
    rewrite (rd_lift_mkst base f sec o l v c Hb Hc Ef). cbn [bind np].
    exists (o + c)%nat, (l - c)%nat. split; auto. lia.
  Qed.

  Lemma np_rel w (f : list byte -> res (N * list byte)) hook x :
    sized_reader be w f -> (forall pos v, hook pos v <> Panic) -> rinv x ->
    np (snd (rr_rel dbg w f hook x)).
  Proof.
    intros Hs Hh (o & l & Hb & ->). rewrite rr_rel_mkst by auto.
    destruct Hs as [(k & Hk & Hw & Hfk)|(e & He)].
    2: { unfold rd_lift. rewrite He. cbn. exact I. }
    rewrite (rd_lift_ext f _ _ Hfk), rd_lift_read_un by auto.
    destruct (Nat.leb_spec k l); [|cbn; exact I]. cbn [snd].
    specialize (Hh (N.of_nat o) (dec_un be (slice sec o k))).
    destruct (hook (N.of_nat o) (dec_un be (slice sec o k))); cbn [bind np]; auto.
    exists (o + k)%nat, (l - k)%nat. split; auto. lia.
  Qed.

  Lemma read_un_no_panic n w : read_un n be w <> Panic.
  Proof. rewrite read_un_spec. destruct (n <=? length w)%nat; discriminate. Qed.

  Lemma read_word_no_panic f w : read_word f be w <> Panic.
  Proof. unfold read_word. destruct f; apply read_un_no_panic. Qed.

  Lemma reloc_rd_no_panic {A} (p : prog A) : forall x,
    rinv x -> np (snd (run_reloc_rd be dbg rl p x)).
  Proof.
    induction p as [a|e| |n k IH|k IH|k IH|n k IH|k IH|size k IH|f k IH|size k IH|f k IH|len sub IHs k IHk];
      intros x Hx; cbn [run_reloc_rd].
    - (* PRet *) cbn. exact Hx.
    - (* PFail *) cbn. exact I.
    - (* PNoFuel *) cbn. exact I.
    - (* PU *) apply np_tbind; auto. apply np_plain; auto using prefix_det_read_un, read_un_no_panic.
    - (* PUleb *) apply np_tbind; auto. apply np_plain; auto using prefix_det_uleb. intros w. apply read_uleb128_total.
    - (* PSleb *) apply np_tbind; auto. apply np_plain; auto using prefix_det_sleb. intros w. apply read_sleb128_total.
    - (* PSkip *) destruct Hx as (o & l & Hb & ->). cbn [reader section].
      rewrite (rd_skip_mkst base sec o l n Hb).
      destruct (N.ltb_spec (N.of_nat l) n).
      + cbn. exact I.
      + unfold tbind, tret. cbn [fst snd bind]. apply IH.
        exists (o + N.to_nat n)%nat, (l - N.to_nat n)%nat. split; auto. lia.
    - (* PLen *) apply IH; auto.
    - (* PAddr *) apply np_tbind; auto. apply np_rel; auto using sized_read_address.
    - (* POffset *) apply np_tbind; auto. apply np_rel; auto using sized_read_word.
    - (* PSized *) apply np_tbind; auto. apply np_rel; auto using sized_read_sized_offset.
    - (* PWord *) apply np_tbind; auto. apply np_plain; auto using prefix_det_read_word, read_word_no_panic.
    - (* PSplit *) destruct Hx as (o & l & Hb & ->). unfold rr_split. cbn [reader section].
      rewrite (rd_truncate_mkst base sec o l len Hb), (rd_skip_mkst base sec o l len Hb).
      destruct (N.ltb_spec (N.of_nat l) len).
      + cbn. exact I.
      + cbn [bind]. unfold tbind at 1. unfold tret. cbn [fst snd].
        apply np_tbind.
        * apply IHs. exists o, (N.to_nat len). split; auto. lia.
        * intros a x'' _. apply IHk.
          exists (o + N.to_nat len)%nat, (l - N.to_nat len)%nat. split; auto. lia.
  Qed.

  Lemma rinv_start : rinv (rrd_new (mkRd base sec)).
  Proof. exists 0%nat, (length sec). split; auto. unfold rrd_new. now rewrite mkst_whole. Qed.
End NoPanic.

Lemma in_i64_to_i64 v : in_i64 (to_i64 v) = true.
Proof. pose proof (to_i64_range v). unfold in_i64. lia. Qed.

Lemma eh_pointer_data_no_panic be v fmt size : v < two64 -> eh_pointer_data be v fmt size <> Panic.
Proof.
  intros Hv. unfold eh_pointer_data.
  destruct (fmt =? 0); [apply write_udata_no_panic|].
  destruct (fmt =? 1); [destruct (write_uleb128_read v Hv) as (a & -> & _); discriminate|].
  destruct (fmt =? 2); [apply write_udata_no_panic|].
  destruct (fmt =? 3); [apply write_udata_no_panic|].
  destruct (fmt =? 4); [apply write_udata_no_panic|].
  destruct (fmt =? 9); [destruct (write_sleb128_read _ (in_i64_to_i64 v)) as (a & -> & _); discriminate|].
  destruct (fmt =? 10); [apply write_sdata_no_panic|].
  destruct (fmt =? 11); [apply write_sdata_no_panic|].
  destruct (fmt =? 12); [apply write_sdata_no_panic|].
  discriminate.
Qed.

(* well-typedness of a script: the u64 argument of a constant eh pointer is a u64 *)
Definition wop_u64 (op : wop) : Prop :=
  match op with WEhPtr (AConst v) _ _ => v < two64 | _ => True end.

Lemma ev_write_at_no_panic buf pos bs : ev_write_at buf pos bs <> Panic.
Proof. unfold ev_write_at. destruct (_ <? _); [discriminate|]. destruct (_ <? _); discriminate. Qed.

Lemma ev_udata_no_panic be buf v size : ev_udata be buf v size <> Panic.
Proof. apply bind_not_panic; [apply write_udata_no_panic|intros; discriminate]. Qed.

Lemma ev_udata_at_no_panic be buf pos v size : ev_udata_at be buf pos v size <> Panic.
Proof. apply bind_not_panic; [apply write_udata_no_panic|intros; apply ev_write_at_no_panic]. Qed.

Lemma eh_plain_no_panic be len a eh size :
  (match a with AConst v => v < two64 | _ => True end) -> eh_plain be len a eh size <> Panic.
Proof.
  intros H. unfold eh_plain. destruct a as [v|s ad]; [|discriminate].
  destruct (_ =? 0); [now apply eh_pointer_data_no_panic|].
  destruct (_ =? 16); [apply eh_pointer_data_no_panic, wrap64_lt|discriminate].
Qed.

Lemma step_plain_no_panic be op buf : wop_u64 op -> step_plain be op buf <> Panic.
Proof.
  intros Hw. destruct op as [bs|pos bs|v size|pos v size|[v|s ad] size|v sect size|pos v sect size|a eh size|sym size];
    cbn [step_plain]; try discriminate;
    auto using ev_write_at_no_panic, ev_udata_no_panic, ev_udata_at_no_panic.
  apply bind_not_panic; [|intros; discriminate]. apply eh_plain_no_panic. destruct a; auto.
Qed.

Lemma step_reloc_no_panic be op st : wop_u64 op -> step_reloc be op st <> Panic.
Proof.
  intros Hw. destruct st as [buf rs].
  assert (Hk : forall (r : res (list byte)) (rs' : list reloc), r <> Panic -> (let* b := r in Ok (b, rs')) <> Panic)
    by (intros r rs' H; apply bind_not_panic; [exact H|intros; discriminate]).
  destruct op as [bs|pos bs|v size|pos v size|[v|s ad] size|v sect size|pos v sect size|[v|s ad] eh size|sym size];
    cbn [step_reloc]; try apply Hk;
    auto using step_plain_no_panic, ev_udata_no_panic, ev_udata_at_no_panic.
  apply bind_not_panic; [|intros sz _; apply Hk, ev_udata_no_panic].
  unfold eh_sym_size. destruct (_ =? 0); [discriminate|]. do 3 (destruct (_ || _); [discriminate|]). discriminate.
Qed.

Lemma run_plain_no_panic be : forall ws buf, Forall wop_u64 ws -> run_plain be ws buf <> Panic.
Proof.
  induction ws as [|op ws IH]; intros buf H; cbn [run_plain]; [discriminate|].
  inversion H; subst. apply bind_not_panic; [now apply step_plain_no_panic|auto].
Qed.

Lemma run_reloc_no_panic be : forall ws st, Forall wop_u64 ws -> run_reloc be ws st <> Panic.
Proof.
  induction ws as [|op ws IH]; intros st H; cbn [run_reloc]; [discriminate|].
  inversion H; subst. apply bind_not_panic; [now apply step_reloc_no_panic|auto].
Qed.

Lemma resolve_u64 env op : wop_u64 op -> wop_u64 (resolve env op).
Proof.
  destruct op as [bs|pos bs|v size|pos v size|a size|v sect size|pos v sect size|a eh size|sym size];
    cbn [resolve wop_u64]; auto.
  destruct a as [v|s ad]; cbn [resolve_addr]; auto. intros _. unfold wadd64s. apply wrap64_lt.
Qed.

Lemma apply_rrel_of env be r bs : apply_rrel be (rrel_of env r) bs = apply_reloc env be r bs.
Proof. reflexivity. Qed.

Lemma apply_rrels_of env be rs : forall bs,
  apply_rrels be (map (rrel_of env) rs) bs = apply_relocs env be rs bs.
Proof.
  unfold apply_rrels, apply_relocs. induction rs as [|r rs IH]; intros bs; cbn [map fold_left]; auto.
Qed.

Definition valid_asz (asz : N) : Prop := asz = 1 \/ asz = 2 \/ asz = 4 \/ asz = 8.
