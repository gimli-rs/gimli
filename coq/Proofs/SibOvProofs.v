(* Proofs/SibOvProofs.v — units whose DW_AT_sibling VALUES are wrong: the spec encoder of Spec/Forest.v with a
   per-entry override `ov : entry offset -> option value` of the value written into the DW_AT_sibling slots
   (ISib items, same form and width, so every offset and length is unchanged), its entry stream as a list of
   events, and the full depth-first cursor walk over such units. Without override it is the encoder of
   Spec/Forest.v (enc_tree_ov_none, evs_ov_none): what is proved about these events holds for well-formed
   units as the case `ov = fun _ => None`. *)
From Coq Require Import List NArith ZArith Bool Lia ZifyBool ZifyN ZifyNat.
From Coq.Strings Require Import Byte.
Require Import GV.Base.Res GV.Base.Byt GV.Base.Ints GV.Model.Leb GV.Model.Prim
               GV.Spec.LebSpec GV.Spec.FormSpec GV.Model.Attr GV.Spec.Forest GV.Model.AbbrevRd
               GV.Model.DieRd GV.Proofs.LebProofs GV.Proofs.AttrProofs GV.Proofs.AbbrevRdProofs GV.Proofs.DieRdProofs GV.Proofs.EventWalk.
Import ListNotations.
Local Open Scope N_scope.

Section Ov.
  Variables (codes : coding) (ov : N -> option N).

  (* the value written into the DW_AT_sibling slots of the entry at `off` *)
  Definition sibv (off next : N) : N := match ov off with Some v => v | None => next end.

  Definition head_bytes_ov (bigend : bool) (off : N) (t : tree) : list byte :=
    enc_uleb (t_code codes t) ++ concat (map (enc_item bigend (sibv off (off + tree_size codes t))) (t_items t)).

  Fixpoint enc_tree_ov (bigend : bool) (off : N) (t : tree) : list byte :=
    match t with
    | Node tag flag items kids =>
        head_bytes_ov bigend off t ++
        (if has_children t
         then on_list (enc_tree_ov bigend) (tree_size codes) (kids_off codes off t) kids ++ [x00]
         else [])
    end.

  Definition enc_forest_ov (bigend : bool) (off : N) (f : list tree) (pad : nat) : list byte :=
    on_list (enc_tree_ov bigend) (tree_size codes) off f ++ repeat x00 pad.

  (* what is reported: the entry of Spec/Forest.v with the overridden value in its DW_AT_sibling slots *)
  Definition root_die_ov (off : N) (depth : Z) (t : tree) : die :=
    mkDie off depth (t_tag t) (has_children t) (map (item_val (sibv off (off + tree_size codes t))) (t_items t)).

  Fixpoint pre_tree_ov (depth : Z) (off : N) (t : tree) : list die :=
    match t with
    | Node tag flag items kids =>
        root_die_ov off depth t ::
        on_list (pre_tree_ov (depth + 1)) (tree_size codes) (kids_off codes off t) kids
    end.
  Definition preorder_ov (off : N) (depth : Z) (f : list tree) : list die :=
    on_list (pre_tree_ov depth) (tree_size codes) off f.

  (* the overridden values fit their form *)
  Definition fits_ov (p : N * tree) : Prop :=
    Forall (item_fits (sibv (fst p) (fst p + tree_size codes (snd p)))) (t_items (snd p)).
  Definition sibs_fit_ov (off : N) (f : list tree) : Prop :=
    Forall fits_ov (on_list (placed codes) (tree_size codes) off f).

  Lemma enc_tree_ov_unfold bigend off t :
    enc_tree_ov bigend off t =
    head_bytes_ov bigend off t ++
    (if has_children t
     then on_list (enc_tree_ov bigend) (tree_size codes) (kids_off codes off t) (t_kids t) ++ [x00]
     else []).
  Proof. destruct t. reflexivity. Qed.

  Lemma head_bytes_ov_len bigend off t : nlen (head_bytes_ov bigend off t) = kids_off codes off t - off.
  Proof. unfold head_bytes_ov, kids_off. rewrite nlen_app, nlen_concat_items. lia. Qed.

  Lemma head_bytes_ov_cons bigend off t : exists b r, head_bytes_ov bigend off t = b :: r.
  Proof. unfold head_bytes_ov. destruct (enc_uleb_cons (t_code codes t)) as (b & r & E). rewrite E. cbn [app]. eauto. Qed.

  (* the override changes nothing but the bytes of the DW_AT_sibling slots: same lengths *)
  Lemma head_bytes_ov_same_len bigend off t :
    nlen (head_bytes_ov bigend off t) = nlen (head_bytes codes bigend off t).
  Proof. rewrite head_bytes_ov_len, head_bytes_len. reflexivity. Qed.

  Lemma root_die_ov_not_null e off d t : node_ok codes e t -> is_null (root_die_ov off d t) = false.
  Proof.
    intros [(_ & Ht & _) _]. cbn [t_abbrev ab_tag] in Ht. unfold is_null, root_die_ov. cbn [d_tag]. lia.
  Qed.

  Definition head_ev_ov (bigend : bool) (d : Z) (off : N) (t : tree) : xev :=
    mkX (head_bytes_ov bigend off t) (root_die_ov off d t) (post_depth d t).

  Lemma head_ev_ov_ok dbg e tbl d off t :
    addr_size_ok e -> covered tbl codes t -> node_ok codes e t -> fits_ov (off, t) ->
    ev_ok dbg e tbl (head_ev_ov (be e) d off t).
  Proof.
    intros He Hc Hok Hfit. split; [apply head_bytes_ov_cons|].
    split; [cbn [head_ev_ov x_die x_post root_die_ov d_depth]; unfold post_depth; destruct (has_children t); lia|].
    intros rest E HE HE64 Hd. cbn [head_ev_ov x_bytes x_die x_post] in *.
    rewrite (root_die_ov_not_null e off d t Hok). cbn [negb].
    cbn [root_die_ov d_depth d_offset] in *.
    apply (read_head dbg e tbl codes t off d (sibv off (off + tree_size codes t))); assumption.
  Qed.

  Fixpoint evs_ov (bigend : bool) (d : Z) (off : N) (t : tree) : list xev :=
    match t with
    | Node tag flag items kids =>
        head_ev_ov bigend d off t ::
        (if has_children t
         then on_list (evs_ov bigend (d + 1)) (tree_size codes) (kids_off codes off t) kids ++
              [null_ev (off + tree_size codes t - 1) (d + 1)]
         else [])
    end.

  Lemma evs_ov_unfold bigend d off t :
    evs_ov bigend d off t =
    head_ev_ov bigend d off t ::
    (if has_children t
     then on_list (evs_ov bigend (d + 1)) (tree_size codes) (kids_off codes off t) (t_kids t) ++
          [null_ev (off + tree_size codes t - 1) (d + 1)]
     else []).
  Proof. destruct t. reflexivity. Qed.

  Definition evs_list_ov (bigend : bool) (d : Z) (off : N) (l : list tree) : list xev :=
    on_list (evs_ov bigend d) (tree_size codes) off l.

  (* one statement per tree: bytes, length, offsets and depths *)
  Definition tree_facts (bigend : bool) (t : tree) : Prop :=
    forall d off,
      xbytes (evs_ov bigend d off t) = enc_tree_ov bigend off t /\
      nlen (xbytes (evs_ov bigend d off t)) = tree_size codes t /\
      chain off d (evs_ov bigend d off t) /\ end_depth d (evs_ov bigend d off t) = d /\
      Forall (fun z => (d <= d_depth (x_die z))%Z) (evs_ov bigend d off t).

  Lemma list_facts bigend d : forall l off, Forall (tree_facts bigend) l ->
    xbytes (evs_list_ov bigend d off l) = on_list (enc_tree_ov bigend) (tree_size codes) off l /\
    nlen (xbytes (evs_list_ov bigend d off l)) = forest_size codes l /\
    chain off d (evs_list_ov bigend d off l) /\ end_depth d (evs_list_ov bigend d off l) = d /\
    Forall (fun z => (d <= d_depth (x_die z))%Z) (evs_list_ov bigend d off l).
  Proof.
    unfold evs_list_ov, forest_size. induction l as [|t l IH]; intros off H.
    - cbn. repeat split; try reflexivity. constructor.
    - inversion H as [|? ? Ht Hl]; subst. destruct (Ht d off) as (B1 & L1 & C1 & E1 & D1).
      destruct (IH (off + tree_size codes t) Hl) as (B2 & L2 & C2 & E2 & D2).
      rewrite !on_list_cons, xbytes_app, nlen_app. cbn [map sumN fold_right].
      split; [rewrite B1, B2; reflexivity|]. split; [unfold sumN in *; rewrite L1, L2; reflexivity|].
      split; [|split].
      + apply chain_app. split; [exact C1|]. rewrite E1, L1. exact C2.
      + rewrite end_depth_app, E1. exact E2.
      + apply Forall_app. split; assumption.
  Qed.

  Lemma evs_ov_facts bigend : forall t, tree_facts bigend t.
  Proof.
    induction t as [tag flag items kids IH] using tree_ind'. intros d off.
    set (t := Node tag flag items kids) in *.
    rewrite evs_ov_unfold, enc_tree_ov_unfold. change (t_kids t) with kids.
    pose proof (kids_off_ge codes off t) as Hk.
    assert (Hsz : tree_size codes t = (kids_off codes off t - off) +
                  (if has_children t then forest_size codes kids + 1 else 0)).
    { rewrite (tree_size_unfold codes t). change (t_kids t) with kids. unfold kids_off, forest_size. lia. }
    assert (Hd : (d <= d_depth (x_die (head_ev_ov bigend d off t)))%Z) by (cbn; lia).
    destruct (has_children t) eqn:Hc.
    - fold (evs_list_ov bigend (d + 1) (kids_off codes off t) kids).
      destruct (list_facts bigend (d + 1) kids (kids_off codes off t) IH) as (B & L & C & Ee & D).
      set (K := evs_list_ov bigend (d + 1) (kids_off codes off t) kids) in *.
      set (nul := null_ev (off + tree_size codes t - 1) (d + 1)).
      split; [|split; [|split; [|split]]].
      + rewrite xbytes_cons, xbytes_app, B. reflexivity.
      + rewrite xbytes_cons, xbytes_app, !nlen_app, L. cbn [head_ev_ov x_bytes]. rewrite head_bytes_ov_len.
        change (nlen (xbytes [nul])) with 1. lia.
      + cbn [chain head_ev_ov x_die x_bytes x_post root_die_ov d_offset d_depth].
        split; [reflexivity|]. split; [reflexivity|].
        rewrite head_bytes_ov_len. replace (off + (kids_off codes off t - off)) with (kids_off codes off t) by lia.
        unfold post_depth. rewrite Hc. apply chain_app. split; [exact C|].
        rewrite Ee, L. cbn [chain nul null_ev x_die null_at d_offset d_depth]. repeat split. lia.
      + cbn [end_depth head_ev_ov x_post]. unfold post_depth. rewrite Hc, end_depth_app, Ee.
        cbn [end_depth nul null_ev x_post]. lia.
      + constructor; [exact Hd|]. apply Forall_app. split.
        * eapply Forall_impl; [|exact D]. intros z Hz. cbv beta in *. lia.
        * constructor; [cbn; lia|constructor].
    - split; [|split; [|split; [|split]]].
      + rewrite xbytes_cons. reflexivity.
      + rewrite xbytes_cons, nlen_app. cbn [head_ev_ov x_bytes]. rewrite head_bytes_ov_len.
        change (nlen (xbytes [])) with 0. lia.
      + cbn [chain head_ev_ov x_die root_die_ov d_offset d_depth]. repeat split.
      + cbn [end_depth head_ev_ov x_post]. unfold post_depth. rewrite Hc. reflexivity.
      + constructor; [exact Hd|constructor].
  Qed.

  Lemma evs_list_ov_facts bigend d l off :
    xbytes (evs_list_ov bigend d off l) = on_list (enc_tree_ov bigend) (tree_size codes) off l /\
    nlen (xbytes (evs_list_ov bigend d off l)) = forest_size codes l /\
    chain off d (evs_list_ov bigend d off l) /\ end_depth d (evs_list_ov bigend d off l) = d /\
    Forall (fun z => (d <= d_depth (x_die z))%Z) (evs_list_ov bigend d off l).
  Proof. apply list_facts. apply Forall_forall. intros t _. apply evs_ov_facts. Qed.

  (* the events of a subtree after its root entry *)
  Definition tail_ov (bigend : bool) (d : Z) (off : N) (t : tree) : list xev :=
    if has_children t
    then evs_list_ov bigend (d + 1) (kids_off codes off t) (t_kids t) ++
         [null_ev (off + tree_size codes t - 1) (d + 1)]
    else [].

  Lemma evs_ov_tail bigend d off t :
    evs_ov bigend d off t = head_ev_ov bigend d off t :: tail_ov bigend d off t.
  Proof. rewrite evs_ov_unfold. reflexivity. Qed.

  Lemma evs_list_ov_cons bigend d off t l :
    evs_list_ov bigend d off (t :: l) =
    head_ev_ov bigend d off t :: tail_ov bigend d off t ++ evs_list_ov bigend d (off + tree_size codes t) l.
  Proof. unfold evs_list_ov. rewrite on_list_cons, evs_ov_tail. reflexivity. Qed.

  Lemma tail_ov_end_depth bigend d off t : end_depth (post_depth d t) (tail_ov bigend d off t) = d.
  Proof.
    destruct (evs_ov_facts bigend t d off) as (_ & _ & _ & E & _). rewrite evs_ov_tail in E.
    cbn [end_depth head_ev_ov x_post] in E. exact E.
  Qed.

  Lemma tail_ov_bytes_len bigend d off t :
    kids_off codes off t + nlen (xbytes (tail_ov bigend d off t)) = off + tree_size codes t.
  Proof.
    destruct (evs_ov_facts bigend t d off) as (_ & L & _).
    rewrite evs_ov_tail, xbytes_cons, nlen_app in L. cbn [head_ev_ov x_bytes] in L. rewrite head_bytes_ov_len in L.
    pose proof (kids_off_ge codes off t). lia.
  Qed.

  Lemma tail_ov_depth bigend d off t : Forall (fun z => (d < d_depth (x_die z))%Z) (tail_ov bigend d off t).
  Proof.
    unfold tail_ov. destruct (has_children t); [|constructor]. apply Forall_app. split.
    - destruct (evs_list_ov_facts bigend (d + 1) (t_kids t) (kids_off codes off t)) as (_ & _ & _ & _ & D).
      eapply Forall_impl; [|exact D]. intros z Hz. cbv beta in *. lia.
    - constructor; [cbn; lia|constructor].
  Qed.

  Definition placed_ok_ov (e : enc) (tbl : abbrevs) (p : N * tree) : Prop :=
    covered tbl codes (snd p) /\ node_ok codes e (snd p) /\ fits_ov p.

  Lemma evs_list_ov_ok_of dbg e tbl d : forall l off,
    Forall (fun t => forall d o, Forall (placed_ok_ov e tbl) (placed codes o t) ->
                                 Forall (ev_ok dbg e tbl) (evs_ov (be e) d o t)) l ->
    Forall (placed_ok_ov e tbl) (on_list (placed codes) (tree_size codes) off l) ->
    Forall (ev_ok dbg e tbl) (evs_list_ov (be e) d off l).
  Proof.
    unfold evs_list_ov. induction l as [|t l IH]; intros off H Hp; [constructor|]. inversion H; subst.
    rewrite on_list_cons in *. apply Forall_app in Hp. destruct Hp as [Hp1 Hp2].
    apply Forall_app. split; auto.
  Qed.

  Lemma evs_ov_ok dbg e tbl : addr_size_ok e -> forall t d off,
    Forall (placed_ok_ov e tbl) (placed codes off t) -> Forall (ev_ok dbg e tbl) (evs_ov (be e) d off t).
  Proof.
    intros He. induction t as [tag flag items kids IH] using tree_ind'. intros d off Hp.
    set (t := Node tag flag items kids) in *.
    rewrite placed_unfold in Hp. inversion Hp as [|? ? (Hc & Hok & Hfit) Hk]; subst. cbn [snd t_kids t] in *.
    rewrite evs_ov_unfold. change (t_kids t) with kids. constructor; [apply head_ev_ov_ok; assumption|].
    destruct (has_children t); [|constructor].
    apply Forall_app. split; [|constructor; [apply null_ev_ok|constructor]].
    apply (evs_list_ov_ok_of dbg e tbl (d + 1) kids); assumption.
  Qed.

  (* the non-null entries of the event list *)
  Lemma filter_list_ov e bigend d : forall l off,
    Forall (fun t => Forall (node_ok codes e) (nodes t) ->
                     forall d o, filter not_null (map x_die (evs_ov bigend d o t)) = pre_tree_ov d o t) l ->
    Forall (node_ok codes e) (forest_nodes l) ->
    filter not_null (map x_die (evs_list_ov bigend d off l)) = on_list (pre_tree_ov d) (tree_size codes) off l.
  Proof.
    unfold evs_list_ov. induction l as [|t l IH]; intros off H Hok; [reflexivity|]. inversion H; subst.
    cbn [forest_nodes flat_map] in Hok. apply Forall_app in Hok. destruct Hok as [Ht Hl].
    rewrite !on_list_cons, map_app, filter_app. f_equal; auto.
  Qed.

  Lemma filter_tree_ov e bigend : forall t, Forall (node_ok codes e) (nodes t) ->
    forall d off, filter not_null (map x_die (evs_ov bigend d off t)) = pre_tree_ov d off t.
  Proof.
    induction t as [tag flag items kids IH] using tree_ind'. intros Hok d off.
    set (t := Node tag flag items kids) in *.
    cbn [nodes t] in Hok. inversion Hok as [|? ? Ht Hk]; subst.
    rewrite evs_ov_unfold. change (pre_tree_ov d off t) with
      (root_die_ov off d t :: on_list (pre_tree_ov (d + 1)) (tree_size codes) (kids_off codes off t) kids).
    change (t_kids t) with kids. cbn [map filter head_ev_ov x_die]. unfold not_null at 1.
    rewrite (root_die_ov_not_null e off d t Ht). cbn [negb]. f_equal.
    destruct (has_children t) eqn:Hc.
    - rewrite map_app, filter_app. cbn [map filter not_null null_ev x_die is_null null_at d_tag N.eqb negb]. rewrite app_nil_r.
      apply (filter_list_ov e bigend (d + 1) kids); assumption.
    - apply no_children_no_kids in Hc. change (t_kids t) with kids in Hc. subst kids. reflexivity.
  Qed.

  Lemma evs_list_ov_ok dbg e tbl d l off : addr_size_ok e ->
    Forall (placed_ok_ov e tbl) (on_list (placed codes) (tree_size codes) off l) ->
    Forall (ev_ok dbg e tbl) (evs_list_ov (be e) d off l).
  Proof. intros He. apply evs_list_ov_ok_of. apply Forall_forall. intros t _ d' o. apply evs_ov_ok. exact He. Qed.

  Lemma filter_evs_list_ov e bigend d l off : Forall (node_ok codes e) (forest_nodes l) ->
    filter not_null (map x_die (evs_list_ov bigend d off l)) = on_list (pre_tree_ov d) (tree_size codes) off l.
  Proof. apply filter_list_ov. apply Forall_forall. intros t _ Ht d' o. apply (filter_tree_ov e); assumption. Qed.

  Lemma placed_ok_ov_all e tbl off f :
    all_covered tbl codes f -> forest_ok codes e f -> sibs_fit_ov off f ->
    Forall (placed_ok_ov e tbl) (on_list (placed codes) (tree_size codes) off f).
  Proof.
    unfold all_covered, forest_ok, sibs_fit_ov. rewrite <- (placed_list_nodes codes f off).
    rewrite !Forall_forall. intros H1 H2 H3 p Hp.
    split; [apply H1, in_map, Hp|]. split; [apply H2, in_map, Hp|apply H3, Hp].
  Qed.
End Ov.

(* no override = the encoder of Spec/Forest.v *)
Lemma enc_tree_ov_none codes bigend : forall t off, enc_tree_ov codes (fun _ => None) bigend off t = enc_tree codes bigend off t.
Proof.
  induction t as [tag flag items kids IH] using tree_ind'. intros off.
  rewrite enc_tree_ov_unfold, enc_tree_split. unfold kids_bytes. cbn [t_kids]. f_equal.
  destruct (has_children (Node tag flag items kids)); [|reflexivity]. f_equal.
  apply on_list_ext. eapply Forall_impl; [|exact IH]. intros k Hk o. apply Hk.
Qed.

Lemma evs_ov_none codes bigend : forall t d off, evs_ov codes (fun _ => None) bigend d off t = evs codes bigend d off t.
Proof.
  induction t as [tag flag items kids IH] using tree_ind'. intros d off.
  rewrite evs_ov_unfold, evs_unfold. cbn [t_kids]. f_equal.
  destruct (has_children (Node tag flag items kids)); [|reflexivity]. f_equal.
  apply on_list_ext. eapply Forall_impl; [|exact IH]. intros k Hk o. apply Hk.
Qed.

Lemma evs_list_ov_none codes bigend d off l :
  evs_list_ov codes (fun _ => None) bigend d off l = evs_list codes bigend d off l.
Proof. apply on_list_ext. apply Forall_forall. intros t _ o. apply evs_ov_none. Qed.

(* the override changes no length (hence no offset): only the bytes inside the DW_AT_sibling slots differ *)
Lemma enc_forest_ov_len codes ov bigend off f pad :
  nlen (enc_forest_ov codes ov bigend off f pad) = nlen (enc_forest codes bigend off f pad).
Proof.
  destruct (evs_list_ov_facts codes ov bigend 0 f off) as (B & L & _).
  unfold enc_forest_ov, enc_forest. rewrite !nlen_app, <- B, L, enc_forest_list_len. reflexivity.
Qed.

(* the reader at the start of a unit with overridden DW_AT_sibling values *)
Lemma unit_at_chain_ov dbg bigend h codes ov f pad tbl :
  let e := unit_enc bigend h in
  let body := enc_forest_ov codes ov bigend (header_len h) f pad in
  addr_size_ok e -> header_len h + nlen body < two63 ->
  Forall (placed_ok_ov codes ov e tbl) (on_list (placed codes) (tree_size codes) (header_len h) f) ->
  at_chain dbg e tbl (header_len h + nlen body) [] (mkRaw body (header_len h + nlen body) 0)
           (evs_list_ov codes ov bigend 0 (header_len h) f ++
            pad_evs (header_len h + forest_size codes f) 0 pad).
Proof.
  intros e body He Hlen Hp.
  destruct (evs_list_ov_facts codes ov bigend 0 f (header_len h)) as (B & L & C & Ee & _).
  assert (Hb : xbytes (evs_list_ov codes ov bigend 0 (header_len h) f ++
                       pad_evs (header_len h + forest_size codes f) 0 pad) = body).
  { unfold body, enc_forest_ov. rewrite xbytes_app, B, pad_evs_bytes. reflexivity. }
  clearbody body. subst body. apply (at_chain_init dbg e tbl _ (header_len h)).
  - apply Forall_app. split; [|apply pad_evs_ok]. change bigend with (be e). apply evs_list_ov_ok; assumption.
  - apply chain_app. split; [exact C|]. rewrite Ee, L. apply pad_evs_chain.
  - reflexivity.
  - exact Hlen.
Qed.

(* ------------------------------------------------------------------ *)
(** * The full depth-first walk of a unit with overridden DW_AT_sibling values *)
Section UnitOv.
  Variables (dbg bigend types : bool) (uoff : N) (h : uheader) (codes : coding) (ov : N -> option N)
            (f : list tree) (pad : nat) (tbl : abbrevs).
  Let e := unit_enc bigend h.
  Let hl := header_len h.
  Let body := enc_forest_ov codes ov bigend hl f pad.
  Let hdr := parsed_header bigend types uoff h body.
  Hypothesis He : addr_size_ok e.
  Hypothesis Hlen : hl + nlen body < two63.
  Hypothesis Hcov : all_covered tbl codes f.
  Hypothesis Hok : forest_ok codes e f.
  Hypothesis Hfit : sibs_fit_ov codes ov hl f.

  Lemma dfs_ov :
    exists c, entries dbg hdr = Ok c /\
              dfs_all (cursor_fuel c) dbg e tbl c = Ok (preorder_ov codes ov hl 0 f, None).
  Proof.
    pose proof (unit_at_chain_ov dbg bigend h codes ov f pad tbl He Hlen
                  (placed_ok_ov_all codes ov e tbl hl f Hcov Hok Hfit)) as Hat.
    fold e hl body in Hat.
    set (c := mkCur (mkRaw body (hl + nlen body) 0) null_die).
    exists c. split; [apply entries_parsed; exact Hlen|].
    change (mkRaw body (hl + nlen body) 0) with (c_raw c) in Hat.
    unfold cursor_fuel. rewrite (dfs_all_chain dbg e tbl _ _ _ c Hat (at_chain_fuel _ _ _ _ _ _ _ Hat)). f_equal. f_equal.
    rewrite map_app, filter_app, pad_evs_dies, filter_pad_nulls, app_nil_r.
    apply (filter_evs_list_ov codes ov e). exact Hok.
  Qed.
End UnitOv.
