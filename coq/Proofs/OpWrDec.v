(* Proofs/OpWrDec.v — C15 decode direction: what write::Expression emits is decoded by the table of
   Spec/OpEncSpec.v to the operations that were built, up to the documented shorter encodings. *)
From Coq Require Import List NArith ZArith Bool Lia ZifyBool ZifyN ZifyNat.
From Coq.Strings Require Import Byte.
Require Import GV.Base.Res GV.Base.Byt GV.Base.Ints GV.Spec.LebSpec GV.Model.Leb GV.Model.Prim.
Require Import GV.Spec.OpEncSpec GV.Model.OpWr GV.Proofs.LebProofs GV.Proofs.OpWrProofs.
Import ListNotations.
Local Open Scope N_scope.
Local Arguments N.add : simpl never.
Local Arguments N.sub : simpl never.
Local Arguments N.mul : simpl never.
Local Arguments N.pow : simpl never.
Local Arguments N.modulo : simpl never.
Local Arguments N.div : simpl never.
Local Arguments N.of_nat : simpl never.
Local Arguments Z.add : simpl never.
Local Arguments Z.sub : simpl never.

(* operations whose bytes the table can be asked about: no raw bytecode, Expression::op only with opcodes
   that have no operands, piece sizes whose bit count fits 64 bits *)
Fixpoint decodable (o : wop) : bool :=
  match o with
  | WoRaw _ => false
  | WoSimple opc => match layout opc with Some [] => true | _ => false end
  | WoPiece s => s * 8 <? 2 ^ 64
  | WoEntryValue ex => forallb decodable ex
  | _ => true
  end.

(* the operation a reader must see for a built operation `o` written at `pos` as `bs` *)
Definition normal_form (dbg : bool) (e : enc) (uo : option uoffs) (refs : bool) (offsets : list N) (pos : N)
           (o : wop) (bs : list byte) (d : dop) : Prop :=
  let typed (en : N) (k : N -> dop) := exists off, entry_offset dbg uo en = Ok off /\ d = k off in
  match o with
  | WoRaw _ => False
  | WoSimple opc => meaning (dcfg_of e) opc [] = Some d
  | WoAddress (AConst v) => d = DoAddress v
  | WoAddress (ASym _ _) => False
  | WoUConst v => d = DoUConst v                                   (* lit0..31 or constu *)
  | WoSConst v => d = DoSConst v
  | WoConstType b value => typed b (fun off => DoTypedLiteral off value)
  | WoFrameOffset off => d = DoFrameOffset off
  | WoRegOffset r off => d = DoRegOffset r off 0                   (* breg0..31 or bregx *)
  | WoRegType r b => typed b (fun off => DoRegOffset r 0 off)
  | WoPick i => d = DoPick i                                       (* dup / over / pick *)
  | WoDeref sp => d = DoDeref 0 (e_asize e) sp
  | WoDerefSize sp s => d = DoDeref 0 s sp
  | WoDerefType sp s b => typed b (fun off => DoDeref off s sp)
  | WoPlusConst v => d = DoPlusConst v
  | WoSkip t => exists tv disp, nth_N offsets t = Some tv /\ (Z.of_N pos + 3 + disp = Z.of_N tv)%Z /\ d = DoSkip disp
  | WoBranch t => exists tv disp, nth_N offsets t = Some tv /\ (Z.of_N pos + 3 + disp = Z.of_N tv)%Z /\ d = DoBra disp
  | WoCall en => typed en DoCallUnit
  | WoCallRef (REntry _ _) => d = DoCallRef 0                      (* placeholder; a fix-up is pushed *)
  | WoCallRef (RSym _) => False
  | WoVarValue (REntry _ _) => d = DoVarValue 0
  | WoVarValue (RSym _) => False
  | WoConvert (Some b) => typed b DoConvert
  | WoConvert None => d = DoConvert 0
  | WoReinterpret (Some b) => typed b DoReinterpret
  | WoReinterpret None => d = DoReinterpret 0
  | WoEntryValue ex =>
      exists lb inner fx, bs = n2b (if v5 e then 163 else 243) :: lb ++ inner /\ d = DoEntryValue inner /\
                          write_expr dbg e uo refs (pos + 1 + blen lb) ex = Ok (inner, fx)
  | WoRegister r => d = DoRegister r                               (* reg0..31 or regx *)
  | WoImplicitValue data => d = DoImplicitValue data
  | WoImplicitPointer (REntry _ _) off => d = DoImplicitPointer 0 off
  | WoImplicitPointer (RSym _) _ => False
  | WoPiece s => d = DoPiece (s * 8) None
  | WoBitPiece s off => d = DoPiece s (Some off)
  | WoParameterRef en => typed en DoParameterRef
  | WoWasmLocal i => d = DoWasmLocal i
  | WoWasmGlobal i => d = DoWasmGlobal i
  | WoWasmStack i => d = DoWasmStack i
  end.

Lemma is_u64_lt n : is_u64 n = true -> n < 2 ^ 64.
Proof. unfold is_u64, two64. lia. Qed.

Lemma chk_sub_lt dbg a b c : a < 2 ^ 64 -> chk_sub 64 dbg a b = Ok c -> c < 2 ^ 64.
Proof.
  intros Ha. unfold chk_sub. destruct (b <=? a) eqn:E.
  - intros H; inversion H; lia.
  - destruct dbg; [discriminate|]. intros H; inversion H. unfold wrapN. apply N.mod_lt. lia.
Qed.

Lemma nth_N_In {A} : forall (l : list A) n x, nth_N l n = Some x -> In x l.
Proof.
  induction l as [|y r IH]; intros n x H; cbn [nth_N] in H; [discriminate|].
  destruct (n =? 0); [inversion H; left; reflexivity|right; eapply IH; eauto].
Qed.

Lemma entry_offset_lt dbg uo en off : wf_uoffs uo = true -> entry_offset dbg uo en = Ok off -> off < 2 ^ 64.
Proof.
  unfold entry_offset, wf_uoffs. destruct uo as [u|]; [|discriminate]. intros Hw H.
  apply andb_true_iff in Hw. destruct Hw as [_ Hw]. rewrite forallb_forall in Hw.
  apply bind_ok in H. destruct H as [o [Ho H]]. destruct o as [v|]; [|discriminate]. inversion H; subst.
  unfold unit_offset in Ho. apply bind_ok in Ho. destruct Ho as [x [Hx Ho]].
  destruct x as [w|]; [|discriminate].
  apply bind_ok in Ho. destruct Ho as [dd [Hd Ho]]. inversion Ho; subst.
  unfold debug_info_offset in Hx. destruct (nth_N (uo_entries u) en) as [y|] eqn:En; [|discriminate].
  destruct (y =? 0); [discriminate|]. inversion Hx; subst.
  eapply chk_sub_lt; [|exact Hd]. apply is_u64_lt. apply Hw. eapply nth_N_In; eauto.
Qed.

Lemma uadd_lt dbg a b c : uadd dbg a b = Ok c -> c < 2 ^ 64.
Proof.
  unfold uadd, chk_add. destruct (a + b <? 2 ^ 64) eqn:E.
  - intros H; inversion H; lia.
  - destruct dbg; [discriminate|]. intros H; inversion H. unfold wrapN. apply N.mod_lt. lia.
Qed.

Lemma sum_sizes_lt dbg szf : forall ex acc n, acc < 2 ^ 64 -> sum_sizes dbg szf acc ex = Ok n -> n < 2 ^ 64.
Proof.
  induction ex as [|o r IH]; intros acc n Ha H.
  - rewrite sum_sizes_nil in H. inversion H; subst; exact Ha.
  - rewrite sum_sizes_cons in H. apply bind_ok in H. destruct H as [s [_ H]].
    apply bind_ok in H. destruct H as [a' [Hu H]]. eapply IH; [|exact H]. eapply uadd_lt; eauto.
Qed.

Lemma in_i64_in_signed v : in_i64 v = true -> (- 2 ^ 63 <= v < 2 ^ 63)%Z.
Proof. unfold in_i64. lia. Qed.

(* the one-byte forms lit0..31 / reg0..31 / breg0..31: `base + n` does not overflow the opcode byte *)
Lemma short_opcode dbg base n c : n < 32 -> base + 32 <= 256 -> chk_add 8 dbg base (wrap8 n) = Ok c -> c = base + n.
Proof. intros Hn Hb. rewrite wrap8_small, chk_add_ok by lia. congruence. Qed.

Lemma only_ok r bs fx : only r = Ok (bs, fx) -> r = Ok bs /\ fx = [].
Proof. unfold only. destruct r; cbn [bind]; intros H; inversion H; auto. Qed.

(* the unit offset of an entry, as a ULEB operand *)
Lemma typed_operand dbg e uo en off b :
  wf_uoffs uo = true -> entry_offset dbg uo en = Ok off -> write_uleb128 off = Ok b ->
  reads (dcfg_of e) K_uleb (AU off) b.
Proof. intros Huo Ho Hb. apply rdk_uleb; [exact Hb|eapply entry_offset_lt; eauto]. Qed.

(* the placeholder of a reference to another unit's entry *)
Lemma write_ref_inv be refs r size at_ b fx :
  write_ref be refs r size at_ = Ok (b, fx) -> (exists u en, r = REntry u en) /\ write_udata be 0 size = Ok b.
Proof.
  unfold write_ref. destruct r as [s|u en]; [discriminate|]. destruct refs; [|discriminate].
  intros H. apply bind_ok in H as (z & Hz & H). injection H as <- _. eauto.
Qed.

(* skip / bra: the displacement read back reaches the target's start *)
Lemma branch_operand_reads dbg e offsets t pos b :
  pos + 3 < 2 ^ 63 -> Forall (fun x => x < 2 ^ 63) offsets ->
  branch_operand dbg (e_be e) offsets t (pos + 1) = Ok b ->
  exists tv disp, nth_N offsets t = Some tv /\ (Z.of_N pos + 3 + disp = Z.of_N tv)%Z /\
                  in_signed 16 disp = true /\ reads (dcfg_of e) K_i16 (AS disp) b.
Proof.
  intros Hp Ho H. rewrite branch_operand_spec in H;
    [|lia|intros tv Htv; apply nth_N_In in Htv; rewrite Forall_forall in Ho; apply Ho; exact Htv].
  destruct (nth_N offsets t) as [tv|]; [|discriminate]. cbv zeta in H.
  destruct (in_signed 16 (Z.of_N tv - (Z.of_N (pos + 1) + 2))) eqn:Ei; [|discriminate]. injection H as <-.
  exists tv, (Z.of_N tv - (Z.of_N (pos + 1) + 2))%Z. split; [reflexivity|]. split; [lia|]. split; [exact Ei|].
  apply (rdk_i16 (dcfg_of e)). exact Ei.
Qed.

Lemma decode_one_wasm c k i b rest :
  k < 3 -> rd_uleb (b ++ rest) = Some (i, rest) -> i < 4294967296 ->
  decode_one c (n2b 237 :: n2b k :: b ++ rest) =
  Some ((if k =? 0 then DoWasmLocal i else if k =? 1 then DoWasmGlobal i else DoWasmStack i), rest).
Proof.
  intros Hk Hr Hi. unfold decode_one. rewrite b2n_n2b_small by lia. rewrite N.eqb_refl.
  unfold decode_wasm. rewrite b2n_n2b_small by lia.
  destruct (k <? 3) eqn:E; [|lia]. rewrite Hr.
  destruct (i <? 2 ^ 32) eqn:E2; [reflexivity|lia].
Qed.

(* the entry whose unit offset an operation embeds *)
Definition uses_entry (o : wop) : option N :=
  match o with
  | WoConstType b _ => Some b
  | WoRegType _ b => Some b
  | WoDerefType _ _ b => Some b
  | WoCall en => Some en
  | WoParameterRef en => Some en
  | WoConvert (Some b) => Some b
  | WoReinterpret (Some b) => Some b
  | _ => None
  end.

(* call_ref / variable_value / implicit_pointer: a placeholder of the reference size and one fix-up
   pointing at it; symbols and a missing fix-up list are errors *)
Definition ref_operand (e : enc) (o : wop) : option (dref * N) :=
  match o with
  | WoCallRef r => Some (r, word_size (e_fmt64 e))
  | WoVarValue r => Some (r, word_size (e_fmt64 e))
  | WoImplicitPointer r _ => Some (r, iptr_size e)
  | _ => None
  end.

(* ---- one lemma per shape of emission: inversion of the writer's arm, then the table look-up ---- *)

(* opcode alone *)
Lemma no_operand c K d bs (fx : list fixup) :
  Ok ([n2b K], @nil fixup) = Ok (bs, fx) ->
  K < 256 -> K <> 237 -> layout K = Some [] -> meaning c K [] = Some d ->
  forall rest, decode_one c (bs ++ rest) = Some (d, rest).
Proof. intros H HK H237 HL HM. injection H as <- _. apply decode_op0; assumption. Qed.

(* opcode and one byte *)
Lemma u8_operand c K v d bs (fx : list fixup) :
  Ok ([n2b K; n2b v], @nil fixup) = Ok (bs, fx) -> v < 256 ->
  K < 256 -> K <> 237 -> layout K = Some [K_u8] -> meaning c K [AU v] = Some d ->
  forall rest, decode_one c (bs ++ rest) = Some (d, rest).
Proof.
  intros H Hv HK H237 HL HM. injection H as <- _.
  apply (decode_op1 c K K_u8 (AU v) d [n2b v]); try assumption. apply rdk_u8. exact Hv.
Qed.

(* lit0..31 / reg0..31: the operand is in the opcode *)
Lemma short_form c dbg base n d bs fx :
  only (let* k := chk_add 8 dbg base (wrap8 n) in Ok [n2b k]) = Ok (bs, fx) ->
  n < 32 -> base + 32 <= 256 -> base + n <> 237 ->
  layout (base + n) = Some [] -> meaning c (base + n) [] = Some d ->
  forall rest, decode_one c (bs ++ rest) = Some (d, rest).
Proof.
  intros H Hn Hb H237 HL HM. apply only_ok in H as [H _]. apply bind_ok in H as (k & Hk & H). injection H as <-.
  apply short_opcode in Hk as ->; [|lia..]. apply decode_op0; try assumption. lia.
Qed.

(* opcode and one operand written by W *)
Lemma one_operand c K k a d (W : res (list byte)) bs fx :
  only (let* b := W in Ok (n2b K :: b)) = Ok (bs, fx) ->
  K < 256 -> K <> 237 -> layout K = Some [k] -> meaning c K [a] = Some d ->
  (forall b, W = Ok b -> reads c k a b) ->
  forall rest, decode_one c (bs ++ rest) = Some (d, rest).
Proof.
  intros H HK H237 HL HM R rest. apply only_ok in H as [H _]. apply bind_ok in H as (b & Hb & H). injection H as <-.
  apply decode_op1 with (k := k) (a := a); auto.
Qed.

(* ... a ULEB128 / SLEB128 value of the operand's Rust type *)
Lemma uleb_operand c K v d bs fx :
  only (let* b := write_uleb128 v in Ok (n2b K :: b)) = Ok (bs, fx) -> v < 2 ^ 64 ->
  K < 256 -> K <> 237 -> layout K = Some [K_uleb] -> meaning c K [AU v] = Some d ->
  forall rest, decode_one c (bs ++ rest) = Some (d, rest).
Proof. intros H Hv HK H237 HL HM. apply (one_operand c K K_uleb (AU v) d _ _ _ H); auto using rdk_uleb. Qed.

Lemma sleb_operand c K v d bs fx :
  only (let* b := write_sleb128 v in Ok (n2b K :: b)) = Ok (bs, fx) -> in_i64 v = true ->
  K < 256 -> K <> 237 -> layout K = Some [K_sleb] -> meaning c K [AS v] = Some d ->
  forall rest, decode_one c (bs ++ rest) = Some (d, rest).
Proof. intros H Hv HK H237 HL HM. apply (one_operand c K K_sleb (AS v) d _ _ _ H); auto using rdk_sleb. Qed.

(* register and offset: breg0..31 with the register in the opcode, or bregx *)
Lemma breg_decodes c dbg reg off bs fx :
  only (let* h := (if reg <? 32 then let* k := chk_add 8 dbg 112 (wrap8 reg) in Ok [n2b k]
                   else let* b := write_uleb128 reg in Ok (n2b 146 :: b)) in
        let* s := write_sleb128 off in Ok (h ++ s)) = Ok (bs, fx) ->
  reg < 65536 -> in_i64 off = true ->
  forall rest, decode_one c (bs ++ rest) = Some (DoRegOffset reg off 0, rest).
Proof.
  intros H Hr Ho. apply only_ok in H as [H _]. apply bind_ok in H as (h & Hh & H).
  apply bind_ok in H as (s & Hs & H). injection H as <-.
  destruct (reg <? 32) eqn:Er; apply bind_ok in Hh as (b & Hb & Hh); injection Hh as <-.
  - apply short_opcode in Hb as ->; [|lia..].
    apply (decode_op1 c (112 + reg) K_sleb (AS off));
      [lia|lia|apply layout_112_143; lia|apply meaning_breg; lia|apply rdk_sleb; assumption].
  - apply (decode_op2 c 146 K_uleb K_sleb (AU reg) (AS off)); [lia|lia|reflexivity| | |].
    + unfold meaning. cbn. destruct (reg <? 65536) eqn:E; [reflexivity|lia].
    + apply rdk_uleb; [assumption|lia].
    + apply rdk_sleb; assumption.
Qed.

(* skip / bra *)
Lemma branch_decodes dbg e offsets t pos K (mk : Z -> dop) bs fx rest :
  only (let* b := branch_operand dbg (e_be e) offsets t (pos + 1) in Ok (n2b K :: b)) = Ok (bs, fx) ->
  pos + blen bs < 2 ^ 63 -> Forall (fun x => x < 2 ^ 63) offsets ->
  K < 256 -> K <> 237 -> layout K = Some [K_i16] -> (forall x, meaning (dcfg_of e) K [AS x] = Some (mk x)) ->
  exists tv disp, nth_N offsets t = Some tv /\ (Z.of_N pos + 3 + disp = Z.of_N tv)%Z /\
                  decode_one (dcfg_of e) (bs ++ rest) = Some (mk disp, rest).
Proof.
  intros H Hpos Hoffs HK H237 HL HM. apply only_ok in H as [H _]. apply bind_ok in H as (b & Hb & H). injection H as <-.
  rewrite blen_cons in Hpos. pose proof (branch_operand_len _ _ _ _ _ _ Hb) as Hl.
  destruct (branch_operand_reads dbg e offsets t pos b) as (tv & disp & Ht & Hd & _ & R); [lia|assumption..|].
  exists tv, disp. split; [exact Ht|]. split; [exact Hd|]. apply decode_op1 with (k := K_i16) (a := AS disp); auto.
Qed.

(* DW_OP_WASM_location: sub-opcode k, then the index *)
Lemma wasm_decodes c k i bs fx rest :
  only (let* b := write_uleb128 i in Ok (n2b 237 :: n2b k :: b)) = Ok (bs, fx) ->
  k < 3 -> (i <? two32) = true ->
  decode_one c (bs ++ rest) =
  Some ((if k =? 0 then DoWasmLocal i else if k =? 1 then DoWasmGlobal i else DoWasmStack i), rest).
Proof.
  intros H Hk Hi. apply only_ok in H as [H _]. apply bind_ok in H as (b & Hb & H). injection H as <-.
  (* the bound goes to Prop before lia sees it: with (i <? 2^32) = true in the context the kernel does not finish
     checking lia's proofs *)
  apply N.ltb_lt in Hi. unfold two32 in Hi.
  apply (decode_one_wasm c k); [exact Hk|apply rd_uleb_written; [assumption|lia]|lia].
Qed.

(* ---- operations that embed the unit offset of an entry ---- *)
Lemma decode_written_typed dbg e uo refs offsets pos o en bs fx rest :
  uses_entry o = Some en -> wf_op o = true -> wf_uoffs uo = true ->
  write_op dbg e uo refs offsets pos o = Ok (bs, fx) ->
  exists d, decode_one (dcfg_of e) (bs ++ rest) = Some (d, rest) /\
            normal_form dbg e uo refs offsets pos o bs d.
Proof.
  intros Hu Hwf Huo H. pose (c := dcfg_of e).
  destruct o; try discriminate Hu; cbn [write_op] in H; cbn [wf_op] in Hwf; cbn [normal_form];
    repeat match goal with Hx : _ && _ = true |- _ => apply andb_true_iff in Hx; destruct Hx end;
    apply only_ok in H as [H ->].
  - (* ConstType *) apply bind_ok in H as (off & Ho & H).
    apply bind_ok in H as (b & Hb & H). apply bind_ok in H as (l & Hl & H). injection H as <-.
    exists (DoTypedLiteral off value). split; [|exists off; auto].
    apply (decode_op2 c (if v5 e then 164 else 244) K_uleb K_blk_u8 (AU off) (AB value));
      try (destruct (v5 e); (reflexivity || discriminate)).
    + eapply typed_operand; eassumption.
    + apply (rdk_blk_u8 c). assumption.
  - (* RegType *) apply bind_ok in H as (r & Hr & H).
    apply bind_ok in H as (off & Ho & H). apply bind_ok in H as (b & Hb & H). injection H as <-.
    exists (DoRegOffset reg 0 off). split; [|exists off; auto].
    apply (decode_op2 c (if v5 e then 165 else 245) K_uleb K_uleb (AU reg) (AU off));
      try (destruct (v5 e); (reflexivity || discriminate)).
    + destruct (v5 e); unfold meaning; cbn; destruct (reg <? 65536) eqn:E; (reflexivity || lia).
    + apply rdk_uleb; [assumption|lia].
    + eapply typed_operand; eassumption.
  - (* DerefType *) apply bind_ok in H as (off & Ho & H). apply bind_ok in H as (b & Hb & H). injection H as <-.
    exists (DoDeref off size space). split; [|exists off; auto].
    apply (decode_op2 c (if space then 167 else if v5 e then 166 else 246) K_u8 K_uleb (AU size) (AU off) _ [n2b size]);
      try (destruct space, (v5 e); (reflexivity || discriminate)).
    + apply rdk_u8. lia.
    + eapply typed_operand; eassumption.
  - (* Call *) apply bind_ok in H as (off & Ho & H). apply bind_ok in H as (b & Hb & H). injection H as <-.
    exists (DoCallUnit off). split; [|exists off; auto].
    apply (decode_op1 c 153 K_u32 (AU off)); [lia|lia|reflexivity|reflexivity|].
    apply (rdk_u32 c); [eapply entry_offset_lt; eauto|assumption].
  - (* Convert *) destruct base as [en'|]; [|discriminate Hu].
    apply bind_ok in H as (b & Hb & H). injection H as <-. apply bind_ok in Hb as (off & Ho & Hb).
    exists (DoConvert off). split; [|exists off; auto].
    apply (decode_op1 c (if v5 e then 168 else 247) K_uleb (AU off)); try (destruct (v5 e); (reflexivity || discriminate)).
    eapply typed_operand; eassumption.
  - (* Reinterpret *) destruct base as [en'|]; [|discriminate Hu].
    apply bind_ok in H as (b & Hb & H). injection H as <-. apply bind_ok in Hb as (off & Ho & Hb).
    exists (DoReinterpret off). split; [|exists off; auto].
    apply (decode_op1 c (if v5 e then 169 else 249) K_uleb (AU off)); try (destruct (v5 e); (reflexivity || discriminate)).
    eapply typed_operand; eassumption.
  - (* ParameterRef *) apply bind_ok in H as (off & Ho & H). apply bind_ok in H as (b & Hb & H). injection H as <-.
    exists (DoParameterRef off). split; [|exists off; auto].
    apply (decode_op1 c 250 K_u32 (AU off)); [lia|lia|reflexivity|reflexivity|].
    apply (rdk_u32 c); [eapply entry_offset_lt; eauto|assumption].
Qed.

(* ---- operations with a reference to an entry of any unit: a zero placeholder ---- *)
Lemma decode_written_ref dbg e uo refs offsets pos o r size bs fx rest :
  ref_operand e o = Some (r, size) -> wf_op o = true ->
  write_op dbg e uo refs offsets pos o = Ok (bs, fx) ->
  exists d, decode_one (dcfg_of e) (bs ++ rest) = Some (d, rest) /\
            normal_form dbg e uo refs offsets pos o bs d.
Proof.
  intros Hr Hwf H. pose (c := dcfg_of e).
  destruct o; try discriminate Hr; cbn [write_op] in H; cbn [wf_op] in Hwf; cbn [normal_form];
    apply bind_ok in H as ([b f] & Hb & H); apply write_ref_inv in Hb as [(u & en & ->) Hz].
  - (* CallRef *) injection H as <- <-. exists (DoCallRef 0). split; [|reflexivity].
    apply (decode_op1 c 154 K_off (AU 0)); [lia|lia|reflexivity|reflexivity|]. apply (rdk_off c); [lia|exact Hz].
  - (* VarValue *) injection H as <- <-. exists (DoVarValue 0). split; [|reflexivity].
    apply (decode_op1 c 253 K_off (AU 0)); [lia|lia|reflexivity|reflexivity|]. apply (rdk_off c); [lia|exact Hz].
  - (* ImplicitPointer *) apply bind_ok in H as (s & Hs & H). injection H as <- <-.
    apply andb_true_iff in Hwf. destruct Hwf as [_ Hwf].
    exists (DoImplicitPointer 0 byte_off). split; [|reflexivity].
    apply (decode_op2 c (if v5 e then 160 else 242) K_ref K_sleb (AU 0) (AS byte_off));
      try (destruct (v5 e); (reflexivity || discriminate)).
    + apply rdk_ref; [lia|exact Hz].
    + apply rdk_sleb; assumption.
Qed.

(* Every operation but entry_value. The dispatch names, per operation, the opcode and the shape lemma; the table
   side conditions (opcode below 256, not 0xed, layout, meaning) are closed by evaluation. *)
Lemma decode_written_leaf dbg e uo refs offsets pos o bs fx rest :
  (forall ex, o <> WoEntryValue ex) ->
  wf_op o = true -> wf_uoffs uo = true -> decodable o = true ->
  pos + blen bs < 2 ^ 63 -> Forall (fun x => x < 2 ^ 63) offsets ->
  write_op dbg e uo refs offsets pos o = Ok (bs, fx) ->
  exists d, decode_one (dcfg_of e) (bs ++ rest) = Some (d, rest) /\
            normal_form dbg e uo refs offsets pos o bs d.
Proof.
  intros Hne Hwf Huo Hdec Hpos Hoffs H. pose (c := dcfg_of e).
  destruct (uses_entry o) as [en|] eqn:Eu; [eapply decode_written_typed; eassumption|].
  destruct (ref_operand e o) as [[r size]|] eqn:Er; [eapply decode_written_ref; eassumption|].
  destruct o; try (exfalso; eapply Hne; reflexivity); try discriminate Eu; try discriminate Er;
    cbn [write_op] in H; cbn [wf_op decodable] in Hwf, Hdec; cbn [normal_form];
    repeat match goal with Hx : _ && _ = true |- _ => apply andb_true_iff in Hx; destruct Hx end;
    repeat match goal with Hx : is_u64 _ = true |- _ => apply is_u64_lt in Hx end.
  - (* Raw *) discriminate.
  - (* Simple *) destruct (layout opc) as [[|k ks]|] eqn:EL; try discriminate.
    destruct (meaning (dcfg_of e) opc []) as [d|] eqn:EM.
    + exists d. split; [|reflexivity]. apply (no_operand c opc d _ _ H); try assumption; [lia|].
      intros ->. vm_compute in EL. discriminate.
    + exfalso. unfold meaning in EM.
      repeat match type of EM with context [if ?c then _ else _] => destruct c end; discriminate.
  - (* Address *) destruct a as [v|sy ad]; [|apply only_ok in H as [H _]; apply bind_ok in H as (b & Hb & _); discriminate].
    apply is_u64_lt in Hwf. exists (DoAddress v). split; [|reflexivity].
    apply (one_operand c 3 K_addr (AU v) _ _ _ _ H); [lia|lia|reflexivity|reflexivity|].
    intros b Hb. apply (rdk_addr c); assumption.
  - (* UConst: lit0..31 or constu *) exists (DoUConst v). split; [|reflexivity]. destruct (v <? 32) eqn:Ev.
    + apply (short_form c dbg 48 v _ _ _ H); [lia|lia|lia|apply layout_48_111; lia|apply meaning_lit; lia].
    + apply (uleb_operand c 16 v _ _ _ H); (lia || reflexivity).
  - (* SConst *) exists (DoSConst v). split; [|reflexivity].
    apply (sleb_operand c 17 v _ _ _ H); (assumption || lia || reflexivity).
  - (* FrameOffset *) exists (DoFrameOffset off). split; [|reflexivity].
    apply (sleb_operand c 145 off _ _ _ H); (assumption || lia || reflexivity).
  - (* RegOffset: breg0..31 or bregx *) exists (DoRegOffset reg off 0). split; [|reflexivity].
    apply (breg_decodes c dbg reg off _ _ H); (assumption || lia).
  - (* Pick: dup / over / pick *) exists (DoPick index). split; [|reflexivity].
    destruct (index =? 0) eqn:E0; [|destruct (index =? 1) eqn:E1].
    + assert (index = 0) by lia. subst. apply (no_operand c 18 _ _ _ H); (lia || reflexivity).
    + assert (index = 1) by lia. subst. apply (no_operand c 20 _ _ _ H); (lia || reflexivity).
    + apply (u8_operand c 21 index _ _ _ H); (lia || reflexivity).
  - (* Deref *) exists (DoDeref 0 (e_asize e) space). split; [|reflexivity].
    apply (no_operand c (if space then 24 else 6) _ _ _ H); destruct space; (reflexivity || discriminate).
  - (* DerefSize *) exists (DoDeref 0 size space). split; [|reflexivity].
    apply (u8_operand c (if space then 149 else 148) size _ _ _ H); try lia; destruct space; (reflexivity || discriminate).
  - (* PlusConst *) exists (DoPlusConst v). split; [|reflexivity].
    apply (uleb_operand c 35 v _ _ _ H); (lia || reflexivity).
  - (* Skip *)
    destruct (branch_decodes dbg e offsets target pos 47 DoSkip _ _ rest H) as (tv & disp & Ht & Hd & D);
      try assumption; try reflexivity; try lia. exists (DoSkip disp). split; [exact D|exists tv, disp; auto].
  - (* Branch *)
    destruct (branch_decodes dbg e offsets target pos 40 DoBra _ _ rest H) as (tv & disp & Ht & Hd & D);
      try assumption; try reflexivity; try lia. exists (DoBra disp). split; [exact D|exists tv, disp; auto].
  - (* Convert without a type *) destruct base; [discriminate Eu|]. exists (DoConvert 0). split; [|reflexivity].
    apply (one_operand c (if v5 e then 168 else 247) K_uleb (AU 0) _ _ _ _ H); try (destruct (v5 e); (reflexivity || discriminate)).
    intros b Hb. injection Hb as <-. apply rdk_uleb; [reflexivity|lia].
  - (* Reinterpret without a type *) destruct base; [discriminate Eu|]. exists (DoReinterpret 0). split; [|reflexivity].
    apply (one_operand c (if v5 e then 169 else 249) K_uleb (AU 0) _ _ _ _ H); try (destruct (v5 e); (reflexivity || discriminate)).
    intros b Hb. injection Hb as <-. apply rdk_uleb; [reflexivity|lia].
  - (* Register: reg0..31 or regx *) exists (DoRegister reg). split; [|reflexivity]. destruct (reg <? 32) eqn:Er'.
    + apply (short_form c dbg 80 reg _ _ _ H); [lia|lia|lia|apply layout_48_111; lia|apply meaning_reg; lia].
    + apply (uleb_operand c 144 reg _ _ _ H); try lia; try reflexivity.
      unfold meaning. cbn. destruct (reg <? 65536) eqn:E; [reflexivity|lia].
  - (* ImplicitValue *) apply only_ok in H as [H ->]. apply bind_ok in H as (b & Hb & H). injection H as <-.
    rewrite blen_cons, blen_app in Hpos.
    exists (DoImplicitValue data). split; [|reflexivity].
    apply (decode_op1 c 158 K_blk_uleb (AB data)); [lia|lia|reflexivity|reflexivity|]. apply rdk_blk_uleb; [assumption|lia].
  - (* Piece *) exists (DoPiece (size_in_bytes * 8) None). split; [|reflexivity].
    apply (uleb_operand c 147 size_in_bytes _ _ _ H); try lia; try reflexivity.
    unfold meaning. cbn. destruct (size_in_bytes * 8 <? 2 ^ 64) eqn:E; [reflexivity|lia].
  - (* BitPiece *) apply only_ok in H as [H ->]. apply bind_ok in H as (a & Ha & H).
    apply bind_ok in H as (b & Hb & H). injection H as <-.
    exists (DoPiece size_in_bits (Some bit_off)). split; [|reflexivity].
    apply (decode_op2 c 157 K_uleb K_uleb (AU size_in_bits) (AU bit_off));
      [lia|lia|reflexivity|reflexivity|apply rdk_uleb; assumption..].
  - (* WasmLocal *) exists (DoWasmLocal i). split; [|reflexivity]. apply (wasm_decodes c 0 i _ _ rest H); [lia|exact Hwf].
  - (* WasmGlobal *) exists (DoWasmGlobal i). split; [|reflexivity]. apply (wasm_decodes c 1 i _ _ rest H); [lia|exact Hwf].
  - (* WasmStack *) exists (DoWasmStack i). split; [|reflexivity]. apply (wasm_decodes c 2 i _ _ rest H); [lia|exact Hwf].
Qed.

(* every operation, nested ones included: the bytes of one written operation decode to its normal form *)
Theorem decode_written_op dbg e uo refs offsets pos o bs fx rest :
  wf_op o = true -> wf_uoffs uo = true -> decodable o = true ->
  pos + blen bs < 2 ^ 63 -> Forall (fun x => x < 2 ^ 63) offsets ->
  write_op dbg e uo refs offsets pos o = Ok (bs, fx) ->
  exists d, decode_one (dcfg_of e) (bs ++ rest) = Some (d, rest) /\
            normal_form dbg e uo refs offsets pos o bs d.
Proof.
  intros Hwf Huo Hdec Hpos Hoffs H.
  destruct o; try (eapply decode_written_leaf; eauto; intros ex Hex; discriminate Hex).
  (* EntryValue: the block is the inner expression, its ULEB length the sum of sizes = the emitted length *)
  cbn [write_op] in H.
  apply bind_ok in H as (len & Hlen & H). apply bind_ok in H as (lb & Hlb & H).
  apply bind_ok in H as ([inner f] & Hw & H). injection H as <- <-.
  rewrite blen_cons, blen_app in Hpos.
  assert (Hsz : sum_sizes dbg (size_op dbg e uo) 0 expr = Ok (blen inner)).
  { eapply write_expr_with_sizes; [|exact Hw|lia].
    apply Forall_forall. intros o _ offs' pos' b1 f1. apply op_size_write_all. }
  rewrite Hsz in Hlen. injection Hlen as <-.
  exists (DoEntryValue inner). split; [|exists lb, inner, f; auto].
  apply (decode_op1 _ (if v5 e then 163 else 243) K_blk_uleb (AB inner)); try (destruct (v5 e); (reflexivity || discriminate)).
  apply rdk_blk_uleb; [assumption|lia].
Qed.

(* a decodable operation emits at least one byte *)
Lemma decode_one_nil c : decode_one c [] = None.
Proof. reflexivity. Qed.

(* ---- the whole expression ---- *)

(* `decoded nf base ex offsets dl`: dl lists, for each operation of ex in order, its offset from the start of
   the expression and an operation in normal form for it *)
Inductive decoded (nf : N -> wop -> dop -> Prop) (base : N) : list wop -> list N -> list (N * dop) -> Prop :=
| dec_nil fin : decoded nf base [] [fin] []
| dec_cons o r p offs d dl :
    nf p o d -> decoded nf base r offs dl ->
    decoded nf base (o :: r) (p :: offs) ((p - base, d) :: dl).

Lemma laid_decode c (wr : N -> wop -> wres) (nf : N -> wop -> dop -> Prop) base :
  forall ex pos offs bs fx,
  laid wr pos ex offs bs fx ->
  (forall pos o b f rest, In o ex -> wr pos o = Ok (b, f) -> pos + blen b < 2 ^ 63 ->
     exists d, decode_one c (b ++ rest) = Some (d, rest) /\ nf pos o d) ->
  pos + blen bs < 2 ^ 63 -> base <= pos ->
  forall fuel, (length bs <= fuel)%nat ->
  exists dl, decode_from fuel c (pos - base) bs = Some dl /\ decoded nf base ex offs dl.
Proof.
  induction 1 as [pos|pos o r offs b f bs fx Ho Hl IH]; intros Hdec Hpos Hbase fuel Hfuel.
  - exists []. split; [destruct fuel; reflexivity|constructor].
  - rewrite blen_app in Hpos.
    destruct (Hdec pos o b f bs (or_introl eq_refl) Ho) as [d [Hd Hn]]; [lia|].
    assert (Hb : b <> []).
    { intros ->. destruct (Hdec pos o [] f [] (or_introl eq_refl) Ho) as [d' [Hd' _]]; [rewrite blen_nil; lia|].
      cbn [app] in Hd'. rewrite decode_one_nil in Hd'. discriminate. }
    destruct b as [|b0 b']; [congruence|].
    destruct fuel as [|fuel]; [cbn [app length] in Hfuel; lia|].
    destruct (IH) with (fuel := fuel) as [dl [Hdl Hdd]].
    + intros pos' o' b1 f1 rest Hin. apply Hdec. right. exact Hin.
    + lia.
    + lia.
    + cbn [app length] in Hfuel. rewrite app_length in Hfuel. lia.
    + exists ((pos - base, d) :: dl). split; [|constructor; assumption].
      cbn [app]. cbn [decode_from]. cbn [app] in Hd. rewrite Hd.
      replace (pos - base + (N.of_nat (length (b0 :: b' ++ bs)) - N.of_nat (length bs)))
        with (pos + blen (b0 :: b') - base).
      * rewrite Hdl. reflexivity.
      * unfold blen. cbn [length]. rewrite app_length. lia.
Qed.

Lemma laid_offsets_bound wr : forall ex pos offs bs fx,
  laid wr pos ex offs bs fx -> forall bound, pos + blen bs < bound -> Forall (fun x => x < bound) offs.
Proof.
  induction 1 as [pos|pos o r offs b f bs fx Ho Hl IH]; intros bound Hb.
  - constructor; [rewrite blen_nil in Hb; lia|constructor].
  - rewrite blen_app in Hb. constructor; [lia|]. apply IH. lia.
Qed.

Lemma laid_wr_ext (wr wr' : N -> wop -> wres) : forall ex pos offs bs fx,
  laid wr pos ex offs bs fx -> (forall p o, wr p o = wr' p o) -> laid wr' pos ex offs bs fx.
Proof. induction 1; intros E; constructor; auto. rewrite <- E. assumption. Qed.

(* (3) what was written decodes, operation by operation, to the normal forms of the operations built *)
Theorem decode_written_expr dbg e uo refs base ex bs fx :
  forallb wf_op ex = true -> wf_uoffs uo = true -> forallb decodable ex = true ->
  base + blen bs < 2 ^ 63 ->
  write_expr dbg e uo refs base ex = Ok (bs, fx) ->
  exists offsets dl,
    expr_offsets dbg e uo base ex = Ok offsets /\
    decode (dcfg_of e) bs = Some dl /\
    decoded (fun p o d => exists b, normal_form dbg e uo refs offsets p o b d) base ex offsets dl.
Proof.
  intros Hwf Huo Hdec Hpos H.
  destruct (write_expr_laid _ _ _ _ _ _ _ _ H) as [offsets [Ho Hl]].
  { lia. }
  exists offsets.
  pose proof (laid_offsets_bound _ _ _ _ _ _ Hl _ Hpos) as Hob.
  destruct (laid_decode (dcfg_of e) _ (fun p o d => exists b, normal_form dbg e uo refs offsets p o b d) base
              _ _ _ _ _ Hl) with (fuel := length bs) as [dl [Hdl Hdd]].
  - intros pos o b f rest Hin Hw Hp.
    rewrite forallb_forall in Hwf, Hdec.
    destruct (decode_written_op dbg e uo refs offsets pos o b f rest (Hwf _ Hin) Huo (Hdec _ Hin) Hp Hob Hw)
      as [d [Hd Hn]].
    exists d. split; [exact Hd|exists b; exact Hn].
  - exact Hpos.
  - lia.
  - lia.
  - exists dl. split; [exact Ho|]. split; [|exact Hdd].
    unfold decode. rewrite N.sub_diag in Hdl. exact Hdl.
Qed.

(* ================= (4) branches land on the start of the intended operation ================= *)

Lemma nth_N_nth_error {A} : forall (l : list A) n, nth_N l n = nth_error l (N.to_nat n).
Proof.
  induction l as [|x r IH]; intros n; cbn [nth_N].
  - destruct (N.to_nat n); reflexivity.
  - destruct (n =? 0) eqn:E.
    + assert (n = 0) by lia. subst. reflexivity.
    + rewrite IH. replace (N.to_nat n) with (S (N.to_nat (n - 1))) by lia. reflexivity.
Qed.

Lemma decoded_len nf base ex offs dl : decoded nf base ex offs dl -> length dl = length ex /\ length offs = S (length ex).
Proof. induction 1 as [|o r p offs d dl Hn Hd [IH1 IH2]]; cbn [length]; split; auto. Qed.

Lemma decoded_nth nf base : forall ex offs dl, decoded nf base ex offs dl ->
  forall k o, nth_error ex k = Some o ->
  exists p d, nth_error offs k = Some p /\ nth_error dl k = Some (p - base, d) /\ nf p o d.
Proof.
  induction 1 as [|o r p offs d dl Hn Hd IH]; intros k o' Hk.
  - destruct k; discriminate.
  - destruct k as [|k]; cbn [nth_error] in *.
    + inversion Hk; subst. exists p, d. auto.
    + apply IH. exact Hk.
Qed.

Lemma decoded_starts nf base : forall ex offs dl, decoded nf base ex offs dl ->
  map (fun p => p - base) offs = map fst dl ++ [last offs 0 - base].
Proof.
  induction 1 as [fin|o r p offs d dl Hn Hd IH].
  - reflexivity.
  - cbn [map app fst]. rewrite IH. f_equal. f_equal. f_equal.
    destruct offs as [|x xs]; [apply decoded_len in Hd; destruct Hd; discriminate|reflexivity].
Qed.

Lemma laid_offsets_ge wr : forall ex pos offs bs fx,
  laid wr pos ex offs bs fx -> Forall (fun p => pos <= p) offs.
Proof.
  induction 1 as [pos|pos o r offs b f bs fx Ho Hl IH].
  - constructor; [lia|constructor].
  - constructor; [lia|]. eapply Forall_impl; [|exact IH]. cbv beta. intros a Ha. lia.
Qed.

(* the start offsets of the decoded operations, then the end of the expression *)
Definition starts (dl : list (N * dop)) (bs : list byte) : list N := map fst dl ++ [blen bs].

(* ... and the offsets at which the decoded operations start, with the end of the expression, are the writer's
   offsets vector relative to the start of the expression: where a branch must land is where an operation starts *)
Lemma decode_written_starts dbg e uo refs base ex bs fx :
  forallb wf_op ex = true -> wf_uoffs uo = true -> forallb decodable ex = true ->
  base + blen bs < 2 ^ 63 ->
  write_expr dbg e uo refs base ex = Ok (bs, fx) ->
  exists offsets dl,
    decode (dcfg_of e) bs = Some dl /\
    decoded (fun p o d => exists b, normal_form dbg e uo refs offsets p o b d) base ex offsets dl /\
    starts dl bs = map (fun p => p - base) offsets /\ Forall (fun p => base <= p) offsets.
Proof.
  intros Hwf Huo Hdec Hpos H.
  destruct (decode_written_expr _ _ _ _ _ _ _ _ Hwf Huo Hdec Hpos H) as [offsets [dl [Ho [Hd Hdd]]]].
  destruct (write_expr_laid _ _ _ _ _ _ _ _ H) as [offsets' [Ho' Hl]]; [lia|].
  rewrite Ho in Ho'. injection Ho' as <-.
  exists offsets, dl. split; [exact Hd|]. split; [exact Hdd|]. split; [|exact (laid_offsets_ge _ _ _ _ _ _ Hl)].
  unfold starts. rewrite (decoded_starts _ _ _ _ _ Hdd), (laid_end _ _ _ _ _ _ Hl).
  do 2 f_equal. lia.
Qed.

(* exact behaviour of the two branch arms, including the two failure modes *)
Theorem branch_write_spec dbg e uo refs offsets pos t :
  pos + 3 < 2 ^ 63 -> Forall (fun x => x < 2 ^ 63) offsets ->
  let result (opc : N) :=
    match nth_N offsets t with
    | None => Panic                                   (* `offsets[target]` out of range *)
    | Some tv =>
        let d := (Z.of_N tv - (Z.of_N pos + 3))%Z in
        if in_signed 16 d then Ok (n2b opc :: enc_un 2 (e_be e) (of_signed 16 d), [])
        else Err WValueTooLarge
    end in
  write_op dbg e uo refs offsets pos (WoSkip t) = result 47 /\
  write_op dbg e uo refs offsets pos (WoBranch t) = result 40.
Proof.
  intros Hp Ho. cbv zeta. cbn [write_op]. unfold only.
  rewrite branch_operand_spec;
    [|lia|intros tv Htv; apply nth_N_In in Htv; rewrite Forall_forall in Ho; apply Ho; exact Htv].
  destruct (nth_N offsets t) as [tv|]; [|split; reflexivity].
  cbv zeta. replace (Z.of_N tv - (Z.of_N (pos + 1) + 2))%Z with (Z.of_N tv - (Z.of_N pos + 3))%Z by lia.
  destruct (in_signed 16 (Z.of_N tv - (Z.of_N pos + 3))); split; reflexivity.
Qed.

(* ================= (5) references to entries ================= *)

(* where the unit offset comes from, and the two ways of not having one *)
Theorem entry_offset_cases dbg uo en :
  entry_offset dbg uo en =
  match uo with
  | None => Err WUnsupportedCfiExpressionReference
  | Some u =>
      match nth_N (uo_entries u) en with
      | None => Err WUnsupportedExpressionForwardReference     (* id beyond the entries vector: reserved, never added *)
      | Some off =>
          if off =? 0 then Err WUnsupportedExpressionForwardReference
          else chk_sub 64 dbg off (uo_unit u)
      end
  end.
Proof.
  unfold entry_offset, unit_offset, debug_info_offset. destruct uo as [u|]; [|reflexivity].
  destruct (nth_N (uo_entries u) en) as [off|]; [|reflexivity].
  destruct (off =? 0); [reflexivity|]. cbn [bind].
  destruct (chk_sub 64 dbg off (uo_unit u)); reflexivity.
Qed.

Lemma entry_offset_base_size_err dbg uo en er :
  entry_offset dbg uo en = Err er -> base_size dbg uo en = Err er.
Proof.
  unfold entry_offset, base_size. destruct uo as [u|]; [|auto].
  destruct (unit_offset dbg u en) as [[v|]| | |]; cbn [bind]; auto; discriminate.
Qed.

(* without the target's unit offset both passes fail with the error that says why *)
Theorem typed_ref_needs_offset dbg e uo refs offsets pos o en er :
  uses_entry o = Some en -> wf_op o = true ->
  entry_offset dbg uo en = Err er ->
  write_op dbg e uo refs offsets pos o = Err er /\
  match o with
  | WoCall _ | WoParameterRef _ => True          (* fixed 4-byte operand: size() does not look the entry up *)
  | _ => size_op dbg e uo o = Err er
  end.
Proof.
  intros Hu Hwf He.
  destruct o; try discriminate Hu; cbn [uses_entry] in Hu;
    try (destruct base as [?|]; [|discriminate Hu]); inversion Hu; subst;
    cbn [write_op size_op]; unfold only; rewrite ?He, ?(entry_offset_base_size_err _ _ _ _ He); cbn [bind];
    try (split; [reflexivity|try reflexivity; exact I]).
  (* RegType writes the register first *)
  cbn [wf_op] in Hwf. apply andb_true_iff in Hwf. destruct Hwf as [Hr _].
  destruct (write_uleb128_enc reg) as [-> _]; [unfold two64; lia|]. cbn [bind]. split; reflexivity.
Qed.

Theorem ref_write_spec dbg e uo refs offsets pos o r size :
  ref_operand e o = Some (r, size) ->
  match r with
  | RSym _ => write_op dbg e uo refs offsets pos o = Err WInvalidReference
  | REntry u en =>
      if refs then
        forall bs fx, write_op dbg e uo refs offsets pos o = Ok (bs, fx) ->
          fx = [{| fx_offset := pos + 1; fx_size := size; fx_unit := u; fx_entry := en |}] /\
          exists opc z tail, bs = opc :: z ++ tail /\ write_udata (e_be e) 0 size = Ok z
      else write_op dbg e uo refs offsets pos o = Err WInvalidReference
  end.
Proof.
  intros Hr. destruct o; try discriminate Hr; cbn [ref_operand] in Hr; inversion Hr; subst; clear Hr;
    cbn [write_op]; unfold write_ref; destruct r as [s|u en]; try reflexivity; destruct refs; try reflexivity.
  - intros bs fx H. inv_all. split; [reflexivity|]. eexists _, _, []. rewrite app_nil_r. split; [reflexivity|eassumption].
  - intros bs fx H. inv_all. split; [reflexivity|]. eexists _, _, []. rewrite app_nil_r. split; [reflexivity|eassumption].
  - intros bs fx H. inv_all. split; [reflexivity|]. eexists _, _, _. split; [reflexivity|eassumption].
Qed.

(* applying a fix-up writes the target's .debug_info offset into the placeholder and nothing else *)
Lemma overwrite_length : forall buf n w, (n + length w <= length buf)%nat -> length (overwrite buf n w) = length buf.
Proof.
  induction buf as [|x buf IH]; intros n w H.
  - destruct n; destruct w; cbn in *; try lia; reflexivity.
  - destruct n as [|n].
    + destruct w as [|b w]; [reflexivity|]. cbn [overwrite length] in *. f_equal. apply (IH 0%nat). lia.
    + cbn [overwrite length] in *. f_equal. apply IH. lia.
Qed.

Lemma overwrite_skipn : forall buf n w, (n + length w <= length buf)%nat ->
  skipn n (overwrite buf n w) = w ++ skipn (n + length w) buf.
Proof.
  induction buf as [|x buf IH]; intros n w H.
  - destruct n; destruct w; cbn in *; try lia; reflexivity.
  - destruct n as [|n].
    + destruct w as [|b w]; [reflexivity|]. cbn [overwrite length skipn app Nat.add] in *.
      f_equal. specialize (IH 0%nat w). cbn [skipn Nat.add] in IH. apply IH. lia.
    + cbn [overwrite length skipn Nat.add] in *. apply IH. lia.
Qed.

Lemma overwrite_firstn : forall buf n w, firstn n (overwrite buf n w) = firstn n buf.
Proof.
  induction buf as [|x buf IH]; intros n w.
  - destruct n; destruct w; reflexivity.
  - destruct n as [|n]; [reflexivity|]. cbn [overwrite firstn]. f_equal. apply IH.
Qed.

