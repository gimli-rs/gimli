(* Proofs/UnitGlueProofs.v — lemmas about Model/UnitGlue.v (the glue of src/read/dwarf.rs): the root-attribute loop of
   Unit::new_with_abbreviations = the declarative choice of Spec/UnitGlueSpec.v for every attribute list; every field
   of the returned Unit; attr_string / attr_line_string / attr_address by variant over the string and address
   tables (C08 offset tables); implicit bases; make_dwo / copy_relocated_attributes; no panic. *)
From Coq Require Import List NArith ZArith Bool Lia.
From Coq.Strings Require Import Byte.
Require Import GV.Base.Res GV.Base.Byt GV.Base.Ints GV.Model.Leb GV.Model.Prim GV.Spec.FormSpec
               GV.Model.Attr GV.Spec.Forest GV.Model.AbbrevRd GV.Model.DieRd GV.Spec.ListSpec
               GV.Spec.UnitGlueSpec GV.Model.UnitGlue.
Import ListNotations.
Local Open Scope N_scope.

Lemma last_attr_snoc f l p : last_attr f (l ++ [p]) = if f p then Some p else last_attr f l.
Proof. unfold last_attr. rewrite rev_app_distr. reflexivity. Qed.

Lemma last_of_class_snoc sel cls l p :
  last_of_class sel cls (l ++ [p]) =
  if sel p && is_some (cls (val p)) then cls (val p) else last_of_class sel cls l.
Proof. unfold last_of_class. rewrite last_attr_snoc. destruct (sel p && is_some (cls (val p))); reflexivity. Qed.

Lemma first_of_class_snoc sel cls l p :
  first_of_class sel cls (l ++ [p]) =
  match first_of_class sel cls l with
  | Some i => Some i
  | None => if sel p && is_some (cls (val p)) then cls (val p) else None
  end.
Proof.
  unfold first_of_class, first_attr. induction l as [|x l IH]; cbn [app find].
  - destruct (sel p && is_some (cls (val p))); reflexivity.
  - destruct (sel x && is_some (cls (val x))) eqn:E; [|exact IH].
    apply andb_prop in E. destruct (cls (val x)); [reflexivity|destruct E; discriminate].
Qed.

(* one iteration, field by field: each attribute name assigns one field, and only when the value has
   the class the field holds *)
Lemma scan_step_fields s p :
  scan_step s p =
  mkScan (if named DW_AT_name p then Some (val p) else sc_name s)
         (if named DW_AT_comp_dir p then Some (val p) else sc_comp_dir s)
         (if named DW_AT_low_pc p then Some (val p) else sc_low_pc s)
         (if named DW_AT_stmt_list p && is_some (as_line_ref (val p)) then as_line_ref (val p) else sc_stmt s)
         (if named DW_AT_str_offsets_base p && is_some (as_sob (val p))
          then or_default (as_sob (val p)) 0 else sc_sob s)
         (if named2 DW_AT_addr_base DW_AT_GNU_addr_base p && is_some (as_addr_base (val p))
          then or_default (as_addr_base (val p)) 0 else sc_ab s)
         (if named DW_AT_loclists_base p && is_some (as_llb (val p))
          then or_default (as_llb (val p)) 0 else sc_llb s)
         (if named2 DW_AT_rnglists_base DW_AT_GNU_ranges_base p && is_some (as_rlb (val p))
          then or_default (as_rlb (val p)) 0 else sc_rlb s)
         (match sc_dwo_id s with
          | Some i => Some i
          | None => if named DW_AT_GNU_dwo_id p && is_some (as_dwo_id (val p)) then as_dwo_id (val p) else None
          end).
Proof.
  unfold scan_step, named, named2, val, nm. destruct p as [sp raw]; cbn [fst snd].
  generalize (attr_normalise (at_name sp) raw) as v. generalize (at_name sp) as n. intros n v.
  repeat match goal with
         | |- context [n =? ?c] => destruct (N.eqb_spec n c) as [->|_]
         end; destruct s as [? ? ? ? ? ? ? ? [i|]], v; reflexivity.
Qed.

Lemma default_sob_implicit v f dwo : default_str_offsets_base v f dwo = implicit_str_offsets_base v f dwo.
Proof. unfold default_str_offsets_base, implicit_str_offsets_base, initial_length_size.
       destruct ((5 <=? v) && dwo); [destruct f; reflexivity|reflexivity]. Qed.
Lemma default_lists_implicit v f dwo : ListsRd.default_lists_base v f dwo = implicit_lists_base v f dwo.
Proof. unfold ListsRd.default_lists_base, implicit_lists_base.
       destruct ((5 <=? v) && dwo); [destruct f; reflexivity|reflexivity]. Qed.

Lemma header_dwo_id_spec t : header_dwo_id t = header_id t.
Proof. destruct t; reflexivity. Qed.

(* the fields the root entry determines, for EVERY attribute list *)
Definition scan_spec (d : dwarf) (h : unit_header) (attrs : list rattr) : scan :=
  let ch := choose attrs in
  let e := u_enc h in
  mkScan (ch_name ch) (ch_comp_dir ch) (ch_low_pc ch) (ch_stmt_list ch)
         (or_default (ch_str_offsets_base ch) (implicit_str_offsets_base (version e) (fmt64 e) (dw_dwo d)))
         (or_default (ch_addr_base ch) 0)
         (or_default (ch_loclists_base ch) (implicit_lists_base (version e) (fmt64 e) (dw_dwo d)))
         (or_default (ch_rnglists_base ch) (implicit_lists_base (version e) (fmt64 e) (dw_dwo d)))
         (match header_id (u_type h) with Some i => Some i | None => ch_gnu_dwo_id ch end).

Lemma or_default_snoc (c : bool) (o o' : option N) d :
  (c = true -> is_some o = true) ->
  (if c then or_default o 0 else or_default o' d) = or_default (if c then o else o') d.
Proof. destruct c; [|reflexivity]. destruct o; [reflexivity|]. intros H. discriminate (H eq_refl). Qed.

Lemma scan_is_choice d h attrs : fold_left scan_step attrs (scan_init d h) = scan_spec d h attrs.
Proof.
  induction attrs as [|p l IH] using rev_ind.
  - unfold scan_init, scan_spec. cbn. rewrite default_sob_implicit, default_lists_implicit, header_dwo_id_spec.
    destruct (header_id (u_type h)); reflexivity.
  - rewrite fold_left_app. cbn [fold_left]. rewrite IH, scan_step_fields. unfold scan_spec, choose.
    cbn [sc_name sc_comp_dir sc_low_pc sc_stmt sc_sob sc_ab sc_llb sc_rlb sc_dwo_id
         ch_name ch_comp_dir ch_low_pc ch_stmt_list ch_str_offsets_base ch_addr_base ch_loclists_base
         ch_rnglists_base ch_gnu_dwo_id].
    rewrite !last_attr_snoc, !last_of_class_snoc, first_of_class_snoc.
    rewrite !or_default_snoc by (intros H; apply andb_prop in H; exact (proj2 H)).
    f_equal.
    + destruct (named DW_AT_name p); reflexivity.
    + destruct (named DW_AT_comp_dir p); reflexivity.
    + destruct (named DW_AT_low_pc p); reflexivity.
    + destruct (header_id (u_type h)); reflexivity.
Qed.

Require Import GV.Proofs.ListsRdProofs.
Require GV.Proofs.AttrProofs GV.Proofs.LineRdHdrSafe GV.Proofs.NavProofs GV.Proofs.AbbrevRdProofs.

Lemma read_cstr_until bs :
  read_cstr bs = match until_nul bs with
                 | Some s => Ok (s, skipn (S (length s)) bs)
                 | None => Err EUnexpectedEof
                 end.
Proof.
  induction bs as [|b r IH]; [reflexivity|]. cbn [read_cstr until_nul].
  destruct (b2n b =? 0); [reflexivity|]. rewrite IH.
  destruct (until_nul r) as [s|]; reflexivity.
Qed.

(* DebugStr::get_str / DebugLineStr::get_str = the NUL-terminated string at the offset, or UnexpectedEof *)
Lemma get_str_spec sect off :
  get_str sect off = match cstr_at sect off with Some s => Ok s | None => Err EUnexpectedEof end.
Proof.
  unfold get_str, cstr_at, ListsRd.skip.
  destruct (N.of_nat (length sect) <? off); [reflexivity|]. cbn [bind].
  rewrite read_cstr_until. destruct (until_nul (skipn (N.to_nat off) sect)); reflexivity.
Qed.

Lemma get_str_good sect off : good (get_str sect off).
Proof. rewrite get_str_spec. destruct (cstr_at sect off); [apply good_Ok|apply good_Err]. Qed.

Definition ok_or_eof {A} (o : option A) : res A := match o with Some a => Ok a | None => Err EUnexpectedEof end.

Lemma attr_line_string_spec d v :
  attr_line_string d v =
  match v with
  | VString s => Ok s
  | VDebugStrRef o => ok_or_eof (cstr_at (dw_str d) o)
  | VDebugStrRefSup o =>
      match dw_sup d with
      | Some s => ok_or_eof (cstr_at s o)
      | None => Err EExpectedStringAttributeValue
      end
  | VDebugLineStrRef o => ok_or_eof (cstr_at (dw_line_str d) o)
  | _ => Err EExpectedStringAttributeValue
  end.
Proof.
  unfold ok_or_eof.
  destruct v; try reflexivity; cbn [attr_line_string]; unfold dw_string, dw_line_string, dw_sup_string.
  - apply get_str_spec.
  - destruct (dw_sup d); [apply get_str_spec|reflexivity].
  - apply get_str_spec.
Qed.

Lemma attr_string_good d u v : good (attr_string d u v).
Proof.
  destruct v; cbn [attr_string]; try apply good_Err; try apply good_Ok;
    unfold dw_string, dw_line_string, dw_sup_string; try apply get_str_good.
  - destruct (dw_sup d); [apply get_str_good|apply good_Err].
  - unfold string_offset. apply good_bind; [apply c08_no_panic_tables; exact 1|intros; apply get_str_good].
Qed.

Lemma attr_address_good d u v : good (attr_address d u v).
Proof.
  destruct v; cbn [attr_address]; try apply good_Ok.
  unfold address. apply good_bind; [apply c08_no_panic_tables; exact false|intros; apply good_Ok].
Qed.

Lemma attr_string_ext d u u' v :
  un_header u = un_header u' -> un_str_offsets_base u = un_str_offsets_base u' ->
  attr_string d u v = attr_string d u' v.
Proof. intros H1 H2. destruct v; try reflexivity. cbn [attr_string]. unfold string_offset. rewrite H1, H2. reflexivity. Qed.

Lemma attr_address_ext d u u' v :
  un_header u = un_header u' -> un_addr_base u = un_addr_base u' ->
  attr_address d u v = attr_address d u' v.
Proof. intros H1 H2. destruct v; try reflexivity. cbn [attr_address]. unfold address. rewrite H1, H2. reflexivity. Qed.

Definition opt_of_res {A} (r : res A) : option A := match r with Ok a => Some a | _ => None end.

(* every field of the Unit that Unit::new returns, in terms of the choice made among the root attributes and of
   the FINISHED unit itself: name, comp_dir and low_pc are resolved against the bases the unit ends up with,
   wherever in the attribute list those bases were given *)
Lemma unit_of_root_fields dbg d h tbl root u :
  unit_of_root dbg d h tbl root = Ok u ->
  let sp := scan_spec d h (d_attrs root) in
  un_header u = h /\ un_abbrevs u = tbl /\
  un_str_offsets_base u = sc_sob sp /\ un_addr_base u = sc_ab sp /\
  un_loclists_base u = sc_llb sp /\ un_rnglists_base u = sc_rlb sp /\ un_dwo_id u = sc_dwo_id sp /\
  un_name u = match sc_name sp with Some v => opt_of_res (attr_string d u v) | None => None end /\
  un_comp_dir u = match sc_comp_dir sp with Some v => opt_of_res (attr_string d u v) | None => None end /\
  un_low_pc u = match sc_low_pc sp with
                | Some v => match attr_address d u v with Ok (Some a) => a | _ => 0 end
                | None => 0
                end /\
  match sc_stmt sp with
  | None => un_line_program u = None
  | Some off =>
      exists p, line_program dbg d off (address_size (u_enc h)) (un_comp_dir u) (un_name u) = Ok p /\
                un_line_program u = Some p
  end.
Proof.
  unfold unit_of_root. rewrite scan_is_choice. intros H. set (sp := scan_spec d h (d_attrs root)) in *.
  set (u0 := mkU h tbl None None 0 (sc_sob sp) (sc_ab sp) (sc_llb sp) (sc_rlb sp) None (sc_dwo_id sp)) in H.
  destruct (match sc_name sp with Some v => res_ok (attr_string d u0 v) | None => Ok None end) as [name| | |] eqn:En;
    cbn [bind] in H; try discriminate.
  destruct (match sc_comp_dir sp with Some v => res_ok (attr_string d u0 v) | None => Ok None end) as [cd| | |] eqn:Ec;
    cbn [bind] in H; try discriminate.
  destruct (match sc_stmt sp with
            | Some off => let* p := line_program dbg d off (address_size (u_enc h)) cd name in Ok (Some p)
            | None => Ok None end) as [lp| | |] eqn:El; cbn [bind] in H; try discriminate.
  destruct (match sc_low_pc sp with
            | Some v => let* o := attr_address d u0 v in Ok match o with Some a => a | None => 0 end
            | None => Ok 0 end) as [low| | |] eqn:Ea; cbn [bind] in H; try discriminate.
  inversion H; subst u; clear H.
  cbn [un_header un_abbrevs un_str_offsets_base un_addr_base un_loclists_base un_rnglists_base un_dwo_id
       un_name un_comp_dir un_low_pc un_line_program].
  repeat (split; [reflexivity|]).
  set (u := mkU h tbl name cd low (sc_sob sp) (sc_ab sp) (sc_llb sp) (sc_rlb sp) lp (sc_dwo_id sp)).
  assert (Hs : forall v, attr_string d u v = attr_string d u0 v) by (intros; apply attr_string_ext; reflexivity).
  assert (Ha : forall v, attr_address d u v = attr_address d u0 v) by (intros; apply attr_address_ext; reflexivity).
  split; [|split; [|split]].
  - destruct (sc_name sp) as [v|]; [|congruence]. rewrite Hs.
    destruct (attr_string d u0 v); cbn [res_ok opt_of_res] in *; congruence.
  - destruct (sc_comp_dir sp) as [v|]; [|congruence]. rewrite Hs.
    destruct (attr_string d u0 v); cbn [res_ok opt_of_res] in *; congruence.
  - destruct (sc_low_pc sp) as [v|]; [|congruence]. rewrite Ha.
    destruct (attr_address d u0 v) as [[a|]| | |]; cbn [bind] in Ea; congruence.
  - destruct (sc_stmt sp) as [off|]; [|congruence].
    destruct (line_program dbg d off (address_size (u_enc h)) cd name) as [p| | |]; cbn [bind] in El; try discriminate.
    exists p. split; [reflexivity|congruence].
Qed.

(* Unit::new fails only through the line program or through the address of DW_AT_low_pc (name and comp_dir
   failures are swallowed by `.ok()`), and in that order *)
Lemma unit_of_root_error dbg d h tbl root e :
  unit_of_root dbg d h tbl root = Err e ->
  let sp := scan_spec d h (d_attrs root) in
  (exists off cd nm, sc_stmt sp = Some off /\ line_program dbg d off (address_size (u_enc h)) cd nm = Err e) \/
  (exists v u0, sc_low_pc sp = Some v /\ un_header u0 = h /\ un_addr_base u0 = sc_ab sp /\ attr_address d u0 v = Err e).
Proof.
  unfold unit_of_root. rewrite scan_is_choice. intros H. set (sp := scan_spec d h (d_attrs root)) in *.
  set (u0 := mkU h tbl None None 0 (sc_sob sp) (sc_ab sp) (sc_llb sp) (sc_rlb sp) None (sc_dwo_id sp)) in H.
  destruct (match sc_name sp with Some v => res_ok (attr_string d u0 v) | None => Ok None end) as [name| | |] eqn:En;
    cbn [bind] in H; try discriminate.
  2:{ destruct (sc_name sp); [|discriminate]. destruct (attr_string d u0 a); discriminate. }
  destruct (match sc_comp_dir sp with Some v => res_ok (attr_string d u0 v) | None => Ok None end) as [cd| | |] eqn:Ec;
    cbn [bind] in H; try discriminate.
  2:{ destruct (sc_comp_dir sp); [|discriminate]. destruct (attr_string d u0 a); discriminate. }
  destruct (sc_stmt sp) as [off|] eqn:Es.
  - destruct (line_program dbg d off (address_size (u_enc h)) cd name) as [p| | |] eqn:Ep; cbn [bind] in H; try discriminate.
    + destruct (sc_low_pc sp) as [v|] eqn:Ev; cbn [bind] in H; [|discriminate].
      destruct (attr_address d u0 v) as [o| | |] eqn:Eaa; cbn [bind] in H; try discriminate.
      right. exists v, u0. repeat split; try reflexivity. congruence.
    + left. exists off, cd, name. split; [reflexivity|congruence].
  - cbn [bind] in H. destruct (sc_low_pc sp) as [v|] eqn:Ev; cbn [bind] in H; [|discriminate].
    destruct (attr_address d u0 v) as [o| | |] eqn:Eaa; cbn [bind] in H; try discriminate.
    right. exists v, u0. repeat split; try reflexivity. congruence.
Qed.

Lemma res_ok_good {A} (r : res A) : good r -> good (res_ok r).
Proof. intros [H1 H2]. destruct r; try (exfalso; congruence); split; discriminate. Qed.

Lemma line_program_good dbg d off asz cd nm : good (line_program dbg d off asz cd nm).
Proof.
  unfold line_program. apply good_bind; [apply skip_good|]. intros r _.
  apply good_bind; [exact (LineRdHdrSafe.parse_header_np dbg (dw_be d) asz r)|]. intros; apply good_Ok.
Qed.

(* for ANY root entry (any attribute list), any sections, both build modes *)
Lemma unit_of_root_good dbg d h tbl root : good (unit_of_root dbg d h tbl root).
Proof.
  unfold unit_of_root.
  apply good_bind. { destruct (sc_name _); [apply res_ok_good, attr_string_good|apply good_Ok]. } intros name _.
  apply good_bind. { destruct (sc_comp_dir _); [apply res_ok_good, attr_string_good|apply good_Ok]. } intros cd _.
  apply good_bind. { destruct (sc_stmt _); [|apply good_Ok]. apply good_bind; [apply line_program_good|intros; apply good_Ok]. }
  intros lp _.
  apply good_bind. { destruct (sc_low_pc _); [|apply good_Ok]. apply good_bind; [apply attr_address_good|intros; apply good_Ok]. }
  intros; apply good_Ok.
Qed.

(* the cursor over the entries of a header whose size arithmetic does not overflow *)
Lemma entries_ok dbg h off :
  header_size dbg h = Ok off -> off + nlen (u_entries h) < two63 ->
  exists c, entries dbg h = Ok c /\ NavProofs.cursor_ok c.
Proof.
  intros Hs Hlt. unfold entries. rewrite Hs. cbn [bind].
  assert (E : exists c, cursor_new dbg (u_entries h) off = Ok c).
  { unfold cursor_new, raw_new, chk_add.
    replace (off + nlen (u_entries h) <? 2 ^ 64) with true
      by (symmetry; apply N.ltb_lt; unfold two63 in Hlt; lia).
    eexists; reflexivity. }
  destruct E as [c Ec]. exists c. split; [exact Ec|exact (NavProofs.cursor_new_ok _ _ _ _ Hlt Ec)].
Qed.

Lemma root_dfs_good dbg h tbl off :
  header_size dbg h = Ok off -> off + nlen (u_entries h) < two63 -> good (root_dfs dbg h tbl).
Proof.
  intros Hs Hlt. destruct (entries_ok dbg h off Hs Hlt) as (c & Ec & Hc).
  unfold root_dfs. rewrite Ec. cbn [bind].
  pose proof (NavProofs.next_dfs_inv dbg (u_enc h) tbl (cursor_fuel c) c Hc ltac:(unfold cursor_fuel; apply le_n)) as H.
  destruct (next_dfs (cursor_fuel c) dbg (u_enc h) tbl c) as [[o c'|x c']| | |]; try contradiction; cbn [bind].
  - destruct o; [apply good_Ok|apply good_Err].
  - apply good_Err.
Qed.

Lemma unit_new_good dbg d h off :
  header_size dbg h = Ok off -> off + nlen (u_entries h) < two63 -> good (unit_new dbg d h).
Proof.
  intros Hs Hlt. unfold unit_new. apply good_bind.
  { exact (AbbrevRdProofs.abbreviations_at_res dbg (dw_abbrev d) (u_abbrev h)). }
  intros tbl _. unfold unit_new_with_abbreviations. apply good_bind; [exact (root_dfs_good dbg h tbl off Hs Hlt)|].
  intros root _. apply unit_of_root_good.
Qed.

Lemma unit_ranges_all_good dbg d u off :
  header_size dbg (un_header u) = Ok off -> off + nlen (u_entries (un_header u)) < two63 ->
  valid_asize (address_size (u_enc (un_header u))) = true ->
  good (unit_ranges_all dbg d u).
Proof.
  intros Hs Hlt Hv. unfold unit_ranges_all, unit_ranges.
  destruct (root_dfs dbg (un_header u) (un_abbrevs u)) as [root| | |] eqn:Er; cbn [bind].
  - exact (die_ranges_all_good dbg (uctx_of d u) (map die_attr_view (d_attrs root)) Hv).
  - apply good_Err.
  - pose proof (root_dfs_good dbg (un_header u) (un_abbrevs u) off Hs Hlt) as [G _]. congruence.
  - pose proof (root_dfs_good dbg (un_header u) (un_abbrevs u) off Hs Hlt) as [_ G]. congruence.
Qed.

Lemma parsed_header_size dbg bigend types uoff bs h after :
  parse_unit_header bigend types uoff bs = Ok (h, after) -> nlen bs < two63 ->
  exists off, header_size dbg h = Ok off /\ off + nlen (u_entries h) < two63.
Proof.
  intros Hp Hlen. destruct (NavProofs.parse_unit_header_sizes _ _ _ _ _ _ Hp) as (H1 & H2 & _).
  exists (initial_length_size (fmt64 (u_enc h)) + u_length h - nlen (u_entries h)).
  unfold header_size, length_including_self, chk_add, chk_sub.
  replace (initial_length_size (fmt64 (u_enc h)) + u_length h <? 2 ^ 64) with true
    by (symmetry; apply N.ltb_lt; unfold two63 in Hlen; lia).
  cbn [bind].
  replace (nlen (u_entries h) <=? initial_length_size (fmt64 (u_enc h)) + u_length h) with true
    by (symmetry; apply N.leb_le; lia).
  split; [reflexivity|]. unfold two63 in *. lia.
Qed.

(* id lies in the closed address range of the section *)
Definition inb (place : sid -> N * N) (id : N) (s : sid) : bool :=
  (fst (place s) <=? id) && (id <=? fst (place s) + snd (place s)).
Definition placed_ok (place : sid -> N * N) : Prop := forall s, fst (place s) + snd (place s) < two64.

Lemma slice_lookup_spec dbg place id s : placed_ok place ->
  slice_lookup dbg (place s) id = Ok (if inb place id s then Some (id - fst (place s)) else None).
Proof.
  intros H. unfold slice_lookup, chk_add, inb. change (2 ^ 64) with two64.
  replace (fst (place s) + snd (place s) <? two64) with true by (symmetry; apply N.ltb_lt; apply H).
  cbn [bind]. destruct ((fst (place s) <=? id) && (id <=? fst (place s) + snd (place s))); reflexivity.
Qed.

Lemma lookup_first_spec dbg place id : placed_ok place -> forall l,
  lookup_first dbg place l id =
  Ok (match find (inb place id) l with Some s => Some (s, id - fst (place s)) | None => None end).
Proof.
  intros H l. induction l as [|s t IH]; [reflexivity|]. cbn [lookup_first find].
  rewrite (slice_lookup_spec dbg place id s H). cbn [bind]. destruct (inb place id s); [reflexivity|exact IH].
Qed.

Definition lookup_spec (place : sid -> N * N) (sup : option (sid -> N * N)) (id : N) : option (bool * sid * N) :=
  match find (inb place id) lookup_order with
  | Some s => Some (false, s, id - fst (place s))
  | None =>
      match sup with
      | Some sp =>
          match find (inb sp id) lookup_order with
          | Some s => Some (true, s, id - fst (sp s))
          | None => None
          end
      | None => None
      end
  end.

(* find = the first element of the list satisfying the predicate *)
Lemma find_first {A} (f : A -> bool) l x :
  find f l = Some x <-> exists pre post, l = pre ++ x :: post /\ f x = true /\ forallb (fun y => negb (f y)) pre = true.
Proof.
  split.
  - induction l as [|a l IH]; [discriminate|]. cbn [find]. destruct (f a) eqn:E.
    + intros H. inversion H; subst. exists [], l. auto.
    + intros H. destruct (IH H) as (pre & post & -> & Hx & Hp). exists (a :: pre), post. cbn. rewrite E. auto.
  - intros (pre & post & -> & Hx & Hp). induction pre as [|a pre IH]; cbn [app find].
    + rewrite Hx. reflexivity.
    + cbn in Hp. apply andb_prop in Hp. destruct Hp as [Ha Hp]. destruct (f a); [discriminate|]. apply IH. exact Hp.
Qed.

Lemma die_attr_value_first d n : die_attr_value d n = option_map val (first_attr (named n) (d_attrs d)).
Proof.
  unfold die_attr_value, first_attr.
  assert (E : forall o : option (aspec * attr_value),
             match o with Some (s, v) => Some (attr_normalise (at_name s) v) | None => None end = option_map val o)
    by (intros [[s v]|]; reflexivity).
  apply E.
Qed.

(* when the first entry of the unit is not a null entry it is the root Unit::new uses *)
Lemma root_dfs_first_entry dbg h tbl c c' root :
  entries dbg h = Ok c -> next_entry dbg (u_enc h) tbl c = Ok (SOk true c') -> current c' = Some root ->
  root_dfs dbg h tbl = Ok root.
Proof.
  intros Hc Hn Hr. unfold root_dfs. rewrite Hc. cbn [bind]. unfold cursor_fuel. cbn [next_dfs]. rewrite Hn. cbn [bind].
  unfold current in Hr. destruct (is_null (c_cur c')); [discriminate|]. inversion Hr; subst. reflexivity.
Qed.

Definition dwo_name_attr (ver : N) : N := if ver <? 5 then DW_AT_GNU_dwo_name else DW_AT_dwo_name.

Definition glue_other (p : rattr) : bool :=
  negb ((nm p =? DW_AT_low_pc) || (nm p =? DW_AT_high_pc) || (nm p =? DW_AT_ranges)).

Lemma view_other p : glue_other p = true -> other_attr (die_attr_view p) = true.
Proof.
  unfold glue_other, other_attr, die_attr_view, to_aname, nm. cbn [fst].
  destruct (at_name (fst p) =? DW_AT_low_pc); [discriminate|].
  destruct (at_name (fst p) =? DW_AT_high_pc); [discriminate|].
  destruct (at_name (fst p) =? DW_AT_ranges); [discriminate|]. reflexivity.
Qed.
Lemma view_others l : forallb glue_other l = true -> forallb other_attr (map die_attr_view l) = true.
Proof.
  induction l as [|p l IH]; [reflexivity|]. cbn [forallb map]. intros H. apply andb_prop in H. destruct H as [H1 H2].
  rewrite (view_other p H1), (IH H2). reflexivity.
Qed.

Lemma view_named p n a :
  nm p = n -> to_aname n = a -> die_attr_view p = (a, to_aval (val p)).
Proof. intros <- <-. reflexivity. Qed.

Lemma dwo_name_good dbg u off :
  header_size dbg (un_header u) = Ok off -> off + nlen (u_entries (un_header u)) < two63 -> good (dwo_name dbg u).
Proof.
  intros Hs Hlt. destruct (entries_ok dbg _ off Hs Hlt) as (c & Ec & Hc).
  unfold dwo_name. rewrite Ec. cbn [bind].
  pose proof (NavProofs.next_entry_inv dbg (u_enc (un_header u)) (un_abbrevs u) c Hc) as H.
  destruct (next_entry dbg (u_enc (un_header u)) (un_abbrevs u) c) as [[b c'|x c']| | |]; try contradiction; cbn [bind].
  - destruct (current c'); [apply good_Ok|apply good_Err].
  - apply good_Err.
Qed.

(* every header the C02 parser returns for a section shorter than 2^63 bytes: Unit::new, unit_ranges and dwo_name
   neither panic nor run out of fuel, whatever the other sections hold, in both build modes *)
Lemma glue_good_parsed dbg d bigend types uoff bs h after :
  parse_unit_header bigend types uoff bs = Ok (h, after) -> nlen bs < two63 ->
  good (unit_new dbg d h) /\
  forall u, un_header u = h -> good (unit_ranges_all dbg d u) /\ good (dwo_name dbg u).
Proof.
  intros Hp Hlen. destruct (parsed_header_size dbg _ _ _ _ _ _ Hp Hlen) as (off & Hs & Hlt).
  destruct (NavProofs.parse_unit_header_sizes _ _ _ _ _ _ Hp) as (_ & _ & Hv).
  split; [exact (unit_new_good dbg d h off Hs Hlt)|]. intros u Hu. subst h.
  split; [exact (unit_ranges_all_good dbg d u off Hs Hlt Hv)|exact (dwo_name_good dbg u off Hs Hlt)].
Qed.

Lemma first_header_good d types : good (first_header d types).
Proof.
  unfold first_header. destruct (is_nil _); [apply good_Ok|].
  apply good_bind; [exact (NavProofs.parse_unit_header_res _ _ _ _)|]. intros [h r] _. apply good_Ok.
Qed.

(* attributes before DW_AT_ranges that cannot end die_ranges early: anything that is not low_pc / high_pc /
   ranges, a DW_AT_low_pc of class address (not indexed), a DW_AT_high_pc of class address or constant *)
Definition benign_view (q : ListsRd.aname * ListsRd.aval) : bool :=
  match q with
  | (ListsRd.AtOther, _) => true
  | (ListsRd.AtLowPc, ListsRd.AvAddr _) => true
  | (ListsRd.AtHighPc, ListsRd.AvAddr _) | (ListsRd.AtHighPc, ListsRd.AvUdata _) => true
  | _ => false
  end.

Lemma die_loop_benign u : forall pre k low high size, forallb benign_view pre = true ->
  exists low' high' size',
    ListsRd.die_ranges_loop u (pre ++ k) low high size = ListsRd.die_ranges_loop u k low' high' size'.
Proof.
  induction pre as [|[a v] pre IH]; intros k low high size H; [exists low, high, size; reflexivity|].
  cbn [forallb] in H. apply andb_prop in H. destruct H as [Hq Hp]. cbn [app].
  destruct a; destruct v; cbn [benign_view] in Hq; try discriminate;
    cbn [ListsRd.die_ranges_loop ListsRd.attr_address bind]; apply IH; exact Hp.
Qed.

(* once DW_AT_ranges designates a list, what was collected from low_pc / high_pc before is irrelevant *)
Lemma ranges_attr_indep u v post l h s l' h' s' :
  (exists o, v = ListsRd.AvRangesRef o) \/ (exists i, v = ListsRd.AvRnglistx i) ->
  ListsRd.die_ranges_loop u ((ListsRd.AtRanges, v) :: post) l h s =
  ListsRd.die_ranges_loop u ((ListsRd.AtRanges, v) :: post) l' h' s'.
Proof.
  intros [[o ->]|[i ->]]; cbn [ListsRd.die_ranges_loop]; unfold ListsRd.attr_ranges, ListsRd.attr_ranges_offset; cbn [bind].
  - destruct (ListsRd.raw_ranges _ _ _ _) as [[inp bare]| | |]; reflexivity.
  - destruct (ListsRd.get_offset _ _ _ _ _) as [off| | |]; cbn [bind]; try reflexivity.
    destruct (ListsRd.raw_ranges _ _ _ _) as [[inp bare]| | |]; reflexivity.
Qed.

Lemma die_ranges_benign u pre v post :
  forallb benign_view pre = true ->
  (exists o, v = ListsRd.AvRangesRef o) \/ (exists i, v = ListsRd.AvRnglistx i) ->
  ListsRd.die_ranges u (pre ++ (ListsRd.AtRanges, v) :: post) = ListsRd.die_ranges u ((ListsRd.AtRanges, v) :: post).
Proof.
  intros Hp Hv. unfold ListsRd.die_ranges.
  destruct (die_loop_benign u pre ((ListsRd.AtRanges, v) :: post) None None None Hp) as (l & h & s & ->).
  apply ranges_attr_indep. exact Hv.
Qed.

Definition glue_benign (p : rattr) : bool := benign_view (die_attr_view p).

Lemma view_benign l : forallb glue_benign l = true -> forallb benign_view (map die_attr_view l) = true.
Proof. induction l as [|p l IH]; [reflexivity|]. cbn [forallb map]. unfold glue_benign at 1. intros H.
       apply andb_prop in H. destruct H as [H1 H2]. rewrite H1, (IH H2). reflexivity. Qed.
