(* Proofs/GenSweep.v — what the translator-tie files (Proofs/GenAgree*.v, Properties/C*_tie*.v) share: finite sweeps (a
   decidable statement checked by vm_compute on [0, n) is lifted to `forall x, x < n -> …` with forallb_forall), `builds`
   for the statements about all inputs of a decoder, and association lists keyed by strings.  Depends on no generated file. *)
From Coq Require Import List NArith Bool Lia.
Require Import GV.Base.Res.
Import ListNotations.
Local Open Scope N_scope.

(* [n-1; ...; 0] without going through nat *)
Definition count_up (n : N) : list N := N.peano_rec (fun _ => list N) [] (fun k l => k :: l) n.

Lemma count_up_in : forall n x, x < n -> In x (count_up n).
Proof.
  intros n. induction n as [|n IH] using N.peano_ind; intros x H; [lia|].
  unfold count_up. rewrite N.peano_rec_succ. fold (count_up n).
  destruct (N.eq_dec x n) as [->|]; [left; reflexivity|right; apply IH; lia].
Qed.

Lemma sweep_lt : forall (p : N -> bool) n,
  forallb p (count_up n) = true -> forall x, x < n -> p x = true.
Proof.
  intros p n S x H. rewrite forallb_forall in S. apply S. apply count_up_in. exact H.
Qed.

Lemma forallb_In : forall (A : Type) (p : A -> bool) (l : list A),
  forallb p l = true -> forall x, In x l -> p x = true.
Proof. intros A p l S x H. rewrite forallb_forall in S. apply S. exact H. Qed.

(* What is known of the value of a decoder whenever it succeeds; for the statements that hold of all inputs. *)
Definition builds {A B : Type} (P : A -> Prop) (r : res (A * B)) : Prop := forall a b, r = Ok (a, b) -> P a.

Lemma builds_ok : forall (A B : Type) (P : A -> Prop) a (b : B), P a -> builds P (Ok (a, b)).
Proof. intros A B P a b H ? ? [= <- _]. exact H. Qed.

Lemma builds_err : forall (A B : Type) (P : A -> Prop) e, builds P (Err e : res (A * B)).
Proof. intros A B P e ? ? [=]. Qed.

Lemma builds_bind : forall (A B C : Type) (P : A -> Prop) (x : res C) (f : C -> res (A * B)),
  (forall c, builds P (f c)) -> builds P (bind x f).
Proof. intros A B C P x f H a b E. apply bind_ok in E. destruct E as (c & _ & E). exact (H c a b E). Qed.

Lemma builds_if : forall (A B : Type) (P : A -> Prop) (n k : N) (x y : res (A * B)),
  (n = k -> builds P x) -> builds P y -> builds P (if n =? k then x else y).
Proof. intros A B P n k x y Hx Hy. destruct (N.eqb_spec n k) as [E|_]; [exact (Hx E)|exact Hy]. Qed.

(* association lists keyed by strings (tables regenerated with Rust identifiers as keys) *)
From Coq Require Import String.
Fixpoint sassoc {A : Type} (k : string) (l : list (string * A)) : option A :=
  match l with
  | [] => None
  | (a, b) :: r => if String.eqb k a then Some b else sassoc k r
  end.
Definition smem (k : string) (l : list string) : bool := existsb (String.eqb k) l.
Fixpoint snodup (l : list string) : bool :=
  match l with [] => true | a :: r => negb (smem a r) && snodup r end.
(* same elements, no repetition: insensitive to the order of the source text *)
Definition sperm (a b : list string) : bool :=
  snodup a && snodup b && forallb (fun x => smem x b) a && forallb (fun x => smem x a) b.

Lemma smem_In : forall k l, smem k l = true <-> In k l.
Proof.
  intros k l. unfold smem. rewrite existsb_exists. split.
  - intros [x [H E]]. apply String.eqb_eq in E. subst. exact H.
  - intros H. exists k. split; [exact H|apply String.eqb_refl].
Qed.
Lemma snodup_NoDup : forall l, snodup l = true -> NoDup l.
Proof.
  induction l as [|a r IH]; cbn; intros H; [constructor|].
  apply andb_prop in H. destruct H as [H1 H2]. constructor; [|apply IH; exact H2].
  intros C. apply smem_In in C. rewrite C in H1. discriminate.
Qed.
Lemma sperm_spec : forall a b, sperm a b = true ->
  NoDup a /\ NoDup b /\ (forall x, In x a <-> In x b).
Proof.
  intros a b H. unfold sperm in H.
  apply andb_prop in H. destruct H as [H H4]. apply andb_prop in H. destruct H as [H H3].
  apply andb_prop in H. destruct H as [H1 H2].
  split; [apply snodup_NoDup; exact H1|]. split; [apply snodup_NoDup; exact H2|].
  intros x. split; intros I.
  - apply smem_In. exact (forallb_In _ _ _ H3 x I).
  - apply smem_In. exact (forallb_In _ _ _ H4 x I).
Qed.
