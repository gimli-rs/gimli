(* Proofs/LebProofs.v — exactness of the LEB128 readers and writers (C09). *)
From Coq Require Import List NArith ZArith Bool Lia ZifyBool ZifyN ZifyNat.
From Coq.Strings Require Import Byte.
Require Import GV.Base.Res GV.Base.Byt GV.Base.Ints GV.Spec.LebSpec GV.Model.Leb.
Require Export GV.Proofs.Lib.
Require GV.Spec.CfaSpec GV.Spec.CfiSpec GV.Spec.FormSpec GV.Spec.LineSpec GV.Spec.StackSpec.
Import ListNotations.
Local Open Scope N_scope.

(* facts about one byte: where not by conversion, checked on the 256 constructors *)

Lemma byte_split (b : byte) :
  b2n b = low7 (b2n b) + (if has_cont (b2n b) then 128 else 0).
Proof. destruct b; vm_compute; reflexivity. Qed.

Lemma low7_lt (b : byte) : low7 (b2n b) < 128.
Proof. destruct b; vm_compute; reflexivity. Qed.

Lemma cont_bit_has_cont (b : byte) : cont_bit b = has_cont (b2n b).
Proof. reflexivity. Qed.

Lemma land127_low7 (b : byte) : N.land (b2n b) 127 = low7 (b2n b).
Proof. reflexivity. Qed.

Lemma pow7 (k : N) : 2 ^ (7 * (k + 1)) = 2 ^ (7 * k) * 128.
Proof. replace (7 * (k + 1)) with (7 * k + 7) by lia. rewrite N.pow_add_r. reflexivity. Qed.

Lemma pow_le_56 (k : N) : k <= 8 -> 2 ^ (7 * k) <= 2 ^ 56.
Proof. intros. apply N.pow_le_mono_r; lia. Qed.

(* shl64 in the range the LEB loops use *)
Lemma shl64_small dbg (l k : N) :
  l < 128 -> k <= 8 -> shl64 dbg l (7 * k) = Ok (l * 2 ^ (7 * k)).
Proof.
  intros Hl Hk. unfold shl64.
  destruct (64 <=? 7 * k) eqn:E; [lia|].
  rewrite N.shiftl_mul_pow2. rewrite wrap64_small; [reflexivity|].
  pose proof (pow_le_56 k Hk) as HP. pose proof (pow2_pos (7 * k)).
  change two64 with (2 ^ 64). change (2 ^ 64) with (256 * 2 ^ 56).
  change (2 ^ 56) with 72057594037927936 in *. nia.
Qed.

Lemma shl64_63 dbg (l : N) : l <= 1 -> shl64 dbg l 63 = Ok (l * 2 ^ 63).
Proof.
  intros Hl. unfold shl64. change (64 <=? 63) with false. cbv iota.
  rewrite N.shiftl_mul_pow2. rewrite wrap64_small; [reflexivity|].
  change two64 with (2 * 2 ^ 63). pose proof (pow2_pos 63). nia.
Qed.

Lemma ok_pair_eq {A B} (x y : A) (r : B) : x = y -> @Ok (A * B) (x, r) = Ok (y, r).
Proof. intros ->; reflexivity. Qed.

Lemma split_leb_nonempty bs e rest : split_leb bs = Some (e, rest) -> (1 <= length e)%nat.
Proof.
  destruct bs as [|b r]; cbn [split_leb]; [discriminate|].
  destruct (cont_bit b).
  - destruct (split_leb r) as [[e' rest']|]; [|discriminate].
    intros H; inversion H; subst. cbn [length]. lia.
  - intros H; inversion H; subst. cbn [length]. lia.
Qed.

Lemma split_leb_app bs e rest : split_leb bs = Some (e, rest) -> bs = e ++ rest.
Proof.
  revert e rest. induction bs as [|b r IH]; intros e rest; cbn [split_leb]; [discriminate|].
  destruct (cont_bit b).
  - destruct (split_leb r) as [[e' rest']|]; [|discriminate].
    intros H; inversion H; subst. cbn [app]. f_equal. apply IH. reflexivity.
  - intros H; inversion H; subst. reflexivity.
Qed.

(* split_leb looks at the terminated prefix only *)
Lemma split_leb_ext a e x suf : split_leb a = Some (e, x) -> split_leb (a ++ suf) = Some (e, x ++ suf).
Proof.
  revert e x. induction a as [|b a IH]; intros e x; cbn [split_leb app]; [discriminate|].
  destruct (cont_bit b).
  - destruct (split_leb a) as [[e' x']|]; [|discriminate].
    intros H; injection H as <- <-. rewrite (IH e' x' eq_refl). reflexivity.
  - intros H; injection H as <- <-. reflexivity.
Qed.

Lemma split_leb_local a suf e r : split_leb (a ++ suf) = Some (e, r) -> (length suf <= length r)%nat ->
  exists x, r = x ++ suf /\ split_leb a = Some (e, x).
Proof.
  revert e. induction a as [|b a IH]; intros e H Hl.
  - cbn [app] in H. pose proof (split_leb_app _ _ _ H) as Ha. pose proof (split_leb_nonempty _ _ _ H) as Hn.
    subst suf. rewrite app_length in Hl. lia.
  - cbn [app split_leb] in *. destruct (cont_bit b).
    + destruct (split_leb (a ++ suf)) as [[e' r']|] eqn:E; [|discriminate].
      injection H as <- <-. destruct (IH e' eq_refl Hl) as (x & -> & ->). exists x. split; reflexivity.
    + injection H as <- <-. exists a. split; reflexivity.
Qed.

(* What a loop that has accumulated `result` from k bytes (P = 128^k) owes on the rest of the input: running out of
   input or reading an eleventh byte are errors; otherwise F decides on the value and the total length. *)
Definition leb_post {A} (bad : error) (F : N -> N -> list byte -> res (A * list byte))
    (result P k : N) (bs : list byte) : res (A * list byte) :=
  match split_leb bs with
  | None => if 10 - k <=? N.of_nat (length bs) then Err bad else Err EUnexpectedEof
  | Some (enc, rest) => F (result + P * uval enc) (k + N.of_nat (length enc)) rest
  end.

Lemma leb_post_cont {A} bad (F : N -> N -> list byte -> res (A * list byte)) result P k b r :
  has_cont (b2n b) = true ->
  leb_post bad F result P k (b :: r) = leb_post bad F (result + low7 (b2n b) * P) (P * 128) (k + 1) r.
Proof.
  intros Hc. unfold leb_post. cbn [split_leb length]. rewrite cont_bit_has_cont, Hc.
  destruct (split_leb r) as [[e rest]|].
  - cbn [uval length]. rewrite land127_low7. f_equal; lia.
  - replace (10 - (k + 1) <=? N.of_nat (length r)) with (10 - k <=? N.of_nat (S (length r))) by lia. reflexivity.
Qed.

Lemma leb_post_last {A} bad (F : N -> N -> list byte -> res (A * list byte)) result P k b r :
  has_cont (b2n b) = false ->
  leb_post bad F result P k (b :: r) = F (result + P * low7 (b2n b)) (k + 1) r.
Proof.
  intros Hc. unfold leb_post. cbn [split_leb]. rewrite cont_bit_has_cont, Hc.
  cbn [uval length]. rewrite land127_low7. f_equal; lia.
Qed.

Section LebLoop.
  Context {A : Type} (dbg : bool) (bad : error) (rej9 : N -> bool).
  Context (fin : N -> N -> N -> list byte -> res (A * list byte)) (F : N -> N -> list byte -> res (A * list byte)).
  Context (loop : N -> N -> list byte -> res (A * list byte)).

  (* the loop: a tenth byte (shift 63) outside the few that still fit is rejected; seven more bits are or-ed in;
     `fin` is what happens after the first byte without continuation bit *)
  Hypothesis loop_nil : forall result shift, loop result shift [] = Err EUnexpectedEof.
  Hypothesis loop_cons : forall result shift b r,
    loop result shift (b :: r) =
    if (shift =? 63) && rej9 (b2n b) then Err bad
    else let* sh := shl64 dbg (low7 (b2n b)) shift in
         if has_cont (b2n b) then loop (N.lor result sh) (shift + 7) r
         else fin (N.lor result sh) (shift + 7) (b2n b) r.
  Hypothesis rej9_cont : forall b, has_cont (b2n b) = true -> rej9 (b2n b) = true.
  Hypothesis F_long : forall u n rest, 10 < n -> F u n rest = Err bad.
  (* the last byte, in one of the first nine places and in the tenth *)
  Hypothesis last8 : forall k result b r,
    k <= 8 -> result < 2 ^ (7 * k) -> has_cont (b2n b) = false ->
    fin (result + low7 (b2n b) * 2 ^ (7 * k)) (7 * k + 7) (b2n b) r = F (result + 2 ^ (7 * k) * low7 (b2n b)) (k + 1) r.
  Hypothesis last9 : forall result b r,
    result < 2 ^ 63 -> has_cont (b2n b) = false ->
    (if rej9 (b2n b) then Err bad
     else let* sh := shl64 dbg (low7 (b2n b)) 63 in fin (N.lor result sh) 70 (b2n b) r)
    = F (result + 2 ^ 63 * low7 (b2n b)) 10 r.

  (* Up to shift 56 the shifted group lies above everything accumulated (so `|` is `+`) and below bit 63 (so shl64
     neither panics nor drops bits); at shift 63 a continuation byte is always rejected, so the `64 <=? shift`
     branch of shl64 is never reached. *)
  Theorem leb_loop_exact : forall bs k result,
    k <= 9 -> result < 2 ^ (7 * k) ->
    loop result (7 * k) bs = leb_post bad F result (2 ^ (7 * k)) k bs.
  Proof.
    induction bs as [|b r IH]; intros k result Hk Hres.
    - rewrite loop_nil. unfold leb_post. cbn [split_leb length].
      destruct (10 - k <=? N.of_nat 0) eqn:E; [lia|reflexivity].
    - rewrite loop_cons. pose proof (low7_lt b) as Hlow.
      destruct (N.eq_dec k 9) as [->|Hk9].
      + change (7 * 9 =? 63) with true. change (7 * 9) with 63 in *. cbn [andb].
        destruct (has_cont (b2n b)) eqn:Hc.
        * rewrite rej9_cont, leb_post_cont by exact Hc. unfold leb_post.
          destruct (split_leb r) as [[e rest]|] eqn:Hs.
          -- rewrite F_long; [reflexivity|]. pose proof (split_leb_nonempty _ _ _ Hs). lia.
          -- destruct (10 - (9 + 1) <=? N.of_nat (length r)) eqn:E; [reflexivity|lia].
        * rewrite leb_post_last by exact Hc. change (63 + 7) with 70. change (9 + 1) with 10.
          now apply last9.
      + assert (Hk8 : k <= 8) by lia.
        assert (Hne : (7 * k =? 63) = false) by lia. rewrite Hne. cbn [andb].
        rewrite (shl64_small dbg _ k Hlow Hk8). cbn [bind]. rewrite lor_mul_add by exact Hres.
        destruct (has_cont (b2n b)) eqn:Hc.
        * rewrite leb_post_cont by exact Hc. replace (7 * k + 7) with (7 * (k + 1)) by lia.
          rewrite <- pow7. apply IH; [lia|]. rewrite pow7.
          pose proof (pow2_pos (7 * k)). set (P := 2 ^ (7 * k)) in *. nia.
        * rewrite leb_post_last by exact Hc. now apply last8.
  Qed.
End LebLoop.

(* the unsigned reader *)

Definition uleb_post (result P : N) (k : N) (bs : list byte) : res (N * list byte) :=
  match split_leb bs with
  | None => if 10 - k <=? N.of_nat (length bs) then Err EBadUnsignedLeb128 else Err EUnexpectedEof
  | Some (enc, rest) =>
      if (k + N.of_nat (length enc) <=? 10) && (result + P * uval enc <? two64)
      then Ok (result + P * uval enc, rest) else Err EBadUnsignedLeb128
  end.

Lemma uleb_loop_exact dbg : forall bs k result,
  1 <= k <= 9 -> result < 2 ^ (7 * k) ->
  uleb_loop dbg result (7 * k) bs = uleb_post result (2 ^ (7 * k)) k bs.
Proof.
  intros bs k result [_ Hk].
  apply (leb_loop_exact dbg EBadUnsignedLeb128 (fun byte => negb (byte =? 0) && negb (byte =? 1))
           (fun res _ _ r => Ok (res, r))
           (fun u n rest => if (n <=? 10) && (u <? two64) then Ok (u, rest) else Err EBadUnsignedLeb128)
           (uleb_loop dbg)); auto.
  - intros. cbn [uleb_loop]. rewrite <- andb_assoc. reflexivity.
  - intros b Hc. pose proof (byte_split b) as H. rewrite Hc in H. lia.
  - intros u n rest H. destruct (n <=? 10) eqn:E; [lia|reflexivity].
  - (* below the tenth byte the value stays under 2^63 *)
    intros k0 res b r Hk8 Hres _. pose proof (low7_lt b). pose proof (pow_le_56 k0 Hk8) as HP.
    change (2 ^ 56) with 72057594037927936 in HP. unfold two64.
    set (P := 2 ^ (7 * k0)) in *. set (l := low7 (b2n b)) in *.
    destruct ((k0 + 1 <=? 10) && (res + P * l <? 18446744073709551616)) eqn:E; [apply ok_pair_eq; lia|nia].
  - (* the tenth byte contributes bit 63 only: it is 0 or 1 *)
    intros res b r Hres Hc. pose proof (byte_split b) as H. pose proof (low7_lt b). rewrite Hc in H.
    set (l := low7 (b2n b)) in *. replace (b2n b) with l by lia. change (2 ^ 63) with 9223372036854775808 in *. unfold two64.
    destruct (l =? 0) eqn:E0; [|destruct (l =? 1) eqn:E1]; cbn [negb andb].
    + assert (l = 0) as -> by lia. rewrite (shl64_63 dbg 0) by lia. cbn [bind].
      rewrite N.mul_0_l, N.lor_0_r, N.mul_0_r, N.add_0_r.
      destruct ((10 <=? 10) && (res <? 18446744073709551616)) eqn:E; [reflexivity|lia].
    + assert (l = 1) as -> by lia. rewrite (shl64_63 dbg 1) by lia. cbn [bind].
      rewrite (lor_mul_add res 1 63) by exact Hres. change (2 ^ 63) with 9223372036854775808.
      destruct ((10 <=? 10) && (res + 9223372036854775808 * 1 <? 18446744073709551616)) eqn:E;
        [apply ok_pair_eq; lia|lia].
    + destruct ((10 <=? 10) && (res + 9223372036854775808 * l <? 18446744073709551616)) eqn:E; [lia|reflexivity].
Qed.

Definition uleb_spec (bs : list byte) : res (N * list byte) :=
  match split_leb bs with
  | None => if (10 <=? length bs)%nat then Err EBadUnsignedLeb128 else Err EUnexpectedEof
  | Some (enc, rest) =>
      if (length enc <=? 10)%nat && (uval enc <? 2 ^ 64) then Ok (uval enc, rest)
      else Err EBadUnsignedLeb128
  end.

Theorem read_uleb128_exact dbg bs : read_uleb128 dbg bs = uleb_spec bs.
Proof.
  destruct bs as [|b r]; [reflexivity|].
  unfold read_uleb128, uleb_spec. cbn [split_leb]. rewrite cont_bit_has_cont.
  pose proof (byte_split b) as Hsplit. pose proof (low7_lt b) as Hlow.
  destruct (has_cont (b2n b)) eqn:Hc.
  - change 7 with (7 * 1). rewrite uleb_loop_exact by (change (2 ^ (7 * 1)) with 128; lia).
    unfold uleb_post. change (2 ^ (7 * 1)) with 128.
    destruct (split_leb r) as [[e rest]|].
    + cbn [uval length]. rewrite land127_low7. change two64 with (2 ^ 64).
      replace ((S (length e) <=? 10)%nat) with (1 + N.of_nat (length e) <=? 10) by lia.
      reflexivity.
    + cbn [length]. replace ((10 <=? S (length r))%nat) with (10 - 1 <=? N.of_nat (length r)) by lia.
      reflexivity.
  - cbn [uval length]. rewrite land127_low7.
    assert (Hlt : (low7 (b2n b) + 128 * 0 <? 2 ^ 64) = true).
    { change (2 ^ 64) with 18446744073709551616. lia. }
    rewrite Hlt. cbn [Nat.leb andb]. apply ok_pair_eq; lia.
Qed.

(* the signed reader *)

Definition sval_at (bits u : N) : Z :=
  if u <? 2 ^ (bits - 1) then Z.of_N u else (Z.of_N u - Z.of_N (2 ^ bits))%Z.

Lemma sval_sval_at enc : sval enc = sval_at (7 * N.of_nat (length enc)) (uval enc).
Proof. reflexivity. Qed.

Lemma sign_bit_low7 (b : byte) : (N.land (b2n b) 64 =? 64) = (64 <=? low7 (b2n b)).
Proof. destruct b; vm_compute; reflexivity. Qed.

Lemma k_cases (k : N) : k <= 9 ->
  k = 0 \/ k = 1 \/ k = 2 \/ k = 3 \/ k = 4 \/ k = 5 \/ k = 6 \/ k = 7 \/ k = 8 \/ k = 9.
Proof. lia. Qed.

Ltac each_k k H :=
  destruct (k_cases k H) as [->|[->|[->|[->|[->|[->|[->|[->|[->| ->]]]]]]]]].

Lemma shl64_ones dbg (k : N) : 1 <= k <= 9 ->
  shl64 dbg (two64 - 1) (7 * k) = Ok (two64 - 2 ^ (7 * k)).
Proof.
  intros [H1 H9]. each_k k H9; try lia; vm_compute; reflexivity.
Qed.

Lemma ones_as_shift (k : N) : 1 <= k <= 9 ->
  two64 - 2 ^ (7 * k) = N.shiftl (2 ^ (64 - 7 * k) - 1) (7 * k).
Proof.
  intros [H1 H9]. each_k k H9; try lia; vm_compute; reflexivity.
Qed.

Lemma pow_half7 (k : N) : 2 ^ (7 * (k + 1) - 1) = 64 * 2 ^ (7 * k).
Proof.
  replace (7 * (k + 1) - 1) with (7 * k + 6) by lia. rewrite N.pow_add_r.
  change (2 ^ 6) with 64. lia.
Qed.

Lemma pow_le_63 (k : N) : k <= 9 -> 2 ^ (7 * k) <= 2 ^ 63.
Proof. intros. apply N.pow_le_mono_r; lia. Qed.

Definition sleb_post (result P : N) (k : N) (bs : list byte) : res (Z * list byte) :=
  match split_leb bs with
  | None => if 10 - k <=? N.of_nat (length bs) then Err EBadSignedLeb128 else Err EUnexpectedEof
  | Some (enc, rest) =>
      let u := result + P * uval enc in
      let n := k + N.of_nat (length enc) in
      if (n <=? 10) && in_i64 (sval_at (7 * n) u)
      then Ok (sval_at (7 * n) u, rest) else Err EBadSignedLeb128
  end.

Lemma to_i64_small (x : N) : x < 2 ^ 63 -> to_i64 x = Z.of_N x.
Proof.
  intros H. unfold to_i64, to_signed, wrapN. change (64 - 1) with 63.
  change (2 ^ 63) with 9223372036854775808 in *. change (2 ^ 64) with 18446744073709551616.
  rewrite N.mod_small by lia.
  destruct (x <? 9223372036854775808) eqn:E; [reflexivity|lia].
Qed.

Lemma to_i64_big (x : N) : 2 ^ 63 <= x < 2 ^ 64 -> to_i64 x = (Z.of_N x - 18446744073709551616)%Z.
Proof.
  intros H. unfold to_i64, to_signed, wrapN. change (64 - 1) with 63.
  change (2 ^ 63) with 9223372036854775808 in *. change (2 ^ 64) with 18446744073709551616 in *.
  rewrite N.mod_small by lia.
  destruct (x <? 9223372036854775808) eqn:E; [lia|reflexivity].
Qed.

(* after the last byte the signed reader extends the sign bit of the last group through bit 63 *)
Definition sleb_fin (dbg : bool) (result shift last : N) (r : list byte) : res (Z * list byte) :=
  if (shift <? 64) && (N.land last 64 =? 64) then
    let* ones := shl64 dbg (two64 - 1) shift in Ok (to_i64 (N.lor result ones), r)
  else Ok (to_i64 result, r).

Definition sleb_F (u n : N) (rest : list byte) : res (Z * list byte) :=
  if (n <=? 10) && in_i64 (sval_at (7 * n) u) then Ok (sval_at (7 * n) u, rest) else Err EBadSignedLeb128.

(* a last byte in one of the first nine places: all its bits fit, and or-ing ones above bit 7(k+1) subtracts
   2^(7(k+1)) when read as an i64 *)
Lemma sleb_last8 dbg k result b r :
  k <= 8 -> result < 2 ^ (7 * k) -> has_cont (b2n b) = false ->
  sleb_fin dbg (result + low7 (b2n b) * 2 ^ (7 * k)) (7 * k + 7) (b2n b) r
  = sleb_F (result + 2 ^ (7 * k) * low7 (b2n b)) (k + 1) r.
Proof.
  intros Hk8 Hres _. unfold sleb_fin, sleb_F. pose proof (low7_lt b) as Hlow. pose proof (pow2_pos (7 * k)) as HP.
  pose proof (pow_le_56 k Hk8) as HP56. change (2 ^ 56) with 72057594037927936 in HP56.
  replace (7 * k + 7) with (7 * (k + 1)) by lia.
  pose proof (pow7 k) as HQ. pose proof (pow_half7 k) as HH.
  set (P := 2 ^ (7 * k)) in *. set (l := low7 (b2n b)) in *.
  assert (Hres' : result + l * P < 2 ^ (7 * (k + 1))) by (rewrite HQ; nia).
  replace (result + P * l) with (result + l * P) by lia.
  assert (Hlt : (7 * (k + 1) <? 64) = true) by lia. rewrite Hlt. cbn [andb].
  rewrite sign_bit_low7. fold l.
  unfold sval_at. rewrite HH, HQ.
  assert (HX : l * P <= 127 * P) by nia.
  destruct (64 <=? l) eqn:Esign.
  - assert (HX2 : 64 * P <= l * P) by nia.
    rewrite (shl64_ones dbg (k + 1)) by lia. cbn [bind].
    rewrite (ones_as_shift (k + 1)) by lia.
    rewrite lor_shiftl_add by exact Hres'.
    rewrite <- (ones_as_shift (k + 1)) by lia. rewrite HQ.
    set (X := l * P) in *.
    rewrite to_i64_big
      by (change (2 ^ 63) with 9223372036854775808; change (2 ^ 64) with 18446744073709551616;
          unfold two64; lia).
    destruct (result + X <? 64 * P) eqn:E; [lia|].
    unfold in_i64, two64.
    match goal with |- _ = (if ?c then _ else _) => destruct c eqn:E2 end; [apply ok_pair_eq; lia|lia].
  - set (X := l * P) in *. assert (HX3 : X <= 63 * P) by (unfold X; nia).
    rewrite to_i64_small by (change (2 ^ 63) with 9223372036854775808; lia).
    destruct (result + X <? 64 * P) eqn:E; [|lia].
    unfold in_i64.
    match goal with |- _ = (if ?c then _ else _) => destruct c eqn:E2 end; [reflexivity|lia].
Qed.

(* a last byte in the tenth place holds bit 63 and six copies of it: 0x00 or 0x7f; no sign extension is left to do *)
Lemma sleb_last9 dbg result b r :
  result < 2 ^ 63 -> has_cont (b2n b) = false ->
  (if negb (b2n b =? 0) && negb (b2n b =? 127) then Err EBadSignedLeb128
   else let* sh := shl64 dbg (low7 (b2n b)) 63 in sleb_fin dbg (N.lor result sh) 70 (b2n b) r)
  = sleb_F (result + 2 ^ 63 * low7 (b2n b)) 10 r.
Proof.
  intros Hres Hc. pose proof (byte_split b) as H. pose proof (low7_lt b). rewrite Hc in H.
  set (l := low7 (b2n b)) in *. replace (b2n b) with l by lia. unfold sleb_fin, sleb_F.
  change (70 <? 64) with false. cbn [andb]. unfold sval_at, in_i64.
  change (7 * 10 - 1) with 69. change (7 * 10) with 70.
  change (2 ^ 63) with 9223372036854775808 in *. change (2 ^ 69) with 590295810358705651712.
  change (2 ^ 70) with 1180591620717411303424.
  destruct (l =? 0) eqn:E0; [|destruct (l =? 127) eqn:E1]; cbn [negb andb].
  - assert (l = 0) as -> by lia. rewrite (shl64_63 dbg 0) by lia. cbn [bind].
    rewrite N.mul_0_l, N.lor_0_r, N.mul_0_r, N.add_0_r.
    rewrite to_i64_small by (change (2 ^ 63) with 9223372036854775808; lia).
    destruct (result <? 590295810358705651712) eqn:E; [|lia].
    match goal with |- _ = (if ?c then _ else _) => destruct c eqn:E2 end; [reflexivity|lia].
  - (* 127 << 63 keeps bit 63 only *)
    assert (l = 127) as -> by lia.
    assert (Hsh : shl64 dbg 127 63 = Ok (1 * 2 ^ 63)) by (destruct dbg; reflexivity).
    rewrite Hsh. cbn [bind]. rewrite lor_mul_add by (change (2 ^ 63) with 9223372036854775808; exact Hres).
    change (1 * 2 ^ 63) with 9223372036854775808.
    rewrite to_i64_big
      by (change (2 ^ 63) with 9223372036854775808; change (2 ^ 64) with 18446744073709551616; lia).
    destruct (result + 9223372036854775808 * 127 <? 590295810358705651712) eqn:E; [lia|].
    match goal with |- _ = (if ?c then _ else _) => destruct c eqn:E2 end; [apply ok_pair_eq; lia|lia].
  - destruct (result + 9223372036854775808 * l <? 590295810358705651712) eqn:E;
      match goal with |- _ = (if ?c then _ else _) => destruct c eqn:E2 end; try reflexivity; lia.
Qed.

Lemma sleb_loop_exact dbg : forall bs k result,
  k <= 9 -> result < 2 ^ (7 * k) ->
  sleb_loop dbg result (7 * k) bs = sleb_post result (2 ^ (7 * k)) k bs.
Proof.
  apply (leb_loop_exact dbg EBadSignedLeb128 (fun byte => negb (byte =? 0) && negb (byte =? 127))
           (sleb_fin dbg) sleb_F (sleb_loop dbg)); auto using sleb_last8, sleb_last9.
  - intros. cbn [sleb_loop]. rewrite <- andb_assoc. reflexivity.
  - intros b Hc. pose proof (byte_split b) as H. rewrite Hc in H. lia.
  - intros u n rest H. unfold sleb_F. destruct (n <=? 10) eqn:E; [lia|reflexivity].
Qed.

Definition sleb_spec (bs : list byte) : res (Z * list byte) :=
  match split_leb bs with
  | None => if (10 <=? length bs)%nat then Err EBadSignedLeb128 else Err EUnexpectedEof
  | Some (enc, rest) =>
      if (length enc <=? 10)%nat && in_i64 (sval enc) then Ok (sval enc, rest)
      else Err EBadSignedLeb128
  end.

Theorem read_sleb128_exact dbg bs : read_sleb128 dbg bs = sleb_spec bs.
Proof.
  unfold read_sleb128, sleb_spec. change 0 with (7 * 0) at 2.
  rewrite sleb_loop_exact by (change (2 ^ (7 * 0)) with 1; lia).
  unfold sleb_post. change (2 ^ (7 * 0)) with 1.
  destruct (split_leb bs) as [[e rest]|].
  - rewrite sval_sval_at.
    replace (0 + 1 * uval e) with (uval e) by lia.
    replace (0 + N.of_nat (length e)) with (N.of_nat (length e)) by lia.
    replace ((length e <=? 10)%nat) with (N.of_nat (length e) <=? 10) by lia.
    reflexivity.
  - replace ((10 <=? length bs)%nat) with (10 - 0 <=? N.of_nat (length bs)) by lia.
    reflexivity.
Qed.

(* the readers never panic: the `64 <=? shift` branch of shl64 is dead *)
Lemma read_uleb128_total dbg bs : read_uleb128 dbg bs <> Panic /\ read_uleb128 dbg bs <> OutOfFuel.
Proof.
  rewrite read_uleb128_exact. unfold uleb_spec.
  destruct (split_leb bs) as [[e r]|].
  - destruct ((length e <=? 10)%nat && (uval e <? 2 ^ 64)); split; discriminate.
  - destruct (10 <=? length bs)%nat; split; discriminate.
Qed.

Lemma read_sleb128_total dbg bs : read_sleb128 dbg bs <> Panic /\ read_sleb128 dbg bs <> OutOfFuel.
Proof.
  rewrite read_sleb128_exact. unfold sleb_spec.
  destruct (split_leb bs) as [[e r]|].
  - destruct ((length e <=? 10)%nat && in_i64 (sval e)); split; discriminate.
  - destruct (10 <=? length bs)%nat; split; discriminate.
Qed.

Definition uleb16_spec (bs : list byte) : res (N * list byte) :=
  match split_leb bs with
  | None => if (3 <=? length bs)%nat then Err EBadUnsignedLeb128 else Err EUnexpectedEof
  | Some (enc, rest) =>
      if (length enc <=? 3)%nat && (uval enc <? 2 ^ 16) then Ok (uval enc, rest)
      else Err EBadUnsignedLeb128
  end.

Lemma wrap16_shl7 (l : N) : l < 128 -> wrap16 (N.shiftl l 7) = l * 128.
Proof.
  intros H. unfold wrap16, two16. rewrite N.shiftl_mul_pow2. change (2 ^ 7) with 128.
  apply N.mod_small. lia.
Qed.

Lemma wrap16_shl14 (l : N) : l <= 3 -> wrap16 (N.shiftl l 14) = l * 16384.
Proof.
  intros H. unfold wrap16, two16. rewrite N.shiftl_mul_pow2. change (2 ^ 14) with 16384.
  apply N.mod_small. lia.
Qed.

(* the reader unrolled to three bytes in u16 arithmetic: the third byte may only hold bits 14 and 15 *)
Theorem read_uleb128_u16_exact bs : read_uleb128_u16 bs = uleb16_spec bs.
Proof.
  unfold read_uleb128_u16, uleb16_spec.
  destruct bs as [|b0 r0]; [reflexivity|].
  cbn [read_u8 bind split_leb]. rewrite cont_bit_has_cont.
  pose proof (byte_split b0) as Hs0. pose proof (low7_lt b0) as Hl0.
  destruct (has_cont (b2n b0)) eqn:Hc0; cbn [negb].
  2:{ cbn [uval length]. rewrite land127_low7. change (2 ^ 16) with 65536.
      destruct ((1 <=? 3)%nat && (low7 (b2n b0) + 128 * 0 <? 65536)) eqn:E; [|lia].
      apply ok_pair_eq. lia. }
  destruct r0 as [|b1 r1]; [reflexivity|].
  cbn [read_u8 bind split_leb]. rewrite cont_bit_has_cont.
  pose proof (byte_split b1) as Hs1. pose proof (low7_lt b1) as Hl1.
  rewrite (wrap16_shl7 _ Hl1), (lor_mul_add _ _ 7 Hl0 : N.lor _ (_ * 128) = _).
  destruct (has_cont (b2n b1)) eqn:Hc1; cbn [negb].
  2:{ cbn [uval length]. rewrite !land127_low7. change (2 ^ 16) with 65536.
      match goal with |- _ = (if ?c then _ else _) => destruct c eqn:E end; [|lia].
      apply ok_pair_eq. lia. }
  destruct r1 as [|b2 r2]; [reflexivity|].
  cbn [read_u8 bind split_leb]. rewrite cont_bit_has_cont.
  pose proof (byte_split b2) as Hs2. pose proof (low7_lt b2) as Hl2.
  destruct (has_cont (b2n b2)) eqn:Hc2.
  - (* third byte has the continuation bit: > 3 *)
    destruct (3 <? b2n b2) eqn:E3; [|lia].
    destruct (split_leb r2) as [[e rest]|] eqn:Hsp.
    + pose proof (split_leb_nonempty _ _ _ Hsp). cbn [length].
      match goal with |- _ = (if ?c then _ else _) => destruct c eqn:E end; [lia|reflexivity].
    + cbn [length]. destruct (3 <=? S (S (S (length r2))))%nat eqn:E; [reflexivity|lia].
  - cbn [uval length]. rewrite !land127_low7. change (2 ^ 16) with 65536.
    destruct (3 <? b2n b2) eqn:E3.
    + match goal with |- _ = (if ?c then _ else _) => destruct c eqn:E end; [lia|reflexivity].
    + rewrite wrap16_shl14 by lia. unfold two16.
      match goal with |- (if ?c then _ else _) = _ => destruct c eqn:E end; [|lia].
      match goal with |- _ = (if ?c then _ else _) => destruct c eqn:E' end; [|lia].
      apply ok_pair_eq. lia.
Qed.

Lemma read_uleb128_u16_no_panic bs : read_uleb128_u16 bs <> Panic /\ read_uleb128_u16 bs <> OutOfFuel.
Proof.
  rewrite read_uleb128_u16_exact. unfold uleb16_spec.
  destruct (split_leb bs) as [[e rest]|].
  - destruct ((length e <=? 3)%nat && (uval e <? 2 ^ 16)); split; discriminate.
  - destruct (3 <=? length bs)%nat; split; discriminate.
Qed.

Definition uleb32_spec (bs : list byte) : res (N * list byte) :=
  match split_leb bs with
  | None => if (10 <=? length bs)%nat then Err EBadUnsignedLeb128 else Err EUnexpectedEof
  | Some (enc, rest) =>
      if (length enc <=? 10)%nat && (uval enc <? 2 ^ 32) then Ok (uval enc, rest)
      else Err EBadUnsignedLeb128
  end.

Theorem read_uleb128_u32_exact dbg bs : read_uleb128_u32 dbg bs = uleb32_spec bs.
Proof.
  unfold read_uleb128_u32, uleb32_spec. rewrite read_uleb128_exact. unfold uleb_spec.
  destruct (split_leb bs) as [[e rest]|].
  - change (2 ^ 64) with 18446744073709551616. change (2 ^ 32) with 4294967296. unfold two32.
    destruct ((length e <=? 10)%nat && (uval e <? 18446744073709551616)) eqn:E1; cbn [bind].
    + destruct (uval e <? 4294967296) eqn:E2.
      * destruct ((length e <=? 10)%nat && true) eqn:E3; [reflexivity|lia].
      * destruct ((length e <=? 10)%nat && false) eqn:E3; [lia|reflexivity].
    + destruct ((length e <=? 10)%nat && (uval e <? 4294967296)) eqn:E3; [lia|reflexivity].
  - destruct (10 <=? length bs)%nat; reflexivity.
Qed.

Lemma read_uleb128_u32_narrow dbg bs :
  read_uleb128_u32 dbg bs =
  match read_uleb128 dbg bs with
  | Ok (v, rest) => if v <? 2 ^ 32 then Ok (v, rest) else Err EBadUnsignedLeb128
  | Err e => Err e
  | Panic => Panic
  | OutOfFuel => OutOfFuel
  end.
Proof.
  unfold read_uleb128_u32. destruct (read_uleb128 dbg bs) as [[v r]| | |]; reflexivity.
Qed.

Theorem skip_leb_exact bs :
  skip_leb bs = match split_leb bs with
                | Some (_, rest) => Ok (tt, rest)
                | None => Err EUnexpectedEof
                end.
Proof.
  induction bs as [|b r IH]; [reflexivity|].
  cbn [skip_leb split_leb]. rewrite cont_bit_has_cont.
  destruct (has_cont (b2n b)); [|reflexivity].
  rewrite IH. destruct (split_leb r) as [[e rest]|]; reflexivity.
Qed.

(* what an Ok result says about the input *)

Lemma read_uleb128_ok dbg bs v r : read_uleb128 dbg bs = Ok (v, r) ->
  exists e, split_leb bs = Some (e, r) /\ uval e = v /\ (length e <= 10)%nat /\ v < two64.
Proof.
  rewrite read_uleb128_exact. unfold uleb_spec.
  destruct (split_leb bs) as [[e x]|]; [|destruct (10 <=? length bs)%nat; discriminate].
  destruct ((length e <=? 10)%nat && (uval e <? 2 ^ 64)) eqn:E; [|discriminate].
  intros H; injection H as <- <-. exists e. change (2 ^ 64) with two64 in E. repeat split; lia.
Qed.

Lemma read_sleb128_ok dbg bs v r : read_sleb128 dbg bs = Ok (v, r) ->
  exists e, split_leb bs = Some (e, r) /\ sval e = v /\ (length e <= 10)%nat /\ in_i64 v = true.
Proof.
  rewrite read_sleb128_exact. unfold sleb_spec.
  destruct (split_leb bs) as [[e x]|]; [|destruct (10 <=? length bs)%nat; discriminate].
  destruct ((length e <=? 10)%nat && in_i64 (sval e)) eqn:E; [|discriminate].
  intros H; injection H as <- <-. exists e. repeat split; lia.
Qed.

Lemma read_uleb128_u16_ok bs v r : read_uleb128_u16 bs = Ok (v, r) ->
  exists e, split_leb bs = Some (e, r) /\ uval e = v /\ (length e <= 3)%nat /\ v < two16.
Proof.
  rewrite read_uleb128_u16_exact. unfold uleb16_spec.
  destruct (split_leb bs) as [[e x]|]; [|destruct (3 <=? length bs)%nat; discriminate].
  destruct ((length e <=? 3)%nat && (uval e <? 2 ^ 16)) eqn:E; [|discriminate].
  intros H; injection H as <- <-. exists e. change (2 ^ 16) with two16 in E. repeat split; lia.
Qed.

Lemma read_uleb128_u32_ok dbg bs v r : read_uleb128_u32 dbg bs = Ok (v, r) ->
  exists e, split_leb bs = Some (e, r) /\ uval e = v /\ (length e <= 10)%nat /\ v < two32.
Proof.
  unfold read_uleb128_u32. destruct (read_uleb128 dbg bs) as [[v' r']| | |] eqn:E; try discriminate.
  cbn [bind]. destruct (v' <? two32) eqn:E2; [|discriminate]. intros H; injection H as <- <-.
  destruct (read_uleb128_ok _ _ _ _ E) as (e & Hs & Hu & Hl & _). exists e. repeat split; try assumption. lia.
Qed.

(* minimal encodings and the writers *)

Fixpoint p128 (n : nat) : N := match n with O => 1 | S k => 128 * p128 k end.

Lemma p128_pos n : 0 < p128 n.
Proof. induction n; cbn [p128]; lia. Qed.

Lemma p128_pow n : 2 ^ (7 * N.of_nat n) = p128 n.
Proof.
  induction n as [|n IH]; [reflexivity|].
  replace (7 * N.of_nat (S n)) with (7 + 7 * N.of_nat n) by lia.
  rewrite N.pow_add_r, IH. reflexivity.
Qed.

Lemma p128_half n : 2 ^ (7 * N.of_nat (S n) - 1) = 64 * p128 n.
Proof.
  replace (7 * N.of_nat (S n) - 1) with (6 + 7 * N.of_nat n) by lia.
  rewrite N.pow_add_r, p128_pow. reflexivity.
Qed.

Lemma small_byte (x : N) : x < 128 ->
  b2n (n2b x) = x /\ has_cont x = false /\ low7 x = x.
Proof.
  intros H. assert (Hb : b2n (n2b x) = x) by (apply b2n_n2b_small; lia).
  pose proof (byte_split (n2b x)) as Hs. pose proof (low7_lt (n2b x)) as Hl.
  rewrite Hb in Hs, Hl. destruct (has_cont x); [lia|]. repeat split; lia.
Qed.

Lemma cont_byte (x : N) : x < 128 ->
  N.lor x CONT = x + 128 /\ b2n (n2b (x + 128)) = x + 128 /\
  has_cont (x + 128) = true /\ low7 (x + 128) = x.
Proof.
  intros H. unfold CONT.
  assert (Hlor : N.lor x 128 = x + 128).
  { change 128 with (N.shiftl 1 7). apply lor_shiftl_add. change (2 ^ 7) with 128. exact H. }
  assert (Hb : b2n (n2b (x + 128)) = x + 128) by (apply b2n_n2b_small; lia).
  pose proof (byte_split (n2b (x + 128))) as Hs. pose proof (low7_lt (n2b (x + 128))) as Hl.
  rewrite Hb in Hs, Hl. destruct (has_cont (x + 128)); [|lia]. repeat split; lia.
Qed.

(* One LEB128 group: a last byte [n2b x], or a byte with the continuation bit in front of an encoding. *)
Lemma split_leb_last x r : x < 128 ->
  split_leb ([n2b x] ++ r) = Some ([n2b x], r) /\ uval [n2b x] = x.
Proof.
  intros H. destruct (small_byte x H) as (Hb & Hc & Hl).
  cbn [app split_leb uval]. rewrite cont_bit_has_cont, land127_low7, Hb, Hc, Hl. split; [reflexivity|lia].
Qed.

Lemma split_leb_cont x e r : x < 128 -> split_leb (e ++ r) = Some (e, r) ->
  split_leb ((n2b (x + 128) :: e) ++ r) = Some (n2b (x + 128) :: e, r) /\
  uval (n2b (x + 128) :: e) = x + 128 * uval e.
Proof.
  intros H He. destruct (cont_byte x H) as (_ & Hb & Hc & Hl).
  cbn [app split_leb uval]. rewrite cont_bit_has_cont, land127_low7, Hb, Hc, Hl, He. split; reflexivity.
Qed.

(* unsigned: LebSpec.enc_uleb_fuel with enough fuel *)

Lemma enc_uleb_fuel_S f v :
  enc_uleb_fuel (S f) v = if v <? 128 then [n2b v] else n2b (v mod 128 + 128) :: enc_uleb_fuel f (v / 128).
Proof. cbn [enc_uleb_fuel]. rewrite (N.add_comm 128). reflexivity. Qed.

(* [n] counts the groups after the first that the value may need; any fuel above it gives the same bytes *)
Lemma enc_uleb_fuel_spec : forall n f v r, (n < f)%nat -> v < 128 * p128 n ->
  split_leb (enc_uleb_fuel f v ++ r) = Some (enc_uleb_fuel f v, r) /\
  uval (enc_uleb_fuel f v) = v /\ (1 <= length (enc_uleb_fuel f v) <= S n)%nat /\
  enc_uleb_fuel f v = enc_uleb_fuel (S n) v.
Proof.
  induction n as [|n IH]; intros [|f] v r Hf Hv; try lia; rewrite !(enc_uleb_fuel_S _ v);
    cbn [p128] in Hv; destruct (v <? 128) eqn:E; try lia.
  1,2: destruct (split_leb_last v r) as [Hs Hu]; [lia|]; cbn [length]; repeat split; try assumption; lia.
  pose proof (N.div_mod v 128) as Hdm. pose proof (N.mod_lt v 128) as Hm.
  destruct (IH f (v / 128) r) as (Hs & Hu & Hl & He); [lia|lia|].
  destruct (split_leb_cont (v mod 128) _ r ltac:(lia) Hs) as [Hs' Hu'].
  rewrite <- He. cbn [length]. repeat split; try assumption; lia.
Qed.

Lemma low7_land255 (v : N) : low7 (N.land v 255) = v mod 128.
Proof.
  unfold low7. change 255 with (N.ones 8). change 127 with (N.ones 7).
  rewrite !N.land_ones. change (2 ^ 8) with (128 * 2). change (2 ^ 7) with 128.
  rewrite N.mod_mul_r, N.mul_comm, N.mod_add, N.mod_mod by lia. reflexivity.
Qed.

Lemma write_uleb_fuel_S f v :
  write_uleb_fuel (S f) v =
  if v / 128 =? 0 then Ok [n2b (v mod 128)]
  else let* rest := write_uleb_fuel f (v / 128) in Ok (n2b (N.lor (v mod 128) CONT) :: rest).
Proof. cbn [write_uleb_fuel]. rewrite low7_land255, shiftr7. reflexivity. Qed.

Lemma uleb_size_fuel_S f v :
  uleb_size_fuel (S f) v = if v / 128 =? 0 then 1 else 1 + uleb_size_fuel f (v / 128).
Proof. cbn [uleb_size_fuel]. rewrite shiftr7. reflexivity. Qed.

(* the writer emits the minimal encoding and the size function predicts its length *)
Lemma write_uleb_fuel_enc : forall f v, v < 128 * p128 f ->
  write_uleb_fuel (S f) v = Ok (enc_uleb_fuel (S f) v) /\
  uleb_size_fuel (S f) v = N.of_nat (length (enc_uleb_fuel (S f) v)).
Proof.
  induction f as [|f IH]; intros v Hv; rewrite write_uleb_fuel_S, enc_uleb_fuel_S, uleb_size_fuel_S;
    cbn [p128] in Hv; pose proof (N.div_mod v 128) as Hdm; pose proof (N.mod_lt v 128) as Hm;
    destruct (v <? 128) eqn:E; destruct (v / 128 =? 0) eqn:E0; try lia.
  1,2: replace (v mod 128) with v by lia; split; reflexivity.
  destruct (IH (v / 128)) as [Hw Hs]; [pose proof (p128_pos f); lia|].
  destruct (cont_byte (v mod 128)) as (Hlor & _); [lia|].
  rewrite Hw, Hlor, Hs. cbn [bind length]. split; [reflexivity|lia].
Qed.

(* without a range hypothesis: a writer that returns has stayed inside its ten-byte array *)
Lemma write_uleb_fuel_bound : forall f v bs, write_uleb_fuel f v = Ok bs -> v < p128 f.
Proof.
  induction f as [|f IH]; intros v bs; [discriminate|]. rewrite write_uleb_fuel_S. cbn [p128].
  pose proof (N.div_mod v 128) as Hdm. pose proof (N.mod_lt v 128) as Hm. pose proof (p128_pos f).
  destruct (v / 128 =? 0) eqn:E; [lia|].
  destruct (write_uleb_fuel f (v / 128)) as [rest| | |] eqn:Hw; try discriminate. specialize (IH _ _ Hw). lia.
Qed.

Lemma uleb_size_fuel_le : forall f v, uleb_size_fuel f v <= N.of_nat f.
Proof.
  induction f as [|f IH]; intros v; [reflexivity|]. rewrite uleb_size_fuel_S.
  specialize (IH (v / 128)). destruct (v / 128 =? 0); lia.
Qed.

Lemma uleb128_size_le v : uleb128_size v <= 10.
Proof. apply (uleb_size_fuel_le 10). Qed.

Lemma two64_lt_p128 : two64 <= 128 * p128 9.
Proof. vm_compute. discriminate. Qed.

Lemma enc_uleb_spec v r : v < two64 ->
  split_leb (enc_uleb v ++ r) = Some (enc_uleb v, r) /\ uval (enc_uleb v) = v /\
  (1 <= length (enc_uleb v) <= 10)%nat /\ enc_uleb v = enc_uleb_fuel 10 v.
Proof. intros H. apply enc_uleb_fuel_spec; [lia|]. pose proof two64_lt_p128. lia. Qed.

Lemma write_uleb128_enc v : v < two64 ->
  write_uleb128 v = Ok (enc_uleb v) /\ uleb128_size v = N.of_nat (length (enc_uleb v)).
Proof.
  intros H. destruct (enc_uleb_spec v [] H) as (_ & _ & _ & ->).
  apply write_uleb_fuel_enc. pose proof two64_lt_p128. lia.
Qed.

Lemma write_uleb128_ok v bs : write_uleb128 v = Ok bs ->
  bs = enc_uleb_fuel 10 v /\ uleb128_size v = N.of_nat (length bs) /\ uval bs = v /\
  (1 <= length bs <= 10)%nat /\ forall r, split_leb (bs ++ r) = Some (bs, r).
Proof.
  intros H. pose proof (write_uleb_fuel_bound _ _ _ H) as Hv. cbn [p128] in Hv.
  destruct (write_uleb_fuel_enc 9 v Hv) as [Hw Hs]. unfold write_uleb128 in H. rewrite Hw in H.
  assert (bs = enc_uleb_fuel 10 v) as -> by congruence. clear H. split; [reflexivity|]. split; [exact Hs|].
  destruct (enc_uleb_fuel_spec 9 10 v [] ltac:(lia) Hv) as (_ & Hu & Hl & _). split; [exact Hu|]. split; [exact Hl|].
  intros r. apply (enc_uleb_fuel_spec 9 10 v r); [lia|exact Hv].
Qed.

Lemma read_uleb128_enc dbg v r : v < two64 -> read_uleb128 dbg (enc_uleb v ++ r) = Ok (v, r).
Proof.
  intros H. destruct (enc_uleb_spec v r H) as (Hs & Hu & Hl & _).
  rewrite read_uleb128_exact. unfold uleb_spec. rewrite Hs, Hu. change (2 ^ 64) with two64.
  destruct ((length (enc_uleb v) <=? 10)%nat && (v <? two64)) eqn:E; [reflexivity|lia].
Qed.

Lemma read_uleb128_u32_enc dbg v r : v < two32 -> read_uleb128_u32 dbg (enc_uleb v ++ r) = Ok (v, r).
Proof.
  intros H. unfold read_uleb128_u32. rewrite read_uleb128_enc by (unfold two32, two64 in *; lia).
  cbn [bind]. destruct (v <? two32) eqn:E; [reflexivity|lia].
Qed.

Lemma read_uleb128_u16_enc v r : v < two16 -> read_uleb128_u16 (enc_uleb v ++ r) = Ok (v, r).
Proof.
  intros H. destruct (enc_uleb_fuel_spec 2 19 v r) as (Hs & Hu & Hl & _); [lia|unfold two16 in H; cbn [p128]; lia|].
  fold (enc_uleb v) in *. rewrite read_uleb128_u16_exact. unfold uleb16_spec. rewrite Hs, Hu.
  change (2 ^ 16) with two16.
  destruct ((length (enc_uleb v) <=? 3)%nat && (v <? two16)) eqn:E; [reflexivity|lia].
Qed.

Lemma skip_leb_enc v r : v < two64 -> skip_leb (enc_uleb v ++ r) = Ok (tt, r).
Proof. intros H. rewrite skip_leb_exact. destruct (enc_uleb_spec v r H) as (-> & _). reflexivity. Qed.

Lemma uleb128_size_range v : v < two64 -> 1 <= uleb128_size v <= 10.
Proof.
  intros Hv. destruct (write_uleb128_enc v Hv) as [_ ->]. destruct (enc_uleb_spec v [] Hv) as (_ & _ & Hl & _). lia.
Qed.

Theorem write_uleb128_read v : v < two64 ->
  exists enc, write_uleb128 v = Ok enc /\
    uval enc = v /\
    N.of_nat (length enc) = uleb128_size v /\ (1 <= length enc <= 10)%nat /\
    forall r, split_leb (enc ++ r) = Some (enc, r) /\
              forall dbg, read_uleb128 dbg (enc ++ r) = Ok (v, r).
Proof.
  intros Hv. destruct (write_uleb128_enc v Hv) as [Hw Hsz]. destruct (enc_uleb_spec v [] Hv) as (_ & Hu & Hl & _).
  exists (enc_uleb v). repeat split; try assumption; try lia.
  - apply enc_uleb_spec, Hv.
  - intros dbg. apply read_uleb128_enc, Hv.
Qed.

(* the minimal signed encoding; the encoders of the Spec files are this function (sleb_min_agrees) *)
Fixpoint sleb_min (fuel : nat) (z : Z) : list byte :=
  match fuel with
  | O => []
  | S f =>
      if ((-64 <=? z) && (z <? 64))%Z then [n2b (Z.to_N (z mod 128))]
      else n2b (Z.to_N (z mod 128) + 128) :: sleb_min f (z / 128)
  end.

Lemma lor128_byte (b : byte) : N.lor (b2n b) CONT = low7 (b2n b) + 128.
Proof. destruct b; vm_compute; reflexivity. Qed.

Section WithDivMod.

Lemma sleb_last_group (z : Z) :
  ((z / 128 =? 0) && (z mod 128 <? 64) || (z / 128 =? -1) && (64 <=? z mod 128))%Z =
  ((-64 <=? z) && (z <? 64))%Z.
Proof. lia. Qed.

Lemma sleb_done_iff (v : Z) :
  ((Z.shiftr v 6 =? 0) || (Z.shiftr v 6 =? -1))%Z = ((-64 <=? v) && (v <? 64))%Z.
Proof. rewrite Z.shiftr_div_pow2 by lia. change (2 ^ 6)%Z with 64%Z. lia. Qed.

Lemma sleb_next (v : Z) : Z.shiftr (Z.shiftr v 6) 1 = (v / 128)%Z.
Proof.
  rewrite !Z.shiftr_div_pow2 by lia. change (2 ^ 6)%Z with 64%Z. change (2 ^ 1)%Z with 2%Z. lia.
Qed.

Lemma sleb_low (v : Z) : N.land (Z.to_N (v mod 256)) 127 = Z.to_N (v mod 128).
Proof. change 127 with (N.ones 7). rewrite N.land_ones. lia. Qed.

Lemma sleb_high (v : Z) : N.lor (Z.to_N (v mod 256)) CONT = Z.to_N (v mod 128) + 128.
Proof.
  assert (Hb : b2n (n2b (Z.to_N (v mod 256))) = Z.to_N (v mod 256)) by (apply b2n_n2b_small; lia).
  rewrite <- Hb, lor128_byte, Hb. unfold low7. change 127 with (N.ones 7). rewrite N.land_ones. lia.
Qed.
End WithDivMod.

Lemma write_sleb_fuel_S f v :
  write_sleb_fuel (S f) v =
  if ((-64 <=? v) && (v <? 64))%Z then Ok [n2b (Z.to_N (v mod 128))]
  else let* rest := write_sleb_fuel f (v / 128) in Ok (n2b (Z.to_N (v mod 128) + 128) :: rest).
Proof. cbn [write_sleb_fuel]. rewrite sleb_done_iff, sleb_next, sleb_low, sleb_high. reflexivity. Qed.

(* two's complement at 7*(n+1) bits recovers v from its residue *)
Lemma sval_of_parts enc n v :
  length enc = S n ->
  Z.of_N (uval enc) = (v mod (128 * Z.of_N (p128 n)))%Z ->
  (- 64 * Z.of_N (p128 n) <= v < 64 * Z.of_N (p128 n))%Z ->
  sval enc = v.
Proof.
  intros Hlen Hu Hr. unfold sval. rewrite Hlen, p128_half, p128_pow. cbn [p128].
  pose proof (p128_pos n) as Hp.
  set (M := (128 * Z.of_N (p128 n))%Z) in *.
  destruct (Z.neg_nonneg_cases v) as [Hneg|Hpos].
  - assert (Hm : (v mod M = v + M)%Z).
    { rewrite <- (Z.mod_add v 1 M) by lia. rewrite Z.mod_small by lia. lia. }
    destruct (uval enc <? 64 * p128 n) eqn:E; lia.
  - assert (Hm : (v mod M = v)%Z) by (apply Z.mod_small; lia).
    destruct (uval enc <? 64 * p128 n) eqn:E; lia.
Qed.

Definition sleb_range (n : nat) (z : Z) : Prop :=
  (- 64 * Z.of_N (p128 n) <= z < 64 * Z.of_N (p128 n))%Z.

Lemma sleb_min_parts : forall n f z r, (n < f)%nat -> sleb_range n z ->
  split_leb (sleb_min f z ++ r) = Some (sleb_min f z, r) /\ sleb_min f z = sleb_min (S n) z /\
  exists m, (m <= n)%nat /\ length (sleb_min f z) = S m /\ sleb_range m z /\
    Z.of_N (uval (sleb_min f z)) = (z mod (128 * Z.of_N (p128 m)))%Z.
Proof.
  unfold sleb_range.
  induction n as [|n IH]; intros [|f] z r Hf Hz; try lia; cbn [sleb_min p128] in *;
    pose proof (Z.mod_pos_bound z 128 ltac:(lia)) as Hm; pose proof (Z.div_mod z 128 ltac:(lia)) as Hdm;
    destruct ((-64 <=? z) && (z <? 64))%Z eqn:E; try lia.
  1,2: destruct (split_leb_last (Z.to_N (z mod 128)) r) as [Hs Hu]; [lia|];
       split; [exact Hs|]; split; [reflexivity|]; exists O; rewrite Hu; cbn [p128 length];
       change (128 * Z.of_N 1)%Z with 128%Z; repeat split; lia.
  pose proof (p128_pos n) as Hpn.
  destruct (IH f (z / 128)%Z r) as (Hs & He & m & Hmn & Hl & Hr & Hu); [lia|lia|].
  destruct (split_leb_cont (Z.to_N (z mod 128)) _ r ltac:(lia) Hs) as [Hs' Hu'].
  split; [exact Hs'|]. split; [rewrite He; reflexivity|]. exists (S m).
  pose proof (p128_pos m) as Hpm. cbn [length p128]. rewrite Hu', Hl.
  split; [lia|]. split; [reflexivity|]. split; [lia|].
  replace (128 * Z.of_N (128 * p128 m))%Z with (128 * (128 * Z.of_N (p128 m)))%Z by lia.
  rewrite Z.rem_mul_r by lia. lia.
Qed.

Lemma sleb_min_spec n f z r : (n < f)%nat -> sleb_range n z ->
  split_leb (sleb_min f z ++ r) = Some (sleb_min f z, r) /\ sval (sleb_min f z) = z /\
  (1 <= length (sleb_min f z) <= S n)%nat /\ sleb_min f z = sleb_min (S n) z.
Proof.
  intros Hf Hz. destruct (sleb_min_parts n f z r Hf Hz) as (Hs & He & m & Hm & Hl & Hr & Hu).
  repeat split; try assumption; [exact (sval_of_parts _ m z Hl Hu Hr)|lia|lia].
Qed.

Lemma sleb_size_fuel_S f v :
  sleb_size_fuel (S f) v =
  if ((-64 <=? v) && (v <? 64))%Z then 1 else 1 + sleb_size_fuel f (v / 128).
Proof. cbn [sleb_size_fuel]. rewrite sleb_done_iff, sleb_next. reflexivity. Qed.

Lemma sleb_min_S f z :
  sleb_min (S f) z = if ((-64 <=? z) && (z <? 64))%Z then [n2b (Z.to_N (z mod 128))]
                     else n2b (Z.to_N (z mod 128) + 128) :: sleb_min f (z / 128).
Proof. reflexivity. Qed.

Lemma write_sleb_fuel_enc : forall f v, sleb_range f v ->
  write_sleb_fuel (S f) v = Ok (sleb_min (S f) v) /\
  sleb_size_fuel (S f) v = N.of_nat (length (sleb_min (S f) v)).
Proof.
  unfold sleb_range.
  induction f as [|f IH]; intros v Hv; rewrite write_sleb_fuel_S, sleb_size_fuel_S, sleb_min_S;
    cbn [p128] in Hv; pose proof (Z.mod_pos_bound v 128 ltac:(lia)) as Hm;
    pose proof (Z.div_mod v 128 ltac:(lia)) as Hdm;
    destruct ((-64 <=? v) && (v <? 64))%Z eqn:E; try lia; try (split; reflexivity).
  destruct (IH (v / 128)%Z) as [Hw Hs]; [pose proof (p128_pos f); lia|].
  rewrite Hw, Hs. cbn [bind length]. split; [reflexivity|lia].
Qed.

Lemma write_sleb_fuel_bound : forall f z bs, write_sleb_fuel (S f) z = Ok bs -> sleb_range f z.
Proof.
  unfold sleb_range. induction f as [|f IH]; intros z bs; rewrite write_sleb_fuel_S; cbn [p128];
    pose proof (Z.mod_pos_bound z 128 ltac:(lia)) as Hm; pose proof (Z.div_mod z 128 ltac:(lia)) as Hdm;
    destruct ((-64 <=? z) && (z <? 64))%Z eqn:E; try lia; try discriminate.
  - pose proof (p128_pos f). lia.
  - destruct (write_sleb_fuel (S f) (z / 128)) as [rest| | |] eqn:Hw; try discriminate. specialize (IH _ _ Hw). lia.
Qed.

Lemma sleb_size_fuel_le : forall f v, sleb_size_fuel f v <= N.of_nat f.
Proof.
  induction f as [|f IH]; intros v; [reflexivity|]. rewrite sleb_size_fuel_S.
  specialize (IH (v / 128)%Z). destruct ((-64 <=? v) && (v <? 64))%Z; lia.
Qed.

Lemma sleb128_size_le z : sleb128_size z <= 10.
Proof. apply (sleb_size_fuel_le 10). Qed.

Lemma write_sleb128_ok z bs : write_sleb128 z = Ok bs ->
  bs = sleb_min 10 z /\ sleb128_size z = N.of_nat (length bs) /\ sval bs = z /\
  (1 <= length bs <= 10)%nat /\ forall r, split_leb (bs ++ r) = Some (bs, r).
Proof.
  intros H. pose proof (write_sleb_fuel_bound _ _ _ H) as Hv.
  destruct (write_sleb_fuel_enc 9 z Hv) as [Hw Hs]. unfold write_sleb128 in H. rewrite Hw in H.
  assert (bs = sleb_min 10 z) as -> by congruence. clear H. split; [reflexivity|]. split; [exact Hs|].
  destruct (sleb_min_spec 9 10 z [] ltac:(lia) Hv) as (_ & Hu & Hl & _). split; [exact Hu|]. split; [exact Hl|].
  intros r. apply (sleb_min_spec 9 10 z r); [lia|exact Hv].
Qed.

Lemma in_i64_range z : in_i64 z = true -> sleb_range 9 z.
Proof. unfold in_i64, sleb_range. change (p128 9) with 9223372036854775808. lia. Qed.

Lemma sleb_min_i64 f z r : (9 < f)%nat -> in_i64 z = true ->
  split_leb (sleb_min f z ++ r) = Some (sleb_min f z, r) /\ sval (sleb_min f z) = z /\
  (1 <= length (sleb_min f z) <= 10)%nat /\ sleb_min f z = sleb_min 10 z.
Proof. intros Hf Hz. apply sleb_min_spec; [exact Hf|apply in_i64_range, Hz]. Qed.

Lemma write_sleb128_enc v : in_i64 v = true ->
  write_sleb128 v = Ok (sleb_min 10 v) /\ sleb128_size v = N.of_nat (length (sleb_min 10 v)).
Proof. intros H. apply write_sleb_fuel_enc, in_i64_range, H. Qed.

Lemma read_sleb128_enc dbg f z r : (9 < f)%nat -> in_i64 z = true ->
  read_sleb128 dbg (sleb_min f z ++ r) = Ok (z, r).
Proof.
  intros Hf Hz. destruct (sleb_min_i64 f z r Hf Hz) as (Hs & Hv & Hl & _).
  rewrite read_sleb128_exact. unfold sleb_spec. rewrite Hs, Hv, Hz.
  destruct (length (sleb_min f z) <=? 10)%nat eqn:E; [reflexivity|lia].
Qed.

Lemma sleb128_size_range v : in_i64 v = true -> 1 <= sleb128_size v <= 10.
Proof.
  intros Hv. destruct (write_sleb128_enc v Hv) as [_ ->]. destruct (sleb_min_i64 10 v [] ltac:(lia) Hv) as (_ & _ & Hl & _). lia.
Qed.

Theorem write_sleb128_read v : in_i64 v = true ->
  exists enc, write_sleb128 v = Ok enc /\
    sval enc = v /\
    N.of_nat (length enc) = sleb128_size v /\ (1 <= length enc <= 10)%nat /\
    forall r, split_leb (enc ++ r) = Some (enc, r) /\
              forall dbg, read_sleb128 dbg (enc ++ r) = Ok (v, r).
Proof.
  intros Hv. destruct (write_sleb128_enc v Hv) as [Hw Hsz].
  destruct (sleb_min_i64 10 v [] ltac:(lia) Hv) as (_ & Hs & Hl & _).
  exists (sleb_min 10 v). repeat split; try assumption; try lia.
  - apply sleb_min_i64; [lia|exact Hv].
  - intros dbg. apply read_sleb128_enc; [lia|exact Hv].
Qed.

Lemma sleb_min_agrees : forall f z,
  CfaSpec.enc_sleb_fuel f z = sleb_min f z /\ CfiSpec.enc_sleb_fuel f z = sleb_min f z /\
  LineSpec.enc_sleb_fuel f z = sleb_min f z /\ FormSpec.enc_sleb_fuel f z = sleb_min f z /\
  StackSpec.enc_sleb_fuel f z = sleb_min f z.
Proof.
  induction f as [|f IH]; intros z; [repeat split; reflexivity|].
  destruct (IH (z / 128)%Z) as (H1 & H2 & H3 & H4 & H5).
  pose proof (Z.mod_pos_bound z 128 ltac:(lia)) as Hm.
  cbn [CfaSpec.enc_sleb_fuel CfiSpec.enc_sleb_fuel LineSpec.enc_sleb_fuel FormSpec.enc_sleb_fuel
       StackSpec.enc_sleb_fuel sleb_min]. cbv zeta.
  rewrite H1, H2, H3, H4, H5, sleb_last_group, (N.add_comm 128).
  replace ((z / 128 =? 0)%Z && (Z.to_N (z mod 128) <? 64) || (z / 128 =? -1)%Z && (64 <=? Z.to_N (z mod 128)))
    with ((-64 <=? z) && (z <? 64))%Z by (rewrite <- sleb_last_group; f_equal; f_equal; lia).
  repeat split; reflexivity.
Qed.
