(* Proofs/CfiRdEnt.v — decoding of the entries the spec encoder produces: what the reader must
   return for a CIE, an FDE and a whole section (exp_cie, exp_fde, exp_items), and that it does. *)
From Coq Require Import List NArith ZArith Bool Lia ZifyBool ZifyN ZifyNat.
From Coq.Strings Require Import Byte.
Require Import GV.Base.Res GV.Base.Byt GV.Base.Ints GV.Model.Leb GV.Model.Prim GV.Spec.LebSpec GV.Proofs.LebProofs GV.Proofs.PrimProofs.
Require Import GV.Spec.CfiSpec GV.Model.CfiRd GV.Proofs.CfiRdBase GV.Proofs.CfiRdPtr GV.Proofs.CfiRdIter GV.Proofs.CfiRdSafe.
Import ListNotations.
Local Open Scope N_scope.

Lemma read_initial_length_enc : forall be (fmt64 : bool) len rest,
  len < (if fmt64 then 2 ^ 64 else 4294967280) ->
  read_initial_length be (initial_length be fmt64 len ++ rest) = Ok ((len, fmt64), rest).
Proof.
  intros be fmt64 len rest Hlen. unfold read_initial_length, initial_length. destruct fmt64.
  - rewrite <- app_assoc. rewrite (read_un_small 4) by (vm_compute; reflexivity). cbn [bind].
    change (4294967295 <? 4294967280) with false. change (4294967295 =? 4294967295) with true. cbv iota.
    rewrite (read_un_small 8) by (change (256 ^ N.of_nat 8) with (2 ^ 64); exact Hlen). reflexivity.
  - rewrite (read_un_small 4) by (change (256 ^ N.of_nat 4) with 4294967296; lia). cbn [bind].
    destruct (len <? 4294967280) eqn:E; [reflexivity|lia].
Qed.

Lemma nlen_initial_length : forall be fmt64 len, nlen (initial_length be fmt64 len) = len_field_size fmt64.
Proof.
  intros. unfold initial_length, len_field_size. destruct fmt64.
  - rewrite nlen_app. unfold nlen. rewrite !un_bytes_length. reflexivity.
  - unfold nlen. rewrite un_bytes_length. reflexivity.
Qed.

Lemma nlen_un_bytes : forall n be v, nlen (un_bytes n be v) = N.of_nat n.
Proof. intros. unfold nlen. rewrite un_bytes_length. reflexivity. Qed.

Definition sp_of (c : scfg) : sparams := mksp (sc_eh c) (sc_be c) (sc_asz c).

Definition idsz_of (c : scfg) (fmt64 : bool) : nat := if cie_id_is_u64 (sc_eh c) fmt64 then 8%nat else 4%nat.

(* an entry = length field, id word (idsz_of: 4 or 8 bytes), tail: the prefix the reader returns, standing after the entry *)
Lemma parse_prefix_enc : forall c (fmt64 : bool) idv tail rest o,
  let idsz := idsz_of c fmt64 in
  let body := un_bytes idsz (sc_be c) idv ++ tail in
  idv < 256 ^ N.of_nat idsz ->
  blen body < (if fmt64 then 2 ^ 64 else 4294967280) ->
  parse_prefix c (mkrd o (initial_length (sc_be c) fmt64 (blen body) ++ body ++ rest)) =
  Ok (Some (mkprefix o (blen body) fmt64 (o + len_field_size fmt64) idv
              (mkrd (o + len_field_size fmt64 + N.of_nat idsz) tail)),
      mkrd (o + len_field_size fmt64 + blen body) rest).
Proof.
  intros c fmt64 idv tail rest o idsz body Hid Hlen. unfold parse_prefix.
  erewrite lift_app by (apply read_initial_length_enc; exact Hlen).
  cbn [bind off]. rewrite nlen_initial_length.
  assert (Hnz : (blen body =? 0) = false).
  { apply N.eqb_neq. unfold body, blen. rewrite app_length, un_bytes_length. unfold idsz, idsz_of.
    destruct (cie_id_is_u64 (sc_eh c) fmt64); lia. }
  rewrite Hnz. change (blen body) with (nlen body). rewrite rd_split_app. cbn [bind off].
  unfold body, idsz, idsz_of in *. destruct (cie_id_is_u64 (sc_eh c) fmt64);
    rewrite (lift_app _ _ _ _ _ idv) by (apply read_un_small; exact Hid); cbn [bind];
    rewrite nlen_un_bytes; reflexivity.
Qed.

Lemma parse_pointer_encoding_enc : forall o e rest, e < 256 -> valid_spec e = true ->
  parse_pointer_encoding (mkrd o (n2b e :: rest)) = Ok (e, mkrd (o + 1) rest).
Proof.
  intros o e rest He Hv. rewrite parse_pointer_encoding_spec, b2n_n2b_small, Hv by exact He. reflexivity.
Qed.

Definition set_lsda (a : augm) (e : N) := mkaug (Some e) (a_pers a) (a_fde_enc a) (a_sig a).
Definition set_pers (a : augm) (p : N * pointer) := mkaug (a_lsda a) (Some p) (a_fde_enc a) (a_sig a).
Definition set_fde_enc (a : augm) (e : N) := mkaug (a_lsda a) (a_pers a) (Some e) (a_sig a).
Definition set_sig (a : augm) := mkaug (a_lsda a) (a_pers a) (a_fde_enc a) true.

(* what the items mean (and that they are well formed): None = not a well-formed item list *)
Fixpoint aug_fold (asz : N) (be : bool) (b : sbases) (items : list aug_item) (pos : N) (a : augm) : option augm :=
  match items with
  | [] => Some a
  | AL e :: r => if (e <? 256) && valid_spec e then aug_fold asz be b r (pos + 1) (set_lsda a e) else None
  | AP e raw :: r =>
      if (e <? 256) && valid_spec e && negb (e =? 255) && value_fits (fmt_of e) asz raw then
        match ptr_spec e asz (mkpb (sb_section b) (sb_text b) (sb_data b) None) (pos + 1) raw with
        | Some (ind, addr) =>
            aug_fold asz be b r (pos + 1 + nlen (enc_value (fmt_of e) asz be raw)) (set_pers a (e, mkptr ind addr))
        | None => None
        end
      else None
  | AR e :: r => if (e <? 256) && valid_spec e then aug_fold asz be b r (pos + 1) (set_fde_enc a e) else None
  | AS :: r => aug_fold asz be b r pos (set_sig a)
  end.

Definition item_chars (items : list aug_item) : list byte := map (fun i => n2b (item_char i)) items.
Definition items_data (asz : N) (be : bool) (items : list aug_item) : list byte :=
  concat (map (item_data asz be) items).

(* an encoding byte that can carry a pointer: valid and not omit *)
Definition enc_ok (e : N) : bool := (e <? 256) && valid_spec e && negb (e =? 255).

Lemma enc_ok_split : forall e, enc_ok e = true -> e < 256 /\ valid_spec e = true /\ e <> 255.
Proof.
  intros e H. unfold enc_ok in H. repeat rewrite andb_true_iff in H. destruct H as [[H1 H2] H3].
  split; [lia|]. split; [exact H2|]. lia.
Qed.

Lemma aug_loop_items : forall dbg c asz items pos a a' input,
  asz_ok asz -> aug_fold asz (sc_be c) (sc_bases c) items pos a = Some a' ->
  aug_loop dbg c asz (item_chars items) true a (Some (mkrd pos (items_data asz (sc_be c) items))) input
  = Ok (a', input).
Proof.
  intros dbg c asz items. induction items as [|it r IH]; intros pos a a' input Hasz Hf.
  - injection Hf as <-. reflexivity.
  - unfold item_chars, items_data in *. destruct it as [e|e raw|e|]; cbn [map concat item_data item_char aug_fold] in *;
      cbn [aug_loop app]; rewrite b2n_n2b_small by lia; cbn [N.eqb Pos.eqb].
    + destruct ((e <? 256) && valid_spec e) eqn:Hc; [|discriminate].
      apply andb_true_iff in Hc as [He Hv]. apply N.ltb_lt in He.
      rewrite parse_pointer_encoding_enc by assumption. cbn [bind]. apply IH; assumption.
    + destruct ((e <? 256) && valid_spec e && negb (e =? 255) && value_fits (fmt_of e) asz raw) eqn:Hc; [|discriminate].
      apply andb_true_iff in Hc as [Hok Hfit]. apply (enc_ok_split e) in Hok as (He & Hv & H255).
      destruct (ptr_spec e asz _ (pos + 1) raw) as [[ind addr]|] eqn:Hp; [|discriminate].
      rewrite parse_pointer_encoding_enc by assumption. cbn [bind].
      rewrite (pep_enc dbg (sc_be c) e (mkpp (sc_bases c) None asz) (pos + 1) raw _ ind addr);
        try assumption; try (cbn [pp_asz]; assumption).
      cbn [bind pp_asz]. apply IH; assumption.
    + destruct ((e <? 256) && valid_spec e) eqn:Hc; [|discriminate].
      apply andb_true_iff in Hc as [He Hv]. apply N.ltb_lt in He.
      rewrite parse_pointer_encoding_enc by assumption. cbn [bind]. apply IH; assumption.
    + apply IH; assumption.
Qed.

(* without 'z' only 'S' may appear *)
Lemma aug_loop_S_only : forall dbg c asz items first a input,
  Forall (fun i => i = AS) items ->
  aug_loop dbg c asz (item_chars items) first a None input =
  Ok ((match items with [] => a | _ => set_sig a end), input).
Proof.
  intros dbg c asz items. induction items as [|it r IH]; intros first a input H; [reflexivity|].
  inversion H as [|x l Hx Hr]; subst. unfold item_chars in *. cbn [map item_char aug_loop].
  rewrite b2n_n2b_small by lia. cbn [N.eqb Pos.eqb].
  rewrite IH by exact Hr. destruct r; reflexivity.
Qed.

Ltac nlen_norm := change blen with nlen; repeat (rewrite nlen_app || rewrite nlen_cons); change (nlen []) with 0.

Definition aug_string (cr : cie_rec) : list byte :=
  (if c_z cr then [n2b 122] else []) ++ item_chars (c_items cr).

Definition cie_pre (sp : sparams) (cr : cie_rec) : list byte :=
  [n2b (c_ver cr)] ++ (aug_string cr ++ [n2b 0])
  ++ (if negb (s_eh sp) && (c_ver cr =? 4) then [n2b (c_asz cr); n2b 0] else [])
  ++ enc_uleb (c_caf cr) ++ enc_sleb (c_daf cr)
  ++ (if c_ver cr =? 1 then [n2b (c_rar cr)] else enc_uleb (c_rar cr)).

Definition cie_augpart (sp : sparams) (cr : cie_rec) : list byte :=
  let data := items_data (cie_asz sp cr) (s_be sp) (c_items cr) in
  if c_z cr then enc_uleb (blen data) ++ data else [].

Lemma cie_tail_split : forall sp cr, cie_tail sp cr = cie_pre sp cr ++ cie_augpart sp cr ++ c_instr cr.
Proof.
  intros. unfold cie_tail, cie_pre, cie_augpart, aug_string, item_chars, items_data. cbv zeta.
  repeat rewrite <- app_assoc. reflexivity.
Qed.

(* expected augmentation of a CIE whose augmentation data starts at dpos *)
Definition exp_aug (c : scfg) (cr : cie_rec) (dpos : N) : option (option augm) :=
  let asz := cie_asz (sp_of c) cr in
  if c_z cr then
    match aug_fold asz (sc_be c) (sc_bases c) (c_items cr) dpos aug_default with
    | Some a => Some (Some a) | None => None end
  else match c_items cr with
       | [] => Some None
       | _ => if forallb (fun i => match i with AS => true | _ => false end) (c_items cr)
              then Some (Some (set_sig aug_default)) else None
       end.

Record wf_cie (c : scfg) (cr : cie_rec) : Prop := {
  wc_ver : c_ver cr = 1 \/ c_ver cr = 3 \/ c_ver cr = 4;
  wc_asz0 : asz_ok (sc_asz c);
  wc_asz : asz_ok (cie_asz (sp_of c) cr);
  wc_caf : c_caf cr < 2 ^ 64;
  wc_daf : (- 2 ^ 63 <= c_daf cr < 2 ^ 63)%Z;
  wc_rar : c_rar cr < (if c_ver cr =? 1 then 256 else 65536);
  wc_data : blen (items_data (cie_asz (sp_of c) cr) (sc_be c) (c_items cr)) < 2 ^ 64 }.

Lemma item_chars_nonzero : forall items, Forall (fun b => b2n b <> 0) (item_chars items).
Proof.
  induction items as [|it r IH]; [constructor|]. unfold item_chars in *. cbn [map]. constructor; [|exact IH].
  destruct it; cbn [item_char]; rewrite b2n_n2b_small by lia; lia.
Qed.

Lemma aug_string_nonzero : forall cr, Forall (fun b => b2n b <> 0) (aug_string cr).
Proof.
  intros. unfold aug_string. apply Forall_app. split; [|apply item_chars_nonzero].
  destruct (c_z cr); constructor; [|constructor]. rewrite b2n_n2b_small by lia. lia.
Qed.

(* the CIE the reader must produce for `cr` placed at offset o (tail at offset t) *)
Definition exp_cie (c : scfg) (cr : cie_rec) (o len t : N) (aug : option augm) : cie :=
  let sp := sp_of c in
  mkcie o len (c_fmt64 cr) (c_ver cr) aug (cie_asz sp cr) (c_caf cr) (c_daf cr) (c_rar cr)
        (mkrd (t + nlen (cie_pre sp cr) + nlen (cie_augpart sp cr)) (c_instr cr)).

Definition cie_dpos (c : scfg) (cr : cie_rec) (t : N) : N :=
  t + nlen (cie_pre (sp_of c) cr)
  + nlen (enc_uleb (blen (items_data (cie_asz (sp_of c) cr) (sc_be c) (c_items cr)))).

(* the address_size / segment_selector_size bytes of a version-4 .debug_frame CIE, absent otherwise *)
Lemma cie_asz_field_enc : forall c cr o rest, asz_ok (cie_asz (sp_of c) cr) ->
  let own := negb (sc_eh c) && (c_ver cr =? 4) in
  let field := if own then [n2b (c_asz cr); n2b 0] else [] in
  (if own
   then let* (a, q1) := lift read_address_size (mkrd o (field ++ rest)) in
        let* (seg, q2) := rd_u8 q1 in
        if negb (seg =? 0) then Err EUnsupportedSegmentSize else Ok (a, q2)
   else Ok (sc_asz c, mkrd o (field ++ rest)))
  = Ok (cie_asz (sp_of c) cr, mkrd (o + nlen field) rest).
Proof.
  intros c cr o rest Hasz own field. subst own field. unfold cie_asz in *. cbn [s_eh sp_of s_asz] in *.
  destruct (negb (sc_eh c) && (c_ver cr =? 4)).
  - cbn [app].
    assert (Ha256 : c_asz cr < 256) by (destruct Hasz as [H|[H|[H|H]]]; rewrite H; lia).
    change (n2b (c_asz cr) :: n2b 0 :: rest) with ([n2b (c_asz cr)] ++ n2b 0 :: rest).
    rewrite (lift_app _ _ _ _ _ (c_asz cr)).
    + cbn [bind]. rewrite rd_u8_cons. cbn [bind]. rewrite b2n_n2b_small by lia.
      change (negb (0 =? 0)) with false. cbv iota. do 2 f_equal. f_equal. unfold nlen. cbn [length]. lia.
    + cbn [app]. unfold read_address_size. cbn [read_u8 bind]. rewrite b2n_n2b_small by exact Ha256.
      destruct Hasz as [H|[H|[H|H]]]; rewrite H; reflexivity.
  - cbn [app]. do 2 f_equal. f_equal. change (nlen []) with 0. lia.
Qed.

(* the return address register: one byte in version 1, ULEB128 below 2^16 later *)
Lemma cie_rar_field_enc : forall dbg cr o rest, c_rar cr < (if c_ver cr =? 1 then 256 else 65536) ->
  let field := if c_ver cr =? 1 then [n2b (c_rar cr)] else enc_uleb (c_rar cr) in
  (if c_ver cr =? 1 then rd_u8 (mkrd o (field ++ rest))
   else let* (x, q) := lift (read_uleb128 dbg) (mkrd o (field ++ rest)) in
        if x <? two16 then Ok (x, q) else Err EUnsupportedRegister)
  = Ok (c_rar cr, mkrd (o + nlen field) rest).
Proof.
  intros dbg cr o rest Hrar field. subst field. destruct (c_ver cr =? 1).
  - cbn [app]. rewrite rd_u8_cons. rewrite b2n_n2b_small by exact Hrar. reflexivity.
  - rewrite (lift_app _ _ _ _ _ (c_rar cr)) by (apply read_uleb128_enc; change two64 with (2 ^ 64); lia). cbn [bind].
    unfold two16. destruct (c_rar cr <? 65536) eqn:E; [reflexivity|lia].
Qed.

Lemma cie_from_prefix_enc : forall dbg c cr o len base id t aug,
  wf_cie c cr -> exp_aug c cr (cie_dpos c cr t) = Some aug ->
  cie_from_prefix dbg c (mkprefix o len (c_fmt64 cr) base id (mkrd t (cie_tail (sp_of c) cr)))
  = Ok (exp_cie c cr o len t aug).
Proof.
  intros dbg c cr o len base id t aug Hwf Haug. destruct Hwf as [Hver _ Hasz Hcaf Hdaf Hrar Hdata].
  unfold cie_from_prefix. cbn [px_rest px_off px_len px_fmt64].
  rewrite cie_tail_split. unfold exp_cie, cie_dpos in *. unfold cie_pre in *. cbn [s_eh s_be sp_of] in *.
  set (sp := sp_of c) in *.
  set (as0 := aug_string cr ++ [n2b 0]) in *.
  (* version *)
  cbn [app]. rewrite rd_u8_cons. cbn [bind].
  assert (Hv256 : c_ver cr < 256) by lia.
  rewrite b2n_n2b_small by exact Hv256.
  assert (Hvb : negb ((c_ver cr =? 1) || (c_ver cr =? 3) || (c_ver cr =? 4)) = false) by lia.
  rewrite Hvb.
  (* augmentation string *)
  rewrite <- !app_assoc. cbn [app].
  rewrite (lift_app _ _ _ as0 _ (aug_string cr)).
  2:{ unfold as0. rewrite <- app_assoc. cbn [app]. apply (read_cstr_app (aug_string cr)), aug_string_nonzero. }
  cbn [bind].
  (* address / segment size *)
  unfold has_addr_seg_sizes.
  set (r2off := t + 1 + nlen as0).
  pose proof (cie_asz_field_enc c cr r2off) as Hsz. cbv zeta in Hsz. rewrite Hsz by exact Hasz. cbn [bind]. clear Hsz.
  (* factors and return address register *)
  rewrite (lift_app _ _ _ _ _ (c_caf cr)) by (apply read_uleb128_enc; exact Hcaf). cbn [bind].
  rewrite (lift_app _ _ _ _ _ (c_daf cr)) by (apply read_sleb_enc; exact Hdaf). cbn [bind].
  set (r5off := r2off + _ + nlen (enc_uleb (c_caf cr)) + nlen (enc_sleb (c_daf cr))).
  pose proof (cie_rar_field_enc dbg cr r5off) as Hr. cbv zeta in Hr. rewrite Hr by exact Hrar. cbn [bind]. clear Hr.
  (* augmentation *)
  unfold exp_aug in Haug. unfold cie_augpart. cbv zeta. fold sp in Haug.
  assert (Hbe : s_be sp = sc_be c) by reflexivity. rewrite Hbe.
  unfold aug_string in *.
  destruct (c_z cr) eqn:Ez.
  - (* 'z' first *)
    cbn [app]. cbn [aug_loop]. rewrite b2n_n2b_small by lia.
    change (122 =? 122) with true. cbv iota.
    destruct (aug_fold (cie_asz sp cr) (sc_be c) (sc_bases c) (c_items cr) _ aug_default) as [a'|] eqn:Hfold; [|discriminate].
    injection Haug as <-.
    rewrite <- app_assoc.
    rewrite (lift_app _ _ _ _ _ (blen (items_data (cie_asz sp cr) (sc_be c) (c_items cr)))) by (apply read_uleb128_enc; exact Hdata).
    cbn [bind]. change (blen (items_data (cie_asz sp cr) (sc_be c) (c_items cr))) with (nlen (items_data (cie_asz sp cr) (sc_be c) (c_items cr))).
    rewrite rd_split_app. cbn [bind].
    erewrite aug_loop_items; [|exact Hasz|].
    + cbn [bind]. unfold r5off, r2off. f_equal. f_equal. f_equal.
      nlen_norm. lia.
    + rewrite <- Hfold. f_equal. unfold r5off, r2off.
      nlen_norm. lia.
  - cbn [app]. destruct (c_items cr) as [|i0 items] eqn:Eitems.
    + injection Haug as <-. cbn [item_chars map bind]. unfold r5off, r2off. f_equal. f_equal. f_equal.
      nlen_norm. lia.
    + destruct (forallb _ (i0 :: items)) eqn:Efa; [|discriminate]. injection Haug as <-.
      assert (HS : Forall (fun i => i = AS) (i0 :: items)).
      { rewrite forallb_forall in Efa. apply Forall_forall. intros x Hx. specialize (Efa x Hx). destruct x; try discriminate. reflexivity. }
      pose proof (aug_loop_S_only dbg c (cie_asz sp cr) (i0 :: items) false aug_default) as Hl.
      cbn [item_chars map] in Hl |- *.
      rewrite Hl by exact HS. cbn [bind]. unfold r5off, r2off. f_equal. f_equal. f_equal.
      nlen_norm. lia.
Qed.

Definition cie_idv (c : scfg) (fmt64 : bool) : N :=
  if sc_eh c then 0 else if fmt64 then 18446744073709551615 else 4294967295.

Lemma cie_id_bytes : forall c fmt64, cie_id (sp_of c) fmt64 = un_bytes (idsz_of c fmt64) (sc_be c) (cie_idv c fmt64).
Proof.
  intros. unfold cie_id, idsz_of, cie_idv, cie_id_is_u64. cbn [sp_of s_eh s_be].
  destruct (sc_eh c), fmt64; reflexivity.
Qed.

Lemma is_cie_idv : forall c fmt64, is_cie (sc_eh c) fmt64 (cie_idv c fmt64) = true.
Proof. intros. unfold is_cie, cie_idv. destruct (sc_eh c), fmt64; reflexivity. Qed.

Lemma cie_idv_lt : forall c fmt64, cie_idv c fmt64 < 256 ^ N.of_nat (idsz_of c fmt64).
Proof.
  intros. unfold cie_idv, idsz_of, cie_id_is_u64. destruct (sc_eh c), fmt64; cbn [negb andb]; vm_compute; reflexivity.
Qed.

Definition cie_body (c : scfg) (cr : cie_rec) : list byte := cie_id (sp_of c) (c_fmt64 cr) ++ cie_tail (sp_of c) cr.
Definition body_fits (fmt64 : bool) (body : list byte) : Prop := blen body < (if fmt64 then 2 ^ 64 else 4294967280).

(* offset of the tail (after length and id) of an entry placed at o *)
Definition tail_off (c : scfg) (fmt64 : bool) (o : N) : N := o + len_field_size fmt64 + N.of_nat (idsz_of c fmt64).

(* the prefix of an encoded CIE placed at o *)
Lemma parse_prefix_cie : forall c cr o rest, body_fits (c_fmt64 cr) (cie_body c cr) ->
  parse_prefix c (mkrd o (enc_cie (sp_of c) cr ++ rest)) =
  Ok (Some (mkprefix o (blen (cie_body c cr)) (c_fmt64 cr) (o + len_field_size (c_fmt64 cr))
              (cie_idv c (c_fmt64 cr)) (mkrd (tail_off c (c_fmt64 cr) o) (cie_tail (sp_of c) cr))),
      mkrd (o + blen (enc_cie (sp_of c) cr)) rest).
Proof.
  intros c cr o rest Hfit. unfold enc_cie. cbv zeta. fold (cie_body c cr). cbn [s_be sp_of].
  unfold cie_body in *. rewrite cie_id_bytes in *. rewrite <- app_assoc.
  pose proof (parse_prefix_enc c (c_fmt64 cr) (cie_idv c (c_fmt64 cr)) (cie_tail (sp_of c) cr) rest o) as Hp.
  cbv zeta in Hp. rewrite Hp; [|apply cie_idv_lt|exact Hfit].
  do 3 f_equal. nlen_norm. rewrite nlen_initial_length. lia.
Qed.

Lemma parse_cfi_entry_cie : forall dbg c cr o rest aug,
  wf_cie c cr -> body_fits (c_fmt64 cr) (cie_body c cr) ->
  exp_aug c cr (cie_dpos c cr (tail_off c (c_fmt64 cr) o)) = Some aug ->
  parse_cfi_entry dbg c (mkrd o (enc_cie (sp_of c) cr ++ rest)) =
  Ok (Some (ICie (exp_cie c cr o (blen (cie_body c cr)) (tail_off c (c_fmt64 cr) o) aug)),
      mkrd (o + blen (enc_cie (sp_of c) cr)) rest).
Proof.
  intros dbg c cr o rest aug Hwf Hfit Haug. unfold parse_cfi_entry. rewrite parse_prefix_cie by exact Hfit.
  cbn [bind px_fmt64 px_id]. rewrite is_cie_idv.
  rewrite (cie_from_prefix_enc dbg c cr _ _ _ _ _ aug Hwf Haug). reflexivity.
Qed.

Lemma cie_from_offset_enc : forall dbg c cr pre post aug,
  wf_cie c cr -> body_fits (c_fmt64 cr) (cie_body c cr) ->
  exp_aug c cr (cie_dpos c cr (tail_off c (c_fmt64 cr) (nlen pre))) = Some aug ->
  cie_from_offset dbg c (pre ++ enc_cie (sp_of c) cr ++ post) (nlen pre) =
  Ok (exp_cie c cr (nlen pre) (blen (cie_body c cr)) (tail_off c (c_fmt64 cr) (nlen pre)) aug).
Proof.
  intros dbg c cr pre post aug Hwf Hfit Haug. unfold cie_from_offset.
  rewrite rd_skip_app. cbn [bind]. rewrite N.add_0_l, parse_prefix_cie by exact Hfit.
  cbn [bind px_fmt64 px_id]. rewrite is_cie_idv. cbn [negb].
  apply (cie_from_prefix_enc dbg c cr _ _ _ _ _ aug Hwf Haug).
Qed.

Definition sb_pb (b : sbases) (func : option N) : pbases := mkpb (sb_section b) (sb_text b) (sb_data b) func.


(* the FDE the reader must produce (None: the record is not well formed for its CIE).
   ci = its parsed CIE, cr = the CIE record, tf = offset of the FDE's tail in the section *)
Definition exp_fde (c : scfg) (cr : cie_rec) (ci : cie) (f : fde_rec) (o len tf : N) : option fde :=
  let asz := cie_asz (sp_of c) cr in
  let be := sc_be c in
  let b := sc_bases c in
  let afmt := match find_R (c_items cr) with Some e => fmt_of e | None => 0 end in
  let e_init := enc_value afmt asz be (f_init f) in
  let e_range := enc_value afmt asz be (f_range f) in
  let ad := (match find_L (c_items cr) with Some e => enc_value (fmt_of e) asz be (f_lsda f) | None => [] end) ++ f_pad f in
  let pos2 := tf + nlen e_init + nlen e_range in
  let addr : option N :=
    match find_R (c_items cr) with
    | Some e =>
        if enc_ok e && value_fits (fmt_of e) asz (f_init f) && value_fits (fmt_of e) asz (f_range f) then
          match ptr_spec e asz (sb_pb b None) tf (f_init f) with Some (_, a) => Some a | None => None end
        else None
    | None => if (f_init f <? 2 ^ (8 * asz)) && (f_range f <? 2 ^ (8 * asz)) then Some (f_init f) else None
    end in
  match addr with
  | None => None
  | Some ia =>
      if has_aug cr then
        if blen ad <? 2 ^ 64 then
          let pos3 := pos2 + nlen (enc_uleb (blen ad)) in
          match find_L (c_items cr) with
          | Some le =>
              if enc_ok le && value_fits (fmt_of le) asz (f_lsda f) then
                match ptr_spec le asz (sb_pb b (Some ia)) pos3 (f_lsda f) with
                | Some (ind, la) =>
                    Some (mkfde o len (f_fmt64 f) ci ia (f_range f) (Some (Some (mkptr ind la)))
                                (mkrd (pos3 + blen ad) (f_instr f)))
                | None => None
                end
              else None
          | None => Some (mkfde o len (f_fmt64 f) ci ia (f_range f) (Some None) (mkrd (pos3 + blen ad) (f_instr f)))
          end
        else None
      else Some (mkfde o len (f_fmt64 f) ci ia (f_range f) None (mkrd pos2 (f_instr f)))
  end.

(* the parsed CIE agrees with the record about what FDEs need from it *)
Definition cie_links (c : scfg) (cr : cie_rec) (ci : cie) : Prop :=
  ci_asz ci = cie_asz (sp_of c) cr /\
  (match ci_aug ci with Some a => a_fde_enc a | None => None end) = find_R (c_items cr) /\
  (match ci_aug ci with Some a => a_lsda a | None => None end) = find_L (c_items cr) /\
  (match ci_aug ci with Some _ => true | None => false end) = has_aug cr.


Lemma fde_body_enc : forall dbg c sec cr ci f o len co tf fd,
  asz_ok (cie_asz (sp_of c) cr) ->
  cie_from_offset dbg c sec co = Ok ci -> cie_links c cr ci ->
  exp_fde c cr ci f o len tf = Some fd ->
  fde_parse dbg c sec (mkpfde o len (f_fmt64 f) co (mkrd tf (fde_tail (sp_of c) cr f))) = Ok fd.
Proof.
  intros dbg c sec cr ci f o len co tf fd Hasz Hci (Hl1 & Hl2 & Hl3 & Hl4) Hexp.
  unfold fde_parse. cbn [pf_cie_off pf_rest pf_off pf_len pf_fmt64]. rewrite Hci. cbn [bind].
  unfold exp_fde in Hexp. cbv zeta in Hexp.
  unfold fde_tail. cbv zeta. cbn [sp_of s_be] in *.
  set (asz := cie_asz (sp_of c) cr) in *.
  match type of Hexp with match ?A with Some _ => _ | None => _ end = _ => destruct A as [ia|] eqn:Ha; [|discriminate] end.
  (* the two addresses *)
  match goal with |- context [mkrd tf (?ei ++ ?er ++ ?t)] =>
    assert (Hfa : fde_addresses dbg c ci (mkpp (sc_bases c) None (ci_asz ci)) (mkrd tf (ei ++ er ++ t))
                  = Ok ((ia, f_range f), mkrd (tf + nlen ei + nlen er) t)) end.
  { unfold fde_addresses. rewrite Hl2, Hl1. fold asz. destruct (find_R (c_items cr)) as [e|].
    - destruct (enc_ok e && value_fits (fmt_of e) asz (f_init f) && value_fits (fmt_of e) asz (f_range f)) eqn:Hok; [|discriminate].
      repeat rewrite andb_true_iff in Hok. destruct Hok as [[Heok Hfi] Hfr].
      apply enc_ok_split in Heok as (He & Hv & H255).
      destruct (ptr_spec e asz (sb_pb (sc_bases c) None) tf (f_init f)) as [[ind ia']|] eqn:Hps; [|discriminate].
      injection Ha as ->.
      rewrite (pep_enc dbg (sc_be c) e (mkpp (sc_bases c) None asz) tf (f_init f) _ ind ia); try assumption.
      cbn [bind pp_asz].
      rewrite (pev_enc_valid dbg (sc_be c) e (mkpp (sc_bases c) None asz)); try assumption.
      cbn [bind pp_asz]. destruct ind; reflexivity.
    - destruct ((f_init f <? 2 ^ (8 * asz)) && (f_range f <? 2 ^ (8 * asz))) eqn:Hok; [|discriminate].
      apply andb_true_iff in Hok as [Hi Hr]. injection Ha as <-.
      unfold enc_value. cbn [N.eqb]. rewrite !read_address_ok_fun by exact Hasz.
      rewrite (lift_app _ _ _ _ _ (f_init f)) by (apply read_un_small; rewrite N2Nat.id, pow256; lia). cbn [bind].
      rewrite (lift_app _ _ _ _ _ (f_range f)) by (apply read_un_small; rewrite N2Nat.id, pow256; lia). reflexivity. }
  rewrite Hfa. cbn [bind]. rewrite Hl1. fold asz.
  (* augmentation data *)
  destruct (has_aug cr) eqn:Haug.
  - destruct (ci_aug ci) as [a|]; [|discriminate].
    destruct (blen (_ ++ f_pad f) <? 2 ^ 64) eqn:Hlen; [|discriminate].
    unfold fde_aug_data. rewrite <- (app_assoc (enc_uleb _)).
    rewrite (lift_app _ _ _ _ _ (blen ((match find_L (c_items cr) with Some e0 => enc_value (fmt_of e0) asz (sc_be c) (f_lsda f) | None => [] end) ++ f_pad f))) by (apply read_uleb128_enc; change two64 with (2 ^ 64); lia).
    cbn [bind]. change blen with nlen. rewrite rd_split_app. cbn [bind].
    rewrite Hl3.
    destruct (find_L (c_items cr)) as [le|] eqn:EL.
    + destruct (enc_ok le && value_fits (fmt_of le) asz (f_lsda f)) eqn:Hlok; [|discriminate].
      apply andb_true_iff in Hlok as [Hleok Hlfit]. apply enc_ok_split in Hleok as (Hle & Hlv & Hl255).
      match type of Hexp with match ?P with Some _ => _ | None => _ end = _ => destruct P as [[lind la]|] eqn:Hlps; [|discriminate] end.
      rewrite (pep_enc dbg (sc_be c) le (mkpp (sc_bases c) (Some ia) asz) _ (f_lsda f) _ lind la); try assumption.
      cbn [bind]. injection Hexp as <-. reflexivity.
    + cbn [bind]. injection Hexp as <-. reflexivity.
  - destruct (ci_aug ci) as [a|]; [discriminate|]. cbn [bind]. injection Hexp as <-. reflexivity.
Qed.

Definition fde_idv (c : scfg) (pos co : N) : N := if sc_eh c then pos - co else co.

Lemma cie_pointer_bytes : forall c fmt64 pos co,
  cie_pointer (sp_of c) fmt64 pos co = un_bytes (idsz_of c fmt64) (sc_be c) (fde_idv c pos co).
Proof.
  intros. unfold cie_pointer, idsz_of, fde_idv, cie_id_is_u64. cbn [sp_of s_eh s_be].
  destruct (sc_eh c), fmt64; reflexivity.
Qed.

Definition fde_body (c : scfg) (cr : cie_rec) (co o : N) (f : fde_rec) : list byte :=
  cie_pointer (sp_of c) (f_fmt64 f) (o + len_field_size (f_fmt64 f)) co ++ fde_tail (sp_of c) cr f.

(* where the CIE may sit relative to the FDE so that the pointer designates it *)
Definition cie_ref_ok (c : scfg) (fmt64 : bool) (o co : N) : Prop :=
  if sc_eh c then co < o + len_field_size fmt64 /\ o + len_field_size fmt64 - co < 2 ^ 32
  else co < (if fmt64 then 2 ^ 64 - 1 else 2 ^ 32 - 1).

Lemma parse_cfi_entry_fde : forall dbg c cr co o f rest,
  body_fits (f_fmt64 f) (fde_body c cr co o f) -> cie_ref_ok c (f_fmt64 f) o co ->
  parse_cfi_entry dbg c (mkrd o (enc_fde (sp_of c) cr co o f ++ rest)) =
  Ok (Some (IFde (mkpfde o (blen (fde_body c cr co o f)) (f_fmt64 f) co
                         (mkrd (tail_off c (f_fmt64 f) o) (fde_tail (sp_of c) cr f)))),
      mkrd (o + blen (enc_fde (sp_of c) cr co o f)) rest).
Proof.
  intros dbg c cr co o f rest Hfit Href. unfold parse_cfi_entry, enc_fde. cbv zeta.
  fold (fde_body c cr co o f). cbn [s_be sp_of]. unfold fde_body in *. rewrite cie_pointer_bytes in *.
  rewrite <- app_assoc.
  set (pos := o + len_field_size (f_fmt64 f)) in *.
  assert (Hidv : fde_idv c pos co < 256 ^ N.of_nat (idsz_of c (f_fmt64 f))).
  { unfold fde_idv, idsz_of, cie_id_is_u64, cie_ref_ok in *. fold pos in Href.
    destruct (sc_eh c); cbn [negb andb].
    - change (256 ^ N.of_nat 4) with (2 ^ 32). lia.
    - destruct (f_fmt64 f); [change (256 ^ N.of_nat 8) with (2 ^ 64)|change (256 ^ N.of_nat 4) with (2 ^ 32)]; lia. }
  pose proof (parse_prefix_enc c (f_fmt64 f) (fde_idv c pos co) (fde_tail (sp_of c) cr f) rest o) as Hp.
  cbv zeta in Hp. rewrite Hp; [|exact Hidv|exact Hfit]. clear Hp.
  cbn [bind px_fmt64 px_id].
  assert (Hnot : is_cie (sc_eh c) (f_fmt64 f) (fde_idv c pos co) = false).
  { unfold is_cie, fde_idv, cie_ref_ok in *. fold pos in Href. destruct (sc_eh c); [lia|].
    destruct (f_fmt64 f); [change (2 ^ 64 - 1) with 18446744073709551615 in Href|change (2 ^ 32 - 1) with 4294967295 in Href]; lia. }
  rewrite Hnot. unfold pfde_from_prefix. cbn [px_base px_id px_off px_len px_fmt64 px_rest].
  assert (Hres : resolve_cie_offset (sc_eh c) pos (fde_idv c pos co) = Some co).
  { unfold resolve_cie_offset, fde_idv, cie_ref_ok in *. fold pos in Href. destruct (sc_eh c); [|reflexivity].
    destruct (pos - co <=? pos) eqn:E; [|lia]. f_equal. lia. }
  fold pos. rewrite Hres. cbn [bind]. unfold tail_off, idsz_of. fold pos.
  do 3 f_equal. nlen_norm. rewrite nlen_initial_length. lia.
Qed.

(* the size of an encoded FDE does not depend on where it or its CIE is placed *)
Lemma enc_fde_len : forall sp cr co o f, blen (enc_fde sp cr co o f) = blen (enc_fde sp cr 0 0 f).
Proof.
  intros. unfold enc_fde. cbv zeta. change blen with nlen. nlen_norm. rewrite !nlen_initial_length.
  assert (H : forall pos co', nlen (cie_pointer sp (f_fmt64 f) pos co') = N.of_nat (if s_eh sp then 4 else if f_fmt64 f then 8 else 4)%nat).
  { intros. unfold cie_pointer. destruct (s_eh sp); [|destruct (f_fmt64 f)]; apply nlen_un_bytes. }
  rewrite !H. reflexivity.
Qed.

Lemma iter_next_fuel_indep : forall f1 f2 dbg c input,
  (length (win input) < f1)%nat -> (length (win input) < f2)%nat ->
  iter_next f1 dbg c input = iter_next f2 dbg c input.
Proof.
  induction f1 as [|f1 IH]; intros f2 dbg c input H1 H2; [lia|].
  destruct f2 as [|f2]; [lia|]. cbn [iter_next].
  destruct (rd_is_empty input); [reflexivity|].
  destruct (parse_cfi_entry dbg c input) as [[o in1]|e| |] eqn:E; try reflexivity.
  destruct o as [it|]; [reflexivity|]. destruct (sc_eh c); [reflexivity|].
  apply parse_cfi_entry_advanced, advanced_length in E.
  apply IH; lia.
Qed.

Lemma rd_is_empty_app : forall o (l r : list byte), (0 < length l)%nat -> rd_is_empty (mkrd o (l ++ r)) = false.
Proof. intros o [|b l] r H; [cbn [length] in H; lia|reflexivity]. Qed.

(* one reported entry of the traversal *)
Lemma entries_loop_item : forall f dbg c o (l r : list byte) it in1, (0 < length l)%nat ->
  parse_cfi_entry dbg c (mkrd o (l ++ r)) = Ok (Some it, in1) ->
  entries_loop (S f) dbg c (mkrd o (l ++ r)) =
  let* (items, e) := entries_loop f dbg c in1 in Ok (it :: items, e).
Proof.
  intros f dbg c o l r it in1 Hl Hp. rewrite entries_loop_S. unfold iter_fuel. cbn [win].
  rewrite iter_next_S, rd_is_empty_app, Hp by exact Hl. reflexivity.
Qed.

Lemma initial_length_len : forall be fmt64 len, (0 < length (initial_length be fmt64 len))%nat.
Proof.
  intros. pose proof (nlen_initial_length be fmt64 len) as H. unfold nlen, len_field_size in H.
  destruct fmt64; lia.
Qed.

Lemma enc_cie_len : forall sp cr, (0 < length (enc_cie sp cr))%nat.
Proof. intros. unfold enc_cie. cbv zeta. rewrite app_length. pose proof (initial_length_len (s_be sp) (c_fmt64 cr) (blen (cie_id sp (c_fmt64 cr) ++ cie_tail sp cr))). lia. Qed.

Lemma enc_fde_len_pos : forall sp cr co o f, (0 < length (enc_fde sp cr co o f))%nat.
Proof.
  intros. unfold enc_fde. cbv zeta. rewrite app_length.
  match goal with |- (0 < length (initial_length ?a ?b ?l) + _)%nat => pose proof (initial_length_len a b l) end. lia.
Qed.

Section Sections.
  Variables (dbg : bool) (c : scfg) (es : list entry).
  Let sp := sp_of c.
  Let offs := offsets sp es.

  Definition cr_of (f : fde_rec) : cie_rec :=
    match cie_at es (f_cie f) with Some cr => cr | None => dummy_cie end.
  Definition co_of (f : fde_rec) : N := nth (f_cie f) offs 0.

  Definition exp_pfde (o : N) (f : fde_rec) : pfde :=
    mkpfde o (blen (fde_body c (cr_of f) (co_of f) o f)) (f_fmt64 f) (co_of f)
           (mkrd (tail_off c (f_fmt64 f) o) (fde_tail sp (cr_of f) f)).

  (* the items the iterator must report for the entry list l placed at offset o *)
  Fixpoint exp_items (o : N) (l : list entry) : option (list item) :=
    match l with
    | [] => Some []
    | ECie cr :: r =>
        match exp_aug c cr (cie_dpos c cr (tail_off c (c_fmt64 cr) o)),
              exp_items (o + entry_size sp es (ECie cr)) r with
        | Some aug, Some items =>
            Some (ICie (exp_cie c cr o (blen (cie_body c cr)) (tail_off c (c_fmt64 cr) o) aug) :: items)
        | _, _ => None
        end
    | EFde f :: r =>
        match exp_items (o + entry_size sp es (EFde f)) r with
        | Some items => Some (IFde (exp_pfde o f) :: items)
        | None => None
        end
    | EZero :: r => if sc_eh c then Some [] else exp_items (o + 4) r
    end.

  Fixpoint wf_entries (o : N) (l : list entry) : Prop :=
    match l with
    | [] => True
    | ECie cr :: r =>
        wf_cie c cr /\ body_fits (c_fmt64 cr) (cie_body c cr) /\ wf_entries (o + entry_size sp es (ECie cr)) r
    | EFde f :: r =>
        body_fits (f_fmt64 f) (fde_body c (cr_of f) (co_of f) o f) /\ cie_ref_ok c (f_fmt64 f) o (co_of f) /\
        wf_entries (o + entry_size sp es (EFde f)) r
    | EZero :: r => wf_entries (o + 4) r
    end.

  Lemma enc_entries_cons : forall o e r,
    enc_entries sp es offs o (e :: r) = enc_entry sp es offs o e ++ enc_entries sp es offs (o + entry_size sp es e) r.
  Proof. reflexivity. Qed.

  Lemma entries_loop_enc : forall l o fuel items,
    (length l < fuel)%nat -> wf_entries o l -> exp_items o l = Some items ->
    entries_loop fuel dbg c (mkrd o (enc_entries sp es offs o l)) = Ok (items, None).
  Proof.
    induction l as [|e r IH]; intros o fuel items Hf Hwf Hexp.
    - destruct fuel as [|f]; [cbn [length] in Hf; lia|]. injection Hexp as <-. reflexivity.
    - destruct fuel as [|f]; [lia|]. cbn [length] in Hf.
      rewrite enc_entries_cons.
      destruct e as [cr|fr|].
      + (* CIE *)
        cbn [wf_entries exp_items] in Hwf, Hexp. destruct Hwf as (Hwc & Hfit & Hwr).
        destruct (exp_aug c cr _) as [aug|] eqn:Haug; [|discriminate].
        destruct (exp_items _ r) as [items'|] eqn:Hitems; [|discriminate]. injection Hexp as <-.
        cbn [enc_entry]. unfold sp.
        rewrite (entries_loop_item _ _ _ _ _ _ _ _ (enc_cie_len _ _) (parse_cfi_entry_cie dbg c cr o _ aug Hwc Hfit Haug)).
        fold sp. cbn [entry_size] in *. rewrite (IH _ f items'); [reflexivity|lia|exact Hwr|exact Hitems].
      + (* FDE *)
        cbn [wf_entries exp_items] in Hwf, Hexp. destruct Hwf as (Hfit & Href & Hwr).
        destruct (exp_items _ r) as [items'|] eqn:Hitems; [|discriminate]. injection Hexp as <-.
        cbn [enc_entry]. fold (cr_of fr). fold (co_of fr). unfold sp.
        rewrite (entries_loop_item _ _ _ _ _ _ _ _ (enc_fde_len_pos _ _ _ _ _)
                   (parse_cfi_entry_fde dbg c (cr_of fr) (co_of fr) o fr _ Hfit Href)).
        fold sp.
        assert (Hsz : blen (enc_fde sp (cr_of fr) (co_of fr) o fr) = entry_size sp es (EFde fr)).
        { cbn [entry_size]. fold (cr_of fr). apply enc_fde_len. }
        rewrite Hsz. unfold exp_pfde. fold sp.
        rewrite (IH _ f items'); [reflexivity|lia|exact Hwr|exact Hitems].
      + (* zero length *)
        cbn [wf_entries exp_items] in Hwf, Hexp.
        rewrite entries_loop_S. unfold iter_fuel. cbn [win]. rewrite iter_next_S.
        cbn [enc_entry entry_size].
        rewrite rd_is_empty_app by (rewrite un_bytes_length; lia).
        assert (Hp : parse_cfi_entry dbg c (mkrd o (un_bytes 4 (s_be sp) 0 ++ enc_entries sp es offs (o + 4) r))
                     = Ok (None, mkrd (o + 4) (enc_entries sp es offs (o + 4) r))).
        { unfold parse_cfi_entry, parse_prefix.
          erewrite lift_app.
          2:{ pose proof (read_initial_length_enc (sc_be c) false 0 (enc_entries sp es offs (o + 4) r)) as H0.
              unfold initial_length in H0. apply H0. lia. }
          cbn [bind]. change (0 =? 0) with true. cbv iota. cbn [bind].
          rewrite nlen_un_bytes. reflexivity. }
        rewrite Hp.
        destruct (sc_eh c) eqn:Eeh.
        * injection Hexp as <-. reflexivity.
        * (* .debug_frame: the zero length is skipped *)
          pose proof (entries_loop_S f dbg c (mkrd (o + 4) (enc_entries sp es offs (o + 4) r))) as HS.
          unfold iter_fuel in HS. cbn [win] in HS.
          rewrite (iter_next_fuel_indep _ (S (length (enc_entries sp es offs (o + 4) r)))).
          -- rewrite <- HS. apply IH; [lia|exact Hwf|exact Hexp].
          -- cbn [win]. rewrite app_length, un_bytes_length. lia.
          -- cbn [win]. lia.
  Qed.
End Sections.

Lemma aug_fold_links : forall asz be b items pos a a',
  aug_fold asz be b items pos a = Some a' ->
  a_fde_enc a' = (match find_R items with Some e => Some e | None => a_fde_enc a end) /\
  a_lsda a' = (match find_L items with Some e => Some e | None => a_lsda a end).
Proof.
  induction items as [|it r IH]; intros pos a a' H.
  - injection H as <-. auto.
  - destruct it as [e|e raw|e|]; cbn [aug_fold find_R find_L] in *.
    + destruct (_ && _); [|discriminate]. apply IH in H as [H1 H2]. cbn [set_lsda a_fde_enc a_lsda] in *.
      rewrite H1, H2. destruct (find_R r), (find_L r); auto.
    + destruct (_ && _ && _ && _); [|discriminate]. destruct (ptr_spec _ _ _ _ _) as [[ind addr]|]; [|discriminate].
      apply IH in H as [H1 H2]. cbn [set_pers a_fde_enc a_lsda] in *.
      rewrite H1, H2. destruct (find_R r), (find_L r); auto.
    + destruct (_ && _); [|discriminate]. apply IH in H as [H1 H2]. cbn [set_fde_enc a_fde_enc a_lsda] in *.
      rewrite H1, H2. destruct (find_R r), (find_L r); auto.
    + apply IH in H as [H1 H2]. cbn [set_sig a_fde_enc a_lsda] in *.
      rewrite H1, H2. destruct (find_R r), (find_L r); auto.
Qed.

Lemma all_S_find : forall items,
  forallb (fun i => match i with AS => true | _ => false end) items = true ->
  find_R items = None /\ find_L items = None.
Proof.
  induction items as [|it r IH]; intros H; [auto|]. cbn [forallb] in H. apply andb_true_iff in H as [H1 H2].
  destruct it; try discriminate. cbn [find_R find_L]. destruct (IH H2) as [-> ->]. auto.
Qed.

Lemma exp_cie_links : forall c cr o len t dpos aug,
  exp_aug c cr dpos = Some aug -> cie_links c cr (exp_cie c cr o len t aug).
Proof.
  intros c cr o len t dpos aug H. unfold cie_links, exp_cie. cbn [ci_asz ci_aug].
  split; [reflexivity|]. unfold exp_aug in H. unfold has_aug. cbv zeta in H.
  destruct (c_z cr) eqn:Ez.
  - destruct (aug_fold _ _ _ _ _ _) as [a|] eqn:Hf; [|discriminate]. injection H as <-.
    apply aug_fold_links in Hf as [H1 H2]. cbn [aug_default a_fde_enc a_lsda] in *.
    rewrite H1, H2. cbn [orb]. destruct (find_R (c_items cr)), (find_L (c_items cr)); auto.
  - destruct (c_items cr) as [|i0 items] eqn:Ei.
    + injection H as <-. cbn [find_R find_L orb negb]. auto.
    + destruct (forallb _ (i0 :: items)) eqn:Efa; [|discriminate]. injection H as <-.
      apply all_S_find in Efa as [-> ->]. cbn [set_sig aug_default a_fde_enc a_lsda orb negb]. auto.
Qed.

Section Locate.
  Variables (c : scfg) (es : list entry).
  Let sp := sp_of c.
  Let offs := offsets sp es.

  Lemma enc_entry_size : forall o e, blen (enc_entry sp es offs o e) = entry_size sp es e.
  Proof.
    intros o [cr|f|]; cbn [enc_entry entry_size].
    - reflexivity.
    - apply enc_fde_len.
    - change blen with nlen. apply nlen_un_bytes.
  Qed.

  Lemma enc_entries_split : forall l o i e,
    nth_error l i = Some e ->
    exists pre post,
      enc_entries sp es offs o l = pre ++ enc_entry sp es offs (nth i (offsets_from sp es o l) 0) e ++ post /\
      o + nlen pre = nth i (offsets_from sp es o l) 0.
  Proof.
    induction l as [|x r IH]; intros o i e H; [destruct i; discriminate|].
    destruct i as [|i].
    - injection H as <-. exists [], (enc_entries sp es offs (o + entry_size sp es x) r).
      cbn [offsets_from nth app]. split; [reflexivity|]. change (nlen []) with 0. lia.
    - cbn [nth_error] in H. destruct (IH (o + entry_size sp es x) i e H) as (pre & post & H1 & H2).
      exists (enc_entry sp es offs o x ++ pre), post. cbn [offsets_from nth]. split.
      + cbn [enc_entries]. rewrite H1, <- app_assoc. reflexivity.
      + rewrite nlen_app, <- H2. change (nlen (enc_entry sp es offs o x)) with (blen (enc_entry sp es offs o x)).
        rewrite enc_entry_size. lia.
  Qed.

  Lemma enc_entries_length : forall l o, (length l <= length (enc_entries sp es offs o l))%nat.
  Proof.
    induction l as [|x r IH]; intros o; [cbn; lia|].
    cbn [enc_entries]. rewrite app_length. cbn [length]. specialize (IH (o + entry_size sp es x)).
    assert ((0 < length (enc_entry sp es offs o x))%nat).
    { destruct x as [cr|f|]; cbn [enc_entry]; [apply enc_cie_len|apply enc_fde_len_pos|rewrite un_bytes_length; lia]. }
    lia.
  Qed.
End Locate.
