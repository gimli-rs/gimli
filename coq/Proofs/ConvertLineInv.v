(* Proofs/ConvertLineInv.v — property C12: invariants of the converter's private row threaded through read_row:
   the line register stays below 2^64 and, for maximum_operations_per_instruction = 1, op_index stays 0; hence every
   Row event has line < 2^64 and (max_ops = 1) op_index = 0 — two of the conjuncts of C13's script_ok. *)
From Coq Require Import List NArith ZArith Bool Lia.
From Coq.Strings Require Import Byte.
Require Import GV.Base.Res GV.Base.Byt GV.Base.Ints GV.Spec.LineSpec GV.Model.LineRd GV.Model.LineWr
               GV.Model.ConvertLine GV.Proofs.ConvertLineProofs.
Import ListNotations.
Local Open Scope N_scope.

Section Inv.
Variables (dbg : bool) (h : header).

Definition RP (r : row) : Prop := r_line r < two64 /\ (h_max_ops h = 1 -> r_opi r = 0).

Lemma RP_new : RP (row_new h).
Proof. split; [reflexivity|intros _; reflexivity]. Qed.

Lemma RP_reset r : RP r -> RP (row_reset h r).
Proof. intros [A B]. unfold row_reset. destruct (r_end r); [exact RP_new|split; [exact A|exact B]]. Qed.

Lemma RP_line_advance r z : RP r -> RP (apply_line_advance r z).
Proof.
  intros [A B]. unfold apply_line_advance.
  destruct (z <? 0)%Z; [destruct (Z.abs_N z <=? r_line r) eqn:E|]; split; cbn; try exact B.
  - apply N.leb_le in E. lia.
  - reflexivity.
  - apply wrap64_lt.
Qed.

Lemma RP_aoa r adv r' e : RP r -> apply_operation_advance dbg h r adv = Ok (r', e) -> RP r'.
Proof.
  intros [A B]. unfold apply_operation_advance.
  destruct (r_tomb r); [intros E; inversion E; subst; split; assumption|].
  destruct (h_max_ops h =? 1) eqn:E1.
  - cbn [bind]. destruct (add_sized_g dbg (r_addr (set_opi r 0)) (wrap64 (h_min_inst_len h * adv)) (h_addr_size h));
      intros E; inversion E; subst; split; cbn; try exact A; intros _; reflexivity.
  - apply N.eqb_neq in E1. destruct (h_max_ops h =? 0); [discriminate|]. cbn [bind].
    match goal with |- context [add_sized_g ?a ?b ?c ?d] => destruct (add_sized_g a b c d) end;
      intros E; inversion E; subst; split; cbn; try exact A; intros M; contradiction.
Qed.

Lemma RP_adv_result r adv k r' x :
  RP r -> adv_result (apply_operation_advance dbg h r adv) k = Ok (r', x) -> RP r'.
Proof.
  intros P. unfold adv_result.
  destruct (apply_operation_advance dbg h r adv) as [[r0 [e|]]|e| |] eqn:EA; cbn; intros E; inversion E; subst;
    eapply RP_aoa; eassumption.
Qed.

Lemma RP_execute r i r' x : RP r -> execute dbg h r i = Ok (r', x) -> RP r'.
Proof.
  intros P. pose proof P as [A B].
  destruct i; cbn [execute]; try (intros E; inversion E; subst; split; cbn; assumption).
  - destruct (adjust_opcode dbg h op); cbn [bind]; try discriminate.
    destruct (h_line_range h =? 0); [discriminate|]. apply RP_adv_result. apply RP_line_advance. exact P.
  - apply RP_adv_result. exact P.
  - intros E; inversion E; subst. apply RP_line_advance. exact P.
  - destruct (adjust_opcode dbg h 255); cbn [bind]; try discriminate.
    destruct (h_line_range h =? 0); [discriminate|]. apply RP_adv_result. exact P.
  - destruct (r_tomb r); [intros E; inversion E; subst; exact P|].
    destruct (add_sized_g dbg (r_addr r) n (h_addr_size h)); intros E; inversion E; subst;
      [split; cbn; [exact A|intros _; reflexivity]|exact P].
  - destruct (a <? r_addr r); cbn [bind].
    + intros E; inversion E; subst. split; cbn; assumption.
    + destruct (min_tombstone_g dbg (h_addr_size h)) as [mt|e| |]; cbn [bind]; try discriminate.
      destruct (mt <=? a); intros E; inversion E; subst; split; cbn; try assumption; intros _; reflexivity.
Qed.

Definition ev_ok (ev : clrow) : Prop :=
  match ev with CRRow w => w_line w < two64 /\ (h_max_ops h = 1 -> w_op_index w = 0) | _ => True end.

End Inv.

(* every Row event of the read_row iteration started from ConvertLineProgram::new's state *)
Lemma events_rows_bounded dbg be sx h c :
  cl_row c = row_new h ->
  Forall (ev_ok h) (fst (fst (events dbg be sx h c))).
Proof.
  intros E. unfold events.
  refine (proj2 (events_loop_inv dbg be sx h (fun c => RP h (cl_row c)) (ev_ok h) _ _ _ _ _ _ _ _ _ _ c _)); auto.
  - intros c0 i r' x. apply RP_execute.
  - intros c0. apply RP_reset.
  - exact (fun _ => I).
  - intros c0 w P EC. pose proof (convert_row_exact h c0) as X. rewrite EC in X.
    destruct X as ((_ & Eo & El & _) & _). cbn. rewrite El, Eo. exact P.
  - intros; exact I.
  - rewrite E. apply RP_new.
Qed.

(* ---- alignment: every offset handed to the writer is a multiple of minimum_instruction_length *)
Definition aligned (mil ao : N) : Prop := mil <= 1 \/ ao mod mil = 0.

Definition ev_aligned (mil : N) (ev : clrow) : Prop :=
  match ev with
  | CRRow w => aligned mil (w_address_offset w) | CREndSequence n => aligned mil n | _ => True
  end.
