(* Proofs/ArangesRdProofs.v — C17: .debug_aranges sets (header padding, tuple iteration) and
   .debug_pubnames/.debug_pubtypes sets: what is iterated is what is encoded; no panic for any bytes. *)
From Coq Require Import List NArith ZArith Bool Lia ZifyBool ZifyN ZifyNat.
From Coq.Strings Require Import Byte.
Require Import GV.Base.Res GV.Base.Byt GV.Base.Ints GV.Model.Leb GV.Model.Prim.
Require Import GV.Spec.LebSpec GV.Spec.PrimSpec GV.Spec.LookupSpec GV.Model.IndexRd GV.Model.ArangesRd.
Require Import GV.Proofs.Lib GV.Proofs.PrimProofs GV.Proofs.IndexRdProofs GV.Proofs.NamesRdProofs.
Import ListNotations.
Local Open Scope N_scope.

Definition valid_asz (s : N) : Prop := s = 1 \/ s = 2 \/ s = 4 \/ s = 8.

Lemma post_read_address_size bs :
  post (fun p => valid_asz (fst p) /\ (length (snd p) < length bs)%nat) (read_address_size bs).
Proof.
  rewrite read_address_size_exact. destruct bs as [|b r]; [exact I|].
  destruct (size_ok (b2n b)) eqn:E; [|exact I]. split; [apply size_ok_cases; exact E|cbn; lia].
Qed.

(* format.initial_length_size() + 2 + format.word_size() + 1 + 1 fits a u8 *)
Lemma arange_hlen_ok {A} (dbg f64 : bool) (k : N -> res A) :
  (let* h1 := chk_add 8 dbg (if f64 then 12 else 4) 2 in
   let* h2 := chk_add 8 dbg h1 (word_size f64) in
   let* h3 := chk_add 8 dbg h2 1 in
   let* hlen := chk_add 8 dbg h3 1 in k hlen) = k (arange_header_len f64).
Proof. destruct f64, dbg; reflexivity. Qed.

Lemma post_arange_header_parse dbg be off bs :
  post (fun p => valid_asz (ah_addr_size (fst p)) /\ (length (snd p) < length bs)%nat)
       (arange_header_parse dbg be off bs).
Proof.
  unfold arange_header_parse.
  eapply post_bind; [apply post_read_initial_length|]. intros [[len f64] r] _ (_ & Hl0). cbn [fst snd] in *.
  eapply post_bind; [apply post_rd_split|]. intros [rest after] _ (_ & Hafter & _). cbn [fst snd] in *.
  assert (Hla : (length after < length bs)%nat) by (subst after; rewrite skipn_length; lia).
  eapply post_bind; [apply post_read_un|]. intros [version r1] _ _.
  destruct (negb (version =? 2) && negb (version =? 3)); [exact I|].
  eapply post_bind; [apply post_read_word|]. intros [info r2] _ _.
  eapply post_bind; [apply post_read_address_size|]. intros [asz r3] _ (Hasz & _). cbn [fst] in Hasz.
  eapply post_bind; [apply post_read_u8|]. intros [seg r4] _ _.
  destruct (negb (seg =? 0)); [exact I|].
  rewrite arange_hlen_ok.
  assert (Ht : asz * 2 < 256 /\ asz * 2 <> 0) by (unfold valid_asz in Hasz; lia).
  destruct (256 <=? asz * 2) eqn:E1; [lia|]. destruct (asz * 2 =? 0) eqn:E2; [lia|].
  eapply post_bind with (P := fun _ => True).
  { destruct (arange_header_len f64 mod (asz * 2) =? 0); [exact I|].
    rewrite chk_sub_ok; [exact I|].
    pose proof (N.mod_lt (arange_header_len f64) (asz * 2) ltac:(lia)). lia. }
  intros padding _ _. eapply post_bind; [apply post_rd_skip|]. intros r5 _ _.
  cbn. split; [exact Hasz|exact Hla].
Qed.

Lemma ones_sized_valid dbg s : valid_asz s -> ones_sized dbg s = Ok (2 ^ (8 * s) - 1).
Proof. intros [->|[->|[->| ->]]]; destruct dbg; reflexivity. Qed.

Lemma tombstone_valid s : valid_asz s -> N.land (two64 - 2) (2 ^ (8 * s) - 1) = tombstone_min s.
Proof. intros [->|[->|[->| ->]]]; reflexivity. Qed.

Lemma post_read_address asz be bs :
  valid_asz asz -> post (fun p => (length (snd p) < length bs)%nat) (read_address asz be bs).
Proof.
  intros Hv. rewrite read_address_exact, (proj2 (size_ok_cases asz) Hv).
  eapply post_weaken; [apply post_read_un|]. intros [v r] (_ & -> & Hl). cbn [snd].
  rewrite skipn_length. unfold valid_asz in Hv. lia.
Qed.

(* the tuple loops end and never panic once the address size has been validated by the header *)
Lemma arange_entries_loop_total dbg be asz : valid_asz asz -> forall fuel bs,
  (length bs < fuel)%nat ->
  let '(es, st) := arange_entries_loop dbg be fuel asz bs in st <> SPanic /\ st <> SFuel.
Proof.
  intros Hv. induction fuel as [|fuel IH]; intros bs Hf; [lia|]. cbn [arange_entries_loop].
  destruct bs as [|b0 bs0]; [split; discriminate|]. set (bs := b0 :: bs0) in *.
  rewrite chk_mul_ok by (change (2 ^ 8) with 256; unfold valid_asz in Hv; lia).
  destruct (blen bs <? 2 * asz); [split; discriminate|].
  pose proof (post_read_address asz be bs Hv) as P1.
  destruct (read_address asz be bs) as [[begin r]| e | |]; cbn in P1; try contradiction; try (split; discriminate).
  pose proof (post_read_address asz be r Hv) as P2.
  destruct (read_address asz be r) as [[len r']| e | |]; cbn in P2; try contradiction; try (split; discriminate).
  assert (Hl : (length r' < fuel)%nat) by (unfold bs in Hf; cbn [length] in Hf; lia).
  destruct ((begin =? 0) && (len =? 0)); [apply IH; exact Hl|].
  rewrite (ones_sized_valid dbg asz Hv).
  destruct (N.land (two64 - 2) (2 ^ (8 * asz) - 1) <=? begin); [apply IH; exact Hl|].
  destruct (two64 <=? begin + len); [split; discriminate|].
  destruct (2 ^ (8 * asz) - 1 <? begin + len); [split; discriminate|].
  specialize (IH r' Hl). destruct (arange_entries_loop dbg be fuel asz r') as [es st]. exact IH.
Qed.

Lemma arange_raw_loop_total dbg be asz : valid_asz asz -> forall fuel bs,
  (length bs < fuel)%nat ->
  let '(es, st) := arange_raw_loop dbg be fuel asz bs in st <> SPanic /\ st <> SFuel.
Proof.
  intros Hv. induction fuel as [|fuel IH]; intros bs Hf; [lia|]. cbn [arange_raw_loop].
  destruct bs as [|b0 bs0]; [split; discriminate|]. set (bs := b0 :: bs0) in *.
  rewrite chk_mul_ok by (change (2 ^ 8) with 256; unfold valid_asz in Hv; lia).
  destruct (blen bs <? 2 * asz); [split; discriminate|].
  pose proof (post_read_address asz be bs Hv) as P1.
  destruct (read_address asz be bs) as [[begin r]| e | |]; cbn in P1; try contradiction; try (split; discriminate).
  pose proof (post_read_address asz be r Hv) as P2.
  destruct (read_address asz be r) as [[len r']| e | |]; cbn in P2; try contradiction; try (split; discriminate).
  assert (Hl : (length r' < fuel)%nat) by (unfold bs in Hf; cbn [length] in Hf; lia).
  destruct ((begin =? 0) && (len =? 0)); [apply IH; exact Hl|].
  specialize (IH r' Hl). destruct (arange_raw_loop dbg be fuel asz r') as [es st]. exact IH.
Qed.

(* headers of ANY section shorter than 2^64 bytes: iteration ends without panic, every header has a
   validated address size, and the entries of every header iterate without panic *)
Lemma arange_headers_loop_total dbg be total : total < 2 ^ 64 -> forall fuel bs offset,
  (length bs < fuel)%nat -> offset + blen bs = total ->
  let '(hs, st) := arange_headers_loop dbg be fuel offset bs in
  st <> SPanic /\ st <> SFuel /\ Forall (fun h => valid_asz (ah_addr_size h)) hs.
Proof.
  intros Ht. induction fuel as [|fuel IH]; intros bs offset Hf Ho; [lia|]. cbn [arange_headers_loop].
  destruct bs as [|b0 bs0]; [repeat split; try discriminate; constructor|]. set (bs := b0 :: bs0) in *.
  pose proof (post_arange_header_parse dbg be offset bs) as P.
  destruct (arange_header_parse dbg be offset bs) as [[h rest]| e | |]; cbn in P; try contradiction.
  - destruct P as (Hv & Hl).
    assert (Hb : blen rest <= blen bs) by (unfold bs, blen in *; cbn [length] in *; lia).
    rewrite chk_sub_ok by exact Hb. cbn [bind].
    rewrite chk_add_ok by lia.
    specialize (IH rest (offset + (blen bs - blen rest))).
    destruct (arange_headers_loop dbg be fuel (offset + (blen bs - blen rest)) rest) as [hs st].
    unfold run_cons. cbn [fst snd].
    destruct IH as (H1 & H2 & H3); [unfold bs in *; cbn [length] in *; lia|unfold bs, blen in *; cbn [length] in *; lia|].
    repeat split; try assumption. constructor; assumption.
  - repeat split; try discriminate. constructor.
Qed.

Theorem arange_header_at_total dbg be off bs : post (fun h => valid_asz (ah_addr_size h)) (arange_header_at dbg be off bs).
Proof.
  unfold arange_header_at. eapply post_bind; [apply post_rd_skip|]. intros r _ _.
  eapply post_bind; [apply post_arange_header_parse|]. intros [h rest] _ (Hv & _). exact Hv.
Qed.

Lemma read_address_enc s be v rest : valid_asz s -> v < 2 ^ (8 * s) ->
  read_address s be (enc_un (N.to_nat s) be v ++ rest) = Ok (v, rest).
Proof.
  intros [->|[->|[->| ->]]] Hv; unfold read_address; cbn [N.eqb Pos.eqb];
    apply read_un_enc_un_small; exact Hv.
Qed.

Definition arange_desc_wf (d : arange_desc) : Prop :=
  valid_asz (a_addr_size d) /\ a_seg_size d = 0 /\ (a_version d = 2 \/ a_version d = 3) /\
  a_info_offset d < (if a_fmt64 d then 2 ^ 64 else 2 ^ 32).

Theorem arange_header_encoded dbg be off d rest :
  arange_desc_wf d ->
  blen (enc_arange_body be d) < (if a_fmt64 d then 2 ^ 64 else 4294967280) ->
  arange_header_parse dbg be off (enc_arange_set be d ++ rest) =
    Ok ({| ah_offset := off; ah_length := blen (enc_arange_body be d); ah_fmt64 := a_fmt64 d;
           ah_version := a_version d; ah_info_offset := a_info_offset d; ah_addr_size := a_addr_size d;
           ah_entries := concat (map (enc_tuple (a_addr_size d) be) (a_tuples d)) ++ a_tail d |}, rest).
Proof.
  intros (Hv & Hseg & Hver & Hinfo) Hlen. unfold arange_header_parse, enc_arange_set. cbv zeta.
  change (N.of_nat (length (enc_arange_body be d))) with (blen (enc_arange_body be d)).
  set (L := blen (enc_arange_body be d)) in *.
  rewrite <- app_assoc. rewrite read_initial_length_enc by exact Hlen. cbn [bind].
  rewrite rd_split_app_n by reflexivity. cbn [bind].
  unfold enc_arange_body. rewrite <- ?app_assoc.
  rewrite read_un_enc_un_small by (change (p256 2) with (2 ^ 16); change (2 ^ 16) with 65536; lia). cbn [bind].
  assert (Ev : negb (a_version d =? 2) && negb (a_version d =? 3) = false) by lia.
  rewrite Ev. rewrite read_word_enc by exact Hinfo. cbn [bind].
  assert (Hs256 : a_addr_size d < 256) by (unfold valid_asz in Hv; lia).
  cbn [app]. unfold read_address_size. cbn [read_u8 bind]. rewrite b2n_n2b_small by exact Hs256.
  assert (Eok : (a_addr_size d =? 1) || (a_addr_size d =? 2) || (a_addr_size d =? 4) || (a_addr_size d =? 8) = true)
    by (unfold valid_asz in Hv; lia).
  rewrite Eok. cbn [read_u8 bind]. rewrite Hseg. change (b2n (n2b 0)) with 0. change (negb (0 =? 0)) with false. cbv iota.
  rewrite arange_hlen_ok.
  destruct (256 <=? a_addr_size d * 2) eqn:E1; [unfold valid_asz in Hv; lia|].
  destruct (a_addr_size d * 2 =? 0) eqn:E2; [unfold valid_asz in Hv; lia|].
  assert (Hpad : (if arange_header_len (a_fmt64 d) mod (a_addr_size d * 2) =? 0 then Ok 0
                  else chk_sub 8 dbg (a_addr_size d * 2) (arange_header_len (a_fmt64 d) mod (a_addr_size d * 2)))
                 = Ok (arange_padding (a_fmt64 d) (a_addr_size d))).
  { destruct Hv as [->|[->|[->| ->]]]; destruct (a_fmt64 d), dbg; reflexivity. }
  rewrite Hpad. cbn [bind].
  rewrite rd_skip_app_n by (rewrite blen_repeat, N2Nat.id; reflexivity). cbn [bind].
  reflexivity.
Qed.

Lemma entries_loop_unfold dbg be f s bs : valid_asz s ->
  arange_entries_loop dbg be (S f) s bs =
    if blen bs <? 2 * s then ([], SDone) else
    match read_address s be bs with
    | Ok (begin, r) =>
        match read_address s be r with
        | Ok (len, r') =>
            if (begin =? 0) && (len =? 0) then arange_entries_loop dbg be f s r'
            else if tombstone_min s <=? begin then arange_entries_loop dbg be f s r'
            else if two64 <=? begin + len then ([], SErr EAddressOverflow)
            else if 2 ^ (8 * s) - 1 <? begin + len then ([], SErr EAddressOverflow)
            else run_cons (begin, len, begin + len) (arange_entries_loop dbg be f s r')
        | r => ([], stop_of_res r)
        end
    | r => ([], stop_of_res r)
    end.
Proof.
  intros Hv. cbn [arange_entries_loop].
  assert (Hm : chk_mul 8 dbg 2 s = Ok (2 * s))
    by (apply chk_mul_ok; change (2 ^ 8) with 256; unfold valid_asz in Hv; lia).
  destruct bs as [|b0 bs0].
  - assert (E : blen [] <? 2 * s = true) by (unfold blen; cbn [length]; unfold valid_asz in Hv; lia).
    rewrite E. reflexivity.
  - rewrite Hm, (ones_sized_valid dbg s Hv), (tombstone_valid s Hv). reflexivity.
Qed.

Definition stop_of_err (e : option error) : stop := match e with None => SDone | Some e => SErr e end.

Lemma enc_tuple_length s be t : length (enc_tuple s be t) = (2 * N.to_nat s)%nat.
Proof. unfold enc_tuple. rewrite app_length, !enc_un_length. lia. Qed.

Theorem arange_entries_encoded dbg be s tail : valid_asz s -> blen tail < 2 * s ->
  forall ts fuel,
  Forall (fun t => fst t < 2 ^ (8 * s) /\ snd t < 2 ^ (8 * s)) ts ->
  (length ts < fuel)%nat ->
  arange_entries_loop dbg be fuel s (concat (map (enc_tuple s be) ts) ++ tail)
  = (fst (arange_meaning s ts), stop_of_err (snd (arange_meaning s ts))).
Proof.
  intros Hv Htail. induction ts as [|[b l] ts IH]; intros fuel F Hf.
  - destruct fuel as [|fuel]; [lia|]. rewrite entries_loop_unfold by exact Hv. cbn [map concat app].
    destruct (blen tail <? 2 * s) eqn:E; [reflexivity|lia].
  - destruct fuel as [|fuel]; [cbn in Hf; lia|]. rewrite entries_loop_unfold by exact Hv.
    inversion F as [|? ? (Hb & Hl) F']; subst. cbn [fst snd] in Hb, Hl.
    cbn [map concat]. rewrite <- app_assoc.
    assert (Hlen : blen (enc_tuple s be (b, l) ++ concat (map (enc_tuple s be) ts) ++ tail) <? 2 * s = false).
    { rewrite blen_app. unfold blen at 1. rewrite enc_tuple_length. lia. }
    rewrite Hlen. unfold enc_tuple at 1. cbn [fst snd]. rewrite <- app_assoc.
    rewrite read_address_enc by assumption. rewrite read_address_enc by assumption.
    cbn [arange_meaning]. cbn [length] in Hf.
    destruct ((b =? 0) && (l =? 0)); [apply IH; [exact F'|lia]|].
    destruct (tombstone_min s <=? b); [apply IH; [exact F'|lia]|].
    assert (Hp : 2 ^ (8 * s) <= two64).
    { change two64 with (2 ^ 64). apply N.pow_le_mono_r; [discriminate|]. unfold valid_asz in Hv. lia. }
    pose proof (pow2_pos (8 * s)) as Hpos.
    destruct (2 ^ (8 * s) <=? b + l) eqn:Eo.
    + destruct (two64 <=? b + l); [reflexivity|].
      destruct (2 ^ (8 * s) - 1 <? b + l) eqn:E2; [reflexivity|lia].
    + destruct (two64 <=? b + l) eqn:E1; [lia|].
      destruct (2 ^ (8 * s) - 1 <? b + l) eqn:E2; [lia|].
      rewrite (IH fuel F') by lia.
      destruct (arange_meaning s ts) as [es e]. reflexivity.
Qed.

Lemma post_read_cstr bs : post (fun p => (length (snd p) < length bs)%nat) (read_cstr bs).
Proof.
  apply post_intro; [apply read_cstr_total|]. intros [s r] H.
  apply read_cstr_ok in H. destruct H as [-> _]. rewrite app_length. cbn. lia.
Qed.

Lemma post_pub_header_parse be bs :
  post (fun p => (length (fst (fst p)) + length (snd p) < length bs)%nat) (pub_header_parse be bs).
Proof.
  unfold pub_header_parse.
  eapply post_bind; [apply post_read_initial_length|]. intros [[len f64] r] _ (_ & Hl0). cbn [fst snd] in *.
  eapply post_bind; [apply post_rd_split|]. intros [rest after] _ (Hrest & Hafter & Hle). cbn [fst snd] in *.
  assert (Hsum : (length rest + length after = length r)%nat).
  { subst rest after. rewrite firstn_length, skipn_length. unfold blen in Hle. lia. }
  eapply post_bind; [apply post_read_un|]. intros [version r1] _ (_ & Hr1 & Hl1). cbn [fst snd] in *.
  destruct (negb (version =? 2)); [exact I|].
  eapply post_bind; [apply post_read_word|]. intros [uoff r2] _ (_ & Hl2). cbn [fst snd] in *.
  eapply post_bind; [apply post_read_word|]. intros [ulen r3] _ (_ & Hl3). cbn [fst snd] in *.
  cbn. subst r1. rewrite skipn_length in Hl2. lia.
Qed.

Lemma post_pub_entry_parse be h bs :
  post (fun p => match fst p with Some _ => (length (snd p) < length bs)%nat | None => True end)
       (pub_entry_parse be h bs).
Proof.
  unfold pub_entry_parse.
  eapply post_bind; [apply post_read_word|]. intros [off r] _ (_ & Hl). cbn [fst snd] in *.
  destruct (off =? 0); [exact I|].
  eapply post_bind; [apply post_read_cstr|]. intros [name r'] _ Hl2. cbn in *. lia.
Qed.

Definition pub_measure (cur : option (list byte * pub_header)) (rem : list byte) : nat :=
  (match cur with Some (i, _) => length i | None => O end + length rem)%nat.

Lemma pub_loop_total be : forall fuel cur rem,
  (pub_measure cur rem < fuel)%nat ->
  let '(es, st) := pub_loop be fuel cur rem in st <> SPanic /\ st <> SFuel.
Proof.
  induction fuel as [|fuel IH]; intros cur rem Hm; [lia|]. cbn [pub_loop].
  assert (Hnext : let '(es, st) :=
            match rem with
            | [] => ([], SDone)
            | _ :: _ =>
                match pub_header_parse be rem with
                | Ok (set, h, rest) => pub_loop be fuel (Some (set, h)) rest
                | r => ([], stop_of_res r)
                end
            end in st <> SPanic /\ st <> SFuel).
  { destruct rem as [|b0 rem0]; [split; discriminate|]. set (rem' := b0 :: rem0) in *.
    pose proof (post_pub_header_parse be rem') as P.
    destruct (pub_header_parse be rem') as [[[set h] rest]| e | |]; cbn in P; try contradiction; try (split; discriminate).
    apply IH. unfold pub_measure in *. destruct cur as [[i hh]|]; unfold rem' in *; cbn [length] in *; lia. }
  destruct cur as [[[|b inp] h]|]; try exact Hnext.
  pose proof (post_pub_entry_parse be h (b :: inp)) as P.
  destruct (pub_entry_parse be h (b :: inp)) as [[[e|] r]| err | |]; cbn in P; try contradiction;
    try exact Hnext; try (split; discriminate).
  specialize (IH (Some (r, h)) rem). destruct (pub_loop be fuel (Some (r, h)) rem) as [es st].
  unfold run_cons. cbn [snd]. apply IH. unfold pub_measure in *. cbn [length] in *. lia.
Qed.

Definition pub_next (be : bool) (f : nat) (rem : list byte) : run pub_entry :=
  match rem with
  | [] => ([], SDone)
  | _ => match pub_header_parse be rem with
         | Ok (set, h, rest) => pub_loop be f (Some (set, h)) rest
         | r => ([], stop_of_res r)
         end
  end.

Lemma pub_loop_next be f cur rem :
  pub_loop be (S f) cur rem =
    match cur with
    | Some (b :: inp, h) =>
        match pub_entry_parse be h (b :: inp) with
        | Ok (Some e, r) => run_cons e (pub_loop be f (Some (r, h)) rem)
        | Ok (None, _) => pub_next be f rem
        | r => ([], stop_of_res r)
        end
    | _ => pub_next be f rem
    end.
Proof. reflexivity. Qed.

Definition no_nul (s : list byte) : Prop := Forall (fun b => b2n b <> 0) s.

Definition pub_header_of (d : pub_desc) (body_len : N) : pub_header :=
  {| ph_fmt64 := p_fmt64 d; ph_length := body_len; ph_version := p_version d;
     ph_unit_offset := p_unit_offset d; ph_unit_length := p_unit_length d |}.
Definition pub_entry_of (d : pub_desc) (e : N * list byte) : pub_entry :=
  {| pe_die_offset := fst e; pe_name := snd e; pe_unit_offset := p_unit_offset d |}.

Definition word_bound (fmt64 : bool) : N := if fmt64 then 2 ^ 64 else 2 ^ 32.

Definition pub_desc_wf (be : bool) (d : pub_desc) : Prop :=
  p_version d = 2 /\ p_unit_offset d < word_bound (p_fmt64 d) /\ p_unit_length d < word_bound (p_fmt64 d) /\
  Forall (fun e => fst e <> 0 /\ fst e < word_bound (p_fmt64 d) /\ no_nul (snd e)) (p_entries d) /\
  (p_tail d = [] \/ exists junk, p_tail d = enc_word (p_fmt64 d) be 0 ++ junk) /\
  blen (enc_pub_body be d) < (if p_fmt64 d then 2 ^ 64 else 4294967280).

Lemma pub_header_encoded be d rest :
  pub_desc_wf be d ->
  pub_header_parse be (enc_pub_set be d ++ rest) =
    Ok (concat (map (enc_pub_entry (p_fmt64 d) be) (p_entries d)) ++ p_tail d,
        pub_header_of d (blen (enc_pub_body be d)), rest).
Proof.
  intros (Hver & Huo & Hul & _ & _ & Hlen). unfold pub_header_parse, enc_pub_set. cbv zeta.
  change (N.of_nat (length (enc_pub_body be d))) with (blen (enc_pub_body be d)).
  set (L := blen (enc_pub_body be d)) in *.
  rewrite <- app_assoc. rewrite read_initial_length_enc by exact Hlen. cbn [bind].
  rewrite rd_split_app_n by reflexivity. cbn [bind].
  unfold enc_pub_body. rewrite Hver.
  rewrite read_un_enc_un_small by (change (p256 2) with (2 ^ 16); reflexivity). cbn [bind].
  change (negb (2 =? 2)) with false. cbv iota.
  rewrite read_word_enc by exact Huo. cbn [bind].
  rewrite read_word_enc by exact Hul. cbn [bind].
  unfold pub_header_of. rewrite Hver. reflexivity.
Qed.

Fixpoint run_app {A} (l : list A) (r : run A) : run A :=
  match l with [] => r | a :: l' => run_cons a (run_app l' r) end.

Lemma pub_entries_run be d (h : pub_header) tail rem f :
  ph_fmt64 h = p_fmt64 d -> ph_unit_offset h = p_unit_offset d ->
  forall es,
  Forall (fun e => fst e <> 0 /\ fst e < word_bound (p_fmt64 d) /\ no_nul (snd e)) es ->
  pub_loop be (length es + f) (Some (concat (map (enc_pub_entry (p_fmt64 d) be) es) ++ tail, h)) rem
  = run_app (map (pub_entry_of d) es) (pub_loop be f (Some (tail, h)) rem).
Proof.
  intros Hf Hu. induction es as [|[o nm] es IH]; intros F; [reflexivity|].
  inversion F as [|? ? (Ho & Hob & Hn) F']; subst. cbn [fst snd] in *.
  cbn [length Nat.add]. rewrite pub_loop_next. cbn [map concat]. rewrite <- app_assoc.
  unfold enc_pub_entry at 1. cbn [fst snd]. rewrite <- !app_assoc.
  destruct (enc_word (p_fmt64 d) be o ++ nm ++ [x00] ++ concat (map (enc_pub_entry (p_fmt64 d) be) es) ++ tail)
    as [|b0 l0] eqn:El.
  { exfalso. apply (f_equal (@length byte)) in El. rewrite app_length in El. unfold enc_word in El.
    destruct (p_fmt64 d); rewrite enc_un_length in El; cbn in El; lia. }
  rewrite <- El. clear El b0 l0.
  unfold pub_entry_parse. rewrite Hf, read_word_enc by exact Hob. cbn [bind].
  destruct (o =? 0) eqn:E0; [lia|].
  cbn [app]. rewrite read_cstr_app by exact Hn. cbn [bind].
  rewrite (IH F'). cbn [run_app map]. unfold pub_entry_of at 2. cbn [fst snd]. rewrite Hu. reflexivity.
Qed.

(* a finished set: nothing left, or a zero offset (whatever follows it) *)
Lemma pub_tail_done be d (h : pub_header) rem f :
  ph_fmt64 h = p_fmt64 d ->
  (p_tail d = [] \/ exists junk, p_tail d = enc_word (p_fmt64 d) be 0 ++ junk) ->
  pub_loop be (S f) (Some (p_tail d, h)) rem = pub_next be f rem.
Proof.
  intros Hf [->|(junk & ->)]; [reflexivity|]. rewrite pub_loop_next.
  destruct (enc_word (p_fmt64 d) be 0 ++ junk) as [|b0 l0] eqn:El.
  { reflexivity. }
  rewrite <- El. unfold pub_entry_parse. rewrite Hf, read_word_enc by (destruct (p_fmt64 d); reflexivity).
  reflexivity.
Qed.

Fixpoint pub_cost (ds : list pub_desc) : nat :=
  match ds with [] => O | d :: r => (S (length (p_entries d)) + pub_cost r)%nat end.

Lemma enc_pub_set_cost be d : (S (length (p_entries d)) <= length (enc_pub_set be d))%nat.
Proof.
  unfold enc_pub_set, enc_pub_body. cbv zeta. rewrite !app_length.
  assert (H : (length (p_entries d) <= length (concat (map (enc_pub_entry (p_fmt64 d) be) (p_entries d))))%nat).
  { induction (p_entries d) as [|e es IHe]; [cbn; lia|]. cbn [map concat length]. rewrite app_length.
    unfold enc_pub_entry at 1. rewrite !app_length. cbn [length]. lia. }
  pose proof (enc_un_length 2 be (p_version d)).
  lia.
Qed.

Theorem pub_sets_encoded be : forall ds f,
  Forall (pub_desc_wf be) ds ->
  pub_next be (pub_cost ds + f) (concat (map (enc_pub_set be) ds))
  = (concat (map (fun d => map (pub_entry_of d) (p_entries d)) ds), SDone).
Proof.
  induction ds as [|d ds IH]; intros f F; [reflexivity|].
  inversion F as [|? ? Hd F']; subst. cbn [map concat pub_cost].
  unfold pub_next.
  rewrite match_nonempty by (rewrite app_length; pose proof (enc_pub_set_cost be d); lia).
  rewrite (pub_header_encoded be d _ Hd).
  destruct Hd as (Hver & Huo & Hul & Hes & Htail & Hlen).
  replace (S (length (p_entries d)) + pub_cost ds + f)%nat
    with (length (p_entries d) + S (pub_cost ds + f))%nat by lia.
  rewrite (pub_entries_run be d (pub_header_of d (blen (enc_pub_body be d))) (p_tail d) _ _ eq_refl eq_refl _ Hes).
  rewrite (pub_tail_done be d (pub_header_of d (blen (enc_pub_body be d))) _ _ eq_refl Htail).
  rewrite (IH f F').
  generalize (map (pub_entry_of d) (p_entries d)). intros l.
  induction l as [|a l IHl]; [reflexivity|]. cbn [run_app app]. rewrite IHl. reflexivity.
Qed.

Lemma pub_cost_le be ds : (pub_cost ds <= length (concat (map (enc_pub_set be) ds)))%nat.
Proof.
  induction ds as [|d ds IH]; [cbn; lia|]. cbn [map concat pub_cost].
  rewrite app_length. pose proof (enc_pub_set_cost be d). lia.
Qed.
