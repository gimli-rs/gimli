(* Sequences of write::LineProgram calls against Spec/LineAdvSpec.v: the operation advance between two rows,
   one generate_row / end_sequence / set_address / begin_sequence call (rop_correct), and by induction whole
   scripts of such calls: executing what the writer has emitted yields the rows the script means. Property C13. *)
From Coq Require Import List NArith ZArith Bool Lia ZifyBool ZifyN ZifyNat.
From Coq.Strings Require Import Byte.
Require Import GV.Base.Res GV.Base.Byt GV.Base.Ints GV.Model.Leb GV.Model.Prim.
Require Import GV.Spec.LineAdvSpec GV.Model.LineWr GV.Proofs.Lib GV.Proofs.LineWrProofs.
Import ListNotations.

(* what the caller has to respect between two consecutive rows of a sequence (documented: the offset
   does not decrease; inherent to the encoding: offsets are multiples of the instruction length, the
   operation index is below maximum_operations_per_instruction, the operation pointer does not go back) *)
Definition step_ok (l : lenc) (pao popi ao opi : N) : Prop :=
  (pao <= ao)%N /\ (pao mod le_min_len l = 0)%N /\ (ao mod le_min_len l = 0)%N /\
  (popi < le_max_ops l)%N /\ (opi < le_max_ops l)%N /\ (pao < ao \/ popi <= opi)%N.

Definition op_advance_value (l : lenc) (pao popi ao opi : N) : N :=
  ((ao - pao) / le_min_len l * le_max_ops l + opi - popi)%N.

(* Offsets that are multiples of the instruction length differ by an exact multiple of it, and the
   operation pointer (that quotient, then the operation index) does not go back. *)
Lemma step_quot l pao popi ao opi : enc_ok l -> step_ok l pao popi ao opi ->
  (ao - pao = le_min_len l * ((ao - pao) / le_min_len l))%N /\
  (popi <= (ao - pao) / le_min_len l * le_max_ops l + opi)%N.
Proof.
  intros (_ & _ & _ & Hmin & Hmax) (Hle & Hpm & Hm & Hpo & Ho & Hmono).
  assert (Hn : le_min_len l <> 0%N) by lia.
  assert (Eq : (ao - pao = le_min_len l * ((ao - pao) / le_min_len l))%N).
  { apply N.div_exact; [exact Hn|]. apply N.mod_divide; [exact Hn|].
    apply N.divide_sub_r; apply N.mod_divide; assumption. }
  split; [exact Eq|]. clear Hpm Hm.
  generalize dependent ((ao - pao) / le_min_len l)%N. intros q Eq.
  destruct Hmono as [Hlt|Hge]; [|lia].
  assert (1 * le_max_ops l <= q * le_max_ops l)%N by (apply N.mul_le_mono_r; destruct q; lia).
  lia.
Qed.

Lemma op_advance_ok dbg l row prev :
  enc_ok l ->
  step_ok l (w_address_offset prev) (w_op_index prev) (w_address_offset row) (w_op_index row) ->
  ((w_address_offset row - w_address_offset prev) / le_min_len l * le_max_ops l + w_op_index row
     < 18446744073709551616)%N ->
  op_advance dbg l row prev =
    Ok (op_advance_value l (w_address_offset prev) (w_op_index prev) (w_address_offset row) (w_op_index row)).
Proof.
  intros Hok Hstep Hrange. destruct (step_quot _ _ _ _ _ Hok Hstep) as [_ Hq].
  destruct Hok as (_ & _ & _ & Hmin & _). destruct Hstep as (Hle & _ & Hm & _).
  unfold op_advance, op_advance_value.
  destruct (N.ltb_spec (w_address_offset row) (w_address_offset prev)) as [Hc|_]; [lia|].
  rewrite andb_false_r, chk_sub_ok by exact Hle. cbn [bind].
  set (q := ((w_address_offset row - w_address_offset prev) / le_min_len l)%N) in *.
  (* the division, exact by step_quot, is skipped for instruction length 1 *)
  destruct (N.eqb_spec (le_min_len l) 1) as [E1|_]; cbn [negb].
  1: replace (w_address_offset row - w_address_offset prev)%N with q by (unfold q; rewrite E1; apply N.div_1_r).
  2: destruct (N.eqb_spec (le_min_len l) 0) as [Hc|_]; [lia|]; rewrite Hm, andb_false_r.
  all: clear Hm; cbn [bind]; rewrite chk_mul_ok by lia; cbn [bind]; rewrite chk_add_ok by lia;
    apply chk_sub_ok; exact Hq.
Qed.

(* the reader turns that operation advance back into exactly (address + delta, op_index') *)
Lemma op_advance_vliw l pao popi ao opi r :
  enc_ok l -> step_ok l pao popi ao opi -> r_op_index r = Z.of_N popi ->
  op_adv (params_of l) (Z.of_N (op_advance_value l pao popi ao opi)) r =
  mkRegs (r_address r + (Z.of_N ao - Z.of_N pao)) (Z.of_N opi) (r_file r) (r_line r) (r_column r)
         (r_is_stmt r) (r_basic_block r) (r_end_sequence r) (r_prologue_end r) (r_epilogue_begin r)
         (r_isa r) (r_discriminator r).
Proof.
  intros Hok Hstep Hopi. destruct (step_quot _ _ _ _ _ Hok Hstep) as [Eq Hq].
  destruct Hok as (_ & _ & _ & _ & Hmax). destruct Hstep as (Hle & _ & _ & _ & Ho & _).
  unfold op_adv, op_advance_value. cbn [params_of lp_min_len lp_max_ops]. rewrite Hopi.
  set (q := ((ao - pao) / le_min_len l)%N) in *.
  replace (Z.of_N popi + Z.of_N (q * le_max_ops l + opi - popi))%Z
    with (Z.of_N opi + Z.of_N q * Z.of_N (le_max_ops l))%Z by lia.
  destruct (special_decompose (Z.of_N opi) (Z.of_N q) (Z.of_N (le_max_ops l)) ltac:(lia)) as [Ed Em].
  rewrite Ed, Em. f_equal. lia.
Qed.

Lemma wrap_signed64_id z : i64 z -> wrap_signed 64 z = z.
Proof.
  intros H. unfold i64 in H. unfold wrap_signed, to_signed, of_signed, wrapN. rewrite pow64.
  change (2 ^ (64 - 1))%N with 9223372036854775808%N.
  change (Z.of_N 18446744073709551616) with 18446744073709551616%Z.
  assert (Hm : (0 <= z mod 18446744073709551616 < 18446744073709551616)%Z) by (apply Z.mod_pos_bound; lia).
  rewrite N.mod_small by lia.
  destruct (N.ltb_spec (Z.to_N (z mod 18446744073709551616)) 9223372036854775808); lia.
Qed.

(* The chunking loop peels DW_LNS_advance_line(i64::MAX) or (i64::MIN) off the delta until the rest fits
   an i64: what holds of the empty list at an i64 rest and is kept by one chunk towards the delta holds of
   every result. *)
Lemma line_chunks_ind (P : Z -> list linsn -> Z -> Prop) :
  (forall d, i64 d -> P d [] d) ->
  (forall delta c chunks d,
     c = I64_MAX /\ (c < delta)%Z \/ c = I64_MIN /\ (delta < c)%Z ->
     P (delta - c)%Z chunks d -> P delta (IAdvanceLine c :: chunks) d) ->
  forall f delta chunks d, line_chunks f delta = Ok (chunks, d) -> P delta chunks d.
Proof.
  intros H0 HS. induction f as [|f IH]; intros delta chunks d H; [discriminate|].
  cbn [line_chunks] in H.
  destruct (Z.ltb_spec I64_MAX delta) as [Hgt|Hle].
  - apply bind_ok in H as ([c1 d1] & H1 & H). injection H as <- <-.
    apply HS; [left; split; [reflexivity|exact Hgt] | apply IH, H1].
  - destruct (Z.ltb_spec delta I64_MIN) as [Hlt|Hge].
    + apply bind_ok in H as ([c1 d1] & H1 & H). injection H as <- <-.
      apply HS; [right; split; [reflexivity|exact Hlt] | apply IH, H1].
    + injection H as <- <-. apply H0. unfold i64, I64_MAX, I64_MIN in *. lia.
Qed.

(* the chunks advance the line by delta - rest *)
Lemma line_chunks_run f delta chunks d : line_chunks f delta = Ok (chunks, d) ->
  i64 d /\ Forall special_ok chunks /\
  forall ver p r, run p (map (denote ver) chunks) r = ([], line_adv (delta - d) r).
Proof.
  revert f delta chunks d. apply line_chunks_ind.
  - intros d Hd. split; [exact Hd|]. split; [constructor|].
    intros ver p r. cbn [map run]. now rewrite Z.sub_diag, line_adv_0.
  - intros delta c chunks d _ (Hd & F & R). split; [exact Hd|]. split; [constructor; [exact I|exact F]|].
    intros ver p r. cbn [map denote run step exec]. rewrite R. cbn [app].
    rewrite line_adv_line_adv. f_equal. f_equal. lia.
Qed.

Lemma line_chunks_S f delta :
  line_chunks (S f) delta =
  if (I64_MAX <? delta)%Z then
    let* (l, d) := line_chunks f (delta - I64_MAX)%Z in Ok (IAdvanceLine I64_MAX :: l, d)
  else if (delta <? I64_MIN)%Z then
    let* (l, d) := line_chunks f (delta - I64_MIN)%Z in Ok (IAdvanceLine I64_MIN :: l, d)
  else Ok ([], delta).
Proof. reflexivity. Qed.

(* fuel f+1 is enough for f+1 multiples of the i64 range *)
Lemma line_chunks_total f : forall delta,
  (I64_MIN * (Z.of_nat f + 1) <= delta <= I64_MAX * (Z.of_nat f + 1))%Z ->
  exists chunks d, line_chunks (S f) delta = Ok (chunks, d).
Proof.
  induction f as [|f IH]; intros delta Hd; rewrite line_chunks_S; unfold I64_MIN, I64_MAX in *.
  - destruct (Z.ltb_spec 9223372036854775807 delta); [lia|].
    destruct (Z.ltb_spec delta (-9223372036854775808)); [lia|]. eauto.
  - destruct (Z.ltb_spec 9223372036854775807 delta) as [Hgt|Hle].
    + destruct (IH (delta - 9223372036854775807)%Z) as (c & d & ->); [lia|]. cbn [bind]. eauto.
    + destruct (Z.ltb_spec delta (-9223372036854775808)) as [Hlt|Hge]; [|eauto].
      destruct (IH (delta - -9223372036854775808)%Z) as (c & d & ->); [lia|]. cbn [bind]. eauto.
Qed.

(* the row the reader must produce for a writer row: address advanced by the offset difference,
   every other register verbatim *)
Definition row_regs (ver : N) (r : regs) (pao : N) (row : wrow) : regs :=
  mkRegs (r_address r + (Z.of_N (w_address_offset row) - Z.of_N pao)) (Z.of_N (w_op_index row))
         (raw ver (w_file row)) (Z.of_N (w_line row)) (Z.of_N (w_column row)) (w_is_statement row)
         (w_basic_block row) false (w_prologue_end row) (w_epilogue_begin row)
         (Z.of_N (w_isa row)) (Z.of_N (w_discriminator row)).

(* what a caller may ask of generate_row, relative to the previous row of the sequence: the step
   conditions, u64 line numbers (any), and an operation advance that fits a u64 (the remaining known
   finding: `address_advance * max_ops + op_index` is unchecked) *)
Definition row_ok (l : lenc) (prev row : wrow) : Prop :=
  step_ok l (w_address_offset prev) (w_op_index prev) (w_address_offset row) (w_op_index row) /\
  (w_line prev < 18446744073709551616)%N /\ (w_line row < 18446744073709551616)%N /\
  ((w_address_offset row - w_address_offset prev) / le_min_len l * le_max_ops l + w_op_index row
     < 18446744073709551616)%N.

(* fields set, line advanced in chunks and by the rest d, operation advance applied: the registers of the row *)
Lemma row_regs_reached l ver prev row r d :
  enc_ok l -> synced ver prev r ->
  step_ok l (w_address_offset prev) (w_op_index prev) (w_address_offset row) (w_op_index row) ->
  op_adv (params_of l)
    (Z.of_N (op_advance_value l (w_address_offset prev) (w_op_index prev) (w_address_offset row) (w_op_index row)))
    (line_adv d (line_adv (Z.of_N (w_line row) - Z.of_N (w_line prev) - d) (fields_set ver row r)))
  = row_regs ver r (w_address_offset prev) row.
Proof.
  intros Hok (Sop & _ & Sline & _) Hstep.
  rewrite line_adv_line_adv, (op_advance_vliw l _ _ _ _ _ Hok Hstep) by exact Sop.
  unfold row_regs. cbn. f_equal. lia.
Qed.

(* generate_row succeeds, and what it appends is the field instructions, the line chunks and the
   instructions of advance_insns for the rest of the line delta and the operation advance *)
Lemma generate_row_parts dbg p row :
  enc_ok (p_lenc p) -> row_ok (p_lenc p) (p_prev p) row ->
  exists chunks d adv,
    line_chunks 3 (Z.of_N (w_line row) - Z.of_N (w_line (p_prev p))) = Ok (chunks, d) /\
    advance_insns dbg (p_lenc p) d
      (op_advance_value (p_lenc p) (w_address_offset (p_prev p)) (w_op_index (p_prev p))
                        (w_address_offset row) (w_op_index row)) = Ok adv /\
    generate_row dbg (set_row row p) =
      Ok (set_prev (clear_row_flags row) (set_row (clear_row_flags row)
            (push_insns (field_insns row (p_prev p) ++ chunks ++ adv) (set_in_seq true (set_row row p))))).
Proof.
  intros Hok (Hstep & Hpl & Hrl & Hq).
  destruct (line_chunks_total 2 (Z.of_N (w_line row) - Z.of_N (w_line (p_prev p)))) as (chunks & d & Ech);
    [unfold I64_MIN, I64_MAX; lia|].
  destruct (line_chunks_run _ _ _ _ Ech) as (Hd & _).
  destruct (advance_correct dbg (p_lenc p) d
              (op_advance_value (p_lenc p) (w_address_offset (p_prev p)) (w_op_index (p_prev p))
                 (w_address_offset row) (w_op_index row)) Hok Hd) as (adv & Eadv & _).
  exists chunks, d, adv. split; [exact Ech|]. split; [exact Eadv|].
  unfold generate_row. cbn [p_row p_prev p_lenc set_row clear_row_flags w_line].
  rewrite Ech. cbn [bind]. rewrite (wrap_signed64_id d Hd).
  (* op_advance only reads address_offset and op_index *)
  change (op_advance dbg (p_lenc p) (clear_row_flags row) (p_prev p))
    with (op_advance dbg (p_lenc p) row (p_prev p)).
  rewrite (op_advance_ok dbg _ row _ Hok Hstep Hq). cbn [bind]. rewrite Eadv. reflexivity.
Qed.

Lemma generate_row_correct dbg p row ver r :
  enc_ok (p_lenc p) ->
  synced ver (p_prev p) r -> row_ok (p_lenc p) (p_prev p) row ->
  exists new,
    generate_row dbg (set_row row p) =
      Ok (set_prev (clear_row_flags row) (set_row (clear_row_flags row)
            (push_insns new (set_in_seq true (set_row row p))))) /\
    Forall special_ok new /\
    run (params_of (p_lenc p)) (map (denote ver) new) r =
      ([row_regs ver r (w_address_offset (p_prev p)) row],
       after_row (params_of (p_lenc p)) (row_regs ver r (w_address_offset (p_prev p)) row)) /\
    synced ver (clear_row_flags row)
           (after_row (params_of (p_lenc p)) (row_regs ver r (w_address_offset (p_prev p)) row)).
Proof.
  intros Hok Hsync Hrow.
  destruct (generate_row_parts dbg p row Hok Hrow) as (chunks & d & adv & Ech & Eadv & Egen).
  destruct Hrow as (Hstep & _).
  destruct (line_chunks_run _ _ _ _ Ech) as (Hd & Fch & Rch).
  set (l := p_lenc p) in *. set (prev := p_prev p) in *.
  set (oadv := op_advance_value l (w_address_offset prev) (w_op_index prev) (w_address_offset row)
                 (w_op_index row)) in *.
  destruct (advance_correct dbg l d oadv Hok Hd) as (adv' & Eadv' & Fadv & Radv).
  rewrite Eadv in Eadv'. injection Eadv' as <-.
  exists (field_insns row prev ++ chunks ++ adv). split; [exact Egen|].
  pose proof Hsync as (Sop & _).
  split; [|split].
  - apply Forall_app; split; [apply field_insns_special_ok|]. apply Forall_app; split; assumption.
  - rewrite map_app, run_app, (row_fields ver _ row prev r Hsync). cbv beta iota.
    rewrite map_app, run_app, Rch. cbv beta iota.
    rewrite Radv by (destruct Hstep as (_ & _ & _ & Hpo & _); unfold regs_ok; cbn; lia).
    unfold oadv. rewrite (row_regs_reached l ver prev row r d Hok Hsync Hstep). reflexivity.
  - unfold synced. cbn. repeat split; reflexivity.
Qed.

(* the end_sequence row: the registers as they are, at the end address, flagged *)
Definition end_regs (r : regs) (pao off opi : N) : regs :=
  mkRegs (r_address r + (Z.of_N off - Z.of_N pao)) (Z.of_N opi) (r_file r) (r_line r) (r_column r)
         (r_is_stmt r) (r_basic_block r) true (r_prologue_end r) (r_epilogue_begin r) (r_isa r)
         (r_discriminator r).

Definition end_ok (l : lenc) (prev : wrow) (off opi : N) : Prop :=
  step_ok l (w_address_offset prev) (w_op_index prev) off opi /\
  ((off - w_address_offset prev) / le_min_len l * le_max_ops l + opi < 18446744073709551616)%N.

(* the writer's initial row and the reader's initial registers agree (versions <= 5) *)
Lemma seq_reset e l : (e_version e <= 5)%N ->
  synced (e_version e) (wrow_initial e l) (init_regs (params_of l)).
Proof.
  intros Hv. unfold synced, wrow_initial, init_regs, raw, fileid_initial. cbn.
  repeat split; try reflexivity.
  destruct (N.eqb_spec (e_version e) 5) as [->|Hne]; [reflexivity|].
  destruct (N.leb_spec (e_version e) 4); [reflexivity|lia].
Qed.

(* end_sequence succeeds and appends DW_LNS_advance_pc (unless the operation advance is 0) and
   DW_LNE_end_sequence *)
Lemma end_sequence_parts dbg p off opi :
  enc_ok (p_lenc p) -> end_ok (p_lenc p) (p_prev p) off opi ->
  let oadv := op_advance_value (p_lenc p) (w_address_offset (p_prev p)) (w_op_index (p_prev p)) off opi in
  end_sequence dbg (set_row (with_op_index (p_row p) opi) p) off =
    Ok (set_prev (wrow_initial (p_enc p) (p_lenc p)) (set_row (wrow_initial (p_enc p) (p_lenc p))
          (push_insns ((if negb (oadv =? 0)%N then [IAdvancePc oadv] else []) ++ [IEndSequence])
             (set_in_seq false (set_row (with_op_index (p_row p) opi) p))))).
Proof.
  intros Hok (Hstep & Hq) oadv.
  unfold end_sequence. cbn [p_row p_prev p_lenc p_enc set_row with_op_index w_op_index].
  match goal with |- context [op_advance dbg _ ?rw _] =>
    rewrite (op_advance_ok dbg _ rw _ Hok Hstep Hq) end.
  reflexivity.
Qed.

Lemma end_sequence_correct dbg p off opi ver r :
  enc_ok (p_lenc p) -> synced ver (p_prev p) r -> end_ok (p_lenc p) (p_prev p) off opi ->
  exists new,
    end_sequence dbg (set_row (with_op_index (p_row p) opi) p) off =
      Ok (set_prev (wrow_initial (p_enc p) (p_lenc p)) (set_row (wrow_initial (p_enc p) (p_lenc p))
            (push_insns new (set_in_seq false (set_row (with_op_index (p_row p) opi) p))))) /\
    Forall special_ok new /\
    run (params_of (p_lenc p)) (map (denote ver) new) r =
      ([end_regs r (w_address_offset (p_prev p)) off opi], init_regs (params_of (p_lenc p))).
Proof.
  intros Hok Hsync Hend. rewrite (end_sequence_parts dbg p off opi Hok Hend).
  destruct Hend as (Hstep & _). destruct Hsync as (Sop & _).
  set (l := p_lenc p) in *. set (prev := p_prev p) in *.
  set (oadv := op_advance_value l (w_address_offset prev) (w_op_index prev) off opi).
  eexists. split; [reflexivity|]. split.
  { apply Forall_app; split; [destruct (negb (oadv =? 0)%N)|]; repeat constructor. }
  (* with or without DW_LNS_advance_pc, the registers are advanced by oadv *)
  assert (Rmid : run (params_of l) (map (denote ver) (if negb (oadv =? 0)%N then [IAdvancePc oadv] else [])) r
                 = ([], op_adv (params_of l) (Z.of_N oadv) r)).
  { destruct (N.eqb_spec oadv 0) as [->|_]; [|reflexivity]. cbn [negb map run].
    rewrite op_adv_0; [reflexivity| |];
      destruct Hok as (_ & _ & _ & _ & ?), Hstep as (_ & _ & _ & ? & _); cbn; lia. }
  rewrite map_app, run_app, Rmid. cbv beta iota. cbn [map denote run step exec app].
  unfold oadv. rewrite (op_advance_vliw l _ _ _ _ _ Hok Hstep Sop). reflexivity.
Qed.

(* set_address: the writer forgets the op_index exactly as the reader does (fix 64c2c71) *)
Lemma set_address_synced ver prev r a :
  synced ver prev r -> synced ver (with_op_index prev 0) (LineAdvSpec.set_address a r).
Proof.
  intros (Sop & Srest). unfold synced, LineAdvSpec.set_address, with_op_index. cbn.
  split; [reflexivity|exact Srest].
Qed.

Lemma set_address_synced0 ver prev r a :
  synced ver prev r -> w_op_index prev = 0%N -> synced ver prev (LineAdvSpec.set_address a r).
Proof.
  intros (Sop & Srest) H0. unfold synced, LineAdvSpec.set_address. cbn. rewrite H0. split; [reflexivity|exact Srest].
Qed.

(* the row-producing part of the writer API (directories, files and the file_has_* flags do not touch
   the instruction stream: see same_rows below) *)
Inductive rop : Type :=
| RBegin (a : option N)            (* begin_sequence(a.map(Address::Constant)) *)
| RSetAddr (a : N)                 (* set_address(Address::Constant(a)) *)
| RRow (row : wrow)                (* *row() = row; generate_row() *)
| REnd (off opi : N).              (* row().op_index = opi; end_sequence(off) *)

Definition apply_rop (dbg : bool) (p : prog) (o : rop) : res prog :=
  match o with
  | RBegin a => begin_sequence p (option_map AConst a)
  | RSetAddr a => Ok (LineWr.set_address p (AConst a))
  | RRow row => generate_row dbg (set_row row p)
  | REnd off opi => end_sequence dbg (set_row (with_op_index (p_row p) opi) p) off
  end.

Fixpoint apply_rops (dbg : bool) (p : prog) (ops : list rop) : res prog :=
  match ops with
  | [] => Ok p
  | o :: r => let* p' := apply_rop dbg p o in apply_rops dbg p' r
  end.

(* Meaning of a script (DESIGN §5 C13): state = reader registers + offset of the previous row.
   A row's address is the previous address plus the difference of the offsets (equivalently: sequence
   base + offset since the base); every other field is verbatim; set_address moves the address. *)
Definition m_step (ver : N) (lp : lparams) (st : regs * N) (o : rop) : list regs * (regs * N) :=
  match o with
  | RBegin None => ([], st)
  | RBegin (Some a) => ([], (LineAdvSpec.set_address (Z.of_N a) (fst st), snd st))
  | RSetAddr a => ([], (LineAdvSpec.set_address (Z.of_N a) (fst st), snd st))
  | RRow row => let rr := row_regs ver (fst st) (snd st) row in
                ([rr], (after_row lp rr, w_address_offset row))
  | REnd off opi => ([end_regs (fst st) (snd st) off opi], (init_regs lp, 0%N))
  end.

Fixpoint meaning (ver : N) (lp : lparams) (st : regs * N) (ops : list rop) : list regs * (regs * N) :=
  match ops with
  | [] => ([], st)
  | o :: r => let (rows1, st1) := m_step ver lp st o in
              let (rows2, st2) := meaning ver lp st1 r in (rows1 ++ rows2, st2)
  end.

(* what the caller has to respect (prev = the previous row as given by the caller, or the initial row) *)
Fixpoint script_ok (e : enc) (l : lenc) (prev : wrow) (in_seq : bool) (ops : list rop) : Prop :=
  match ops with
  | [] => True
  | RBegin a :: r => in_seq = false /\ w_op_index prev = 0%N /\ script_ok e l prev true r
  | RSetAddr a :: r => script_ok e l (with_op_index prev 0) true r
  | RRow row :: r => row_ok l prev row /\ script_ok e l (clear_row_flags row) true r
  | REnd off opi :: r => end_ok l prev off opi /\ script_ok e l (wrow_initial e l) false r
  end.

(* one writer call: it succeeds, what it appends executes to the meaning of the step, and writer and reader
   agree again for the rest of the script *)
Lemma rop_correct dbg p r o ops :
  let ver := e_version (p_enc p) in
  let m := m_step ver (params_of (p_lenc p)) (r, w_address_offset (p_prev p)) o in
  enc_ok (p_lenc p) -> (ver <= 5)%N -> synced ver (p_prev p) r ->
  script_ok (p_enc p) (p_lenc p) (p_prev p) (p_in_seq p) (o :: ops) ->
  exists p' new,
    apply_rop dbg p o = Ok p' /\
    p_insns p' = p_insns p ++ new /\ p_enc p' = p_enc p /\ p_lenc p' = p_lenc p /\
    Forall special_ok new /\
    run (params_of (p_lenc p)) (map (denote ver) new) r = (fst m, fst (snd m)) /\
    synced ver (p_prev p') (fst (snd m)) /\ w_address_offset (p_prev p') = snd (snd m) /\
    script_ok (p_enc p) (p_lenc p) (p_prev p') (p_in_seq p') ops.
Proof.
  intros ver m Hok Hver Hsync Hscript. subst m.
  destruct o as [[a|]|a|row|off opi]; cbn [script_ok] in Hscript; cbn [apply_rop m_step fst snd].
  - destruct Hscript as (Hin & Hop0 & Hrest). unfold begin_sequence. rewrite Hin.
    exists (push_insns [ISetAddress (AConst a)] (set_in_seq true p)), [ISetAddress (AConst a)].
    repeat (split; [reflexivity|]). split; [repeat constructor|]. split; [reflexivity|].
    split; [apply set_address_synced0; assumption|]. split; [reflexivity|exact Hrest].
  - destruct Hscript as (Hin & Hop0 & Hrest). unfold begin_sequence. rewrite Hin.
    exists (set_in_seq true p), []. cbn [p_insns set_in_seq]. rewrite app_nil_r.
    repeat (split; [reflexivity|]). split; [constructor|]. split; [reflexivity|].
    split; [exact Hsync|]. split; [reflexivity|exact Hrest].
  - exists (LineWr.set_address p (AConst a)), [ISetAddress (AConst a)].
    repeat (split; [reflexivity|]). split; [repeat constructor|]. split; [reflexivity|].
    split; [apply set_address_synced; assumption|]. split; [reflexivity|exact Hscript].
  - destruct Hscript as (Hrow & Hrest).
    destruct (generate_row_correct dbg p row ver r Hok Hsync Hrow) as (new & Egen & F & R & S).
    eexists; exists new. split; [exact Egen|]. repeat split; assumption.
  - destruct Hscript as (Hend & Hrest).
    destruct (end_sequence_correct dbg p off opi ver r Hok Hsync Hend) as (new & Eend & F & R).
    eexists; exists new. split; [exact Eend|]. repeat split; try assumption.
    apply seq_reset, Hver.
Qed.

Lemma script_correct dbg ops : forall p r,
  enc_ok (p_lenc p) -> (e_version (p_enc p) <= 5)%N ->
  synced (e_version (p_enc p)) (p_prev p) r ->
  script_ok (p_enc p) (p_lenc p) (p_prev p) (p_in_seq p) ops ->
  exists p' new,
    apply_rops dbg p ops = Ok p' /\
    p_insns p' = p_insns p ++ new /\ p_enc p' = p_enc p /\ p_lenc p' = p_lenc p /\
    Forall special_ok new /\
    run (params_of (p_lenc p)) (map (denote (e_version (p_enc p))) new) r =
      (fst (meaning (e_version (p_enc p)) (params_of (p_lenc p)) (r, w_address_offset (p_prev p)) ops),
       fst (snd (meaning (e_version (p_enc p)) (params_of (p_lenc p)) (r, w_address_offset (p_prev p)) ops))).
Proof.
  induction ops as [|o ops IH]; intros p r Hok Hver Hsync Hscript.
  - exists p, []. cbn. rewrite app_nil_r. repeat split; auto.
  - destruct (rop_correct dbg p r o ops Hok Hver Hsync Hscript)
      as (p1 & new1 & E1 & I1 & En1 & L1 & F1 & R1 & S1 & O1 & K1).
    cbn [apply_rops meaning]. rewrite E1. cbn [bind].
    destruct (m_step (e_version (p_enc p)) (params_of (p_lenc p)) (r, w_address_offset (p_prev p)) o)
      as [rows1 [r1 pao1]]. cbn [fst snd] in *.
    destruct (IH p1 r1) as (p' & new & Eap & Eins & Eenc & Elenc & Fnew & Rnew);
      [rewrite L1; exact Hok | rewrite En1; exact Hver | rewrite En1; exact S1 | rewrite En1, L1; exact K1 |].
    rewrite En1, L1, O1 in Rnew.
    exists p', (new1 ++ new). split; [exact Eap|].
    split; [rewrite Eins, I1; symmetry; apply app_assoc|].
    split; [congruence|]. split; [congruence|]. split; [apply Forall_app; split; assumption|].
    rewrite map_app, run_app, R1. cbv beta iota. rewrite Rnew.
    destruct (meaning (e_version (p_enc p)) (params_of (p_lenc p)) (r1, pao1) ops) as [rows [r2 pao2]].
    reflexivity.
Qed.

(* directories, files and flags leave the row machinery untouched *)
Definition same_rows (p p' : prog) : Prop :=
  p_insns p' = p_insns p /\ p_prev p' = p_prev p /\ p_row p' = p_row p /\ p_in_seq p' = p_in_seq p /\
  p_enc p' = p_enc p /\ p_lenc p' = p_lenc p.

Lemma add_directory_same_rows p d p' id : add_directory p d = Ok (p', id) -> same_rows p p'.
Proof.
  unfold add_directory. intros H. apply bind_ok in H. destruct H as (u & _ & H).
  destruct (dir_find (p_dirs p) d 0); inversion H; subst; unfold same_rows; cbn; repeat split.
Qed.

Lemma add_file_same_rows p f dir info p' id : add_file p f dir info = Ok (p', id) -> same_rows p p'.
Proof.
  unfold add_file. intros H. apply bind_ok in H. destruct H as (u & _ & H).
  destruct (file_find (p_files p) (f, dir) 0); destruct info; inversion H; subst;
    unfold same_rows; cbn; repeat split.
Qed.

Lemma set_flags_same_rows a b c d p : same_rows p (set_flags a b c d p).
Proof. unfold same_rows; cbn; repeat split. Qed.

(* a program on which no row call has been made yet *)
Definition fresh_prog (e : enc) (l : lenc) (p : prog) : Prop :=
  p_insns p = [] /\ p_prev p = wrow_initial e l /\ p_in_seq p = false /\ p_enc p = e /\ p_lenc p = l.

Lemma lp_new_fresh dbg e l wd sd sf info p : lp_new dbg e l wd sd sf info = Ok p -> fresh_prog e l p.
Proof.
  unfold lp_new. intros H.
  destruct (negb (le_line_base l <=? 0)%Z); [discriminate|].
  destruct (negb (0 <? le_line_base l + Z.of_N (le_line_range l))%Z); [discriminate|].
  apply bind_ok in H. destruct H as ([p1 wdid] & H1 & H).
  apply add_directory_same_rows in H1. destruct H1 as (I1 & P1 & _ & S1 & E1 & L1). cbn in I1, P1, S1, E1, L1.
  destruct (5 <=? e_version e)%N.
  - apply bind_ok in H. destruct H as ([p2 sdid] & H2 & H).
    assert (R2 : same_rows p1 p2).
    { destruct sd as [d|]; [eapply add_directory_same_rows; exact H2|].
      inversion H2; subst. unfold same_rows; repeat split. }
    apply bind_ok in H. destruct H as ([p3 fid] & H3 & H). inversion H; subst p3.
    apply add_file_same_rows in H3.
    destruct R2 as (I2 & P2 & _ & S2 & E2 & L2). destruct H3 as (I3 & P3 & _ & S3 & E3 & L3).
    unfold fresh_prog. repeat split; congruence.
  - inversion H; subst p1. repeat split; assumption.
Qed.

(* Instruction-level round trip of whole programs: for every documented encoding in the exact range of
   advance_correct and every script of writer calls that respects script_ok, the writer succeeds, every
   special opcode it emits is a byte in 13..255, and executing the emitted instructions on the DWARF
   state machine yields exactly the rows the script means. *)
Lemma fresh_rows_correct dbg e l p ops :
  enc_ok l -> (e_version e <= 5)%N -> fresh_prog e l p ->
  script_ok e l (wrow_initial e l) false ops ->
  exists p',
    apply_rops dbg p ops = Ok p' /\
    Forall special_ok (p_insns p') /\
    rows_of (params_of l) (map (denote (e_version e)) (p_insns p')) =
      fst (meaning (e_version e) (params_of l) (init_regs (params_of l), 0%N) ops).
Proof.
  intros Hok Hver (Ins & Prev & Seq & Enc & Lenc) Hscript.
  destruct (script_correct dbg ops p (init_regs (params_of l))) as (p' & new & Eap & Eins & _ & _ & Fnew & Rnew).
  - rewrite Lenc; exact Hok.
  - rewrite Enc; exact Hver.
  - rewrite Enc, Prev. apply seq_reset. exact Hver.
  - rewrite Enc, Lenc, Prev, Seq. exact Hscript.
  - exists p'. split; [exact Eap|]. rewrite Eins, Ins. cbn [app]. split; [exact Fnew|].
    unfold rows_of. rewrite Enc, Lenc, Prev in Rnew. rewrite Rnew. reflexivity.
Qed.

(* the harness operations are these writer calls *)
Lemma run_op_row dbg st r f :
  match rs_file r with None => Ok (w_file (p_row (st_prog st)))
                     | Some h => unwrap (nth_error (st_fids st) (N.to_nat h)) end = Ok f ->
  run_op dbg st (ORow r) =
  (let* p' := apply_rop dbg (st_prog st)
                (RRow (mkWrow (rs_address_offset r) (rs_op_index r) f (rs_line r) (rs_column r)
                              (rs_discriminator r) (rs_is_statement r) (rs_basic_block r)
                              (rs_prologue_end r) (rs_epilogue_begin r) (rs_isa r))) in
   Ok (mkSstate p' (st_ls st) (st_ss st) (st_dids st) (st_fids st))).
Proof. intros H. unfold run_op. rewrite H. reflexivity. Qed.

Lemma run_op_begin dbg st a :
  run_op dbg st (OBegin (option_map AConst a)) =
  (let* p' := apply_rop dbg (st_prog st) (RBegin a) in
   Ok (mkSstate p' (st_ls st) (st_ss st) (st_dids st) (st_fids st))).
Proof. reflexivity. Qed.

Lemma run_op_set_address dbg st a :
  run_op dbg st (OSetAddr (AConst a)) =
  (let* p' := apply_rop dbg (st_prog st) (RSetAddr a) in
   Ok (mkSstate p' (st_ls st) (st_ss st) (st_dids st) (st_fids st))).
Proof. reflexivity. Qed.

Definition enc_v4 : enc := mkEnc false 4 8.
Definition lenc_vliw : lenc := mkLenc 1 2 true (-5) 14.
Definition lenc_default : lenc := mkLenc 1 1 true (-5) 14.
Definition prow (ao opi line : N) : wrow := mkWrow ao opi 0 line 0 0 true false false false 0.
Definition fresh (l : lenc) : prog :=
  mkProg enc_v4 l [LStr [x64]] [] false false false false (wrow_initial enc_v4 l) (wrow_initial enc_v4 l) [] false.

(* non-vacuity: a script that satisfies script_ok: two sequences, VLIW, a mid-sequence set_address in the
   middle of a VLIW instruction (op_index 1), line numbers 2^64-1 and back (line deltas beyond i64) *)
Definition ops_example : list rop :=
  [RBegin (Some 4096%N); RRow (prow 0 0 7); RRow (prow 3 1 18446744073709551615); RSetAddr 8192;
   RRow (prow 4 0 2); RRow (prow 10 1 2); REnd 12 0; RSetAddr 100; RRow (prow 0 0 1); REnd 1 1].
