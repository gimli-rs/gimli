(* The instruction lists the line writer emits are well-formed programs of the line
   READER's specification (Spec/LineSpec.v: prog_wf) and mean the same rows there as in Spec/LineAdvSpec.v;
   with C04's rows_refine_spec this gives: LineRd.rows_model over the written program = meaning of the
   script. Part of property C13. *)
From Coq Require Import List NArith ZArith Bool Lia ZifyBool ZifyN ZifyNat.
From Coq.Strings Require Import Byte.
Require Import GV.Base.Res GV.Base.Byt GV.Base.Ints GV.Model.Leb GV.Model.Prim.
Require Import GV.Spec.LineSpec GV.Model.LineRd GV.Proofs.LineRdRefine GV.Proofs.LineRdInsn.
Require GV.Spec.LineAdvSpec GV.Model.LineWr GV.Proofs.LineWrProofs GV.Proofs.LineWrSeqProofs.
Require Import GV.Proofs.LineRtBytes.
Import ListNotations.

Module A := GV.Spec.LineAdvSpec.
Module P1 := GV.Proofs.LineWrProofs.
Module P2 := GV.Proofs.LineWrSeqProofs.

Local Open Scope Z_scope.

Definition r2s (r : A.regs) : sregs :=
  mk_sregs (A.r_address r) (A.r_op_index r) (A.r_file r) (A.r_line r) (A.r_column r) (A.r_is_stmt r)
           (A.r_basic_block r) (A.r_end_sequence r) (A.r_prologue_end r) (A.r_epilogue_begin r)
           (A.r_isa r) (A.r_discriminator r).

(* rows and final registers of the reader's specification machine *)
Fixpoint srun (h : header) (s : sregs) (is : list insn) : list sregs * sregs :=
  match is with
  | [] => ([], s)
  | i :: tl =>
      let '(s', r) := exec_spec h s i in
      let '(rows, sf) := srun h s' tl in
      (match r with Some x => x :: rows | None => rows end, sf)
  end.

Lemma srun_rows h : forall is s, rows_from h s is = fst (srun h s is).
Proof.
  induction is as [|i is IH]; intros s; [reflexivity|]. cbn [rows_from srun].
  destruct (exec_spec h s i) as [s' [x|]]; rewrite IH; destruct (srun h s' is); reflexivity.
Qed.

Lemma srun_app h : forall a b s,
  srun h s (a ++ b) = let '(r1, s1) := srun h s a in let '(r2, s2) := srun h s1 b in (r1 ++ r2, s2).
Proof.
  induction a as [|i a IH]; intros b s; cbn [app srun].
  - destruct (srun h s b); reflexivity.
  - destruct (exec_spec h s i) as [s' [x|]]; rewrite IH; destruct (srun h s' a) as [r1 s1];
      destruct (srun h s1 b) as [r2 s2]; reflexivity.
Qed.

Lemma prog_wf_from_app h : forall a b s,
  prog_wf_from h s (a ++ b) = prog_wf_from h s a && prog_wf_from h (snd (srun h s a)) b.
Proof.
  induction a as [|i a IH]; intros b s; cbn [app prog_wf_from srun]; [reflexivity|].
  rewrite IH. destruct (exec_spec h s i) as [s' [x|]]; cbn [fst]; destruct (srun h s' a); cbn [snd];
    now rewrite andb_assoc.
Qed.

Definition nosym (i : W.linsn) : Prop :=
  match i with W.ISetAddress (W.ASym _ _) => False | _ => True end.

Lemma exec_iso e l h i r :
  hdr_matches e l h -> nosym i -> A.r_end_sequence r = false ->
  exec_spec h (r2s r) (tr (W.e_version e) i) =
  (r2s (snd (A.step (W.params_of l) (W.denote (W.e_version e) i) r)),
   match fst (A.step (W.params_of l) (W.denote (W.e_version e) i) r) with
   | [x] => Some (r2s x) | _ => None end).
Proof.
  intros (Hv & Ha & Hm & Ho & Hd & Hb & Hr & Hob & Hs) Hn He.
  destruct r as [addr opi file line col stmt bb es pe eb isa disc]. cbn in He. subst es.
  (* instruction by instruction both machines compute the same record once the header fields are replaced
     by the writer's parameters; only a symbolic DW_LNE_set_address has no translation *)
  destruct i; try (destruct a as [a|s ad]; [|contradiction]);
    cbn [tr W.denote A.step A.exec exec_spec]; unfold r2s, A.after_row; cbn;
    unfold s_advance, s_add_line, s_after_row, sp_op_adv, sp_line_inc, adjusted, s_init,
           A.special_op_adv, A.special_line_adv, A.init_regs; cbn;
    rewrite ?Hm, ?Ho, ?Hr, ?Hob, ?Hb, ?Hd; reflexivity.
Qed.

Lemma step_end_false p i r : A.r_end_sequence r = false ->
  A.r_end_sequence (snd (A.step p i r)) = false.
Proof.
  intros He. destruct r as [addr opi file line col stmt bb es pe eb isa disc]. cbn in He. subst es.
  destruct i; reflexivity.
Qed.

Lemma step_rows_shape p i r : match fst (A.step p i r) with [] | [_] => True | _ => False end.
Proof. unfold A.step. destruct (A.exec p i r) as [r' []]; exact I. Qed.

Lemma srun_iso e l h : forall is r rows r',
  hdr_matches e l h -> Forall nosym is -> A.r_end_sequence r = false ->
  A.run (W.params_of l) (map (W.denote (W.e_version e)) is) r = (rows, r') ->
  srun h (r2s r) (map (tr (W.e_version e)) is) = (map r2s rows, r2s r') /\ A.r_end_sequence r' = false.
Proof.
  induction is as [|i is IH]; intros r rows r' Hm Hn He Hrun.
  - cbn in Hrun. inversion Hrun; subst. split; [reflexivity|exact He].
  - inversion Hn as [|x xs Hi His]; subst. cbn [map A.run srun] in *.
    rewrite (exec_iso e l h i r Hm Hi He).
    pose proof (step_rows_shape (W.params_of l) (W.denote (W.e_version e) i) r) as Hsh.
    pose proof (step_end_false (W.params_of l) (W.denote (W.e_version e) i) r He) as He1.
    destruct (A.step (W.params_of l) (W.denote (W.e_version e) i) r) as [rows1 r1]. cbn [fst snd] in *.
    destruct (A.run (W.params_of l) (map (W.denote (W.e_version e)) is) r1) as [rows2 r2] eqn:E2.
    inversion Hrun; subst.
    destruct (IH r1 rows2 r' Hm His He1 E2) as [IH1 IH2]. rewrite IH1. split; [|exact IH2].
    destruct rows1 as [|x [|y t]]; [reflexivity|reflexivity|contradiction].
Qed.

Definition bounds (h : header) (s : sregs) : Prop :=
  0 <= s_address s <= addr_mask h /\ 0 <= s_line s < two64z.

Definition bounds_b (h : header) (s : sregs) : bool :=
  (0 <=? s_address s) && (s_address s <=? addr_mask h) && (0 <=? s_line s) && (s_line s <? two64z).

Lemma bounds_b_true h s : bounds h s -> bounds_b h s = true.
Proof. intros [[? ?] [? ?]]. repeat (apply andb_true_intro; split); lia. Qed.

Lemma bounds_init h lp : bounds h (r2s (A.init_regs lp)).
Proof.
  split; [|cbn; unfold two64z; lia]. change (s_address (r2s (A.init_regs lp))) with 0. unfold addr_mask.
  assert (0 < 2 ^ (8 * Z.of_N (h_addr_size h))) by (apply Z.pow_pos_nonneg; lia). lia.
Qed.

(* instructions that touch neither the address, the op_index nor the line *)
Definition neutral (i : insn) : Prop :=
  match i with
  | ISetFile _ | ISetColumn _ | INegateStmt | ISetBasicBlock | ISetPrologueEnd | ISetEpilogueBegin
  | ISetIsa _ | ISetDiscriminator _ => True
  | _ => False
  end.

Lemma neutral_step h s i : neutral i -> bounds h s -> insn_wf h i = true ->
  step_wf h s i = true /\ bounds h (fst (exec_spec h s i)).
Proof.
  intros Hn Hb Hw. pose proof (bounds_b_true h s Hb) as Hc.
  destruct i; try contradiction; unfold step_wf; cbn [exec_spec fst s_address s_line]; rewrite Hw;
    (split; [cbn [andb]; rewrite ?andb_true_r; exact Hc | exact Hb]).
Qed.

Lemma neutral_wf h : forall is s, Forall neutral is -> bounds h s -> forallb (insn_wf h) is = true ->
  prog_wf_from h s is = true.
Proof.
  induction is as [|i is IH]; intros s Hn Hb Hw; [reflexivity|].
  inversion Hn as [|x xs Hi His]; subst. cbn [forallb] in Hw. apply andb_true_iff in Hw as [Hw1 Hw2].
  destruct (neutral_step h s i Hi Hb Hw1) as [Hs Hb']. cbn [prog_wf_from]. rewrite Hs. cbn [andb].
  apply IH; assumption.
Qed.

(* the address never decreases under an operation advance >= 0 *)
Lemma s_advance_mono h s n : pwf h -> 0 <= n -> 0 <= s_op_index s ->
  s_address s <= s_address (s_advance h n s) /\ 0 <= s_op_index (s_advance h n s) < Z.of_N (h_max_ops h) /\
  s_line (s_advance h n s) = s_line s.
Proof.
  intros [Hmil Hmops _ _ _ _ _] Hn Ho. unfold s_advance. cbn.
  assert (0 <= (s_op_index s + n) / Z.of_N (h_max_ops h)) by (apply Z.div_pos; lia).
  assert (0 <= Z.of_N (h_min_inst_len h) * ((s_op_index s + n) / Z.of_N (h_max_ops h)))
    by (apply Z.mul_nonneg_nonneg; lia).
  split; [lia|]. split; [apply Z.mod_pos_bound; lia|reflexivity].
Qed.

Lemma sp_op_adv_nonneg h v : pwf h -> Z.of_N (h_opcode_base h) <= v -> 0 <= sp_op_adv h v.
Proof. intros [_ _ Hlr _ _ _ _] Hv. unfold sp_op_adv, adjusted. apply Z.div_pos; lia. Qed.

Definition extra_ok (h : header) (s : sregs) (i : insn) : bool :=
  match i with
  | IAdvancePc n => (s_op_index s + Z.of_N n <? two64z)
  | ISetAddress a => (s_address s <=? Z.of_N a) && (Z.of_N a <? addr_mask h - 1)
  | ISpecial op => (0 <=? s_line s + sp_line_inc h (Z.of_N op))
  | _ => true
  end.

Lemma step_wf_eq h s i :
  step_wf h s i = insn_wf h i && bounds_b h (fst (exec_spec h s i)) && extra_ok h s i.
Proof.
  unfold step_wf, bounds_b, extra_ok. destruct (exec_spec h s i) as [s' o]. cbn [fst].
  rewrite !andb_assoc. reflexivity.
Qed.

Lemma bounds_b_after_row h x : bounds_b h (s_after_row x) = bounds_b h x.
Proof. reflexivity. Qed.

Lemma s_add_line_add a b s : s_add_line a (s_add_line b s) = s_add_line (b + a) s.
Proof. unfold s_add_line. cbn. f_equal. lia. Qed.

Lemma s_add_line_0 s : s_add_line 0 s = s.
Proof. destruct s. unfold s_add_line. cbn. f_equal. lia. Qed.

Section WithHeader.
Variables (e : W.enc) (l : W.lenc) (h : header).
Hypothesis HM : hdr_matches e l h.
Hypothesis HP : enc_params_ok e l.

Let ver := W.e_version e.
Let P : pwf h := hdr_matches_pwf e l h HM HP.

Lemma ob13 : h_opcode_base h = 13%N.
Proof. pose proof HM as (_ & _ & _ & _ & _ & _ & _ & H & _). exact H. Qed.

Lemma std_known_ok k : (k < 13)%N -> std_known h k = true.
Proof. intros H. unfold std_known. rewrite ob13. apply N.ltb_lt. exact H. Qed.

Lemma advline_step s z :
  (-9223372036854775808 <= z < 9223372036854775808) -> bounds h s -> 0 <= s_line s + z < two64z ->
  step_wf h s (IAdvanceLine z) = true.
Proof.
  intros Hz [Ha Hl] Hl'. rewrite step_wf_eq. cbn [insn_wf exec_spec fst extra_ok].
  rewrite std_known_ok by lia. unfold bounds_b, s_add_line. cbn.
  repeat (apply andb_true_intro; split); lia.
Qed.

Lemma advpc_step s n :
  (n < 18446744073709551616)%N -> bounds h s -> 0 <= s_op_index s ->
  s_op_index s + Z.of_N n < two64z -> s_address (s_advance h (Z.of_N n) s) <= addr_mask h ->
  step_wf h s (IAdvancePc n) = true.
Proof.
  intros Hn [Ha Hl] Ho Hw Hm. rewrite step_wf_eq. cbn [insn_wf exec_spec fst extra_ok].
  rewrite std_known_ok by lia.
  destruct (s_advance_mono h s (Z.of_N n) P ltac:(lia) Ho) as (Hmono & _ & Hline).
  unfold bounds_b, u64b. rewrite Hline.
  repeat (apply andb_true_intro; split); lia.
Qed.

Lemma constadd_step s :
  bounds h s -> 0 <= s_op_index s -> s_address (s_advance h (sp_op_adv h 255) s) <= addr_mask h ->
  step_wf h s IConstAddPc = true.
Proof.
  intros [Ha Hl] Ho Hm. rewrite step_wf_eq. cbn [insn_wf exec_spec fst extra_ok].
  rewrite std_known_ok by lia.
  assert (Hk : 0 <= sp_op_adv h 255) by (apply sp_op_adv_nonneg; [exact P|rewrite ob13; lia]).
  destruct (s_advance_mono h s _ P Hk Ho) as (Hmono & _ & Hline).
  unfold bounds_b. rewrite Hline. repeat (apply andb_true_intro; split); lia.
Qed.

Lemma special_step s v :
  (13 <= v < 256)%N -> bounds h s -> 0 <= s_op_index s ->
  bounds h (s_advance h (sp_op_adv h (Z.of_N v)) (s_add_line (sp_line_inc h (Z.of_N v)) s)) ->
  step_wf h s (ISpecial v) = true.
Proof.
  intros Hv [Ha Hl] Ho Hb. rewrite step_wf_eq. cbn [insn_wf exec_spec fst extra_ok]. rewrite ob13.
  rewrite bounds_b_after_row, (bounds_b_true _ _ Hb).
  destruct Hb as [_ Hl']. unfold s_advance, s_add_line in Hl'. cbn in Hl'.
  repeat (apply andb_true_intro; split); lia.
Qed.

Lemma copy_step s : bounds h s -> step_wf h s ICopy = true.
Proof.
  intros Hb. rewrite step_wf_eq. cbn [insn_wf exec_spec fst extra_ok]. rewrite std_known_ok by lia.
  unfold s_after_row, bounds_b. cbn. destruct Hb as [Ha Hl]. repeat (apply andb_true_intro; split); lia.
Qed.

Lemma endseq_step s : step_wf h s IEndSequence = true.
Proof.
  rewrite step_wf_eq. cbn [insn_wf exec_spec fst extra_ok]. unfold bounds_b, s_init. cbn.
  pose proof P as [_ _ _ _ Hs _ _]. unfold addr_mask.
  assert (0 <= 2 ^ (8 * Z.of_N (h_addr_size h)) - 1) by (pose proof (Z.pow_pos_nonneg 2 (8 * Z.of_N (h_addr_size h))); lia).
  repeat (apply andb_true_intro; split); try lia; reflexivity.
Qed.

Lemma setaddr_step s a :
  bounds h s -> s_address s <= Z.of_N a < addr_mask h - 1 ->
  step_wf h s (ISetAddress a) = true.
Proof.
  intros [Ha Hl] Hr. rewrite step_wf_eq. cbn [insn_wf exec_spec fst extra_ok].
  pose proof HP as (Hsz & _). pose proof HM as (_ & Hasz & _).
  assert (E : ((h_addr_size h =? 1) || (h_addr_size h =? 2) || (h_addr_size h =? 4) || (h_addr_size h =? 8))%N = true)
    by (rewrite Hasz; destruct Hsz as [-> | [-> | [-> | ->]]]; reflexivity).
  rewrite E. unfold bounds_b. cbn. repeat (apply andb_true_intro; split); lia.
Qed.


(* the DW_LNS_advance_line chunks of a line delta beyond i64: every chunk moves the line towards its
   final value, so it stays a u64 on the way *)
Lemma chunks_wf : forall f delta chunks d, W.line_chunks f delta = Ok (chunks, d) ->
  forall s, bounds h s -> 0 <= s_line s + delta < two64z ->
  prog_wf_from h s (map (tr ver) chunks) = true /\
  srun h s (map (tr ver) chunks) = ([], s_add_line (delta - d) s) /\
  Forall (insn_enc_ok e) chunks /\ Forall nosym chunks /\
  bounds h (s_add_line (delta - d) s) /\ P1.i64 d.
Proof.
  intros f delta chunks d H. pattern delta, chunks, d. revert f delta chunks d H. apply P2.line_chunks_ind.
  - intros d Hd s Hb _. cbn [map prog_wf_from srun]. rewrite Z.sub_diag, s_add_line_0.
    repeat split; try constructor; try apply Hb; apply Hd.
  - intros delta c chunks d Hc IH s Hb Hl.
    assert (Hci : P1.i64 c /\ 0 <= s_line s + c < two64z)
      by (destruct Hb as [_ Hl0]; unfold P1.i64, W.I64_MAX, W.I64_MIN, two64z in *; lia).
    destruct Hci as [Hci Hlc].
    assert (Hb1 : bounds h (s_add_line c s)) by (split; [apply Hb|exact Hlc]).
    destruct (IH (s_add_line c s) Hb1) as (W1 & R1 & E1 & N1 & B1 & D1); [cbn; lia|].
    rewrite s_add_line_add in R1, B1. replace (c + (delta - c - d)) with (delta - d) in R1, B1 by lia.
    cbn [map tr prog_wf_from srun exec_spec fst].
    rewrite (advline_step s c Hci Hb Hlc), W1, R1.
    split; [reflexivity|]. split; [reflexivity|]. split; [constructor; [exact Hci|exact E1]|].
    split; [constructor; [exact I|exact N1]|]. split; assumption.
Qed.


(* the row-emitting instruction at the end *)
Lemma fin_wf S2 fin Frow sf :
  (fin = [W.ICopy] \/ exists v, (13 <= v <= 255)%N /\ fin = [W.ISpecial v]) ->
  0 <= s_address S2 -> 0 <= s_line S2 < two64z -> 0 <= s_op_index S2 ->
  srun h S2 (map (tr ver) fin) = ([Frow], sf) -> bounds h Frow ->
  prog_wf_from h S2 (map (tr ver) fin) = true /\ s_address S2 <= s_address Frow.
Proof.
  intros Hfin Ha Hl Ho Hrun HbF. destruct Hfin as [-> | (v & Hv & ->)]; cbn [map tr srun exec_spec] in Hrun;
    inversion Hrun; subst Frow; cbn [map tr prog_wf_from].
  - rewrite (copy_step S2 HbF). split; [reflexivity|lia].
  - assert (Hk : 0 <= sp_op_adv h (Z.of_N v))
      by (apply sp_op_adv_nonneg; [exact P | rewrite ob13; lia]).
    destruct (s_advance_mono h (s_add_line (sp_line_inc h (Z.of_N v)) S2) _ P Hk Ho) as (Hmono & _).
    cbn [s_add_line s_address] in Hmono.
    assert (Hb2 : bounds h S2) by (split; [destruct HbF as [[_ Hm] _]; lia | exact Hl]).
    rewrite (special_step S2 v ltac:(lia) Hb2 Ho HbF).
    split; [reflexivity|exact Hmono].
Qed.

(* an operation advance by n >= 0 followed by the row-emitting instruction: the address only grows towards
   that of the row, so the advance is in bounds as soon as the row is *)
Lemma adv_fin_wf S1 i n fin Frow sf :
  exec_spec h S1 i = (s_advance h n S1, None) -> 0 <= n ->
  (fin = [W.ICopy] \/ exists v, (13 <= v <= 255)%N /\ fin = [W.ISpecial v]) ->
  0 <= s_address S1 -> 0 <= s_line S1 < two64z -> 0 <= s_op_index S1 ->
  srun h S1 (i :: map (tr ver) fin) = ([Frow], sf) -> bounds h Frow ->
  (bounds h S1 -> s_address (s_advance h n S1) <= addr_mask h -> step_wf h S1 i = true) ->
  prog_wf_from h S1 (i :: map (tr ver) fin) = true.
Proof.
  intros Ex Hn Hfin Ha Hl Ho Hrun HbF Hstep. pose proof HbF as [[_ HmF] _].
  cbn [srun prog_wf_from] in *. rewrite Ex in *. cbn [fst].
  set (S2 := s_advance h n S1) in *.
  destruct (s_advance_mono h S1 n P Hn Ho) as (Hmono & Ho2 & Hl2). fold S2 in Hmono, Ho2, Hl2.
  destruct (srun h S2 (map (tr ver) fin)) as [rows2 sf2] eqn:E2. injection Hrun as -> ->.
  destruct (fin_wf S2 fin Frow sf Hfin ltac:(lia) ltac:(rewrite Hl2; exact Hl) ltac:(lia) E2 HbF) as [W2 Hle].
  rewrite W2, Hstep; [reflexivity | split; [split; lia | exact Hl] | lia].
Qed.

(* the operation-advance instruction (if any) followed by the row-emitting one *)
Lemma tail_wf S1 mid fin oadv Frow sf :
  (mid = [] \/ mid = [W.IConstAddPc] \/ mid = [W.IAdvancePc oadv]) ->
  (fin = [W.ICopy] \/ exists v, (13 <= v <= 255)%N /\ fin = [W.ISpecial v]) ->
  (oadv < 18446744073709551616)%N ->
  0 <= s_address S1 -> 0 <= s_line S1 < two64z -> 0 <= s_op_index S1 ->
  s_op_index S1 + Z.of_N oadv < two64z ->
  srun h S1 (map (tr ver) (mid ++ fin)) = ([Frow], sf) -> bounds h Frow ->
  prog_wf_from h S1 (map (tr ver) (mid ++ fin)) = true.
Proof.
  intros Hmid Hfin Hoadv Ha Hl Ho Hw Hrun HbF.
  destruct Hmid as [-> | [-> | ->]]; cbn [app map tr] in *.
  - destruct (fin_wf S1 fin Frow sf Hfin Ha Hl Ho Hrun HbF) as [W1 _]. exact W1.
  - apply (adv_fin_wf S1 IConstAddPc (sp_op_adv h 255) fin Frow sf); try assumption; try reflexivity.
    + apply sp_op_adv_nonneg; [exact P | rewrite ob13; lia].
    + intros Hb1 Hm2. exact (constadd_step S1 Hb1 Ho Hm2).
  - apply (adv_fin_wf S1 (IAdvancePc oadv) (Z.of_N oadv) fin Frow sf); try assumption; try reflexivity; [lia|].
    intros Hb1 Hm2. exact (advpc_step S1 oadv Hoadv Hb1 Ho Hw Hm2).
Qed.

Lemma advance_wf dbg ladv oadv insns r :
  P1.enc_ok l -> P1.i64 ladv -> (oadv < 18446744073709551616)%N ->
  W.advance_insns dbg l ladv oadv = Ok insns ->
  P1.regs_ok (W.params_of l) r -> A.r_end_sequence r = false ->
  bounds h (r2s r) ->
  bounds h (r2s (A.op_adv (W.params_of l) (Z.of_N oadv) (A.line_adv ladv r))) ->
  A.r_op_index r + Z.of_N oadv < two64z ->
  prog_wf_from h (r2s r) (map (tr ver) insns) = true /\ Forall (insn_enc_ok e) insns /\ Forall nosym insns.
Proof.
  intros Hok Hl Hoadv Hadv Hreg Hend Hb HbF Hw.
  destruct (P1.advance_parts dbg l ladv oadv Hok Hl) as (pre & mid & fin & E & Hpre & Hmid & Hfin & Run).
  rewrite Hadv in E. injection E as ->.
  specialize (Run ver r Hreg).
  set (F := A.op_adv (W.params_of l) (Z.of_N oadv) (A.line_adv ladv r)) in *.
  assert (Hns : Forall nosym (pre ++ mid ++ fin)).
  { apply Forall_app; split; [|apply Forall_app; split].
    - destruct Hpre as [-> | ->]; repeat constructor.
    - destruct Hmid as [-> | [-> | ->]]; repeat constructor.
    - destruct Hfin as [-> | (v & _ & ->)]; repeat constructor. }
  assert (Hen : Forall (insn_enc_ok e) (pre ++ mid ++ fin)).
  { apply Forall_app; split; [|apply Forall_app; split].
    - destruct Hpre as [-> | ->]; [constructor | constructor; [exact Hl|constructor]].
    - destruct Hmid as [-> | [-> | ->]];
        [constructor | constructor; [exact I|constructor] | constructor; [exact Hoadv|constructor]].
    - destruct Hfin as [-> | (v & Hv & ->)]; (constructor; [cbn; try exact I; lia | constructor]). }
  split; [|split; assumption].
  destruct (srun_iso e l h _ r _ _ HM Hns Hend Run) as [Iso _]. fold ver in Iso. cbn [map] in Iso.
  pose proof Hb as [[Ha0 _] Hl0].
  assert (HlF : s_line (r2s F) = s_line (r2s r) + ladv) by reflexivity.
  pose proof Hreg as [Ho0 _].
  destruct Hpre as [-> | ->]; cbn [app] in *.
  - eapply tail_wf; try eassumption.
  - cbn [map tr srun exec_spec] in Iso. cbn [map tr prog_wf_from exec_spec fst].
    destruct (srun h (s_add_line ladv (r2s r)) (map (tr ver) (mid ++ fin))) as [rows2 sf2] eqn:E2.
    inversion Iso; subst rows2 sf2.
    rewrite (advline_step (r2s r) ladv) by
      (try exact Hl; try exact Hb; destruct HbF as [_ HlFb]; rewrite HlF in HlFb; exact HlFb).
    cbn [andb].
    eapply (tail_wf (s_add_line ladv (r2s r))); try eassumption; try exact Ha0; try exact Ho0; try exact Hw.
    destruct HbF as [_ HlFb]. rewrite HlF in HlFb. exact HlFb.
Qed.

End WithHeader.
