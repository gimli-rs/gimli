(* Proofs/ConvertExprNormal.v — C12, expressions, normal form of one operation: the operation a reader reports
   for the written form (C15 normal_form) of a converted operation converts to the same write operation again. *)
From Coq Require Import List NArith ZArith Bool Lia ZifyBool ZifyN ZifyNat Sorted.
From Coq.Strings Require Import Byte.
Require Import GV.Base.Res GV.Base.Byt GV.Base.Ints GV.Model.Leb GV.Model.Prim.
Require Import GV.Spec.OpEncSpec GV.Model.OpWr GV.Model.OpDec GV.Model.ConvertExpr.
Require Import GV.Proofs.Lib GV.Proofs.OpWrProofs GV.Proofs.OpWrDec GV.Proofs.ConvertExprProofs.
Import ListNotations.
Local Open Scope N_scope.

(* the read::Operation a reader reports for a decoded operation (the two vocabularies are parallel; the operand-less
   opcodes are the ones Expression::from emits through Operation::Simple) *)
Definition simple_op (opc : N) : option operation :=
  if opc =? 19 then Some ODrop else if opc =? 22 then Some OSwap else if opc =? 23 then Some ORot
  else if opc =? 25 then Some OAbs else if opc =? 26 then Some OAnd else if opc =? 27 then Some ODiv
  else if opc =? 28 then Some OMinus else if opc =? 29 then Some OMod else if opc =? 30 then Some OMul
  else if opc =? 31 then Some ONeg else if opc =? 32 then Some ONot else if opc =? 33 then Some OOr
  else if opc =? 34 then Some OPlus else if opc =? 36 then Some OShl else if opc =? 37 then Some OShr
  else if opc =? 38 then Some OShra else if opc =? 39 then Some OXor else if opc =? 41 then Some OEq
  else if opc =? 42 then Some OGe else if opc =? 43 then Some OGt else if opc =? 44 then Some OLe
  else if opc =? 45 then Some OLt else if opc =? 46 then Some ONe else if opc =? 150 then Some ONop
  else if opc =? 151 then Some OPushObjectAddress else if opc =? 155 then Some OTLS
  else if opc =? 156 then Some OCallFrameCFA else if opc =? 159 then Some OStackValue
  else if opc =? 240 then Some OUninitialized else None.

Definition op_of_dop (d : dop) : option operation :=
  match d with
  | DoSimple opc => simple_op opc
  | DoAddress a => Some (OAddress a)
  | DoUConst v => Some (OUnsignedConstant v)
  | DoSConst v => Some (OSignedConstant v)
  | DoPick i => Some (OPick i)
  | DoDeref b s sp => Some (ODeref b s sp)
  | DoPlusConst v => Some (OPlusConstant v)
  | DoBra t => Some (OBra t)
  | DoSkip t => Some (OSkip t)
  | DoRegister r => Some (ORegister r)
  | DoRegOffset r off b => Some (ORegisterOffset r off b)
  | DoFrameOffset off => Some (OFrameOffset off)
  | DoPiece bits bo => Some (OPiece bits bo)
  | DoCallUnit off => Some (OCall (UnitRef off))
  | DoCallRef off => Some (OCall (DebugInfoRef off))
  | DoVarValue off => Some (OVariableValue off)
  | DoImplicitValue data => Some (OImplicitValue data)
  | DoImplicitPointer off bo => Some (OImplicitPointer off bo)
  | DoAddrIndex i => Some (OAddressIndex i)
  | DoConstIndex i => Some (OConstantIndex i)
  | DoEntryValue x => Some (OEntryValue x)
  | DoParameterRef off => Some (OParameterRef off)
  | DoTypedLiteral b v => Some (OTypedLiteral b v)
  | DoConvert b => Some (OConvert b)
  | DoReinterpret b => Some (OReinterpret b)
  | DoWasmLocal i => Some (OWasmLocal i)
  | DoWasmGlobal i => Some (OWasmGlobal i)
  | DoWasmStack i => Some (OWasmStack i)
  end.

(* operations whose written form holds a .debug_info reference: the decoded value is the placeholder until the
   fix-ups are applied (C15 fixup_resolved); outside this statement *)
Definition info_ref_free (o : operation) : bool :=
  match o with
  | OCall (DebugInfoRef _) | OVariableValue _ | OImplicitPointer _ _ => false
  | _ => true
  end.

Definition is_branch (o : operation) : bool := match o with OBra _ | OSkip _ => true | _ => false end.

Lemma index_of_sorted x : forall l i k,
  StronglySorted N.lt l -> nth_error l k = Some x -> index_of x l i = Some (i + N.of_nat k).
Proof.
  induction l as [|y r IH]; intros i k Hs Hk; [destruct k; discriminate|].
  apply StronglySorted_inv in Hs. destruct Hs as [Hs Hall]. cbn [index_of].
  destruct k as [|k]; cbn [nth_error] in Hk.
  - inversion Hk; subst. replace (x =? x) with true by lia. f_equal. lia.
  - assert (y < x). { eapply Forall_nth_error; eauto. }
    replace (y =? x) with false by lia. rewrite (IH (i + 1) k Hs Hk). f_equal. lia.
Qed.

(* the displacement the writer stored, added in usize arithmetic to the offset after the operation, is the offset
   of the target operation *)
Lemma branch_offset_back (wpos tv base : N) (disp : Z) :
  base <= wpos -> base <= tv -> wpos + 3 < 2 ^ 63 -> tv < 2 ^ 63 ->
  (Z.of_N wpos + 3 + disp = Z.of_N tv)%Z ->
  wrap64 (wpos + 3 - base + of_i64 disp) = tv - base.
Proof.
  intros H1 H2 H3 H4 Hd. unfold wrap64, of_i64, of_signed, two64.
  change (2 ^ 64) with 18446744073709551616. change (2 ^ 63) with 9223372036854775808 in *.
  change (Z.of_N 18446744073709551616) with 18446744073709551616%Z.
  assert (Hdisp : disp = (Z.of_N tv - Z.of_N wpos - 3)%Z) by lia.
  assert (Hm : (0 <= disp mod 18446744073709551616 < 18446744073709551616)%Z) by (apply Z.mod_pos_bound; lia).
  assert (Hq : disp = (18446744073709551616 * (disp / 18446744073709551616) + disp mod 18446744073709551616)%Z)
    by (apply Z.div_mod; lia).
  apply N2Z.inj. rewrite N2Z.inj_mod. rewrite N2Z.inj_add, Z2N.id by lia.
  rewrite !N2Z.inj_sub by lia. rewrite N2Z.inj_add. change (Z.of_N 3) with 3%Z.
  change (Z.of_N 18446744073709551616) with 18446744073709551616%Z.
  assert (Hr : (0 <= Z.of_N tv - Z.of_N base < 18446744073709551616)%Z) by lia.
  symmetry. apply Z.mod_unique_pos with (q := (- (disp / 18446744073709551616))%Z); lia.
Qed.

Section Normal.
  (* first conversion *)
  Variable e : OpDec.enc.
  Variable unit_addr : option (N -> res N).
  Variable cvt_addr : N -> option waddr.
  Variable unit_ref : N -> res N.
  Variable info_ref : N -> res dref.
  Variable nested : list byte -> res wexpr.
  (* the writer *)
  Variable dbg' : bool.
  Variable we : OpWr.enc.
  Variable uo : option uoffs.
  Variable refs : bool.
  (* second conversion, of what was written *)
  Variable e2 : OpDec.enc.
  Variable unit_addr2 : option (N -> res N).
  Variable cvt_addr2 : N -> option waddr.
  Variable unit_ref2 : N -> res N.
  Variable info_ref2 : N -> res dref.
  Variable nested2 : list byte -> res wexpr.
  Hypothesis Hasz : OpWr.e_asize we = e_asz e.
  Hypothesis Hasz2 : e_asz e2 = OpWr.e_asize we.
  (* written addresses are constants, converted as constants again *)
  Hypothesis Hcvt2 : forall v, cvt_addr2 v = Some (AConst v).
  (* the second unit-reference conversion inverts the offsets the writer assigned; no entry sits at offset 0 *)
  Hypothesis Hur2 : forall en off, entry_offset dbg' uo en = Ok off -> off <> 0 /\ unit_ref2 off = Ok en.
  (* nested entry_value blocks: normal form of the inner expressions *)
  Hypothesis Hnest2 : forall x inner wb p fx,
    nested x = Ok inner -> write_expr dbg' we uo refs p inner = Ok (wb, fx) -> nested2 wb = Ok inner.

  (* the decoded operation d is reported as an operation that converts to wo again *)
  Definition reconverts (woffs : list N) (base wpos : N) (o : operation) (wo : wop) (d : dop) : Prop :=
    exists o2, op_of_dop d = Some o2 /\
      (* the offset after a (3-byte) branch; other operations do not look at it *)
      forall end2, (is_branch o = true -> end2 = wpos + 3 - base) ->
        conv_op e2 unit_addr2 cvt_addr2 unit_ref2 info_ref2 nested2 (map (fun p => p - base) woffs) o2 end2 = Ok wo.

  (* the written operation starts: strictly increasing, inside the address space *)
  Variables (woffs : list N) (base wpos : N).
  Hypothesis Hsorted : StronglySorted N.lt (map (fun p => p - base) woffs).
  Hypothesis Hrange : Forall (fun p => base <= p /\ p < 2 ^ 63) woffs.
  Hypothesis Hbase : base <= wpos.
  Hypothesis Hpos : wpos + 3 < 2 ^ 63.

  (* a written branch lands on the operation with the index it was given *)
  Lemma branch_back t tv disp : nth_N woffs t = Some tv -> (Z.of_N wpos + 3 + disp = Z.of_N tv)%Z ->
    branch_index (map (fun p => p - base) woffs) (wpos + 3 - base) disp = Ok t.
  Proof.
    intros Ht Hd. rewrite nth_N_nth_error in Ht.
    assert (Hin : base <= tv /\ tv < 2 ^ 63).
    { rewrite Forall_forall in Hrange. apply Hrange. eapply nth_error_In; eauto. }
    unfold branch_index. rewrite (branch_offset_back wpos tv base disp) by (try apply Hin; assumption).
    rewrite (index_of_sorted (tv - base) _ 0 (N.to_nat t) Hsorted).
    - cbn [of_option]. f_equal. lia.
    - rewrite nth_error_map, Ht. reflexivity.
  Qed.

  (* a type offset the writer assigned is not 0 and converts back to its entry *)
  Lemma typed_back en off : entry_offset dbg' uo en = Ok off -> (off =? 0) = false /\ unit_ref2 off = Ok en.
  Proof. intros Ho. destruct (Hur2 _ _ Ho) as [Hnz Hu]. split; [lia|exact Hu]. Qed.

  Section Arms.
  Variables (soffs : list N) (end_ : N) (wo : wop) (bs : list byte) (d : dop).
  Notation conv o := (conv_op e unit_addr cvt_addr unit_ref info_ref nested soffs o end_ = Ok wo).
  Notation nf := (normal_form dbg' we uo refs woffs wpos wo bs d).

  Lemma nf_deref bt size space : conv (ODeref bt size space) -> nf -> reconverts woffs base wpos (ODeref bt size space) wo d.
  Proof.
    intros Hc Hn. cbn [conv_op] in Hc. destruct (bt =? 0) eqn:E0; cbn [negb] in Hc.
    - destruct (size =? e_asz e) eqn:E1; cbn [negb] in Hc; inversion Hc; subst wo; cbn [normal_form] in Hn; subst d;
        eexists; (split; [reflexivity|]); intros end2 _; cbn [conv_op].
      + rewrite Hasz2. replace (0 =? 0) with true by reflexivity. replace (OpWr.e_asize we =? OpWr.e_asize we) with true by lia. reflexivity.
      + replace (0 =? 0) with true by reflexivity. rewrite Hasz2, Hasz. rewrite E1. reflexivity.
    - binds Hc. inversion Hc; subst wo. cbn [normal_form] in Hn. destruct Hn as [off [Ho ->]].
      destruct (typed_back _ _ Ho) as [Hnz Hu]. eexists; split; [reflexivity|]. intros end2 _. cbn [conv_op].
      rewrite Hnz. cbn [negb]. rewrite Hu. reflexivity.
  Qed.

  Lemma nf_branch t o : o = OBra t \/ o = OSkip t -> conv o -> nf -> reconverts woffs base wpos o wo d.
  Proof.
    intros [-> | ->] Hc Hn; cbn [conv_op] in Hc; binds Hc; inversion Hc; subst wo; cbn [normal_form] in Hn;
      destruct Hn as [tv [disp [Ht [Hd ->]]]]; (eexists; split; [reflexivity|]); intros end2 He2;
      rewrite (He2 eq_refl); cbn [conv_op]; rewrite (branch_back _ _ _ Ht Hd); reflexivity.
  Qed.

  Lemma nf_regoffset r off bt : conv (ORegisterOffset r off bt) -> nf -> reconverts woffs base wpos (ORegisterOffset r off bt) wo d.
  Proof.
    intros Hc Hn. cbn [conv_op] in Hc. destruct (bt =? 0) eqn:E0; cbn [negb] in Hc.
    - inversion Hc; subst wo. cbn [normal_form] in Hn. subst d. eexists; split; [reflexivity|]. intros end2 _. reflexivity.
    - binds Hc. inversion Hc; subst wo. cbn [normal_form] in Hn. destruct Hn as [o2 [Ho ->]].
      destruct (typed_back _ _ Ho) as [Hnz Hu]. eexists; split; [reflexivity|]. intros end2 _. cbn [conv_op].
      rewrite Hnz. cbn [negb]. rewrite Hu. reflexivity.
  Qed.

  (* DW_OP_convert / DW_OP_reinterpret: base type 0 is the generic type *)
  Lemma nf_retype bt o : o = OConvert bt \/ o = OReinterpret bt -> conv o -> nf -> reconverts woffs base wpos o wo d.
  Proof.
    intros [-> | ->] Hc Hn; cbn [conv_op] in Hc; (destruct (bt =? 0) eqn:E0;
      [inversion Hc; subst wo; cbn [normal_form] in Hn; subst d; eexists; split; [reflexivity|]; intros end2 _; reflexivity|]);
      binds Hc; inversion Hc; subst wo; cbn [normal_form] in Hn; destruct Hn as [off [Ho ->]];
      destruct (typed_back _ _ Ho) as [Hnz Hu]; (eexists; split; [reflexivity|]); intros end2 _; cbn [conv_op];
      rewrite Hnz, Hu; reflexivity.
  Qed.

  (* operations that name a type or an entry of the unit by its offset *)
  Lemma nf_unit_ref o : (exists off, o = OCall (UnitRef off) \/ o = OParameterRef off) \/ (exists bt v, o = OTypedLiteral bt v) ->
    conv o -> nf -> reconverts woffs base wpos o wo d.
  Proof.
    intros [[off [-> | ->]]|[bt [v ->]]] Hc Hn; cbn [conv_op] in Hc; binds Hc; inversion Hc; subst wo; cbn [normal_form] in Hn;
      destruct Hn as [o2 [Ho ->]]; destruct (typed_back _ _ Ho) as [_ Hu]; (eexists; split; [reflexivity|]);
      intros end2 _; cbn [conv_op]; rewrite Hu; reflexivity.
  Qed.

  (* addresses, direct or through .debug_addr; constants through .debug_addr *)
  Lemma nf_address o : (exists a, o = OAddress a) \/ (exists i, o = OAddressIndex i \/ o = OConstantIndex i) ->
    conv o -> nf -> reconverts woffs base wpos o wo d.
  Proof.
    intros [[a ->]|[i [-> | ->]]] Hc Hn; cbn [conv_op] in Hc; binds Hc; inversion Hc; subst wo; cbn [normal_form] in Hn.
    - destruct v as [a'|sy ad]; [|contradiction]. subst d. eexists; split; [reflexivity|]. intros end2 _. cbn [conv_op].
      unfold convert_address. rewrite Hcvt2. reflexivity.
    - destruct v1 as [a'|sy ad]; [|contradiction]. subst d. eexists; split; [reflexivity|]. intros end2 _. cbn [conv_op].
      unfold convert_address. rewrite Hcvt2. reflexivity.
    - subst d. eexists; split; [reflexivity|]. intros end2 _. reflexivity.
  Qed.
  End Arms.

  Lemma expr_normal_form_op soffs o end_ wo bs d :
    conv_op e unit_addr cvt_addr unit_ref info_ref nested soffs o end_ = Ok wo ->
    normal_form dbg' we uo refs woffs wpos wo bs d ->
    info_ref_free o = true -> reconverts woffs base wpos o wo d.
  Proof.
    intros Hc Hn Hfree.
    destruct o; cbn [info_ref_free] in Hfree; try discriminate;
      try exact (nf_deref soffs end_ wo bs d _ _ _ Hc Hn);
      try exact (nf_branch soffs end_ wo bs d _ _ (or_introl eq_refl) Hc Hn);
      try exact (nf_branch soffs end_ wo bs d _ _ (or_intror eq_refl) Hc Hn);
      try exact (nf_regoffset soffs end_ wo bs d _ _ _ Hc Hn);
      try exact (nf_retype soffs end_ wo bs d _ _ (or_introl eq_refl) Hc Hn);
      try exact (nf_retype soffs end_ wo bs d _ _ (or_intror eq_refl) Hc Hn);
      try exact (nf_unit_ref soffs end_ wo bs d _ (or_introl (ex_intro _ _ (or_intror eq_refl))) Hc Hn);
      try exact (nf_unit_ref soffs end_ wo bs d _ (or_intror (ex_intro _ _ (ex_intro _ _ eq_refl))) Hc Hn);
      try exact (nf_address soffs end_ wo bs d _ (or_introl (ex_intro _ _ eq_refl)) Hc Hn);
      try exact (nf_address soffs end_ wo bs d _ (or_intror (ex_intro _ _ (or_introl eq_refl))) Hc Hn);
      try exact (nf_address soffs end_ wo bs d _ (or_intror (ex_intro _ _ (or_intror eq_refl))) Hc Hn);
      cbn [conv_op] in Hc;
      try (inversion Hc; subst wo; clear Hc; cbn [normal_form] in Hn;
           first [ (* operand-less opcodes *)
                   (vm_compute in Hn; inversion Hn; subst d; eexists; split; [vm_compute; reflexivity|];
                    intros end2 _; reflexivity)
                 | (subst d; eexists; split; [reflexivity|]; intros end2 _; reflexivity) ]).
    - (* call: a .debug_info reference is outside the statement *)
      destruct offset as [off|off]; [|discriminate].
      exact (nf_unit_ref soffs end_ wo bs d _ (or_introl (ex_intro _ off (or_introl eq_refl))) Hc Hn).
    - (* piece *)
      destruct bit_offset as [bo|]; inversion Hc; subst wo; cbn [normal_form] in Hn; subst d; eexists; (split; [reflexivity|]);
        intros end2 _; cbn [conv_op]; [reflexivity|].
      rewrite N.div_mul by discriminate. reflexivity.
    - (* entry_value *)
      binds Hc. inversion Hc; subst wo. cbn [normal_form] in Hn. destruct Hn as [lb [inner [fx [_ [-> Hw]]]]].
      eexists; split; [reflexivity|]. intros end2 _. cbn [conv_op].
      rewrite (Hnest2 _ _ _ _ _ Hv Hw). reflexivity.
  Qed.
End Normal.

Lemma expr_normal_form_op_lemma (e : OpDec.enc) unit_addr cvt_addr unit_ref info_ref nested
      (dbg' : bool) (we : OpWr.enc) (uo : option uoffs) (refs : bool)
      (e2 : OpDec.enc) unit_addr2 cvt_addr2 unit_ref2 info_ref2 nested2 :
  OpWr.e_asize we = e_asz e -> e_asz e2 = OpWr.e_asize we ->
  (forall v, cvt_addr2 v = Some (AConst v)) ->
  (forall en off, entry_offset dbg' uo en = Ok off -> off <> 0 /\ unit_ref2 off = Ok en) ->
  (forall x inner wb p fx,
     nested x = Ok inner -> write_expr dbg' we uo refs p inner = Ok (wb, fx) -> nested2 wb = Ok inner) ->
  forall soffs woffs base wpos o end_ wo bs d,
  conv_op e unit_addr cvt_addr unit_ref info_ref nested soffs o end_ = Ok wo ->
  normal_form dbg' we uo refs woffs wpos wo bs d ->
  info_ref_free o = true ->
  StronglySorted N.lt (map (fun p => p - base) woffs) -> Forall (fun p => base <= p /\ p < 2 ^ 63) woffs ->
  base <= wpos -> wpos + 3 < 2 ^ 63 ->
  exists o2, op_of_dop d = Some o2 /\
    forall end2, (is_branch o = true -> end2 = wpos + 3 - base) ->
      conv_op e2 unit_addr2 cvt_addr2 unit_ref2 info_ref2 nested2 (map (fun p => p - base) woffs) o2 end2 = Ok wo.
Proof.
  intros Hasz Hasz2 Hcvt2 Hur2 Hnest2 soffs woffs base wpos o end_ wo bs d Hc Hn Hfree Hs Hr Hb Hp.
  exact (expr_normal_form_op e unit_addr cvt_addr unit_ref info_ref nested dbg' we uo refs
           e2 unit_addr2 cvt_addr2 unit_ref2 info_ref2 nested2 Hasz Hasz2 Hcvt2 Hur2 Hnest2 woffs base wpos Hs Hr Hb Hp
           soffs o end_ wo bs d Hc Hn Hfree).
Qed.
