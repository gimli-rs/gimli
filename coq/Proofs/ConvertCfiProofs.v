(* Proofs/ConvertCfiProofs.v — C12, call frame instructions: the converted program means what the source
   program means (CfaSpec), instruction by instruction and as whole unwind tables. *)
From Coq Require Import List NArith ZArith Bool Lia ZifyBool ZifyN ZifyNat.
From Coq.Strings Require Import Byte.
Require Import GV.Base.Res GV.Base.Byt GV.Base.Ints GV.Spec.CfaEncSpec GV.Spec.CfaSpec.
Require Import GV.Model.ConvertArith GV.Model.ConvertCfi GV.Proofs.PrimProofs.
Import ListNotations.
Local Open Scope N_scope.

(* ------------------------------------------------------------------ small arithmetic *)

Lemma wrap_i64_id z : in_signed 64 z = true -> wrap_i64 z = z.
Proof.
  intros H. destruct (signed_roundtrip 64 z ltac:(lia) H) as [Hlt Hz].
  unfold wrap_i64, wrap_signed. rewrite to_signed_small by exact Hlt. exact Hz.
Qed.

Lemma in_signed_32_64 z : in_signed 32 z = true -> in_signed 64 z = true.
Proof. unfold in_signed. change (2 ^ (32 - 1)) with 2147483648. change (2 ^ (64 - 1)) with 9223372036854775808. lia. Qed.

(* ------------------------------------------------------------------ the checked conversions of write::cfi::convert *)

Lemma convert_offset_exact (o : N) :
  match convert_offset o with
  | Ok v => v = Z.of_N o /\ in_signed 32 v = true
  | Err e => e = CUnsupportedCfiInstruction /\ in_signed 32 (Z.of_N o) = false
  | _ => False
  end.
Proof. unfold convert_offset. destruct (in_signed 32 (Z.of_N o)) eqn:E; auto. Qed.

Lemma convert_factored_offset_exact (f daf : Z) :
  match convert_factored_offset f daf with
  | Ok v => v = (f * daf)%Z /\ in_signed 32 v = true
  | Err e => e = CUnsupportedCfiInstruction /\ in_signed 32 (f * daf)%Z = false
  | _ => False
  end.
Proof.
  unfold convert_factored_offset.
  destruct (in_signed 64 (f * daf)) eqn:E64; destruct (in_signed 32 (f * daf)) eqn:E32; auto.
  apply in_signed_32_64 in E32. congruence.
Qed.

Lemma convert_factors_exact (caf : N) (daf : Z) :
  match convert_factors caf daf with
  | Ok (c, d) => c = caf /\ d = daf /\ caf < 256 /\ in_signed 8 daf = true
  | Err e => e = CUnsupportedCfiInstruction /\ (256 <= caf \/ in_signed 8 daf = false)
  | _ => False
  end.
Proof.
  unfold convert_factors. destruct (caf <? 256) eqn:E1; [destruct (in_signed 8 daf) eqn:E2|].
  - repeat split; auto. lia.
  - split; auto.
  - split; auto. left. lia.
Qed.

Lemma convert_advance_exact (offset delta caf : N) :
  match convert_advance offset delta caf with
  | Ok v => v = offset + delta * caf /\ v < 2 ^ 32
  | Err e => e = CUnsupportedCfiInstruction /\ (2 ^ 32 <= offset + delta * caf \/ 2 ^ 32 <= caf)
  | _ => False
  end.
Proof.
  unfold convert_advance.
  destruct (caf <? 2 ^ 32) eqn:E1; [|split; auto; right; lia].
  destruct (delta * caf <? 2 ^ 32) eqn:E2; [|split; auto; left; lia].
  destruct (offset + delta * caf <? 2 ^ 32) eqn:E3; split; auto; [|left]; lia.
Qed.

(* what they return when they succeed *)
Lemma convert_offset_ok o v : convert_offset o = Ok v -> v = Z.of_N o /\ in_signed 32 v = true.
Proof. intros H. pose proof (convert_offset_exact o) as E. rewrite H in E. exact E. Qed.

Lemma convert_factored_offset_ok f daf v :
  convert_factored_offset f daf = Ok v -> v = (f * daf)%Z /\ in_signed 64 v = true /\ in_signed 32 v = true.
Proof.
  intros H. pose proof (convert_factored_offset_exact f daf) as E. rewrite H in E.
  destruct E as [E1 E2]. auto using in_signed_32_64.
Qed.

Lemma convert_unsigned_factored_offset_ok f daf v :
  convert_unsigned_factored_offset f daf = Ok v ->
  v = (Z.of_N f * daf)%Z /\ in_signed 64 v = true /\ in_signed 32 v = true.
Proof.
  unfold convert_unsigned_factored_offset. destruct (in_signed 64 (Z.of_N f)); [|discriminate].
  apply convert_factored_offset_ok.
Qed.

Lemma convert_advance_ok offset d caf v :
  convert_advance offset d caf = Ok v -> v = offset + d * caf /\ v < 2 ^ 32.
Proof. intros H. pose proof (convert_advance_exact offset d caf) as E. rewrite H in E. exact E. Qed.

Lemma convert_args_size_ok n m : convert_args_size n = Ok m -> m = n /\ n < 2 ^ 32.
Proof. unfold convert_args_size. destruct (n <? 2 ^ 32) eqn:E; [|discriminate]. intros H; inversion H. lia. Qed.

(* ------------------------------------------------------------------ tables up to a relation on expressions *)

Section Rel.
  Variable R : uexpr -> uexpr -> Prop.

  Definition rule_rel (x y : rule) : Prop :=
    match x with
    | RExpression e => exists e', y = RExpression e' /\ R e e'
    | RValExpression e => exists e', y = RValExpression e' /\ R e e'
    | _ => y = x
    end.
  Definition cfa_rel (c c' : cfa_rule) : Prop :=
    match c with
    | CfaExpr e => exists e', c' = CfaExpr e' /\ R e e'
    | _ => c' = c
    end.
  Definition rmap_rel (m m' : rmap) : Prop :=
    Forall2 (fun p q => fst q = fst p /\ rule_rel (snd p) (snd q)) m m'.
  Definition saved_rel (x y : cfa_rule * rmap * N) : Prop :=
    cfa_rel (fst (fst x)) (fst (fst y)) /\ rmap_rel (snd (fst x)) (snd (fst y)) /\ snd y = snd x.
  (* everything but the location *)
  Definition st_rel (s s' : sstate) : Prop :=
    cfa_rel (s_cfa s) (s_cfa s') /\ rmap_rel (s_rules s) (s_rules s') /\ s_args s' = s_args s /\
    Forall2 saved_rel (s_stack s) (s_stack s').
  Definition ini_rel (i i' : option rmap) : Prop :=
    match i with
    | Some m => exists m', i' = Some m' /\ rmap_rel m m'
    | None => i' = None
    end.
  Definition content_rel (x y : cfa_rule * N * rmap) : Prop :=
    cfa_rel (fst (fst x)) (fst (fst y)) /\ snd (fst y) = snd (fst x) /\ rmap_rel (snd x) (snd y).
  Definition unw_rel (o o' : option (cfa_rule * N * rmap)) : Prop :=
    match o, o' with
    | Some x, Some y => content_rel x y
    | None, None => True
    | _, _ => False
    end.

  Lemma lookup_rel r m m' : rmap_rel m m' ->
    match lookup r m with
    | Some x => exists x', lookup r m' = Some x' /\ rule_rel x x'
    | None => lookup r m' = None
    end.
  Proof.
    induction 1 as [|[r1 x1] [r2 x2] m m' [Hf Hr] _ IH]; cbn [lookup]; [reflexivity|].
    cbn [fst snd] in Hf, Hr. subst r2. destruct (r1 =? r); [|exact IH]. eexists; split; [reflexivity|exact Hr].
  Qed.

  Lemma remove_rel r m m' : rmap_rel m m' -> rmap_rel (remove r m) (remove r m').
  Proof.
    induction 1 as [|[r1 x1] [r2 x2] m m' [Hf Hr] _ IH]; cbn [remove filter]; [constructor|].
    cbn [fst snd] in Hf, Hr |- *. subst r2. destruct (negb (r1 =? r)); [|exact IH].
    constructor; [split; [reflexivity|exact Hr]|exact IH].
  Qed.

  Definition orule_rel (o o' : option rule) : Prop :=
    match o with Some x => exists x', o' = Some x' /\ rule_rel x x' | None => o' = None end.

  Lemma update_rel r o o' m m' : orule_rel o o' -> rmap_rel m m' -> rmap_rel (update r o m) (update r o' m').
  Proof.
    intros Ho Hm. destruct o as [x|]; cbn [orule_rel] in Ho.
    - destruct Ho as [x' [-> Hx]]. cbn [update]. constructor; [split; [reflexivity|exact Hx]|].
      apply remove_rel; exact Hm.
    - subst o'. cbn [update]. apply remove_rel; exact Hm.
  Qed.

  Lemma set_rule_rel r x x' s s' : rule_rel x x' -> st_rel s s' -> st_rel (set_rule r x s) (set_rule r x' s').
  Proof.
    intros Hx [Hc [Hm [Ha Hk]]]. unfold st_rel, set_rule, with_rules. cbn [s_cfa s_rules s_args s_stack].
    repeat split; auto. apply update_rel; [eexists; split; [reflexivity|exact Hx]|exact Hm].
  Qed.

  Lemma with_cfa_rel c c' s s' : cfa_rel c c' -> st_rel s s' -> st_rel (with_cfa c s) (with_cfa c' s').
  Proof. intros Hx [Hc [Hm [Ha Hk]]]. unfold st_rel, with_cfa. cbn [s_cfa s_rules s_args s_stack]. auto. Qed.

  Lemma with_rules_rel m m' s s' : rmap_rel m m' -> st_rel s s' -> st_rel (with_rules m s) (with_rules m' s').
  Proof. intros Hx [Hc [Hm [Ha Hk]]]. unfold st_rel, with_rules. cbn [s_cfa s_rules s_args s_stack]. auto. Qed.

  Lemma with_args_rel n s s' : st_rel s s' -> st_rel (with_args n s) (with_args n s').
  Proof. intros [Hc [Hm [Ha Hk]]]. unfold st_rel, with_args. cbn [s_cfa s_rules s_args s_stack]. auto. Qed.

  Lemma with_loc_rel a b s s' : st_rel s s' -> st_rel (with_loc a s) (with_loc b s').
  Proof. intros [Hc [Hm [Ha Hk]]]. unfold st_rel, with_loc. cbn [s_cfa s_rules s_args s_stack]. auto. Qed.

  (* two instructions that do not move the location and act alike on related states *)
  Definition nostep_rel (s s' : sstate) (r r' : res (sstate * option srow)) : Prop :=
    match r with
    | Ok (s1, None) => exists s1', r' = Ok (s1', None) /\ st_rel s1 s1' /\ s_loc s1 = s_loc s /\ s_loc s1' = s_loc s'
    | Ok (_, Some _) => False
    | Err e => r' = Err e
    | Panic => r' = Panic
    | OutOfFuel => r' = OutOfFuel
    end.
  Definition insn_sem (p p' : sparams) (i i' : insn) : Prop :=
    forall ini ini' s s', st_rel s s' -> ini_rel ini ini' ->
      nostep_rel s s' (spec_step p ini s i) (spec_step p' ini' s' i').

  (* the same instruction, with related expression operands, when its action does not depend on the
     alignment factors *)
  Definition insn_same (i i' : insn) : Prop :=
    match i with
    | IDefCfaExpression e => exists e', i' = IDefCfaExpression e' /\ R e e'
    | IExpression r e => exists e', i' = IExpression r e' /\ R e e'
    | IValExpression r e => exists e', i' = IValExpression r e' /\ R e e'
    | IDefCfaRegister _ | IUndefined _ | ISameValue _ | IRegister _ _ | IRestore _
    | IRememberState | IRestoreState | IArgsSize _ | INegateRaState => i' = i
    | _ => False
    end.

  Ltac ok_none := eexists; split; [reflexivity|]; split; [|split; reflexivity].

  Lemma insn_same_sem p p' i i' : insn_same i i' -> insn_sem p p' i i'.
  Proof.
    intros Hi ini ini' s s' Hs Hini.
    destruct i; cbn [insn_same] in Hi; try contradiction;
      try (match type of Hi with ex _ => destruct Hi as [e' [-> He]] | _ = _ => subst i' end);
      cbn [spec_step nostep_rel].
    - (* def_cfa_register *)
      pose proof Hs as [Hc _]. destruct (s_cfa s) as [r0 o0|e0]; cbn [cfa_rel] in Hc.
      + rewrite Hc. cbn [nostep_rel]. ok_none. apply with_cfa_rel; [reflexivity|exact Hs].
      + destruct Hc as [e' [-> _]]. reflexivity.
    - (* def_cfa_expression *)
      ok_none. apply with_cfa_rel; [eexists; split; [reflexivity|exact He]|exact Hs].
    - ok_none. apply set_rule_rel; [reflexivity|exact Hs].
    - ok_none. apply set_rule_rel; [reflexivity|exact Hs].
    - ok_none. apply set_rule_rel; [reflexivity|exact Hs].
    - ok_none. apply set_rule_rel; [eexists; split; [reflexivity|exact He]|exact Hs].
    - ok_none. apply set_rule_rel; [eexists; split; [reflexivity|exact He]|exact Hs].
    - (* restore *)
      destruct ini as [m|]; cbn [ini_rel] in Hini.
      + destruct Hini as [m' [-> Hm]]. cbn [nostep_rel]. ok_none.
        pose proof Hs as [_ [Hr _]]. apply with_rules_rel; [|exact Hs].
        apply update_rel; [|exact Hr]. pose proof (lookup_rel r m m' Hm) as L.
        destruct (lookup r m); cbn [orule_rel]; exact L.
      + subst ini'. reflexivity.
    - (* remember_state *)
      ok_none. destruct Hs as [Hc [Hm [Ha Hk]]]. unfold st_rel. cbn [s_cfa s_rules s_args s_stack].
      repeat split; auto. constructor; [|exact Hk]. unfold saved_rel. cbn [fst snd]. auto.
    - (* restore_state *)
      pose proof Hs as [_ [_ [_ Hk]]]. inversion Hk as [|x y t t' Hxy Ht Ex Ey]; [reflexivity|].
      destruct x as [[c m] a], y as [[c' m'] a']. destruct Hxy as [Hc [Hm Ha]]. cbn [fst snd] in Hc, Hm, Ha.
      cbn [nostep_rel]. ok_none. unfold st_rel. cbn [s_cfa s_rules s_args s_stack]. auto.
    - ok_none. apply with_args_rel; exact Hs.
    - (* negate_ra_state *)
      pose proof Hs as [_ [Hr _]]. pose proof (lookup_rel RA_SIGN_STATE _ _ Hr) as L.
      destruct (lookup RA_SIGN_STATE (s_rules s)) as [x|].
      + destruct L as [x' [-> Hx]].
        destruct x; cbn [rule_rel] in Hx;
          (match type of Hx with ex _ => destruct Hx as [e' [-> _]] | _ = _ => subst x' end); try reflexivity.
        cbn [nostep_rel]. ok_none. apply set_rule_rel; [reflexivity|exact Hs].
      + rewrite L. cbn [nostep_rel]. ok_none. apply set_rule_rel; [reflexivity|exact Hs].
  Qed.

End Rel.

(* ------------------------------------------------------------------ instruction meanings *)

(* a source expression and the place its converted bytes are written to *)
Definition conv_R (xconv : uexpr -> res (list byte)) (plc : list byte -> uexpr) (e e' : uexpr) : Prop :=
  exists b, xconv e = Ok b /\ e' = plc b.

(* instruction i, run under the alignment factors of p, means m: it advances the location by that many
   bytes, does nothing, or acts on every table state as the unfactored write instruction does *)
Definition means (R : uexpr -> uexpr -> Prop) (plc : list byte -> uexpr) (p : sparams) (i : insn) (m : meaning) : Prop :=
  match m with
  | MAdvance b => exists d, i = IAdvanceLoc d /\ b = d * sp_caf p /\ b < 2 ^ 64
  | MNop => i = INop
  | MInsn c => insn_sem R p (unit_params (sp_asize p)) i (den_cfi plc c)
  end.

Section Sem.
  Variable R : uexpr -> uexpr -> Prop.

  Lemma sem_set_cfa p p' i i' r z :
    (forall ini s, spec_step p ini s i = Ok (with_cfa (CfaRegOff r z) s, None)) ->
    (forall ini s, spec_step p' ini s i' = Ok (with_cfa (CfaRegOff r z) s, None)) ->
    insn_sem R p p' i i'.
  Proof.
    intros H1 H2 ini ini' s s' Hs Hini. rewrite H1, H2. cbn [nostep_rel].
    eexists; split; [reflexivity|]; split; [|split; reflexivity].
    apply with_cfa_rel; [reflexivity|exact Hs].
  Qed.

  Lemma sem_set_cfa_offset p p' i i' z :
    (forall ini s, spec_step p ini s i =
       match s_cfa s with CfaRegOff r _ => Ok (with_cfa (CfaRegOff r z) s, None)
                        | CfaExpr _ => Err ECfiInstructionInInvalidContext end) ->
    (forall ini s, spec_step p' ini s i' =
       match s_cfa s with CfaRegOff r _ => Ok (with_cfa (CfaRegOff r z) s, None)
                        | CfaExpr _ => Err ECfiInstructionInInvalidContext end) ->
    insn_sem R p p' i i'.
  Proof.
    intros H1 H2 ini ini' s s' Hs Hini. rewrite H1, H2.
    pose proof Hs as [Hc _]. destruct (s_cfa s) as [r0 o0|e0]; cbn [cfa_rel] in Hc.
    - rewrite Hc. cbn [nostep_rel]. eexists; split; [reflexivity|]; split; [|split; reflexivity].
      apply with_cfa_rel; [reflexivity|exact Hs].
    - destruct Hc as [e' [-> _]]. reflexivity.
  Qed.

  Lemma sem_set_rule p p' i i' r x :
    rule_rel R x x ->
    (forall ini s, spec_step p ini s i = Ok (set_rule r x s, None)) ->
    (forall ini s, spec_step p' ini s i' = Ok (set_rule r x s, None)) ->
    insn_sem R p p' i i'.
  Proof.
    intros Hx H1 H2 ini ini' s s' Hs Hini. rewrite H1, H2. cbn [nostep_rel].
    eexists; split; [reflexivity|]; split; [|split; reflexivity].
    apply set_rule_rel; [exact Hx|exact Hs].
  Qed.
End Sem.

Lemma factored_unit asz z : factored (unit_params asz) z = wrap_i64 z.
Proof. unfold factored, unit_params. cbn [sp_daf]. rewrite Z.mul_1_r. reflexivity. Qed.

(* every arm of CallFrameInstruction::from *)
Lemma conv_step_means caf daf xconv plc p o i o' c :
  sp_caf p = caf -> sp_daf p = daf ->
  conv_step caf daf xconv o i = Ok (o', c) ->
  exists m, means (conv_R xconv plc) plc p i m /\
    match m with
    | MAdvance b => c = None /\ o' = o + b /\ o' < 2 ^ 32
    | MNop => c = None /\ o' = o
    | MInsn x => c = Some x /\ o' = o
    end.
Proof.
  intros Hcaf Hdaf H.
  destruct i; cbn [conv_step] in H; try discriminate;
    try (apply bind_ok in H; destruct H as [v [Hv H]]);
    inversion H; subst o' c; clear H.
  - (* advance_loc *)
    apply convert_advance_ok in Hv. destruct Hv as [-> Hlt].
    exists (MAdvance (d * caf)). split; [|auto].
    cbn [means]. exists d. rewrite Hcaf. split; [reflexivity|split; [reflexivity|]].
    assert (2 ^ 32 < 2 ^ 64) by (vm_compute; reflexivity). lia.
  - (* def_cfa *)
    apply convert_offset_ok in Hv. destruct Hv as [-> H32]. apply in_signed_32_64 in H32.
    exists (MInsn (Cfa r (Z.of_N off))). split; [|auto]. cbn [means den_cfi].
    apply sem_set_cfa with (r := r) (z := Z.of_N off); intros; cbn [spec_step]; [|rewrite factored_unit];
      rewrite ?wrap_i64_id by exact H32; reflexivity.
  - (* def_cfa_sf *)
    apply convert_factored_offset_ok in Hv. destruct Hv as [-> [H64 _]].
    exists (MInsn (Cfa r (fo * daf)%Z)). split; [|auto]. cbn [means den_cfi].
    apply sem_set_cfa with (r := r) (z := (fo * daf)%Z); intros; cbn [spec_step];
      [unfold factored; rewrite Hdaf|rewrite factored_unit]; rewrite wrap_i64_id by exact H64; reflexivity.
  - (* def_cfa_register *)
    exists (MInsn (CfaRegister r)). split; [|auto]. apply insn_same_sem. reflexivity.
  - (* def_cfa_offset *)
    apply convert_offset_ok in Hv. destruct Hv as [-> H32]. apply in_signed_32_64 in H32.
    exists (MInsn (CfaOffset (Z.of_N off))). split; [|auto]. cbn [means den_cfi].
    apply sem_set_cfa_offset with (z := Z.of_N off); intros; cbn [spec_step]; [|rewrite factored_unit];
      rewrite ?wrap_i64_id by exact H32; reflexivity.
  - (* def_cfa_offset_sf *)
    apply convert_factored_offset_ok in Hv. destruct Hv as [-> [H64 _]].
    exists (MInsn (CfaOffset (fo * daf)%Z)). split; [|auto]. cbn [means den_cfi].
    apply sem_set_cfa_offset with (z := (fo * daf)%Z); intros; cbn [spec_step];
      [unfold factored; rewrite Hdaf|rewrite factored_unit]; rewrite wrap_i64_id by exact H64; reflexivity.
  - (* def_cfa_expression *)
    exists (MInsn (CfaExpression v)). split; [|auto]. apply insn_same_sem. cbn [insn_same den_cfi].
    eexists; split; [reflexivity|]. exists v; auto.
  - exists (MInsn (Undefined r)). split; [|auto]. apply insn_same_sem. reflexivity.
  - exists (MInsn (SameValue r)). split; [|auto]. apply insn_same_sem. reflexivity.
  - (* offset *)
    apply convert_unsigned_factored_offset_ok in Hv. destruct Hv as [-> [H64 _]].
    exists (MInsn (Offset r (Z.of_N fo * daf)%Z)). split; [|auto]. cbn [means den_cfi].
    apply sem_set_rule with (r := r) (x := ROffset (Z.of_N fo * daf)%Z); [reflexivity| |]; intros; cbn [spec_step];
      [unfold factored; rewrite Hdaf|rewrite factored_unit]; rewrite wrap_i64_id by exact H64; reflexivity.
  - (* offset_extended_sf *)
    apply convert_factored_offset_ok in Hv. destruct Hv as [-> [H64 _]].
    exists (MInsn (Offset r (fo * daf)%Z)). split; [|auto]. cbn [means den_cfi].
    apply sem_set_rule with (r := r) (x := ROffset (fo * daf)%Z); [reflexivity| |]; intros; cbn [spec_step];
      [unfold factored; rewrite Hdaf|rewrite factored_unit]; rewrite wrap_i64_id by exact H64; reflexivity.
  - (* val_offset *)
    apply convert_unsigned_factored_offset_ok in Hv. destruct Hv as [-> [H64 _]].
    exists (MInsn (ValOffset r (Z.of_N fo * daf)%Z)). split; [|auto]. cbn [means den_cfi].
    apply sem_set_rule with (r := r) (x := RValOffset (Z.of_N fo * daf)%Z); [reflexivity| |]; intros; cbn [spec_step];
      [unfold factored; rewrite Hdaf|rewrite factored_unit]; rewrite wrap_i64_id by exact H64; reflexivity.
  - (* val_offset_sf *)
    apply convert_factored_offset_ok in Hv. destruct Hv as [-> [H64 _]].
    exists (MInsn (ValOffset r (fo * daf)%Z)). split; [|auto]. cbn [means den_cfi].
    apply sem_set_rule with (r := r) (x := RValOffset (fo * daf)%Z); [reflexivity| |]; intros; cbn [spec_step];
      [unfold factored; rewrite Hdaf|rewrite factored_unit]; rewrite wrap_i64_id by exact H64; reflexivity.
  - exists (MInsn (Register d s)). split; [|auto]. apply insn_same_sem. reflexivity.
  - exists (MInsn (Expression r v)). split; [|auto]. apply insn_same_sem. cbn [insn_same den_cfi].
    eexists; split; [reflexivity|]. exists v; auto.
  - exists (MInsn (ValExpression r v)). split; [|auto]. apply insn_same_sem. cbn [insn_same den_cfi].
    eexists; split; [reflexivity|]. exists v; auto.
  - exists (MInsn (Restore r)). split; [|auto]. apply insn_same_sem. reflexivity.
  - exists (MInsn RememberState). split; [|auto]. apply insn_same_sem. reflexivity.
  - exists (MInsn RestoreState). split; [|auto]. apply insn_same_sem. reflexivity.
  - apply convert_args_size_ok in Hv. destruct Hv as [-> _].
    exists (MInsn (ArgsSize n)). split; [|auto]. apply insn_same_sem. reflexivity.
  - exists (MInsn NegateRaState). split; [|auto]. apply insn_same_sem. reflexivity.
  - exists MNop. split; [reflexivity|auto].
Qed.

(* ------------------------------------------------------------------ whole programs *)

Lemma step_lim_nocaps p ini s i : step_lim no_caps p ini s i = spec_step p ini s i.
Proof. unfold step_lim. destruct (spec_step p ini s i) as [[s1 row]| | |]; reflexivity. Qed.

Lemma content_at_cons r rows a :
  content_at (r :: rows) a = if covers a r then Some (sr_cfa r, sr_args r, sr_rules r) else content_at rows a.
Proof. unfold content_at. cbn [find]. destruct (covers a r); reflexivity. Qed.

(* the part of the table between the location of the converted run and that of the source run *)
Definition gap (s' s : sstate) : srow :=
  {| sr_start := s_loc s'; sr_end := s_loc s; sr_cfa := s_cfa s; sr_args := s_args s; sr_rules := s_rules s |}.

Lemma pow_asize asz : asz <= 8 -> 2 ^ (8 * asz) <= 2 ^ 64.
Proof. intros H. apply N.pow_le_mono_r; lia. Qed.

Lemma st_rel_content R s s' : st_rel R s s' ->
  content_rel R (s_cfa s, s_args s, s_rules s) (s_cfa s', s_args s', s_rules s').
Proof. intros [Hc [Hm [Ha _]]]. unfold content_rel. cbn [fst snd]. auto. Qed.

Section Run.
  Variable R : uexpr -> uexpr -> Prop.
  Variable plc : list byte -> uexpr.
  Variable p : sparams.
  Hypothesis Hasz : sp_asize p <= 8.

  (* the converted run, behind at s', catches up with the source run at s: by the advance den_fde puts before an
     instruction located further on (one more row, the state of s'), or by nothing *)
  Lemma catch_up ini' end_ s s' :
    st_rel R s s' -> s_loc s' <= s_loc s -> (s_loc s' = s_loc s \/ s_loc s < 2 ^ (8 * sp_asize p)) ->
    exists s2 pre,
      (forall rest, spec_run no_caps (unit_params (sp_asize p)) ini' end_ s'
                (map It ((if s_loc s =? s_loc s' then [] else [IAdvanceLoc (s_loc s - s_loc s')]) ++ rest)) =
              let '(rows1, fin) := spec_run no_caps (unit_params (sp_asize p)) ini' end_ s2 (map It rest) in
              (pre ++ rows1, fin)) /\
      st_rel R s s2 /\ s_loc s2 = s_loc s /\
      (forall X a, s_loc s' <= a ->
         content_at (pre ++ X) a =
         if a <? s_loc s then Some (s_cfa s', s_args s', s_rules s') else content_at X a).
  Proof.
    intros Hs Hle Hinv. destruct (s_loc s =? s_loc s') eqn:E.
    - exists s', []. split; [|split; [exact Hs|split; [lia|]]].
      + intros rest. cbn [app]. destruct (spec_run _ _ _ _ _ _) as [rows1 fin]. reflexivity.
      + intros X a Ha. cbn [app]. destruct (a <? s_loc s) eqn:E2; [lia|reflexivity].
    - exists (with_loc (s_loc s) s'), [row_of s' (s_loc s)].
      assert (Hlt : s_loc s < 2 ^ (8 * sp_asize p)) by (destruct Hinv; [lia|assumption]).
      pose proof (pow_asize _ Hasz) as Hp.
      split; [|split; [apply with_loc_rel with (a := s_loc s) (b := s_loc s) in Hs;
                       destruct s; exact Hs|split; [reflexivity|]]].
      + intros rest. cbn [app map spec_run]. rewrite step_lim_nocaps. cbn [spec_step unit_params sp_caf sp_asize].
        rewrite N.mul_1_r. rewrite wrap64_small by (unfold two64; change (2 ^ 64) with 18446744073709551616 in Hp; lia).
        replace (s_loc s' + (s_loc s - s_loc s')) with (s_loc s) by lia.
        destruct (2 ^ (8 * sp_asize p) <=? s_loc s) eqn:E2; [lia|].
        destruct (spec_run _ _ _ _ _ _) as [rows1 fin]. reflexivity.
      + intros X a Ha. cbn [app]. rewrite content_at_cons. unfold covers, row_of.
        cbn [sr_start sr_end sr_cfa sr_args sr_rules].
        repeat match goal with |- context [if ?b then _ else _] => destruct b eqn:? end; try reflexivity; lia.
  Qed.

  Lemma located_run : forall is ms, Forall2 (means R plc p) is ms ->
    forall ini ini' end_ s s' rows sf,
      st_rel R s s' -> ini_rel R ini ini' ->
      s_loc s' <= s_loc s -> (s_loc s' = s_loc s \/ s_loc s < 2 ^ (8 * sp_asize p)) ->
      spec_run no_caps p ini end_ s (map It is) = (rows, (Done, sf)) ->
      exists rows' sf',
        spec_run no_caps (unit_params (sp_asize p)) ini' end_ s'
                 (map It (den_fde plc (s_loc s') (locate (s_loc s) ms))) = (rows', (Done, sf')) /\
        st_rel R sf sf' /\
        forall a, s_loc s' <= a -> a < end_ ->
          unw_rel R (content_at (gap s' s :: rows) a) (content_at rows' a).
  Proof.
    induction 1 as [|i m is ms Hm _ IH]; intros ini ini' end_ s s' rows sf Hs Hini Hle Hinv Hrun.
    - cbn [map spec_run] in Hrun. inversion Hrun; subst rows sf. clear Hrun.
      cbn [locate den_fde map spec_run]. eexists; eexists; split; [reflexivity|]. split; [exact Hs|].
      intros a Ha He. rewrite !content_at_cons. unfold content_at. cbn [find].
      unfold covers, gap, row_of. cbn [sr_start sr_end sr_cfa sr_args sr_rules].
      pose proof (st_rel_content R s s' Hs) as Hc.
      destruct ((s_loc s' <=? a) && (a <? s_loc s)) eqn:E1;
        destruct ((s_loc s <=? a) && (a <? end_)) eqn:E2;
        destruct ((s_loc s' <=? a) && (a <? end_)) eqn:E3; cbn [unw_rel]; try exact Hc; lia.
    - cbn [map spec_run] in Hrun. rewrite step_lim_nocaps in Hrun.
      destruct m as [c|b|]; cbn [means] in Hm.
      + (* an instruction *)
        destruct (catch_up ini' end_ s s' Hs Hle Hinv) as [s2 [pre [Hpre [Hs2 [Hl2 Hcont]]]]].
        specialize (Hm ini ini' s s2 Hs2 Hini).
        destruct (spec_step p ini s i) as [[s1 [row|]]|e| |]; cbn [nostep_rel] in Hm; try contradiction;
          try (inversion Hrun; fail).
        destruct Hm as [s1' [Hstep [Hs1 [Hl1 Hl1']]]].
        specialize (IH ini ini' end_ s1 s1').
        destruct (spec_run no_caps p ini end_ s1 (map It is)) as [rows1 fin1] eqn:E1.
        inversion Hrun; subst rows1 fin1. clear Hrun.
        destruct (IH rows sf Hs1 Hini ltac:(lia) ltac:(left; lia) eq_refl) as [rows' [sf' [Hr' [Hsf Hcov]]]].
        cbn [locate den_fde]. rewrite Hpre. cbn [map spec_run]. rewrite step_lim_nocaps, Hstep.
        rewrite Hl1', Hl2, Hl1 in Hr'. rewrite Hr'.
        eexists; eexists; split; [reflexivity|]. split; [exact Hsf|].
        intros a Ha He. rewrite Hcont by exact Ha. rewrite content_at_cons.
        specialize (Hcov a). rewrite content_at_cons in Hcov.
        unfold covers, gap in *. cbn [sr_start sr_end sr_cfa sr_args sr_rules] in *.
        destruct (a <? s_loc s) eqn:E2.
        * replace ((s_loc s' <=? a) && true) with true by lia. cbn [unw_rel]. apply st_rel_content. exact Hs.
        * replace ((s_loc s' <=? a) && false) with false by lia.
          replace ((s_loc s1' <=? a) && (a <? s_loc s1)) with false in Hcov by lia.
          apply Hcov; lia.
      + (* an advance *)
        destruct Hm as [d [-> [Hb Hb64]]]. cbn [spec_step] in Hrun. rewrite <- Hb in Hrun.
        rewrite wrap64_small in Hrun by (unfold two64; lia).
        destruct (2 ^ (8 * sp_asize p) <=? s_loc s + b) eqn:E; [inversion Hrun|].
        specialize (IH ini ini' end_ (with_loc (s_loc s + b) s) s').
        destruct (spec_run no_caps p ini end_ (with_loc (s_loc s + b) s) (map It is)) as [rows1 fin1] eqn:E1.
        inversion Hrun; subst rows fin1. clear Hrun.
        assert (Hs1 : st_rel R (with_loc (s_loc s + b) s) s').
        { apply with_loc_rel with (a := s_loc s + b) (b := s_loc s') in Hs. destruct s'; exact Hs. }
        destruct (IH rows1 sf Hs1 Hini ltac:(cbn [with_loc s_loc]; lia) ltac:(right; cbn [with_loc s_loc]; lia) eq_refl)
          as [rows' [sf' [Hr' [Hsf Hcov]]]].
        cbn [locate]. cbn [with_loc s_loc] in Hr'. rewrite Hr'.
        eexists; eexists; split; [reflexivity|]. split; [exact Hsf|].
        intros a Ha He. specialize (Hcov a Ha He). rewrite content_at_cons in Hcov.
        rewrite !content_at_cons.
        unfold covers, gap, row_of, with_loc in *. cbn [sr_start sr_end sr_cfa sr_args sr_rules s_loc s_cfa s_args s_rules] in *.
        destruct ((s_loc s' <=? a) && (a <? s_loc s)) eqn:E2;
          destruct ((s_loc s <=? a) && (a <? s_loc s + b)) eqn:E3;
          destruct ((s_loc s' <=? a) && (a <? s_loc s + b)) eqn:E4; try exact Hcov; lia.
      + (* a nop *)
        subst i. cbn [spec_step] in Hrun. cbn [locate]. eapply IH; eauto.
  Qed.
End Run.

(* the instructions of a list of meanings (advances and nops dropped) *)
Definition insns_of (ms : list meaning) : list cfi :=
  flat_map (fun m => match m with MInsn c => [c] | _ => [] end) ms.

Section RunCie.
  Variable R : uexpr -> uexpr -> Prop.
  Variable plc : list byte -> uexpr.
  Variable p : sparams.

  (* initial instructions: only the state they leave matters; location advances are absorbed *)
  Lemma cie_run : forall is ms, Forall2 (means R plc p) is ms ->
    forall ini ini' e e' s s' rows sf,
      st_rel R s s' -> ini_rel R ini ini' ->
      spec_run no_caps p ini e s (map It is) = (rows, (Done, sf)) ->
      exists rows' sf',
        spec_run no_caps (unit_params (sp_asize p)) ini' e' s' (map It (map (den_cfi plc) (insns_of ms))) = (rows', (Done, sf')) /\
        st_rel R sf sf'.
  Proof.
    induction 1 as [|i m is ms Hm _ IH]; intros ini ini' e e' s s' rows sf Hs Hini Hrun.
    - cbn [map spec_run] in Hrun. inversion Hrun; subst. cbn. eexists; eexists; split; [reflexivity|exact Hs].
    - cbn [map spec_run] in Hrun. rewrite step_lim_nocaps in Hrun.
      destruct m as [c|b|]; cbn [means] in Hm.
      + specialize (Hm ini ini' s s' Hs Hini).
        destruct (spec_step p ini s i) as [[s1 [row|]]|er| |]; cbn [nostep_rel] in Hm; try contradiction;
          try (inversion Hrun; fail).
        destruct Hm as [s1' [Hstep [Hs1 _]]].
        destruct (IH ini ini' e e' s1 s1' rows sf Hs1 Hini Hrun) as [rows' [sf' [Hr' Hsf]]].
        unfold insns_of. cbn [flat_map app map spec_run]. rewrite step_lim_nocaps, Hstep.
        eexists; eexists; split; [exact Hr'|exact Hsf].
      + destruct Hm as [d [-> [Hb Hb64]]]. cbn [spec_step] in Hrun.
        destruct (2 ^ (8 * sp_asize p) <=? s_loc s + wrap64 (d * sp_caf p)); [inversion Hrun|].
        destruct (spec_run no_caps p ini e (with_loc (s_loc s + wrap64 (d * sp_caf p)) s) (map It is)) as [rows1 fin1] eqn:E1.
        inversion Hrun; subst rows fin1.
        assert (Hs1 : st_rel R (with_loc (s_loc s + wrap64 (d * sp_caf p)) s) s').
        { apply with_loc_rel with (a := s_loc s + wrap64 (d * sp_caf p)) (b := s_loc s') in Hs. destruct s'; exact Hs. }
        destruct (IH ini ini' e e' _ s' rows1 sf Hs1 Hini E1) as [rows' [sf' [Hr' Hsf]]].
        unfold insns_of. cbn [flat_map app]. eexists; eexists; split; [exact Hr'|exact Hsf].
      + subst i. cbn [spec_step] in Hrun. unfold insns_of. cbn [flat_map app]. eapply IH; eauto.
  Qed.
End RunCie.

(* the two conversion loops compute the located normal form of the meanings of the source instructions *)
Lemma conv_fde_from_means caf daf xconv plc p : sp_caf p = caf -> sp_daf p = daf ->
  forall items o l, conv_fde_from caf daf xconv o items = Ok l ->
  exists is ms, items = map It is /\ Forall2 (means (conv_R xconv plc) plc p) is ms /\ locate o ms = l /\
                Forall (fun x => o <= fst x < 2 ^ 32 \/ fst x = o) l.
Proof.
  intros Hc Hd. induction items as [|it items IH]; intros o l H.
  - cbn in H. inversion H; subst. exists [], []. repeat split; constructor.
  - destruct it as [i|e| |]; cbn [conv_fde_from] in H; try discriminate.
    apply bind_ok in H. destruct H as [[o1 c] [Hstep H]].
    apply bind_ok in H. destruct H as [l1 [Hl1 H]]. inversion H; subst l; clear H.
    destruct (IH o1 l1 Hl1) as [is [ms [-> [Hms [Hloc Hb]]]]].
    destruct (conv_step_means caf daf xconv plc p o i o1 c Hc Hd Hstep) as [m [Hm Hcase]].
    exists (i :: is), (m :: ms). split; [reflexivity|]. split; [constructor; assumption|].
    destruct m as [x|b|]; cbn [locate].
    + destruct Hcase as [-> ->]. split; [rewrite Hloc; reflexivity|].
      constructor; [right; reflexivity|exact Hb].
    + destruct Hcase as [-> [-> Hlt]]. split; [exact Hloc|].
      eapply Forall_impl; [|exact Hb]. intros [a x]; cbn [fst]. lia.
    + destruct Hcase as [-> ->]. split; [exact Hloc|exact Hb].
Qed.

Lemma conv_cie_from_means caf daf xconv plc p : sp_caf p = caf -> sp_daf p = daf ->
  forall items o l, conv_cie_from caf daf xconv o items = Ok l ->
  exists is ms, items = map It is /\ Forall2 (means (conv_R xconv plc) plc p) is ms /\ insns_of ms = l.
Proof.
  intros Hc Hd. induction items as [|it items IH]; intros o l H.
  - cbn in H. inversion H; subst. exists [], []. repeat split; constructor.
  - destruct it as [i|e| |]; cbn [conv_cie_from] in H; try discriminate.
    apply bind_ok in H. destruct H as [[o1 c] [Hstep H]].
    apply bind_ok in H. destruct H as [l1 [Hl1 H]]. inversion H; subst l; clear H.
    destruct (IH o1 l1 Hl1) as [is [ms [-> [Hms Hloc]]]].
    destruct (conv_step_means caf daf xconv plc p o i o1 c Hc Hd Hstep) as [m [Hm Hcase]].
    exists (i :: is), (m :: ms). split; [reflexivity|]. split; [constructor; assumption|].
    unfold insns_of in *. cbn [flat_map].
    destruct m as [x|b|]; cbn [app].
    + destruct Hcase as [-> ->]. rewrite Hloc; reflexivity.
    + destruct Hcase as [-> _]. exact Hloc.
    + destruct Hcase as [-> _]. exact Hloc.
Qed.

(* code offsets are relative: a located program means the same from any starting address *)
Lemma den_fde_shift plc b : forall ms o cur,
  den_fde plc (b + cur) (locate (b + o) ms) = den_fde plc cur (locate o ms).
Proof.
  induction ms as [|m ms IH]; intros o cur; [reflexivity|].
  destruct m as [c|d|]; cbn [locate].
  - cbn [den_fde]. rewrite (IH o o).
    replace (b + o =? b + cur) with (o =? cur) by lia. replace (b + o - (b + cur)) with (o - cur) by lia. reflexivity.
  - rewrite <- N.add_assoc. apply IH.
  - apply IH.
Qed.

(* ------------------------------------------------------------------ the table of a CIE + FDE pair *)

Lemma guard_nocaps ini s : guard no_caps ini s = Ok tt.
Proof. reflexivity. Qed.

Lemma gap_empty s s' rows a : s_loc s' = s_loc s -> content_at (gap s' s :: rows) a = content_at rows a.
Proof.
  intros H. rewrite content_at_cons. unfold covers, gap. cbn [sr_start sr_end]. rewrite H.
  destruct ((s_loc s <=? a) && (a <? s_loc s)) eqn:E; [lia|reflexivity].
Qed.

(* both programs given by their meanings *)
Lemma table_of_means R plc p (cis fis : list insn) (cms fms : list meaning) init end_ rows :
  sp_asize p <= 8 ->
  Forall2 (means R plc p) cis cms -> Forall2 (means R plc p) fis fms ->
  run_spec p init end_ (map It cis) (map It fis) = (rows, Done) ->
  exists rows',
    run_spec (unit_params (sp_asize p)) init end_
             (map It (map (den_cfi plc) (insns_of cms))) (map It (den_fde plc 0 (locate 0 fms))) = (rows', Done) /\
    forall a, init <= a -> a < end_ -> unw_rel R (content_at rows a) (content_at rows' a).
Proof.
  intros Hasz Hc Hf Hrun. unfold run_spec, run_spec_lim in *.
  destruct (spec_run no_caps p None 0 init_state (map It cis)) as [crows [co sc]] eqn:Ec.
  destruct co; try (inversion Hrun; fail).
  assert (H0 : st_rel R init_state init_state).
  { unfold st_rel, init_state. cbn. repeat split; constructor. }
  destruct (cie_run R plc p cis cms Hc None None 0 0 init_state init_state crows sc H0 eq_refl Ec)
    as [crows' [sc' [Ec' Hsc]]].
  rewrite Ec'. rewrite guard_nocaps in *.
  destruct (spec_run no_caps p (Some (s_rules sc)) end_ (with_loc init sc) (map It fis)) as [frows [fo fs]] eqn:Ef.
  inversion Hrun; subst frows fo. clear Hrun.
  assert (Hini : ini_rel R (Some (s_rules sc)) (Some (s_rules sc'))).
  { cbn [ini_rel]. eexists; split; [reflexivity|]. destruct Hsc as [_ [Hm _]]. exact Hm. }
  assert (Hs0 : st_rel R (with_loc init sc) (with_loc init sc')) by (apply with_loc_rel; exact Hsc).
  destruct (located_run R plc p Hasz fis fms Hf _ _ end_ _ _ rows fs Hs0 Hini
              ltac:(cbn [with_loc s_loc]; lia) ltac:(left; reflexivity) Ef) as [rows' [fs' [Hr' [_ Hcov]]]].
  cbn [with_loc s_loc] in Hr'.
  replace init with (init + 0) in Hr' at 2 3 by lia. rewrite den_fde_shift in Hr'.
  rewrite Hr'. eexists; split; [reflexivity|].
  intros a Ha He. specialize (Hcov a). cbn [with_loc s_loc] in Hcov.
  rewrite gap_empty in Hcov by reflexivity. apply Hcov; assumption.
Qed.

(* both programs given by the two conversion loops *)
Lemma cfi_insn_convert_sound_lemma (p : sparams) (xconv : uexpr -> res (list byte)) (plc : list byte -> uexpr)
      (cie fde : list item) (cl : list cfi) (fl : list (N * cfi)) (init end_ : N) (rows : list srow) :
  sp_asize p <= 8 ->
  conv_cie (sp_caf p) (sp_daf p) xconv cie = Ok cl ->
  conv_fde (sp_caf p) (sp_daf p) xconv fde = Ok fl ->
  run_spec p init end_ cie fde = (rows, Done) ->
  exists rows',
    converted_rows plc (sp_asize p) init end_ cl fl = (rows', Done) /\
    forall a, init <= a -> a < end_ ->
      unw_rel (conv_R xconv plc) (content_at rows a) (content_at rows' a).
Proof.
  intros Hasz Hc Hf Hrun.
  destruct (conv_cie_from_means _ _ xconv plc p eq_refl eq_refl cie 0 cl Hc) as [cis [cms [-> [Hcm <-]]]].
  destruct (conv_fde_from_means _ _ xconv plc p eq_refl eq_refl fde 0 fl Hf) as [fis [fms [-> [Hfm [<- _]]]]].
  unfold converted_rows. eapply table_of_means; eauto.
Qed.
