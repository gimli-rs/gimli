(* Proofs/OpEvalSim.v — the evaluator model of C07 (Model/OpEval.v) does not see the LAYOUT of a program:
   two bytecodes that decode, boundary by boundary, to the same operations — branch displacements re-targeted
   to the corresponding boundaries — produce the same conversation (same requests, same final result and
   counters) for every configuration, answer list, fuel and build mode.  OpEvalSame applies this to the written bytes. *)
From Coq Require Import List NArith ZArith Bool Lia ZifyBool ZifyN ZifyNat.
From Coq.Strings Require Import Byte.
Require Import GV.Base.Res GV.Base.Byt GV.Base.Ints GV.Model.Leb GV.Model.Prim.
Require Import GV.Model.OpDec GV.Model.OpVal GV.Model.OpEval GV.Spec.StackSpec GV.Proofs.OpDecProofs GV.Proofs.OpEvalProofs GV.Proofs.Lib.
Import ListNotations.
Local Open Scope N_scope.

Lemma parse_any dbg e bs : parse_op dbg e bs = parse_op true e bs.
Proof. destruct dbg; [reflexivity|symmetry; apply parse_op_dbg]. Qed.

Lemma compute_pc_ext s1 s2 d :
  s_bytecode s1 = s_bytecode s2 -> s_pc s1 = s_pc s2 -> compute_pc s1 d = compute_pc s2 d.
Proof. intros H1 H2. unfold compute_pc. rewrite H1, H2. reflexivity. Qed.

Section Sim.
Variable F : fops.
Variable e : enc.
Variables P1 P2 : list byte.
(* corresponding operation boundaries (offsets into P1, P2) *)
Variable pts : list (nat * nat).

Definition i16 (d : Z) : Prop := (- 32768 <= d < 32768)%Z.

(* how the operations at corresponding boundaries must relate; (a', b') = the boundaries after them *)
Definition orel (a' b' : nat) (o1 o2 : operation) : Prop :=
  match o1, o2 with
  | OSkip d1, OSkip d2 | OBra d1, OBra d2 =>
      i16 d1 /\ i16 d2 /\
      exists aj bj, In (aj, bj) pts /\ (Z.of_nat a' + d1 = Z.of_nat aj)%Z /\ (Z.of_nat b' + d2 = Z.of_nat bj)%Z
  | OSkip _, _ | OBra _, _ | _, OSkip _ | _, OBra _ => False
  | _, _ => o1 = o2
  end.

Definition layout_ok : Prop :=
  In (0%nat, 0%nat) pts /\
  N.of_nat (length P1) < 2 ^ 63 /\ N.of_nat (length P2) < 2 ^ 63 /\
  forall a b, In (a, b) pts ->
    (a <= length P1)%nat /\ (b <= length P2)%nat /\ (a = length P1 <-> b = length P2) /\
    ((a < length P1)%nat ->
     exists o1 o2 a' b', In (a', b') pts /\
       parse_op true e (skipn a P1) = Ok (o1, skipn a' P1) /\
       parse_op true e (skipn b P2) = Ok (o2, skipn b' P2) /\
       orel a' b' o1 o2).

Hypothesis LO : layout_ok.

(* frames (pc, bytecode): identical, or the two programs at corresponding boundaries *)
Definition FR (f1 f2 : list byte * list byte) : Prop :=
  f1 = f2 \/
  (snd f1 = P1 /\ snd f2 = P2 /\ exists a b, In (a, b) pts /\ fst f1 = skipn a P1 /\ fst f2 = skipn b P2).

Definition SR (s1 s2 : st) : Prop :=
  s_stack s1 = s_stack s2 /\ s_result s1 = s_result s2 /\ s_iter s1 = s_iter s2 /\ s_vres s1 = s_vres s2 /\
  s_nops s1 = s_nops s2 /\ s_nparse s1 = s_nparse s2 /\
  FR (s_pc s1, s_bytecode s1) (s_pc s2, s_bytecode s2) /\ Forall2 FR (s_estack s1) (s_estack s2).

Definition RR {X} (r1 r2 : res (X * st)) : Prop :=
  match r1, r2 with
  | Ok (x1, s1), Ok (x2, s2) => x1 = x2 /\ SR s1 s2
  | Err e1, Err e2 => e1 = e2
  | Panic, Panic => True
  | OutOfFuel, OutOfFuel => True
  | _, _ => False
  end.
Definition RS (r1 r2 : res st) : Prop :=
  match r1, r2 with
  | Ok s1, Ok s2 => SR s1 s2
  | Err e1, Err e2 => e1 = e2
  | Panic, Panic => True
  | OutOfFuel, OutOfFuel => True
  | _, _ => False
  end.

Lemma skipn_nil_iff {A} (l : list A) n : (n <= length l)%nat -> (skipn n l = [] <-> n = length l).
Proof.
  intros H. split.
  - intros E. pose proof (skipn_length n l) as L. rewrite E in L. cbn in L. lia.
  - intros ->. apply skipn_all.
Qed.

(* branch landing on frames *)
Definition landing (bc1 pc1 bc2 pc2 : list byte) (d1 d2 : Z) : Prop :=
  forall s1 s2, s_bytecode s1 = bc1 -> s_pc s1 = pc1 -> s_bytecode s2 = bc2 -> s_pc s2 = pc2 ->
    match compute_pc s1 d1, compute_pc s2 d2 with
    | Ok q1, Ok q2 => FR (q1, bc1) (q2, bc2)
    | Err e1, Err e2 => e1 = e2
    | Panic, Panic => True
    | OutOfFuel, OutOfFuel => True
    | _, _ => False
    end.

(* the same operation, except that two Skips or two Bras may differ in displacement, then related by J *)
Definition same_op (J : Z -> Z -> Prop) (o1 o2 : operation) : Prop :=
  match o1 with
  | OSkip d1 => exists d2, o2 = OSkip d2 /\ J d1 d2
  | OBra d1 => exists d2, o2 = OBra d2 /\ J d1 d2
  | _ => o2 = o1
  end.

Lemma same_op_refl (J : Z -> Z -> Prop) o : (forall d, J d d) -> same_op J o o.
Proof. intros HJ. destruct o; cbn [same_op]; try reflexivity; eexists; (split; [reflexivity|apply HJ]). Qed.

Lemma not_branch (X : Prop) o : match o with OSkip _ | OBra _ => False | _ => X end -> X.
Proof. destruct o; trivial; contradiction. Qed.

(* orel is a match on both operations; read it as a match on the first only *)
Lemma orel_same_op a' b' o1 o2 : orel a' b' o1 o2 ->
  same_op (fun d1 d2 => i16 d1 /\ i16 d2 /\
             exists aj bj, In (aj, bj) pts /\ (Z.of_nat a' + d1 = Z.of_nat aj)%Z /\ (Z.of_nat b' + d2 = Z.of_nat bj)%Z) o1 o2.
Proof.
  intros H. destruct o1; cbn [same_op]; try (symmetry; exact (not_branch _ o2 H)).
  all: destruct o2; try contradiction; eexists; (split; [reflexivity|exact H]).
Qed.

Lemma landing_same bc pc d : landing bc pc bc pc d d.
Proof.
  intros s1 s2 H1 H2 H3 H4. rewrite (compute_pc_ext s1 s2 d) by congruence.
  destruct (compute_pc s2 d); auto. left. reflexivity.
Qed.

Lemma landing_pts a' b' d1 d2 aj bj :
  In (a', b') pts -> In (aj, bj) pts -> i16 d1 -> i16 d2 ->
  (Z.of_nat a' + d1 = Z.of_nat aj)%Z -> (Z.of_nat b' + d2 = Z.of_nat bj)%Z ->
  landing P1 (skipn a' P1) P2 (skipn b' P2) d1 d2.
Proof.
  intros Hin Hj Hd1 Hd2 E1 E2 s1 s2 B1 C1 B2 C2.
  destruct LO as [_ [L1 [L2 Hp]]].
  destruct (Hp _ _ Hin) as [Ha [Hb _]]. destruct (Hp _ _ Hj) as [Haj [Hbj _]].
  rewrite (compute_pc_exact s1 d1); [|rewrite B1, C1; apply sfx_skipn|exact Hd1|rewrite B1; exact L1].
  rewrite (compute_pc_exact s2 d2); [|rewrite B2, C2; apply sfx_skipn|exact Hd2|rewrite B2; exact L2].
  cbv zeta. rewrite B1, C1, B2, C2, !skipn_length.
  replace (Z.of_nat (length P1) - Z.of_nat (length P1 - a') + d1)%Z with (Z.of_nat aj) by lia.
  replace (Z.of_nat (length P2) - Z.of_nat (length P2 - b') + d2)%Z with (Z.of_nat bj) by lia.
  destruct ((0 <=? Z.of_nat aj)%Z && (Z.of_nat aj <=? Z.of_nat (length P1))%Z) eqn:C; [|lia].
  destruct ((0 <=? Z.of_nat bj)%Z && (Z.of_nat bj <=? Z.of_nat (length P2))%Z) eqn:C'; [|lia].
  rewrite !Nat2Z.id. right. split; [reflexivity|]. split; [reflexivity|]. exists aj, bj. auto.
Qed.

(* the computation guarding the InvalidExpressionTerminator error of evaluate_internal *)
Definition term {X} (dbg : bool) (bc q : list byte) : res (X * st) :=
  let* d := chk_sub 64 dbg (N.of_nat (length bc)) (N.of_nat (length q)) in
  let* _ := chk_sub 64 dbg d 1 in Err EInvalidExpressionTerminator.

(* decoding at related frames *)
Lemma parse_sim dbg pc1 bc1 pc2 bc2 :
  FR (pc1, bc1) (pc2, bc2) ->
  (exists o1 o2 q1 q2,
     parse_op dbg e pc1 = Ok (o1, q1) /\ parse_op dbg e pc2 = Ok (o2, q2) /\
     FR (q1, bc1) (q2, bc2) /\ same_op (landing bc1 q1 bc2 q2) o1 o2 /\
     (forall X dbg', @RR X (term dbg' bc1 q1) (term dbg' bc2 q2))) \/
  (exists er, parse_op dbg e pc1 = Err er /\ parse_op dbg e pc2 = Err er).
Proof.
  intros [E|[B1 [B2 [a [b [Hin [E1 E2]]]]]]].
  - inversion E; subst. pose proof (parse_op_no_panic_lemma dbg e pc2) as [NP NF].
    destruct (parse_op dbg e pc2) as [[o q]|er| |] eqn:Ep; try congruence.
    + left. exists o, o, q, q. split; [reflexivity|]. split; [reflexivity|]. split; [left; reflexivity|]. split.
      * apply same_op_refl. intros d. apply landing_same.
      * intros X dbg'. unfold term.
        destruct (chk_sub 64 dbg' (N.of_nat (length bc2)) (N.of_nat (length q))); cbn [bind]; try reflexivity; try exact I.
        destruct (chk_sub 64 dbg' a 1); cbn [bind]; try reflexivity; exact I.
    + right. exists er. auto.
  - cbn [fst snd] in *. subst. rewrite !(parse_any dbg).
    destruct LO as [_ [L1 [L2 Hp]]]. destruct (Hp _ _ Hin) as [Ha [Hb [Hab Hop]]].
    destruct (Nat.eq_dec a (length P1)) as [Ea|Na].
    + right. assert (b = length P2) by (apply Hab; exact Ea). subst a b. rewrite !skipn_all. exists EUnexpectedEof. auto.
    + destruct Hop as [o1 [o2 [a' [b' [Hin' [Q1 [Q2 Ho]]]]]]]; [lia|].
      left. exists o1, o2, (skipn a' P1), (skipn b' P2). rewrite Q1, Q2.
      destruct (Hp _ _ Hin') as [Ha' [Hb' _]].
      pose proof (parse_op_shorter _ _ _ _ _ Q1) as S1. pose proof (parse_op_shorter _ _ _ _ _ Q2) as S2.
      rewrite !skipn_length in S1, S2.
      split; [reflexivity|]. split; [reflexivity|]. split.
      { right. cbn [fst snd]. split; [reflexivity|]. split; [reflexivity|]. exists a', b'. auto. }
      split.
      { apply orel_same_op in Ho. destruct o1; cbn [same_op] in Ho |- *; try exact Ho;
          destruct Ho as [d2 [-> [I1 [I2 [aj [bj [Hj [Z1 Z2]]]]]]]]; exists d2; (split; [reflexivity|]);
          eapply landing_pts; eauto. }
      intros X dbg'. unfold term. rewrite !skipn_length.
      rewrite !chk_sub_ok by lia. cbn [bind]. rewrite !chk_sub_ok by lia. reflexivity.
Qed.

(* ---- the step functions preserve the relation ---- *)
Ltac srsplit := unfold SR; cbn [s_bytecode s_pc s_stack s_estack s_result s_iter s_vres s_nops s_nparse];
  repeat split; try reflexivity; try assumption.

Lemma push_sim c s1 s2 v : SR s1 s2 -> RS (push c s1 v) (push c s2 v).
Proof.
  intros (H1 & H2 & H3 & H4 & H5 & H6 & H7 & H8). unfold push. rewrite H1.
  destruct (full (c_cap_stack c) (s_stack s2)); cbn; [reflexivity|].
  destruct s1, s2; cbn in *; subst. srsplit.
Qed.
Lemma pop_sim s1 s2 : SR s1 s2 -> RR (pop s1) (pop s2).
Proof.
  intros (H1 & H2 & H3 & H4 & H5 & H6 & H7 & H8). unfold pop. rewrite H1.
  destruct (s_stack s2) as [|v r]; cbn; [reflexivity|]. split; [reflexivity|].
  destruct s1, s2; cbn in *; subst. srsplit.
Qed.
Lemma push_piece_sim c s1 s2 p : SR s1 s2 -> RS (push_piece c s1 p) (push_piece c s2 p).
Proof.
  intros (H1 & H2 & H3 & H4 & H5 & H6 & H7 & H8). unfold push_piece. rewrite H2.
  destruct (full (c_cap_res c) (s_result s2)); cbn; [reflexivity|].
  destruct s1, s2; cbn in *; subst. srsplit.
Qed.

(* monadic glue *)
Lemma RR_bind {X Y} (m1 m2 : res (X * st)) (f1 f2 : X * st -> res (Y * st)) :
  RR m1 m2 -> (forall x s1 s2, SR s1 s2 -> RR (f1 (x, s1)) (f2 (x, s2))) -> RR (bind m1 f1) (bind m2 f2).
Proof.
  destruct m1 as [[x1 s1]|e1| |], m2 as [[x2 s2]|e2| |]; cbn; intros H K; try contradiction; auto.
  destruct H as [-> H]. apply K. exact H.
Qed.
Lemma RS_bind {Y} (m1 m2 : res st) (f1 f2 : st -> res (Y * st)) :
  RS m1 m2 -> (forall s1 s2, SR s1 s2 -> RR (f1 s1) (f2 s2)) -> RR (bind m1 f1) (bind m2 f2).
Proof.
  destruct m1 as [s1|e1| |], m2 as [s2|e2| |]; cbn; intros H K; try contradiction; auto.
Qed.
Lemma RS_bind_S (m1 m2 : res st) (f1 f2 : st -> res st) :
  RS m1 m2 -> (forall s1 s2, SR s1 s2 -> RS (f1 s1) (f2 s2)) -> RS (bind m1 f1) (bind m2 f2).
Proof.
  destruct m1 as [s1|e1| |], m2 as [s2|e2| |]; cbn; intros H K; try contradiction; auto.
Qed.
Lemma RR_bind_S {X} (m1 m2 : res (X * st)) (f1 f2 : X * st -> res st) :
  RR m1 m2 -> (forall x s1 s2, SR s1 s2 -> RS (f1 (x, s1)) (f2 (x, s2))) -> RS (bind m1 f1) (bind m2 f2).
Proof.
  destruct m1 as [[x1 s1]|e1| |], m2 as [[x2 s2]|e2| |]; cbn; intros H K; try contradiction; auto.
  destruct H as [-> H]. apply K. exact H.
Qed.
Lemma pure_bind {A Y} (m : res A) (f1 f2 : A -> res (Y * st)) :
  (forall a, RR (f1 a) (f2 a)) -> RR (bind m f1) (bind m f2).
Proof. destruct m; cbn; auto. Qed.
Lemma pure_bind_S {A} (m : res A) (f1 f2 : A -> res st) :
  (forall a, RS (f1 a) (f2 a)) -> RS (bind m f1) (bind m f2).
Proof. destruct m; cbn; auto. Qed.
Lemma RR_ok {X} (x : X) s1 s2 : SR s1 s2 -> RR (Ok (x, s1)) (Ok (x, s2)).
Proof. cbn. auto. Qed.
Lemma RR_err {X} er : @RR X (Err er) (Err er).
Proof. reflexivity. Qed.

Lemma binop_sim c mask s1 s2 f : SR s1 s2 -> RR (binop c mask s1 f) (binop c mask s2 f).
Proof.
  intros H. unfold binop.
  apply RR_bind; [apply pop_sim; exact H|]. intros rhs a1 a2 Ha.
  apply RR_bind; [apply pop_sim; exact Ha|]. intros lhs b1 b2 Hb.
  apply pure_bind. intros r. apply RS_bind; [apply push_sim; exact Hb|]. intros; apply RR_ok; assumption.
Qed.
Lemma unop_sim c mask s1 s2 f : SR s1 s2 -> RR (unop c mask s1 f) (unop c mask s2 f).
Proof.
  intros H. unfold unop.
  apply RR_bind; [apply pop_sim; exact H|]. intros v a1 a2 Ha.
  apply pure_bind. intros r. apply RS_bind; [apply push_sim; exact Ha|]. intros; apply RR_ok; assumption.
Qed.

Lemma SR_set_pc s1 s2 q1 q2 :
  SR s1 s2 -> FR (q1, s_bytecode s1) (q2, s_bytecode s2) -> SR (set_pc s1 q1) (set_pc s2 q2).
Proof. intros (H1 & H2 & H3 & H4 & H5 & H6 & H7 & H8) Hq. destruct s1, s2; cbn in *; subst. srsplit. Qed.
Lemma SR_count s1 s2 : SR s1 s2 -> SR (count_op (count_parse s1)) (count_op (count_parse s2)).
Proof. intros (H1 & H2 & H3 & H4 & H5 & H6 & H7 & H8). destruct s1, s2; cbn in *; subst. srsplit. Qed.
Lemma SR_count_parse s1 s2 : SR s1 s2 -> SR (count_parse s1) (count_parse s2).
Proof. intros (H1 & H2 & H3 & H4 & H5 & H6 & H7 & H8). destruct s1, s2; cbn in *; subst. srsplit. Qed.
Lemma SR_set_vres s1 s2 v : SR s1 s2 -> SR (set_vres s1 v) (set_vres s2 v).
Proof. intros (H1 & H2 & H3 & H4 & H5 & H6 & H7 & H8). destruct s1, s2; cbn in *; subst. srsplit. Qed.
Lemma SR_set_iter s1 s2 v : SR s1 s2 -> SR (set_iter s1 v) (set_iter s2 v).
Proof. intros (H1 & H2 & H3 & H4 & H5 & H6 & H7 & H8). destruct s1, s2; cbn in *; subst. srsplit. Qed.

Lemma branch_sim s1 s2 d1 d2 :
  SR s1 s2 -> landing (s_bytecode s1) (s_pc s1) (s_bytecode s2) (s_pc s2) d1 d2 ->
  RR (let* pc2 := compute_pc s1 d1 in Ok (RIncomplete, set_pc s1 pc2))
     (let* pc2 := compute_pc s2 d2 in Ok (RIncomplete, set_pc s2 pc2)).
Proof.
  intros H L. specialize (L s1 s2 eq_refl eq_refl eq_refl eq_refl).
  destruct (compute_pc s1 d1) as [q1|e1| |], (compute_pc s2 d2) as [q2|e2| |]; cbn; try contradiction; auto.
  split; [reflexivity|]. apply SR_set_pc; assumption.
Qed.

Lemma landing_after_pop s1 s2 s1' s2' d1 d2 :
  s_bytecode s1' = s_bytecode s1 -> s_pc s1' = s_pc s1 -> s_bytecode s2' = s_bytecode s2 -> s_pc s2' = s_pc s2 ->
  landing (s_bytecode s1) (s_pc s1) (s_bytecode s2) (s_pc s2) d1 d2 ->
  landing (s_bytecode s1') (s_pc s1') (s_bytecode s2') (s_pc s2') d1 d2.
Proof. intros -> -> -> ->. auto. Qed.

Lemma pop_code s v s' : pop s = Ok (v, s') -> s_bytecode s' = s_bytecode s /\ s_pc s' = s_pc s.
Proof. intros H. apply pop_inv in H. destruct H as [r [_ ->]]. destruct s; split; reflexivity. Qed.

(* Evaluation::evaluate_one_operation *)
Lemma eoo_sim dbg c mask s1 s2 :
  c_enc c = e -> SR s1 s2 ->
  RR (evaluate_one_operation F dbg c mask s1) (evaluate_one_operation F dbg c mask s2).
Proof.
  intros Hc H. unfold evaluate_one_operation. rewrite Hc.
  pose proof (SR_count _ _ H) as H0.
  set (t1 := count_op (count_parse s1)) in *. set (t2 := count_op (count_parse s2)) in *.
  destruct H0 as (K1 & K2 & K3 & K4 & K5 & K6 & K7 & K8).
  destruct (parse_sim dbg _ _ _ _ K7) as [[o1 [o2 [q1 [q2 [Q1 [Q2 [HF [HO _]]]]]]]]|[er [Q1 Q2]]];
    rewrite Q1, Q2; cbn [bind]; [|reflexivity].
  assert (HS : SR (set_pc t1 q1) (set_pc t2 q2)) by (apply SR_set_pc; [repeat split; assumption|exact HF]).
  assert (HL : forall d1 d2, landing (s_bytecode t1) q1 (s_bytecode t2) q2 d1 d2 ->
               landing (s_bytecode (set_pc t1 q1)) (s_pc (set_pc t1 q1)) (s_bytecode (set_pc t2 q2)) (s_pc (set_pc t2 q2)) d1 d2).
  { intros d1 d2 L. destruct t1, t2; exact L. }
  set (u1 := set_pc t1 q1) in *. set (u2 := set_pc t2 q2) in *.
  destruct o1; cbn [same_op] in HO;
    match type of HO with ex _ => destruct HO as [d2 [-> HO]] | _ => subst o2 end.
  all: try (apply binop_sim; exact HS).
  all: try (apply unop_sim; exact HS).
  all: try (apply RR_ok; exact HS).
  all: try match goal with |- RR (Err _) (Err _) => reflexivity end.
  - (* Deref *)
    destruct (e_asz e <? size); [reflexivity|].
    apply RR_bind; [apply pop_sim; exact HS|]. intros en a1 a2 Ha. apply pure_bind. intros addr.
    destruct space.
    + apply RR_bind; [apply pop_sim; exact Ha|]. intros en2 b1 b2 Hb. apply pure_bind. intros sp. apply RR_ok; exact Hb.
    + apply RR_ok; exact Ha.
  - (* Drop *) apply RR_bind; [apply pop_sim; exact HS|]. intros x a1 a2 Ha. apply RR_ok; exact Ha.
  - (* Pick *)
    destruct HS as (S1 & S') . rewrite S1.
    destruct (N.of_nat (length (s_stack u2)) <=? index); [reflexivity|].
    destruct (nth_error (s_stack u2) (N.to_nat index)); [|exact I].
    apply RS_bind; [apply push_sim; split; assumption|]. intros; apply RR_ok; assumption.
  - (* Swap *)
    apply RR_bind; [apply pop_sim; exact HS|]. intros top a1 a2 Ha.
    apply RR_bind; [apply pop_sim; exact Ha|]. intros nx b1 b2 Hb.
    apply RS_bind; [apply push_sim; exact Hb|]. intros c1 c2 Hcc.
    apply RS_bind; [apply push_sim; exact Hcc|]. intros; apply RR_ok; assumption.
  - (* Rot *)
    apply RR_bind; [apply pop_sim; exact HS|]. intros one a1 a2 Ha.
    apply RR_bind; [apply pop_sim; exact Ha|]. intros two b1 b2 Hb.
    apply RR_bind; [apply pop_sim; exact Hb|]. intros three c1 c2 Hcc.
    apply RS_bind; [apply push_sim; exact Hcc|]. intros d1 d2 Hd.
    apply RS_bind; [apply push_sim; exact Hd|]. intros e1 e2 He.
    apply RS_bind; [apply push_sim; exact He|]. intros; apply RR_ok; assumption.
  - (* PlusConstant *)
    apply RR_bind; [apply pop_sim; exact HS|]. intros lhs a1 a2 Ha.
    apply pure_bind. intros rhs. apply pure_bind. intros r.
    apply RS_bind; [apply push_sim; exact Ha|]. intros; apply RR_ok; assumption.
  - (* Bra *)
    pose proof (pop_sim _ _ HS) as HP.
    destruct (pop u1) as [[en a1]|x1| |] eqn:P1', (pop u2) as [[en2 a2]|x2| |] eqn:P2'; cbn in HP; try contradiction;
      cbn [bind]; auto.
    destruct HP as [<- Ha]. apply pure_bind. intros v.
    destruct (negb (v =? 0)); [|apply RR_ok; exact Ha].
    apply branch_sim; [exact Ha|].
    destruct (pop_code _ _ _ P1') as [B1 C1]. destruct (pop_code _ _ _ P2') as [B2 C2].
    rewrite B1, C1, B2, C2. apply HL. exact HO.
  - (* Skip *) apply branch_sim; [exact HS|]. apply HL. exact HO.
  - (* UnsignedConstant *) apply RS_bind; [apply push_sim; exact HS|]. intros; apply RR_ok; assumption.
  - (* SignedConstant *) apply RS_bind; [apply push_sim; exact HS|]. intros; apply RR_ok; assumption.
  - (* PushObjectAddress *)
    destruct (c_obj c); [|reflexivity]. apply RS_bind; [apply push_sim; exact HS|]. intros; apply RR_ok; assumption.
  - (* TLS *)
    apply RR_bind; [apply pop_sim; exact HS|]. intros en a1 a2 Ha. apply pure_bind. intros ix. apply RR_ok; exact Ha.
  - (* Piece *)
    apply RR_bind.
    + destruct HS as (S1 & S'). rewrite S1. destruct (s_stack u2) eqn:Est.
      * apply RR_ok. split; [rewrite Est; exact S1|exact S'].
      * apply RR_bind; [apply pop_sim; split; [rewrite Est; exact S1|exact S']|]. intros en a1 a2 Ha.
        apply pure_bind. intros ad. apply RR_ok; exact Ha.
    + intros loc a1 a2 Ha. apply RS_bind; [apply push_piece_sim; exact Ha|]. intros; apply RR_ok; assumption.
  - (* StackValue *)
    apply RR_bind; [apply pop_sim; exact HS|]. intros v a1 a2 Ha. apply RR_ok; exact Ha.
Qed.

(* Evaluation::end_of_expression *)
Lemma FR_nil_iff pc1 bc1 pc2 bc2 : FR (pc1, bc1) (pc2, bc2) -> (pc1 = [] <-> pc2 = []).
Proof.
  intros [E|[B1 [B2 [a [b [Hin [E1 E2]]]]]]].
  - inversion E; subst. tauto.
  - cbn [fst snd] in *. subst. destruct LO as [_ [_ [_ Hp]]]. destruct (Hp _ _ Hin) as [Ha [Hb [Hab _]]].
    rewrite (skipn_nil_iff P1 a Ha), (skipn_nil_iff P2 b Hb). exact Hab.
Qed.

Lemma eoe_loop_sim : forall es1 es2 pc1 bc1 pc2 bc2,
  FR (pc1, bc1) (pc2, bc2) -> Forall2 FR es1 es2 ->
  let '(b1, (p1, c1, r1)) := eoe_loop pc1 bc1 es1 in
  let '(b2, (p2, c2, r2)) := eoe_loop pc2 bc2 es2 in
  b1 = b2 /\ FR (p1, c1) (p2, c2) /\ Forall2 FR r1 r2.
Proof.
  induction es1 as [|[np1 nb1] es1 IH]; intros es2 pc1 bc1 pc2 bc2 HF HE;
    inversion HE as [|? [np2 nb2] ? ? Hh Ht]; subst; destruct (FR_nil_iff _ _ _ _ HF) as [Hn Hn'];
    destruct pc1, pc2; cbn [eoe_loop]; auto;
    first [discriminate (Hn eq_refl)|discriminate (Hn' eq_refl)|apply IH; assumption].
Qed.

Lemma eoe_sim s1 s2 : SR s1 s2 ->
  fst (end_of_expression s1) = fst (end_of_expression s2) /\ SR (snd (end_of_expression s1)) (snd (end_of_expression s2)).
Proof.
  intros (H1 & H2 & H3 & H4 & H5 & H6 & H7 & H8). unfold end_of_expression.
  pose proof (eoe_loop_sim _ _ _ _ _ _ H7 H8) as L.
  destruct (eoe_loop (s_pc s1) (s_bytecode s1) (s_estack s1)) as [b1 [[p1 c1] r1]].
  destruct (eoe_loop (s_pc s2) (s_bytecode s2) (s_estack s2)) as [b2 [[p2 c2] r2]].
  destruct L as [-> [L1 L2]]. cbn [fst snd]. split; [reflexivity|].
  destruct s1, s2; cbn in *; subst. srsplit.
Qed.

Lemma finish_sim c mask s1 s2 : SR s1 s2 -> RR (finish c mask s1) (finish c mask s2).
Proof.
  intros H. unfold finish. destruct H as (H1 & H2 & H'). rewrite H2.
  destruct (s_result s2) eqn:Er.
  - apply RR_bind; [apply pop_sim; split; [exact H1|split; [rewrite Er; exact H2|exact H']]|].
    intros en a1 a2 Ha. apply pure_bind. intros ad.
    apply RS_bind; [apply push_piece_sim; apply SR_set_vres; exact Ha|]. intros; apply RR_ok; assumption.
  - apply RR_ok. split; [exact H1|split; [rewrite Er; exact H2|exact H']].
Qed.

Lemma count_iteration_sim dbg c s1 s2 : SR s1 s2 -> RS (count_iteration dbg c s1) (count_iteration dbg c s2).
Proof.
  intros H. unfold count_iteration. destruct (c_max c); [|exact H].
  destruct H as (H1 & H2 & H3 & H'). rewrite H3. destruct (n <=? s_iter s2); [reflexivity|].
  apply pure_bind_S. intros it. cbn. apply SR_set_iter. repeat split; tauto.
Qed.

(* Evaluation::evaluate_internal *)
Lemma ei_sim dbg c mask : c_enc c = e -> forall fuel s1 s2, SR s1 s2 ->
  RR (evaluate_internal F fuel dbg c mask s1) (evaluate_internal F fuel dbg c mask s2).
Proof.
  intros Hc. induction fuel as [|fuel IH]; intros s1 s2 H; [exact I|].
  cbn [evaluate_internal].
  destruct (eoe_sim _ _ H) as [Eb Es].
  destruct (end_of_expression s1) as [b1 t1], (end_of_expression s2) as [b2 t2]. cbn [fst snd] in Eb, Es. subst b2.
  destruct b1; [apply finish_sim; exact Es|].
  apply RS_bind; [apply count_iteration_sim; exact Es|]. intros u1 u2 Hu.
  apply RR_bind; [apply eoo_sim; assumption|]. intros r v1 v2 Hv.
  destruct r.
  - apply IH; exact Hv.
  - destruct (eoe_sim _ _ Hv) as [Eb' Es'].
    destruct (end_of_expression v1) as [b1 w1], (end_of_expression v2) as [b2 w2]. cbn [fst snd] in Eb', Es'. subst b2.
    assert (Hr : s_result w1 = s_result w2) by (destruct Es' as (_ & X & _); exact X). rewrite Hr.
    destruct (b1 && negb match s_result w2 with [] => true | _ :: _ => false end); [reflexivity|].
    apply IH; exact Es'.
  - destruct (eoe_sim _ _ Hv) as [Eb' Es'].
    destruct (end_of_expression v1) as [b1 w1], (end_of_expression v2) as [b2 w2]. cbn [fst snd] in Eb', Es'. subst b2.
    destruct b1.
    + assert (Hr : s_result w1 = s_result w2) by (destruct Es' as (_ & X & _); exact X). rewrite Hr.
      destruct (s_result w2); [|reflexivity].
      apply RS_bind; [apply push_piece_sim; exact Es'|]. intros; apply IH; assumption.
    + pose proof (SR_count_parse _ _ Es') as Hcp.
      set (x1 := count_parse w1) in *. set (x2 := count_parse w2) in *.
      destruct Hcp as (K1 & K2 & K3 & K4 & K5 & K6 & K7 & K8). rewrite Hc.
      destruct (parse_sim dbg _ _ _ _ K7) as [[o1 [o2 [q1 [q2 [Q1 [Q2 [HF [HO HT]]]]]]]]|[er [Q1 Q2]]];
        rewrite Q1, Q2; cbn [bind]; [|reflexivity].
      assert (HS : SR (set_pc x1 q1) (set_pc x2 q2)) by (apply SR_set_pc; [repeat split; assumption|exact HF]).
      assert (Herr : @RR outcome (term dbg (s_bytecode (set_pc x1 q1)) (s_pc (set_pc x1 q1)))
                                 (term dbg (s_bytecode (set_pc x2 q2)) (s_pc (set_pc x2 q2)))).
      { destruct x1, x2. apply HT. }
      destruct o1; cbn [same_op] in HO;
    match type of HO with ex _ => destruct HO as [d2 [-> HO]] | _ => subst o2 end.
      all: try exact Herr.
      apply RS_bind; [apply push_piece_sim; exact HS|]. intros; apply IH; assumption.
  - apply RR_ok; exact Hv.
Qed.

(* resume_with_* *)
Lemma SR_at_location s1 s2 bytes :
  SR s1 s2 ->
  SR (set_code s1 bytes bytes ((s_pc s1, s_bytecode s1) :: s_estack s1))
     (set_code s2 bytes bytes ((s_pc s2, s_bytecode s2) :: s_estack s2)).
Proof.
  intros (H1 & H2 & H3 & H4 & H5 & H6 & H7 & H8). destruct s1, s2; cbn in *; subst. srsplit.
  - left; reflexivity.
  - constructor; assumption.
Qed.

Lemma resume_apply_sim c mask w a s1 s2 :
  SR s1 s2 -> RS (resume_apply F c mask w a s1) (resume_apply F c mask w a s2).
Proof.
  intros H. destruct w; cbn [resume_apply].
  all: try (apply push_sim; exact H).
  - apply pure_bind_S. intros off. apply pure_bind_S. intros v. apply push_sim; exact H.
  - destruct (a_bytes a) eqn:Eb; [exact H|].
    destruct H as (H1 & H2 & H3 & H4 & H5 & H6 & H7 & H8).
    assert (Hl : length (s_estack s1) = length (s_estack s2)) by (induction H8; cbn [length]; congruence).
    unfold full. rewrite Hl. destruct (c_cap_expr c); [destruct (Nat.leb n (length (s_estack s2))); [reflexivity|]|];
      apply SR_at_location; repeat split; assumption.
  - apply pure_bind_S. intros x. apply push_sim; exact H.
  - apply RR_bind_S; [apply pop_sim; exact H|]. intros en a1 a2 Ha. apply pure_bind_S. intros x. apply push_sim; exact Ha.
  - apply RR_bind_S; [apply pop_sim; exact H|]. intros en a1 a2 Ha. apply pure_bind_S. intros x. apply push_sim; exact Ha.
Qed.

Lemma resume_sim fuel dbg c mask w a s1 s2 : c_enc c = e -> SR s1 s2 ->
  RR (resume F fuel dbg c mask w a s1) (resume F fuel dbg c mask w a s2).
Proof.
  intros Hc H. unfold resume. apply RS_bind; [apply resume_apply_sim; exact H|]. intros; apply ei_sim; assumption.
Qed.

Lemma drive_sim fuel dbg c mask : c_enc c = e -> forall answers r1 r2, RR r1 r2 ->
  drive F fuel dbg c mask r1 answers = drive F fuel dbg c mask r2 answers.
Proof.
  intros Hc. induction answers as [|a rest IH]; intros r1 r2 H.
  - destruct r1 as [[o1 s1]|e1| |], r2 as [[o2 s2]|e2| |]; cbn in H; try contradiction; cbn [drive]; try reflexivity.
    + destruct H as [<- (H1 & H2 & H3 & H4 & H5 & H6 & _)]. destruct o1; [|reflexivity].
      rewrite H2, H4, H5, H6. reflexivity.
    + subst. reflexivity.
  - destruct r1 as [[o1 s1]|e1| |], r2 as [[o2 s2]|e2| |]; cbn in H; try contradiction; cbn [drive]; try reflexivity.
    + destruct H as [<- HS]. destruct o1.
      * destruct HS as (H1 & H2 & H3 & H4 & H5 & H6 & _). rewrite H2, H4, H5, H6. reflexivity.
      * rewrite (IH _ _ (resume_sim fuel dbg c mask w a s1 s2 Hc HS)). reflexivity.
    + subst. reflexivity.
Qed.

Lemma initial_SR : SR (initial_state P1) (initial_state P2).
Proof.
  unfold initial_state. srsplit.
  - right. cbn [fst snd]. split; [reflexivity|]. split; [reflexivity|]. exists 0%nat, 0%nat.
    destruct LO as [H0 _]. auto.
  - constructor.
Qed.

(* the evaluator does not see the layout *)
Theorem run_layout_independent fuel dbg c answers :
  c_enc c = e -> run F fuel dbg c P1 answers = run F fuel dbg c P2 answers.
Proof.
  intros Hc. unfold run. destruct (new_mask dbg (e_asz (c_enc c))) as [mask|er| |]; try reflexivity.
  apply drive_sim; [exact Hc|]. unfold evaluate.
  apply RS_bind.
  - destruct (c_init c); [apply push_sim; exact initial_SR|exact initial_SR].
  - intros; apply ei_sim; assumption.
Qed.

End Sim.
