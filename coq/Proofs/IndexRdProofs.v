(* Proofs/IndexRdProofs.v — C17: the unit-index hash probe, contribution rows and the byte-level
   lemmas (words inside a section) shared with NamesRdProofs / ArangesRdProofs. *)
From Coq Require Import List NArith ZArith Bool Lia ZifyBool ZifyN ZifyNat.
From Coq.Strings Require Import Byte.
Require Import GV.Base.Res GV.Base.Byt GV.Base.Ints GV.Model.Leb GV.Model.Prim.
Require Import GV.Spec.LookupSpec GV.Model.IndexRd GV.Proofs.Lib GV.Proofs.PrimProofs.
Import ListNotations.
Local Open Scope N_scope.

Lemma blen_app a b : blen (a ++ b) = blen a + blen b.
Proof. unfold blen. rewrite app_length. lia. Qed.

(* a reader that first tests its input for emptiness, run on an input that has a byte *)
Lemma match_nonempty {A B} (l : list A) (x y : B) :
  (1 <= length l)%nat -> match l with [] => x | _ :: _ => y end = y.
Proof. destruct l; [cbn; lia|reflexivity]. Qed.

Lemma rd_split_app_n n (a b : list byte) : n = blen a -> rd_split n (a ++ b) = Ok (a, b).
Proof.
  intros ->. unfold rd_split. rewrite blen_app.
  destruct (blen a + blen b <? blen a) eqn:E; [lia|].
  unfold blen. rewrite Nat2N.id, firstn_app, Nat.sub_diag, firstn_all, skipn_app, Nat.sub_diag, skipn_all.
  cbn. now rewrite app_nil_r.
Qed.

Lemma rd_skip_app_n n (a b : list byte) : n = blen a -> rd_skip n (a ++ b) = Ok b.
Proof.
  intros ->. unfold rd_skip. rewrite blen_app.
  destruct (blen a + blen b <? blen a) eqn:E; [lia|].
  unfold blen. rewrite Nat2N.id, skipn_app, Nat.sub_diag, skipn_all. reflexivity.
Qed.

Lemma rd_skip_cases n bs :
  (rd_skip n bs = Ok (skipn (N.to_nat n) bs) /\ n <= blen bs) \/ (rd_skip n bs = Err EUnexpectedEof /\ blen bs < n).
Proof. unfold rd_skip. destruct (blen bs <? n) eqn:E; [right|left]; split; (reflexivity || lia). Qed.

Lemma enc_words_cons n be w ws : enc_words n be (w :: ws) = enc_un n be w ++ enc_words n be ws.
Proof. reflexivity. Qed.

Lemma enc_words_length n be ws : length (enc_words n be ws) = (n * length ws)%nat.
Proof.
  induction ws as [|w ws IH]; [cbn; lia|].
  rewrite enc_words_cons, app_length, enc_un_length, IH. cbn [length]. lia.
Qed.

Lemma enc_words_app n be a b : enc_words n be (a ++ b) = enc_words n be a ++ enc_words n be b.
Proof. unfold enc_words. rewrite map_app, concat_app. reflexivity. Qed.

(* skipping s words of an encoded array *)
Lemma rd_skip_words n be ws tail (s : nat) :
  (s <= length ws)%nat ->
  rd_skip (N.of_nat s * N.of_nat n) (enc_words n be ws ++ tail) = Ok (enc_words n be (skipn s ws) ++ tail).
Proof.
  intros Hs.
  rewrite <- (firstn_skipn s ws) at 1. rewrite enc_words_app, <- app_assoc.
  apply rd_skip_app_n. unfold blen. rewrite enc_words_length, firstn_length, Nat.min_l by lia.
  rewrite Nat2N.inj_mul. lia.
Qed.

(* the s-th word of an encoded array *)
Lemma word_at_words n be ws tail (s : nat) w :
  nth_error ws s = Some w -> w < p256 n ->
  exists r, rd_skip (N.of_nat s * N.of_nat n) (enc_words n be ws ++ tail) = Ok r /\
            exists r', read_un n be r = Ok (w, r').
Proof.
  intros Hn Hw.
  assert (Hs : (s < length ws)%nat) by (apply nth_error_Some; congruence).
  eexists; split; [apply rd_skip_words; lia|].
  destruct (nth_error_split ws s Hn) as (l1 & l2 & -> & Hl).
  rewrite <- Hl, skipn_app, skipn_all, Nat.sub_diag. cbn [skipn app].
  rewrite enc_words_cons, <- app_assoc. eexists. apply read_un_enc_un_small. exact Hw.
Qed.


Lemma lor_1_le a : N.lor a 1 <= a + 1.
Proof. destruct a as [|p]; [vm_compute; discriminate|]. destruct p; unfold N.lor; cbn [Pos.lor]; lia. Qed.

(* find: termination and panic freedom
   for ANY index record (any bytes in the tables, any slot count that fits the u32 field) *)

Lemma pow32_lt_64 : 2 ^ 32 * 8 < 2 ^ 64. Proof. reflexivity. Qed.

Lemma find_probe_total dbg be ix id h :
  h < 2 ^ 32 -> exists r, find_probe dbg be ix id h = Ok r.
Proof.
  intros Hh. unfold find_probe.
  assert (H8 : h * 8 < 2 ^ 64) by (change (2 ^ 64) with 18446744073709551616; change (2 ^ 32) with 4294967296 in Hh; lia).
  assert (H4 : h * 4 < 2 ^ 64) by (change (2 ^ 64) with 18446744073709551616; change (2 ^ 32) with 4294967296 in Hh; lia).
  rewrite (chk_mul_ok 64 dbg h 8 H8). cbn [bind].
  destruct (rd_skip (h * 8) (ix_hash_ids ix)) as [r| | |]; try (eexists; reflexivity).
  destruct (read_un 8 be r) as [[hid r']| | |]; try (eexists; reflexivity).
  destruct (hid =? id).
  - rewrite (chk_mul_ok 64 dbg h 4 H4). cbn [bind].
    destruct (rd_skip (h * 4) (ix_hash_rows ix)) as [r2| | |]; try (eexists; reflexivity).
    destruct (read_un 4 be r2) as [[row r3]| | |]; eexists; reflexivity.
  - destruct (hid =? 0); eexists; reflexivity.
Qed.

Lemma find_loop_total dbg be ix id mask hash2 :
  mask < 2 ^ 32 -> hash2 <= 2 ^ 32 ->
  forall n h, h < 2 ^ 32 ->
  exists r c, find_loop dbg be ix id mask hash2 n h = Ok (r, c) /\ c <= N.of_nat n.
Proof.
  intros Hm H2. induction n as [|n IH]; intros h Hh.
  - exists None, 0. split; [reflexivity|lia].
  - cbn [find_loop]. destruct (find_probe_total dbg be ix id h Hh) as [p Hp]. rewrite Hp. cbn [bind].
    destruct p as [r|].
    + exists r, 1. split; [reflexivity|lia].
    + assert (Hs : h + hash2 < 2 ^ 64)
        by (change (2 ^ 64) with 18446744073709551616; change (2 ^ 32) with 4294967296 in *; lia).
      rewrite (chk_add_ok 64 dbg h hash2 Hs). cbn [bind].
      assert (Hl : N.land (h + hash2) mask < 2 ^ 32) by (pose proof (land_le_r (h + hash2) mask); lia).
      destruct (IH _ Hl) as (r & c & Hr & Hc). rewrite Hr. cbn [bind].
      exists r, (c + 1). split; [reflexivity|lia].
Qed.

Lemma index_find_probes_total dbg be ix id :
  ix_slot_count ix < 2 ^ 32 ->
  exists r c, index_find_probes dbg be ix id = Ok (r, c) /\ c <= ix_slot_count ix.
Proof.
  intros Hs. unfold index_find_probes.
  destruct ((ix_slot_count ix =? 0) || (id =? 0)) eqn:E0.
  - exists None, 0. split; [reflexivity|lia].
  - rewrite chk_sub_ok by lia. cbn [bind].
    set (mask := ix_slot_count ix - 1).
    assert (Hm : mask < 2 ^ 32) by (unfold mask; lia).
    assert (H2 : N.lor (N.land (N.shiftr id 32) mask) 1 <= 2 ^ 32).
    { pose proof (lor_1_le (N.land (N.shiftr id 32) mask)). pose proof (land_le_r (N.shiftr id 32) mask). lia. }
    assert (H1 : N.land id mask < 2 ^ 32) by (pose proof (land_le_r id mask); lia).
    destruct (find_loop_total dbg be ix id mask _ Hm H2 (N.to_nat (ix_slot_count ix)) _ H1) as (r & c & Hr & Hc).
    exists r, c. split; [exact Hr|lia].
Qed.

Lemma index_find_total dbg be ix id :
  ix_slot_count ix < 2 ^ 32 -> exists r, index_find dbg be ix id = Ok r.
Proof.
  intros Hs. destruct (index_find_probes_total dbg be ix id Hs) as (r & c & Hr & _).
  unfold index_find. rewrite Hr. exists r. reflexivity.
Qed.

(* id 0 is the unused-slot marker: never found, whatever the table *)
Lemma index_find_zero dbg be ix : index_find dbg be ix 0 = Ok None.
Proof. unfold index_find, index_find_probes. rewrite orb_true_r. reflexivity. Qed.

Lemma upd_length {A} (l : list A) n x : length (upd l n x) = length l.
Proof. revert n; induction l as [|a l IH]; intros [|n]; cbn; auto. Qed.

Lemma nth_error_upd_same {A} (l : list A) n x : (n < length l)%nat -> nth_error (upd l n x) n = Some x.
Proof. revert n; induction l as [|a l IH]; intros [|n] H; cbn in *; try lia; auto. apply IH; lia. Qed.

Lemma nth_error_upd_other {A} (l : list A) n m x : n <> m -> nth_error (upd l n x) m = nth_error l m.
Proof.
  revert n m; induction l as [|a l IH]; intros [|n] [|m] H; cbn; auto; try congruence.
Qed.

Lemma empty_table_length slots : length (empty_table slots) = N.to_nat slots.
Proof. unfold empty_table. apply repeat_length. Qed.

Lemma probe_lt slots id j : slots <> 0 -> probe slots id j < slots.
Proof. intros H. unfold probe. apply N.mod_lt. exact H. Qed.

(* every used slot sits at the first position of its id's probe sequence that was neither unused nor
   holding that id *)
Definition placed (slots : N) (t : table) : Prop :=
  forall s id row, nth_error t s = Some (id, row) -> id <> 0 ->
    exists j, j < slots /\ N.to_nat (probe slots id j) = s /\
      forall i, i < j -> exists x, slot_id t (probe slots id i) = Some x /\ x <> 0 /\ x <> id.

Definition in_range (t : table) : Prop := forall e, In e t -> fst e < 2 ^ 64 /\ snd e < 2 ^ 32.

Lemma slot_id_nth t s x : slot_id t s = Some x <-> exists r, nth_error t (N.to_nat s) = Some (x, r).
Proof.
  unfold slot_id. destruct (nth_error t (N.to_nat s)) as [[a b]|]; cbn; split.
  - intros [= ->]. eauto.
  - intros [r [= -> _]]. reflexivity.
  - discriminate.
  - intros [r H]. discriminate.
Qed.

Lemma In_upd {A} (l : list A) n x e : In e (upd l n x) -> e = x \/ In e l.
Proof.
  revert n; induction l as [|a l IH]; intros [|n]; cbn; auto.
  - intros [H|H]; auto.
  - intros [H|H]; auto. destruct (IH _ H); auto.
Qed.

(* storing into an unused slot leaves the used ones as they are *)
Lemma slot_id_upd_used t p e s x :
  slot_id t p = Some 0 -> slot_id t s = Some x -> x <> 0 -> slot_id (upd t (N.to_nat p) e) s = Some x.
Proof.
  intros Hp Hs Hx. unfold slot_id in *. rewrite nth_error_upd_other; [exact Hs|].
  intros Heq. apply N2Nat.inj in Heq. subst s. congruence.
Qed.

Lemma built_inv slots t :
  built slots t -> length t = N.to_nat slots /\ placed slots t /\ in_range t.
Proof.
  induction 1 as [|t id row t' Hb (Hlen & Hpl & Hrg) Hid Hid64 Hrow Hfresh Hins].
  - split; [apply empty_table_length|]. split.
    + intros s id row Hn Hid. unfold empty_table in Hn. apply nth_error_In, repeat_spec in Hn.
      inversion Hn; subst. congruence.
    + intros e He. unfold empty_table in He. apply repeat_spec in He. subst. cbn. split; reflexivity.
  - destruct Hins as (j & Hj & Hbefore & Hzero & ->).
    assert (Hs0 : slots <> 0) by lia.
    set (p := probe slots id j) in *.
    assert (Hp : (N.to_nat p < length t)%nat) by (pose proof (probe_lt slots id j Hs0); fold p in H; lia).
    split; [rewrite upd_length; exact Hlen|]. split.
    + intros s id0 row0 Hn Hid0.
      destruct (Nat.eq_dec (N.to_nat p) s) as [<-|Hne].
      * rewrite nth_error_upd_same in Hn by exact Hp. inversion Hn; subst id0 row0.
        exists j. split; [exact Hj|]. split; [reflexivity|].
        intros i Hi. destruct (Hbefore i Hi) as (x & Hx & Hx0).
        exists x. split; [exact (slot_id_upd_used _ _ _ _ _ Hzero Hx Hx0)|]. split; [exact Hx0|].
        intros ->. apply slot_id_nth in Hx. destruct Hx as [r Hr]. apply nth_error_In in Hr.
        exact (Hfresh r Hr).
      * rewrite nth_error_upd_other in Hn by exact Hne.
        destruct (Hpl s id0 row0 Hn Hid0) as (j0 & Hj0 & Hs & Hpath).
        exists j0. split; [exact Hj0|]. split; [exact Hs|].
        intros i Hi. destruct (Hpath i Hi) as (x & Hx & Hx0 & Hxid).
        exists x. split; [exact (slot_id_upd_used _ _ _ _ _ Hzero Hx Hx0)|]. split; assumption.
    + intros e He. apply In_upd in He. destruct He as [->|He]; [cbn; split; assumption|apply Hrg; exact He].
Qed.

(* the executable insertion is an instance of the relation *)
Lemma insert_at_inserted slots t id row : forall fuel j0 t',
  (forall i, i < j0 -> exists x, slot_id t (probe slots id i) = Some x /\ x <> 0) ->
  j0 + N.of_nat fuel <= slots ->
  insert_at fuel slots t id row j0 = Some t' -> inserted slots t id row t'.
Proof.
  induction fuel as [|fuel IH]; intros j0 t' Hbefore Hle Hins; [discriminate|].
  cbn [insert_at] in Hins.
  destruct (slot_id t (probe slots id j0)) as [x|] eqn:Ex; [|discriminate].
  destruct (x =? 0) eqn:E0.
  - inversion Hins; subst t'. exists j0. split; [lia|]. split; [exact Hbefore|].
    split; [|reflexivity]. rewrite Ex. f_equal. lia.
  - apply (IH (j0 + 1) t'); [|lia|exact Hins].
    intros i Hi. destruct (N.eq_dec i j0) as [->|Hne].
    + exists x. split; [exact Ex|lia].
    + apply Hbefore. lia.
Qed.

Lemma insert_inserted slots t id row t' : insert slots t id row = Some t' -> inserted slots t id row t'.
Proof.
  unfold insert. apply insert_at_inserted; [intros i Hi; lia|lia].
Qed.

Lemma land_mask k x : N.land x (2 ^ k - 1) = x mod 2 ^ k.
Proof. rewrite <- N.land_ones. f_equal. rewrite N.ones_equiv. lia. Qed.

Lemma probe_0 slots id : slots <> 0 -> probe slots id 0 = id mod slots.
Proof. intros H. unfold probe. rewrite N.mul_0_l, N.add_0_r. apply N.mod_mod. exact H. Qed.

Lemma probe_succ slots id j : slots <> 0 ->
  (probe slots id j + probe_step slots id) mod slots = probe slots id (j + 1).
Proof.
  intros H. unfold probe. rewrite N.add_mod_idemp_l by exact H. f_equal. lia.
Qed.

Section FindCorrect.
  Variables (dbg be : bool) (k : N) (t : table) (ix : unit_index).
  Hypothesis Hk : k < 32.
  Hypothesis Hlen : length t = N.to_nat (2 ^ k).
  Hypothesis Hrg : in_range t.
  Hypothesis Hsc : ix_slot_count ix = 2 ^ k.
  Hypothesis Hids : ix_hash_ids ix = enc_words 8 be (map fst t).
  Hypothesis Hrows : ix_hash_rows ix = enc_words 4 be (map snd t).

  Let slots_lt : 2 ^ k < 2 ^ 32.
  Proof. apply N.pow_lt_mono_r; lia. Qed.
  Let slots_nz : 2 ^ k <> 0.
  Proof. apply N.pow_nonzero. discriminate. Qed.

  Lemma find_probe_spec id h a r :
    h < 2 ^ k -> nth_error t (N.to_nat h) = Some (a, r) ->
    find_probe dbg be ix id h =
      Ok (if a =? id then Some (Some r) else if a =? 0 then Some None else None).
  Proof.
    intros Hh Hn. unfold find_probe.
    assert (Hr : a < 2 ^ 64 /\ r < 2 ^ 32) by (apply (Hrg (a, r)); eapply nth_error_In; exact Hn).
    assert (H8 : h * 8 < 2 ^ 64)
      by (change (2 ^ 64) with 18446744073709551616; change (2 ^ 32) with 4294967296 in slots_lt; lia).
    assert (H4 : h * 4 < 2 ^ 64)
      by (change (2 ^ 64) with 18446744073709551616; change (2 ^ 32) with 4294967296 in slots_lt; lia).
    rewrite (chk_mul_ok 64 dbg h 8 H8). cbn [bind].
    assert (Hf : nth_error (map fst t) (N.to_nat h) = Some a) by (rewrite nth_error_map, Hn; reflexivity).
    assert (Hs : nth_error (map snd t) (N.to_nat h) = Some r) by (rewrite nth_error_map, Hn; reflexivity).
    destruct (word_at_words 8 be (map fst t) [] (N.to_nat h) a Hf) as (r1 & Hr1 & r1' & Hr1').
    { change (p256 8) with (2 ^ 64). tauto. }
    rewrite app_nil_r, N2Nat.id in Hr1. change (N.of_nat 8) with 8 in Hr1.
    rewrite Hids, Hr1, Hr1'.
    destruct (a =? id) eqn:Ea.
    - rewrite (chk_mul_ok 64 dbg h 4 H4). cbn [bind].
      destruct (word_at_words 4 be (map snd t) [] (N.to_nat h) r Hs) as (r2 & Hr2 & r2' & Hr2').
      { change (p256 4) with (2 ^ 32). tauto. }
      rewrite app_nil_r, N2Nat.id in Hr2. change (N.of_nat 4) with 4 in Hr2.
      rewrite Hrows, Hr2, Hr2'. reflexivity.
    - destruct (a =? 0); reflexivity.
  Qed.

  Lemma slot_exists h : h < 2 ^ k -> exists a r, nth_error t (N.to_nat h) = Some (a, r).
  Proof.
    intros Hh. destruct (nth_error t (N.to_nat h)) as [[a r]|] eqn:E; [eauto|].
    apply nth_error_None in E. lia.
  Qed.

  Let mask := 2 ^ k - 1.

  Lemma find_loop_step id n h a r :
    h < 2 ^ k -> nth_error t (N.to_nat h) = Some (a, r) -> a <> id -> a <> 0 ->
    find_loop dbg be ix id mask (probe_step (2 ^ k) id) (S n) h =
      let* (res, cnt) := find_loop dbg be ix id mask (probe_step (2 ^ k) id) n
                           ((h + probe_step (2 ^ k) id) mod 2 ^ k) in Ok (res, cnt + 1).
  Proof.
    intros Hh Hn Hid H0. cbn [find_loop]. rewrite (find_probe_spec id h a r Hh Hn).
    destruct (a =? id) eqn:E1; [lia|]. destruct (a =? 0) eqn:E2; [lia|]. cbn [bind].
    assert (Hst : probe_step (2 ^ k) id <= 2 ^ 32).
    { unfold probe_step. pose proof (lor_1_le ((id / 2 ^ 32) mod 2 ^ k)).
      pose proof (N.mod_lt (id / 2 ^ 32) (2 ^ k) slots_nz). lia. }
    rewrite chk_add_ok
      by (change (2 ^ 64) with 18446744073709551616; change (2 ^ 32) with 4294967296 in *; lia).
    cbn [bind]. unfold mask. rewrite land_mask. reflexivity.
  Qed.

  (* the entry placed at step j of its probe sequence is found after j + 1 probes *)
  Lemma find_loop_hit id row j :
    nth_error t (N.to_nat (probe (2 ^ k) id j)) = Some (id, row) ->
    (forall i, i < j -> exists x, slot_id t (probe (2 ^ k) id i) = Some x /\ x <> 0 /\ x <> id) ->
    forall (d : nat) j0 n, j0 + N.of_nat d = j -> (d < n)%nat ->
    find_loop dbg be ix id mask (probe_step (2 ^ k) id) n (probe (2 ^ k) id j0) = Ok (Some row, N.of_nat d + 1).
  Proof.
    intros Hj Hpath. induction d as [|d IH]; intros j0 n Hd Hn.
    - assert (j0 = j) by lia. subst j0. destruct n as [|n]; [lia|].
      cbn [find_loop]. rewrite (find_probe_spec id _ id row (probe_lt _ _ _ slots_nz) Hj).
      rewrite N.eqb_refl. reflexivity.
    - destruct n as [|n]; [lia|].
      destruct (Hpath j0 ltac:(lia)) as (x & Hx & Hx0 & Hxid).
      apply slot_id_nth in Hx. destruct Hx as [r Hr].
      rewrite (find_loop_step id n _ x r (probe_lt _ _ _ slots_nz) Hr Hxid Hx0).
      rewrite probe_succ by exact slots_nz.
      rewrite (IH (j0 + 1) n) by lia. cbn [bind]. f_equal. f_equal. lia.
  Qed.

  (* whatever the loop reports as found is an entry of the table *)
  Lemma find_loop_sound id : forall n h row c,
    h < 2 ^ k ->
    find_loop dbg be ix id mask (probe_step (2 ^ k) id) n h = Ok (Some row, c) -> In (id, row) t.
  Proof.
    induction n as [|n IH]; intros h row c Hh Hf; [discriminate|].
    destruct (slot_exists h Hh) as (a & r & Hn).
    destruct (N.eq_dec a id) as [->|Hne].
    - cbn [find_loop] in Hf. rewrite (find_probe_spec id h id r Hh Hn), N.eqb_refl in Hf.
      cbn [bind] in Hf. inversion Hf; subst. eapply nth_error_In; exact Hn.
    - destruct (N.eq_dec a 0) as [->|H0].
      + cbn [find_loop] in Hf. rewrite (find_probe_spec id h 0 r Hh Hn) in Hf.
        destruct (0 =? id) eqn:E; [lia|]. cbn in Hf. discriminate.
      + rewrite (find_loop_step id n h a r Hh Hn Hne H0) in Hf.
        destruct (find_loop dbg be ix id mask (probe_step (2 ^ k) id) n
                    ((h + probe_step (2 ^ k) id) mod 2 ^ k)) as [[res cnt]| | |] eqn:E; try discriminate.
        cbn [bind] in Hf. inversion Hf; subst.
        eapply IH; [|exact E]. apply N.mod_lt. exact slots_nz.
  Qed.

  Lemma index_find_probes_unfold id : id <> 0 ->
    index_find_probes dbg be ix id =
      find_loop dbg be ix id mask (probe_step (2 ^ k) id) (N.to_nat (2 ^ k)) (probe (2 ^ k) id 0).
  Proof.
    intros Hid0. unfold index_find_probes. rewrite Hsc.
    destruct ((2 ^ k =? 0) || (id =? 0)) eqn:E; [lia|].
    rewrite chk_sub_ok by lia. cbn [bind]. fold mask. unfold mask.
    rewrite !land_mask, probe_0 by exact slots_nz.
    unfold probe_step. rewrite N.shiftr_div_pow2. reflexivity.
  Qed.

  Lemma index_find_sound id row :
    id <> 0 -> index_find dbg be ix id = Ok (Some row) -> In (id, row) t.
  Proof.
    intros Hid Hf. unfold index_find in Hf. rewrite index_find_probes_unfold in Hf by exact Hid.
    destruct (find_loop dbg be ix id mask (probe_step (2 ^ k) id) (N.to_nat (2 ^ k)) (probe (2 ^ k) id 0))
      as [[res cnt]| | |] eqn:E; try discriminate.
    cbn [bind] in Hf. inversion Hf; subst.
    eapply find_loop_sound; [|exact E]. apply probe_lt. exact slots_nz.
  Qed.

  Theorem find_correct id row :
    placed (2 ^ k) t -> id <> 0 ->
    (index_find dbg be ix id = Ok (Some row) <-> In (id, row) t).
  Proof.
    intros Hpl Hid. split; [apply index_find_sound; exact Hid|].
    intros Hin. apply In_nth_error in Hin. destruct Hin as [s Hs].
    destruct (Hpl s id row Hs Hid) as (j & Hj & Hsj & Hpath). subst s.
    unfold index_find. rewrite index_find_probes_unfold by exact Hid.
    rewrite (find_loop_hit id row j Hs Hpath (N.to_nat j) 0 (N.to_nat (2 ^ k))) by lia.
    reflexivity.
  Qed.

  Theorem find_absent id :
    id <> 0 -> (forall row, ~ In (id, row) t) -> index_find dbg be ix id = Ok None.
  Proof.
    intros Hid Habs.
    assert (Hs : ix_slot_count ix < 2 ^ 32) by (rewrite Hsc; exact slots_lt).
    destruct (index_find_total dbg be ix id Hs) as [[row|] Hr]; [|exact Hr].
    exfalso. exact (Habs row (index_find_sound id row Hid Hr)).
  Qed.
End FindCorrect.

Lemma sect_iter_words be : forall ss os zs t1 t2,
  length os = length ss -> length zs = length ss ->
  Forall (fun v => v < 2 ^ 32) os -> Forall (fun v => v < 2 ^ 32) zs ->
  sect_iter be ss (enc_words 4 be os ++ t1) (enc_words 4 be zs ++ t2) = combine (combine ss os) zs.
Proof.
  induction ss as [|s ss IH]; intros os zs t1 t2 Ho Hz Fo Fz.
  - destruct os; [|discriminate]. destruct zs; [|discriminate]. reflexivity.
  - destruct os as [|o os]; [discriminate|]. destruct zs as [|z zs]; [discriminate|].
    inversion Fo; subst. inversion Fz; subst.
    cbn [sect_iter]. rewrite !enc_words_cons, <- !app_assoc.
    rewrite !read_un_enc_un_small by (change (p256 4) with (2 ^ 32); assumption).
    cbn [combine]. f_equal. apply IH; cbn in *; try lia; assumption.
Qed.


Theorem sections_spec dbg be ix (offs szs : list N) row :
  ix_section_count ix <= 8 -> length (ix_sections ix) = 8%nat ->
  ix_unit_count ix < 2 ^ 32 ->
  ix_offsets ix = enc_words 4 be offs -> ix_sizes ix = enc_words 4 be szs ->
  length offs = (N.to_nat (ix_unit_count ix) * N.to_nat (ix_section_count ix))%nat ->
  length szs = (N.to_nat (ix_unit_count ix) * N.to_nat (ix_section_count ix))%nat ->
  Forall (fun v => v < 2 ^ 32) offs -> Forall (fun v => v < 2 ^ 32) szs ->
  index_sections dbg be ix row =
    if (row =? 0) || (ix_unit_count ix <? row) then Err EInvalidIndexRow
    else let c := N.to_nat (ix_section_count ix) in
         let k := (N.to_nat (row - 1) * c)%nat in
         Ok (combine (combine (firstn c (ix_sections ix)) (firstn c (skipn k offs)))
                     (firstn c (skipn k szs))).
Proof.
  intros Hc Hss Hu Eo Ez Lo Lz Fo Fz. unfold index_sections.
  destruct ((row =? 0) || (ix_unit_count ix <? row)) eqn:Erow; [reflexivity|].
  assert (Hrow : 1 <= row <= ix_unit_count ix) by lia.
  change (2 ^ 32) with 4294967296 in Hu.
  rewrite chk_sub_ok by lia. cbn [bind].
  rewrite chk_mul_ok by (change (2 ^ 64) with 18446744073709551616; nia). cbn [bind].
  rewrite chk_mul_ok by (change (2 ^ 64) with 18446744073709551616; nia). cbn [bind].
  set (c := N.to_nat (ix_section_count ix)).
  set (k := (N.to_nat (row - 1) * c)%nat).
  assert (Hk : (k + c <= length offs)%nat).
  { rewrite Lo. unfold k. fold c.
    replace (N.to_nat (row - 1) * c + c)%nat with ((N.to_nat (row - 1) + 1) * c)%nat by lia.
    apply Nat.mul_le_mono_r. lia. }
  assert (Hro : (row - 1) * ix_section_count ix * 4 = N.of_nat k * N.of_nat 4).
  { unfold k, c. rewrite Nat2N.inj_mul, !N2Nat.id. reflexivity. }
  rewrite Hro, Eo, Ez.
  rewrite <- (app_nil_r (enc_words 4 be offs)), <- (app_nil_r (enc_words 4 be szs)).
  rewrite !rd_skip_words by lia. cbn [bind].
  rewrite Hss. destruct (N.of_nat 8 <? ix_section_count ix) eqn:E8; [lia|].
  f_equal.
  rewrite <- (firstn_skipn c (skipn k offs)) at 1. rewrite <- (firstn_skipn c (skipn k szs)) at 1.
  rewrite !enc_words_app, <- !app_assoc.
  apply sect_iter_words.
  - rewrite !firstn_length, skipn_length. lia.
  - rewrite !firstn_length, skipn_length. lia.
  - apply Forall_firstn, Forall_skipn. exact Fo.
  - apply Forall_firstn, Forall_skipn. exact Fz.
Qed.

(* the column-kind tables of parse are the DW_SECT tables of the standard *)
Definition kind_of_code (c : N) : option isect :=
  if c =? 0 then Some SAbbrev else if c =? 1 then Some SInfo else if c =? 2 then Some SLine
  else if c =? 3 then Some SLoc else if c =? 4 then Some SLocLists else if c =? 5 then Some SMacinfo
  else if c =? 6 then Some SMacro else if c =? 7 then Some SRngLists else if c =? 8 then Some SStrOffsets
  else if c =? 9 then Some STypes else None.

Lemma kind_of_code_isect s : kind_of_code (isect_code s) = Some s.
Proof. destruct s; reflexivity. Qed.

Definition ix_wf (ix : unit_index) : Prop :=
  ix_slot_count ix < 2 ^ 32 /\ ix_unit_count ix < 2 ^ 32 /\ ix_section_count ix <= 8 /\
  length (ix_sections ix) = 8%nat /\
  blen (ix_hash_ids ix) = ix_slot_count ix * 8 /\ blen (ix_hash_rows ix) = ix_slot_count ix * 4 /\
  blen (ix_offsets ix) = ix_unit_count ix * ix_section_count ix * 4 /\
  blen (ix_sizes ix) = ix_unit_count ix * ix_section_count ix * 4.

(* Lib.post under the name the statements of C17 use; Lib.post_bind, post_weaken and post_intro apply to it *)
Definition post {A} (P : A -> Prop) (r : res A) : Prop :=
  match r with Ok a => P a | Err _ => True | Panic => False | OutOfFuel => False end.

Lemma post_read_un n be bs :
  post (fun p => fst p < p256 n /\ snd p = skipn n bs /\ (n <= length bs)%nat) (read_un n be bs).
Proof.
  rewrite read_un_exact. destruct (length bs <? n)%nat eqn:E; [exact I|]. apply Nat.ltb_ge in E.
  cbn. rewrite <- (firstn_length_le bs E) at 2. auto using val_sum_lt.
Qed.

Lemma post_rd_split n bs :
  post (fun p => fst p = firstn (N.to_nat n) bs /\ snd p = skipn (N.to_nat n) bs /\ n <= blen bs) (rd_split n bs).
Proof. unfold rd_split. destruct (blen bs <? n) eqn:E; cbn; [exact I|]. repeat split. lia. Qed.

Lemma post_rd_skip n bs :
  post (fun r => r = skipn (N.to_nat n) bs /\ n <= blen bs) (rd_skip n bs).
Proof. destruct (rd_skip_cases n bs) as [(H & Hl)|(H & _)]; rewrite H; cbn; auto. Qed.

Lemma post_read_sections be version : forall n bs,
  post (fun p => length (fst p) = n) (read_sections be version n bs).
Proof.
  induction n as [|n IH]; intros bs; [cbn; reflexivity|].
  cbn [read_sections].
  eapply post_bind; [apply post_read_un|]. intros [code r] _ _.
  eapply post_bind with (P := fun _ => True).
  { destruct (version =? 2); [destruct (sect_v2 code)|destruct (sect_v5 code)]; cbn; auto. }
  intros s _ _. eapply post_bind; [apply IH|]. intros [ss r'] _ Hl. cbn in *. lia.
Qed.

Lemma blen_firstn n bs : n <= blen bs -> blen (firstn (N.to_nat n) bs) = n.
Proof. unfold blen. intros H. rewrite firstn_length. lia. Qed.

Theorem index_parse_post dbg be bs : post ix_wf (index_parse dbg be bs).
Proof.
  unfold index_parse. destruct bs as [|b0 bs0].
  { cbn. unfold ix_wf; cbn. repeat split; try reflexivity; try lia. }
  set (bs := b0 :: bs0).
  eapply post_bind; [apply post_read_un|]. intros [v32 i0] _ _.
  eapply post_bind with (P := fun _ => True).
  { destruct (v32 =? 2); [exact I|].
    eapply post_bind; [apply post_read_un|]. intros [v16 r] _ _. destruct (v16 =? 5); exact I. }
  intros version _ _.
  eapply post_bind; [apply post_read_un|]. intros [sc i1] _ (Hsc & _ & _).
  eapply post_bind; [apply post_read_un|]. intros [uc i2] _ (Huc & _ & _).
  eapply post_bind; [apply post_read_un|]. intros [slots i3] _ (Hsl & _ & _).
  cbn [fst snd] in *. change (p256 4) with (2 ^ 32) in *.
  change (2 ^ 32) with 4294967296 in *.
  eapply post_bind with (P := fun _ => True).
  { destruct (slots =? 0) eqn:E; [exact I|]. rewrite chk_sub_ok by lia. exact I. }
  intros bad _ _. destruct bad; [exact I|].
  rewrite chk_mul_ok by (change (2 ^ 64) with 18446744073709551616; lia). cbn [bind].
  eapply post_bind; [apply post_rd_split|]. intros [ids i4] _ (Hids & _ & Hidl). cbn [fst snd] in *.
  rewrite chk_mul_ok by (change (2 ^ 64) with 18446744073709551616; lia). cbn [bind].
  eapply post_bind; [apply post_rd_split|]. intros [rows i5] _ (Hrows & _ & Hrowl). cbn [fst snd] in *.
  unfold SECTION_COUNT_MAX. destruct (8 <? sc) eqn:E8; [exact I|].
  eapply post_bind; [apply post_read_sections|]. intros [ss i6] _ Hss. cbn [fst snd] in *.
  rewrite chk_mul_ok by (change (2 ^ 64) with 18446744073709551616; nia). cbn [bind].
  rewrite chk_mul_ok by (change (2 ^ 64) with 18446744073709551616; nia). cbn [bind].
  eapply post_bind; [apply post_rd_split|]. intros [offs i7] _ (Hoffs & _ & Hoffl). cbn [fst snd] in *.
  eapply post_bind; [apply post_rd_split|]. intros [szs i8] _ (Hszs & _ & Hszl). cbn [fst snd] in *.
  cbn [Lib.post]. unfold ix_wf. cbn.
  change (2 ^ 32) with 4294967296.
  repeat split; try lia.
  - rewrite app_length, repeat_length. change (match length ss with O => 8 | S _ => _ end)%nat with (8 - length ss)%nat. lia.
  - subst ids. apply blen_firstn. exact Hidl.
  - subst rows. apply blen_firstn. exact Hrowl.
  - subst offs. apply blen_firstn. exact Hoffl.
  - subst szs. apply blen_firstn. exact Hszl.
Qed.

(* sections of a parsed index never panics, whatever the row *)
Lemma index_sections_post dbg be ix row :
  ix_wf ix -> post (fun _ => True) (index_sections dbg be ix row).
Proof.
  intros (Hs & Hu & Hc & Hl & _). unfold index_sections.
  destruct ((row =? 0) || (ix_unit_count ix <? row)) eqn:E; [exact I|].
  change (2 ^ 32) with 4294967296 in *.
  rewrite chk_sub_ok by lia. cbn [bind].
  rewrite chk_mul_ok by (change (2 ^ 64) with 18446744073709551616; nia). cbn [bind].
  rewrite chk_mul_ok by (change (2 ^ 64) with 18446744073709551616; nia). cbn [bind].
  eapply post_bind; [apply post_rd_skip|]. intros o _ _.
  eapply post_bind; [apply post_rd_skip|]. intros z _ _.
  rewrite Hl. destruct (N.of_nat 8 <? ix_section_count ix) eqn:E8; [lia|]. exact I.
Qed.

Lemma pkg_ranges_post cs seclen ks : post (fun _ => True) (pkg_ranges cs seclen ks).
Proof.
  induction ks as [|k ks IH]; [exact I|]. cbn [pkg_ranges].
  destruct (contrib_of k cs (0, 0)) as [o z].
  destruct (seclen k <? o); [exact I|]. destruct (seclen k - o <? z); [exact I|].
  eapply post_bind; [exact IH|]. intros; exact I.
Qed.

Lemma n2b_mod a b : a mod 256 = b mod 256 -> n2b a = n2b b.
Proof. intros H. unfold n2b. rewrite H. reflexivity. Qed.

(* two 16-bit halves are one 32-bit word *)
Lemma enc_halves be a b : a < 65536 -> b < 65536 ->
  enc_un 2 be a ++ enc_un 2 be b = enc_un 4 be (if be then a * 65536 + b else a + 65536 * b).
Proof.
  intros Ha Hb. unfold enc_un, be_bytes. destruct be; cbn [le_bytes rev app].
  - f_equal; [|f_equal; [|f_equal; [|f_equal]]]; apply n2b_mod; lia.
  - f_equal; [|f_equal; [|f_equal; [|f_equal]]]; apply n2b_mod; lia.
Qed.

Definition col_ok (v2 : bool) (c : N) : Prop :=
  c < 2 ^ 32 /\ (if v2 then sect_v2 c else sect_v5 c) <> None.
Definition col_kind (v2 : bool) (c : N) : isect :=
  match (if v2 then sect_v2 c else sect_v5 c) with Some s => s | None => SAbbrev end.

Lemma read_sections_enc be v2 cols rest :
  Forall (col_ok v2) cols ->
  read_sections be (if v2 then 2 else 5) (length cols) (enc_words 4 be cols ++ rest)
  = Ok (map (col_kind v2) cols, rest).
Proof.
  induction cols as [|c cols IH]; intros F; [reflexivity|].
  inversion F as [|? ? (Hc & Hk) F']; subst.
  cbn [length read_sections]. rewrite enc_words_cons, <- app_assoc.
  rewrite read_un_enc_un_small by (change (p256 4) with (2 ^ 32); exact Hc). cbn [bind].
  unfold col_kind. cbn [map]. destruct v2.
  - change (2 =? 2) with true. cbv iota. destruct (sect_v2 c) as [s|]; [|congruence]. cbn [of_option bind].
    rewrite (IH F'). reflexivity.
  - change (5 =? 2) with false. cbv iota. destruct (sect_v5 c) as [s|]; [|congruence]. cbn [of_option bind].
    rewrite (IH F'). reflexivity.
Qed.

Definition desc_wf (d : index_desc) : Prop :=
  let slots := N.of_nat (length (d_slots d)) in
  let nc := N.of_nat (length (d_cols d)) in
  nc <= 8 /\ d_unit_count d < 2 ^ 32 /\ slots < 2 ^ 32 /\ d_pad d < 65536 /\
  (slots = 0 \/ ((exists k, slots = 2 ^ k) /\ d_unit_count d < slots)) /\
  in_range (d_slots d) /\
  Forall (col_ok (d_v2 d)) (d_cols d) /\
  length (d_offsets d) = (N.to_nat (d_unit_count d) * length (d_cols d))%nat /\
  length (d_sizes d) = (N.to_nat (d_unit_count d) * length (d_cols d))%nat /\
  Forall (fun v => v < 2 ^ 32) (d_offsets d) /\ Forall (fun v => v < 2 ^ 32) (d_sizes d).

Definition index_of_desc (be : bool) (d : index_desc) : unit_index :=
  {| ix_version := if d_v2 d then 2 else 5;
     ix_section_count := N.of_nat (length (d_cols d));
     ix_unit_count := d_unit_count d;
     ix_slot_count := N.of_nat (length (d_slots d));
     ix_hash_ids := enc_words 8 be (map fst (d_slots d));
     ix_hash_rows := enc_words 4 be (map snd (d_slots d));
     ix_sections := map (col_kind (d_v2 d)) (d_cols d) ++ repeat SAbbrev (8 - length (d_cols d));
     ix_offsets := enc_words 4 be (d_offsets d);
     ix_sizes := enc_words 4 be (d_sizes d) |}.

Lemma blen_enc_words n be ws : blen (enc_words n be ws) = N.of_nat n * N.of_nat (length ws).
Proof. unfold blen. rewrite enc_words_length. lia. Qed.

Lemma enc_index_nonempty be d : (1 <= length (enc_index be d))%nat.
Proof. unfold enc_index. destruct (d_v2 d); rewrite !app_length, enc_un_length; lia. Qed.

Theorem index_parse_encoded dbg be d trailing :
  desc_wf d -> index_parse dbg be (enc_index be d ++ trailing) = Ok (index_of_desc be d).
Proof.
  intros (Hnc & Hu & Hs & Hpad & Hslots & Hrg & Hcols & Lo & Lz & Fo & Fz).
  unfold index_parse.
  rewrite match_nonempty by (rewrite app_length; pose proof (enc_index_nonempty be d); lia).
  set (slots := N.of_nat (length (d_slots d))) in *.
  set (nc := N.of_nat (length (d_cols d))) in *.
  change (2 ^ 32) with 4294967296 in *.
  set (tl := enc_un 4 be nc ++ enc_un 4 be (d_unit_count d) ++ enc_un 4 be slots
             ++ enc_words 8 be (map fst (d_slots d)) ++ enc_words 4 be (map snd (d_slots d))
             ++ enc_words 4 be (d_cols d) ++ enc_words 4 be (d_offsets d) ++ enc_words 4 be (d_sizes d) ++ trailing).
  (* the version is read twice from the same bytes: as a 32-bit word, then (version 5) as a 16-bit one *)
  assert (Hversion : exists v32,
    read_un 4 be (enc_index be d ++ trailing) = Ok (v32, tl) /\
    (if v32 =? 2 then Ok 2
     else let* (v16, _) := read_un 2 be (enc_index be d ++ trailing) in
          if v16 =? 5 then Ok v16 else Err EUnknownVersion) = Ok (if d_v2 d then 2 else 5)).
  { unfold enc_index. fold slots nc. rewrite <- !app_assoc. fold tl. destruct (d_v2 d).
    - exists 2. split; [apply read_un_enc_un_small|]; reflexivity.
    - exists (if be then 5 * 65536 + d_pad d else 5 + 65536 * d_pad d). split.
      + rewrite enc_halves by lia. apply read_un_enc_un_small.
        change (p256 4) with 4294967296. destruct be; lia.
      + replace (_ =? 2) with false by (destruct be; lia).
        rewrite <- app_assoc, read_un_enc_un_small by reflexivity. reflexivity. }
  destruct Hversion as (v32 & Hr32 & Hver).
  rewrite Hr32. cbn [bind]. rewrite Hver. cbn [bind]. unfold tl.
  rewrite read_un_enc_un_small by (change (p256 4) with (2 ^ 32); lia). cbn [bind].
  rewrite read_un_enc_un_small by (change (p256 4) with (2 ^ 32); lia). cbn [bind].
  rewrite read_un_enc_un_small by (change (p256 4) with (2 ^ 32); lia). cbn [bind].
  assert (Hbad : (if slots =? 0 then Ok false
                  else let* m := chk_sub 32 dbg slots 1 in
                       Ok (negb (N.land slots m =? 0) || (slots <=? d_unit_count d))) = Ok false).
  { destruct Hslots as [H0|((k & Hk) & Hlt)].
    - rewrite H0. reflexivity.
    - destruct (slots =? 0) eqn:E0; [reflexivity|]. rewrite chk_sub_ok by lia. cbn [bind].
      rewrite Hk at 2 3. rewrite land_mask. rewrite <- Hk. rewrite N.mod_same by lia.
      destruct (slots <=? d_unit_count d) eqn:E; [lia|]. reflexivity. }
  rewrite Hbad. cbn [bind].
  rewrite chk_mul_ok by (change (2 ^ 64) with 18446744073709551616; lia). cbn [bind].
  rewrite rd_split_app_n by (rewrite blen_enc_words, map_length; fold slots; lia). cbn [bind].
  rewrite chk_mul_ok by (change (2 ^ 64) with 18446744073709551616; lia). cbn [bind].
  rewrite rd_split_app_n by (rewrite blen_enc_words, map_length; fold slots; lia). cbn [bind].
  unfold SECTION_COUNT_MAX. destruct (8 <? nc) eqn:E8; [lia|].
  unfold nc at 1. rewrite Nat2N.id.
  rewrite (read_sections_enc be (d_v2 d) (d_cols d) _ Hcols). cbn [bind].
  rewrite chk_mul_ok by (change (2 ^ 64) with 18446744073709551616; nia). cbn [bind].
  rewrite chk_mul_ok by (change (2 ^ 64) with 18446744073709551616; nia). cbn [bind].
  rewrite rd_split_app_n by (rewrite blen_enc_words, Lo; unfold nc; lia). cbn [bind].
  rewrite rd_split_app_n by (rewrite blen_enc_words, Lz; unfold nc; lia). cbn [bind].
  unfold index_of_desc. rewrite map_length. reflexivity.
Qed.

Lemma insert_all_built slots : forall es t t',
  built slots t ->
  Forall (fun e => fst e <> 0 /\ fst e < 2 ^ 64 /\ snd e < 2 ^ 32) es ->
  NoDup (map fst es) ->
  (forall e, In e es -> forall r, ~ In (fst e, r) t) ->
  insert_all slots t es = Some t' -> built slots t'.
Proof.
  induction es as [|[id row] es IH]; intros t t' Hb F ND Hfresh Hins.
  - cbn in Hins. inversion Hins; subst. exact Hb.
  - cbn [insert_all] in Hins. destruct (insert slots t id row) as [t1|] eqn:E1; [|discriminate].
    inversion F as [|? ? (H0 & H64 & H32) F']; subst. cbn [fst snd] in *.
    inversion ND as [|? ? Hnotin ND']; subst.
    pose proof (insert_inserted slots t id row t1 E1) as Hi.
    assert (Hb1 : built slots t1).
    { eapply built_insert; eauto. intros r. apply (Hfresh (id, row)). left; reflexivity. }
    apply (IH t1 t' Hb1 F' ND'); [|exact Hins].
    intros e He r Hin. destruct Hi as (j & _ & _ & _ & ->).
    apply In_upd in Hin. destruct Hin as [Heq|Hin].
    + inversion Heq. apply Hnotin. rewrite <- H1. apply in_map. exact He.
    + eapply (Hfresh e); [right; exact He|exact Hin].
Qed.

(* contents: the used slots *)
Lemma contents_spec t e : In e (contents t) <-> In e t /\ fst e <> 0.
Proof. unfold contents. rewrite filter_In. split; intros [H1 H2]; split; auto; lia. Qed.

(* the probe sequence visits every slot
   (the step is odd and the table size a power of two), so insertion succeeds while a slot is unused *)

Lemma odd_divide_pow2 s : N.odd s = true -> forall k d, (2 ^ k | d * s) -> (2 ^ k | d).
Proof.
  intros Hs k. induction k as [|k IH] using N.peano_ind; intros d H.
  - apply N.divide_1_l.
  - rewrite N.pow_succ_r' in *.
    assert (Hd : N.even d = true).
    { assert (He : N.even (d * s) = true).
      { apply N.even_spec. destruct H as [q ->]. exists (q * 2 ^ k). ring. }
      rewrite N.even_mul, <- (N.negb_odd s), Hs, orb_false_r in He. exact He. }
    apply N.even_spec in Hd. destruct Hd as [d' ->].
    apply N.mul_divide_mono_l, IH.
    rewrite <- N.mul_assoc in H. apply N.mul_divide_cancel_l in H; [exact H|discriminate].
Qed.

Lemma add_mod_cancel x y m : m <> 0 -> (x + y) mod m = x mod m -> y mod m = 0.
Proof.
  intros Hm H. rewrite N.add_mod in H by exact Hm.
  pose proof (N.mod_lt x m Hm) as Hx. pose proof (N.mod_lt y m Hm) as Hy.
  revert H Hx Hy. generalize (x mod m) (y mod m). clear x y. intros a b H Ha Hb.
  destruct (N.lt_ge_cases (a + b) m) as [Hlt|Hge].
  - rewrite N.mod_small in H by exact Hlt. lia.
  - replace (a + b) with (a + b - m + 1 * m) in H by lia.
    rewrite N.mod_add, N.mod_small in H by lia. lia.
Qed.

Lemma probe_step_odd slots id : N.odd (probe_step slots id) = true.
Proof. unfold probe_step. rewrite <- N.bit0_odd, N.lor_spec. apply orb_true_r. Qed.

(* two probes i < j that coincide differ by a multiple (j - i) * step of 2^k; the step being odd,
   2^k divides j - i *)
Lemma probe_inj k id i j : i < j -> j < 2 ^ k -> probe (2 ^ k) id i <> probe (2 ^ k) id j.
Proof.
  intros Hij Hj Heq. unfold probe in Heq.
  assert (Hnz : 2 ^ k <> 0) by (apply N.pow_nonzero; discriminate).
  set (s := probe_step (2 ^ k) id) in *.
  assert (E : id mod 2 ^ k + j * s = id mod 2 ^ k + i * s + (j - i) * s).
  { rewrite <- N.add_assoc, <- N.mul_add_distr_r, (N.add_comm i), N.sub_add; [reflexivity|].
    apply N.lt_le_incl. exact Hij. }
  rewrite E in Heq. symmetry in Heq.
  apply add_mod_cancel in Heq; [|exact Hnz]. apply N.mod_divide in Heq; [|exact Hnz].
  apply (odd_divide_pow2 s (probe_step_odd _ _)), N.divide_pos_le in Heq; clear E; lia.
Qed.


(* every slot is probed within the first 2^k steps *)
Lemma probe_surj k id s : s < 2 ^ k -> exists i, i < 2 ^ k /\ probe (2 ^ k) id i = s.
Proof.
  intros Hs.
  assert (Hnz : 2 ^ k <> 0) by (apply N.pow_nonzero; discriminate).
  set (m := N.to_nat (2 ^ k)).
  set (f := fun i : nat => N.to_nat (probe (2 ^ k) id (N.of_nat i))).
  assert (ND : NoDup (map f (seq 0 m))).
  { apply NoDup_map_inj_on; [|apply seq_NoDup].
    intros x y Hx Hy Hf. apply in_seq in Hx. apply in_seq in Hy. unfold f in Hf.
    apply N2Nat.inj in Hf.
    destruct (Nat.lt_trichotomy x y) as [H|[H|H]]; [|exact H|].
    - exfalso. apply (probe_inj k id (N.of_nat x) (N.of_nat y)); [lia|unfold m in *; lia|exact Hf].
    - exfalso. apply (probe_inj k id (N.of_nat y) (N.of_nat x)); [lia|unfold m in *; lia|symmetry; exact Hf]. }
  assert (Hincl : incl (map f (seq 0 m)) (seq 0 m)).
  { intros x Hx. apply in_map_iff in Hx. destruct Hx as (i & <- & Hi). apply in_seq. unfold f.
    pose proof (probe_lt (2 ^ k) id (N.of_nat i) Hnz). unfold m. lia. }
  assert (Hrev : incl (seq 0 m) (map f (seq 0 m))).
  { apply NoDup_length_incl; [exact ND|rewrite map_length; lia|exact Hincl]. }
  assert (Hin : In (N.to_nat s) (seq 0 m)) by (apply in_seq; unfold m; lia).
  apply Hrev in Hin. apply in_map_iff in Hin. destruct Hin as (i & Hfi & Hi). apply in_seq in Hi.
  exists (N.of_nat i). split; [unfold m in Hi; lia|]. unfold f in Hfi. apply N2Nat.inj in Hfi. exact Hfi.
Qed.

Lemma insert_at_succeeds slots t id row : forall fuel j0,
  (forall s, s < slots -> exists x, slot_id t s = Some x) -> slots <> 0 ->
  (exists i, j0 <= i /\ i < j0 + N.of_nat fuel /\ slot_id t (probe slots id i) = Some 0) ->
  exists t', insert_at fuel slots t id row j0 = Some t'.
Proof.
  induction fuel as [|fuel IH]; intros j0 Hall Hnz (i & Hle & Hlt & Hz); [lia|].
  cbn [insert_at]. destruct (Hall (probe slots id j0) (probe_lt _ _ _ Hnz)) as [x Hx]. rewrite Hx.
  destruct (x =? 0) eqn:E; [eauto|].
  apply IH; [exact Hall|exact Hnz|]. exists i. repeat split; try lia; [|exact Hz].
  destruct (N.eq_dec i j0) as [->|]; [|lia]. rewrite Hx in Hz. inversion Hz. lia.
Qed.

Lemma read_initial_length_enc (fmt64 : bool) be len rest :
  len < (if fmt64 then 2 ^ 64 else 4294967280) ->
  read_initial_length be (enc_initial_length fmt64 be len ++ rest) = Ok ((len, fmt64), rest).
Proof.
  intros H. unfold read_initial_length, enc_initial_length. destruct fmt64.
  - rewrite <- app_assoc. rewrite read_un_enc_un_small by (change (p256 4) with (2 ^ 32); reflexivity).
    cbn [bind]. change (4294967295 <? 4294967280) with false. change (4294967295 =? 4294967295) with true. cbv iota.
    rewrite read_un_enc_un_small by (change (p256 8) with (2 ^ 64); exact H). reflexivity.
  - rewrite read_un_enc_un_small by (change (p256 4) with (2 ^ 32); change (2 ^ 32) with 4294967296; lia).
    cbn [bind]. destruct (len <? 4294967280) eqn:E; [reflexivity|lia].
Qed.

Lemma read_word_enc (fmt64 : bool) be v rest :
  v < (if fmt64 then 2 ^ 64 else 2 ^ 32) ->
  read_word fmt64 be (enc_word fmt64 be v ++ rest) = Ok (v, rest).
Proof.
  intros H. unfold read_word, enc_word. destruct fmt64.
  - apply read_un_enc_un_small. exact H.
  - apply read_un_enc_un_small. exact H.
Qed.

Lemma blen_repeat (x : byte) n : blen (repeat x n) = N.of_nat n.
Proof. unfold blen. rewrite repeat_length. reflexivity. Qed.
