(* Proofs/ConvertLineProofs.v — property C12, ConvertLineProgram (Model/ConvertLine.v):
     A. error-or-exact: the address offset / the row fields / the file mapping are verbatim or a specific error;
     B. the private row (SetAddress(0)) carries exact offsets: every non-set_address instruction commutes with
        rebasing the reader's row by the sequence base (uses C04's add_sized facts);
     C. the loop of read_row: one equation per case of an iteration, and an invariant principle; the other
        ConvertLine* files build on these (invariants of the private row: ConvertLineInv; safety: ConvertLineSafe;
        replay through the writer: ConvertLineReplay; the simulation against the reader: ConvertLineSim);
     the witnesses of the two known-finding classes. *)
From Coq Require Import List NArith ZArith Bool Lia ZifyBool ZifyN ZifyNat.
From Coq.Strings Require Import Byte.
Require Import GV.Base.Res GV.Base.Byt GV.Base.Ints GV.Model.Leb GV.Model.Prim GV.Spec.LineSpec GV.Model.LineRd
               GV.Proofs.LineRdBase GV.Proofs.LineRdMono GV.Model.LineWr GV.Model.ConvertLine.
Import ListNotations.
Local Open Scope N_scope.

(* ================================================================== A. error or exact *)

Lemma address_offset_exact c :
  match convert_address_offset c with
  | Ok a => a = r_addr (cl_row c) /\
            (le_min_len (p_lenc (cl_prog c)) <= 1 \/ a mod le_min_len (p_lenc (cl_prog c)) = 0)
  | Err e => e = CUnsupportedLineInstruction /\ 1 < le_min_len (p_lenc (cl_prog c)) /\
             r_addr (cl_row c) mod le_min_len (p_lenc (cl_prog c)) <> 0
  | _ => False
  end.
Proof.
  unfold convert_address_offset.
  destruct (1 <? le_min_len (p_lenc (cl_prog c))) eqn:E1; cbn [andb].
  - destruct (r_addr (cl_row c) mod le_min_len (p_lenc (cl_prog c)) =? 0) eqn:E2; cbn [negb].
    + split; [reflexivity|right; lia].
    + repeat split; lia.
  - split; [reflexivity|left; lia].
Qed.

(* every register of the private row is copied verbatim *)
Definition row_fields_verbatim (r : row) (w : wrow) : Prop :=
  w_address_offset w = r_addr r /\ w_op_index w = r_opi r /\ w_line w = r_line r /\ w_column w = r_col r /\
  w_discriminator w = r_disc r /\ w_is_statement w = r_stmt r /\ w_basic_block w = r_bb r /\
  w_prologue_end w = r_pe r /\ w_epilogue_begin w = r_eb r /\ w_isa w = r_isa r.

Lemma convert_row_exact h c :
  match convert_row h c with
  | Ok w => row_fields_verbatim (cl_row c) w /\
            nth_error (cl_files c) (N.to_nat (r_file (cl_row c))) = Some (w_file w) /\
            (h_version h <= 4 -> r_file (cl_row c) <> 0) /\
            (le_min_len (p_lenc (cl_prog c)) <= 1 \/
             w_address_offset w mod le_min_len (p_lenc (cl_prog c)) = 0)
  | Err e => (e = CUnsupportedLineInstruction /\ 1 < le_min_len (p_lenc (cl_prog c)) /\
              r_addr (cl_row c) mod le_min_len (p_lenc (cl_prog c)) <> 0) \/
             (e = CInvalidFileIndex /\
              (N.of_nat (length (cl_files c)) <= r_file (cl_row c) \/
               (r_file (cl_row c) = 0 /\ h_version h <= 4)))
  | _ => False
  end.
Proof.
  unfold convert_row. pose proof (address_offset_exact c) as A.
  destruct (convert_address_offset c) as [ao|e| |]; cbn [bind]; try contradiction.
  2:{ left. exact A. }
  destruct A as [Ea Hal]. subst ao.
  destruct (N.of_nat (length (cl_files c)) <=? r_file (cl_row c)) eqn:E1.
  { right. split; [reflexivity|left; lia]. }
  destruct ((r_file (cl_row c) =? 0) && (h_version h <=? 4)) eqn:E2.
  { right. split; [reflexivity|right; lia]. }
  destruct (nth_error (cl_files c) (N.to_nat (r_file (cl_row c)))) as [f|] eqn:E3.
  - cbn [unwrap bind]. unfold row_fields_verbatim. cbn.
    split; [repeat split|]. split; [reflexivity|]. split; [lia|exact Hal].
  - apply nth_error_None in E3. lia.
Qed.

(* ================================================================== B. offsets are exact *)

(* the reader's row seen from the sequence base `b` *)
Definition rebase (b : N) (r : row) : row := set_addr r (r_addr r - b).

Lemma add_sized_rebase dbg a len size b s :
  1 <= size <= 8 -> b <= a -> add_sized_g dbg a len size = Ok s ->
  add_sized_g dbg (a - b) len size = Ok (s - b).
Proof.
  intros Hs Hb. unfold add_sized_g.
  destruct (two64 <=? a + len) eqn:E1; [discriminate|].
  rewrite ones_sized_ok by exact Hs. cbn [bind].
  destruct (mask_of size <? a + len) eqn:E2; [discriminate|].
  intros H; inversion H; subst s.
  destruct (two64 <=? a - b + len) eqn:E3; [lia|].
  destruct (mask_of size <? a - b + len) eqn:E4; [lia|].
  f_equal. lia.
Qed.

Lemma line_advance_rebase b r z : apply_line_advance (rebase b r) z = rebase b (apply_line_advance r z).
Proof.
  unfold apply_line_advance, rebase. cbn [r_line set_addr].
  destruct (z <? 0)%Z; [destruct (Z.abs_N z <=? r_line r)|]; reflexivity.
Qed.

Lemma aoa_rebase dbg h r adv b r' :
  hdr_ok h -> r_tomb r = false -> b <= r_addr r ->
  apply_operation_advance dbg h r adv = Ok (r', None) ->
  apply_operation_advance dbg h (rebase b r) adv = Ok (rebase b r', None) /\
  r_tomb r' = false /\ b <= r_addr r'.
Proof.
  intros (Hlr & Hmo & Hob & Hsz) Ht Hb. unfold apply_operation_advance.
  assert (Ea : r_addr (rebase b r) = r_addr r - b) by reflexivity.
  assert (Eo : r_opi (rebase b r) = r_opi r) by reflexivity.
  assert (Et : r_tomb (rebase b r) = false) by exact Ht.
  rewrite Et, Ht.
  destruct (h_max_ops h =? 1) eqn:E1; [|destruct (h_max_ops h =? 0) eqn:E0; [lia|]]; cbn [bind];
    cbn [r_addr r_opi set_opi set_addr]; rewrite ?Ea, ?Eo;
    match goal with
    | |- context [add_sized_g dbg (r_addr r) ?w ?sz] =>
        pose proof (add_sized_g_good dbg (r_addr r) w sz Hsz) as G;
        destruct (add_sized_g dbg (r_addr r) w sz) as [s|e| |] eqn:EA
    end; try discriminate; intros H; inversion H; subst r'; clear H;
    rewrite (add_sized_rebase _ _ _ _ _ _ Hsz Hb EA);
    (split; [reflexivity|split; [exact Ht|cbn; lia]]).
Qed.

Lemma adv_result_ok (X : res (row * option error)) k r' x :
  adv_result X k = Ok (r', x) -> (forall e, x <> XErr e) -> X = Ok (r', None) /\ x = k.
Proof.
  unfold adv_result. destruct X as [[r0 [e|]]|e| |]; cbn; intros H Hx; inversion H; subst.
  - exfalso. eapply Hx. reflexivity.
  - auto.
Qed.

(* Every instruction other than DW_LNE_set_address: if the reader's execution on its row (absolute address)
   succeeds, the execution on the converter's private row (address - base) succeeds with the same outcome and
   the rebased result: address_offset = address - base exactly; no truncation, no spurious error. *)
Lemma execute_rebase dbg h r i b r' x :
  hdr_ok h -> r_tomb r = false -> b <= r_addr r ->
  (forall a, i <> LineSpec.ISetAddress a) ->
  execute dbg h r i = Ok (r', x) -> (forall e, x <> XErr e) ->
  execute dbg h (rebase b r) i = Ok (rebase b r', x) /\ r_tomb r' = false /\ b <= r_addr r'.
Proof.
  intros Hh Ht Hb Hi. pose proof Hh as (Hlr & Hmo & Hob & Hsz).
  destruct i; cbn [execute];
    try (intros H _; inversion H; subst; cbn; repeat split; assumption).
  - (* ISpecial *)
    destruct (adjust_opcode dbg h op) as [adj|e| |]; cbn [bind]; try discriminate.
    destruct (h_line_range h =? 0); [discriminate|].
    intros H Hx. destruct (adv_result_ok _ _ _ _ H Hx) as [HA ->].
    rewrite line_advance_rebase.
    match type of HA with apply_operation_advance _ _ ?r1 _ = _ =>
      assert (T1 : r_tomb r1 = false) by (rewrite tomb_line_advance; exact Ht);
      assert (B1 : b <= r_addr r1) by (rewrite addr_line_advance; exact Hb) end.
    destruct (aoa_rebase dbg h _ _ b r' Hh T1 B1 HA) as (E & T & B).
    rewrite E. cbn. auto.
  - (* IAdvancePc *)
    intros H Hx. destruct (adv_result_ok _ _ _ _ H Hx) as [HA ->].
    destruct (aoa_rebase dbg h _ _ b r' Hh Ht Hb HA) as (E & T & B). rewrite E. cbn. auto.
  - (* IAdvanceLine *)
    intros H _; inversion H; subst. rewrite line_advance_rebase, tomb_line_advance, addr_line_advance. auto.
  - (* IConstAddPc *)
    destruct (adjust_opcode dbg h 255) as [adj|e| |]; cbn [bind]; try discriminate.
    destruct (h_line_range h =? 0); [discriminate|].
    intros H Hx. destruct (adv_result_ok _ _ _ _ H Hx) as [HA ->].
    destruct (aoa_rebase dbg h _ _ b r' Hh Ht Hb HA) as (E & T & B). rewrite E. cbn. auto.
  - (* IFixedAddPc *)
    assert (Ea : r_addr (rebase b r) = r_addr r - b) by reflexivity.
    assert (Et : r_tomb (rebase b r) = false) by exact Ht.
    rewrite Et, Ht, Ea.
    pose proof (add_sized_g_good dbg (r_addr r) n (h_addr_size h) Hsz) as G.
    destruct (add_sized_g dbg (r_addr r) n (h_addr_size h)) as [s|e| |] eqn:EA; try discriminate.
    + intros H _; inversion H; subst. rewrite (add_sized_rebase _ _ _ _ _ _ Hsz Hb EA).
      split; [reflexivity|]. cbn. split; [exact Ht|lia].
    + intros H Hx; inversion H; subst. exfalso. eapply Hx. reflexivity.
  - (* ISetAddress *) exfalso. eapply Hi. reflexivity.
Qed.

(* min_tombstone = the value -2 at the address size, one below the DWARF tombstone -1 *)
Lemma min_tombstone_val size : 1 <= size <= 8 ->
  N.land (two64 - 2) (mask_of size) + 1 = mask_of size /\ 0 < N.land (two64 - 2) (mask_of size).
Proof.
  intros H.
  assert (C : size = 1 \/ size = 2 \/ size = 3 \/ size = 4 \/ size = 5 \/ size = 6 \/ size = 7 \/ size = 8) by lia.
  repeat (destruct C as [->|C]; [vm_compute; split; reflexivity|]). subst. vm_compute. split; reflexivity.
Qed.

(* DW_LNE_set_address on the private row at offset 0 (the first address of a sequence): the row stays at 0,
   op_index 0, not tombstoned — i.e. the private row is the reader's row rebased by the new address *)
Lemma set_address_zero dbg h q :
  hdr_ok h -> r_addr q = 0 ->
  execute dbg h q (LineSpec.ISetAddress 0) = Ok (set_opi (set_addr (set_tomb q false) 0) 0, XNoRow).
Proof.
  intros (Hlr & Hmo & Hob & Hsz) Hq. cbn [execute]. rewrite Hq.
  replace (0 <? 0) with false by reflexivity.
  unfold min_tombstone_g. rewrite ones_sized_ok by exact Hsz. cbn [bind].
  destruct (min_tombstone_val _ Hsz) as [_ M]. apply N.leb_gt in M. rewrite M. reflexivity.
Qed.

(* ================================================================== C. the loop of read_row, one instruction at a time *)

Section Loop.
Variables (dbg be : bool) (sx : secs) (h : header).

(* a row is due and its sequence is not being skipped *)
Definition emit_row (c : cl) : rr_out :=
  if r_end (cl_row c) then
    match convert_address_offset c with
    | Ok ao => (Ok (Some (CREndSequence ao)), c) | Err e => (Err e, c)
    | Panic => (Panic, c) | OutOfFuel => (OutOfFuel, c)
    end
  else
    match cl_addr c with
    | Some a => (Ok (Some (CRSetAddress a)), with_st CSConvertRow (with_addr None c))
    | None => ret_row h (with_st CSReadRow c)
    end.

(* what read_loop does once the private row has executed an instruction other than set_address / define_file *)
Definition after_exec (f : nat) (c : cl) (tomb : bool) (x : res (row * xout)) : rr_out :=
  match x with
  | Err e => (Err e, c) | Panic => (Panic, c) | OutOfFuel => (OutOfFuel, c)
  | Ok (r', XErr e) => (Err e, with_row r' c)
  | Ok (r', XNoRow) => read_loop f dbg be sx h (with_row r' c) tomb
  | Ok (r', XRow) =>
      let c := with_row r' c in
      if tomb then
        read_loop f dbg be sx h (with_row (row_reset h r') (if r_end r' then with_addr None c else c))
                  (if r_end r' then false else tomb)
      else emit_row c
  end.

(* DW_LNE_set_address: executed with operand 0 on the private row; the operand goes to `address` unless it is the
   tombstone -1 *)
Definition after_set_address (f : nat) (c : cl) (a : N) : rr_out :=
  match execute dbg h (cl_row c) (LineSpec.ISetAddress 0) with
  | Ok (r', XErr e) => (Err e, with_row r' c)
  | Ok (r', _) =>
      let c := with_row r' c in
      match ones_sized dbg (h_addr_size h) with
      | Ok ta => let tomb := a =? ta in read_loop f dbg be sx h (if tomb then c else with_addr (Some a) c) tomb
      | Err e => (Err e, c) | Panic => (Panic, c) | OutOfFuel => (OutOfFuel, c)
      end
  | Err e => (Err e, c) | Panic => (Panic, c) | OutOfFuel => (OutOfFuel, c)
  end.

(* DW_LNE_define_file *)
Definition after_define_file (f : nat) (c : cl) (tomb : bool) (fe : file_entry) : rr_out :=
  match convert_file sx (p_enc (cl_prog c)) (cl_dirs c) (cl_ls c) fe with
  | Ok (name, d, info, ls) =>
      match LineWr.add_file (cl_prog c) name d info with
      | Ok (p, id) => read_loop f dbg be sx h (with_file p ls id c) tomb
      | Err e => (Err e, c) | Panic => (Panic, c) | OutOfFuel => (OutOfFuel, c)
      end
  | Err e => (Err e, c) | Panic => (Panic, c) | OutOfFuel => (OutOfFuel, c)
  end.

Definition plain_insn (i : insn) : bool :=
  match i with LineSpec.ISetAddress _ | LineSpec.IDefineFile _ => false | _ => true end.

Lemma insn_classes i :
  plain_insn i = true \/ (exists a, i = LineSpec.ISetAddress a) \/ (exists fe, i = LineSpec.IDefineFile fe).
Proof. destruct i; eauto. Qed.

(* one iteration of read_loop: the input is empty, the next instruction does not parse, or it is of one of the classes *)
Lemma read_loop_nil f c tomb : cl_inp c = [] -> read_loop (S f) dbg be sx h c tomb = (Ok None, c).
Proof. intros E. cbn [read_loop]. rewrite E. reflexivity. Qed.

Section Iteration.
Variables (f : nat) (c : cl) (tomb : bool) (b : byte) (input rest : list byte).
Hypothesis E : cl_inp c = b :: input.

Lemma read_loop_stop : (forall x, parse_insn dbg be h (b :: input) <> Ok x) ->
  read_loop (S f) dbg be sx h c tomb =
  match parse_insn dbg be h (b :: input) with
  | Err e => (Err e, with_inp [] c) | Panic => (Panic, c) | _ => (OutOfFuel, c)
  end.
Proof. intros P. cbn [read_loop]. rewrite E. destruct (parse_insn dbg be h (b :: input)) as [x| | |]; [destruct (P x eq_refl)| | |]; reflexivity. Qed.

Lemma read_loop_plain i : parse_insn dbg be h (b :: input) = Ok (i, rest) -> plain_insn i = true ->
  read_loop (S f) dbg be sx h c tomb = after_exec f (with_inp rest c) tomb (execute dbg h (cl_row c) i).
Proof. intros P Hp. cbn [read_loop]. rewrite E, P. destruct i; try discriminate Hp; reflexivity. Qed.

Lemma read_loop_set_address a : parse_insn dbg be h (b :: input) = Ok (LineSpec.ISetAddress a, rest) ->
  read_loop (S f) dbg be sx h c tomb = after_set_address f (with_inp rest c) a.
Proof. intros P. cbn [read_loop]. rewrite E, P. reflexivity. Qed.

Lemma read_loop_define_file fe : parse_insn dbg be h (b :: input) = Ok (LineSpec.IDefineFile fe, rest) ->
  read_loop (S f) dbg be sx h c tomb = after_define_file f (with_inp rest c) tomb fe.
Proof. intros P. cbn [read_loop]. rewrite E, P. reflexivity. Qed.
End Iteration.

(* An invariant I of the converter state that every update of read_row preserves, and a property E of the events
   built from states satisfying I, hold along read_loop, read_row and the whole iteration. *)
Section Invariant.
Variables (I : cl -> Prop) (E : clrow -> Prop).
Hypothesis I_inp : forall c x, I c -> I (with_inp x c).
Hypothesis I_addr : forall c a, I c -> I (with_addr a c).
Hypothesis I_st : forall c s, I c -> I (with_st s c).
Hypothesis I_exec : forall c i r' x, I c -> execute dbg h (cl_row c) i = Ok (r', x) -> I (with_row r' c).
Hypothesis I_reset : forall c, I c -> I (with_row (row_reset h (cl_row c)) c).
Hypothesis I_file : forall c name d info ls p id,
  I c -> LineWr.add_file (cl_prog c) name d info = Ok (p, id) -> I (with_file p ls id c).
Hypothesis E_addr : forall a, E (CRSetAddress a).
Hypothesis E_row : forall c w, I c -> convert_row h c = Ok w -> E (CRRow w).
Hypothesis E_end : forall c ao, I c -> convert_address_offset c = Ok ao -> E (CREndSequence ao).

Definition out_inv (o : rr_out) : Prop := I (snd o) /\ forall ev, fst o = Ok (Some ev) -> E ev.

Lemma out_inv_quiet r c : I c -> (forall ev, r <> Ok (Some ev)) -> out_inv (r, c).
Proof. intros Hc Hr. split; [exact Hc|]. intros ev Hev. destruct (Hr ev Hev). Qed.

Lemma ret_row_inv c : I c -> out_inv (ret_row h c).
Proof.
  intros Hc. unfold ret_row. destruct (convert_row h c) as [w|e| |] eqn:EC;
    try (apply out_inv_quiet; [exact Hc|discriminate]).
  split; [exact Hc|]. intros ev Hev. inversion Hev; subst ev. exact (E_row c w Hc EC).
Qed.

Lemma emit_row_inv c : I c -> out_inv (emit_row c).
Proof.
  intros Hc. unfold emit_row. destruct (r_end (cl_row c)).
  - destruct (convert_address_offset c) as [ao|e| |] eqn:EA; try (apply out_inv_quiet; [exact Hc|discriminate]).
    split; [exact Hc|]. intros ev Hev. inversion Hev; subst ev. exact (E_end c ao Hc EA).
  - destruct (cl_addr c) as [a|]; [|apply ret_row_inv, I_st, Hc].
    split; [apply I_st, I_addr, Hc|]. intros ev Hev. inversion Hev; subst ev. apply E_addr.
Qed.

Lemma read_loop_inv : forall f c tomb, I c -> out_inv (read_loop f dbg be sx h c tomb).
Proof.
  induction f as [|f IH]; intros c tomb Hc; [apply out_inv_quiet; [exact Hc|discriminate]|].
  destruct (cl_inp c) as [|b input] eqn:Einp; [rewrite (read_loop_nil f c tomb Einp); apply out_inv_quiet; [exact Hc|discriminate]|].
  destruct (parse_insn dbg be h (b :: input)) as [[i rest]|e| |] eqn:EP;
    try (rewrite (read_loop_stop f c tomb b input Einp), EP by (rewrite EP; discriminate); apply out_inv_quiet; [auto|discriminate]).
  set (c1 := with_inp rest c). assert (H1 : I c1) by apply I_inp, Hc.
  destruct (insn_classes i) as [Hp|[[a ->]|[fe ->]]].
  - rewrite (read_loop_plain f c tomb b input rest Einp i EP Hp). fold c1. change (cl_row c) with (cl_row c1).
    unfold after_exec.
    destruct (execute dbg h (cl_row c1) i) as [[r' x]|e| |] eqn:EX; try (apply out_inv_quiet; [exact H1|discriminate]).
    pose proof (I_exec c1 i r' x H1 EX) as H2.
    destruct x as [| |e]; [|apply IH, H2|apply out_inv_quiet; [exact H2|discriminate]].
    cbv zeta. destruct tomb; [|apply emit_row_inv, H2].
    apply IH. destruct (r_end r'); [apply (I_reset (with_addr None (with_row r' c1))), I_addr, H2|apply (I_reset (with_row r' c1)), H2].
  - rewrite (read_loop_set_address f c tomb b input rest Einp a EP). fold c1. unfold after_set_address.
    destruct (execute dbg h (cl_row c1) (LineSpec.ISetAddress 0)) as [[r' x]|e| |] eqn:EX;
      try (apply out_inv_quiet; [exact H1|discriminate]).
    pose proof (I_exec c1 _ r' x H1 EX) as H2.
    destruct x as [| |e]; try (apply out_inv_quiet; [exact H2|discriminate]);
      (destruct (ones_sized dbg (h_addr_size h)) as [ta|e| |]; try (apply out_inv_quiet; [exact H2|discriminate]);
       cbv zeta; destruct (a =? ta); apply IH; [exact H2|apply I_addr, H2]).
  - rewrite (read_loop_define_file f c tomb b input rest Einp fe EP). fold c1. unfold after_define_file.
    destruct (convert_file sx (p_enc (cl_prog c1)) (cl_dirs c1) (cl_ls c1) fe) as [[[[name d] info] ls']|e| |];
      try (apply out_inv_quiet; [exact H1|discriminate]).
    destruct (LineWr.add_file (cl_prog c1) name d info) as [[p' id]|e| |] eqn:EA;
      try (apply out_inv_quiet; [exact H1|discriminate]).
    apply IH. exact (I_file c1 name d info ls' p' id H1 EA).
Qed.

Lemma read_row_inv c : I c -> out_inv (read_row dbg be sx h c).
Proof.
  intros Hc. unfold read_row. destruct (cl_st c).
  - apply read_loop_inv. apply (I_reset (with_addr None c)), I_addr, Hc.
  - destruct (cl_addr c); [|apply ret_row_inv, I_st, Hc].
    split; [apply I_st, I_addr, Hc|]. intros ev Hev. inversion Hev. apply E_addr.
  - apply ret_row_inv, I_st, Hc.
Qed.

Lemma events_loop_inv : forall f c, I c ->
  I (snd (events_loop f dbg be sx h c)) /\ Forall E (fst (fst (events_loop f dbg be sx h c))).
Proof.
  induction f as [|f IH]; intros c Hc; [split; [exact Hc|constructor]|].
  cbn [events_loop]. destruct (read_row_inv c Hc) as [Hc' He].
  destruct (read_row dbg be sx h c) as [[[ev|]|e| |] c']; cbn [fst snd] in *; try (split; [exact Hc'|constructor]).
  destruct (IH c' Hc') as [Hf Hevs]. destruct (events_loop f dbg be sx h c') as [[evs s] cf]. cbn [fst snd] in *.
  split; [exact Hf|constructor; [exact (He ev eq_refl)|exact Hevs]].
Qed.
End Invariant.

(* the FileId table only grows *)
Lemma events_loop_files f c : exists extra, cl_files (snd (events_loop f dbg be sx h c)) = cl_files c ++ extra.
Proof.
  refine (proj1 (events_loop_inv (fun c' => exists extra, cl_files c' = cl_files c ++ extra) (fun _ => True)
                   _ _ _ _ _ _ _ _ _ f c _)); auto.
  - intros c' name d info ls p id [extra Hx] _. exists (extra ++ [id]). cbn. rewrite Hx, app_assoc. reflexivity.
  - exists []. rewrite app_nil_r. reflexivity.
Qed.
End Loop.

(* ================================================================== known-finding witnesses *)

Definition wit_f1 : file_entry := mk_file (VString [x61]) 1 0 0 (repeat x00 16) None.
Definition wit_f2 : file_entry := mk_file (VString [x62]) 0 0 0 (repeat x00 16) None.
Definition wit_sx : secs := mk_secs [] [] None.
Definition wit_std13 : list byte := [x00; x01; x01; x01; x01; x00; x00; x00; x01; x00; x00; x01].

(* known_findings.txt `c12.line 1 4 3 1 1 -5 14 1 00050200003000dc00050200003802000101`:
   set_address 0x3000; special 220 (address += 15, line += 4); set_address 0x3802; end_sequence *)
Definition wit_midseq : header :=
  mk_header false 3 4 0 0 1 1 true (-5)%Z 14 1 [] [] [VString [x64]] [] [wit_f1; wit_f2]
    [x00;x05;x02;x00;x00;x30;x00; xdc; x00;x05;x02;x00;x00;x38;x02; x00;x01;x01].

(* VLIW (max_ops 4): set_address 0x3000; advance_pc 1 (op_index 1); copy; fixed_advance_pc 0 (op_index 0 at the
   same address); copy; end_sequence *)
Definition wit_vliw : header :=
  mk_header false 4 4 0 0 1 4 true (-5)%Z 14 13 wit_std13 [] [VString [x64]] [] [wit_f1; wit_f2]
    [x00;x05;x02;x00;x30;x00;x00; x02;x01; x01; x09;x00;x00; x01; x00;x01;x01].

Definition wit_events (dbg be : bool) (h : header) : option (list clrow * status) :=
  match cl_new dbg wit_sx (mk_src h None None) [] with
  | Ok c => Some (fst (events dbg be wit_sx h c))
  | _ => None
  end.
Definition wit_convert (dbg be : bool) (h : header) : option (res (list linsn)) :=
  match cl_new dbg wit_sx (mk_src h None None) [] with
  | Ok c => Some (match convert dbg be wit_sx h (fun a => Some (AConst a)) c with
                  | Ok c' => Ok (p_insns (cl_prog c')) | Err e => Err e | Panic => Panic | OutOfFuel => OutOfFuel end)
  | _ => None
  end.
