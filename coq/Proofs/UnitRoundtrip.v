(* Proofs/UnitRoundtrip.v — C11 composed with the reader models of C02/C03:
   what Model/UnitWr.v writes is read back by Model/Attr.v (attributes), Model/AbbrevRd.v (abbreviation
   tables) and Model/DieRd.v (raw entry reader) as the tree that was written. *)
From Coq Require Import List NArith ZArith Bool Lia ZifyBool ZifyN ZifyNat.
From Coq.Strings Require Import Byte.
Require Import GV.Base.Res GV.Base.Byt GV.Base.Ints GV.Spec.LebSpec GV.Model.Leb GV.Model.Prim.
Require Import GV.Spec.UnitWrSpec GV.Model.UnitWr GV.Proofs.LebProofs GV.Proofs.PrimProofs GV.Proofs.UnitWrProofs.
Require GV.Spec.FormSpec GV.Model.Attr GV.Spec.Forest GV.Model.AbbrevRd GV.Model.DieRd.
Require GV.Proofs.AttrProofs GV.Proofs.AbbrevRdProofs GV.Proofs.DieRdProofs.
Import ListNotations.
Local Open Scope N_scope.

Module FS := GV.Spec.FormSpec.
Module FO := GV.Spec.Forest.
Module AT := GV.Model.Attr.
Module AR := GV.Model.AbbrevRd.
Module DR := GV.Model.DieRd.

Lemma n2b_mod x : n2b (x mod 256) = n2b x.
Proof. unfold n2b. now rewrite N.mod_mod by discriminate. Qed.

Lemma le_bytes_le_enc n : forall v, le_bytes n v = FS.le_enc n v.
Proof. induction n as [|n IH]; intros v; cbn [le_bytes FS.le_enc]; [reflexivity|]. now rewrite n2b_mod, IH. Qed.

Lemma enc_un_enc_fixed n be v : enc_un n be v = FS.enc_fixed n be v.
Proof. unfold enc_un, be_bytes, FS.enc_fixed. now rewrite le_bytes_le_enc. Qed.

Lemma write_uleb128_bytes v bs : write_uleb128 v = Ok bs -> v < 2 ^ 64 -> bs = enc_uleb v.
Proof. intros H B. destruct (write_uleb128_enc v B) as [W _]. congruence. Qed.

Lemma write_sleb128_bytes z bs : write_sleb128 z = Ok bs -> bs = FS.enc_sleb z.
Proof.
  intros H. destruct (write_sleb128_ok _ _ H) as (-> & _).
  unfold FS.enc_sleb. now destruct (sleb_min_agrees 10 z) as (_ & _ & _ & -> & _).
Qed.

Lemma write_udata_enc be v size b : write_udata be v size = Ok b -> v < 2 ^ 64 ->
  b = FS.enc_fixed (N.to_nat size) be v /\ v < 2 ^ (8 * size) /\ valid_size size = true.
Proof.
  intros H B. destruct (write_udata_inv _ _ _ _ H) as (V & -> & L).
  split; [apply enc_un_enc_fixed|]. split; [|exact V].
  destruct L as [->|L]; [exact B|]. now rewrite N.pow_mul_r.
Qed.

Definition rspec (s : aspec) : AT.aspec := AT.mkSpec (as_name s) (as_form s) (as_ic s).
Definition rabbrev (code : N) (a : abbrev) : FO.abbrev :=
  FO.mkAbbrev code (ab_tag a) (ab_children a) (map rspec (ab_attrs a)).
(* the declarations AbbreviationTable::write emits: table order, codes from `code` upwards *)
Fixpoint rdecls (code : N) (tab : list abbrev) : list FO.abbrev :=
  match tab with [] => [] | a :: r => rabbrev code a :: rdecls (code + 1) r end.

(* field widths of the format: tags, names and forms are u16 and not 0, the implicit constant is an i64
   and only DW_FORM_implicit_const carries one (AttributeSpecification::new guarantees the latter) *)
Definition spec_wf (s : aspec) : Prop :=
  0 < as_name s < two16 /\ 0 < as_form s < two16 /\
  (- 9223372036854775808 <= as_ic s < 9223372036854775808)%Z /\ (as_form s <> 33 -> as_ic s = 0%Z).
Definition abbrev_wf (a : abbrev) : Prop := 0 < ab_tag a < two16 /\ Forall spec_wf (ab_attrs a).

Lemma rspec_ok s : spec_wf s -> FO.spec_ok (rspec s).
Proof. intros H. exact H. Qed.

Lemma rabbrev_ok code a : 0 < code < two64 -> abbrev_wf a -> FO.abbrev_ok (rabbrev code a).
Proof.
  intros Hc [Ht Hs]. unfold FO.abbrev_ok, rabbrev. cbn [FO.ab_code FO.ab_tag FO.ab_specs].
  split; [exact Hc|]. split; [exact Ht|]. apply Forall_map. eapply Forall_impl; [|exact Hs]. intros s. apply rspec_ok.
Qed.

Lemma aspec_write_enc s bs : aspec_write s = Ok bs -> spec_wf s -> bs = FO.enc_spec (rspec s).
Proof.
  unfold aspec_write, FO.enc_spec, rspec. cbn [AT.at_name AT.at_form AT.at_implicit].
  intros H [[_ Hn] [[_ Hf] _]]. unfold two16 in *.
  apply bind_ok in H. destruct H as [n [En H]]. apply bind_ok in H. destruct H as [f [Ef H]].
  apply bind_ok in H. destruct H as [c [Ec H]]. injection H as <-.
  rewrite (write_uleb128_bytes _ _ En) by lia. rewrite (write_uleb128_bytes _ _ Ef) by lia.
  change DW_FORM_implicit_const with 33 in Ec.
  destruct (as_form s =? 33); [rewrite (write_sleb128_bytes _ _ Ec)|injection Ec as <-]; reflexivity.
Qed.

Lemma aspecs_write_enc : forall l bs, aspecs_write l = Ok bs -> Forall spec_wf l ->
  bs = concat (map FO.enc_spec (map rspec l)).
Proof.
  induction l as [|s r IH]; intros bs H W; cbn [aspecs_write] in H.
  - now injection H as <-.
  - apply bind_ok in H. destruct H as [x [Ex H]]. apply bind_ok in H. destruct H as [y [Ey H]].
    injection H as <-. inversion W; subst. cbn [map concat].
    rewrite (aspec_write_enc _ _ Ex) by assumption. now rewrite (IH _ Ey) by assumption.
Qed.

Lemma abbrev_write_enc code a cb bs :
  write_uleb128 code = Ok cb -> code < two64 -> abbrev_write a = Ok bs -> abbrev_wf a ->
  cb ++ bs = FO.enc_abbrev (rabbrev code a).
Proof.
  intros Ec Hc H [[_ Ht] Hs]. unfold abbrev_write in H. unfold two16, two64 in *.
  apply bind_ok in H. destruct H as [t [Et H]]. apply bind_ok in H. destruct H as [s [Es H]].
  injection H as <-. unfold FO.enc_abbrev, rabbrev. cbn [FO.ab_code FO.ab_tag FO.ab_children FO.ab_specs].
  rewrite (write_uleb128_bytes _ _ Ec) by lia. rewrite (write_uleb128_bytes _ _ Et) by lia.
  rewrite (aspecs_write_enc _ _ Es Hs). reflexivity.
Qed.

Lemma abbrevs_write_from_enc : forall tab code bs,
  abbrevs_write_from code tab = Ok bs -> Forall abbrev_wf tab -> code + N.of_nat (length tab) <= two64 ->
  bs = FO.enc_abbrevs (rdecls code tab).
Proof.
  induction tab as [|a r IH]; intros code bs H W B; cbn [abbrevs_write_from rdecls] in *.
  - now injection H as <-.
  - apply bind_ok in H. destruct H as [c [Ec H]]. apply bind_ok in H. destruct H as [b [Eb H]].
    apply bind_ok in H. destruct H as [rest [Er H]]. injection H as <-.
    inversion W; subst. cbn [length] in B.
    unfold FO.enc_abbrevs, FO.enc_decls. cbn [map concat].
    rewrite <- (abbrev_write_enc code a c b Ec ltac:(lia) Eb) by assumption.
    rewrite (IH _ _ Er) by (try assumption; lia). unfold FO.enc_abbrevs, FO.enc_decls.
    now rewrite <- !app_assoc.
Qed.

Lemma rdecls_nth : forall tab code i a, nth_error tab i = Some a ->
  nth_error (rdecls code tab) i = Some (rabbrev (code + N.of_nat i) a).
Proof.
  induction tab as [|x r IH]; intros code [|i] a H; cbn [nth_error rdecls] in *; try discriminate.
  - injection H as ->. f_equal. f_equal. lia.
  - rewrite (IH _ _ _ H). f_equal. f_equal. lia.
Qed.

Lemma rdecls_in : forall tab code d, In d (rdecls code tab) ->
  exists i a, nth_error tab i = Some a /\ d = rabbrev (code + N.of_nat i) a.
Proof.
  induction tab as [|x r IH]; intros code d H; cbn [rdecls] in H; [destruct H|].
  destruct H as [<-|H].
  - exists O, x. split; [reflexivity|]. f_equal. lia.
  - destruct (IH _ _ H) as [i [a [E ->]]]. exists (S i), a. split; [exact E|]. f_equal. lia.
Qed.

Lemma rdecls_codes_nodup : forall tab code, NoDup (map FO.ab_code (rdecls code tab)).
Proof.
  induction tab as [|x r IH]; intros code; cbn [rdecls map]; [constructor|].
  constructor; [|apply IH]. intros Hin. apply in_map_iff in Hin. destruct Hin as [d [Hc Hd]].
  destruct (rdecls_in _ _ _ Hd) as [i [a [_ ->]]]. cbn [rabbrev FO.ab_code] in Hc. lia.
Qed.

Lemma rdecls_ok : forall tab code, Forall abbrev_wf tab -> 0 < code -> code + N.of_nat (length tab) <= two64 ->
  Forall FO.abbrev_ok (rdecls code tab).
Proof.
  induction tab as [|x r IH]; intros code W P B; cbn [rdecls]; [constructor|].
  inversion W; subst. cbn [length] in B. constructor.
  - apply rabbrev_ok; [lia|assumption].
  - apply IH; [assumption|lia|lia].
Qed.

(* AbbrevRd.parse of the written table: a table whose `get code` is, for every code, the declaration
   AbbreviationTable::write emitted under that code (and nothing else) *)
Theorem abbrevs_read_by_reader_lemma dbg tab bytes rest :
  abbrevs_write tab = Ok bytes -> Forall abbrev_wf tab -> N.of_nat (length tab) < two64 ->
  exists t, AR.parse_abbrevs dbg (bytes ++ rest) = Ok (t, rest) /\
            (forall code a, abbrev_lookup tab code = Some a -> AR.tbl_get t code = Some (rabbrev code a)) /\
            (forall code d, AR.tbl_get t code = Some d ->
               exists a, abbrev_lookup tab code = Some a /\ d = rabbrev code a).
Proof.
  intros H W B. unfold abbrevs_write in H.
  assert (E := abbrevs_write_from_enc _ _ _ H W ltac:(lia)). subst bytes.
  unfold FO.enc_abbrevs. rewrite <- app_assoc. cbn [app].
  destruct (AbbrevRdProofs.abbrev_get_full dbg (rdecls 1 tab) (x00 :: rest) rest) as [t [P [G1 [G2 G3]]]].
  - apply rdecls_ok; [assumption|lia|lia].
  - apply rdecls_codes_nodup.
  - right. reflexivity.
  - exists t. split; [exact P|]. split.
    + intros code a L. unfold abbrev_lookup in L. destruct (code =? 0) eqn:Z; [discriminate|]. apply N.eqb_neq in Z.
      assert (Hn := rdecls_nth tab 1 _ _ L). replace (1 + N.of_nat (N.to_nat (code - 1))) with code in Hn by lia.
      apply nth_error_In in Hn. apply G2 in Hn. exact Hn.
    + intros code d Hg. destruct (G3 _ _ Hg) as [Hin Hc]. destruct (rdecls_in _ _ _ Hin) as [i [a [Ei ->]]].
      cbn [rabbrev FO.ab_code] in Hc. subst code. exists a. split; [|reflexivity].
      unfold abbrev_lookup. replace (1 + N.of_nat i =? 0) with false by (symmetry; apply N.eqb_neq; lia).
      replace (N.to_nat (1 + N.of_nat i - 1)) with i by lia. exact Ei.
Qed.

Ltac case_ver ver :=
  repeat match goal with
  | |- context [4 <=? ver] => destruct (4 <=? ver) eqn:?
  | |- context [5 <=? ver] => destruct (5 <=? ver) eqn:?
  | |- context [(ver =? 2) || (ver =? 3)] => destruct ((ver =? 2) || (ver =? 3)) eqn:?
  end.

Definition renc (cx : wcx) : FS.enc :=
  FS.mkEnc (e_ver (wc_enc cx)) (e_fmt64 (wc_enc cx)) (e_asz (wc_enc cx)) (wc_be cx).

Definition nth0 (l : list N) (i : nat) : N := match nth_error l i with Some o => o | None => 0 end.

(* the DWARF form and the data (in the vocabulary of Spec/FormSpec.v) that AttributeValue::write emits *)
Definition av_fd (cx : wcx) (f : eid -> list byte) (v : aval) : FS.form * FS.raw :=
  let e := wc_enc cx in
  let wform (f4 f8 : FS.form) := if e_fmt64 e then f8 else f4 in
  let secoff := if (e_ver e =? 2) || (e_ver e =? 3) then wform FS.F_data4 FS.F_data8 else FS.F_sec_offset in
  match v with
  | AvAddress (AConst x) => (FS.F_addr, FS.RNum x)
  | AvAddress (ASym _ _) => (FS.F_addr, FS.RNum 0)
  | AvBlock bs => (FS.F_block, FS.RBytes bs)
  | AvData1 x => (FS.F_data1, FS.RNum x) | AvData2 x => (FS.F_data2, FS.RNum x)
  | AvData4 x => (FS.F_data4, FS.RNum x) | AvData8 x => (FS.F_data8, FS.RNum x)
  | AvData16 x => (FS.F_data16, FS.RNum x)
  | AvSdata z => (FS.F_sdata, FS.RInt z)
  | AvUdata x => (FS.F_udata, FS.RNum x)
  | AvImplicitConst z => if 5 <=? e_ver e then (FS.F_implicit_const, FS.RNone) else (FS.F_sdata, FS.RInt z)
  | AvExprloc x => (if 4 <=? e_ver e then FS.F_exprloc else FS.F_block,
                    FS.RBytes (match x_out x with Ok b => b | _ => [] end))
  | AvFlag b => (FS.F_flag, FS.RNum (if b then 1 else 0))
  | AvFlagPresent => if 4 <=? e_ver e then (FS.F_flag_present, FS.RNone) else (FS.F_flag, FS.RNum 1)
  | AvUnitRef id => (wform FS.F_ref4 FS.F_ref8, FS.RNum (fixed_num (wc_be cx) (f id)))
  | AvDebugInfoRef _ => (FS.F_ref_addr, FS.RNum 0)
  | AvDebugInfoRefSup x => (wform FS.F_ref_sup4 FS.F_ref_sup8, FS.RNum x)
  | AvLineProgramRef => (secoff, FS.RNum (match wc_line cx with Some o => o | None => 0 end))
  | AvLocationListRef i => (secoff, FS.RNum (nth0 (wc_loc cx) i))
  | AvDebugMacinfoRef x | AvDebugMacroRef x => (secoff, FS.RNum x)
  | AvRangeListRef i => (secoff, FS.RNum (nth0 (wc_rng cx) i))
  | AvDebugTypesRef x => (FS.F_ref_sig8, FS.RNum x)
  | AvStringRef i => (FS.F_strp, FS.RNum (nth0 (wc_str cx) i))
  | AvDebugStrRefSup x => (FS.F_strp_sup, FS.RNum x)
  | AvLineStringRef i => (FS.F_line_strp, FS.RNum (nth0 (wc_lstr cx) i))
  | AvString bs => (FS.F_string, FS.RBytes bs)
  | AvEncoding x | AvDecimalSign x | AvEndianity x | AvAccessibility x | AvVisibility x | AvVirtuality x
  | AvLanguage x | AvAddressClass x | AvIdentifierCase x | AvCallingConvention x | AvInline x | AvOrdering x =>
      (FS.F_udata, FS.RNum x)
  | AvFileIndex None => (FS.F_udata, FS.RNum 0)
  | AvFileIndex (Some i) => (FS.F_udata, FS.RNum (if wc_lpv cx <=? 4 then i + 1 else i))
  end.

(* payload widths of the Rust types that AttributeValue::write does not check itself *)
Definition av_ranges (cx : wcx) (v : aval) : Prop :=
  match v with
  | AvAddress (AConst x) => x < 2 ^ 64
  | AvData1 x => x < 2 ^ 8 | AvData2 x => x < 2 ^ 16 | AvData4 x => x < 2 ^ 32
  | AvData8 x => x < 2 ^ 64 | AvData16 x => x < 2 ^ 128
  | AvDebugInfoRefSup x | AvDebugMacinfoRef x | AvDebugMacroRef x | AvDebugStrRefSup x | AvDebugTypesRef x => x < 2 ^ 64
  | AvLineProgramRef => match wc_line cx with Some o => o < 2 ^ 64 | None => True end
  | AvLocationListRef i => nth0 (wc_loc cx) i < 2 ^ 64
  | AvRangeListRef i => nth0 (wc_rng cx) i < 2 ^ 64
  | AvStringRef i => nth0 (wc_str cx) i < 2 ^ 64
  | AvLineStringRef i => nth0 (wc_lstr cx) i < 2 ^ 64
  | _ => True
  end.

Lemma le_enc_le_num : forall b, FS.le_enc (length b) (le_num b) = b.
Proof. intros b. rewrite <- le_bytes_le_enc. exact (le_bytes_le_val b). Qed.

Lemma enc_fixed_fixed_num be b : FS.enc_fixed (length b) be (fixed_num be b) = b.
Proof.
  unfold FS.enc_fixed, fixed_num. destruct be; [|apply le_enc_le_num].
  rewrite <- (rev_length b). rewrite le_enc_le_num. apply rev_involutive.
Qed.

Lemma le_num_lt : forall b, le_num b < 2 ^ (8 * N.of_nat (length b)).
Proof. intros b. rewrite N.pow_mul_r. exact (le_val_lt b). Qed.

Lemma fixed_num_lt be b : fixed_num be b < 2 ^ (8 * N.of_nat (length b)).
Proof. unfold fixed_num. destruct be; [rewrite <- (rev_length b)|]; apply le_num_lt. Qed.

Lemma has_nul_forall bs : has_nul bs = false -> Forall (fun b => b <> x00) bs.
Proof.
  induction bs as [|b r IH]; intros H; [constructor|]. unfold has_nul in H. cbn [existsb] in H.
  apply orb_false_iff in H. destruct H as [H1 H2]. constructor; [|now apply IH].
  intros ->. discriminate.
Qed.

Lemma le_enc_zero : forall k, FS.le_enc k 0 = repeat x00 k.
Proof. induction k as [|k IH]; cbn [FS.le_enc repeat]; [reflexivity|]. change (0 / 256) with 0. now rewrite IH. Qed.

Lemma rev_repeat {A} (x : A) : forall k, rev (repeat x k) = repeat x k.
Proof.
  induction k as [|k IH]; [reflexivity|]. cbn [repeat rev]. rewrite IH. clear.
  induction k as [|k IH]; [reflexivity|]. cbn [repeat app]. now rewrite IH.
Qed.

Lemma zeros_enc_fixed n be : zeros n = FS.enc_fixed (N.to_nat n) be 0.
Proof. unfold zeros, FS.enc_fixed. rewrite le_enc_zero. destruct be; [now rewrite rev_repeat|reflexivity]. Qed.

Definition ic_of (o : option Z) : Z := match o with Some z => z | None => 0%Z end.

(* the FormSpec layout and data of a way of writing *)
Definition emit_layout (e : encoding) (m : emit) : FS.layout :=
  match m with
  | EFixed n _ => FS.LFixed (N.of_nat n)
  | EWord sz _ | EInfoRef _ sz => FS.LFixed sz
  | EUleb _ => FS.LUleb
  | ESleb _ => FS.LSleb
  | EBlock _ _ => FS.LBlock FS.PUleb
  | ECstr _ => FS.LCstring
  | ENothing => FS.LNone
  | EUnitRef _ => FS.LFixed (wsz e)
  end.

Definition emit_data (be : bool) (f : eid -> list byte) (m : emit) : FS.raw :=
  match m with
  | EFixed _ x | EWord _ (Ok x) | EUleb (Ok x) => FS.RNum x
  | EWord _ _ | EUleb _ | EInfoRef _ _ => FS.RNum 0
  | ESleb z => FS.RInt z
  | EBlock _ (Ok b) | ECstr b => FS.RBytes b
  | EBlock _ _ => FS.RBytes []
  | ENothing => FS.RNone
  | EUnitRef id => FS.RNum (fixed_num be (f id))
  end.

(* what the payload ranges say of the data handed to a writer *)
Definition emit_fits (e : encoding) (f : eid -> list byte) (m : emit) : Prop :=
  match m with
  | EFixed n x => x < 2 ^ (8 * N.of_nat n)
  | EWord _ (Ok x) | EUleb (Ok x) => x < 2 ^ 64
  | ESleb z => (- 2 ^ 63 <= z < 2 ^ 63)%Z
  | EBlock size (Ok b) => size = Ok (UnitWr.blen b) /\ UnitWr.blen b < 2 ^ 64
  | ECstr bs => has_nul bs = false
  | EUnitRef id => UnitWr.blen (f id) = wsz e
  | _ => True
  end.

Lemma emit_write_layout cx f m ops :
  emit_write cx m = Ok ops -> emit_fits (wc_enc cx) f m ->
  FS.enc_layout (emit_layout (wc_enc cx) m) (wc_be cx) (emit_data (wc_be cx) f m) = Some (ops_resolved f ops) /\
  FS.raw_fits (emit_layout (wc_enc cx) m) (emit_data (wc_be cx) f m).
Proof.
  destruct m as [n x|sz [x|er| |]|[x|er| |]|z|size [b|er| |]|bs| |id|[s|u id] sz];
    cbn [emit_write emit_fits emit_layout emit_data bind]; intros H F; binds; try discriminate;
    try (destruct (valid_size sz); [|discriminate]); injection H as <-;
    unfold ops_resolved; cbn [flat_map op_resolved op_bytes app FS.enc_layout FS.raw_fits FS.enc_prefix FS.prefix_bound];
    rewrite ?app_nil_r.
  - rewrite Nat2N.id, enc_un_enc_fixed. now split.
  - destruct (write_udata_enc _ _ _ _ E F) as (-> & L & _). now split.
  - rewrite (write_uleb128_bytes _ _ E F). now split.
  - rewrite (write_sleb128_bytes _ _ E). split; [reflexivity|lia].
  - destruct F as [F B]. rewrite F in E. injection E as <-.
    rewrite (write_uleb128_bytes _ _ E0 B). now split.
  - split; [reflexivity|now apply has_nul_forall].
  - now split.
  - unfold UnitWr.blen in F. rewrite <- F, Nat2N.id, enc_fixed_fixed_num. split; [reflexivity|apply fixed_num_lt].
  - rewrite (zeros_enc_fixed _ (wc_be cx)). split; [reflexivity|]. apply pow2_pos.
Qed.

Lemma idx_get_nth0 l i o : idx_get l i = Ok o -> nth0 l i = o.
Proof. unfold idx_get, unwrap, nth0. destruct (nth_error l i); [now intros [= ->]|discriminate]. Qed.

Lemma av_emit_fits dbg cx f v :
  av_decodable v -> av_typed cx v -> av_ranges cx v -> (forall id, UnitWr.blen (f id) = wsz (wc_enc cx)) ->
  emit_fits (wc_enc cx) f (av_emit dbg cx v).
Proof.
  assert (L : forall l i, nth0 l i < 2 ^ 64 -> emit_fits (wc_enc cx) f (EWord (wsz (wc_enc cx)) (idx_get l i))).
  { intros l i B. cbn [emit_fits]. destruct (idx_get l i) eqn:E; try exact I. now rewrite <- (idx_get_nth0 _ _ _ E). }
  destruct v; cbn [av_emit av_decodable av_typed av_ranges emit_fits]; intros X T R Hf; try exact I; try assumption; auto;
    try exact (L _ _ R).
  - destruct a; [exact R|exact I].
  - split; [reflexivity|lia].
  - destruct (_ <=? _); [exact I|exact T].
  - destruct T as (n & bs & E1 & E2 & B). rewrite E2. rewrite (X _ E2) in *. injection E1 as <-. split; [reflexivity|lia].
  - now destruct b.
  - destruct (_ <=? _); [exact I|reflexivity].
  - destruct (wc_line cx); [exact R|exact I].
  - destruct (file_raw dbg (wc_lpv cx) f0) eqn:E; try exact I. destruct f0 as [i|]; [|now injection E as <-].
    apply file_raw_val in E. subst. unfold wrapN. destruct (_ <=? 4); [apply N.mod_lt; discriminate|lia].
Qed.

Lemma av_fd_emit dbg cx f v : av_typed cx v ->
  FS.form_layout (fst (av_fd cx f v)) (renc cx) = emit_layout (wc_enc cx) (av_emit dbg cx v) /\
  snd (av_fd cx f v) = emit_data (wc_be cx) f (av_emit dbg cx v).
Proof.
  assert (L : forall l i, FS.RNum (nth0 l i) = emit_data (wc_be cx) f (EWord (wsz (wc_enc cx)) (idx_get l i))).
  { intros l i. unfold idx_get, unwrap, nth0. now destruct (nth_error l i). }
  unfold renc. destruct (wc_enc cx) as [ver fmt asz] eqn:Ee. intros T.
  destruct v; cbn [av_fd av_emit fst snd emit_layout emit_data FS.form_layout FS.version FS.fmt64 FS.address_size FS.word_bytes wsz e_ver e_fmt64 e_asz];
    rewrite ?Ee; cbn [e_ver e_fmt64 e_asz wsz].
  all: try (split; [reflexivity|first [reflexivity|apply L]]).
  all: try match goal with a : address |- _ => destruct a end.
  all: try match goal with |- context [wc_line ?c] => destruct (wc_line c) end.
  all: try match goal with |- context [(?x =? 2) || (?x =? 3)] => destruct ((x =? 2) || (x =? 3)) end.
  all: try match goal with |- context [if ?k <=? ?x then _ else _] => destruct (k <=? x) eqn:V end.
  all: try (split; [reflexivity|first [reflexivity|apply L]]).
  all: try (destruct (x_out x); split; reflexivity).
  all: try (destruct fmt; (split; [reflexivity|first [reflexivity|apply L]])).
  all: destruct f0 as [i|]; [|now split]; cbn [av_typed] in T; (split; [reflexivity|]); unfold file_raw; rewrite V;
    rewrite ?chk_add_ok by lia; reflexivity.
Qed.

Lemma av_fd_form cx f v :
  FS.form_code (fst (av_fd cx f v)) = fst (av_form (wc_enc cx) v) /\
  fst (av_fd cx f v) <> FS.F_indirect /\
  (fst (av_fd cx f v) <> FS.F_implicit_const -> snd (av_form (wc_enc cx) v) = None) /\
  (forall name, exists val, FS.form_value (renc cx) name (ic_of (snd (av_form (wc_enc cx) v))) (fst (av_fd cx f v)) (snd (av_fd cx f v)) = Some val).
Proof.
  unfold renc, av_fd, av_form, word_form. destruct (wc_enc cx) as [ver fmt asz].
  destruct v; cbn [e_ver e_fmt64 e_asz];
    try match goal with a : address |- _ => destruct a end;
    try match goal with o : option N |- _ => destruct o end;
    repeat match goal with |- context [if ?c then _ else _] => destruct c end; cbn [fst snd ic_of].
  all: split; [reflexivity|]; split; [discriminate|]; split; [try reflexivity; intros Q; exfalso; apply Q; reflexivity|].
  all: intros name; eexists; reflexivity.
Qed.


Lemma av_resolve dbg cx (f : eid -> list byte) v ops :
  av_write dbg cx v = Ok ops -> av_decodable v -> av_typed cx v -> av_ranges cx v ->
  (forall id, UnitWr.blen (f id) = wsz (wc_enc cx)) ->
  FS.form_code (fst (av_fd cx f v)) = fst (av_form (wc_enc cx) v) /\
  fst (av_fd cx f v) <> FS.F_indirect /\
  (fst (av_fd cx f v) <> FS.F_implicit_const -> snd (av_form (wc_enc cx) v) = None) /\
  FS.enc_layout (FS.form_layout (fst (av_fd cx f v)) (renc cx)) (wc_be cx) (snd (av_fd cx f v)) = Some (ops_resolved f ops) /\
  FS.raw_fits (FS.form_layout (fst (av_fd cx f v)) (renc cx)) (snd (av_fd cx f v)) /\
  (forall name, exists val, FS.form_value (renc cx) name (ic_of (snd (av_form (wc_enc cx) v))) (fst (av_fd cx f v)) (snd (av_fd cx f v)) = Some val).
Proof.
  intros H X T R Hf. rewrite av_write_emit in H.
  destruct (av_fd_form cx f v) as (C1 & C2 & C3 & C6).
  destruct (av_fd_emit dbg cx f v T) as [E1 E2].
  destruct (emit_write_layout cx f _ _ H (av_emit_fits dbg cx f v X T R Hf)) as [C4 C5].
  rewrite <- E1, <- E2 in C4, C5. exact (conj C1 (conj C2 (conj C3 (conj C4 (conj C5 C6))))).
Qed.

(* the meaning of the value that was set: number, bytes or flag *)
Definition av_payload (cx : wcx) (f : eid -> list byte) (v : aval) : FS.payload :=
  match v with
  | AvFlag b => FS.PFlag b
  | AvFlagPresent => FS.PFlag true
  | AvImplicitConst z => FS.PInt z
  | _ => match snd (av_fd cx f v) with
         | FS.RNum n => FS.PInt (Z.of_N n) | FS.RInt z => FS.PInt z | FS.RBytes b => FS.PBytes b
         | FS.RNone => FS.PFlag true
         end
  end.

Lemma av_payload_ok cx f name v val :
  FS.form_value (renc cx) name (ic_of (snd (av_form (wc_enc cx) v))) (fst (av_fd cx f v)) (snd (av_fd cx f v)) = Some val ->
  FS.payload_of val = av_payload cx f v.
Proof.
  destruct cx as [e be u uoff ents codes line lstr str rng loc lpv]. destruct e as [ver fmt asz].
  unfold renc, av_payload. cbn [wc_enc wc_be e_ver e_fmt64 e_asz].
  destruct v; unfold av_fd, av_form, word_form; cbn [wc_enc wc_be wc_line wc_loc wc_rng wc_str wc_lstr wc_lpv e_ver e_fmt64 e_asz];
    case_ver ver; try destruct fmt; cbn [fst snd ic_of FS.form_value FS.fmt64 FS.version negb andb].
  all: try match goal with a : address |- _ => destruct a end.
  all: try match goal with |- context [match ?o with Some _ => (FS.F_udata, _) | None => _ end] => destruct o end.
  all: cbn [fst snd FS.form_value FS.fmt64 FS.version negb andb].
  all: intros H; try (injection H as <-); try reflexivity.
  all: try (destruct (FS.legacy_section_offset name ver); reflexivity).
  all: try (destruct b; reflexivity).
Qed.

(* Attr.parse_attribute — the model of gimli's attribute reader — on the written (and patched) bytes of
   one attribute, under the specification the writer puts into the abbreviation (name, form chosen by `form`,
   implicit constant), returns exactly the value FormSpec assigns to the emitted form and data, consumes
   exactly those bytes, and that value means what was set *)
Theorem attr_read_by_reader_lemma dbg dbg' cx (f : eid -> list byte) name v ops rest :
  av_write dbg cx v = Ok ops -> av_decodable v -> av_typed cx v -> av_ranges cx v ->
  (forall id, UnitWr.blen (f id) = wsz (wc_enc cx)) -> AttrProofs.addr_size_ok (renc cx) ->
  exists val,
    AT.parse_attribute dbg' (renc cx) (AT.mkSpec name (fst (av_form (wc_enc cx) v)) (ic_of (snd (av_form (wc_enc cx) v))))
                       (ops_resolved f ops ++ rest) = Ok (val, rest) /\
    FS.form_value (renc cx) name (ic_of (snd (av_form (wc_enc cx) v))) (fst (av_fd cx f v)) (snd (av_fd cx f v)) = Some val /\
    FS.payload_of val = av_payload cx f v.
Proof.
  intros H X T R Hf HA.
  destruct (av_resolve dbg cx f v ops H X T R Hf) as [C1 [C2 [C3 [C4 [C5 C6]]]]].
  destruct (C6 name) as [val Hval]. exists val. split; [|split; [exact Hval|eapply av_payload_ok; exact Hval]].
  rewrite <- C1.
  assert (RT := AttrProofs.attr_roundtrip dbg' (renc cx) name (ic_of (snd (av_form (wc_enc cx) v))) O
                  (fst (av_fd cx f v)) (snd (av_fd cx f v)) (ops_resolved f ops) val rest C2 HA (fun _ => eq_refl) C5).
  replace (FS.be (renc cx)) with (wc_be cx) in RT by reflexivity.
  specialize (RT C4 Hval). cbn [FS.spec_form FS.enc_hops app] in RT. exact RT.
Qed.

Definition t_attr (cx : wcx) (f : eid -> list byte) (p : N * aval) : FO.attr :=
  let F := fst (av_fd cx f (snd p)) in
  let d := snd (av_fd cx f (snd p)) in
  let ic := ic_of (snd (av_form (wc_enc cx) (snd p))) in
  FO.mkAttr (AT.mkSpec (fst p) (FS.form_code F) ic)
            (match FS.enc_layout (FS.form_layout F (renc cx)) (wc_be cx) d with Some b => b | None => [] end)
            (match FS.form_value (renc cx) (fst p) ic F d with Some x => x | None => FS.VFlag false end).

Definition sibw_of (cx : wcx) : FO.sibw := if e_fmt64 (wc_enc cx) then FO.W8 else FO.W4.

Definition t_items (cx : wcx) (f : eid -> list byte) (sib : bool) (attrs : list (N * aval)) : list FO.item :=
  (if sib then [FO.ISib (sibw_of cx)] else []) ++ map (fun p => FO.IAttr (t_attr cx f p)) attrs.

(* the written entry tree in the vocabulary of Spec/Forest.v *)
Fixpoint T (cx : wcx) (f : eid -> list byte) (d : die) : FO.tree :=
  match d with
  | Die _ tag sib attrs ch => FO.Node tag false (t_items cx f (sib && has_kids ch) attrs) (map (T cx f) ch)
  end.

(* what the reader side needs of the written tree: tags and attribute names are non-zero u16 (names other
   than DW_AT_sibling, which `set` refuses), values within their Rust types *)
Definition attr_rd_ok (cx : wcx) (p : N * aval) : Prop :=
  0 < fst p < two16 /\ fst p <> 1 /\ av_decodable (snd p) /\ av_typed cx (snd p) /\ av_ranges cx (snd p).

Fixpoint die_rd_ok (cx : wcx) (d : die) : Prop :=
  match d with
  | Die _ tag _ attrs ch =>
      0 < tag < two16 /\ Forall (attr_rd_ok cx) attrs /\
      (fix go (l : list die) : Prop := match l with [] => True | c :: r => die_rd_ok cx c /\ go r end) ch
  end.
Section rd_ok_list.
  Variable cx : wcx.
  Fixpoint dies_rd_ok (l : list die) : Prop :=
    match l with [] => True | c :: r => die_rd_ok cx c /\ dies_rd_ok r end.
End rd_ok_list.
Lemma die_rd_ok_unfold cx id tag sib attrs ch :
  die_rd_ok cx (Die id tag sib attrs ch) = (0 < tag < two16 /\ Forall (attr_rd_ok cx) attrs /\ dies_rd_ok cx ch).
Proof. reflexivity. Qed.

Lemma form_code_range F : 0 < FS.form_code F < two16.
Proof. destruct F; vm_compute; split; reflexivity. Qed.

(* one attribute: a DWARF attribute in the sense of Forest.attr_ok whose bytes are the written ones *)
Lemma t_attr_ok dbg cx f name v ops :
  av_write dbg cx v = Ok ops -> attr_rd_ok cx (name, v) ->
  (forall id, UnitWr.blen (f id) = wsz (wc_enc cx)) ->
  FO.attr_ok (renc cx) (t_attr cx f (name, v)) /\
  FO.a_bytes (t_attr cx f (name, v)) = ops_resolved f ops /\
  FO.a_spec (t_attr cx f (name, v)) = AT.mkSpec name (fst (av_form (wc_enc cx) v)) (ic_of (snd (av_form (wc_enc cx) v))) /\
  FO.spec_ok (FO.a_spec (t_attr cx f (name, v))).
Proof.
  intros H [Hn [Hn1 [X [Ty R]]]] Hf. cbn [fst snd] in *.
  destruct (av_resolve dbg cx f v ops H X Ty R Hf) as [C1 [C2 [C3 [C4 [C5 C6]]]]].
  destruct (C6 name) as [val Hval].
  unfold t_attr. cbn [fst snd]. rewrite C4, Hval. cbn [FO.a_bytes FO.a_spec].
  split; [|split; [reflexivity|split; [now rewrite C1|]]].
  - exists (FO.mkUAttr name (ic_of (snd (av_form (wc_enc cx) v))) O (fst (av_fd cx f v)) (snd (av_fd cx f v))).
    split.
    + unfold FO.uattr_ok. cbn [FO.u_form FO.u_hops FO.u_data FO.u_name]. repeat split; try assumption.
    + unfold FO.resolve. cbn [FO.u_form FO.u_hops FO.u_data FO.u_name FO.u_implicit].
      replace (FS.be (renc cx)) with (wc_be cx) by reflexivity. rewrite C4, Hval. reflexivity.
  - unfold FO.spec_ok. cbn [AT.at_name AT.at_form AT.at_implicit].
    split; [exact Hn|]. split; [apply form_code_range|].
    destruct (snd (av_form (wc_enc cx) v)) as [z|] eqn:Ez.
    + (* only ImplicitConst (version >= 5) carries a constant *)
      split.
      * destruct v; cbn [av_form] in Ez; repeat match type of Ez with context [if ?c then _ else _] => destruct c end;
          cbn [snd] in Ez; try discriminate. injection Ez as <-. exact Ty.
      * intros Hne. exfalso. assert (Q : fst (av_fd cx f v) <> FS.F_implicit_const).
        { intros E. apply Hne. rewrite E. reflexivity. }
        specialize (C3 Q). congruence.
    + cbn [ic_of]. split; [lia|reflexivity].
Qed.

Lemma attrs_T dbg cx f next : forall attrs aops,
  attrs_write dbg cx attrs = Ok aops -> Forall (attr_rd_ok cx) attrs ->
  (forall id, UnitWr.blen (f id) = wsz (wc_enc cx)) ->
  concat (map (FO.enc_item (wc_be cx) next) (map (fun p => FO.IAttr (t_attr cx f p)) attrs)) = ops_resolved f aops /\
  Forall (fun it => match it with FO.IAttr a => FO.attr_ok (renc cx) a | FO.ISib _ => True end)
         (map (fun p => FO.IAttr (t_attr cx f p)) attrs) /\
  Forall FO.spec_ok (map FO.item_spec (map (fun p => FO.IAttr (t_attr cx f p)) attrs)) /\
  (forall specs, attr_specs dbg (wc_enc cx) attrs = Ok specs ->
     map FO.item_spec (map (fun p => FO.IAttr (t_attr cx f p)) attrs) = map rspec specs).
Proof.
  induction attrs as [|[n v] r IH]; intros aops H W Hf; cbn [attrs_write] in H.
  - injection H as <-. cbn [map concat]. repeat split; try constructor.
    intros specs Hs. cbn [attr_specs] in Hs. now injection Hs as <-.
  - apply bind_ok in H. destruct H as [o [Eo H]]. apply bind_ok in H. destruct H as [ro [Ero H]].
    injection H as <-. inversion W as [|? ? W1 W2]; subst.
    destruct (t_attr_ok dbg cx f n v o Eo W1 Hf) as [A1 [A2 [A3 A4]]].
    destruct (IH _ Ero W2 Hf) as [B1 [B2 [B3 B4]]].
    cbn [map concat FO.enc_item FO.item_spec]. rewrite A2, B1, ops_resolved_app.
    split; [reflexivity|]. split; [constructor; assumption|]. split; [constructor; assumption|].
    intros specs Hs. cbn [attr_specs] in Hs.
    destruct (av_form (wc_enc cx) v) as [form ic] eqn:EF.
    apply bind_ok in Hs. destruct Hs as [s [Es Hs]]. apply bind_ok in Hs. destruct Hs as [rs [Ers Hs]].
    injection Hs as <-. destruct (aspec_new_ok _ _ _ _ _ Es) as [S1 [S2 S3]].
    cbn [map]. rewrite (B4 _ Ers), A3. cbn [fst snd]. f_equal.
    unfold rspec. now rewrite S1, S2, S3.
Qed.

(* the code assignment of the written unit: position of the abbreviation in the unit's table *)
Definition unrspec (s : AT.aspec) : aspec := mkAspec (AT.at_name s) (AT.at_form s) (AT.at_implicit s).
Definition codes_of_tab (tab : list abbrev) : FO.coding := fun tag hc specs =>
  match abbrev_find tab (mkAbbrev tag hc (map unrspec specs)) with
  | Some i => N.of_nat i + 1
  | None => 0
  end.

Lemma unrspec_rspec l : map unrspec (map rspec l) = l.
Proof. induction l as [|[n fm c] r IH]; cbn; [reflexivity|]. now rewrite IH. Qed.

Lemma codes_of_tab_lookup tab code ab :
  abbrev_lookup tab code = Some ab -> NoDup tab ->
  codes_of_tab tab (ab_tag ab) (ab_children ab) (map rspec (ab_attrs ab)) = code.
Proof.
  intros L ND. unfold codes_of_tab. rewrite unrspec_rspec.
  replace (mkAbbrev (ab_tag ab) (ab_children ab) (ab_attrs ab)) with ab by (destruct ab; reflexivity).
  unfold abbrev_lookup in L. destruct (code =? 0) eqn:Z; [discriminate|]. apply N.eqb_neq in Z.
  assert (Hin : In ab tab) by (eapply nth_error_In; eassumption).
  destruct (abbrev_find_in _ _ Hin) as [i F]. rewrite F. destruct (abbrev_find_some _ _ _ F) as [F1 _].
  assert (i = N.to_nat (code - 1)); [|lia].
  rewrite NoDup_nth_error in ND. apply ND; [apply nth_error_Some; congruence|congruence].
Qed.

Lemma has_children_T cx f d : FO.has_children (T cx f d) = has_kids (die_children d).
Proof. destruct d as [id tag sib attrs ch]. cbn [T FO.has_children die_children orb]. now destruct ch. Qed.

(* the abbreviation calculate_offsets registers for an entry is the abbreviation of its Forest image *)
Lemma die_abbrev_T dbg cx f id tag sib attrs ch ab aops :
  die_abbrev dbg (wc_enc cx) (Die id tag sib attrs ch) = Ok ab ->
  attrs_write dbg cx attrs = Ok aops -> Forall (attr_rd_ok cx) attrs ->
  (forall id, UnitWr.blen (f id) = wsz (wc_enc cx)) ->
  ab_tag ab = tag /\ ab_children ab = has_kids ch /\
  FO.t_specs (T cx f (Die id tag sib attrs ch)) = map rspec (ab_attrs ab).
Proof.
  intros H Ea W Hf. unfold die_abbrev in H.
  apply bind_ok in H. destruct H as [sibspec [Es H]]. apply bind_ok in H. destruct H as [specs [Esp H]].
  injection H as <-. cbn [ab_tag ab_children ab_attrs]. split; [reflexivity|]. split; [reflexivity|].
  destruct (attrs_T dbg cx f 0 attrs aops Ea W Hf) as [_ [_ [_ B4]]].
  unfold FO.t_specs. cbn [T FO.t_items]. unfold t_items. rewrite !map_app, (B4 _ Esp). f_equal.
  destruct (sib && has_kids ch).
  - apply bind_ok in Es. destruct Es as [s [E1 Es]]. injection Es as <-.
    destruct (aspec_new_ok _ _ _ _ _ E1) as [S1 [S2 S3]]. cbn [map FO.item_spec]. unfold rspec. rewrite S1, S2, S3.
    unfold FO.sib_spec, sibw_of, word_form. destruct (e_fmt64 (wc_enc cx)); reflexivity.
  - injection Es as <-. reflexivity.
Qed.

Lemma pre_tree_unfold codes depth off t :
  FO.pre_tree codes depth off t =
  FO.root_die codes off depth t :: FO.on_list (FO.pre_tree codes (depth + 1)) (FO.tree_size codes) (FO.kids_off codes off t) (FO.t_kids t).
Proof. destruct t. reflexivity. Qed.

Lemma nodes_unfold t : FO.nodes t = t :: flat_map FO.nodes (FO.t_kids t).
Proof. destruct t. reflexivity. Qed.

Section encT.
  Variables (dbg : bool) (cx : wcx) (f : eid -> list byte) (tab : list abbrev) (tbl : AR.abbrevs).
  Hypothesis ND : NoDup tab.
  Hypothesis Htbl : forall code a, abbrev_lookup tab code = Some a -> AR.tbl_get tbl code = Some (rabbrev code a).
  Hypothesis Hf : forall id, UnitWr.blen (f id) = wsz (wc_enc cx).
  Hypothesis Hlen : N.of_nat (length tab) < two64.

  Definition node_good (t : FO.tree) : Prop :=
    FO.node_ok (codes_of_tab tab) (renc cx) t /\
    AR.tbl_get tbl (FO.t_code (codes_of_tab tab) t) = Some (FO.t_abbrev (codes_of_tab tab) t).

  Notation codes := (codes_of_tab tab).
  Notation uoff := (wc_unit_off cx).

  (* the ops written from position p for a run of sibling entries are Forest's encoding of the trees `ts` at
     unit offset p - uoff: same bytes, same sizes, every node known to the reader's table, every sibling
     value representable, and the entries start where the marks are *)
  Definition forest_written (ts : list FO.tree) (p : N) (ops : list wop) : Prop :=
    FO.on_list (FO.enc_tree codes (wc_be cx)) (FO.tree_size codes) (p - uoff) ts = ops_resolved f ops /\
    FO.sumN (map (FO.tree_size codes) ts) = ops_len ops /\
    Forall node_good (flat_map FO.nodes ts) /\
    Forall (FO.node_fits codes) (FO.on_list (FO.placed codes) (FO.tree_size codes) (p - uoff) ts) /\
    (forall depth, map FO.d_offset (FO.on_list (FO.pre_tree codes depth) (FO.tree_size codes) (p - uoff) ts) =
                   map (fun ip => snd ip - uoff) (ops_marks p ops)).

  Lemma forest_written_cons t ts p o ro : uoff <= p ->
    forest_written [t] p o -> forest_written ts (p + ops_len o) ro -> forest_written (t :: ts) p (o ++ ro).
  Proof.
    intros U [A1 [A2 [A3 [A4 A5]]]] [B1 [B2 [B3 [B4 B5]]]].
    cbn [FO.on_list map flat_map FO.sumN fold_right] in A1, A2, A3, A4, A5. rewrite app_nil_r in A1, A3, A4.
    rewrite N.add_0_r in A2.
    assert (E : p - uoff + FO.tree_size codes t = p + ops_len o - uoff) by lia.
    unfold forest_written. rewrite !DieRdProofs.on_list_cons, E, A1, B1, ops_resolved_app, ops_len_app.
    cbn [map FO.sumN fold_right flat_map].
    split; [reflexivity|]. split; [fold (FO.sumN (map (FO.tree_size codes) ts)); lia|].
    split; [apply Forall_app; split; assumption|]. split; [apply Forall_app; split; assumption|].
    intros depth. specialize (A5 depth). rewrite app_nil_r in A5.
    now rewrite DieRdProofs.on_list_cons, map_app, ops_marks_app, map_app, A5, E, B5.
  Qed.

  Lemma attr_items_fit attrs q :
    Forall (fun it => match it with FO.ISib w => q < 2 ^ (8 * N.of_nat (FO.sib_len w)) | FO.IAttr _ => True end)
           (map (fun p => FO.IAttr (t_attr cx f p)) attrs).
  Proof. apply Forall_forall. intros it Hit. apply in_map_iff in Hit. destruct Hit as [p [<- _]]. exact I. Qed.

  (* what does not depend on the children: the Forest node of an entry has the entry's code, its abbreviation is
     the one the reader's table holds under that code, and its attribute items are the written attribute bytes *)
  Lemma entry_node id tag sib attrs ch code ab cb aops :
    die_abbrev dbg (wc_enc cx) (Die id tag sib attrs ch) = Ok ab -> abbrev_lookup tab code = Some ab ->
    0 < tag < two16 -> Forall (attr_rd_ok cx) attrs ->
    write_uleb128 code = Ok cb -> attrs_write dbg cx attrs = Ok aops ->
    let t := T cx f (Die id tag sib attrs ch) in
    FO.t_code codes t = code /\ cb = enc_uleb code /\ node_good t /\
    FO.sumN (map FO.item_len (map (fun p => FO.IAttr (t_attr cx f p)) attrs)) = ops_len aops /\
    (forall next, concat (map (FO.enc_item (wc_be cx) next) (map (fun p => FO.IAttr (t_attr cx f p)) attrs)) =
                  ops_resolved f aops).
  Proof.
    intros C2 C3 Dt Da Ecb Ea. cbv zeta.
    destruct (die_abbrev_T dbg cx f id tag sib attrs ch ab aops C2 Ea Da Hf) as [Q1 [Q2 Q3]].
    assert (Ttag : FO.t_tag (T cx f (Die id tag sib attrs ch)) = tag) by reflexivity.
    assert (Thc : FO.has_children (T cx f (Die id tag sib attrs ch)) = has_kids ch)
      by (apply (has_children_T cx f (Die id tag sib attrs ch))).
    assert (Titems : FO.t_items (T cx f (Die id tag sib attrs ch)) = t_items cx f (sib && has_kids ch) attrs) by reflexivity.
    assert (Tkids : FO.t_kids (T cx f (Die id tag sib attrs ch)) = map (T cx f) ch) by reflexivity.
    set (t := T cx f (Die id tag sib attrs ch)) in *.
    (* the code *)
    assert (Hc0 : 0 < code < two64).
    { assert (Z := abbrev_lookup_nonzero _ _ _ C3). unfold abbrev_lookup in C3.
      destruct (code =? 0); [discriminate|]. assert (L : (N.to_nat (code - 1) < length tab)%nat) by (apply nth_error_Some; congruence). lia. }
    assert (Hcode : FO.t_code codes t = code).
    { unfold FO.t_code. rewrite Q3, Ttag, Thc, <- Q1, <- Q2. apply codes_of_tab_lookup; assumption. }
    assert (Ecb' : cb = enc_uleb code) by (apply write_uleb128_bytes; [exact Ecb|unfold two64 in Hc0; lia]).
    (* attributes *)
    assert (HA := fun next : N => attrs_T dbg cx f next attrs aops Ea Da Hf).
    assert (Laops : UnitWr.blen (ops_resolved f aops) = ops_len aops).
    { apply (ops_resolved_len f (wsz (wc_enc cx))); [exact Hf|].
      intros i w' Hi. assert (F := attrs_write_forall dbg cx _ (av_write_refw dbg cx) _ _ Ea).
      rewrite Forall_forall in F. exact (F _ Hi). }
    assert (Litems : FO.sumN (map FO.item_len (map (fun p => FO.IAttr (t_attr cx f p)) attrs)) = ops_len aops).
    { rewrite <- (DieRdProofs.nlen_concat_items (wc_be cx) 0). destruct (HA 0) as [-> _]. exact Laops. }
    (* the abbreviation as seen by the reader's table *)
    assert (Htab : AR.tbl_get tbl (FO.t_code codes t) = Some (FO.t_abbrev codes t)).
    { unfold FO.t_abbrev. rewrite Hcode, (Htbl _ _ C3). unfold rabbrev. now rewrite Q3, Ttag, Thc, Q1, Q2. }
    assert (Hspecs : Forall FO.spec_ok (FO.t_specs t)).
    { unfold FO.t_specs. rewrite Titems. unfold t_items. rewrite map_app. apply Forall_app. split.
      - destruct (sib && has_kids ch); [|constructor]. constructor; [|constructor].
        unfold sibw_of. destruct (e_fmt64 (wc_enc cx)); repeat split; (reflexivity || discriminate).
      - destruct (HA 0) as [_ [_ [A3 _]]]. exact A3. }
    assert (Hnode : node_good t).
    { split; [|exact Htab]. split.
      - unfold FO.abbrev_ok, FO.t_abbrev. cbn [FO.ab_code FO.ab_tag FO.ab_specs]. rewrite Hcode, Ttag.
        split; [exact Hc0|]. split; [exact Dt|exact Hspecs].
      - rewrite Titems. unfold t_items. apply Forall_app. split.
        + destruct (sib && has_kids ch); repeat constructor.
        + destruct (HA 0) as [_ [A2 _]]. exact A2. }
    repeat split; try assumption; try apply Hnode. intros next. now destruct (HA next) as [-> _].
  Qed.

  Lemma encT_all :
    (forall d pos ops, write_die dbg cx d pos = Ok ops -> codes_ok dbg cx tab d -> die_rd_ok cx d ->
       uoff <= pos -> pos + ops_len ops < 2 ^ 64 -> forest_written [T cx f d] pos ops) /\
    (forall l p ops, write_list dbg cx l p = Ok ops -> codes_ok_list dbg cx tab l -> dies_rd_ok cx l ->
       uoff <= p -> p + ops_len ops < 2 ^ 64 -> forest_written (map (T cx f) l) p ops).
  Proof.
    apply write_ind2.
    { intros p _ _ _ _. repeat split; constructor. }
    { intros c r p o ro _ Hc _ Hr [C1 C2] [D1 D2] U B. rewrite ops_len_app in B.
      apply forest_written_cons; [exact U|apply Hc|apply Hr]; try assumption; lia. }
    intros [id tag sib attrs ch] pos ops HW IH C D U B. cbn [die_children] in IH.
    rewrite codes_ok_unfold in C. destruct C as [[code [ab [C1 [C2 C3]]]] Cl].
    rewrite die_rd_ok_unfold in D. destruct D as [Dt [Da Dc]].
    destruct (write_die_inv _ _ _ _ _ _ _ _ _ HW) as (code' & cb & aops & Ec & Ecb & Ea & W).
    unfold idx_get, unwrap in Ec. rewrite C1 in Ec. injection Ec as <-.
    unfold forest_written. cbn [FO.on_list map flat_map FO.sumN fold_right]. rewrite !app_nil_r, N.add_0_r.
    destruct (entry_node id tag sib attrs ch code ab cb aops C2 C3 Dt Da Ecb Ea) as (Hcode & Ecb' & Hnode & Litems & HA).
    assert (Hfit_attrs := attr_items_fit attrs).
    assert (Ttag : FO.t_tag (T cx f (Die id tag sib attrs ch)) = tag) by reflexivity.
    assert (Thc : FO.has_children (T cx f (Die id tag sib attrs ch)) = has_kids ch)
      by (apply (has_children_T cx f (Die id tag sib attrs ch))).
    assert (Titems : FO.t_items (T cx f (Die id tag sib attrs ch)) = t_items cx f (sib && has_kids ch) attrs) by reflexivity.
    assert (Tkids : FO.t_kids (T cx f (Die id tag sib attrs ch)) = map (T cx f) ch) by reflexivity.
    set (t := T cx f (Die id tag sib attrs ch)) in *.
    destruct ch as [|c r].
    - (* leaf *)
      clear IH. subst ops. rewrite !ops_len_cons in *. cbn [op_bytes] in *. rewrite blen_nil in *.
      cbn [has_kids] in *. rewrite andb_false_r in *. unfold t_items in Titems. cbn [app] in Titems.
      assert (Hsz : FO.tree_size codes t = UnitWr.blen cb + ops_len aops).
      { rewrite DieRdProofs.tree_size_unfold, Hcode, Thc, Titems, Litems, Ecb'. unfold FO.nlen, UnitWr.blen. lia. }
      split.
      { rewrite DieRdProofs.enc_tree_unfold, Hcode, Thc, Titems.
        rewrite (HA (pos - wc_unit_off cx + FO.tree_size codes t)).
        rewrite !ops_resolved_cons. cbn [op_resolved op_bytes app]. rewrite app_nil_r, Ecb'. reflexivity. }
      split; [rewrite Hsz; lia|]. split.
      { rewrite nodes_unfold, Tkids. cbn [map flat_map]. constructor; [exact Hnode|constructor]. }
      split.
      { rewrite DieRdProofs.placed_unfold, Tkids. cbn [map FO.on_list]. constructor; [|constructor].
        unfold FO.node_fits. cbn [fst snd]. rewrite Titems. apply Hfit_attrs. }
      { intros depth. rewrite app_nil_r, pre_tree_unfold, Tkids. cbn [map FO.on_list FO.root_die FO.d_offset].
        cbn [ops_marks op_bytes]. rewrite blen_nil, N.add_0_r. rewrite (ops_marks_plain aops) by (eapply attrs_write_plain; eassumption).
        reflexivity. }
    - (* node *)
      cbv zeta in W. destruct W as (cops & sibb & Ecops & Esibb & ->).
      cbn [has_kids] in *. rewrite andb_true_r in *.
      set (w := wsz (wc_enc cx)) in *.
      assert (Ls := sib_patch_len _ _ _ _ _ Esibb). assert (Psib := sib_patch_plain _ _ _ _ _ Esibb).
      apply sib_patch_inv in Esibb. fold w in Ls, Esibb.
      rewrite !ops_len_cons, !ops_len_app, ops_len_wb in *. cbn [op_bytes] in *. rewrite blen_nil, Ls in *.
      change (UnitWr.blen [x00]) with 1 in *.
      set (p0 := pos + (UnitWr.blen cb + (if sib then w else 0)) + ops_len aops) in *.
      destruct (IH _ _ Ecops Cl Dc ltac:(unfold p0; lia) ltac:(unfold p0; lia)) as [K1 [K2 [K3 [K4 K5]]]].
      clear IH. (* lia looks at every hypothesis *)
      assert (Lsibitem : FO.sumN (map FO.item_len (t_items cx f sib attrs)) = (if sib then w else 0) + ops_len aops).
      { unfold t_items. rewrite map_app, DieRdProofs.sumN_app, Litems. f_equal.
        destruct sib; [|reflexivity]. unfold sibw_of, w, wsz. destruct (e_fmt64 (wc_enc cx)); reflexivity. }
      assert (Hkids_off : FO.kids_off codes (pos - wc_unit_off cx) t = p0 - wc_unit_off cx).
      { unfold FO.kids_off. rewrite Hcode, Titems, Lsibitem, <- Ecb'. unfold FO.nlen, p0, UnitWr.blen. lia. }
      assert (Hsz : FO.tree_size codes t = UnitWr.blen cb + (if sib then w else 0) + ops_len aops + ops_len cops + 1).
      { rewrite DieRdProofs.tree_size_unfold, Hcode, Thc, Titems, Tkids, Lsibitem, K2, <- Ecb'.
        unfold FO.nlen, UnitWr.blen. lia. }
      split.
      { rewrite DieRdProofs.enc_tree_unfold, Hcode, Hkids_off, Thc, Titems, Tkids, K1.
        unfold t_items. rewrite map_app, concat_app.
        rewrite (HA (pos - wc_unit_off cx + FO.tree_size codes t)).
        rewrite !ops_resolved_cons, !ops_resolved_app. cbn [op_resolved op_bytes app].
        replace (ops_resolved f [WB [x00]]) with [x00] by reflexivity.
        rewrite <- Ecb'. f_equal. rewrite <- !app_assoc. f_equal.
        destruct sib; [|now subst sibb].
        destruct Esibb as (next & b & En & Eb & ->).
        rewrite chk_sub_ok in En by (unfold p0 in *; lia). injection En as <-.
        destruct (write_udata_enc _ _ _ _ Eb ltac:(unfold p0 in *; lia)) as [-> _].
        unfold ops_resolved. cbn [flat_map op_resolved op_bytes map concat FO.enc_item app]. rewrite !app_nil_r. f_equal.
        + unfold sibw_of, w, wsz. destruct (e_fmt64 (wc_enc cx)); reflexivity.
        + rewrite Hsz. unfold p0. lia. }
      split; [rewrite Hsz; lia|].
      split.
      { rewrite nodes_unfold, Tkids. constructor; [exact Hnode|exact K3]. }
      split.
      2:{ intros depth. rewrite app_nil_r, pre_tree_unfold, Tkids, Hkids_off. cbn [map FO.root_die FO.d_offset]. rewrite K5.
          cbn [ops_marks op_bytes]. rewrite blen_nil, N.add_0_r. cbn [map snd]. f_equal.
          rewrite !ops_marks_app.
          rewrite (ops_marks_plain sibb) by exact Psib.
          rewrite (ops_marks_plain aops) by (eapply attrs_write_plain; eassumption).
          rewrite (ops_marks_plain [WB [x00]]) by reflexivity. cbn [app]. rewrite app_nil_r.
          f_equal. f_equal. rewrite Ls. unfold p0. lia. }
      { rewrite DieRdProofs.placed_unfold, Tkids, Hkids_off. constructor; [|exact K4].
        unfold FO.node_fits. cbn [fst snd]. rewrite Titems. unfold t_items. apply Forall_app. split.
        + destruct sib; [|constructor]. constructor; [|constructor].
          destruct Esibb as (next & b & En & Eb & _).
          rewrite chk_sub_ok in En by (unfold p0 in *; lia). injection En as <-.
          destruct (write_udata_enc _ _ _ _ Eb ltac:(unfold p0 in *; lia)) as [_ [Bn _]].
          rewrite Hsz. unfold sibw_of, w, wsz in *. unfold p0 in Bn.
          destruct (e_fmt64 (wc_enc cx)); cbn [FO.sib_len];
            (eapply N.le_lt_trans; [|exact Bn]); lia.
        + apply Hfit_attrs. }
  Qed.
End encT.

Lemma av_form_range e v : 0 < fst (av_form e v) < two16.
Proof.
  destruct e as [ver fmt asz]. destruct v; cbn [av_form]; unfold word_form; cbn [e_ver e_fmt64];
    repeat match goal with |- context [if ?c then _ else _] => destruct c end; cbn [fst]; vm_compute; split; reflexivity.
Qed.

Lemma attr_specs_wf dbg cx : forall attrs specs,
  attr_specs dbg (wc_enc cx) attrs = Ok specs -> Forall (attr_rd_ok cx) attrs -> Forall spec_wf specs.
Proof.
  induction attrs as [|[n v] r IH]; intros specs H W; cbn [attr_specs] in H.
  - injection H as <-. constructor.
  - destruct (av_form (wc_enc cx) v) as [form ic] eqn:EF.
    apply bind_ok in H. destruct H as [s [Es H]]. apply bind_ok in H. destruct H as [rs [Ers H]].
    injection H as <-. inversion W as [|? ? W1 W2]; subst. constructor; [|now apply IH].
    destruct (aspec_new_ok _ _ _ _ _ Es) as [S1 [S2 S3]]. destruct W1 as [Hn [_ [_ [Ty _]]]]. cbn [fst snd] in *.
    unfold spec_wf. rewrite S1, S2, S3. split; [exact Hn|].
    assert (R := av_form_range (wc_enc cx) v). rewrite EF in R. cbn [fst] in R. split; [exact R|].
    unfold aspec_new in Es. apply bind_ok in Es. destruct Es as [u0 [_ _]].
    destruct ic as [z|].
    + destruct v; cbn [av_form] in EF; repeat match type of EF with context [if ?c then _ else _] => destruct c end;
        try discriminate. injection EF as <- <-. split; [exact Ty|]. intros Q. exfalso. apply Q. reflexivity.
    + split; [lia|reflexivity].
Qed.

Lemma die_abbrev_wf dbg cx id tag sib attrs ch ab :
  die_abbrev dbg (wc_enc cx) (Die id tag sib attrs ch) = Ok ab ->
  0 < tag < two16 -> Forall (attr_rd_ok cx) attrs -> abbrev_wf ab.
Proof.
  intros H Ht W. unfold die_abbrev in H.
  apply bind_ok in H. destruct H as [sibspec [Es H]]. apply bind_ok in H. destruct H as [specs [Esp H]].
  injection H as <-. split; [exact Ht|]. cbn [ab_attrs]. apply Forall_app. split; [|eapply attr_specs_wf; eassumption].
  destruct (sib && has_kids ch); [|injection Es as <-; constructor].
  apply bind_ok in Es. destruct Es as [s [E1 Es]]. injection Es as <-.
  destruct (aspec_new_ok _ _ _ _ _ E1) as [S1 [S2 S3]]. constructor; [|constructor].
  unfold spec_wf. rewrite S1, S2, S3. unfold word_form. destruct (e_fmt64 (wc_enc cx)); repeat split; (reflexivity || discriminate).
Qed.

Definition tab_inv (l : list abbrev) : Prop := NoDup l /\ Forall abbrev_wf l.

Lemma abbrev_add_inv tab a code tab' : abbrev_add tab a = (code, tab') -> tab_inv tab -> abbrev_wf a -> tab_inv tab'.
Proof.
  unfold abbrev_add. intros H [ND W] Wa. destruct (abbrev_find tab a) eqn:F; injection H as <- <-; [now split|].
  split; [apply NoDup_snoc; [exact ND|now apply abbrev_find_none]|].
  apply Forall_app. split; [exact W|constructor; [exact Wa|constructor]].
Qed.

Lemma calc_tab_invs dbg cx :
  (forall d st st', calc dbg (wc_enc cx) (wc_lpv cx) d st = Ok st' -> die_rd_ok cx d ->
     tab_inv (cs_abbrevs st) -> tab_inv (cs_abbrevs st')) /\
  (forall l st st', calc_list dbg (wc_enc cx) (wc_lpv cx) l st = Ok st' -> dies_rd_ok cx l ->
     tab_inv (cs_abbrevs st) -> tab_inv (cs_abbrevs st')).
Proof.
  apply calc_ind2.
  - intros s _ I. exact I.
  - intros c r s s1 s2 _ Hc _ Hr [D1 D2] I. auto.
  - intros [id tag sib attrs ch] st st' H IH D I. cbn [die_children] in IH.
    rewrite die_rd_ok_unfold in D. destruct D as [Dt [Da Dc]].
    destruct (calc_inv _ _ _ _ _ _ _ _ _ _ H) as (ents & ab & code & tab & codes & sz & off & _ & Eab & EA & _ & _ & _ & K).
    assert (I1 : tab_inv tab).
    { eapply abbrev_add_inv; [exact EA|exact I|]. eapply die_abbrev_wf; eassumption. }
    destruct ch; [subst st'; exact I1|]. destruct K as (st2 & off2 & E2 & _ & ->). exact (IH _ _ E2 Dc I1).
Qed.

(* calculate_offsets adds at most one abbreviation per entry *)
Lemma calc_abbrevs_len dbg e lpv :
  (forall d s s', calc dbg e lpv d s = Ok s' ->
     (length (cs_abbrevs s') <= length (cs_abbrevs s) + length (die_ids d))%nat) /\
  (forall l s s', calc_list dbg e lpv l s = Ok s' ->
     (length (cs_abbrevs s') <= length (cs_abbrevs s) + length (dies_ids l))%nat).
Proof.
  apply calc_ind2.
  - intros s. cbn [dies_ids flat_map length]. lia.
  - intros c r s s1 s2 _ Hc _ Hr. unfold dies_ids in *. cbn [flat_map]. rewrite app_length. lia.
  - intros [id tag sib attrs ch] s s' H IH. cbn [die_children] in IH.
    destruct (calc_inv _ _ _ _ _ _ _ _ _ _ H) as (ents & ab & code & tab & codes & sz & off & _ & _ & EA & _ & _ & _ & K).
    assert (L1 : (length tab <= length (cs_abbrevs s) + 1)%nat).
    { unfold abbrev_add in EA. destruct (abbrev_find (cs_abbrevs s) ab); injection EA as <- <-; [lia|].
      rewrite app_length. cbn [length]. lia. }
    cbn [die_ids length].
    destruct ch; [subst s'; cbn [cs_abbrevs flat_map length]; lia|].
    destruct K as (st2 & off2 & E2 & _ & ->). specialize (IH _ _ E2). cbn [cs_abbrevs] in *.
    fold (dies_ids (d :: ch)). lia.
Qed.

(* attr_rd_ok contains what offsets_exact / roundtrip ask of expressions and strings *)
Lemma die_rd_ok_expr cx : forall d, die_rd_ok cx d -> die_expr_ok d /\ die_decodable d.
Proof.
  induction d as [id tag sib attrs ch IH] using die_ind2. intros D.
  rewrite die_rd_ok_unfold in D. destruct D as [_ [Da Dc]].
  rewrite die_expr_ok_unfold, die_decodable_unfold.
  assert (A : Forall (fun p => expr_ok (snd p)) attrs /\ Forall (fun p => av_decodable (snd p)) attrs).
  { split; eapply Forall_impl; try exact Da; intros [n v] [_ [_ [X _]]]; cbn [snd] in *; [|exact X].
    destruct v; try exact I. exact X. }
  assert (K : dies_expr_ok ch /\ dies_decodable ch).
  { clear - IH Dc. induction IH as [|c r Hc Hr IHr]; cbn [dies_expr_ok dies_decodable dies_rd_ok] in *; [tauto|].
    destruct Dc as [D1 D2]. destruct (Hc D1). destruct (IHr D2). tauto. }
  tauto.
Qed.

(* length of the unit header Unit::write emits = Forest.header_len of a compile unit header *)
Lemma header_len_cu ver fmt asz aoff : 2 <= ver <= 5 ->
  FO.header_len (FO.mkUH ver fmt asz FO.UCompile aoff) =
  (if fmt then 12 else 4) + 2 + (if fmt then 8 else 4) + (if ver =? 5 then 2 else 1).
Proof.
  intros Hv. unfold FO.header_len, FO.enc_header, FO.enc_initial_length, FO.enc_header_fields, FO.nlen.
  cbn [FO.uh_version FO.uh_fmt64 FO.uh_asize FO.uh_type FO.uh_abbrev_off FO.enc_utype].
  destruct (ver =? 5); destruct fmt; cbn [FO.word];
    repeat rewrite app_length; repeat rewrite DieRdProofs.enc_fixed_length; cbn [length]; lia.
Qed.

Theorem unit_read_by_reader_lemma dbg dbg' cx root st0 st ops (f : eid -> list byte) abytes rest types ruoff aoff :
  let e := wc_enc cx in
  let h := FO.mkUH (e_ver e) (e_fmt64 e) (e_asz e) FO.UCompile aoff in
  let codes := codes_of_tab (cs_abbrevs st) in
  let body := ops_resolved f ops in
  (* the two passes of Unit::write, run on a fresh abbreviation table, and the table it hands to
     AbbreviationTable::write *)
  calc dbg e (wc_lpv cx) root st0 = Ok st -> cs_abbrevs st0 = [] ->
  wc_codes cx = cs_codes st ->
  write_die dbg cx root (cs_off st0) = Ok ops ->
  abbrevs_write (cs_abbrevs st) = Ok abytes ->
  (* the tree *)
  NoDup (die_ids root) -> die_rd_ok cx root ->
  (forall id, UnitWr.blen (f id) = wsz e) ->
  (* the header: a version the writer accepts, an address size the reader accepts, entries start right
     after it *)
  2 <= e_ver e <= 5 -> AttrProofs.addr_size_ok (renc cx) ->
  wc_unit_off cx <= cs_off st0 -> cs_off st0 - wc_unit_off cx = FO.header_len h ->
  cs_off st0 + ops_len ops < two63 ->
  exists tbl,
    AR.parse_abbrevs dbg' (abytes ++ rest) = Ok (tbl, rest) /\
    body = FO.enc_forest codes (wc_be cx) (FO.header_len h) [T cx f root] 0 /\
    DR.read_all_raw dbg' (DieRdProofs.parsed_header (wc_be cx) types ruoff h body) tbl None =
      Ok (FO.raw_seq codes (FO.header_len h) [T cx f root] 0, None) /\
    filter DieRdProofs.not_null (FO.raw_seq codes (FO.header_len h) [T cx f root] 0) =
      FO.preorder codes (FO.header_len h) 0 [T cx f root] /\
    map FO.d_offset (FO.preorder codes (FO.header_len h) 0 [T cx f root]) =
      map (fun ip => snd ip - wc_unit_off cx) (ops_marks (cs_off st0) ops) /\
    map fst (ops_marks (cs_off st0) ops) = die_ids root /\
    (forall i p, In (i, p) (ops_marks (cs_off st0) ops) -> nth_error (cs_entries st) i = Some p).
Proof.
  intros e h codes body HC H0 Hcodes HW HAb ND DR Hf Hver HA HU Hh HB.
  destruct (die_rd_ok_expr cx root DR) as [HX HD].
  assert (HB64 : cs_off st0 + ops_len ops < 2 ^ 64).
  { eapply N.lt_trans; [exact HB|]. reflexivity. }
  destruct (offsets_exact_lemma dbg cx root st0 st ops HC Hcodes HW ND HX HB64) as [O1 [O2 O3]].
  (* the table *)
  assert (TI : tab_inv (cs_abbrevs st)).
  { eapply (proj1 (calc_tab_invs dbg cx)); [exact HC|exact DR|]. rewrite H0. split; constructor. }
  destruct TI as [NDt Wt].
  assert (CK : codes_ok dbg cx (cs_abbrevs st) root).
  { eapply calc_codes_ok; [exact HC|apply tab_ext_refl| |exact ND]. intros i _. now rewrite Hcodes. }
  (* number of abbreviations <= number of entries <= number of bytes *)
  assert (Hlen : N.of_nat (length (cs_abbrevs st)) < two64).
  { assert (G := proj1 (calc_abbrevs_len dbg e (wc_lpv cx)) _ _ _ HC). rewrite H0 in G. cbn [length] in G.
    assert (Lm := proj1 (write_count dbg cx) _ _ _ HW). unfold two63, two64 in *. lia. }
  destruct (abbrevs_read_by_reader_lemma dbg' (cs_abbrevs st) abytes rest HAb Wt Hlen) as [tbl [P1 [P2 _]]].
  exists tbl. split; [exact P1|].
  destruct (proj1 (encT_all dbg cx f (cs_abbrevs st) tbl NDt P2 Hf Hlen) root (cs_off st0) ops HW CK DR HU HB64)
    as [E1 [E2 [E3 [E4 E5]]]].
  fold codes in E1, E2, E4, E5. rewrite Hh in E1, E4, E5.
  assert (Hbody : body = FO.enc_forest codes (wc_be cx) (FO.header_len h) [T cx f root] 0).
  { unfold FO.enc_forest. cbn [repeat]. rewrite app_nil_r. symmetry. exact E1. }
  split; [exact Hbody|].
  assert (Hok : FO.forest_ok codes (renc cx) [T cx f root]).
  { eapply Forall_impl; [|exact E3]. intros t [G _]. exact G. }
  assert (Hcov : DieRdProofs.all_covered tbl codes [T cx f root]).
  { eapply Forall_impl; [|exact E3]. intros t [_ G]. exact G. }
  split.
  { rewrite Hbody.
    apply (DieRdProofs.raw_is_preorder dbg' (wc_be cx) types ruoff h codes [T cx f root] 0 tbl); try assumption.
    - rewrite <- Hbody. unfold body.
      replace (FO.nlen (ops_resolved f ops)) with (ops_len ops).
      + unfold two63 in *. lia.
      + symmetry. apply (ops_resolved_len f (wsz e)); [exact Hf|]. eapply write_die_refw; eassumption.
    - rewrite <- Hbody. unfold body. intros Hnil.
      destruct (write_die_first_byte dbg cx f (cs_abbrevs st) root _ _ HW CK) as [b [r' [Eb _]]]. rewrite Hnil in Eb. discriminate. }
  split; [apply (DieRdProofs.raw_seq_preorder codes (renc cx)); exact Hok|].
  split; [apply E5|]. split; [exact O2|exact O3].
Qed.
