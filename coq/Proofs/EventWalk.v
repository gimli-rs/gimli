(* Proofs/EventWalk.v — the loops of EntriesCursor::next_sibling and EntriesTree::next over a reader that
   stands in a chain of events (DieRdProofs.at_chain), whatever encoder produced the events.

   Both loops start on an entry x and have to pass the events `mid` that lie deeper than the depth D they
   look for. `span D x mid` says what makes that work: every DW_AT_sibling among x and `mid` that the fast
   path (DieRd.sibling_jump) would follow is either of the ignored class or lands — inside `mid` — on an
   event boundary where the depth it sets is the true one. Then the loop ends on the first event after
   `mid`, on the fast and on the slow path (tree_loop_skip, sibling_loop_skip). *)
From Coq Require Import List NArith ZArith Bool Lia ZifyBool ZifyN ZifyNat.
From Coq.Strings Require Import Byte.
Require Import GV.Base.Res GV.Base.Byt GV.Base.Ints GV.Model.Leb GV.Model.Prim
               GV.Spec.FormSpec GV.Model.Attr GV.Spec.Forest GV.Model.AbbrevRd GV.Model.DieRd
               GV.Proofs.AttrProofs GV.Proofs.DieRdProofs GV.Proofs.SibBadProofs.
Import ListNotations.
Local Open Scope N_scope.

Lemma xbytes_cons x l : xbytes (x :: l) = x_bytes x ++ xbytes l. Proof. reflexivity. Qed.

Lemma at_chain_nil dbg e tbl E rest r l :
  at_chain dbg e tbl E rest r l -> r = mkRaw (xbytes l ++ rest) E (r_depth r).
Proof. intros [_ Hin Hend _ _ _ _]. destruct r as [i en d]. cbn [r_in r_end r_depth] in *. subst. reflexivity. Qed.

Lemma at_chain_drop dbg e tbl E rest : forall l1 r l2,
  at_chain dbg e tbl E rest r (l1 ++ l2) ->
  at_chain dbg e tbl E rest (mkRaw (xbytes l2 ++ rest) E (end_depth (r_depth r) l1)) l2.
Proof.
  induction l1 as [|x l1 IH]; intros r l2 H.
  - cbn [app end_depth] in *. rewrite <- (at_chain_nil _ _ _ _ _ _ _ H). exact H.
  - cbn [app] in H. destruct (at_chain_step _ _ _ _ _ _ _ _ H) as (_ & H' & _).
    apply IH in H'. cbn [r_depth end_depth] in *. exact H'.
Qed.

Section Events.
  Variables (dbg : bool) (e : enc) (tbl : abbrevs) (E : N) (rest : list byte).

  (* the reader stands right behind the event x, in front of l *)
  Definition behind (r : raw_st) (x : xev) (l : list xev) : Prop :=
    r_depth r = x_post x /\ at_chain dbg e tbl E rest r l /\
    d_offset (x_die x) + nlen (x_bytes x) + nlen (xbytes l ++ rest) = E.

  Lemma behind_step r z l :
    at_chain dbg e tbl E rest r (z :: l) -> behind (mkRaw (xbytes l ++ rest) E (x_post z)) z l.
  Proof.
    intros Hat. destruct (at_chain_step _ _ _ _ _ _ _ _ Hat) as (_ & Hat' & Ho & _ & _).
    destruct Hat as [_ _ _ _ Hle _ _].
    split; [reflexivity|]. split; [exact Hat'|].
    rewrite xbytes_cons, <- app_assoc, nlen_app in Ho, Hle. lia.
  Qed.

  Lemma behind_eq r x l : behind r x l -> r = mkRaw (xbytes l ++ rest) E (x_post x).
  Proof. intros (Hd & Hat & _). rewrite <- Hd. exact (at_chain_nil _ _ _ _ _ _ _ Hat). Qed.

  (* ---------------------------------------------------------------- *)
  (** * Where the DW_AT_sibling fast path lands *)

  (* SibBadProofs.sib_ignored for the reader behind x *)
  Definition ignored (x : xev) : Prop :=
    d_children (x_die x) = false \/
    match die_attr_value (x_die x) DW_AT_sibling with
    | Some (VUnitRef o) =>
        o <= d_offset (x_die x) \/ o < d_offset (x_die x) + nlen (x_bytes x) \/ E < o
    | _ => True
    end.

  (* the event x followed by the events `post`: the fast path is not taken, or it skips a prefix of
     `post` and sets the depth that reading the prefix would have produced *)
  Definition jump_at (x : xev) (post : list xev) : Prop :=
    ignored x \/
    exists skipped post', post = skipped ++ post' /\
      die_sibling (x_die x) = Some (d_offset (x_die x) + nlen (x_bytes x) + nlen (xbytes skipped)) /\
      end_depth (x_post x) skipped = d_depth (x_die x).

  Fixpoint jumps_ok (l : list xev) : Prop :=
    match l with [] => True | x :: post => jump_at x post /\ jumps_ok post end.

  Lemma jump_at_app x post m : jump_at x post -> jump_at x (post ++ m).
  Proof.
    intros [H|(sk & p' & -> & H1 & H2)]; [left; exact H|].
    right. exists sk, (p' ++ m). split; [rewrite <- app_assoc; reflexivity|]. split; assumption.
  Qed.

  Lemma jumps_ok_app : forall a b, jumps_ok a -> jumps_ok b -> jumps_ok (a ++ b).
  Proof.
    induction a as [|x a IH]; intros b Ha Hb; [exact Hb|]. destruct Ha as [H1 H2]. cbn [app jumps_ok].
    split; [apply jump_at_app; exact H1|apply IH; assumption].
  Qed.

  Lemma jumps_ok_tail : forall a b, jumps_ok (a ++ b) -> jumps_ok b.
  Proof. induction a as [|x a IH]; intros b H; [exact H|]. destruct H as [_ H]. apply IH. exact H. Qed.

  Lemma null_ev_ignored o d : ignored (null_ev o d).
  Proof. left. reflexivity. Qed.

  (* the fast path at the top of either loop, from behind x *)
  Lemma jump_step r x mid m : behind r x (mid ++ m) -> jump_at x mid ->
    exists skipped mid', mid = skipped ++ mid' /\
      sibling_jump dbg r (x_die x) =
        Ok (mkRaw (xbytes (mid' ++ m) ++ rest) E (end_depth (x_post x) skipped)) /\
      at_chain dbg e tbl E rest (mkRaw (xbytes (mid' ++ m) ++ rest) E (end_depth (x_post x) skipped)) (mid' ++ m).
  Proof.
    intros Hb Hj. pose proof (behind_eq _ _ _ Hb) as Er. destruct Hb as (Hd & Hat & Hoff).
    assert (Hle : nlen (xbytes (mid ++ m) ++ rest) <= E) by (destruct Hat; assumption).
    assert (Stay : sibling_jump dbg r (x_die x) = Ok r ->
              exists skipped mid', mid = skipped ++ mid' /\
                sibling_jump dbg r (x_die x) =
                  Ok (mkRaw (xbytes (mid' ++ m) ++ rest) E (end_depth (x_post x) skipped)) /\
                at_chain dbg e tbl E rest (mkRaw (xbytes (mid' ++ m) ++ rest) E (end_depth (x_post x) skipped)) (mid' ++ m)).
    { intros Hs. exists [], mid. split; [reflexivity|]. cbn [end_depth]. rewrite <- Er. split; [exact Hs|exact Hat]. }
    destruct Hj as [Hi|(sk & mid' & -> & Hs & Hend)].
    - apply Stay. apply bad_sibling_ignored; [rewrite Er; exact Hle|].
      unfold sib_ignored. rewrite Er. cbn [r_in r_end].
      replace (E - nlen (xbytes (mid ++ m) ++ rest)) with (d_offset (x_die x) + nlen (x_bytes x)) by lia.
      exact Hi.
    - destruct (d_children (x_die x)) eqn:Hc; [|apply Stay; unfold sibling_jump; rewrite Hc; reflexivity].
      rewrite <- app_assoc in Hat, Hoff, Hle, Er.
      exists sk, mid'. split; [reflexivity|].
      pose proof (at_chain_drop dbg e tbl E rest sk _ _ Hat) as Hat2. rewrite Hd in Hat2.
      split; [|exact Hat2].
      rewrite xbytes_app, <- app_assoc in Hle, Hoff, Er.
      unfold sibling_jump, seek_forward, next_offset, chk_sub. rewrite Hc, Hs, Er. cbn [r_in r_end].
      replace (nlen (xbytes sk ++ xbytes (mid' ++ m) ++ rest) <=? E) with true by lia. cbn [bind].
      rewrite nlen_app in *.
      replace (_ <? _) with false by lia.
      replace (d_offset (x_die x) + nlen (x_bytes x) + nlen (xbytes sk) - (E - (nlen (xbytes sk) + nlen (xbytes (mid' ++ m) ++ rest))))
        with (nlen (xbytes sk)) by lia.
      rewrite skip_n_app_len. cbn [bind]. rewrite Hend. reflexivity.
  Qed.

  (* what remains below depth D after x: all of it deeper than D, leading back to D, every pointer fine *)
  Definition span (D : Z) (x : xev) (mid : list xev) : Prop :=
    jump_at x mid /\ jumps_ok mid /\ Forall (fun z => (D < d_depth (x_die z))%Z) mid /\
    end_depth (x_post x) mid = D.

  Lemma span_next D x sk z mid : span D x (sk ++ z :: mid) -> (D < d_depth (x_die z))%Z /\ span D z mid.
  Proof.
    intros (_ & Hjs & Hall & Hend). apply jumps_ok_tail in Hjs. destruct Hjs as [Hjz Hjs].
    apply Forall_app in Hall. destruct Hall as [_ Hall]. apply Forall_cons_iff in Hall.
    rewrite end_depth_app in Hend. cbn [end_depth] in Hend. repeat split; tauto.
  Qed.

  Lemma span_app D D' x mid l : span D x mid -> jumps_ok l ->
    Forall (fun z => (D' < d_depth (x_die z))%Z) l -> end_depth D l = D' -> (D' <= D)%Z -> span D' x (mid ++ l).
  Proof.
    intros (Hj & Hjs & Hall & Hend) Hl1 Hl2 Hl3 Hle.
    split; [apply jump_at_app; exact Hj|]. split; [apply jumps_ok_app; assumption|].
    split; [|rewrite end_depth_app, Hend; exact Hl3].
    apply Forall_app. split; [|exact Hl2]. eapply Forall_impl; [|exact Hall]. intros z Hz. cbv beta in *. lia.
  Qed.

  (* ---------------------------------------------------------------- *)
  (** * EntriesTree::next *)

  Lemma tree_loop_skip D y l2 : forall fuel mid x ts,
    tr_entry ts = x_die x -> behind (tr_raw ts) x (mid ++ y :: l2) -> span D x mid ->
    (length mid < fuel)%nat ->
    tree_next_loop fuel dbg e tbl D ts =
      Ok (TOk (negb (is_null (x_die y))) (mkTree (tr_root ts) (mkRaw (xbytes l2 ++ rest) E (x_post y)) (x_die y))).
  Proof.
    induction fuel as [|fuel IH]; intros mid x ts He Hb Hsp Hf; [lia|].
    destruct (jump_step _ x mid (y :: l2) Hb (proj1 Hsp)) as (sk & mid' & -> & Hjump & Hat1).
    cbn [tree_next_loop]. rewrite He, Hjump. cbn [bind].
    destruct mid' as [|z mid'']; cbn [app] in Hat1 |- *;
      destruct (at_chain_step _ _ _ _ _ _ _ _ Hat1) as (Hr & _ & _ & Hdd & (b & r0 & Eb));
      unfold raw_is_empty; rewrite Eb; cbn [is_nil]; rewrite Hr; cbn [r_depth] in Hdd.
    - destruct Hsp as (_ & _ & _ & Hend). rewrite app_nil_r in Hend. rewrite Hdd, Hend, Z.eqb_refl. reflexivity.
    - destruct (span_next D x sk z mid'' Hsp) as [Hz Hsp']. replace (d_depth (x_die z) =? D)%Z with false by lia.
      rewrite (IH mid'' z); [reflexivity|reflexivity|exact (behind_step _ z _ Hat1)|exact Hsp'|].
      rewrite app_length in Hf. cbn [length] in Hf. lia.
  Qed.

  (* EntriesTree::next(D) from anywhere inside the subtrees that precede y at depth D *)
  Lemma tree_next_skip D x mid y l2 ts :
    tr_entry ts = x_die x -> behind (tr_raw ts) x (mid ++ y :: l2) -> span D x mid -> (D <= d_depth (x_die x))%Z ->
    tree_next (tree_fuel ts) dbg e tbl D ts =
      Ok (TOk (negb (is_null (x_die y))) (mkTree (tr_root ts) (mkRaw (xbytes l2 ++ rest) E (x_post y)) (x_die y))).
  Proof.
    intros He Hb Hsp Hge. unfold tree_next. rewrite He. replace (d_depth (x_die x) <? D)%Z with false by lia.
    apply (tree_loop_skip D y l2 (tree_fuel ts) mid x ts He Hb Hsp).
    destruct Hb as (_ & Hat & _). apply at_chain_fuel in Hat. rewrite app_length in Hat. unfold tree_fuel, cursor_fuel. lia.
  Qed.

  (* the tree's entry is not an entry with children whose list is being skipped: the loop does not jump *)
  Definition inert (D : Z) (d : die) : Prop :=
    ((d_depth d < D)%Z /\ (d_depth d + 1 = D)%Z /\ d_children d = true) \/ ((D <= d_depth d)%Z /\ d_children d = false).

  (* EntriesTree::next(D) when the next event has depth D and the current entry does not jump *)
  Lemma tree_next_read D ts x l fuel :
    at_chain dbg e tbl E rest (tr_raw ts) (x :: l) -> r_depth (tr_raw ts) = D -> inert D (tr_entry ts) ->
    (1 <= fuel)%nat ->
    tree_next fuel dbg e tbl D ts =
    Ok (TOk (negb (is_null (x_die x))) (mkTree (tr_root ts) (mkRaw (xbytes l ++ rest) E (x_post x)) (x_die x))).
  Proof.
    intros Hat HD Hin Hf. destruct (at_chain_step _ _ _ _ _ _ _ _ Hat) as (Hr & _ & _ & Hdd & (b & r0 & Eb)).
    unfold tree_next. destruct Hin as [(H1 & H2 & H3)|(H1 & H3)].
    - replace (d_depth (tr_entry ts) <? D)%Z with true by lia.
      replace (d_depth (tr_entry ts) + 1 =? D)%Z with true by lia. rewrite andb_false_r, H3. cbn [negb].
      unfold raw_is_empty. rewrite Eb. cbn [is_nil]. rewrite Hr. reflexivity.
    - replace (d_depth (tr_entry ts) <? D)%Z with false by lia.
      destruct fuel as [|fuel]; [lia|]. cbn [tree_next_loop]. unfold sibling_jump. rewrite H3. cbn [bind].
      unfold raw_is_empty. rewrite Eb. cbn [is_nil]. rewrite Hr.
      replace (d_depth (x_die x) =? D)%Z with true by lia. reflexivity.
  Qed.

  (* ---------------------------------------------------------------- *)
  (** * EntriesCursor::next_sibling *)

  (* the loop started on x ends on the first event after `mid`, or at the end of the input *)
  Lemma sibling_loop_skip T m : (m = [] -> rest = []) -> forall fuel mid x c,
    c_cur c = x_die x -> behind (c_raw c) x (mid ++ m) -> span T x mid -> (length mid < fuel)%nat ->
    match m with
    | y :: l2 => sibling_loop fuel dbg e tbl T c =
                 let c' := mkCur (mkRaw (xbytes l2 ++ rest) E (x_post y)) (x_die y) in Ok (SOk (current c') c')
    | [] => exists c', sibling_loop fuel dbg e tbl T c = Ok (SOk None c')
    end.
  Proof.
    intros Hm. induction fuel as [|fuel IH]; intros mid x c Hc Hb Hsp Hf; [lia|].
    assert (Hj : exists sk mid', mid = sk ++ mid' /\
              (match current c with Some cur => sibling_jump dbg (c_raw c) cur | None => Ok (c_raw c) end) =
                Ok (mkRaw (xbytes (mid' ++ m) ++ rest) E (end_depth (x_post x) sk)) /\
              at_chain dbg e tbl E rest (mkRaw (xbytes (mid' ++ m) ++ rest) E (end_depth (x_post x) sk)) (mid' ++ m)).
    { unfold current. rewrite Hc. destruct (is_null (x_die x)); [|exact (jump_step _ x mid m Hb (proj1 Hsp))].
      exists [], mid. split; [reflexivity|]. cbn [end_depth]. rewrite <- (behind_eq _ _ _ Hb).
      split; [reflexivity|]. destruct Hb as (_ & Hat & _). exact Hat. }
    destruct Hj as (sk & mid' & -> & Hjump & Hat1).
    assert (Hstep : sibling_loop (S fuel) dbg e tbl T c =
              let* s := next_entry dbg e tbl (mkCur (mkRaw (xbytes (mid' ++ m) ++ rest) E (end_depth (x_post x) sk)) (c_cur c)) in
              match s with
              | SErr x c' => Ok (SErr x c')
              | SOk false c' => Ok (SOk None c')
              | SOk true c' => if (d_depth (c_cur c') =? T)%Z then Ok (SOk (current c') c')
                               else sibling_loop fuel dbg e tbl T c'
              end).
    { cbn [sibling_loop]. rewrite Hjump. reflexivity. }
    destruct mid' as [|z mid'']; cbn [app] in Hat1, Hstep.
    - destruct Hsp as (_ & _ & _ & Hend). rewrite app_nil_r in Hend. destruct m as [|y l2].
      + rewrite Hstep, next_entry_end by (cbn [c_raw r_in xbytes map concat app]; exact (Hm eq_refl)).
        eexists. reflexivity.
      + rewrite Hstep, (next_entry_chain dbg e tbl E rest (mkCur _ (c_cur c)) _ _ Hat1). cbn [bind c_cur].
        destruct (at_chain_step _ _ _ _ _ _ _ _ Hat1) as (_ & _ & _ & Hdd & _). cbn [r_depth] in Hdd.
        rewrite Hdd, Hend, Z.eqb_refl. reflexivity.
    - destruct (span_next T x sk z mid'' Hsp) as [Hz Hsp'].
      assert (Hf' : (length mid'' < fuel)%nat) by (rewrite app_length in Hf; cbn [length] in Hf; lia).
      pose proof (IH mid'' z (mkCur _ (x_die z)) eq_refl (behind_step _ z _ Hat1) Hsp' Hf') as Hrec.
      rewrite Hstep, (next_entry_chain dbg e tbl E rest (mkCur _ (c_cur c)) _ _ Hat1). cbn [bind c_cur].
      replace (d_depth (x_die z) =? T)%Z with false by lia. exact Hrec.
  Qed.

  (* next_sibling from the entry x over what lies below it *)
  Lemma next_sibling_skip c x mid m : (m = [] -> rest = []) ->
    c_cur c = x_die x -> is_null (x_die x) = false -> behind (c_raw c) x (mid ++ m) ->
    span (d_depth (x_die x)) x mid ->
    match m with
    | y :: l2 => next_sibling (cursor_fuel c) dbg e tbl c =
                 let c' := mkCur (mkRaw (xbytes l2 ++ rest) E (x_post y)) (x_die y) in Ok (SOk (current c') c')
    | [] => exists c', next_sibling (cursor_fuel c) dbg e tbl c = Ok (SOk None c')
    end.
  Proof.
    intros Hm Hc Hn Hb Hsp. unfold next_sibling, current. rewrite Hc, Hn.
    apply (sibling_loop_skip _ m Hm (cursor_fuel c) mid x c Hc Hb Hsp).
    destruct Hb as (_ & Hat & _). apply at_chain_fuel in Hat. rewrite app_length in Hat. unfold tree_fuel, cursor_fuel. lia.
  Qed.
End Events.
