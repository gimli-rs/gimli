(* Proofs/FilterProofs.v — FilterDependencies (Model/Filter.v) against Spec/Graph.v: the association-list
   map, the sort, and the worklist of get_reachable, which computes reachability (C19). *)
From Coq Require Import List NArith ZArith Bool Lia.
Require Import GV.Base.Res GV.Spec.Graph GV.Model.Filter.
Import ListNotations.
Local Open Scope N_scope.

Lemma mem_n_iff : forall x l, mem_n x l = true <-> In x l.
Proof.
  intros x l. unfold mem_n. rewrite existsb_exists. split.
  - intros [y [Hy He]]. apply N.eqb_eq in He. now subst.
  - intros H. exists x. split; auto. apply N.eqb_refl.
Qed.

Lemma em_get_remove : forall k k' m, em_get k (em_remove k' m) = if k =? k' then None else em_get k m.
Proof.
  intros k k' m. induction m as [|[k2 v] m IH]; cbn; [now destruct (k =? k')|].
  destruct (N.eqb_spec k' k2) as [<-|Hne]; cbn.
  - rewrite IH. now destruct (k =? k').
  - rewrite IH. destruct (N.eqb_spec k k') as [->|_]; [|reflexivity].
    now destruct (N.eqb_spec k' k2).
Qed.

Lemma em_remove_length_lt : forall k m v, em_get k m = Some v ->
  (length (em_remove k m) < length m)%nat.
Proof.
  assert (Hle : forall k m, (length (em_remove k m) <= length m)%nat).
  { intros k m. induction m as [|[k' v] m IH]; cbn; auto. destruct (k =? k'); cbn; lia. }
  intros k m. induction m as [|[k' v'] m IH]; cbn; intros v H; [discriminate|].
  destruct (k =? k').
  - specialize (Hle k m). lia.
  - cbn. specialize (IH _ H). lia.
Qed.

Lemma em_get_insert : forall k k' v m, em_get k (em_insert k' v m) = if k =? k' then Some v else em_get k m.
Proof.
  intros k k' v m. unfold em_insert. cbn. rewrite em_get_remove. now destruct (k =? k').
Qed.

Lemma em_push_spec : forall k y m v, em_get k m = Some v ->
  exists m', em_push k y m = Some m' /\
             forall x, em_get x m' = if x =? k then Some (v ++ [y]) else em_get x m.
Proof.
  intros k y m. induction m as [|[k' v'] m IH]; cbn; intros v H; [discriminate|].
  destruct (N.eqb_spec k k') as [<-|Hne].
  - inversion H; subst. eexists. split; [reflexivity|]. intros x. cbn. now destruct (x =? k).
  - destruct (IH _ H) as [m' [-> Hm']]. eexists. split; [reflexivity|]. intros x. cbn. rewrite Hm'.
    destruct (N.eqb_spec x k) as [->|_]; [|reflexivity]. now destruct (N.eqb_spec k k').
Qed.

Lemma strict_sorted_cons_iff : forall x l,
  strict_sorted (x :: l) <-> strict_sorted l /\ forall y, In y l -> x < y.
Proof.
  intros x l. revert x. induction l as [|z l IH]; intros x.
  - split; [intros _; split; [constructor|intros y []]|constructor].
  - split.
    + intros H. inversion H; subst. split; [assumption|].
      intros y [<-|Hy]; [assumption|]. apply IH in H4. destruct H4 as [_ H4]. specialize (H4 y Hy). lia.
    + intros [Hs Hlt]. constructor; [apply Hlt; now left|exact Hs].
Qed.

Lemma ins_sorted_in : forall x l y, In y (ins_sorted x l) <-> y = x \/ In y l.
Proof.
  intros x l y. induction l as [|z l IH]; cbn; [intuition|].
  destruct (x <=? z); cbn; [|rewrite IH]; intuition.
Qed.

Lemma sort_n_in : forall l x, In x (sort_n l) <-> In x l.
Proof. induction l as [|z l IH]; intros x; cbn; [tauto|]. rewrite ins_sorted_in, IH. intuition. Qed.

Lemma ins_sorted_strict : forall x l, strict_sorted l -> ~ In x l -> strict_sorted (ins_sorted x l).
Proof.
  intros x l. induction l as [|z l IH]; cbn; intros Hs Hn; [constructor|].
  destruct (x <=? z) eqn:E.
  - apply N.leb_le in E. constructor; auto. assert (x <> z) by (intro; subst; apply Hn; now left). lia.
  - apply N.leb_gt in E. apply strict_sorted_cons_iff in Hs. destruct Hs as [Hs Hlt].
    apply strict_sorted_cons_iff. split; [apply IH; tauto|].
    intros y Hy. apply ins_sorted_in in Hy. destruct Hy as [->|Hy]; auto.
Qed.

Lemma sort_n_strict : forall l, NoDup l -> strict_sorted (sort_n l).
Proof.
  induction l as [|x l IH]; cbn; intros Hnd; [constructor|].
  inversion Hnd; subst. apply ins_sorted_strict; auto. now rewrite sort_n_in.
Qed.

Lemma strict_sorted_NoDup : forall l, strict_sorted l -> NoDup l.
Proof.
  induction l as [|x l IH]; intros H; constructor; apply strict_sorted_cons_iff in H; destruct H as [Hs Hlt].
  - intro Hin. specialize (Hlt _ Hin). lia.
  - now apply IH.
Qed.

(* a strictly sorted list is determined by its elements *)
Lemma strict_sorted_unique : forall l1 l2, strict_sorted l1 -> strict_sorted l2 ->
  (forall x, In x l1 <-> In x l2) -> l1 = l2.
Proof.
  induction l1 as [|a l1 IH]; intros l2 H1 H2 Heq.
  - destruct l2 as [|b l2]; auto. exfalso. apply (proj2 (Heq b)). now left.
  - destruct l2 as [|b l2]; [exfalso; apply (proj1 (Heq a)); now left|].
    apply strict_sorted_cons_iff in H1, H2. destruct H1 as [H1 L1], H2 as [H2 L2].
    assert (a = b).
    { destruct (proj1 (Heq a) (or_introl eq_refl)) as [->|Ha]; auto.
      destruct (proj2 (Heq b) (or_introl eq_refl)) as [->|Hb]; auto.
      specialize (L1 _ Hb). specialize (L2 _ Ha). lia. }
    subst b. f_equal. apply IH; auto.
    intros x. split; intro Hx.
    + destruct (proj1 (Heq x) (or_intror Hx)) as [<-|]; auto. specialize (L1 _ Hx). lia.
    + destruct (proj2 (Heq x) (or_intror Hx)) as [<-|]; auto. specialize (L2 _ Hx). lia.
Qed.

Lemma strict_sorted_app_r : forall a b, strict_sorted (a ++ b) -> strict_sorted b.
Proof.
  induction a as [|x a IH]; intros b H; auto. apply IH. now apply strict_sorted_cons_iff in H.
Qed.

Lemma filter_strict_sorted : forall (f : N -> bool) l, strict_sorted l -> strict_sorted (filter f l).
Proof.
  intros f l. induction l as [|x l IH]; intros H; cbn; [constructor|].
  apply strict_sorted_cons_iff in H. destruct H as [Hs Hlt]. destruct (f x); auto.
  apply strict_sorted_cons_iff. split; auto. intros y Hy. apply filter_In in Hy. apply Hlt, Hy.
Qed.

Lemma reach_mono : forall (V V' : N -> Prop) (E E' : N -> N -> Prop) (R R' : N -> Prop),
  (forall x, V x -> V' x) -> (forall x y, V y -> E x y -> E' x y) -> (forall x, V x -> R x -> R' x) ->
  forall x, reach V E R x -> reach V' E' R' x.
Proof.
  intros V V' E E' R R' HV HE HR x H.
  induction H; [apply reach_req|eapply reach_edge]; eauto.
Qed.

Lemma reach_valid : forall V E R x, reach V E R x -> V x.
Proof. intros V E R x H. destruct H; auto. Qed.

Lemma reach_least : forall (V : N -> Prop) (E : N -> N -> Prop) (R : N -> Prop),
  closed_under V E R (reach V E R) /\
  forall T, closed_under V E R T -> forall x, reach V E R x -> T x.
Proof.
  intros V E R. split.
  - split; [intros x Hr Hv; now apply reach_req|intros x y Hx He Hv; eapply reach_edge; eauto].
  - intros T [H1 H2] x Hx. induction Hx; eauto.
Qed.

Section Worklist.
  Variable m0 : emap.
  Variable req : list N.

  Let valid0 (x : N) : Prop := exists l, em_get x m0 = Some l.
  Let edge0 (x y : N) : Prop := exists l, em_get x m0 = Some l /\ In y l.
  Let R := reach valid0 edge0 (fun x => In x req).

  (* y is asked for by the nodes visited so far: it is required, or one of them has an edge to it *)
  Definition wanted (acc : list N) (y : N) : Prop := In y req \/ exists x, In x acc /\ edge0 x y.

  (* m is the map without the visited nodes; whatever is visited or pending is reachable; whatever is
     wanted is visited or pending *)
  Record winv (m : emap) (pend : list (list N)) (acc : list N) : Prop := {
    wi_map    : forall x, em_get x m = if mem_n x acc then None else em_get x m0;
    wi_nodup  : NoDup acc;
    wi_acc    : forall x, In x acc -> R x;
    wi_pend   : forall y, In y (concat pend) -> valid0 y -> R y;
    wi_wanted : forall y, wanted acc y -> valid0 y -> In y acc \/ In y (concat pend)
  }.

  Lemma winv_visit : forall es m q acc,
    winv m (es :: q) acc ->
    let '(m', q', acc') := gr_visit es m q acc in winv m' q' acc'.
  Proof.
    induction es as [|e es IH]; intros m q acc Hinv; cbn [gr_visit];
      [destruct Hinv; constructor; assumption|].
    pose proof (wi_map _ _ _ Hinv e) as He.
    destruct (em_get e m) as [ds|] eqn:Eg; apply IH; destruct Hinv as [Hmap Hnd Hacc Hpend Hwant];
      cbn [concat] in *.
    - (* first visit of e: it leaves the map and its vector is pushed *)
      destruct (mem_n e acc) eqn:Em; [discriminate|]. symmetry in He.
      assert (HRe : R e) by (apply Hpend; [now left|now exists ds]).
      constructor; cbn [concat].
      + intros x. unfold mem_n. cbn [existsb]. fold (mem_n x acc). rewrite em_get_remove, Hmap.
        now destruct (x =? e).
      + constructor; auto. intro Hin. apply mem_n_iff in Hin. congruence.
      + intros x [<-|Hx]; auto.
      + intros y Hy Hv. rewrite !in_app_iff in Hy. destruct Hy as [Hy|[Hy|Hy]].
        * apply Hpend; auto. right. apply in_or_app. now left.
        * apply reach_edge with (x := e); auto. now exists ds.
        * apply Hpend; auto. right. apply in_or_app. now right.
      + intros y Hw Hv. rewrite !in_app_iff.
        assert (Hw' : wanted acc y \/ In y ds).
        { destruct Hw as [Hr|[x [[<-|Hx] Hxy]]]; [left; now left| |left; right; eauto].
          right. destruct Hxy as [l [Hl Hy]]. congruence. }
        destruct Hw' as [Hw'|Hy]; [|tauto].
        destruct (Hwant y Hw' Hv) as [Hy|[<-|Hy]]; [left; now right|left; now left|].
        apply in_app_iff in Hy. tauto.
    - (* e is not a node, or was visited before *)
      constructor; cbn [concat]; auto.
      + intros y Hy. apply Hpend. now right.
      + intros y Hw Hv. destruct (Hwant y Hw Hv) as [Hy|[<-|Hy]]; auto.
        left. apply mem_n_iff. destruct (mem_n e acc); [reflexivity|].
        destruct Hv as [l Hl]. congruence.
  Qed.

  Lemma winv_init : winv m0 [req] [].
  Proof.
    constructor; cbn.
    - reflexivity.
    - constructor.
    - intros x [].
    - intros y Hy Hv. rewrite app_nil_r in Hy. now apply reach_req.
    - intros y [Hy|[x [[] _]]] _. right. now rewrite app_nil_r.
  Qed.

  (* termination: every vector is popped once, every node pushes at most one vector *)
  Lemma visit_measure : forall es m q acc,
    let '(m', q', _) := gr_visit es m q acc in
    (length q' + length m' <= length q + length m)%nat.
  Proof.
    induction es as [|e es IH]; intros m q acc; cbn; [lia|].
    destruct (em_get e m) as [ds|] eqn:Eg.
    - specialize (IH (em_remove e m) (ds :: q) (e :: acc)).
      destruct (gr_visit es (em_remove e m) (ds :: q) (e :: acc)) as [[m' q'] acc'].
      pose proof (em_remove_length_lt _ _ _ Eg). cbn in IH. lia.
    - apply IH.
  Qed.

  Lemma gr_loop_ok : forall fuel m q acc, (length q + length m < fuel)%nat -> winv m q acc ->
    exists l, gr_loop fuel m q acc = Ok l /\ NoDup l /\ forall x, In x l <-> R x.
  Proof.
    induction fuel as [|f IH]; intros m q acc Hlt Hinv; [lia|]. cbn [gr_loop].
    destruct q as [|es q].
    - exists acc. split; [reflexivity|]. split; [apply (wi_nodup _ _ _ Hinv)|].
      intros x. split; [apply (wi_acc _ _ _ Hinv)|].
      intros HR. induction HR as [x Hr Hv|x y Hx IHx He Hv].
      + destruct (wi_wanted _ _ _ Hinv x (or_introl Hr) Hv) as [|[]]; auto.
      + destruct (wi_wanted _ _ _ Hinv y (or_intror (ex_intro _ x (conj IHx He))) Hv) as [|[]]; auto.
    - pose proof (winv_visit es m q acc Hinv) as Hv. pose proof (visit_measure es m q acc) as Hm.
      destruct (gr_visit es m q acc) as [[m' q'] acc']. apply IH; [cbn in Hlt; lia|exact Hv].
  Qed.
End Worklist.

(* With #nodes + 2 iterations or more the loop ends, for every dependency map (any keys, duplicates,
   edges to unknown offsets, cycles), with a duplicate-free list of exactly the reachable nodes. *)
Lemma gr_loop_total : forall d fuel, (length (d_edges d) + 2 <= fuel)%nat ->
  exists l, gr_loop fuel (d_edges d) [d_required d] [] = Ok l /\ NoDup l /\
            forall x, In x l <-> reach (dep_valid d) (dep_edge d) (dep_required d) x.
Proof. intros d fuel H. apply gr_loop_ok; [cbn; lia|apply winv_init]. Qed.

Lemma get_reachable_correct : forall d,
  exists l, get_reachable d = Ok l /\ strict_sorted l /\
            forall x, In x l <-> reach (dep_valid d) (dep_edge d) (dep_required d) x.
Proof.
  intros d. destruct (gr_loop_total d (gr_fuel d)) as [acc [El [Hnd Hin]]]; [unfold gr_fuel; lia|].
  unfold get_reachable. rewrite El. exists (sort_n (rev acc)). split; [reflexivity|]. split.
  - apply sort_n_strict. now apply NoDup_rev.
  - intros x. now rewrite sort_n_in, <- in_rev.
Qed.
