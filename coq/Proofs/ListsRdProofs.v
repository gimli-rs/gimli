(* Proofs/ListsRdProofs.v — lemmas about Model/ListsRd.v against Spec/ListSpec.v (property C08). *)
From Coq Require Import List NArith ZArith Bool Lia ZifyBool ZifyN ZifyNat.
From Coq.Strings Require Import Byte.
Require Import GV.Base.Res GV.Base.Byt GV.Base.Ints GV.Model.Leb GV.Model.Prim
               GV.Spec.LebSpec GV.Spec.PrimSpec GV.Spec.ListSpec GV.Model.ListsRd
               GV.Proofs.LebProofs GV.Proofs.PrimProofs.
Import ListNotations.
Local Open Scope N_scope.


(* "good" = neither Panic nor OutOfFuel (Lib.returns) *)
Definition good {A} (r : res A) : Prop := r <> Panic /\ r <> OutOfFuel.

Lemma good_Ok {A} (a : A) : good (Ok a).
Proof. apply returns_ok. Qed.
Lemma good_Err {A} e : good (@Err A e).
Proof. apply returns_err. Qed.
Lemma good_bind {A B} (r : res A) (f : A -> res B) :
  good r -> (forall a, r = Ok a -> good (f a)) -> good (bind r f).
Proof. apply returns_bind. Qed.

Lemma take_none n : forall bs, take n bs = None -> (length bs < n)%nat.
Proof. intros bs. rewrite take_exact. destruct (length bs <? n)%nat eqn:E; [lia|discriminate]. Qed.

Lemma read_un_len n be bs v r :
  read_un n be bs = Ok (v, r) -> length bs = (n + length r)%nat.
Proof. intros H. now apply read_un_value_lt in H. Qed.

Lemma read_un_good n be bs : good (read_un n be bs).
Proof. rewrite read_un_exact. destruct (length bs <? n)%nat; [apply good_Err|apply good_Ok]. Qed.

Lemma read_u8_len bs v r : read_u8 bs = Ok (v, r) -> length bs = S (length r).
Proof. destruct bs; simpl; intros H; inversion H; subst; reflexivity. Qed.

Lemma read_u8_good bs : good (read_u8 bs).
Proof. destruct bs; simpl; [apply good_Err|apply good_Ok]. Qed.

(* ListSpec.valid_asize is PrimSpec.size_ok *)
Lemma valid_asize_cases sz : valid_asize sz = true -> sz = 1 \/ sz = 2 \/ sz = 4 \/ sz = 8.
Proof. apply size_ok_cases. Qed.

Lemma read_address_len sz be bs v r :
  read_address sz be bs = Ok (v, r) ->
  valid_asize sz = true /\ length bs = (N.to_nat sz + length r)%nat.
Proof.
  intros H. apply read_address_ok in H as [Hv (h & -> & Hl & _)]. split; [exact Hv|].
  rewrite app_length. lia.
Qed.

Lemma read_address_good sz be bs : good (read_address sz be bs).
Proof. rewrite read_address_exact. destruct (size_ok sz); [apply read_un_good|apply good_Err]. Qed.

Lemma read_address_eq sz be bs :
  valid_asize sz = true -> read_address sz be bs = read_un (N.to_nat sz) be bs.
Proof. intros H. rewrite read_address_exact. change (size_ok sz) with (valid_asize sz). now rewrite H. Qed.

(* a ULEB128 has at least one byte *)
Lemma read_uleb128_len dbg bs v r :
  read_uleb128 dbg bs = Ok (v, r) -> (length r < length bs)%nat.
Proof.
  intros H. apply read_uleb128_ok in H as (e & Hs & _).
  pose proof (split_leb_nonempty _ _ _ Hs). apply split_leb_app in Hs as ->. rewrite app_length. lia.
Qed.

Lemma skip_good n bs : good (skip n bs).
Proof. unfold skip. destruct (_ <? _); [apply good_Err|apply good_Ok]. Qed.

Lemma split_good n bs : good (split n bs).
Proof. unfold split. destruct (_ <? _); [apply good_Err|apply good_Ok]. Qed.

Lemma split_len n bs d r : split n bs = Ok (d, r) -> (length r <= length bs)%nat.
Proof.
  unfold split. destruct (_ <? _); try discriminate. intros H; inversion H; subst.
  rewrite skipn_length. lia.
Qed.

Lemma split_app (d r : list byte) : split (N.of_nat (length d)) (d ++ r) = Ok (d, r).
Proof.
  unfold split. rewrite app_length.
  replace (N.of_nat (length d + length r) <? N.of_nat (length d)) with false by lia.
  now rewrite Nat2N.id, firstn_app_exact, skipn_app_exact.
Qed.

(* the checked size arithmetic of Base/Ints, in the vocabulary of ListSpec: aones = mask_of, wadd and atomb
   are Prim.wrapping_add_sized and Prim.min_tombstone at a validated size *)
Lemma ones_sized_valid dbg sz : valid_asize sz = true -> ones_sized dbg sz = Ok (aones sz).
Proof. apply ones_sized_ok. Qed.

Lemma amod_valid sz : valid_asize sz = true -> amod sz <= two64 /\ 256 <= amod sz.
Proof.
  intros H. apply valid_asize_cases in H. unfold amod, two64.
  destruct H as [-> | [-> | [-> | ->]]]; cbn; lia.
Qed.

Lemma wrapping_add_sized_raw_valid dbg a l sz :
  valid_asize sz = true ->
  wrapping_add_sized_raw dbg a l sz = Ok (wadd sz a l).
Proof.
  intros H. unfold wrapping_add_sized_raw. rewrite ones_sized_ok by exact H. cbn [bind].
  f_equal. exact (wrapping_add_sized_exact a l sz H).
Qed.

Lemma min_tombstone_raw_valid dbg sz :
  valid_asize sz = true -> min_tombstone_raw dbg sz = Ok (atomb sz).
Proof.
  intros H. unfold min_tombstone_raw, wrapping_add_sized_raw. rewrite ones_sized_ok by exact H. cbn [bind].
  f_equal. exact (min_tombstone_exact sz H).
Qed.

Lemma wadd_lt sz a l : wadd sz a l < amod sz.
Proof. unfold wadd, amod. apply N.mod_lt. apply N.pow_nonzero. discriminate. Qed.

Lemma parse_raw_range_good dbg c inp : good (parse_raw_range dbg c inp).
Proof.
  unfold parse_raw_range.
  apply good_bind; [apply read_address_good|]. intros [b r1] H1.
  apply good_bind; [apply read_address_good|]. intros [e r2] H2.
  destruct ((b =? 0) && (e =? 0)); [apply good_Ok|].
  apply read_address_len in H1 as [Hv _]. rewrite ones_sized_valid by exact Hv. simpl.
  destruct (b =? aones (c_asize c)); apply good_Ok.
Qed.

Lemma parse_raw_range_len dbg c inp o r :
  parse_raw_range dbg c inp = Ok (o, r) ->
  valid_asize (c_asize c) = true /\ (length r < length inp)%nat.
Proof.
  unfold parse_raw_range. intros H.
  apply bind_ok in H as [[b r1] [H1 H]]. apply bind_ok in H as [[e r2] [H2 H]].
  apply read_address_len in H1 as [Hv L1]. apply read_address_len in H2 as [_ L2].
  assert (Hsz : (0 < N.to_nat (c_asize c))%nat).
  { apply valid_asize_cases in Hv. lia. }
  split; [exact Hv|].
  destruct ((b =? 0) && (e =? 0)).
  - inversion H; subst. lia.
  - rewrite ones_sized_valid in H by exact Hv. simpl in H.
    destruct (b =? aones (c_asize c)); inversion H; subst; lia.
Qed.

Ltac good_step :=
  match goal with
  | |- good (Ok _) => apply good_Ok
  | |- good (Err _) => apply good_Err
  | |- good (split _ _) => apply split_good
  | |- good (bind (read_uleb128 _ _) _) => apply good_bind; [apply read_uleb128_total|intros [? ?] ?]
  | |- good (bind (read_address _ _ _) _) => apply good_bind; [apply read_address_good|intros [? ?] ?]
  | |- good (bind (read_u8 _) _) => apply good_bind; [apply read_u8_good|intros [? ?] ?]
  | |- good (bind (read_u16 _ _) _) => apply good_bind; [apply read_un_good|intros [? ?] ?]
  | |- good (bind (read_u32 _ _) _) => apply good_bind; [apply read_un_good|intros [? ?] ?]
  | |- good (bind (split _ _) _) => apply good_bind; [apply split_good|intros [? ?] ?]
  | |- good (bind (parse_raw_range _ _ _) _) => apply good_bind; [apply parse_raw_range_good|intros [? ?] ?]
  | |- good (if ?c then _ else _) => destruct c
  | |- good (match ?o with Some _ => _ | None => _ end) => destruct o
  | |- good (match ?o with inl _ => _ | inr _ => _ end) => destruct o
  | |- good (let (_, _) := ?p in _) => destruct p
  end.

Lemma rng_parse_good dbg c bare inp : good (rng_parse dbg c bare inp).
Proof. unfold rng_parse. repeat good_step. Qed.

Lemma parse_data_good dbg c inp : good (parse_data dbg c inp).
Proof. unfold parse_data. repeat good_step. Qed.

Lemma parse_data_len dbg c inp d r :
  parse_data dbg c inp = Ok (d, r) -> (length r < length inp)%nat.
Proof.
  unfold parse_data. destruct (5 <=? c_version c); intros H;
    apply bind_ok in H as [[len r0] [H0 H]]; apply split_len in H.
  - apply read_uleb128_len in H0. lia.
  - apply read_un_len in H0. lia.
Qed.

Lemma loc_parse_good dbg c bare inp : good (loc_parse dbg c bare inp).
Proof.
  unfold loc_parse.
  repeat first [ good_step
               | apply good_bind; [apply parse_data_good|intros [? ?] ?]
               | apply good_bind; [destruct (5 <=? c_version c); [apply read_uleb128_total|apply read_un_good]|intros [? ?] ?] ].
Qed.

(* every successful parse consumes at least one byte *)
Ltac len_step :=
  match goal with
  | H : bind _ _ = Ok _ |- _ => apply bind_ok in H; destruct H as [[? ?] [? H]]
  | H : (if ?c then _ else _) = Ok _ |- _ => destruct c
  | H : Ok _ = Ok _ |- _ => inversion H; subst; clear H
  | H : Err _ = Ok _ |- _ => discriminate H
  | H : read_uleb128 _ _ = Ok _ |- _ => apply read_uleb128_len in H
  | H : read_address _ _ _ = Ok _ |- _ => apply read_address_len in H; destruct H as [_ H]
  | H : read_u8 _ = Ok _ |- _ => apply read_u8_len in H
  | H : read_u16 _ _ = Ok _ |- _ => apply read_un_len in H
  | H : read_u32 _ _ = Ok _ |- _ => apply read_un_len in H
  | H : split _ _ = Ok _ |- _ => apply split_len in H
  | H : parse_data _ _ _ = Ok _ |- _ => apply parse_data_len in H
  | H : parse_raw_range _ _ _ = Ok _ |- _ => apply parse_raw_range_len in H; destruct H as [_ H]
  end.

Lemma rng_parse_len dbg c bare inp o r :
  rng_parse dbg c bare inp = Ok (o, r) -> (length r < length inp)%nat.
Proof.
  unfold rng_parse. intros H. destruct bare.
  - apply bind_ok in H as [[o' r'] [H0 H]]. apply parse_raw_range_len in H0 as [_ H0].
    destruct o' as [[a|[b e]]|]; inversion H; subst; lia.
  - repeat len_step; lia.
Qed.

Lemma loc_parse_len dbg c bare inp o r :
  loc_parse dbg c bare inp = Ok (o, r) -> (length r < length inp)%nat.
Proof.
  unfold loc_parse. intros H. destruct bare.
  - apply bind_ok in H as [[o' r'] [H0 H]]. apply parse_raw_range_len in H0 as [_ H0].
    destruct o' as [[a|[b e]]|]; [inversion H; subst; lia| |inversion H; subst; lia].
    repeat len_step; lia.
  - apply bind_ok in H as [[op r0] [H0 H]]. apply read_u8_len in H0.
    repeat match goal with
    | H : (if ?c then _ else _) = Ok _ |- _ => destruct c
    end;
    repeat first [ len_step
      | match goal with
        | H : (if 5 <=? c_version c then read_uleb128 _ _ else read_u32 _ _) = Ok _ |- _ =>
            destruct (5 <=? c_version c); [apply read_uleb128_len in H|apply read_un_len in H]
        end ]; lia.
Qed.

Section RawNext.
  Context {A : Type} (parse : list byte -> res (option A * list byte)).
  Hypothesis Hgood : forall inp, good (parse inp).
  Hypothesis Hlen : forall inp o r, parse inp = Ok (o, r) -> (length r < length inp)%nat.

  Lemma raw_next_good inp : good (fst (raw_next parse inp)).
  Proof.
    unfold raw_next. destruct inp as [|b t]; [apply good_Ok|].
    destruct (Hgood (b :: t)) as [Hp Hf].
    destruct (parse (b :: t)) as [[[a|] rest]|e| |]; simpl; try apply good_Ok; try apply good_Err; contradiction.
  Qed.

  Lemma raw_next_some inp a inp' :
    raw_next parse inp = (Ok (Some a), inp') ->
    parse inp = Ok (Some a, inp') /\ (length inp' < length inp)%nat.
  Proof.
    unfold raw_next. destruct inp as [|b t]; [discriminate|].
    destruct (parse (b :: t)) as [[[a'|] rest]|e| |] eqn:E; intros H; inversion H; subst.
    split; [reflexivity|]. eapply Hlen; exact E.
  Qed.

  (* input.empty() at the end-of-list entry and on every error: the iterator is finished *)
  Lemma raw_next_stop inp r inp' :
    raw_next parse inp = (r, inp') -> (forall a, r <> Ok (Some a)) -> inp' = [].
  Proof.
    unfold raw_next. destruct inp as [|b t]; [intros H; inversion H; reflexivity|].
    destruct (parse (b :: t)) as [[[a'|] rest]|e| |]; intros H Hn; inversion H; subst; try reflexivity.
    exfalso. eapply Hn; reflexivity.
  Qed.

  Lemma raw_next_nil : raw_next parse [] = (Ok None, []).
  Proof. reflexivity. Qed.

  Lemma raw_next_err_nonempty inp e inp' : raw_next parse inp = (Err e, inp') -> inp <> [].
  Proof. destruct inp; [discriminate|discriminate]. Qed.

  Lemma raw_next_le inp r inp' : raw_next parse inp = (r, inp') -> (length inp' <= length inp)%nat.
  Proof.
    intros H. destruct r as [[a|]|e| |]; [apply raw_next_some in H; lia|..];
      (apply raw_next_stop in H; [subst; simpl; lia|discriminate]).
  Qed.
End RawNext.

(* get_address / get_offset / get_str_offset: skip to the table, skip to the entry, read it with `rd`
   (a fixed-width reader) and hand it to `k` *)
Lemma table_good {T} (rd : list byte -> res (N * list byte)) (k : N * list byte -> res T) w sect base index :
  (forall bs, good (rd bs)) -> (forall p, good (k p)) ->
  good (let* r1 := skip base sect in
        match checked_mul64 index w with
        | None => Err EUnexpectedEof
        | Some io => let* r2 := skip io r1 in let* p := rd r2 in k p
        end).
Proof.
  intros Hrd Hk. apply good_bind; [apply skip_good|]. intros r1 _.
  destruct (checked_mul64 index w); [|apply good_Err].
  apply good_bind; [apply skip_good|]. intros r2 _. apply good_bind; [apply Hrd|]. intros p _. apply Hk.
Qed.

Lemma read_word_good f be bs : good (read_word f be bs).
Proof. unfold read_word. destruct f; apply read_un_good. Qed.

Lemma get_address_good be sect asize base index : good (get_address be sect asize base index).
Proof. apply table_good; [apply read_address_good|intros [a r]; apply good_Ok]. Qed.

Lemma get_offset_good be f sect base index : good (get_offset be f sect base index).
Proof.
  apply table_good; [apply read_word_good|]. intros [a r]. destruct (_ <? _); [apply good_Ok|apply good_Err].
Qed.

Lemma get_str_offset_good be f sect base index : good (get_str_offset be f sect base index).
Proof. apply table_good; [apply read_word_good|intros [a r]; apply good_Ok]. Qed.

(* a successful address lookup proves the address size valid *)
Lemma get_address_ok_valid be sect asize base index a :
  get_address be sect asize base index = Ok a -> valid_asize asize = true.
Proof.
  unfold get_address. intros H. apply bind_ok in H as [r1 [_ H]].
  destruct (checked_mul64 index asize); [|discriminate].
  apply bind_ok in H as [r2 [_ H]]. apply bind_ok in H as [[v r] [H _]].
  now apply read_address_len in H.
Qed.

(* the filter at the end of convert_raw, for ANY configuration: whatever is yielded is non-empty and
   begins below the tombstone value computed for the configured address size *)
Lemma convert_raw_yield dbg c x base e rg base' :
  convert_raw dbg c x base e = Ok (Some rg, base') ->
  fst rg < snd rg /\ exists t, min_tombstone_raw dbg (c_asize c) = Ok t /\ fst rg < t.
Proof.
  unfold convert_raw.
  assert (F : forall r, (let* tomb := min_tombstone_raw dbg (c_asize c) in
                         if (tomb <=? fst r) || (snd r <=? fst r) then Ok (None, base) else Ok (Some r, base))
                        = Ok (Some rg, base') ->
              fst rg < snd rg /\ exists t, min_tombstone_raw dbg (c_asize c) = Ok t /\ fst rg < t).
  { intros r H. apply bind_ok in H as [t [Ht H]].
    destruct ((t <=? fst r) || (snd r <=? fst r)) eqn:E; inversion H; subst.
    split; [lia|]. exists t. split; [exact Ht|lia]. }
  destruct e; intros H;
    repeat match goal with
    | H : bind _ _ = Ok (Some _, _) |- _ =>
        first [ apply F in H; exact H
              | apply bind_ok in H; destruct H as [? [? H]] ]
    | H : (if ?c then _ else _) = Ok _ |- _ => destruct c
    | H : Ok (None, _) = Ok (Some _, _) |- _ => discriminate H
    end.
Qed.

Lemma convert_raw_good dbg c x base e :
  valid_asize (c_asize c) = true -> good (convert_raw dbg c x base e).
Proof.
  intros Hv. unfold convert_raw, ctx_address.
  rewrite !min_tombstone_raw_valid by exact Hv.
  destruct e; simpl;
    repeat first
      [ rewrite wrapping_add_sized_raw_valid by exact Hv; simpl
      | apply good_Ok
      | apply good_bind; [apply get_address_good|intros ? ?]
      | match goal with |- good (if ?c then _ else _) => destruct c end ].
Qed.

Lemma ones_sized_nf dbg sz : ones_sized dbg sz <> OutOfFuel.
Proof.
  unfold ones_sized, chk_mul, chk_sub.
  repeat first [ apply bind_not_fuel; [|intros ? ?]
               | match goal with |- (if ?c then _ else _) <> OutOfFuel => destruct c end
               | discriminate ].
Qed.

Lemma wrapping_add_sized_raw_nf dbg a l sz : wrapping_add_sized_raw dbg a l sz <> OutOfFuel.
Proof. unfold wrapping_add_sized_raw. apply bind_not_fuel; [apply ones_sized_nf|discriminate]. Qed.

Lemma convert_raw_nf dbg c x base e : convert_raw dbg c x base e <> OutOfFuel.
Proof.
  unfold convert_raw, ctx_address, min_tombstone_raw.
  destruct e;
    repeat first
      [ discriminate
      | apply bind_not_fuel; [first [apply wrapping_add_sized_raw_nf | apply get_address_good]|intros ? ?]
      | match goal with |- (if ?c then _ else _) <> OutOfFuel => destruct c end ].
Qed.

Section ListNext.
  Context {A B : Type} (parse : list byte -> res (option A * list byte))
          (ent : A -> lent) (mk : N * N -> A -> B).
  Hypothesis Hgood : forall inp, good (parse inp).
  Hypothesis Hlen : forall inp o r, parse inp = Ok (o, r) -> (length r < length inp)%nat.

  Notation lnext := (list_next parse ent mk).

  (* fuel |input| + 1 always suffices *)
  Lemma list_next_fuel dbg c x : forall fuel s,
    (length (s_inp s) < fuel)%nat -> fst (lnext fuel dbg c x s) <> OutOfFuel.
  Proof.
    induction fuel as [|f IH]; intros s Hf; [lia|]. simpl.
    destruct (raw_next parse (s_inp s)) as [r inp'] eqn:E.
    pose proof (raw_next_good parse Hgood (s_inp s)) as [_ Hnf]. rewrite E in Hnf. simpl in Hnf.
    destruct r as [[a|]|e| |]; simpl; try discriminate; try contradiction.
    apply (raw_next_some parse Hlen) in E as [_ L].
    destruct (convert_raw dbg c x (s_base s) (ent a)) as [[[rg|] b']|e| |] eqn:Ec; simpl; try discriminate.
    - apply IH. simpl. lia.
    - exfalso. exact (convert_raw_nf dbg c x (s_base s) (ent a) Ec).
  Qed.

  Lemma list_next_np dbg c x : valid_asize (c_asize c) = true -> forall fuel s,
    fst (lnext fuel dbg c x s) <> Panic.
  Proof.
    intros Hv. induction fuel as [|f IH]; intros s; simpl; [discriminate|].
    destruct (raw_next parse (s_inp s)) as [r inp'] eqn:E.
    pose proof (raw_next_good parse Hgood (s_inp s)) as [Hnp _]. rewrite E in Hnp. simpl in Hnp.
    destruct r as [[a|]|e| |]; simpl; try discriminate; try contradiction.
    pose proof (convert_raw_good dbg c x (s_base s) (ent a) Hv) as [Hc _].
    destruct (convert_raw dbg c x (s_base s) (ent a)) as [[[rg|] b']|e| |]; simpl; try discriminate; try contradiction.
    apply IH.
  Qed.

  (* every call either reports the end (and leaves nothing to read) or strictly shrinks the input *)
  Lemma list_next_progress dbg c x : forall fuel s r s',
    lnext fuel dbg c x s = (r, s') ->
    (length (s_inp s') <= length (s_inp s))%nat /\
    (r = Ok None -> s_inp s' = []) /\
    ((exists b, r = Ok (Some b)) \/ (exists e, r = Err e) -> (length (s_inp s') < length (s_inp s))%nat).
  Proof.
    induction fuel as [|f IH]; intros s r s' H; simpl in H.
    - inversion H; subst. repeat split; try lia; try discriminate; try (intros [[? ?]|[? ?]]; discriminate).
    - destruct (raw_next parse (s_inp s)) as [r0 inp'] eqn:E.
      destruct r0 as [[a|]|e| |].
      + apply (raw_next_some parse Hlen) in E as [_ L].
        destruct (convert_raw dbg c x (s_base s) (ent a)) as [[[rg|] b']|e| |] eqn:Ec.
        * inversion H; subst; simpl. repeat split; try lia; try discriminate.
        * apply IH in H. simpl in H. destruct H as [H1 [H2 H3]].
          split; [lia|split; [exact H2|intros Hx; specialize (H3 Hx); lia]].
        * inversion H; subst; simpl. repeat split; try lia; try discriminate.
        * inversion H; subst; simpl. repeat split; try lia; try discriminate; try (intros [[? ?]|[? ?]]; discriminate).
        * inversion H; subst; simpl. repeat split; try lia; try discriminate; try (intros [[? ?]|[? ?]]; discriminate).
      + apply raw_next_stop in E; [|discriminate]. inversion H; subst; simpl.
        repeat split; try lia; auto; try (intros [[? ?]|[? ?]]; discriminate).
      + pose proof (raw_next_err_nonempty parse _ _ _ E) as Hne.
        apply raw_next_stop in E; [|discriminate]. inversion H; subst; simpl.
        repeat split; try lia; try discriminate. intros _. destruct (s_inp s); [contradiction|simpl; lia].
      + inversion H; subst; simpl. eapply raw_next_le in E; [|exact Hgood|exact Hlen].
        repeat split; try lia; try discriminate; try (intros [[? ?]|[? ?]]; discriminate).
      + inversion H; subst; simpl. repeat split; try lia; try discriminate; try (intros [[? ?]|[? ?]]; discriminate).
  Qed.

  (* once the end was reported the iterator keeps reporting it *)
  Lemma list_next_nil dbg c x fuel base :
    lnext (S fuel) dbg c x {| s_inp := []; s_base := base |} = (Ok None, {| s_inp := []; s_base := base |}).
  Proof. reflexivity. Qed.

  (* the property's universal clause, for ANY input and configuration *)
  Lemma list_next_yield dbg c x : forall fuel s b s',
    lnext fuel dbg c x s = (Ok (Some b), s') ->
    exists rg a, b = mk rg a /\ fst rg < snd rg /\
                 exists t, min_tombstone_raw dbg (c_asize c) = Ok t /\ fst rg < t.
  Proof.
    induction fuel as [|f IH]; intros s b s' H; simpl in H; [discriminate|].
    destruct (raw_next parse (s_inp s)) as [r0 inp'] eqn:E.
    destruct r0 as [[a|]|e| |]; try discriminate.
    destruct (convert_raw dbg c x (s_base s) (ent a)) as [[[rg|] b']|e| |] eqn:Ec; try discriminate.
    - inversion H; subst. exists rg, a. split; [reflexivity|]. eapply convert_raw_yield; exact Ec.
    - eapply IH; exact H.
  Qed.
End ListNext.

Section Drain.
  Context {A St : Type} (next : St -> res (option A) * St) (mu : St -> nat).
  Hypothesis Hdec : forall s r s', next s = (r, s') ->
    (exists a, r = Ok (Some a)) \/ (exists e, r = Err e) -> (mu s' < mu s)%nat.
  Hypothesis Hnf : forall s, fst (next s) <> OutOfFuel.

  Lemma drain_fuel : forall calls s, (mu s < calls)%nat -> drain next calls s <> OutOfFuel.
  Proof.
    induction calls as [|k IH]; intros s Hm; [lia|]. simpl.
    destruct (next s) as [r s'] eqn:E. specialize (Hnf s). rewrite E in Hnf. simpl in Hnf.
    destruct r as [[a|]|e| |]; try discriminate; try contradiction.
    - apply bind_not_fuel; [|discriminate]. apply IH.
      assert (mu s' < mu s)%nat by (eapply Hdec; [exact E|left; eauto]). lia.
    - apply bind_not_fuel; [|discriminate]. apply IH.
      assert (mu s' < mu s)%nat by (eapply Hdec; [exact E|right; eauto]). lia.
  Qed.

  (* at most mu(s) items and errors before the final Ok(None) *)
  Lemma drain_length : forall calls s l, drain next calls s = Ok l -> (length l <= mu s)%nat.
  Proof.
    induction calls as [|k IH]; intros s l H; simpl in H; [discriminate|].
    destruct (next s) as [r s'] eqn:E.
    destruct r as [[a|]|e| |]; try discriminate.
    - apply bind_ok in H as [l' [H1 H]]. inversion H; subst. apply IH in H1. simpl.
      assert (mu s' < mu s)%nat by (eapply Hdec; [exact E|left; eauto]). lia.
    - inversion H; subst. simpl. lia.
    - apply bind_ok in H as [l' [H1 H]]. inversion H; subst. apply IH in H1. simpl.
      assert (mu s' < mu s)%nat by (eapply Hdec; [exact E|right; eauto]). lia.
  Qed.

  Lemma drain_np : (forall s, fst (next s) <> Panic) -> forall calls s, drain next calls s <> Panic.
  Proof.
    intros Hnp. induction calls as [|k IH]; intros s; simpl; [discriminate|].
    destruct (next s) as [r s'] eqn:E. specialize (Hnp s). rewrite E in Hnp. simpl in Hnp.
    destruct r as [[a|]|e| |]; try discriminate; try contradiction;
      (apply bind_not_panic; [apply IH|discriminate]).
  Qed.

  Lemma drain_items (P : A -> Prop) :
    (forall s a s', next s = (Ok (Some a), s') -> P a) ->
    forall calls s l, drain next calls s = Ok l -> forall a, In (EvItem a) l -> P a.
  Proof.
    intros HP. induction calls as [|k IH]; intros s l H a Hin; simpl in H; [discriminate|].
    destruct (next s) as [r s'] eqn:E.
    destruct r as [[a'|]|e| |]; try discriminate.
    - apply bind_ok in H as [l' [H1 H]]. inversion H; subst. destruct Hin as [Hin|Hin].
      + inversion Hin; subst. eapply HP; exact E.
      + eapply IH; eassumption.
    - inversion H; subst. contradiction.
    - apply bind_ok in H as [l' [H1 H]]. inversion H; subst. destruct Hin as [Hin|Hin]; [discriminate|].
      eapply IH; eassumption.
  Qed.
End Drain.

(* the drains of the raw iterators and of RngListIter / LocListIter, for any raw parser that consumes input
   and never panics, and any configuration *)
Section ListDrain.
  Context {A B : Type} (parse : list byte -> res (option A * list byte))
          (ent : A -> lent) (mk : N * N -> A -> B).
  Hypothesis Hgood : forall inp, good (parse inp).
  Hypothesis Hlen : forall inp o r, parse inp = Ok (o, r) -> (length r < length inp)%nat.

  Lemma raw_step_dec inp r inp' :
    raw_next parse inp = (r, inp') ->
    (exists a, r = Ok (Some a)) \/ (exists e, r = Err e) -> (length inp' < length inp)%nat.
  Proof.
    intros H [[a ->]|[e ->]].
    - now apply (raw_next_some parse Hlen) in H.
    - pose proof (raw_next_err_nonempty parse _ _ _ H). apply raw_next_stop in H; [|discriminate].
      subst. destruct inp; [contradiction|simpl; lia].
  Qed.

  Lemma raw_drain_good inp : good (drain (raw_next parse) (length inp + 2) inp).
  Proof.
    split.
    - apply drain_np. intros s. now apply raw_next_good.
    - apply (drain_fuel _ (@length byte)); [| |lia].
      + intros s r s'. apply raw_step_dec.
      + intros s. now apply raw_next_good.
  Qed.

  Variables (dbg : bool) (c : lcfg) (x : lctx).
  Notation step := (fun s => list_next parse ent mk (next_fuel s) dbg c x s).
  Notation inp_len := (fun s => length (s_inp s)).

  Lemma list_step_dec s r s' :
    step s = (r, s') -> (exists a, r = Ok (Some a)) \/ (exists e, r = Err e) -> (inp_len s' < inp_len s)%nat.
  Proof. intros H. eapply list_next_progress in H; [|exact Hgood|exact Hlen]. tauto. Qed.

  Lemma list_step_nf s : fst (step s) <> OutOfFuel.
  Proof. apply list_next_fuel; [exact Hgood|exact Hlen|unfold next_fuel; lia]. Qed.

  (* fuel never runs out *)
  Lemma list_drain_nf s : drain step (length (s_inp s) + 2) s <> OutOfFuel.
  Proof. apply (drain_fuel _ inp_len list_step_dec list_step_nf). lia. Qed.

  Lemma list_drain_good s :
    valid_asize (c_asize c) = true -> good (drain step (length (s_inp s) + 2) s).
  Proof.
    intros Hv. split; [|apply list_drain_nf].
    apply drain_np. intros s0. now apply list_next_np.
  Qed.

  Lemma list_drain_bound s l : drain step (length (s_inp s) + 2) s = Ok l -> (length l <= length (s_inp s))%nat.
  Proof. exact (drain_length _ inp_len list_step_dec list_step_nf _ s l). Qed.

  Lemma list_drain_yield calls s l b :
    drain step calls s = Ok l -> In (EvItem b) l ->
    exists rg a, b = mk rg a /\ fst rg < snd rg /\
                 exists t, min_tombstone_raw dbg (c_asize c) = Ok t /\ fst rg < t.
  Proof.
    intros H Hin. revert H b Hin. apply drain_items. intros s0 a s1. apply list_next_yield.
  Qed.
End ListDrain.

Lemma read_address_enc c a rest :
  valid_asize (c_asize c) = true -> a < amod (c_asize c) ->
  read_address (c_asize c) (c_be c) (enc_addr c a ++ rest) = Ok (a, rest).
Proof.
  intros Hv Ha. rewrite read_address_eq by exact Hv. apply read_un_enc_un_small.
  rewrite p256_pow2, N2Nat.id. exact Ha.
Qed.

Ltac rt_step :=
  first [ rewrite <- app_assoc
        | rewrite <- app_comm_cons
        | rewrite read_uleb128_enc by (try assumption; unfold two64 in *; lia)
        | rewrite read_address_enc by (try assumption; lia)
        | progress cbn [bind] ].

Lemma read_u8_cons b r : read_u8 (b :: r) = Ok (b2n b, r).
Proof. reflexivity. Qed.

Lemma rng_parse_rle_end dbg c rest : rng_parse dbg c false (n2b 0 :: rest) = Ok (None, rest).
Proof. reflexivity. Qed.

(* the opcode byte selects its branch of the parser's if-chain *)
Ltac opcode_start :=
  rewrite <- app_comm_cons, read_u8_cons; cbn [bind];
  rewrite b2n_n2b_small by lia; cbn [N.eqb Pos.eqb].

(* NB: never unfold u64_max / two64 inside hypotheses that a `destruct` generalises: the kernel's
   re-check of such conversions on 64-bit literals is pathologically slow. Go through these lemmas. *)
Lemma fits_u64_lt i : fits_u64 i = true -> i < two64.
Proof. unfold fits_u64, u64_max, two64. lia. Qed.
Lemma fits_addr_lt c a : fits_addr c a = true -> a < amod (c_asize c).
Proof. unfold fits_addr. lia. Qed.

Ltac wf_split :=
  repeat match goal with
  | H : _ && _ = true |- _ => apply andb_true_iff in H; destruct H
  | H : fits_u64 _ = true |- _ => apply fits_u64_lt in H
  | H : fits_addr _ _ = true |- _ => apply fits_addr_lt in H
  | H : negb _ = true |- _ => apply negb_true_iff in H
  end.

Lemma rng_parse_rle_enc dbg c e rest :
  valid_asize (c_asize c) = true -> wf_rle c e = true ->
  rng_parse dbg c false (enc_rle c e ++ rest) = Ok (Some e, rest).
Proof.
  intros Hv Hw.
  destruct e; try discriminate Hw; cbn [wf_rle] in Hw; wf_split;
    unfold rng_parse; cbn [enc_rle]; opcode_start; repeat rt_step; reflexivity.
Qed.

Lemma aones_lt sz : valid_asize sz = true -> aones sz < amod sz /\ aones sz <> 0.
Proof. intros H. pose proof (amod_valid sz H). unfold aones. lia. Qed.

Lemma parse_raw_range_pair dbg c b e rest :
  valid_asize (c_asize c) = true -> b < amod (c_asize c) -> e < amod (c_asize c) ->
  parse_raw_range dbg c (enc_addr c b ++ enc_addr c e ++ rest) =
  Ok ((if (b =? 0) && (e =? 0) then None
       else if b =? aones (c_asize c) then Some (inl e) else Some (inr (b, e))), rest).
Proof.
  intros Hv Hb He. unfold parse_raw_range. repeat rt_step.
  destruct ((b =? 0) && (e =? 0)); [reflexivity|].
  rewrite ones_sized_valid by exact Hv. cbn [bind].
  destruct (b =? aones (c_asize c)); reflexivity.
Qed.

Lemma rng_parse_pair_enc dbg c e rest :
  valid_asize (c_asize c) = true -> wf_pair c e = true ->
  rng_parse dbg c true (enc_pair c e ++ rest) = Ok (Some e, rest).
Proof.
  intros Hv Hw. pose proof (aones_lt _ Hv) as [Ho Ho0]. unfold rng_parse.
  destruct e; try discriminate Hw; cbn [wf_pair] in Hw; wf_split; cbn [enc_pair]; rewrite <- app_assoc;
    rewrite parse_raw_range_pair by assumption; cbn [bind].
  - repeat match goal with H : ?x = false |- context [?x] => rewrite H end. reflexivity.
  - replace ((aones (c_asize c) =? 0) && (a =? 0)) with false by lia.
    rewrite N.eqb_refl. reflexivity.
Qed.

Lemma rng_parse_pair_end dbg c rest :
  valid_asize (c_asize c) = true ->
  rng_parse dbg c true (enc_addr c 0 ++ enc_addr c 0 ++ rest) = Ok (None, rest).
Proof.
  intros Hv. pose proof (amod_valid _ Hv). unfold rng_parse.
  rewrite parse_raw_range_pair by (try assumption; lia). reflexivity.
Qed.

Lemma parse_data_enc dbg c d rest :
  wf_data c d = true -> parse_data dbg c (enc_data c d ++ rest) = Ok (d, rest).
Proof.
  intros Hw. unfold wf_data in Hw. unfold parse_data, enc_data. destruct (5 <=? c_version c).
  - wf_split. repeat rt_step. apply split_app.
  - rewrite <- app_assoc. unfold read_u16. rewrite read_un_enc_un_small by (change (p256 2) with 65536; lia).
    apply split_app.
Qed.

Lemma loc_parse_lle_end dbg c rest : loc_parse dbg c false (n2b 0 :: rest) = Ok (None, rest).
Proof. reflexivity. Qed.

Lemma loc_parse_lle_enc dbg c x rest :
  valid_asize (c_asize c) = true -> wf_lle c x = true ->
  loc_parse dbg c false (enc_lle c x ++ rest) = Ok (Some x, rest).
Proof.
  intros Hv Hw. destruct x as [e d]. unfold wf_lle in Hw. apply andb_true_iff in Hw as [Hd Hw].
  destruct e; try discriminate Hw; cbn [has_data] in Hd; try (destruct d; [|discriminate Hd]);
    unfold loc_parse; cbn [enc_lle]; opcode_start; wf_split; repeat rt_step;
    try rewrite parse_data_enc by assumption; try reflexivity.
  (* left: startx_length, whose length is a ULEB128 from DWARF 5 on and a u32 in the pre-v5 split-DWARF form *)
  destruct (5 <=? c_version c).
  - wf_split. repeat rt_step. rewrite parse_data_enc by assumption. reflexivity.
  - repeat rewrite <- app_assoc. unfold read_u32.
    rewrite read_un_enc_un_small by (change (p256 4) with 4294967296; lia). cbn [bind].
    rewrite parse_data_enc by assumption. reflexivity.
Qed.

Lemma loc_parse_pair_enc dbg c x rest :
  valid_asize (c_asize c) = true -> wf_locpair c x = true ->
  loc_parse dbg c true (enc_locpair c x ++ rest) = Ok (Some x, rest).
Proof.
  intros Hv Hw. destruct x as [e d]. pose proof (aones_lt _ Hv) as [Ho Ho0]. unfold loc_parse.
  destruct e; try discriminate Hw; cbn [enc_locpair wf_locpair wf_pair] in *; wf_split.
  - repeat rewrite <- app_assoc. rewrite parse_raw_range_pair by assumption. cbn [bind].
    repeat match goal with H : ?x = false |- context [?x] => rewrite H end.
    unfold read_u16. rewrite read_un_enc_un_small by (change (p256 2) with 65536; lia). cbn [bind].
    rewrite split_app. reflexivity.
  - destruct d; [|discriminate]. rewrite <- app_assoc.
    rewrite parse_raw_range_pair by assumption. cbn [bind].
    replace ((aones (c_asize c) =? 0) && (a =? 0)) with false by lia.
    rewrite N.eqb_refl. reflexivity.
Qed.

Lemma loc_parse_pair_end dbg c rest :
  valid_asize (c_asize c) = true ->
  loc_parse dbg c true (enc_addr c 0 ++ enc_addr c 0 ++ rest) = Ok (None, rest).
Proof.
  intros Hv. pose proof (amod_valid _ Hv). unfold loc_parse.
  rewrite parse_raw_range_pair by (try assumption; lia). reflexivity.
Qed.

(* the same three lookups (see table_good) return the word at base + index * w, when `rd` reads n bytes *)
Lemma table_lookup {T} (rd : list byte -> res (N * list byte)) (k : N * list byte -> res T)
      be (n : nat) (w : N) sect base index :
  (forall bs, rd bs = read_un n be bs) -> w = N.of_nat n -> N.of_nat (length sect) < two64 ->
  (let* r1 := skip base sect in
   match checked_mul64 index w with
   | None => Err EUnexpectedEof
   | Some io => let* r2 := skip io r1 in let* p := rd r2 in k p
   end) =
  match word_at be n sect (base + index * w) with
  | Some v => k (v, skipn (N.to_nat (base + index * w) + n) sect)
  | None => Err EUnexpectedEof
  end.
Proof.
  intros Hrd Hw Hlen. unfold word_at, skip, checked_mul64.
  destruct (N.of_nat (length sect) <? base) eqn:E1; cbn [bind].
  - replace (base + index * w + N.of_nat n <=? N.of_nat (length sect)) with false by lia. reflexivity.
  - destruct (index * w <? two64) eqn:E2.
    + rewrite skipn_length.
      destruct (N.of_nat (length sect - N.to_nat base) <? index * w) eqn:E3; cbn [bind].
      * replace (base + index * w + N.of_nat n <=? N.of_nat (length sect)) with false by lia. reflexivity.
      * rewrite Hrd, read_un_exact, <- val_is_sum, !skipn_length.
        destruct (length sect - N.to_nat base - N.to_nat (index * w) <? n)%nat eqn:E4; cbn [bind].
        -- replace (base + index * w + N.of_nat n <=? N.of_nat (length sect)) with false by lia. reflexivity.
        -- replace (base + index * w + N.of_nat n <=? N.of_nat (length sect)) with true by lia.
           rewrite !skipn_skipn. replace (N.to_nat base + N.to_nat (index * w))%nat with (N.to_nat (base + index * w)) by lia.
           reflexivity.
    + replace (base + index * w + N.of_nat n <=? N.of_nat (length sect)) with false by lia. reflexivity.
Qed.

Lemma get_address_spec be sect asize base index :
  valid_asize asize = true -> N.of_nat (length sect) < two64 ->
  get_address be sect asize base index =
  match addr_table be asize sect base index with Some v => Ok v | None => Err EUnexpectedEof end.
Proof.
  intros Hv Hlen. unfold get_address, addr_table.
  rewrite (table_lookup (read_address asize be) _ be (N.to_nat asize)); try assumption.
  - destruct (word_at be (N.to_nat asize) sect (base + index * asize)); reflexivity.
  - intros bs. now apply read_address_eq.
  - lia.
Qed.

Lemma word_size_bytes fmt64 : word_size fmt64 = N.of_nat (if fmt64 then 8 else 4)%nat.
Proof. destruct fmt64; reflexivity. Qed.

Lemma get_offset_spec be fmt64 sect base index :
  N.of_nat (length sect) < two64 ->
  get_offset be fmt64 sect base index =
  match offset_table be fmt64 sect base index with
  | Some o => if o <? two64 then Ok o else Err EUnsupportedOffset
  | None => Err EUnexpectedEof
  end.
Proof.
  intros Hlen. unfold get_offset, offset_table.
  rewrite (table_lookup (read_word fmt64 be) _ be (if fmt64 then 8 else 4)%nat); try assumption.
  - destruct (word_at be _ sect (base + index * word_size fmt64)); reflexivity.
  - intros bs. destruct fmt64; reflexivity.
  - apply word_size_bytes.
Qed.

Lemma get_str_offset_spec be fmt64 sect base index :
  N.of_nat (length sect) < two64 ->
  get_str_offset be fmt64 sect base index =
  match str_offset_table be fmt64 sect base index with Some o => Ok o | None => Err EUnexpectedEof end.
Proof.
  intros Hlen. unfold get_str_offset, str_offset_table.
  rewrite (table_lookup (read_word fmt64 be) _ be (if fmt64 then 8 else 4)%nat); try assumption.
  - destruct (word_at be _ sect (base + index * word_size fmt64)); reflexivity.
  - intros bs. destruct fmt64; reflexivity.
  - apply word_size_bytes.
Qed.

Lemma convert_raw_resolve1 dbg c x tbl base e base' o :
  valid_asize (c_asize c) = true ->
  (forall i, ctx_address c x i = match tbl i with Some a => Ok a | None => Err EUnexpectedEof end) ->
  resolve1 (c_asize c) tbl base e = Some (base', o) ->
  convert_raw dbg c x base e =
  Ok (match o with Some r => if live (c_asize c) r then Some r else None | None => None end, base').
Proof.
  intros Hv Htbl Hr.
  assert (F : forall r : N * N,
    (let* tomb := Ok (atomb (c_asize c)) in
     if (tomb <=? fst r) || (snd r <=? fst r) then Ok (None, base) else Ok (Some r, base)) =
    Ok ((if live (c_asize c) r then Some r else None), base)).
  { intros r. cbn [bind]. unfold live.
    destruct ((atomb (c_asize c) <=? fst r) || (snd r <=? fst r)) eqn:E1;
      destruct ((fst r <? atomb (c_asize c)) && (fst r <? snd r)) eqn:E2; try reflexivity; lia. }
  unfold convert_raw. rewrite !min_tombstone_raw_valid by exact Hv.
  destruct e; cbn [resolve1] in *; rewrite ?Htbl.
  - (* LPair *)
    destruct (atomb (c_asize c) <=? base) eqn:E; inversion Hr; subst; cbn [bind]; rewrite E; [reflexivity|].
    rewrite !wrapping_add_sized_raw_valid by exact Hv. cbn [bind]. apply F.
  - inversion Hr; subst. reflexivity.
  - destruct (tbl i); inversion Hr; subst. reflexivity.
  - destruct (tbl i) as [b|]; [|discriminate]. destruct (tbl j) as [e|]; [|discriminate].
    inversion Hr; subst. cbn [bind]. apply F.
  - destruct (tbl i) as [b|]; [|discriminate]. inversion Hr; subst. cbn [bind].
    rewrite wrapping_add_sized_raw_valid by exact Hv. cbn [bind]. apply F.
  - destruct (atomb (c_asize c) <=? base) eqn:E; inversion Hr; subst; cbn [bind]; rewrite E; [reflexivity|].
    rewrite !wrapping_add_sized_raw_valid by exact Hv. cbn [bind]. apply F.
  - inversion Hr; subst. apply F.
  - inversion Hr; subst. apply F.
  - inversion Hr; subst. rewrite wrapping_add_sized_raw_valid by exact Hv. cbn [bind]. apply F.
Qed.

(* resolve_rng / resolve_loc as one function of the entry projection and the item constructor *)
Fixpoint resolve_gen {A B : Type} (ent : A -> lent) (mk : N * N -> A -> B)
         (sz : N) (tbl : N -> option N) (base : N) (es : list A) : option (list B) :=
  match es with
  | [] => Some []
  | a :: es' =>
      match resolve1 sz tbl base (ent a) with
      | None => None
      | Some (base', o) =>
          match resolve_gen ent mk sz tbl base' es' with
          | None => None
          | Some rs => Some (match o with Some r => if live sz r then mk r a :: rs else rs | None => rs end)
          end
      end
  end.

Lemma resolve_rng_gen sz tbl : forall es base,
  resolve_rng sz tbl base es = resolve_gen (fun e => e) (fun r _ => r) sz tbl base es.
Proof.
  induction es as [|e es IH]; intros base; simpl; [reflexivity|].
  destruct (resolve1 sz tbl base e) as [[b' o]|]; [|reflexivity]. now rewrite IH.
Qed.

Lemma resolve_loc_gen sz tbl : forall xs base,
  resolve_loc sz tbl base xs = resolve_gen fst (fun r (a : lloc) => (r, snd a)) sz tbl base xs.
Proof.
  induction xs as [|[e d] xs IH]; intros base; simpl; [reflexivity|].
  destruct (resolve1 sz tbl base e) as [[b' o]|]; [|reflexivity]. now rewrite IH.
Qed.

(* the ranges of a location list are the range list of its address parts *)
Lemma resolve_rng_fst sz tbl : forall xs base,
  resolve_rng sz tbl base (map fst xs) = option_map (map fst) (resolve_loc sz tbl base xs).
Proof.
  induction xs as [|[e d] xs IH]; intros base; [reflexivity|]. cbn [map fst resolve_rng resolve_loc].
  destruct (resolve1 sz tbl base e) as [[b' o]|]; [|reflexivity]. rewrite IH.
  destruct (resolve_loc sz tbl b' xs); [|reflexivity]. destruct o as [r|]; [destruct (live sz r)|]; reflexivity.
Qed.

Lemma raw_next_nonempty {A} (parse : list byte -> res (option A * list byte)) inp :
  inp <> [] ->
  raw_next parse inp =
  match parse inp with
  | Ok (Some e, rest) => (Ok (Some e), rest)
  | Ok (None, _) => (Ok None, [])
  | Err e => (Err e, [])
  | Panic => (Panic, [])
  | OutOfFuel => (OutOfFuel, [])
  end.
Proof. destruct inp; [contradiction|reflexivity]. Qed.

(* an encoding of list entries that its parser inverts: entries and the terminator parse back, and neither is
   empty (so that an iterator on the encoded list does not mistake it for exhausted input) *)
Record codec {A : Type} (parse : list byte -> res (option A * list byte))
       (enc : A -> list byte) (wfA : A -> bool) (term : list byte) : Prop := {
  codec_entry : forall a rest, wfA a = true -> parse (enc a ++ rest) = Ok (Some a, rest);
  codec_entry_ne : forall a, wfA a = true -> enc a <> [];
  codec_term : forall rest, parse (term ++ rest) = Ok (None, rest);
  codec_term_ne : term <> [] }.

Definition enc_all {A : Type} (enc : A -> list byte) (term : list byte) (es : list A) : list byte :=
  concat (map enc es) ++ term.

Section EncList.
  Context {A : Type} (parse : list byte -> res (option A * list byte))
          (enc : A -> list byte) (wfA : A -> bool) (term : list byte).
  Hypothesis Hc : codec parse enc wfA term.

  Notation enc_all := (enc_all enc term).

  Lemma enc_all_cons a es rest : (enc_all (a :: es)) ++ rest = enc a ++ (enc_all es ++ rest).
  Proof. unfold ListsRdProofs.enc_all. simpl. now rewrite <- !app_assoc. Qed.

  Lemma raw_next_entry a more : wfA a = true -> raw_next parse (enc a ++ more) = (Ok (Some a), more).
  Proof.
    intros Hw. rewrite raw_next_nonempty.
    - now rewrite (codec_entry _ _ _ _ Hc).
    - intros E. apply app_eq_nil in E as [E _]. exact (codec_entry_ne _ _ _ _ Hc a Hw E).
  Qed.

  Lemma raw_next_term rest : raw_next parse (enc_all [] ++ rest) = (Ok None, []).
  Proof.
    unfold ListsRdProofs.enc_all. simpl. rewrite raw_next_nonempty.
    - now rewrite (codec_term _ _ _ _ Hc).
    - intros E. apply app_eq_nil in E as [E _]. exact (codec_term_ne _ _ _ _ Hc E).
  Qed.

  Lemma enc_all_length es : forallb wfA es = true -> (length es < length (enc_all es))%nat.
  Proof.
    unfold ListsRdProofs.enc_all. induction es as [|a es IH]; intros Hw; simpl.
    - pose proof (codec_term_ne _ _ _ _ Hc). destruct term; [contradiction|simpl; lia].
    - apply andb_true_iff in Hw as [Ha Hw]. specialize (IH Hw).
      rewrite <- app_assoc, app_length. pose proof (codec_entry_ne _ _ _ _ Hc a Ha).
      destruct (enc a); [contradiction|simpl in *; lia].
  Qed.

  (* raw iteration returns exactly the encoded entries *)
  Lemma drain_raw_enc : forall es rest calls,
    forallb wfA es = true -> (length es < calls)%nat ->
    drain (raw_next parse) calls (enc_all es ++ rest) = Ok (map EvItem es).
  Proof.
    induction es as [|a es IH]; intros rest calls Hw Hc'.
    - destruct calls as [|k]; [lia|]. cbn [drain]. rewrite raw_next_term. reflexivity.
    - destruct calls as [|k]; [simpl in Hc'; lia|]. simpl in Hw. apply andb_true_iff in Hw as [Ha Hw].
      cbn [drain]. rewrite enc_all_cons, raw_next_entry by exact Ha.
      rewrite IH by (try assumption; simpl in Hc'; lia). reflexivity.
  Qed.

  Lemma drain_raw_enc' es rest :
    forallb wfA es = true ->
    drain (raw_next parse) (length (enc_all es ++ rest) + 2) (enc_all es ++ rest) = Ok (map EvItem es).
  Proof.
    intros Hw. apply drain_raw_enc; [exact Hw|].
    pose proof (enc_all_length es Hw). rewrite app_length. lia.
  Qed.

  Context {B : Type} (ent : A -> lent) (mk : N * N -> A -> B).
  Variables (dbg : bool) (c : lcfg) (x : lctx) (tbl : N -> option N).
  Hypothesis Hv : valid_asize (c_asize c) = true.
  Hypothesis Htbl : forall i,
     ctx_address c x i = match tbl i with Some a => Ok a | None => Err EUnexpectedEof end.

  Notation lnext := (list_next parse ent mk).
  Notation rgen := (resolve_gen ent mk (c_asize c) tbl).

  Lemma list_next_enc : forall es base fuel rs rest,
    forallb wfA es = true -> (length es < fuel)%nat -> rgen base es = Some rs ->
    match rs with
    | [] => exists base', lnext fuel dbg c x {| s_inp := enc_all es ++ rest; s_base := base |}
                          = (Ok None, {| s_inp := []; s_base := base' |})
    | r :: rs' => exists es' base',
         lnext fuel dbg c x {| s_inp := enc_all es ++ rest; s_base := base |}
         = (Ok (Some r), {| s_inp := enc_all es' ++ rest; s_base := base' |}) /\
         rgen base' es' = Some rs' /\ forallb wfA es' = true /\ (length es' < length es)%nat
    end.
  Proof.
    induction es as [|a es IH]; intros base fuel rs rest Hw Hf Hr.
    - simpl in Hr. inversion Hr; subst. destruct fuel as [|f]; [lia|].
      exists base. cbn [list_next s_inp s_base]. rewrite raw_next_term. reflexivity.
    - destruct fuel as [|f]; [simpl in Hf; lia|]. simpl in Hw. apply andb_true_iff in Hw as [Ha Hw].
      cbn [resolve_gen] in Hr.
      destruct (resolve1 (c_asize c) tbl base (ent a)) as [[base1 o]|] eqn:R1; [|discriminate].
      destruct (rgen base1 es) as [rs1|] eqn:R2; [|discriminate].
      cbn [list_next s_inp s_base]. rewrite enc_all_cons, raw_next_entry by exact Ha.
      rewrite (convert_raw_resolve1 dbg c x tbl base (ent a) base1 o Hv Htbl R1).
      assert (Hf' : (length es < f)%nat) by (simpl in Hf; lia).
      destruct o as [r|].
      + destruct (live (c_asize c) r).
        * inversion Hr; subst. exists es, base1. repeat split; auto.
        * inversion Hr; subst. specialize (IH base1 f rs rest Hw Hf' R2).
          destruct rs as [|r0 rs']; [exact IH|].
          destruct IH as [es' [b' [E1 [E2 [E3 E4]]]]]. exists es', b'. repeat split; auto. simpl. lia.
      + inversion Hr; subst. specialize (IH base1 f rs rest Hw Hf' R2).
        destruct rs as [|r0 rs']; [exact IH|].
        destruct IH as [es' [b' [E1 [E2 [E3 E4]]]]]. exists es', b'. repeat split; auto. simpl. lia.
  Qed.

  Lemma drain_list_enc : forall n es base rs rest calls,
    (length es < n)%nat -> forallb wfA es = true -> rgen base es = Some rs -> (length es < calls)%nat ->
    drain (fun s => lnext (next_fuel s) dbg c x s) calls {| s_inp := enc_all es ++ rest; s_base := base |}
    = Ok (map EvItem rs).
  Proof.
    induction n as [|n IH]; intros es base rs rest calls Hn Hw Hr Hc'; [lia|].
    destruct calls as [|k]; [lia|].
    assert (Hfuel : (length es < next_fuel {| s_inp := enc_all es ++ rest; s_base := base |})%nat).
    { unfold next_fuel. cbn [s_inp]. rewrite app_length. pose proof (enc_all_length es Hw). lia. }
    pose proof (list_next_enc es base _ rs rest Hw Hfuel Hr) as L.
    cbn [drain]. destruct rs as [|r rs'].
    - destruct L as [b' L]. rewrite L. reflexivity.
    - destruct L as [es' [b' [L [R' [W' Len]]]]]. rewrite L.
      rewrite (IH es' b' rs' rest k) by (try assumption; lia). reflexivity.
  Qed.

  Lemma drain_list_enc' es base rs rest :
    forallb wfA es = true -> rgen base es = Some rs ->
    drain (fun s => lnext (next_fuel s) dbg c x s) (length (enc_all es ++ rest) + 2)
          {| s_inp := enc_all es ++ rest; s_base := base |}
    = Ok (map EvItem rs).
  Proof.
    intros Hw Hr. apply (drain_list_enc (S (length es))); try assumption; try lia.
    pose proof (enc_all_length es Hw). rewrite app_length. lia.
  Qed.
End EncList.

Lemma enc_addr_ne c a : valid_asize (c_asize c) = true -> enc_addr c a <> [].
Proof.
  intros Hv E. apply (f_equal (@length byte)) in E. unfold enc_addr in E. rewrite enc_un_length in E.
  apply valid_asize_cases in Hv. simpl in E. lia.
Qed.

Lemma enc_rle_ne c e : wf_rle c e = true -> enc_rle c e <> [].
Proof. destruct e; simpl; intros H; try discriminate H; discriminate. Qed.

Lemma enc_pair_ne c e : valid_asize (c_asize c) = true -> wf_pair c e = true -> enc_pair c e <> [].
Proof.
  intros Hv. destruct e; simpl; intros H; try discriminate H; intros E; apply app_eq_nil in E as [E _];
    exact (enc_addr_ne c _ Hv E).
Qed.

Lemma enc_lle_ne c x : wf_lle c x = true -> enc_lle c x <> [].
Proof. destruct x as [e d]. destruct e; simpl; intros H; try discriminate H; try discriminate.
       rewrite andb_false_r in H. discriminate H. Qed.

Lemma enc_locpair_ne c x : valid_asize (c_asize c) = true -> wf_locpair c x = true -> enc_locpair c x <> [].
Proof.
  intros Hv. destruct x as [e d]. destruct e; simpl; intros H; try discriminate H; intros E; apply app_eq_nil in E as [E _];
    exact (enc_addr_ne c _ Hv E).
Qed.

Lemma skip_pre (pre l : list byte) : skip (N.of_nat (length pre)) (pre ++ l) = Ok l.
Proof.
  unfold skip. rewrite app_length. replace (N.of_nat (length pre + length l) <? N.of_nat (length pre)) with false by lia.
  now rewrite Nat2N.id, skipn_app_exact.
Qed.

Section Codecs.
  Variables (dbg : bool) (c : lcfg).
  Hypothesis Hv : valid_asize (c_asize c) = true.

  Notation pair_end := (enc_addr c 0 ++ enc_addr c 0).

  Lemma pair_end_ne : pair_end <> [].
  Proof. intros E. apply app_eq_nil in E as [E _]. exact (enc_addr_ne c 0 Hv E). Qed.

  (* pairs up to DWARF 4, DW_RLE opcodes from DWARF 5 on *)
  Lemma rng_codec :
    codec (rng_parse dbg c (rng_bare c)) (if rng_bare c then enc_pair c else enc_rle c) (wf_rng c)
          (if rng_bare c then pair_end else [n2b 0]).
  Proof.
    unfold wf_rng. destruct (rng_bare c); constructor.
    - intros. now apply rng_parse_pair_enc.
    - intros a. now apply enc_pair_ne.
    - intros. rewrite <- app_assoc. now apply rng_parse_pair_end.
    - exact pair_end_ne.
    - intros. now apply rng_parse_rle_enc.
    - apply enc_rle_ne.
    - apply rng_parse_rle_end.
    - discriminate.
  Qed.

  Lemma loc_codec dwo :
    codec (loc_parse dbg c (loc_bare c dwo)) (if loc_bare c dwo then enc_locpair c else enc_lle c) (wf_loc c dwo)
          (if loc_bare c dwo then pair_end else [n2b 0]).
  Proof.
    unfold wf_loc. destruct (loc_bare c dwo); constructor.
    - intros. now apply loc_parse_pair_enc.
    - intros a. now apply enc_locpair_ne.
    - intros. rewrite <- app_assoc. now apply loc_parse_pair_end.
    - exact pair_end_ne.
    - intros. now apply loc_parse_lle_enc.
    - apply enc_lle_ne.
    - apply loc_parse_lle_end.
    - discriminate.
  Qed.

  Lemma enc_rng_list_all es :
    enc_rng_list c es = enc_all (if rng_bare c then enc_pair c else enc_rle c) (if rng_bare c then pair_end else [n2b 0]) es.
  Proof. unfold enc_rng_list. destruct (rng_bare c); reflexivity. Qed.

  Lemma enc_loc_list_all dwo xs :
    enc_loc_list c dwo xs =
    enc_all (if loc_bare c dwo then enc_locpair c else enc_lle c) (if loc_bare c dwo then pair_end else [n2b 0]) xs.
  Proof. unfold enc_loc_list. destruct (loc_bare c dwo); reflexivity. Qed.
End Codecs.

Lemma addr_table_ctx c x :
  valid_asize (c_asize c) = true -> N.of_nat (length (x_addr x)) < two64 ->
  forall i,
  ctx_address c x i =
  match addr_table (c_be c) (c_asize c) (x_addr x) (x_addr_base x) i with
  | Some a => Ok a | None => Err EUnexpectedEof end.
Proof. intros Hv Hl i. unfold ctx_address. now apply get_address_spec. Qed.

Lemma raw_ranges_sel c pre l other :
  raw_ranges c (if rng_bare c then pre ++ l else other) (if rng_bare c then other else pre ++ l)
             (N.of_nat (length pre)) = Ok (l, rng_bare c).
Proof.
  unfold raw_ranges, rng_bare. destruct (c_version c <=? 4); rewrite skip_pre; reflexivity.
Qed.

Lemma raw_locations_sel c dwo pre l other :
  raw_locations c dwo (if c_version c <=? 4 then pre ++ l else other)
                (if c_version c <=? 4 then other else pre ++ l)
                (N.of_nat (length pre)) = Ok (l, loc_bare c dwo).
Proof.
  unfold raw_locations, loc_bare. destruct (c_version c <=? 4); rewrite skip_pre; reflexivity.
Qed.

Lemma raw_ranges_len c dr drl off inp bare :
  raw_ranges c dr drl off = Ok (inp, bare) -> (length inp <= Nat.max (length dr) (length drl))%nat.
Proof.
  unfold raw_ranges, skip. destruct (c_version c <=? 4);
    destruct (_ <? off); simpl; intros H; inversion H; subst; rewrite skipn_length; lia.
Qed.

Lemma raw_locations_len c dwo dl dll off inp bare :
  raw_locations c dwo dl dll off = Ok (inp, bare) -> (length inp <= Nat.max (length dl) (length dll))%nat.
Proof.
  unfold raw_locations, skip. destruct (c_version c <=? 4);
    destruct (_ <? off); simpl; intros H; inversion H; subst; rewrite skipn_length; lia.
Qed.

Lemma raw_ranges_good c dr drl off : good (raw_ranges c dr drl off).
Proof.
  unfold raw_ranges. destruct (c_version c <=? 4);
    (apply good_bind; [apply skip_good|intros; apply good_Ok]).
Qed.
Lemma raw_locations_good c dwo dl dll off : good (raw_locations c dwo dl dll off).
Proof.
  unfold raw_locations. destruct (c_version c <=? 4);
    (apply good_bind; [apply skip_good|intros; apply good_Ok]).
Qed.

Lemma raw_ranges_all_enc dbg c es pre rest other :
  valid_asize (c_asize c) = true -> forallb (wf_rng c) es = true ->
  raw_ranges_all dbg c (if rng_bare c then pre ++ enc_rng_list c es ++ rest else other)
                       (if rng_bare c then other else pre ++ enc_rng_list c es ++ rest)
                       (N.of_nat (length pre))
  = Ok (map EvItem es).
Proof.
  intros Hv Hw. unfold raw_ranges_all. rewrite raw_ranges_sel. cbn [bind]. rewrite enc_rng_list_all.
  exact (drain_raw_enc' _ _ _ _ (rng_codec dbg c Hv) es rest Hw).
Qed.

Lemma raw_locations_all_enc dbg c dwo xs pre rest other :
  valid_asize (c_asize c) = true -> forallb (wf_loc c dwo) xs = true ->
  raw_locations_all dbg c dwo (if c_version c <=? 4 then pre ++ enc_loc_list c dwo xs ++ rest else other)
                              (if c_version c <=? 4 then other else pre ++ enc_loc_list c dwo xs ++ rest)
                              (N.of_nat (length pre))
  = Ok (map EvItem xs).
Proof.
  intros Hv Hw. unfold raw_locations_all. rewrite raw_locations_sel. cbn [bind]. rewrite enc_loc_list_all.
  exact (drain_raw_enc' _ _ _ _ (loc_codec dbg c Hv dwo) xs rest Hw).
Qed.

Lemma ranges_all_enc dbg c x es pre rest other base rs :
  valid_asize (c_asize c) = true -> N.of_nat (length (x_addr x)) < two64 ->
  forallb (wf_rng c) es = true ->
  resolve_rng (c_asize c) (addr_table (c_be c) (c_asize c) (x_addr x) (x_addr_base x)) base es = Some rs ->
  ranges_all dbg c x (if rng_bare c then pre ++ enc_rng_list c es ++ rest else other)
                     (if rng_bare c then other else pre ++ enc_rng_list c es ++ rest)
                     (N.of_nat (length pre)) base
  = Ok (map EvItem rs).
Proof.
  intros Hv Hl Hw Hr. unfold ranges_all. rewrite raw_ranges_sel. cbn [bind]. rewrite enc_rng_list_all.
  rewrite resolve_rng_gen in Hr.
  exact (drain_list_enc' _ _ _ _ (rng_codec dbg c Hv) _ _ dbg c x _ Hv (addr_table_ctx c x Hv Hl) es base rs rest Hw Hr).
Qed.

Lemma locations_all_enc dbg c dwo x xs pre rest other base rs :
  valid_asize (c_asize c) = true -> N.of_nat (length (x_addr x)) < two64 ->
  forallb (wf_loc c dwo) xs = true ->
  resolve_loc (c_asize c) (addr_table (c_be c) (c_asize c) (x_addr x) (x_addr_base x)) base xs = Some rs ->
  locations_all dbg c dwo x (if c_version c <=? 4 then pre ++ enc_loc_list c dwo xs ++ rest else other)
                            (if c_version c <=? 4 then other else pre ++ enc_loc_list c dwo xs ++ rest)
                            (N.of_nat (length pre)) base
  = Ok (map EvItem rs).
Proof.
  intros Hv Hl Hw Hr. unfold locations_all. rewrite raw_locations_sel. cbn [bind]. rewrite enc_loc_list_all.
  rewrite resolve_loc_gen in Hr.
  exact (drain_list_enc' _ _ _ _ (loc_codec dbg c Hv dwo) _ _ dbg c x _ Hv (addr_table_ctx c x Hv Hl) xs base rs rest Hw Hr).
Qed.

Definition other_attr (p : aname * aval) : bool := match fst p with AtOther => true | _ => false end.

Lemma die_loop_other u : forall pre k low high size,
  forallb other_attr pre = true ->
  die_ranges_loop u (pre ++ k) low high size = die_ranges_loop u k low high size.
Proof.
  induction pre as [|[n v] pre IH]; intros k low high size H; [reflexivity|].
  simpl in H. apply andb_true_iff in H as [Hn H]. destruct n; try discriminate Hn.
  simpl. now apply IH.
Qed.

Lemma attr_address_good u v : good (attr_address u v).
Proof.
  destruct v; simpl; try apply good_Ok.
  apply good_bind; [apply get_address_good|intros; apply good_Ok].
Qed.

Lemma attr_ranges_good u v : good (attr_ranges u v).
Proof.
  unfold attr_ranges, attr_ranges_offset.
  apply good_bind.
  - destruct v; try apply good_Ok. apply good_bind; [apply get_offset_good|intros; apply good_Ok].
  - intros [off|] _; [|apply good_Ok].
    apply good_bind; [apply raw_ranges_good|]. intros [inp bare] _. apply good_Ok.
Qed.

Lemma die_ranges_loop_good u : forall attrs low high size, good (die_ranges_loop u attrs low high size).
Proof.
  induction attrs as [|[n v] attrs IH]; intros low high size.
  - simpl. destruct low as [b|]; [|apply good_Ok].
    destruct size as [m|]; [destruct (b + m <? two64); [apply good_Ok|apply good_Err]|].
    destruct high; apply good_Ok.
  - destruct n.
    + simpl. apply good_bind; [apply attr_address_good|]. intros [a|] _; [apply IH|apply good_Err].
    + assert (G : good (let* o := attr_address u v in
                        match o with Some a => die_ranges_loop u attrs low (Some a) size
                                   | None => Err EUnsupportedAttributeForm end)).
      { apply good_bind; [apply attr_address_good|]. intros [a|] _; [apply IH|apply good_Err]. }
      destruct v; try exact G. simpl. apply IH.
    + simpl. apply good_bind; [apply attr_ranges_good|]. intros [it|] _; [apply good_Ok|apply IH].
    + simpl. apply IH.
Qed.

Lemma die_ranges_good u attrs : good (die_ranges u attrs).
Proof. apply die_ranges_loop_good. Qed.

Lemma die_ranges_all_good dbg u attrs :
  valid_asize (c_asize (u_cfg u)) = true -> good (die_ranges_all dbg u attrs).
Proof.
  intros Hv. unfold die_ranges_all. apply good_bind; [apply die_ranges_good|].
  intros [[r|]|bare s] _; simpl; try apply good_Ok.
  now apply list_drain_good; [apply rng_parse_good|apply rng_parse_len|].
Qed.

(* DW_AT_high_pc of class constant: [low, low + n), or AddressOverflow when that leaves u64 *)
Lemma die_lowhigh_const u pre mid post lo n :
  forallb other_attr pre = true -> forallb other_attr mid = true -> forallb other_attr post = true ->
  die_ranges u (pre ++ (AtLowPc, AvAddr lo) :: mid ++ (AtHighPc, AvUdata n) :: post)
  = if lo + n <? two64 then Ok (RiSingle (Some (lowhigh_const lo n))) else Err EAddressOverflow.
Proof.
  intros H1 H2 H3. unfold die_ranges. rewrite die_loop_other by exact H1. simpl.
  rewrite die_loop_other by exact H2. simpl.
  rewrite <- (app_nil_r post), die_loop_other by exact H3. reflexivity.
Qed.

(* DW_AT_ranges: the list at the (possibly rebased) offset, resolved against the unit's low_pc *)
Lemma die_ranges_list dbg u pre post o :
  forallb other_attr pre = true ->
  die_ranges_all dbg u (pre ++ (AtRanges, AvRangesRef o) :: post)
  = ranges_all dbg (u_cfg u) (u_lctx u) (u_debug_ranges u) (u_debug_rnglists u)
               (if u_dwo u && (c_version (u_cfg u) <? 5) then (o + u_rnglists_base u) mod two64 else o)
               (u_low_pc u).
Proof.
  intros H1. unfold die_ranges_all, die_ranges. rewrite die_loop_other by exact H1.
  cbn [die_ranges_loop]. unfold attr_ranges, attr_ranges_offset, ranges_offset_from_raw, ranges_all, wrap64.
  cbn [bind].
  destruct (raw_ranges (u_cfg u) (u_debug_ranges u) (u_debug_rnglists u) _) as [[inp bare]|e| |]; reflexivity.
Qed.

Lemma die_ranges_listx dbg u pre post i off :
  forallb other_attr pre = true -> N.of_nat (length (u_debug_rnglists u)) < two64 ->
  offset_table (c_be (u_cfg u)) (u_fmt64 u) (u_debug_rnglists u) (u_rnglists_base u) i = Some off ->
  off < two64 ->
  die_ranges_all dbg u (pre ++ (AtRanges, AvRnglistx i) :: post)
  = ranges_all dbg (u_cfg u) (u_lctx u) (u_debug_ranges u) (u_debug_rnglists u) off (u_low_pc u).
Proof.
  intros H1 Hl Ht Ho. unfold die_ranges_all, die_ranges. rewrite die_loop_other by exact H1.
  cbn [die_ranges_loop]. unfold attr_ranges, attr_ranges_offset, ranges_all.
  rewrite get_offset_spec by exact Hl. rewrite Ht. replace (off <? two64) with true by lia. cbn [bind].
  destruct (raw_ranges (u_cfg u) (u_debug_ranges u) (u_debug_rnglists u) off) as [[inp bare]|e| |]; reflexivity.
Qed.

(* RangeLists::ranges with a caller-made Encoding { address_size: 0 }: min_tombstone shifts by 64 *)
Definition badsize_cfg : lcfg := {| c_be := false; c_asize := 0; c_version := 5 |}.
Definition badsize_sect : list byte := [n2b 4; n2b 0; n2b 1; n2b 0].
Lemma ranges_all_badsize_panics :
  ranges_all true badsize_cfg {| x_addr := []; x_addr_base := 0 |} [] badsize_sect 0 0 = Panic.
Proof. vm_compute. reflexivity. Qed.
Lemma ranges_all_badsize_release :
  ranges_all false badsize_cfg {| x_addr := []; x_addr_base := 0 |} [] badsize_sect 0 0 = Ok [EvItem (0, 1)].
Proof. vm_compute. reflexivity. Qed.

Lemma c08_no_panic_tables :
  forall be f sect asize base index,
    good (get_address be sect asize base index) /\ good (get_offset be f sect base index) /\
    good (get_str_offset be f sect base index).
Proof.
  intros. split; [apply get_address_good|split; [apply get_offset_good|apply get_str_offset_good]].
Qed.
