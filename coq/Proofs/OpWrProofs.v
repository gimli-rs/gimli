(* Proofs/OpWrProofs.v — lemmas about Model/OpWr.v (write::Expression) and Spec/OpEncSpec.v for C15. *)
From Coq Require Import List NArith ZArith Bool Lia ZifyBool ZifyN ZifyNat.
From Coq.Strings Require Import Byte.
Require Import GV.Base.Res GV.Base.Byt GV.Base.Ints GV.Spec.LebSpec GV.Model.Leb GV.Model.Prim.
Require Import GV.Spec.OpEncSpec GV.Model.OpWr GV.Proofs.LebProofs GV.Proofs.PrimProofs.
Import ListNotations.
Local Open Scope N_scope.

(* ================= induction over nested expressions ================= *)

Section WopInd.
  Variable P : wop -> Prop.
  Hypothesis Hleaf : forall o, (forall ex, o <> WoEntryValue ex) -> P o.
  Hypothesis Hnest : forall ex, Forall P ex -> P (WoEntryValue ex).

  Fixpoint wop_nested_ind (o : wop) : P o :=
    match o as o0 return P o0 with
    | WoEntryValue ex =>
        Hnest ex ((fix go (l : list wop) : Forall P l :=
                     match l with
                     | [] => Forall_nil P
                     | x :: r => Forall_cons x (wop_nested_ind x) (go r)
                     end) ex)
    | o' => Hleaf o' ltac:(intros ex H; discriminate H)
    end.
End WopInd.

(* ================= small facts ================= *)

Lemma blen_app a b : blen (a ++ b) = blen a + blen b.
Proof. unfold blen. rewrite app_length. lia. Qed.
Lemma blen_cons x a : blen (x :: a) = 1 + blen a.
Proof. unfold blen. cbn [length]. lia. Qed.
Lemma blen_nil : blen [] = 0.
Proof. reflexivity. Qed.

Lemma uadd_ok dbg a b : a + b < 2 ^ 64 -> uadd dbg a b = Ok (a + b).
Proof. apply chk_add_ok. Qed.

Lemma uadd_inv dbg a b c : uadd dbg a b = Ok c -> c = a + b \/ (dbg = false /\ 2 ^ 64 <= a + b /\ c = wrapN 64 (a + b)).
Proof.
  unfold uadd, chk_add. destruct (a + b <? 2 ^ 64) eqn:E.
  - intros H; inversion H; auto.
  - destruct dbg; [discriminate|]. intros H; inversion H. right. repeat split; lia.
Qed.

(* ================= LEB128 writers: emitted length = predicted size ================= *)

Lemma write_uleb128_len v bs : write_uleb128 v = Ok bs -> blen bs = uleb128_size v.
Proof. intros H. symmetry. apply (write_uleb128_ok v bs H). Qed.

Lemma write_sleb128_len v bs : write_sleb128 v = Ok bs -> blen bs = sleb128_size v.
Proof. intros H. symmetry. apply (write_sleb128_ok v bs H). Qed.


(* ================= fixed-width writers ================= *)

Lemma write_udata_len be v size bs : write_udata be v size = Ok bs -> blen bs = size.
Proof.
  unfold write_udata, blen.
  repeat match goal with |- context [if ?c then _ else _] => destruct c eqn:? end;
    intros H; inversion H; rewrite enc_un_length; lia.
Qed.

Lemma write_sdata_len be v size bs : write_sdata be v size = Ok bs -> blen bs = size.
Proof.
  unfold write_sdata, blen.
  repeat match goal with |- context [if ?c then _ else _] => destruct c eqn:? end;
    intros H; inversion H; rewrite enc_un_length; lia.
Qed.

(* ================= Operation::size agrees with Operation::write ================= *)

Lemma entry_offset_base_size dbg uo b off :
  entry_offset dbg uo b = Ok off -> base_size dbg uo b = Ok (uleb128_size off).
Proof.
  unfold entry_offset, base_size. destruct uo as [offs|]; [|discriminate].
  destruct (unit_offset dbg offs b) as [[v|]| | |]; cbn [bind]; try discriminate.
  intros H; inversion H; reflexivity.
Qed.

Lemma write_ref_len be refs r size at_ b fx : write_ref be refs r size at_ = Ok (b, fx) -> blen b = size.
Proof.
  unfold write_ref. destruct r as [s|u en]; [discriminate|]. destruct refs; [|discriminate].
  intros H. apply bind_ok in H. destruct H as [z [Hz H]]. inversion H; subst.
  eapply write_udata_len; eauto.
Qed.

Lemma write_address_len be a size bs : write_address be a size = Ok bs -> blen bs = size.
Proof. destruct a; cbn [write_address]; [apply write_udata_len|discriminate]. Qed.

Lemma branch_operand_len dbg be offsets t after bs : branch_operand dbg be offsets t after = Ok bs -> blen bs = 2.
Proof.
  unfold branch_operand. destruct (nth_N offsets t); [|discriminate].
  intros H. apply bind_ok in H. destruct H as [b [_ H]].
  apply bind_ok in H. destruct H as [d [_ H]]. eapply write_sdata_len; eauto.
Qed.

Ltac inv_all :=
  repeat match goal with
  | H : bind _ _ = Ok _ |- _ =>
      let a := fresh "a" in let Ha := fresh "Ha" in
      apply bind_ok in H; destruct H as [a [Ha H]]
  | H : (let (_, _) := ?p in _) = Ok _ |- _ => destruct p
  | H : only _ = Ok _ |- _ => unfold only in H
  | H : Ok _ = Ok _ |- _ => inversion H; subst; clear H
  | H : (if ?c then _ else _) = Ok _ |- _ => destruct c eqn:?
  | H : match ?b with Some _ => _ | None => _ end = Ok _ |- _ => destruct b
  | H : Err _ = Ok _ |- _ => discriminate H
  | H : Panic = Ok _ |- _ => discriminate H
  end.

Ltac len_facts :=
  repeat match goal with
  | H : write_uleb128 _ = Ok _ |- _ => apply write_uleb128_len in H
  | H : write_sleb128 _ = Ok _ |- _ => apply write_sleb128_len in H
  | H : write_udata _ _ _ = Ok _ |- _ => apply write_udata_len in H
  | H : write_sdata _ _ _ = Ok _ |- _ => apply write_sdata_len in H
  | H : write_ref _ _ _ _ _ = Ok _ |- _ => apply write_ref_len in H
  | H : write_address _ _ _ = Ok _ |- _ => apply write_address_len in H
  | H : branch_operand _ _ _ _ _ = Ok _ |- _ => apply branch_operand_len in H
  end.

Lemma chk_add8_len dbg a b c : chk_add 8 dbg a b = Ok c -> True.
Proof. trivial. Qed.

(* the non-nested operations *)
Lemma op_size_write_leaf dbg e uo refs offs pos o bs fx :
  (forall ex, o <> WoEntryValue ex) ->
  write_op dbg e uo refs offs pos o = Ok (bs, fx) ->
  blen bs < 2 ^ 64 ->
  size_op dbg e uo o = Ok (blen bs).
Proof.
  intros Hne H Hlt.
  destruct o; try (exfalso; eapply Hne; reflexivity); cbn [write_op] in H; cbn [size_op].
  all: inv_all.
  all: repeat match goal with Hx : entry_offset _ _ _ = Ok _ |- _ => rewrite (entry_offset_base_size _ _ _ _ Hx); clear Hx end.
  all: cbn [bind].
  all: len_facts.
  all: rewrite ?blen_cons, ?blen_app, ?blen_cons, ?blen_app, ?blen_cons, ?blen_nil in *.
  all: repeat match goal with |- context [if ?c then _ else _] => destruct c eqn:? end.
  all: cbn [bind].
  all: repeat (rewrite uadd_ok by lia; cbn [bind]).
  all: try solve [f_equal; lia].
Qed.

(* unfolding equations of the three loops *)
Lemma sum_sizes_nil dbg szf acc : sum_sizes dbg szf acc [] = Ok acc.
Proof. reflexivity. Qed.
Lemma sum_sizes_cons dbg szf acc o r :
  sum_sizes dbg szf acc (o :: r) = (let* s := szf o in let* acc' := uadd dbg acc s in sum_sizes dbg szf acc' r).
Proof. reflexivity. Qed.
Lemma calc_offsets_nil dbg szf off : calc_offsets dbg szf off [] = Ok ([], off).
Proof. reflexivity. Qed.
Lemma calc_offsets_cons dbg szf off o r :
  calc_offsets dbg szf off (o :: r) =
  (let* s := szf o in let* off' := uadd dbg off s in
   let* (t, fin) := calc_offsets dbg szf off' r in Ok (off :: t, fin)).
Proof. reflexivity. Qed.
Lemma write_loop_nil dbg wr pos offs : write_loop dbg wr pos [] offs = Ok ([], []).
Proof. reflexivity. Qed.
Lemma write_loop_cons dbg wr pos o r offs :
  write_loop dbg wr pos (o :: r) offs =
  match offs with
  | [] => Panic
  | off :: offs' =>
      if dbg && negb (pos =? off) then Panic else
      let* (bs, fx) := wr pos o in
      let* (bs', fx') := write_loop dbg wr (pos + blen bs) r offs' in
      Ok (bs ++ bs', fx ++ fx')
  end.
Proof. reflexivity. Qed.

(* if every operation's size is its emitted length, the sum of sizes is the emitted length of the loop *)
Lemma write_loop_sizes dbg (wr : N -> wop -> wres) (szf : wop -> res N) :
  forall ex pos offs bs fx,
  Forall (fun o => forall pos bs fx, wr pos o = Ok (bs, fx) -> blen bs < 2 ^ 64 -> szf o = Ok (blen bs)) ex ->
  write_loop dbg wr pos ex offs = Ok (bs, fx) ->
  forall acc, acc + blen bs < 2 ^ 64 ->
  sum_sizes dbg szf acc ex = Ok (acc + blen bs).
Proof.
  induction ex as [|o r IH]; intros pos offs bs fx HF H acc Hacc.
  - rewrite write_loop_nil in H. inversion H; subst. rewrite sum_sizes_nil, blen_nil. f_equal. lia.
  - rewrite write_loop_cons in H. destruct offs as [|off offs']; [discriminate|].
    destruct (dbg && negb (pos =? off)); [discriminate|].
    apply bind_ok in H. destruct H as [[b1 f1] [H1 H]].
    apply bind_ok in H. destruct H as [[b2 f2] [H2 H]]. inversion H; subst. clear H.
    rewrite blen_app in Hacc.
    inversion HF as [|? ? Ho Hr]; subst.
    rewrite sum_sizes_cons. rewrite (Ho _ _ _ H1) by lia. cbn [bind].
    rewrite uadd_ok by lia. cbn [bind].
    rewrite (IH _ _ _ _ Hr H2) by lia. f_equal. rewrite blen_app. lia.
Qed.

Lemma write_expr_with_sizes dbg (wr : list N -> N -> wop -> wres) (szf : wop -> res N) base ex bs fx :
  Forall (fun o => forall offs pos bs fx, wr offs pos o = Ok (bs, fx) -> blen bs < 2 ^ 64 -> szf o = Ok (blen bs)) ex ->
  write_expr_with wr szf dbg base ex = Ok (bs, fx) ->
  blen bs < 2 ^ 64 ->
  sum_sizes dbg szf 0 ex = Ok (blen bs).
Proof.
  intros HF H Hlt. unfold write_expr_with in H.
  apply bind_ok in H. destruct H as [[offs fin] [_ H]].
  apply bind_ok in H. destruct H as [[b f] [H2 H]].
  destruct (dbg && negb (base + blen b =? fin)); [discriminate|]. inversion H; subst. clear H.
  replace (blen bs) with (0 + blen bs) by lia.
  eapply write_loop_sizes; [|exact H2|lia].
  eapply Forall_impl; [|exact HF]. intros o Ho pos b1 f1. apply Ho.
Qed.

(* (1) the two parallel switches agree, for every Operation variant *)
Theorem op_size_write_all dbg e uo refs : forall o offs pos bs fx,
  write_op dbg e uo refs offs pos o = Ok (bs, fx) ->
  blen bs < 2 ^ 64 ->
  size_op dbg e uo o = Ok (blen bs).
Proof.
  induction o as [o Hleaf|ex IH] using wop_nested_ind; intros offs pos bs fx H Hlt.
  - eapply op_size_write_leaf; eauto.
  - cbn [write_op] in H.
    apply bind_ok in H. destruct H as [len [Hlen H]].
    apply bind_ok in H. destruct H as [lb [Hlb H]].
    apply bind_ok in H. destruct H as [[b f] [Hw H]]. inversion H; subst. clear H.
    rewrite blen_cons, blen_app in Hlt.
    assert (Hsz : sum_sizes dbg (size_op dbg e uo) 0 ex = Ok (blen b)).
    { eapply write_expr_with_sizes; [|exact Hw|lia].
      eapply Forall_impl; [|exact IH]. intros o Ho offs' pos' b1 f1. apply Ho. }
    rewrite Hsz in Hlen. inversion Hlen; subst len.
    apply write_uleb128_len in Hlb.
    cbn [size_op]. rewrite Hsz. cbn [bind].
    rewrite uadd_ok by lia. cbn [bind]. rewrite uadd_ok by lia.
    f_equal. rewrite blen_cons, blen_app. lia.
Qed.

(* (2) Expression::size = number of bytes Expression::write emits *)
Theorem expr_size_write dbg e uo refs base ex bs fx :
  write_expr dbg e uo refs base ex = Ok (bs, fx) ->
  blen bs < 2 ^ 64 ->
  size_expr dbg e uo ex = Ok (blen bs).
Proof.
  intros H Hlt. unfold size_expr. eapply write_expr_with_sizes; [|exact H|exact Hlt].
  apply Forall_forall. intros o _ offs pos b f. apply op_size_write_all.
Qed.

(* An expression embedded behind a length prefix p = W (size): the prefix encodes the length of what follows.
   (unit.rs Exprloc, loc.rs write_expression, cfi.rs *Expression differ in W and in the arguments of write.) *)
Lemma prefixed_expr_inv dbg e uo refs (W : N -> res (list byte)) base ex bs fx :
  (let* size := size_expr dbg e uo ex in
   let* p := W size in
   let* (b, f) := write_expr dbg e uo refs (base + blen p) ex in Ok (p ++ b, f)) = Ok (bs, fx) ->
  blen bs < 2 ^ 64 ->
  exists p body, bs = p ++ body /\ write_expr dbg e uo refs (base + blen p) ex = Ok (body, fx) /\
                 W (blen body) = Ok p /\ size_expr dbg e uo ex = Ok (blen body).
Proof.
  intros H Hlt. apply bind_ok in H as (size & Hs & H). apply bind_ok in H as (p & Hp & H).
  apply bind_ok in H as ([body f] & Hw & H). injection H as <- <-. rewrite blen_app in Hlt.
  rewrite (expr_size_write _ _ _ _ _ _ _ _ Hw) in Hs by lia. injection Hs as <-.
  exists p, body. repeat split; try assumption. apply (expr_size_write _ _ _ _ _ _ _ _ Hw). lia.
Qed.

(* ================= layout: the offsets vector is the list of real start positions ================= *)

(* `laid wr pos ex offsets bs fx`: the operations of ex were written one after the other starting at pos;
   offsets lists the position at which each one started, then the end position. *)
Inductive laid (wr : N -> wop -> wres) : N -> list wop -> list N -> list byte -> list fixup -> Prop :=
| laid_nil pos : laid wr pos [] [pos] [] []
| laid_cons pos o r offs b f bs fx :
    wr pos o = Ok (b, f) ->
    laid wr (pos + blen b) r offs bs fx ->
    laid wr pos (o :: r) (pos :: offs) (b ++ bs) (f ++ fx).

Lemma calc_write_laid dbg (wr : N -> wop -> wres) (szf : wop -> res N) :
  forall ex pos offs fin bs fx,
  Forall (fun o => forall pos b f, wr pos o = Ok (b, f) -> blen b < 2 ^ 64 -> szf o = Ok (blen b)) ex ->
  calc_offsets dbg szf pos ex = Ok (offs, fin) ->
  write_loop dbg wr pos ex (offs ++ [fin]) = Ok (bs, fx) ->
  pos + blen bs < 2 ^ 64 ->
  laid wr pos ex (offs ++ [fin]) bs fx /\ fin = pos + blen bs.
Proof.
  induction ex as [|o r IH]; intros pos offs fin bs fx HF Hc Hw Hlt.
  - rewrite calc_offsets_nil in Hc. inversion Hc; subst. rewrite write_loop_nil in Hw. inversion Hw; subst.
    split; [constructor|rewrite blen_nil; lia].
  - rewrite calc_offsets_cons in Hc.
    apply bind_ok in Hc. destruct Hc as [s [Hs Hc]].
    apply bind_ok in Hc. destruct Hc as [off' [Hoff Hc]].
    apply bind_ok in Hc. destruct Hc as [[t fin'] [Ht Hc]]. inversion Hc; subst. clear Hc.
    cbn [app] in Hw. rewrite write_loop_cons in Hw.
    destruct (dbg && negb (pos =? pos)); [discriminate|].
    apply bind_ok in Hw. destruct Hw as [[b1 f1] [H1 Hw]].
    apply bind_ok in Hw. destruct Hw as [[b2 f2] [H2 Hw]]. inversion Hw; subst. clear Hw.
    rewrite blen_app in Hlt.
    inversion HF as [|? ? Ho Hr]; subst.
    rewrite (Ho _ _ _ H1) in Hs by lia. inversion Hs; subst s.
    rewrite uadd_ok in Hoff by lia. inversion Hoff; subst off'.
    destruct (IH _ _ _ _ _ Hr Ht H2) as [Hl Hf]; [lia|].
    split; [|rewrite blen_app; lia].
    cbn [app]. econstructor; eauto.
Qed.

Theorem write_expr_laid dbg e uo refs base ex bs fx :
  write_expr dbg e uo refs base ex = Ok (bs, fx) ->
  base + blen bs < 2 ^ 64 ->
  exists offsets,
    expr_offsets dbg e uo base ex = Ok offsets /\
    laid (write_op dbg e uo refs offsets) base ex offsets bs fx.
Proof.
  intros H Hlt. unfold write_expr, write_expr_with in H.
  apply bind_ok in H. destruct H as [[offs fin] [Hc H]].
  apply bind_ok in H. destruct H as [[b f] [Hw H]].
  destruct (dbg && negb (base + blen b =? fin)); [discriminate|]. inversion H; subst. clear H.
  exists (offs ++ [fin]). split.
  - unfold expr_offsets. rewrite Hc. reflexivity.
  - eapply calc_write_laid; eauto.
    apply Forall_forall. intros o _ pos b1 f1 H1 Hb. eapply op_size_write_all; eauto.
Qed.

(* facts about a layout *)
Lemma laid_length wr pos ex offs bs fx : laid wr pos ex offs bs fx -> length offs = S (length ex).
Proof. induction 1; cbn [length]; auto. Qed.

Lemma laid_end wr pos ex offs bs fx : laid wr pos ex offs bs fx -> last offs 0 = pos + blen bs.
Proof.
  induction 1.
  - cbn [last]. rewrite blen_nil. lia.
  - assert (Hne : offs <> []) by (apply laid_length in H0; destruct offs; [discriminate|congruence]).
    destruct offs as [|x xs]; [congruence|]. cbn [last] in *. rewrite IHlaid, blen_app. lia.
Qed.

(* the k-th operation: where it starts, what it emitted, and that the first k operations emitted exactly the
   bytes before it *)
Lemma laid_split wr : forall ex pos offs bs fx, laid wr pos ex offs bs fx ->
  forall k, (k <= length ex)%nat ->
  exists pre post fpre fpost,
    bs = pre ++ post /\ fx = fpre ++ fpost /\
    nth_error offs k = Some (pos + blen pre) /\
    laid wr pos (firstn k ex) (firstn k offs ++ [pos + blen pre]) pre fpre /\
    laid wr (pos + blen pre) (skipn k ex) (skipn k offs) post fpost.
Proof.
  induction 1 as [pos|pos o r offs b f bs fx Ho Hl IH]; intros k Hk.
  - cbn [length] in Hk. assert (k = 0)%nat by lia. subst k.
    exists [], [], [], []. cbn [firstn skipn app nth_error]. rewrite blen_nil, N.add_0_r.
    split; [reflexivity|]. split; [reflexivity|]. split; [reflexivity|]. split; constructor.
  - destruct k as [|k].
    + exists [], (b ++ bs), [], (f ++ fx). cbn [firstn skipn app nth_error]. rewrite blen_nil, N.add_0_r.
      split; [reflexivity|]. split; [reflexivity|]. split; [reflexivity|].
      split; [constructor|econstructor; eauto].
    + cbn [length] in Hk. destruct (IH k) as [pre [post [fpre [fpost [E1 [E2 [E3 [E4 E5]]]]]]]]; [lia|].
      exists (b ++ pre), post, (f ++ fpre), fpost.
      cbn [firstn skipn nth_error]. rewrite blen_app, N.add_assoc.
      repeat split.
      * rewrite E1. rewrite app_assoc. reflexivity.
      * rewrite E2. rewrite app_assoc. reflexivity.
      * exact E3.
      * cbn [app]. econstructor; eauto.
      * exact E5.
Qed.

(* ================= branches ================= *)



Lemma write_sdata_2 be d :
  write_sdata be d 2 = if in_signed 16 d then Ok (enc_un 2 be (of_signed 16 d)) else Err WValueTooLarge.
Proof. reflexivity. Qed.

(* exact behaviour of the displacement computation when positions are below 2^63 *)
Lemma branch_operand_spec dbg be offsets t after :
  after + 2 < 2 ^ 63 ->
  (forall tv, nth_N offsets t = Some tv -> tv < 2 ^ 63) ->
  branch_operand dbg be offsets t after =
  match nth_N offsets t with
  | None => Panic
  | Some tv =>
      let d := (Z.of_N tv - (Z.of_N after + 2))%Z in
      if in_signed 16 d then Ok (enc_un 2 be (of_signed 16 d)) else Err WValueTooLarge
  end.
Proof.
  intros Ha Ht. unfold branch_operand. destruct (nth_N offsets t) as [tv|]; [|reflexivity].
  specialize (Ht tv eq_refl).
  rewrite (to_i64_small after) by lia. rewrite (to_i64_small tv) by lia.
  assert (H63 : Z.of_N (2 ^ 63) = (2 ^ 63)%Z) by reflexivity.
  rewrite chk_s_ok by lia. cbn [bind]. rewrite chk_s_ok by lia. cbn [bind].
  apply write_sdata_2.
Qed.

(* ================= decode direction: the table's operand readers invert the writer's primitives ================= *)

(* The operand readers of Spec/OpEncSpec.v are the primitives of the reader model made partial (takeb and val_le
   have the bodies of Prim.take and Prim.le_val, so conversion identifies them), and the writer's primitives are
   read back by those. *)
Definition opt {A} (r : res A) : option A := match r with Ok a => Some a | _ => None end.

Lemma opt_some {A} (r : res A) a : opt r = Some a -> r = Ok a.
Proof. destruct r; cbn [opt]; intros H; inversion H; reflexivity. Qed.

Lemma rd_fixed_eq be n bs : rd_fixed be n bs = opt (read_un n be bs).
Proof.
  unfold rd_fixed, read_un, read_bytes. change (takeb n bs) with (take n bs).
  destruct (take n bs) as [[h t]|]; [|reflexivity]. destruct be; reflexivity.
Qed.

Lemma rd_signed_eq be n bs : rd_signed be n bs = opt (read_in n be bs).
Proof.
  unfold rd_signed. rewrite rd_fixed_eq, read_in_exact, read_un_exact.
  destruct (length bs <? n)%nat; reflexivity.
Qed.

Lemma rd_sized_eq be s bs : rd_sized be s bs = opt (read_address s be bs).
Proof.
  unfold rd_sized, size_nat, read_address.
  repeat match goal with |- context [if ?c then _ else _] => destruct c end; try apply rd_fixed_eq; reflexivity.
Qed.

Lemma rd_uleb_eq dbg bs : rd_uleb bs = opt (read_uleb128 dbg bs).
Proof.
  rewrite read_uleb128_exact. unfold rd_uleb, uleb_spec. destruct (split_leb bs) as [[e r]|].
  - destruct ((length e <=? 10)%nat && (uval e <? 2 ^ 64)); reflexivity.
  - destruct (10 <=? length bs)%nat; reflexivity.
Qed.

Lemma rd_sleb_eq dbg bs : rd_sleb bs = opt (read_sleb128 dbg bs).
Proof.
  rewrite read_sleb128_exact. unfold rd_sleb, sleb_spec, in_i64. destruct (split_leb bs) as [[e r]|].
  - rewrite <- andb_assoc. destruct ((length e <=? 10)%nat && _); reflexivity.
  - destruct (10 <=? length bs)%nat; reflexivity.
Qed.

Lemma rd_uleb_written v bs rest :
  write_uleb128 v = Ok bs -> v < 2 ^ 64 -> rd_uleb (bs ++ rest) = Some (v, rest).
Proof.
  intros H Hv. destruct (write_uleb128_ok v bs H) as (_ & _ & U & L & Sp).
  unfold rd_uleb. rewrite Sp, U. destruct ((length bs <=? 10)%nat && (v <? 2 ^ 64)) eqn:C; [reflexivity|lia].
Qed.

Lemma rd_sleb_written v bs rest :
  write_sleb128 v = Ok bs -> in_i64 v = true -> rd_sleb (bs ++ rest) = Some (v, rest).
Proof.
  intros H Hv. destruct (write_sleb128_ok v bs H) as (_ & _ & U & L & Sp). unfold in_i64 in Hv.
  unfold rd_sleb. rewrite Sp, U.
  destruct ((length bs <=? 10)%nat && (- 2 ^ 63 <=? v)%Z && (v <? 2 ^ 63)%Z) eqn:C; [reflexivity|lia].
Qed.

Lemma size_nat_spec s n : size_nat s = Some n -> s = N.of_nat n /\ (n = 1 \/ n = 2 \/ n = 4 \/ n = 8)%nat.
Proof.
  unfold size_nat. repeat match goal with |- context [if ?c then _ else _] => destruct c eqn:? end;
    intros H; inversion H; subst; split; lia.
Qed.

(* write_udata is inverted by the sized reader, and by the fixed reader of that width *)
Lemma rd_sized_written be v size bs rest :
  v < 2 ^ 64 ->
  write_udata be v size = Ok bs -> rd_sized be size (bs ++ rest) = Some (v, rest).
Proof.
  intros Hv H. destruct (write_udata_ok be v size bs Hv H) as (_ & _ & _ & _ & R).
  rewrite rd_sized_eq. destruct (R rest) as (_ & -> & _). reflexivity.
Qed.

Lemma rd_fixed_written be v (n : nat) bs rest :
  v < 2 ^ 64 ->
  write_udata be v (N.of_nat n) = Ok bs -> rd_fixed be n (bs ++ rest) = Some (v, rest).
Proof.
  intros Hv H. destruct (write_udata_ok be v _ bs Hv H) as (_ & _ & _ & _ & R).
  rewrite rd_fixed_eq. destruct (R rest) as (E & _). rewrite Nat2N.id in E. rewrite E. reflexivity.
Qed.

(* ---- each operand kind reads back what the writer's primitive emitted ---- *)
Definition dcfg_of (e : enc) : dcfg :=
  {| d_version := e_version e; d_fmt64 := e_fmt64 e; d_asize := e_asize e; d_be := e_be e |}.

(* `b` is an encoding of the operand `a` of kind `k`: the table reads it off the front of anything *)
Definition reads (c : dcfg) (k : okind) (a : oarg) (b : list byte) : Prop :=
  forall rest, rd_kind c k (b ++ rest) = Some (a, rest).

Lemma rdk_uleb c v bs : write_uleb128 v = Ok bs -> v < 2 ^ 64 -> reads c K_uleb (AU v) bs.
Proof. intros H Hv rest. cbn [rd_kind]. rewrite (rd_uleb_written _ _ rest H Hv). reflexivity. Qed.

Lemma rdk_sleb c v bs : write_sleb128 v = Ok bs -> in_i64 v = true -> reads c K_sleb (AS v) bs.
Proof. intros H Hv rest. cbn [rd_kind]. rewrite (rd_sleb_written _ _ rest H Hv). reflexivity. Qed.

Lemma rd_fixed_1 be v rest : v < 256 -> rd_fixed be 1 (n2b v :: rest) = Some (v, rest).
Proof.
  intros Hv. unfold rd_fixed. cbn [takeb]. unfold val_of. cbn [rev app val_le].
  rewrite b2n_n2b_small by exact Hv. destruct be; f_equal; f_equal; lia.
Qed.

Lemma rdk_u8 c v : v < 256 -> reads c K_u8 (AU v) [n2b v].
Proof. intros Hv rest. cbn [rd_kind app]. rewrite rd_fixed_1 by exact Hv. reflexivity. Qed.

(* the i16 operand of skip/bra *)
Lemma rdk_i16 c d : in_signed 16 d = true -> reads c K_i16 (AS d) (enc_un 2 (d_be c) (of_signed 16 d)).
Proof.
  intros Hd rest. cbn [rd_kind]. rewrite rd_signed_eq, read_in_app by apply enc_un_length.
  destruct (signed_roundtrip 16 d ltac:(lia) Hd) as [Hlt Hrt].
  rewrite val_sum_enc_un, N.mod_small by exact Hlt. cbn [opt]. change (8 * N.of_nat 2) with 16. rewrite Hrt. reflexivity.
Qed.

Lemma rdk_u32 c v bs : v < 2 ^ 64 -> write_udata (d_be c) v 4 = Ok bs -> reads c K_u32 (AU v) bs.
Proof. intros Hv H rest. cbn [rd_kind]. rewrite (rd_fixed_written (d_be c) v 4 bs rest Hv H). reflexivity. Qed.

Lemma rdk_addr c v bs : v < 2 ^ 64 -> write_udata (d_be c) v (d_asize c) = Ok bs -> reads c K_addr (AU v) bs.
Proof. intros Hv H rest. cbn [rd_kind]. rewrite (rd_sized_written _ _ _ _ rest Hv H). reflexivity. Qed.

Lemma rdk_off c v bs :
  v < 2 ^ 64 -> write_udata (d_be c) v (word_size (d_fmt64 c)) = Ok bs -> reads c K_off (AU v) bs.
Proof.
  intros Hv H rest. cbn [rd_kind]. unfold word_size in H.
  destruct (d_fmt64 c); [rewrite (rd_fixed_written (d_be c) v 8 bs rest Hv H)
                        |rewrite (rd_fixed_written (d_be c) v 4 bs rest Hv H)]; reflexivity.
Qed.

Lemma rdk_ref e v bs :
  v < 2 ^ 64 -> write_udata (e_be e) v (iptr_size e) = Ok bs -> reads (dcfg_of e) K_ref (AU v) bs.
Proof.
  intros Hv H rest. unfold iptr_size in H. pose proof (rdk_addr (dcfg_of e) v bs Hv) as A.
  pose proof (rdk_off (dcfg_of e) v bs Hv) as O. cbn [rd_kind dcfg_of d_version d_asize d_be d_fmt64] in *.
  destruct (e_version e =? 2); [apply A|apply O]; exact H.
Qed.

Lemma rd_block_app data rest : rd_block (blen data) (data ++ rest) = Some (data, rest).
Proof.
  unfold rd_block, blen. rewrite app_length.
  destruct (N.of_nat (length data + length rest) <? N.of_nat (length data)) eqn:E; [lia|].
  rewrite Nat2N.id. change takeb with take. apply take_app. reflexivity.
Qed.

Lemma rdk_blk_uleb c data lb :
  write_uleb128 (blen data) = Ok lb -> blen data < 2 ^ 64 -> reads c K_blk_uleb (AB data) (lb ++ data).
Proof.
  intros H Hv rest. cbn [rd_kind]. rewrite <- app_assoc, (rd_uleb_written _ _ (data ++ rest) H Hv), rd_block_app. reflexivity.
Qed.

Lemma rdk_blk_u8 c data l :
  write_udata (d_be c) (blen data) 1 = Ok l -> reads c K_blk_u8 (AB data) (l ++ data).
Proof.
  intros H rest. cbn [rd_kind]. rewrite <- app_assoc.
  assert (Hlt : blen data < 2 ^ 64).
  { unfold write_udata in H. change (1 =? 1) with true in H. cbv iota in H.
    destruct (blen data <? 256) eqn:E; [lia|discriminate]. }
  rewrite (rd_fixed_written (d_be c) (blen data) 1 l (data ++ rest) Hlt H), rd_block_app. reflexivity.
Qed.

(* ---- one table look-up: opcode K, then operands that read back ---- *)
Lemma decode_one_step c K ks body args rest d :
  K < 256 -> K <> 237 -> layout K = Some ks ->
  rd_kinds c ks body = Some (args, rest) -> meaning c K args = Some d ->
  decode_one c (n2b K :: body) = Some (d, rest).
Proof.
  intros HK H237 HL HR HM. unfold decode_one. rewrite b2n_n2b_small by exact HK.
  destruct (K =? 237) eqn:E; [lia|]. rewrite HL, HR, HM. reflexivity.
Qed.

Lemma decode_op0 c K d :
  K < 256 -> K <> 237 -> layout K = Some [] -> meaning c K [] = Some d ->
  forall rest, decode_one c ([n2b K] ++ rest) = Some (d, rest).
Proof. intros HK H237 HL HM rest. cbn [app]. apply (decode_one_step c K [] rest []); trivial. Qed.

Lemma decode_op1 c K k a d b :
  K < 256 -> K <> 237 -> layout K = Some [k] -> meaning c K [a] = Some d -> reads c k a b ->
  forall rest, decode_one c ((n2b K :: b) ++ rest) = Some (d, rest).
Proof.
  intros HK H237 HL HM R rest. cbn [app]. apply (decode_one_step c K [k] _ [a]); trivial.
  cbn [rd_kinds]. rewrite R. reflexivity.
Qed.

Lemma decode_op2 c K k1 k2 a1 a2 d b1 b2 :
  K < 256 -> K <> 237 -> layout K = Some [k1; k2] -> meaning c K [a1; a2] = Some d ->
  reads c k1 a1 b1 -> reads c k2 a2 b2 ->
  forall rest, decode_one c ((n2b K :: b1 ++ b2) ++ rest) = Some (d, rest).
Proof.
  intros HK H237 HL HM R1 R2 rest. cbn [app]. apply (decode_one_step c K [k1; k2] _ [a1; a2]); trivial.
  cbn [rd_kinds]. rewrite <- app_assoc, R1, R2. reflexivity.
Qed.

(* the literal / register ranges of the table *)
Lemma layout_48_111 k : 48 <= k <= 111 -> layout k = Some [].
Proof.
  intros Hk. unfold layout.
  repeat match goal with |- context [if ?c then _ else _] => destruct c eqn:?; try lia; try reflexivity end.
Qed.
Lemma layout_112_143 k : 112 <= k <= 143 -> layout k = Some [K_sleb].
Proof.
  intros Hk. unfold layout.
  repeat match goal with |- context [if ?c then _ else _] => destruct c eqn:?; try lia; try reflexivity end.
Qed.
Lemma meaning_lit c v : v < 32 -> meaning c (48 + v) [] = Some (DoUConst v).
Proof.
  intros Hv. unfold meaning.
  repeat match goal with |- context [if ?c then _ else _] => destruct c eqn:?; try lia end.
  f_equal. f_equal. lia.
Qed.
Lemma meaning_reg c v : v < 32 -> meaning c (80 + v) [] = Some (DoRegister v).
Proof.
  intros Hv. unfold meaning.
  repeat match goal with |- context [if ?c then _ else _] => destruct c eqn:?; try lia end.
  f_equal. f_equal. lia.
Qed.
Lemma meaning_breg c v off : v < 32 -> meaning c (112 + v) [AS off] = Some (DoRegOffset v off 0).
Proof.
  intros Hv. unfold meaning.
  repeat match goal with |- context [if ?c then _ else _] => destruct c eqn:?; try lia end.
  f_equal. f_equal. lia.
Qed.
