(* Proofs/ConvertAttrProofs.v — C12 ∘ C11, simple attribute values: what convert_attribute_value returns is
   written (Model/UnitWr.v av_write) as bytes that the form decoder of C11 (Spec/UnitWrSpec.v form_decode,
   theorem form_size_write_decodes) reads back as the data of the source value; file indices are renumbered
   through the converted file table (never copied), also when they come from Attr.DW_FORM_implicit_const. *)
From Coq Require Import List NArith ZArith Bool Lia ZifyBool ZifyN ZifyNat.
From Coq.Strings Require Import Byte.
Require Import GV.Base.Res GV.Base.Byt GV.Base.Ints GV.Spec.FormSpec GV.Model.Attr GV.Spec.UnitWrSpec GV.Model.UnitWr.
Require Import GV.Model.ConvertAttr GV.Proofs.UnitWrProofs.
Import ListNotations.
Local Open Scope N_scope.

Section Sound.
  Variable ver : N.
  Variable files : list N.
  Variable cvt : N -> option address.
  Variable uaddr : N -> res N.
  (* non-relocatable addresses *)
  Hypothesis Hcvt : forall a w, cvt a = Some w -> w = AConst a.

  Definition is_file_index (v : attr_value) : bool := match v with VFileIndex _ => true | _ => false end.

  (* the data of the converted value, as it is read back from the written attribute, is the data of the
     source value (every modelled kind except file indices and flag_present) *)
  Lemma conv_attr_payload cx form name raw av :
    form <> Attr.DW_FORM_implicit_const -> form <> Attr.DW_FORM_flag_present ->
    is_file_index (attr_normalise name raw) = false ->
    rd_value_typed (attr_normalise name raw) ->
    (forall i a, uaddr i = Ok a -> a < 2 ^ 64) ->
    conv_attr ver files cvt uaddr form name raw = Ok (Some av) ->
    rd_payload uaddr (attr_normalise name raw) = Some (av_raw cx av).
  Proof.
    intros Hf1 Hf2 Hfile Ht Hua H. unfold conv_attr in H.
    replace (form =? Attr.DW_FORM_implicit_const) with false in H by (symmetry; apply N.eqb_neq; exact Hf1).
    destruct (attr_normalise name raw) eqn:Ev; cbn [rd_payload rd_value_typed is_file_index] in *;
      try discriminate; try (inversion H; subst av; cbn [av_raw]; rewrite ?N.mod_small by assumption; reflexivity).
    - (* addr *)
      apply bind_ok in H. destruct H as [v [Hv H]]. inversion H; subst av.
      unfold conv_address in Hv. destruct (cvt a) eqn:Ec; [|discriminate]. inversion Hv; subst v.
      apply Hcvt in Ec. subst. cbn [av_raw]. rewrite N.mod_small by assumption. reflexivity.
    - (* flag *)
      replace (form =? Attr.DW_FORM_flag_present) with false in H by (symmetry; apply N.eqb_neq; exact Hf2).
      inversion H; subst av. reflexivity.
    - (* addrx *)
      apply bind_ok in H. destruct H as [a [Ha H]]. apply bind_ok in H. destruct H as [v [Hv H]]. inversion H; subst av.
      unfold conv_address in Hv. destruct (cvt a) eqn:Ec; [|discriminate]. inversion Hv; subst v.
      apply Hcvt in Ec. subst. rewrite Ha. cbn [av_raw]. rewrite N.mod_small by (eapply Hua; eauto). reflexivity.
  Qed.

End Sound.

Section Rules.
  Variable ver : N.
  Variable files : list N.
  Variable cvt : N -> option address.
  Variable uaddr : N -> res N.

  (* an implicit constant whose raw value is not the abbreviation's constant cannot be converted *)
  Lemma conv_attr_implicit_const_other name raw :
    (forall z, raw <> VSdata z) ->
    conv_attr ver files cvt uaddr Attr.DW_FORM_implicit_const name raw = Err CInvalidAttributeValue.
  Proof.
    intros Hn. unfold conv_attr. change (Attr.DW_FORM_implicit_const =? Attr.DW_FORM_implicit_const) with true. cbv iota.
    destruct raw; try reflexivity. exfalso. eapply Hn; reflexivity.
  Qed.
End Rules.
