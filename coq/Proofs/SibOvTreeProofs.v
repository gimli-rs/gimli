(* Proofs/SibOvTreeProofs.v — the full tree walk (walk_tree, children() of every node) over units whose
   DW_AT_sibling values are overridden (Proofs/SibOvProofs.v): a walk that iterates every child list only
   ever calls EntriesTree::next on an entry without children or on a list terminator (`inert`), so the fast
   path is never taken, whatever the values. *)
From Coq Require Import List NArith ZArith Bool Lia ZifyBool ZifyN ZifyNat.
From Coq.Strings Require Import Byte.
Require Import GV.Base.Res GV.Base.Byt GV.Base.Ints GV.Model.Leb GV.Model.Prim
               GV.Spec.LebSpec GV.Spec.FormSpec GV.Model.Attr GV.Spec.Forest GV.Model.AbbrevRd
               GV.Model.DieRd GV.Proofs.AttrProofs GV.Proofs.AbbrevRdProofs GV.Proofs.DieRdProofs GV.Proofs.EventWalk
               GV.Proofs.SibOvProofs.
Import ListNotations.
Local Open Scope N_scope.

(* the fuel of walk_children: an entry takes at least one byte *)
Lemma nodes_le_size codes : forall t, N.of_nat (length (nodes t)) <= tree_size codes t.
Proof.
  induction t as [tag flag items kids IH] using tree_ind'.
  set (t := Node tag flag items kids) in *.
  rewrite tree_size_unfold. change (t_kids t) with kids.
  pose proof (enc_uleb_length (t_code codes t)) as Hu. unfold nlen.
  assert (Hk : N.of_nat (length (forest_nodes kids)) <= sumN (map (tree_size codes) kids)).
  { clear -IH. induction kids as [|k kids IHk]; [cbn; lia|]. inversion IH; subst.
    cbn [forest_nodes flat_map map sumN fold_right]. rewrite app_length.
    fold (sumN (map (tree_size codes) kids)). specialize (IHk ltac:(assumption)).
    change (flat_map nodes kids) with (forest_nodes kids). lia. }
  cbn [nodes t length]. change (flat_map nodes kids) with (forest_nodes kids).
  destruct (has_children t) eqn:Hc.
  - lia.
  - apply no_children_no_kids in Hc. change (t_kids t) with kids in Hc. subst kids. cbn [forest_nodes flat_map length]. lia.
Qed.

Lemma forest_nodes_cons_length k ks :
  length (forest_nodes (k :: ks)) = S (length (forest_nodes (t_kids k)) + length (forest_nodes ks)).
Proof. destruct k. cbn [forest_nodes flat_map nodes t_kids]. rewrite app_length. reflexivity. Qed.

Lemma kids_lt_size codes t : N.of_nat (length (forest_nodes (t_kids t))) < tree_size codes t.
Proof. pose proof (nodes_le_size codes t) as H. destruct t as [tag flag items kids]. cbn [nodes length t_kids] in *. fold (forest_nodes kids) in H. lia. Qed.

Section OvTree.
  Variables (codes : coding) (ov : N -> option N).

  Fixpoint dtree_ov (depth : Z) (off : N) (t : tree) : dtree :=
    match t with
    | Node tag flag items kids =>
        DNode (root_die_ov codes ov off depth t)
              (on_list (fun o k => [dtree_ov (depth + 1) o k]) (tree_size codes) (kids_off codes off t) kids)
    end.
  Definition kid_trees_ov (D : Z) (off : N) (ks : list tree) : list dtree :=
    on_list (fun o k => [dtree_ov D o k]) (tree_size codes) off ks.
  Lemma dtree_ov_unfold D off t :
    dtree_ov D off t = DNode (root_die_ov codes ov off D t) (kid_trees_ov (D + 1) (kids_off codes off t) (t_kids t)).
  Proof. destruct t. reflexivity. Qed.

  Section W.
  Variables (dbg : bool) (e : enc) (tbl : abbrevs) (E : N) (rest : list byte).

  Definition walk_claim_ov (k : tree) : Prop :=
    forall D off l2 ts fuel,
      tr_entry ts = root_die_ov codes ov off D k ->
      at_chain dbg e tbl E rest (tr_raw ts) (tail_ov codes ov (be e) D off k ++ l2) ->
      r_depth (tr_raw ts) = post_depth D k ->
      Forall (placed_ok_ov codes ov e tbl) (placed codes off k) ->
      (length (forest_nodes (t_kids k)) < fuel)%nat ->
      walk_children fuel dbg e tbl (D + 1) ts =
      Ok (kid_trees_ov (D + 1) (kids_off codes off k) (t_kids k), None,
          if has_children k
          then mkTree (tr_root ts) (mkRaw (xbytes l2 ++ rest) E D) (null_at (off + tree_size codes k - 1) (D + 1))
          else ts).

  Lemma walk_list_ov : forall ks D off' oN l2 ts0 fuel,
    Forall walk_claim_ov ks ->
    at_chain dbg e tbl E rest (tr_raw ts0) (evs_list_ov codes ov (be e) D off' ks ++ null_ev oN D :: l2) ->
    r_depth (tr_raw ts0) = D -> inert D (tr_entry ts0) ->
    Forall (placed_ok_ov codes ov e tbl) (on_list (placed codes) (tree_size codes) off' ks) ->
    (length (forest_nodes ks) < fuel)%nat ->
    walk_children fuel dbg e tbl D ts0 =
    Ok (kid_trees_ov D off' ks, None,
        mkTree (tr_root ts0) (mkRaw (xbytes l2 ++ rest) E (D - 1)) (null_at oN D)).
  Proof.
    induction ks as [|k ks IH]; intros D off' oN l2 ts0 fuel Hcl Hat HD Hin Hp Hf;
      (destruct fuel as [|fuel]; [lia|]); cbn [walk_children].
    - unfold evs_list_ov in Hat. cbn [on_list app] in Hat.
      rewrite (tree_next_read dbg e tbl E rest D ts0 _ _ (tree_fuel ts0) Hat HD Hin ltac:(unfold tree_fuel; lia)).
      cbn [bind null_ev x_die x_post null_at is_null d_tag N.eqb negb]. reflexivity.
    - apply Forall_cons_iff in Hcl. destruct Hcl as [Hk Hks].
      rewrite on_list_cons in Hp. apply Forall_app in Hp. destruct Hp as [Hpk Hpks].
      destruct (placed_root codes _ _ k Hpk) as (_ & Hn & _).
      rewrite evs_list_ov_cons in Hat. cbn [app] in Hat. rewrite <- app_assoc in Hat.
      set (l3 := evs_list_ov codes ov (be e) D (off' + tree_size codes k) ks ++ null_ev oN D :: l2) in *.
      rewrite (tree_next_read dbg e tbl E rest D ts0 _ _ (tree_fuel ts0) Hat HD Hin ltac:(unfold tree_fuel; lia)).
      cbn [bind head_ev_ov x_die x_post]. rewrite (root_die_ov_not_null codes ov e off' D k Hn). cbn [negb tr_entry].
      destruct (at_chain_step _ _ _ _ _ _ _ _ Hat) as (_ & Hat1 & _). cbn [head_ev_ov x_post] in Hat1.
      set (t1 := mkTree (tr_root ts0) (mkRaw (xbytes (tail_ov codes ov (be e) D off' k ++ l3) ++ rest) E (post_depth D k))
                        (root_die_ov codes ov off' D k)).
      rewrite forest_nodes_cons_length in Hf.
      rewrite (Hk D off' l3 t1 fuel eq_refl Hat1 eq_refl Hpk ltac:(lia)). cbn [bind].
      pose proof (at_chain_drop _ _ _ _ _ _ _ _ Hat1) as Hat2. cbn [r_depth] in Hat2. rewrite tail_ov_end_depth in Hat2.
      set (t2 := if has_children k
                 then mkTree (tr_root t1) (mkRaw (xbytes l3 ++ rest) E D) (null_at (off' + tree_size codes k - 1) (D + 1))
                 else t1).
      assert (Ht2 : tr_root t2 = tr_root ts0 /\ at_chain dbg e tbl E rest (tr_raw t2) l3 /\ r_depth (tr_raw t2) = D /\
                    inert D (tr_entry t2)).
      { unfold t2. destruct (has_children k) eqn:Hc.
        - cbn [tr_root tr_raw tr_entry t1 r_depth]. split; [reflexivity|]. split; [exact Hat2|]. split; [reflexivity|].
          right. cbn [null_at d_depth d_children]. split; [lia|reflexivity].
        - cbn [tr_root tr_raw tr_entry t1 r_depth]. unfold post_depth, tail_ov in *. rewrite Hc in *. cbn [app] in *.
          split; [reflexivity|]. split; [exact Hat1|]. split; [reflexivity|].
          right. cbn [root_die_ov d_depth d_children]. split; [lia|exact Hc]. }
      destruct Ht2 as (Hroot & Hat3 & HD3 & Hin3).
      rewrite (IH D (off' + tree_size codes k) oN l2 t2 fuel Hks Hat3 HD3 Hin3 Hpks ltac:(lia)).
      rewrite Hroot. unfold kid_trees_ov. rewrite on_list_cons. cbn [app]. rewrite dtree_ov_unfold. reflexivity.
  Qed.

  Lemma walk_tree_claim_ov : forall k, walk_claim_ov k.
  Proof.
    induction k as [tag flag items kids IH] using tree_ind'.
    set (k := Node tag flag items kids) in *.
    intros D off l2 ts fuel Hent Hat Hdep Hp Hf.
    rewrite placed_unfold in Hp. apply Forall_cons_iff in Hp. destruct Hp as [_ Hpk].
    change (t_kids k) with kids in *.
    destruct (has_children k) eqn:Hc.
    - unfold tail_ov in Hat. rewrite Hc in Hat. change (t_kids k) with kids in Hat.
      rewrite <- app_assoc in Hat. cbn [app] in Hat.
      unfold post_depth in Hdep. rewrite Hc in Hdep.
      rewrite (walk_list_ov kids (D + 1)%Z (kids_off codes off k) _ l2 ts fuel IH Hat Hdep);
        [| |exact Hpk|exact Hf].
      + replace (D + 1 - 1)%Z with D by lia. reflexivity.
      + left. rewrite Hent. cbn [root_die_ov d_depth d_children]. repeat split; [lia|exact Hc].
    - apply no_children_no_kids in Hc as Hk. change (t_kids k) with kids in Hk. subst kids.
      destruct fuel as [|fuel]; [lia|]. cbn [walk_children]. unfold tree_next.
      rewrite Hent. cbn [root_die_ov d_depth d_children].
      replace (D <? D + 1)%Z with true by lia. replace (D + 1 =? D + 1)%Z with true by lia.
      rewrite andb_false_r, Hc. cbn [negb bind]. reflexivity.
  Qed.
  End W.
End OvTree.

(* no override: the tree of Spec/Forest.v *)
Lemma dtree_ov_none codes : forall t D off, dtree_ov codes (fun _ => None) D off t = dtree_of codes D off t.
Proof.
  induction t as [tag flag items kids IH] using tree_ind'. intros D off. cbn [dtree_ov dtree_of]. f_equal.
  apply on_list_ext. eapply Forall_impl; [|exact IH]. intros k Hk o. rewrite Hk. reflexivity.
Qed.

Lemma entries_tree_raw dbg h o r :
  entries_raw dbg h o = Ok r -> entries_tree dbg h o = Ok (mkTree (r_in r) r null_die).
Proof.
  unfold entries_raw, entries_tree.
  destruct (match o with Some o0 => Ok o0 | None => header_size dbg h end) as [off| | |]; cbn [bind]; try discriminate.
  destruct (range_from dbg h off) as [input| | |]; cbn [bind]; try discriminate.
  unfold raw_new. destruct (chk_add 64 dbg off (nlen input)) as [x| | |]; cbn [bind]; try discriminate.
  intros H. inversion H; subst. reflexivity.
Qed.

Section UnitOvTree.
  Variables (dbg bigend types : bool) (uoff : N) (h : uheader) (codes : coding) (ov : N -> option N)
            (t : tree) (f : list tree) (pad : nat) (tbl : abbrevs).
  Let e := unit_enc bigend h.
  Let hl := header_len h.
  Let body := enc_forest_ov codes ov bigend hl (t :: f) pad.
  Let hdr := parsed_header bigend types uoff h body.
  Hypothesis He : addr_size_ok e.
  Hypothesis Hlen : hl + nlen body < two63.
  Hypothesis Hcov : all_covered tbl codes (t :: f).
  Hypothesis Hok : forest_ok codes e (t :: f).
  Hypothesis Hfit : sibs_fit_ov codes ov hl (t :: f).

  Lemma tree_ov :
    exists ts, entries_tree dbg hdr None = Ok ts /\
               walk_tree dbg e tbl ts = Ok (Some (dtree_ov codes ov 0 hl t), None).
  Proof.
    pose proof (placed_ok_ov_all codes ov e tbl hl (t :: f) Hcov Hok Hfit) as Hp.
    pose proof (unit_at_chain_ov dbg bigend h codes ov (t :: f) pad tbl He Hlen Hp) as Hat.
    fold e hl body in Hat. rewrite evs_list_ov_cons in Hat. cbn [app] in Hat. rewrite <- app_assoc in Hat.
    change bigend with (be e) in Hat.
    destruct (at_chain_step _ _ _ _ _ _ _ _ Hat) as (Hr & Hat1 & _ & _ & (b0 & r0 & Eb)).
    cbn [r_in] in Eb.
    assert (Hne : body <> []) by (rewrite Eb; discriminate).
    eexists. split; [apply entries_tree_raw; exact (entries_raw_root dbg bigend types uoff h body Hlen Hne)|].
    cbn [r_in]. unfold walk_tree, tree_root. cbn [tr_root tr_raw r_end]. fold hl. rewrite Hr. clear Hr.
    rewrite on_list_cons in Hp. apply Forall_app in Hp. destruct Hp as [Hpt _].
    destruct (placed_root codes _ _ t Hpt) as (_ & Hn & _).
    cbn [head_ev_ov x_die x_post bind] in Hat1 |- *. rewrite (root_die_ov_not_null codes ov e hl 0 t Hn). cbn [negb tr_entry].
    set (t1 := mkTree _ _ _).
    rewrite (walk_tree_claim_ov codes ov dbg e tbl (hl + nlen body) [] t 0%Z hl _ t1 _ eq_refl Hat1 eq_refl Hpt).
    - cbn [bind]. rewrite dtree_ov_unfold. change (0 + 1)%Z with 1%Z. reflexivity.
    - pose proof (kids_lt_size codes t) as Hs.
      pose proof (enc_forest_ov_len codes ov bigend hl (t :: f) pad) as Hl. fold body in Hl.
      unfold enc_forest in Hl. rewrite nlen_app, enc_forest_list_len in Hl. unfold forest_size in Hl.
      cbn [map sumN fold_right] in Hl. unfold nlen in *. lia.
  Qed.
End UnitOvTree.
