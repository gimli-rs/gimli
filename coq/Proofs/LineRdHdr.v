(* Proofs/LineRdHdr.v — the pieces of a line-program header common to all versions (initial length,
   words, the one-byte parameters) read back from the reference encoder, and the NUL-terminated
   include_directories / file_names tables of versions 2-4. The round trip of the whole header, for
   every version, is in LineRdHdr5.v. *)
From Coq Require Import List NArith ZArith Bool Lia ZifyBool ZifyN ZifyNat.
From Coq.Strings Require Import Byte.
Require Import GV.Base.Res GV.Base.Byt GV.Base.Ints GV.Model.Leb GV.Model.Prim GV.Spec.LebSpec GV.Spec.LineSpec
               GV.Model.LineRd GV.Proofs.LebProofs GV.Proofs.PrimProofs GV.Proofs.LineRdBase.
Import ListNotations.
Local Open Scope N_scope.

Definition dir_ok (vals : list form_val) : Prop :=
  exists s, vals = [VString s] /\ s <> [] /\ no_nul s = true.
Definition file_ok (vals : list form_val) : Prop :=
  exists p d t z, vals = [VString p; VUdata d; VUdata t; VUdata z] /\ p <> [] /\ no_nul p = true /\
                  d < two64 /\ t < two64 /\ z < two64.

Record raw_wf4 (be : bool) (r : raw_header) (prog : list byte) : Prop := mk_raw_wf4 {
  rw_ver : 2 <= rh_version r <= 4;
  rw_mil : 1 <= rh_min_inst_len r < 256; rw_mops : 1 <= rh_max_ops r < 256;
  rw_lr : 1 <= rh_line_range r < 256; rw_ob : 1 <= rh_opcode_base r < 256;
  rw_lb : (-128 <= rh_line_base r < 128)%Z;
  rw_std : N.of_nat (length (rh_std_lengths r)) = rh_opcode_base r - 1;
  rw_dirs : Forall dir_ok (rh_dirs r); rw_files : Forall file_ok (rh_files r);
  rw_len : len_n (enc_after_len be r prog) < (if rh_fmt64 r then two64 else 4294967280) }.

Lemma read_u8_cons v rest : v < 256 -> read_u8 (n2b v :: rest) = Ok (v, rest).
Proof. intros H. cbn. now rewrite b2n_n2b_small. Qed.

Lemma read_word_enc (fmt64 be : bool) (v : N) tail : v < (if fmt64 then two64 else 4294967296) ->
  read_word fmt64 be (enc_word be fmt64 v ++ tail) = Ok (v, tail).
Proof. intros H. unfold read_word, enc_word. destruct fmt64; apply read_un_enc; exact H. Qed.

Lemma read_initial_length_enc (be fmt64 : bool) (v : N) tail : v < (if fmt64 then two64 else 4294967280) ->
  read_initial_length be ((if fmt64 then enc_fixed 4 be 4294967295 else []) ++ enc_word be fmt64 v ++ tail)
  = Ok ((v, fmt64), tail).
Proof.
  intros H. unfold read_initial_length, enc_word. destruct fmt64; cbn [app].
  - rewrite read_un_enc by reflexivity. cbn [bind].
    rewrite read_un_enc by exact H. reflexivity.
  - rewrite read_un_enc by (change (256 ^ N.of_nat 4) with 4294967296; lia).
    cbn [bind]. rewrite (proj2 (N.ltb_lt _ _)) by exact H. reflexivity.
Qed.

(* line_base: an i8 *)
Lemma read_i8_enc be lb rest : (-128 <= lb < 128)%Z ->
  read_in 1 be (n2b (Z.to_N (lb mod 256)) :: rest) = Ok (lb, rest).
Proof.
  intros H. replace (n2b (Z.to_N (lb mod 256)) :: rest) with (enc_fixed 1 be (Z.to_N (lb mod 256)) ++ rest)
    by (destruct be; reflexivity).
  unfold read_in. rewrite read_un_enc by (change (256 ^ N.of_nat 1) with 256; lia). cbn [bind]. f_equal. f_equal.
  unfold to_signed, wrapN. change (8 * N.of_nat 1) with 8. change (2 ^ 8) with 256. change (2 ^ (8 - 1)) with 128.
  destruct (Z.to_N (lb mod 256) mod 256 <? 128) eqn:E; lia.
Qed.

Lemma skip_n_app a b : skip_n (N.of_nat (length a)) (a ++ b) = Ok b.
Proof.
  unfold skip_n. rewrite app_length. destruct (N.of_nat (length a + length b) <? N.of_nat (length a)) eqn:E; [lia|].
  now rewrite Nat2N.id, skipn_app_exact.
Qed.
Lemma truncate_n_app a b : truncate_n (N.of_nat (length a)) (a ++ b) = Ok a.
Proof.
  unfold truncate_n. rewrite app_length. destruct (N.of_nat (length a + length b) <? N.of_nat (length a)) eqn:E; [lia|].
  now rewrite Nat2N.id, firstn_app_exact.
Qed.

Lemma read_u8_bool (b : bool) rest :
  read_u8 ((if b then x01 else x00) :: rest) = Ok ((if b then 1 else 0), rest).
Proof. destruct b; reflexivity. Qed.

Lemma dirs_v4_loop_enc be fmt64 : forall dirs fuel rest,
  Forall dir_ok dirs -> (length dirs < fuel)%nat ->
  dirs_v4_loop fuel (concat (map (enc_entry be fmt64 dir_fmt_v4) dirs) ++ x00 :: rest) =
  Ok (flat_map (fun o => match o with Some v => [v] | None => [] end)
               (map (fun vals => dir_of_entry dir_fmt_v4 vals None) dirs), rest).
Proof.
  induction dirs as [|d dirs IH]; intros fuel rest F Hf; destruct fuel as [|f]; try (simpl in Hf; lia).
  - cbn. reflexivity.
  - inversion F as [|? ? (s & -> & Hs & Hn) F']; subst.
    cbn [map concat enc_entry dir_fmt_v4 enc_val ef_form].
    change (FORM_string =? FORM_string) with true. cbv iota. rewrite app_nil_r, <- !app_assoc.
    cbn [dirs_v4_loop]. cbn [app]. rewrite read_cstr_app by apply no_nul_free, Hn. cbn [bind].
    destruct s as [|b s]; [contradiction|].
    rewrite IH by (auto; simpl in Hf; lia). cbn [bind].
    cbn [map flat_map dir_of_entry dir_fmt_v4 ef_ct]. change (LNCT_path =? LNCT_path) with true. cbv iota.
    reflexivity.
Qed.

Lemma files_v4_loop_enc dbg be fmt64 : forall files fuel rest,
  Forall file_ok files -> (length files < fuel)%nat ->
  files_v4_loop fuel dbg (concat (map (enc_entry be fmt64 file_fmt_v4) files) ++ x00 :: rest) =
  Ok (map (fun fp => let f := fst fp in
                     mk_file (match snd fp with Some v => v | None => VString [] end)
                             (fe_dir f) (fe_time f) (fe_size f) (fe_md5 f) (fe_source f))
          (map (fun vals => file_of_entry file_fmt_v4 vals file0 None) files), rest).
Proof.
  induction files as [|d files IH]; intros fuel rest F Hf; destruct fuel as [|f]; try (simpl in Hf; lia).
  - cbn. reflexivity.
  - inversion F as [|? ? (p & dd & t & z & -> & Hp & Hn & Hd & Ht & Hz) F']; subst.
    cbn [map concat enc_entry file_fmt_v4 enc_val ef_form].
    change (FORM_string =? FORM_string) with true. change (FORM_udata =? FORM_udata) with true. cbv iota.
    rewrite app_nil_r, <- !app_assoc.
    cbn [files_v4_loop]. cbn [app]. rewrite read_cstr_app by apply no_nul_free, Hn. cbn [bind].
    destruct p as [|b p]; [contradiction|].
    unfold file_entry_parse. rewrite read_uleb128_enc by exact Hd. cbn [bind].
    rewrite read_uleb128_enc by exact Ht. cbn [bind]. rewrite read_uleb128_enc by exact Hz. cbn [bind].
    rewrite IH by (auto; simpl in Hf; lia). cbn [bind]. reflexivity.
Qed.

Lemma entries_len {A} (enc : A -> list byte) : forall es, (forall e, In e es -> (1 <= length (enc e))%nat) ->
  (length es <= length (concat (map enc es)))%nat.
Proof.
  induction es as [|e es IH]; intros H; [simpl; lia|]. cbn [map concat length]. rewrite app_length.
  pose proof (H e (or_introl eq_refl)). specialize (IH (fun x Hx => H x (or_intror Hx))). lia.
Qed.

(* a non-trivial instance: version 3, 64-bit format, two directories, two files, opcode_base 10 *)
Definition sample_raw : raw_header :=
  mk_raw true 3 8 4 1 false (-3)%Z 12 10 [x00; x01; x01; x01; x01; x00; x00; x00; x01]
    [] [[VString [x61; x62]]; [VString [x2f]]]
    [] [[VString [x78; x2e; x63]; VUdata 1; VUdata 18446744073709551615; VUdata 300];
        [VString [x79]; VUdata 0; VUdata 0; VUdata 0]].
