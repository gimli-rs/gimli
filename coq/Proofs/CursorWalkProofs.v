(* Proofs/CursorWalkProofs.v — PARTIAL traversals with cloned cursors: next_entry to the first child,
   next_sibling along the list (Model/TreeWalk.v cwalk_list / walk_cursor), for every selection
   strategy. Each next_sibling starts on an entry whose subtree may hold any mixture of entries with
   and without DW_AT_sibling (NavProofs.tail_span, EventWalk.next_sibling_skip: fast and slow path reach
   the same state) and lands on the root entry of the following sibling, or reports None at the
   terminator / end of input. *)
From Coq Require Import List NArith ZArith Bool Lia ZifyBool ZifyN ZifyNat.
From Coq.Strings Require Import Byte.
Require Import GV.Base.Res GV.Base.Byt GV.Base.Ints GV.Model.Leb GV.Model.Prim
               GV.Spec.LebSpec GV.Spec.FormSpec GV.Model.Attr GV.Spec.Forest GV.Spec.ForestSel GV.Model.AbbrevRd
               GV.Model.DieRd GV.Model.TreeWalk GV.Proofs.AttrProofs GV.Proofs.AbbrevRdProofs GV.Proofs.DieRdProofs
               GV.Proofs.EventWalk GV.Proofs.SibOvProofs GV.Proofs.SibOvTreeProofs GV.Proofs.SibOvSibProofs GV.Proofs.NavProofs
               GV.Proofs.TreeWalkProofs.
Import ListNotations.
Local Open Scope N_scope.

Lemma sel_tree_leaf codes sel D off t : has_children t = false ->
  sel_tree codes sel D off t = [root_die codes off D t].
Proof.
  intros Hc. apply no_children_no_kids in Hc. rewrite sel_tree_unfold, Hc.
  destruct (sel (root_die codes off D t)); reflexivity.
Qed.

Lemma forest_nodes_le_size codes : forall l, N.of_nat (length (forest_nodes l)) <= forest_size codes l.
Proof.
  induction l as [|k l IHl]; [cbn; lia|].
  cbn [forest_nodes flat_map]. rewrite app_length. unfold forest_size in *. cbn [map sumN fold_right].
  fold (sumN (map (tree_size codes) l)). pose proof (nodes_le_size codes k).
  change (flat_map nodes l) with (forest_nodes l). lia.
Qed.

Section CWalk.
  Variables (dbg : bool) (e : enc) (tbl : abbrevs) (codes : coding) (E : N) (rest : list byte)
            (sel : die -> option nat).

  (* a cursor standing on the root entry of [t], its subtree and [after] still ahead, and what ends a
     sibling list: the notions of Proofs/SibOvSibProofs.v, without override *)
  Local Notation on_head := (SibOvSibProofs.on_head codes (fun _ => None) dbg e tbl E rest).
  Local Notation list_end := (SibOvSibProofs.list_end rest).

  (* the clone taken on the root entry of k moves to k's first child (or the terminator) and walks *)
  Definition sub_walk (fuel : nat) (n : nat) (c : cursor) : res (list die * option error) :=
    let* s := next_entry dbg e tbl c in
    match s with
    | SErr x _ => Ok ([], Some x)
    | SOk false _ => Ok ([], None)
    | SOk true c1 => cwalk_list fuel dbg e tbl sel n c1
    end.

  Definition cw_claim (k : tree) : Prop :=
    forall D off after c fuel n,
      on_head c D off k after -> has_children k = true ->
      Forall (placed_ok e tbl codes) (placed codes off k) ->
      (length (forest_nodes (t_kids k)) < fuel)%nat ->
      sub_walk fuel n c =
      Ok (on_first (sel_tree codes sel (D + 1)) (tree_size codes) n (kids_off codes off k) (t_kids k), None).

  (* one round of the loop on the root entry of [t]: [t] and what is selected below it, then next_sibling *)
  Lemma cwalk_step c D off t after fuel b :
    on_head c D off t after -> cw_claim t -> Forall (placed_ok e tbl codes) (placed codes off t) ->
    (length (forest_nodes (t_kids t)) < fuel)%nat ->
    cwalk_list (S fuel) dbg e tbl sel (S b) c =
    let* s := next_sibling (cursor_fuel c) dbg e tbl c in
    match s with
    | SErr x _ => Ok (sel_tree codes sel D off t, Some x)
    | SOk None _ => Ok (sel_tree codes sel D off t, None)
    | SOk (Some _) c2 =>
        let* (more, err) := cwalk_list fuel dbg e tbl sel b c2 in Ok (sel_tree codes sel D off t ++ more, err)
    end.
  Proof.
    intros Hon Hk Hpt Hf. pose proof Hon as (Hcur & _).
    change (root_die_ov codes (fun _ => None) off D t) with (root_die codes off D t) in Hcur.
    destruct (placed_root codes _ off t Hpt) as (_ & Hn & _).
    cbn [cwalk_list]. unfold current. rewrite Hcur, (root_die_not_null codes e off D t Hn).
    change (d_children (root_die codes off D t)) with (has_children t).
    assert (Hsub : (match (if has_children t then sel (root_die codes off D t) else None) with
                    | None => Ok ([], None)
                    | Some n0 => sub_walk fuel n0 c
                    end) = Ok (tl (sel_tree codes sel D off t), None)).
    { destruct (has_children t) eqn:Hc; [|rewrite (sel_tree_leaf codes sel D off t Hc); reflexivity].
      rewrite sel_tree_unfold. destruct (sel (root_die codes off D t)) as [n0|]; [|reflexivity].
      exact (Hk D off _ c fuel n0 Hon Hc Hpt Hf). }
    unfold sub_walk in Hsub. rewrite Hsub. cbn [bind].
    rewrite (sel_tree_unfold codes sel D off t). reflexivity.
  Qed.

  Lemma cwalk_iter D m : list_end D m -> forall ts t off c fuel n,
    Forall cw_claim (t :: ts) ->
    on_head c D off t (evs_list codes (be e) D (off + tree_size codes t) ts ++ m) ->
    Forall (placed_ok e tbl codes) (on_list (placed codes) (tree_size codes) off (t :: ts)) ->
    (length (forest_nodes (t :: ts)) < fuel)%nat ->
    cwalk_list fuel dbg e tbl sel n c = Ok (on_first (sel_tree codes sel D) (tree_size codes) n off (t :: ts), None).
  Proof.
    intros Hend. induction ts as [|t' ts IH]; intros t off c fuel n Hcl Hon Hp Hf;
      (destruct fuel as [|fuel]; [lia|]);
      rewrite on_list_cons in Hp; apply Forall_app in Hp; destruct Hp as [Hpt Hpts];
      apply Forall_cons_iff in Hcl; destruct Hcl as [Hk Hks];
      rewrite forest_nodes_cons_length in Hf;
      (destruct n as [|b]; [cbn [cwalk_list]; destruct (current c); reflexivity|]);
      rewrite (cwalk_step c D off t _ fuel b Hon Hk Hpt) by lia; rewrite on_first_S.
    - (* last sibling *)
      cbn [evs_list on_list app] in Hon. rewrite on_first_nil, app_nil_r.
      destruct Hend as [[-> Hr]|(o & l2 & ->)].
      + destruct (next_sibling_over codes _ dbg e tbl E rest c D off t [] (fun _ => Hr) Hon (pk_none e tbl codes E _ Hpt))
          as (c' & Hs). rewrite Hs. reflexivity.
      + rewrite (next_sibling_over codes _ dbg e tbl E rest c D off t (null_ev o D :: l2) ltac:(discriminate) Hon
                   (pk_none e tbl codes E _ Hpt)). reflexivity.
    - (* a following sibling t' *)
      assert (Hn' : node_ok codes e t').
      { rewrite on_list_cons in Hpts. apply Forall_app in Hpts. destruct Hpts as [Hpt' _].
        destruct (placed_root codes _ _ t' Hpt') as (_ & Hn' & _). exact Hn'. }
      rewrite <- evs_list_ov_none, evs_list_ov_cons in Hon. cbn [app] in Hon. rewrite <- app_assoc, evs_list_ov_none in Hon.
      rewrite (next_sibling_over codes _ dbg e tbl E rest c D off t (_ :: _) ltac:(discriminate) Hon
                 (pk_none e tbl codes E _ Hpt)).
      cbv zeta. unfold current at 1. cbn [c_cur head_ev_ov x_die x_post].
      rewrite (root_die_ov_not_null codes _ e _ D t' Hn'). cbn [bind].
      destruct Hon as [_ (_ & Hat & _)]. apply at_chain_drop in Hat.
      rewrite (IH t' _ _ fuel b Hks (on_head_intro codes _ dbg e tbl E rest _ D _ t' _ Hat) Hpts ltac:(lia)). reflexivity.
  Qed.

  (* a cursor in front of a sibling list: next_entry, then the loop *)
  Lemma cwalk_top D off f0 m c fuel n :
    list_end D m ->
    Forall cw_claim f0 ->
    at_chain dbg e tbl E rest (c_raw c) (evs_list codes (be e) D off f0 ++ m) ->
    Forall (placed_ok e tbl codes) (on_list (placed codes) (tree_size codes) off f0) ->
    (length (forest_nodes f0) < fuel)%nat ->
    sub_walk fuel n c = Ok (on_first (sel_tree codes sel D) (tree_size codes) n off f0, None).
  Proof.
    intros Hend Hcl Hat Hp Hf. unfold sub_walk. destruct f0 as [|t ts].
    - cbn [evs_list on_list app] in Hat. rewrite on_first_nil.
      destruct Hend as [[-> ->]|(o & l2 & ->)].
      + rewrite next_entry_end; [reflexivity|]. destruct Hat as [_ Hin _ _ _ _ _]. exact Hin.
      + rewrite (next_entry_chain _ _ _ _ _ _ _ _ Hat). cbn [bind].
        destruct fuel as [|fuel]; [lia|]. cbn [cwalk_list]. unfold current.
        cbn [c_cur null_ev x_die null_at is_null d_tag N.eqb]. reflexivity.
    - rewrite <- evs_list_ov_none, evs_list_ov_cons in Hat. cbn [app] in Hat.
      rewrite <- app_assoc, evs_list_ov_none in Hat.
      rewrite (next_entry_chain _ _ _ _ _ _ _ _ Hat). cbn [bind head_ev_ov x_die x_post].
      exact (cwalk_iter D m Hend ts t off _ fuel n Hcl (on_head_intro codes _ dbg e tbl E rest _ D off t _ Hat) Hp Hf).
  Qed.

  Lemma cw_tree_claim : forall k, cw_claim k.
  Proof.
    induction k as [tag flag items kids IH] using tree_ind'.
    set (k := Node tag flag items kids) in *.
    intros D off after c fuel n (Hcur & _ & Hat & _) Hc Hp Hf.
    rewrite placed_unfold in Hp. apply Forall_cons_iff in Hp. destruct Hp as [_ Hpk].
    change (t_kids k) with kids in *.
    unfold tail_ov in Hat. rewrite Hc, evs_list_ov_none in Hat. change (t_kids k) with kids in Hat.
    rewrite <- app_assoc in Hat. cbn [app] in Hat.
    apply (cwalk_top (D + 1)%Z (kids_off codes off k) kids (null_ev (off + tree_size codes k - 1) (D + 1) :: after) c fuel n); try assumption.
    right. eexists. eexists. reflexivity.
  Qed.
End CWalk.

(* ------------------------------------------------------------------ *)
(** * Theorem: the cloned-cursor walk of a unit reports the selected sub-forest *)

Section UnitCWalk.
  Variables (dbg bigend types : bool) (uoff : N) (h : uheader) (codes : coding) (f : list tree) (pad : nat)
            (tbl : abbrevs).
  Let e := unit_enc bigend h.
  Let hl := header_len h.
  Let body := enc_forest codes bigend hl f pad.
  Let hdr := parsed_header bigend types uoff h body.
  Hypothesis He : addr_size_ok e.
  Hypothesis Hlen : hl + nlen body < two63.
  Hypothesis Hcov : all_covered tbl codes f.
  Hypothesis Hok : forest_ok codes e f.
  Hypothesis Hfit : sibs_fit codes hl f.

  Lemma cursor_walk sel n :
    exists c, entries dbg hdr = Ok c /\
              walk_cursor dbg e tbl sel n c = Ok (sel_list codes sel 0 hl n f, None).
  Proof.
    pose proof (unit_at_chain dbg bigend h codes f pad tbl He Hlen Hcov Hok Hfit) as Hat.
    pose proof (entries_parsed dbg bigend types uoff h body Hlen) as Hent.
    fold e hl body hdr in Hat, Hent.
    set (c0 := mkCur (mkRaw body (hl + nlen body) 0) null_die) in *.
    exists c0. split; [exact Hent|].
    change (mkRaw body (hl + nlen body) 0) with (c_raw c0) in Hat.
    unfold body_evs in Hat. change bigend with (be e) in Hat.
    assert (Hpall : Forall (placed_ok e tbl codes) (on_list (placed codes) (tree_size codes) hl f))
      by (apply placed_ok_all; assumption).
    unfold walk_cursor, sel_list.
    apply (cwalk_top dbg e tbl codes (hl + nlen body) [] sel 0%Z hl f
                     (pad_evs (hl + forest_size codes f) 0 pad) c0); try assumption.
    - destruct pad as [|p]; [left; split; reflexivity|right; cbn [pad_evs]; eexists; eexists; reflexivity].
    - apply Forall_forall. intros k _. apply cw_tree_claim.
    - pose proof (forest_nodes_le_size codes f) as L.
      pose proof (enc_forest_list_len codes bigend hl f) as Hb.
      cbn [c0 c_raw r_in]. unfold body, enc_forest. rewrite app_length. unfold nlen in *. lia.
  Qed.

  (* the tree iterator of the whole unit, entries_tree(None): the first top-level entry *)
  Lemma tree_any_walk_root sel t ts0 : f = t :: ts0 ->
    exists ts, entries_tree dbg hdr None = Ok ts /\
               walk_tree_plan dbg e tbl sel ts = Ok (sel_tree codes sel 0 hl t, None).
  Proof.
    intros Ef.
    assert (Hhs : header_size dbg hdr = Ok hl).
    { pose proof Hlen as Hl. unfold hl in Hl |- *. apply header_size_parsed. rewrite header_len_split in Hl.
      unfold unit_length_of, two63 in *. unfold two64.
      assert (initial_length_size (uh_fmt64 h) >= 4) by (destruct (uh_fmt64 h); cbn; lia). lia. }
    destruct (tree_any_walk dbg bigend types uoff h codes f pad tbl He Hlen Hcov Hok Hfit sel hl t) as (ts & E1 & E2).
    - rewrite Ef, on_list_cons. apply in_or_app. left. rewrite placed_unfold. left. reflexivity.
    - exists ts. split; [|exact E2]. rewrite <- E1. unfold entries_tree. fold hdr. rewrite Hhs. reflexivity.
  Qed.
End UnitCWalk.
