(* Proofs/LineRdRefine.v — on well-formed programs the model (hence, through the correspondence,
   gimli) computes exactly the DWARF state machine of Spec/LineSpec.v:
   special-opcode arithmetic, VLIW operation advance, one-instruction simulation. *)
From Coq Require Import List NArith ZArith Bool Lia ZifyBool ZifyN ZifyNat.
From Coq.Strings Require Import Byte.
Require Import GV.Base.Res GV.Base.Byt GV.Base.Ints GV.Model.Leb GV.Model.Prim GV.Spec.LebSpec GV.Spec.LineSpec
               GV.Model.LineRd GV.Proofs.LineRdBase GV.Proofs.LineRdMono.
Import ListNotations.
Local Open Scope N_scope.

(* the spec registers a (non-tombstone) model row stands for *)
Definition rep (r : row) : sregs :=
  mk_sregs (Z.of_N (r_addr r)) (Z.of_N (r_opi r)) (Z.of_N (r_file r)) (Z.of_N (r_line r)) (Z.of_N (r_col r))
           (r_stmt r) (r_bb r) (r_end r) (r_pe r) (r_eb r) (Z.of_N (r_isa r)) (Z.of_N (r_disc r)).

Record pwf (h : header) : Prop := mk_pwf {
  pw_mil : 1 <= h_min_inst_len h < 256; pw_mops : 1 <= h_max_ops h < 256;
  pw_lr : 1 <= h_line_range h < 256; pw_ob : 1 <= h_opcode_base h < 256;
  pw_asz : 1 <= h_addr_size h <= 8;
  pw_lb : (-128 <= h_line_base h < 128)%Z;
  pw_std : N.of_nat (length (h_std_lengths h)) = h_opcode_base h - 1 }.

Lemma params_wf_pwf h : params_wf h = true -> pwf h.
Proof. unfold params_wf. intros H. constructor; lia. Qed.

Lemma pwf_hdr_ok h : pwf h -> hdr_ok h.
Proof. intros [? ? ? ? ? ? ?]. unfold hdr_ok, asz_ok. lia. Qed.

Lemma addr_mask_amask h : addr_mask h = Z.of_N (amask h).
Proof.
  unfold addr_mask, amask, mask_of. pose proof (pow2_pos (8 * h_addr_size h)).
  rewrite N2Z.inj_sub, N2Z.inj_pow, N2Z.inj_mul by lia. reflexivity.
Qed.

(* the model's u8 computations `adjusted % line_range`, `adjusted / line_range` are the spec's
   line increment and operation advance, for every header and every special opcode *)
Lemma special_arith h op :
  1 <= h_line_range h -> h_opcode_base h <= op ->
  let adj := op - h_opcode_base h in
  (h_line_base h + Z.of_N (adj mod h_line_range h))%Z = sp_line_inc h (Z.of_N op) /\
  Z.of_N (adj / h_line_range h) = sp_op_adv h (Z.of_N op).
Proof.
  intros Hlr Hop adj. unfold sp_line_inc, sp_op_adv, adjusted. subst adj.
  rewrite N2Z.inj_mod, N2Z.inj_div, N2Z.inj_sub by exact Hop. split; reflexivity.
Qed.

Definition inv (h : header) (r : row) : Prop := r_tomb r = false /\ r_opi r < h_max_ops h.

(* apply_operation_advance = §6.2.5.1 (incl. the VLIW formulas) when nothing wraps *)
Lemma aoa_sim dbg h r adv :
  pwf h -> inv h r ->
  (Z.of_N (r_opi r) + Z.of_N adv < two64z)%Z ->
  (s_address (s_advance h (Z.of_N adv) (rep r)) <= addr_mask h)%Z ->
  exists r', apply_operation_advance dbg h r adv = Ok (r', None) /\
             rep r' = s_advance h (Z.of_N adv) (rep r) /\ inv h r' /\ r_end r' = r_end r.
Proof.
  intros P [It Io] Hw Ha. pose proof P as [Pm Po Pl Pb Ps Plb _].
  rewrite (addr_mask_amask h) in Ha. unfold amask in Ha. pose proof (mask_of_lt _ Ps) as ML.
  unfold apply_operation_advance. rewrite It.
  unfold s_advance, rep in Ha |- *; cbn [s_address s_op_index s_file s_line s_column s_is_stmt s_basic_block
    s_end_sequence s_prologue_end s_epilogue_begin s_isa s_discriminator] in Ha |- *.
  unfold two64z in Hw.
  destruct (h_max_ops h =? 1) eqn:E1.
  - apply N.eqb_eq in E1. rewrite E1 in *. assert (r_opi r = 0) as O by lia. rewrite O in *.
    cbn [bind r_addr set_opi]. change (Z.of_N 1) with 1%Z in *. rewrite Z.div_1_r in Ha. rewrite Z.div_1_r, Z.mod_1_r.
    change (Z.of_N 0) with 0%Z in *. rewrite Z.add_0_l in *.
    rewrite wrap64_small by (unfold two64 in *; lia).
    rewrite add_sized_g_exact, (proj2 (N.leb_le _ _)) by (exact Ps || lia).
    eexists. split; [reflexivity|]. split; [|split; [split; cbn; [exact It|lia]|reflexivity]].
    cbn. f_equal; lia.
  - destruct (h_max_ops h =? 0) eqn:E0; [lia|]. cbn [bind r_addr set_opi].
    rewrite (wrap64_small (r_opi r + adv)) by (unfold two64; lia).
    set (t := r_opi r + adv) in *.
    assert (Tz : (Z.of_N (r_opi r) + Z.of_N adv)%Z = Z.of_N t) by (subst t; lia).
    rewrite Tz in *. rewrite <- N2Z.inj_div, <- N2Z.inj_mod in *.
    set (q := t / h_max_ops h) in *. set (m := t mod h_max_ops h) in *.
    assert (Mb : m < h_max_ops h) by (subst m; apply N.mod_lt; lia).
    rewrite wrap64_small by (unfold two64 in *; lia).
    rewrite add_sized_g_exact, (proj2 (N.leb_le _ _)) by (exact Ps || lia).
    eexists. split; [reflexivity|]. split; [|split; [split; cbn; [exact It|exact Mb]|reflexivity]].
    cbn. f_equal; lia.
Qed.

Lemma ala_sim r inc :
  (0 <= Z.of_N (r_line r) + inc < two64z)%Z ->
  rep (apply_line_advance r inc) = s_add_line inc (rep r) /\
  r_tomb (apply_line_advance r inc) = r_tomb r /\ r_opi (apply_line_advance r inc) = r_opi r /\
  r_end (apply_line_advance r inc) = r_end r.
Proof.
  intros H. unfold two64z in H. unfold apply_line_advance.
  destruct (inc <? 0)%Z eqn:E.
  - assert (D : Z.of_N (Z.abs_N inc) = (- inc)%Z) by (rewrite N2Z.inj_abs_N; lia).
    destruct (Z.abs_N inc <=? r_line r) eqn:E2; [|lia].
    repeat split. unfold rep, s_add_line; cbn. f_equal. lia.
  - assert (W : wrap64 (r_line r + Z.to_N inc) = r_line r + Z.to_N inc).
    { apply wrap64_small. unfold two64. lia. }
    rewrite W. repeat split. unfold rep, s_add_line; cbn. f_equal. lia.
Qed.

Definition exec_sim_stmt (dbg : bool) (h : header) (r : row) (i : insn) : Prop :=
  match exec_spec h (rep r) i with
  | (s', Some srow) =>
      exists r1, execute dbg h r i = Ok (r1, XRow) /\ rep r1 = srow /\ r_tomb r1 = false /\
                 rep (row_reset h r1) = s' /\ inv h (row_reset h r1)
  | (s', None) =>
      exists r1, execute dbg h r i = Ok (r1, XNoRow) /\ rep r1 = s' /\ inv h r1 /\ r_end r1 = false
  end.

Lemma step_wf_parts h s i :
  step_wf h s i = true ->
  insn_wf h i = true /\
  (0 <= s_address (fst (exec_spec h s i)) <= addr_mask h)%Z /\
  (0 <= s_line (fst (exec_spec h s i)) < two64z)%Z /\
  match i with
  | IAdvancePc n => (s_op_index s + Z.of_N n < two64z)%Z
  | ISetAddress a => (s_address s <= Z.of_N a)%Z /\ (Z.of_N a < addr_mask h - 1)%Z
  | ISpecial op => (0 <= s_line s + sp_line_inc h (Z.of_N op))%Z
  | _ => True
  end.
Proof.
  unfold step_wf. destruct (exec_spec h s i) as [s' o] eqn:E. cbn [fst].
  intros H.
  apply andb_true_iff in H as [H Hm]. apply andb_true_iff in H as [H H4]. apply andb_true_iff in H as [H H3].
  apply andb_true_iff in H as [H H2]. apply andb_true_iff in H as [H H1].
  split; [exact H|]. split; [lia|]. split; [lia|].
  destruct i; try exact I; lia.
Qed.

Lemma row_reset_noend h r : r_end r = false ->
  row_reset h r = mk_row (r_tomb r) (r_addr r) (r_opi r) (r_file r) (r_line r) (r_col r) (r_stmt r)
                         false false false false (r_isa r) 0.
Proof. intros E. unfold row_reset. rewrite E. reflexivity. Qed.

Lemma exec_sim dbg h r i :
  pwf h -> inv h r -> r_end r = false -> step_wf h (rep r) i = true -> exec_sim_stmt dbg h r i.
Proof.
  intros P I En W. pose proof I as [It Io]. pose proof P as [Pm Po Pl Pb Ps Plb _].
  apply step_wf_parts in W as (Wi & Wa & Wl & Wx).
  unfold exec_sim_stmt.
  destruct i; cbn [exec_spec execute] in *;
    try (eexists; split; [reflexivity|]; split; [reflexivity|]; split; [exact I|exact En]).
  - (* ISpecial *)
    cbn [insn_wf] in Wi. apply andb_true_iff in Wi as [Wi1 Wi2].
    unfold adjust_opcode, chk_sub. destruct (h_opcode_base h <=? op) eqn:E; [|lia]. cbn [bind].
    destruct (h_line_range h =? 0) eqn:E0; [lia|].
    destruct (special_arith h op ltac:(lia) ltac:(lia)) as [A1 A2]. cbn zeta in A1, A2.
    rewrite A1.
    destruct (ala_sim r (sp_line_inc h (Z.of_N op))) as (L1 & L2 & L3 & L4).
    { unfold rep in Wx; cbn in Wx. cbn [fst] in Wl.
      unfold s_after_row, s_advance, s_add_line, rep in Wl; cbn in Wl. lia. }
    set (r1 := apply_line_advance r (sp_line_inc h (Z.of_N op))) in *.
    destruct (aoa_sim dbg h r1 ((op - h_opcode_base h) / h_line_range h) P) as (r2 & X1 & X2 & X3 & X4).
    { split; [rewrite L2; exact It|rewrite L3; exact Io]. }
    { rewrite L3. unfold two64z.
      assert ((op - h_opcode_base h) / h_line_range h <= 255) by (apply N.div_le_upper_bound; lia). lia. }
    { rewrite A2, L1. cbn [fst] in Wa. unfold s_after_row in Wa; cbn [s_address] in Wa. exact (proj2 Wa). }
    rewrite X1. cbn [adv_result bind].
    eexists. split; [reflexivity|]. rewrite A2 in X2. rewrite L1 in X2.
    split; [exact X2|]. split; [apply X3|].
    assert (E2 : r_end r2 = false) by (rewrite X4, L4; exact En).
    rewrite (row_reset_noend h r2 E2). split.
    + rewrite <- X2. unfold s_after_row, rep; cbn. rewrite E2. reflexivity.
    + destruct X3 as [T O]. split; cbn; assumption.
  - (* ICopy *)
    eexists. split; [reflexivity|]. split; [reflexivity|]. split; [exact It|].
    rewrite (row_reset_noend h r En). split.
    + unfold s_after_row, rep; cbn. rewrite En. reflexivity.
    + split; cbn; assumption.
  - (* IAdvancePc *)
    destruct (aoa_sim dbg h r n P I) as (r2 & X1 & X2 & X3 & X4).
    { unfold rep in Wx; cbn in Wx. exact Wx. }
    { cbn [fst] in Wa. lia. }
    rewrite X1. cbn [adv_result bind]. eexists. split; [reflexivity|]. split; [exact X2|]. split; [exact X3|congruence].
  - (* IAdvanceLine *)
    destruct (ala_sim r z) as (L1 & L2 & L3 & L4).
    { cbn [fst] in Wl. unfold s_add_line, rep in Wl; cbn in Wl. lia. }
    eexists. split; [reflexivity|]. split; [exact L1|]. split; [split; congruence|congruence].
  - (* IConstAddPc *)
    unfold adjust_opcode, chk_sub. destruct (h_opcode_base h <=? 255) eqn:E; [|lia]. cbn [bind].
    destruct (h_line_range h =? 0) eqn:E0; [lia|].
    destruct (special_arith h 255 ltac:(lia) ltac:(lia)) as [_ A2]. cbn zeta in A2.
    change (Z.of_N 255) with 255%Z in A2.
    destruct (aoa_sim dbg h r ((255 - h_opcode_base h) / h_line_range h) P I) as (r2 & X1 & X2 & X3 & X4).
    { unfold two64z.
      assert ((255 - h_opcode_base h) / h_line_range h <= 255) by (apply N.div_le_upper_bound; lia). lia. }
    { rewrite A2. cbn [fst] in Wa. lia. }
    rewrite X1. cbn [adv_result bind]. eexists. split; [reflexivity|]. rewrite A2 in X2.
    split; [exact X2|]. split; [exact X3|congruence].
  - (* IFixedAddPc *)
    rewrite It. cbn [fst] in Wa. unfold rep in Wa; cbn in Wa.
    rewrite (addr_mask_amask h) in Wa. unfold amask in Wa.
    rewrite add_sized_g_exact, (proj2 (N.leb_le _ _)) by (exact Ps || lia).
    eexists. split; [reflexivity|]. split; [|split; [split; cbn; [exact It|lia]|exact En]].
    unfold rep; cbn. f_equal; lia.
  - (* IEndSequence *)
    eexists. split; [reflexivity|]. split; [reflexivity|]. split; [exact It|].
    unfold row_reset; cbn. split; [reflexivity|]. split; cbn; [reflexivity|lia].
  - (* ISetAddress *)
    destruct Wx as [Wx1 Wx2]. unfold rep in Wx1; cbn in Wx1.
    rewrite (addr_mask_amask h) in Wx2. unfold amask in Wx2.
    destruct (a <? r_addr r) eqn:C1; [lia|]. cbn [bind].
    rewrite min_tombstone_g_ok by exact Ps. cbn [bind].
    destruct (mask_of (h_addr_size h) - 1 <=? a) eqn:C2; [lia|].
    eexists. split; [reflexivity|]. split; [|split; [split; cbn; [reflexivity|lia]|exact En]].
    unfold rep; cbn. reflexivity.
Qed.
