(* Proofs/CfiRdPtr.v — parse_pointer_encoding, parse_encoded_value and parse_encoded_pointer against
   valid_spec / ptr_spec: every input, and the round trip of encoded values. *)
From Coq Require Import List NArith ZArith Bool Lia ZifyBool ZifyN ZifyNat.
From Coq.Strings Require Import Byte.
Require Import GV.Base.Res GV.Base.Byt GV.Base.Ints GV.Model.Leb GV.Model.Prim GV.Spec.LebSpec GV.Proofs.LebProofs.
Require Import GV.Spec.CfiSpec GV.Model.CfiRd GV.Proofs.CfiRdBase.
Import ListNotations.
Local Open Scope N_scope.

(* the parser of an encoding byte accepts exactly the valid ones *)
Lemma parse_pointer_encoding_spec : forall o b rest,
  parse_pointer_encoding (mkrd o (b :: rest)) =
  if valid_spec (b2n b) then Ok (b2n b, mkrd (o + 1) rest) else Err EUnknownPointerEncoding.
Proof.
  intros. unfold parse_pointer_encoding. rewrite rd_u8_cons. cbn [bind].
  rewrite pe_is_valid_spec by apply b2n_lt. reflexivity.
Qed.

Lemma fmt_cases : forall f, fmt_valid f = true ->
  f = 0 \/ f = 1 \/ f = 2 \/ f = 3 \/ f = 4 \/ f = 9 \/ f = 10 \/ f = 11 \/ f = 12.
Proof.
  intros f H. unfold fmt_valid in H. cbn [existsb] in H. lia.
Qed.

Lemma app_cases : forall a, app_valid a = true ->
  a = 0 \/ a = 16 \/ a = 32 \/ a = 48 \/ a = 64 \/ a = 80.
Proof.
  intros a H. unfold app_valid in H. cbn [existsb] in H. lia.
Qed.

Lemma valid_spec_fields : forall e, valid_spec e = true -> e <> 255 ->
  fmt_valid (fmt_of e) = true /\ app_valid (app_of e) = true.
Proof.
  intros e Hv H. unfold valid_spec in Hv. destruct (e =? 255) eqn:E; [lia|]. apply andb_true_iff in Hv. exact Hv.
Qed.

Lemma pow256 : forall n, 256 ^ n = 2 ^ (8 * n).
Proof. intros. change 256 with (2 ^ 8). rewrite <- N.pow_mul_r. reflexivity. Qed.

(* a value that fits its format is read back unchanged, consuming exactly its encoding *)
Lemma pev_enc : forall dbg be enc pp o v rest,
  asz_ok (pp_asz pp) -> fmt_valid (pe_format enc) = true ->
  value_fits (pe_format enc) (pp_asz pp) v = true ->
  parse_encoded_value dbg be enc pp (mkrd o (enc_value (pe_format enc) (pp_asz pp) be v ++ rest))
  = Ok (v, mkrd (o + nlen (enc_value (pe_format enc) (pp_asz pp) be v)) rest).
Proof.
  intros dbg be enc pp o v rest Hasz Hf Hfit.
  unfold parse_encoded_value, enc_value, value_fits in *.
  (* the signed fixed-size formats: read as k bytes two's complement, sign-extended to the u64 it came from *)
  assert (Hsd : forall k : nat, let bits := 8 * N.of_nat k in
            bits = 16 \/ bits = 32 \/ bits = 64 -> v < 2 ^ 64 ->
            v < 2 ^ (bits - 1) \/ 2 ^ 64 - 2 ^ (bits - 1) <= v ->
            (let* (z, r1) := lift (read_in k be) (mkrd o (un_bytes k be v ++ rest)) in Ok (of_i64 z, r1))
            = Ok (v, mkrd (o + nlen (un_bytes k be v)) rest)).
  { intros k bits Hb Hv Hs. rewrite (lift_app _ _ _ _ _ _ (read_in_enc k be v rest)). cbn [bind].
    rewrite pow256, of_i64_to_signed by assumption. reflexivity. }
  apply fmt_cases in Hf.
  destruct Hf as [Hf|[Hf|[Hf|[Hf|[Hf|[Hf|[Hf|[Hf|Hf]]]]]]]]; rewrite Hf in *; cbn [N.eqb Pos.eqb] in *.
  - (* absptr *)
    apply lift_app. rewrite read_address_ok_fun by exact Hasz.
    apply read_un_small. rewrite N2Nat.id, pow256. lia.
  - (* uleb128 *)
    apply lift_app. apply read_uleb128_enc. change two64 with (2 ^ 64). lia.
  - apply lift_app. apply (read_un_small 2). change (256 ^ N.of_nat 2) with (2 ^ 16). lia.
  - apply lift_app. apply (read_un_small 4). change (256 ^ N.of_nat 4) with (2 ^ 32). lia.
  - apply lift_app. apply (read_un_small 8). change (256 ^ N.of_nat 8) with (2 ^ 64). lia.
  - (* sleb128 *)
    rewrite (lift_app _ _ _ _ _ (s64 v)).
    + cbn [bind]. rewrite of_i64_s64 by lia. reflexivity.
    + apply read_sleb_enc. apply s64_range. lia.
  - apply (Hsd 2%nat); [auto| |change (2 ^ (8 * N.of_nat 2 - 1)) with (2 ^ 15)]; lia.
  - apply (Hsd 4%nat); [auto| |change (2 ^ (8 * N.of_nat 4 - 1)) with (2 ^ 31)]; lia.
  - apply (Hsd 8%nat); [auto| |change (2 ^ (8 * N.of_nat 8 - 1)) with (2 ^ 63)]; lia.
Qed.

Lemma pev_enc_valid : forall dbg be enc pp o v rest,
  enc < 256 -> asz_ok (pp_asz pp) -> valid_spec enc = true -> enc <> 255 ->
  value_fits (fmt_of enc) (pp_asz pp) v = true ->
  parse_encoded_value dbg be enc pp (mkrd o (enc_value (fmt_of enc) (pp_asz pp) be v ++ rest))
  = Ok (v, mkrd (o + nlen (enc_value (fmt_of enc) (pp_asz pp) be v)) rest).
Proof.
  intros dbg be enc pp o v rest He Hasz Hv H255 Hfit.
  destruct (pe_fields_spec enc He) as (Hfmt & _). rewrite <- Hfmt in *.
  apply pev_enc; [exact Hasz| |exact Hfit]. rewrite Hfmt. apply valid_spec_fields; assumption.
Qed.

Definition pb_of (pp : pparams) : pbases :=
  mkpb (sb_section (pp_bases pp)) (sb_text (pp_bases pp)) (sb_data (pp_bases pp)) (pp_func pp).
Definition mkptr (ind : bool) (a : N) : pointer := if ind then Indirect a else Direct a.

(* which error a pointer with an unusable application reports *)
Definition base_err (app : N) : error :=
  if app =? 16 then EPcRelativePointerButSectionBaseIsUndefined
  else if app =? 32 then ETextRelativePointerButTextBaseIsUndefined
  else if app =? 48 then EDataRelativePointerButDataBaseIsUndefined
  else if app =? 64 then EFuncRelativePointerInBadContext
  else EUnsupportedPointerEncoding.

(* parse_encoded_pointer on ANY reader: validity, omit, base selection exactly as the LSB
   definition (base_spec), then the value, then truncation to the address size *)
Lemma pep_char : forall dbg be enc pp r,
  enc < 256 -> asz_ok (pp_asz pp) ->
  parse_encoded_pointer dbg be enc pp r =
  if negb (valid_spec enc) then Err EUnknownPointerEncoding
  else if enc =? 255 then Err ECannotParseOmitPointerEncoding
  else match base_spec (app_of enc) (pp_asz pp) (pb_of pp) (off r) with
       | None => Err (base_err (app_of enc))
       | Some base =>
           let* (offset, r1) := parse_encoded_value dbg be enc pp r in
           Ok (mkptr (negb (ind_of enc =? 0)) ((base + offset) mod 2 ^ (8 * pp_asz pp)), r1)
       end.
Proof.
  intros dbg be enc pp r He Hasz. unfold parse_encoded_pointer.
  rewrite pe_is_valid_spec by exact He.
  destruct (valid_spec enc) eqn:Ev; [|reflexivity]. cbn [negb].
  unfold DW_EH_PE_omit. destruct (enc =? 255) eqn:E255; [reflexivity|].
  destruct (pe_fields_spec enc He) as (Hfmt & Happ & Hind & _).
  rewrite Happ. unfold pointer_new. rewrite Hind.
  (* once a base is chosen: the value, then the sum truncated to the address size *)
  assert (Hsum : forall base,
    (let* (offset, r1) := parse_encoded_value dbg be enc pp r in
     let* a := wadd_sized dbg base offset (pp_asz pp) in
     Ok ((if negb (ind_of enc =? 0) then Indirect a else Direct a), r1)) =
    (let* (offset, r1) := parse_encoded_value dbg be enc pp r in
     Ok (mkptr (negb (ind_of enc =? 0)) ((base + offset) mod 2 ^ (8 * pp_asz pp)), r1))).
  { intros base. destruct (parse_encoded_value dbg be enc pp r) as [[offset r1]| | |]; cbn [bind]; try reflexivity.
    rewrite wadd_sized_ok by exact Hasz. reflexivity. }
  assert (Hav : app_valid (app_of enc) = true) by (apply valid_spec_fields; [exact Ev|lia]).
  apply app_cases in Hav. unfold base_spec, base_err, pb_of. cbn [b_section b_text b_data b_func].
  destruct Hav as [Ha|[Ha|[Ha|[Ha|[Ha|Ha]]]]]; rewrite Ha; cbn [N.eqb Pos.eqb].
  - apply Hsum.
  - destruct (sb_section (pp_bases pp)) as [sb|]; [|reflexivity].
    rewrite wadd_sized_ok by exact Hasz. apply Hsum.
  - destruct (sb_text (pp_bases pp)) as [t|]; [apply Hsum|reflexivity].
  - destruct (sb_data (pp_bases pp)) as [t|]; [apply Hsum|reflexivity].
  - destruct (pp_func pp) as [t|]; [apply Hsum|reflexivity].
  - reflexivity.
Qed.

(* round trip: the pointer denoted by (enc, bases, position, value) is what the reader returns *)
Lemma pep_enc : forall dbg be enc pp o v rest ind a,
  enc < 256 -> asz_ok (pp_asz pp) -> valid_spec enc = true -> enc <> 255 ->
  value_fits (fmt_of enc) (pp_asz pp) v = true ->
  ptr_spec enc (pp_asz pp) (pb_of pp) o v = Some (ind, a) ->
  parse_encoded_pointer dbg be enc pp (mkrd o (enc_value (fmt_of enc) (pp_asz pp) be v ++ rest))
  = Ok (mkptr ind a, mkrd (o + nlen (enc_value (fmt_of enc) (pp_asz pp) be v)) rest).
Proof.
  intros dbg be enc pp o v rest ind a He Hasz Hv H255 Hfit Hspec.
  rewrite pep_char by assumption. rewrite Hv. cbn [negb].
  destruct (enc =? 255) eqn:E255; [lia|]. cbn [off].
  unfold ptr_spec in Hspec.
  destruct (base_spec (app_of enc) (pp_asz pp) (pb_of pp) o) as [base|]; [|discriminate].
  injection Hspec as <- <-. rewrite pev_enc_valid by assumption. reflexivity.
Qed.
