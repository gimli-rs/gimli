(* The byte level of the line WRITER model (Model/LineWr.v: insn_write, insns_write)
   is the reference encoding of the line READER's specification (Spec/LineSpec.v: enc_insn, enc_prog),
   under the translation `tr` of writer instructions into specification instructions. Hence (C04's
   insn_roundtrip) LineRd.parse_insn decodes every written instruction. Part of property C13. *)
From Coq Require Import List NArith ZArith Bool Lia ZifyBool ZifyN ZifyNat.
From Coq.Strings Require Import Byte.
Require Import GV.Base.Res GV.Base.Byt GV.Base.Ints GV.Model.Leb GV.Model.Prim GV.Spec.LebSpec.
Require Import GV.Spec.LineSpec GV.Model.LineRd GV.Proofs.LebProofs GV.Proofs.PrimProofs GV.Proofs.LineRdBase
  GV.Proofs.LineRdRefine GV.Proofs.LineRdInsn.
Require GV.Model.LineWr.
Import ListNotations.
Local Open Scope N_scope.

Module W := GV.Model.LineWr.

Definition size_ok (size : N) : Prop := size = 1 \/ size = 2 \/ size = 4 \/ size = 8.

(* LineSpec.enc_fixed is Prim.enc_un up to conversion (LineRdBase.enc_fixed_enc_un) *)
Lemma write_udata_enc be v size : size_ok size -> v < 256 ^ size ->
  write_udata be v size = Ok (enc_fixed (N.to_nat size) be v).
Proof.
  intros [-> | [-> | [-> | ->]]] Hv; unfold write_udata; cbn [N.eqb Pos.eqb].
  - change (256 ^ 1) with 256 in Hv. destruct (N.ltb_spec v 256); [reflexivity|lia].
  - change (256 ^ 2) with 65536 in Hv. unfold two16. destruct (N.ltb_spec v 65536); [reflexivity|lia].
  - change (256 ^ 4) with 4294967296 in Hv. unfold two32. destruct (N.ltb_spec v 4294967296); [reflexivity|lia].
  - reflexivity.
Qed.

(* writer instruction -> specification instruction (file ids as written: FileId::raw) *)
Definition tr (ver : N) (i : W.linsn) : insn :=
  match i with
  | W.ISpecial v => ISpecial v
  | W.ICopy => ICopy
  | W.IAdvancePc n => IAdvancePc n
  | W.IAdvanceLine d => IAdvanceLine d
  | W.ISetFile f => ISetFile (if ver <=? 4 then f + 1 else f)
  | W.ISetColumn c => ISetColumn c
  | W.INegateStatement => INegateStmt
  | W.ISetBasicBlock => ISetBasicBlock
  | W.IConstAddPc => IConstAddPc
  | W.ISetPrologueEnd => ISetPrologueEnd
  | W.ISetEpilogueBegin => ISetEpilogueBegin
  | W.ISetIsa i => ISetIsa i
  | W.IEndSequence => IEndSequence
  | W.ISetAddress (W.AConst a) => ISetAddress a
  | W.ISetAddress (W.ASym _ _) => ISetAddress 0
  | W.ISetDiscriminator d => ISetDiscriminator d
  end.

(* operands the writer can encode: u64 / i64 fields, special opcodes that are bytes, constant addresses
   that fit the address size *)
Definition insn_enc_ok (e : W.enc) (i : W.linsn) : Prop :=
  match i with
  | W.ISpecial v => v < 256
  | W.IAdvancePc n | W.ISetColumn n | W.ISetIsa n | W.ISetDiscriminator n => n < two64
  | W.IAdvanceLine d => (-9223372036854775808 <= d < 9223372036854775808)%Z
  | W.ISetFile f => f + 1 < two64
  | W.ISetAddress (W.AConst a) => size_ok (W.e_addr_size e) /\ a < 256 ^ (W.e_addr_size e)
  | W.ISetAddress (W.ASym _ _) => False
  | _ => True
  end.

Lemma uleb1 : enc_uleb 1 = [x01]. Proof. reflexivity. Qed.

(* LineInstruction::write produces exactly the reference encoding of the translated instruction *)
Lemma insn_write_enc dbg be e h i :
  h_addr_size h = W.e_addr_size e -> insn_enc_ok e i ->
  W.insn_write dbg be e i = Ok (enc_insn be h (tr (W.e_version e) i)).
Proof.
  intros Hasz Hok. destruct i; cbn [W.insn_write tr enc_insn insn_enc_ok] in *; try reflexivity.
  - rewrite (proj1 (write_uleb128_enc _ Hok)). reflexivity.
  - (* the specification's minimal signed encoding, at any fuel above 9 *)
    assert (Hi : in_i64 d = true) by (unfold in_i64; lia).
    rewrite (proj1 (write_sleb128_enc d Hi)). unfold enc_sleb.
    destruct (sleb_min_agrees 19 d) as (_ & _ & -> & _).
    destruct (sleb_min_i64 19 d [] ltac:(lia) Hi) as (_ & _ & _ & ->). reflexivity.
  - unfold W.fileid_raw. destruct (W.e_version e <=? 4).
    + unfold chk_add. change (2 ^ 64) with two64. destruct (N.ltb_spec (f + 1) two64); [|lia]. cbn [bind].
      rewrite (proj1 (write_uleb128_enc _ Hok)). reflexivity.
    + cbn [bind]. rewrite (proj1 (write_uleb128_enc f ltac:(unfold two64 in *; lia))). reflexivity.
  - rewrite (proj1 (write_uleb128_enc _ Hok)). reflexivity.
  - rewrite (proj1 (write_uleb128_enc _ Hok)). reflexivity.
  - destruct a as [a|s ad]; [|contradiction]. destruct Hok as [Hs Ha].
    assert (Hlt : 1 + W.e_addr_size e < two64) by (unfold two64; destruct Hs as [-> | [-> | [-> | ->]]]; lia).
    rewrite (proj1 (write_uleb128_enc _ Hlt)). cbn [bind].
    rewrite write_udata_enc by assumption. cbn [bind].
    cbn [enc_insn]. unfold enc_ext, len_n. cbn [length]. rewrite enc_fixed_length. rewrite Hasz.
    replace (N.of_nat (S (N.to_nat (W.e_addr_size e)))) with (1 + W.e_addr_size e) by lia.
    reflexivity.
  - rewrite (proj1 (write_uleb128_enc _ Hok)). cbn [bind].
    destruct (enc_uleb_spec d [] Hok) as (_ & _ & Hl & _).
    rewrite (proj1 (write_uleb128_enc (1 + N.of_nat (length (enc_uleb d))) ltac:(unfold two64; lia))). cbn [bind].
    cbn [enc_insn]. unfold enc_ext, len_n. cbn [length].
    replace (N.of_nat (S (length (enc_uleb d)))) with (1 + N.of_nat (length (enc_uleb d))) by lia.
    reflexivity.
Qed.

Lemma insns_write_enc dbg be e h : forall is,
  h_addr_size h = W.e_addr_size e -> Forall (insn_enc_ok e) is ->
  W.insns_write dbg be e is = Ok (enc_prog be h (map (tr (W.e_version e)) is)).
Proof.
  induction is as [|i is IH]; intros Hasz Hok; [reflexivity|].
  inversion Hok as [|x xs Hi His]; subst. cbn [W.insns_write map].
  rewrite (insn_write_enc dbg be e h i Hasz Hi). cbn [bind]. rewrite (IH Hasz His). cbn [bind].
  reflexivity.
Qed.

(* what the header must say for the written instructions to be decodable: gimli's fixed opcode_base 13
   and standard_opcode_lengths, a real address size *)
Definition hdr_matches (e : W.enc) (l : W.lenc) (h : header) : Prop :=
  h_version h = W.e_version e /\ h_addr_size h = W.e_addr_size e /\
  h_min_inst_len h = W.le_min_len l /\ h_max_ops h = W.le_max_ops l /\
  h_default_is_stmt h = W.le_default_is_stmt l /\ h_line_base h = W.le_line_base l /\
  h_line_range h = W.le_line_range l /\ h_opcode_base h = 13 /\ h_std_lengths h = W.std_opcode_lengths.

Definition enc_params_ok (e : W.enc) (l : W.lenc) : Prop :=
  size_ok (W.e_addr_size e) /\ 1 <= W.le_min_len l < 256 /\ 1 <= W.le_max_ops l < 256 /\
  1 <= W.le_line_range l < 256 /\ (-128 <= W.le_line_base l < 128)%Z.

Lemma hdr_matches_pwf e l h : hdr_matches e l h -> enc_params_ok e l -> pwf h.
Proof.
  intros (Hv & Ha & Hm & Ho & Hd & Hb & Hr & Hob & Hs) (Hsz & Hmil & Hmops & Hlr & Hlb).
  constructor; try (rewrite ?Hm, ?Ho, ?Hr, ?Hob, ?Hb; lia).
  - rewrite Ha. destruct Hsz as [-> | [-> | [-> | ->]]]; lia.
  - rewrite Hs, Hob. reflexivity.
Qed.

Lemma addr_mask_pow h : (addr_mask h = Z.of_N (256 ^ h_addr_size h) - 1)%Z.
Proof.
  unfold addr_mask. rewrite N2Z.inj_pow. change (Z.of_N 256) with (2 ^ 8)%Z.
  rewrite <- Z.pow_mul_r by lia. reflexivity.
Qed.

(* the translated instruction is well-formed for C04's decoder theorem *)
Lemma tr_insn_wf e l h i :
  hdr_matches e l h -> enc_params_ok e l -> insn_enc_ok e i ->
  (match i with W.ISpecial v => 13 <= v | _ => True end) ->
  insn_wf h (tr (W.e_version e) i) = true.
Proof.
  intros (Hv & Ha & Hm & Ho & Hd & Hb & Hr & Hob & Hs) (Hsz & _) Hok H13.
  destruct i; cbn [tr insn_wf insn_enc_ok] in *; unfold std_known, u64b; rewrite ?Hob;
    try reflexivity; unfold two64 in *; try lia.
  - destruct (W.e_version e <=? 4); lia.
  - destruct a as [a|s ad]; [|contradiction]. destruct Hok as [_ Hlt]. cbn [tr insn_wf].
    rewrite addr_mask_pow, Ha.
    assert (E : ((W.e_addr_size e =? 1) || (W.e_addr_size e =? 2) || (W.e_addr_size e =? 4) || (W.e_addr_size e =? 8)) = true)
      by (destruct Hsz as [-> | [-> | [-> | ->]]]; reflexivity).
    rewrite E. cbn [andb]. lia.
Qed.

(* every written instruction is decoded by LineRd.parse_insn to its translation *)
Theorem insn_bytes_roundtrip dbg be e l h i bytes rest :
  hdr_matches e l h -> enc_params_ok e l -> insn_enc_ok e i ->
  (match i with W.ISpecial v => 13 <= v | _ => True end) ->
  W.insn_write dbg be e i = Ok bytes ->
  parse_insn dbg be h (bytes ++ rest) = Ok (tr (W.e_version e) i, rest).
Proof.
  intros Hm Hp Hok H13 Hw.
  pose proof Hm as (_ & Ha & _).
  rewrite (insn_write_enc dbg be e h i Ha Hok) in Hw. inversion Hw; subst bytes.
  apply insn_roundtrip_lemma; [eapply hdr_matches_pwf; eassumption|].
  eapply tr_insn_wf; eassumption.
Qed.
