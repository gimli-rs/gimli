(* Whole scripts of writer calls emit programs that are well-formed for the line
   READER's specification; hence (C04 rows_refine_spec) LineRd.rows_model over the written program bytes
   equals the meaning of the script. Part of property C13. *)
From Coq Require Import List NArith ZArith Bool Lia ZifyBool ZifyN ZifyNat.
From Coq.Strings Require Import Byte.
Require Import GV.Base.Res GV.Base.Byt GV.Base.Ints GV.Model.Leb GV.Model.Prim.
Require Import GV.Spec.LineSpec GV.Model.LineRd GV.Proofs.LineRdRefine GV.Proofs.LineRdInsn.
Require GV.Spec.LineAdvSpec GV.Model.LineWr GV.Proofs.LineWrProofs GV.Proofs.LineWrSeqProofs.
Require Import GV.Proofs.LineRtBytes GV.Proofs.LineRtRows.
Import ListNotations.

Local Open Scope Z_scope.

(* the u64 row fields of the writer API *)
Definition wrow_u64 (row : W.wrow) : Prop :=
  (W.w_file row + 1 < 18446744073709551616 /\ W.w_column row < 18446744073709551616 /\
   W.w_isa row < 18446744073709551616 /\ W.w_discriminator row < 18446744073709551616)%N.

(* what the script must respect for the bytes to be readable: addresses fit the address size and stay
   below the tombstone values, set_address does not go backwards (documented), the u64 row fields *)
Fixpoint script_enc_ok (h : header) (ver : N) (lp : A.lparams) (st : A.regs * N) (ops : list P2.rop) : Prop :=
  match ops with
  | [] => True
  | o :: r =>
      (match o with
       | P2.RBegin None => True
       | P2.RBegin (Some a) => A.r_address (fst st) <= Z.of_N a < addr_mask h - 1
       | P2.RSetAddr a => A.r_address (fst st) <= Z.of_N a < addr_mask h - 1
       | P2.RRow row => wrow_u64 row /\ bounds h (r2s (P2.row_regs ver (fst st) (snd st) row))
       | P2.REnd off opi => bounds h (r2s (P2.end_regs (fst st) (snd st) off opi))
       end) /\ script_enc_ok h ver lp (snd (P2.m_step ver lp st o)) r
  end.

Lemma pwf_params_wf h : pwf h -> params_wf h = true.
Proof.
  intros [? ? ? ? ? ? Hs]. unfold params_wf.
  repeat (apply andb_true_intro; split); try lia; try (apply N.eqb_eq; exact Hs).
Qed.

Section WithHeader.
Variables (e : W.enc) (l : W.lenc) (h : header).
Hypothesis HM : hdr_matches e l h.
Hypothesis HP : enc_params_ok e l.
Let ver := W.e_version e.
Let lp := W.params_of l.
Let P : pwf h := hdr_matches_pwf e l h HM HP.

Definition fieldlike (i : W.linsn) : Prop :=
  neutral (tr ver i) /\ insn_wf h (tr ver i) = true /\ insn_enc_ok e i /\ nosym i.

Lemma fieldlike_intro i :
  match i with
  | W.ISetFile f => (f + 1 < 18446744073709551616)%N
  | W.ISetColumn n | W.ISetIsa n | W.ISetDiscriminator n => (n < 18446744073709551616)%N
  | W.INegateStatement | W.ISetBasicBlock | W.ISetPrologueEnd | W.ISetEpilogueBegin => True
  | _ => False
  end -> fieldlike i.
Proof.
  intros H. unfold fieldlike.
  destruct i; try contradiction; cbn [tr neutral insn_wf insn_enc_ok nosym];
    rewrite ?(std_known_ok e l h HM) by lia; unfold u64b, two64; repeat split; try exact I; try lia.
  fold ver. destruct (ver <=? 4)%N; lia.
Qed.

Lemma fields_like row prev : wrow_u64 row -> Forall fieldlike (W.field_insns row prev).
Proof.
  intros (Hf & Hc & Hi & Hd). unfold W.field_insns.
  repeat (apply Forall_app; split);
    match goal with |- Forall _ (if ?c then _ else _) => destruct c end;
    try constructor; try constructor; try (apply fieldlike_intro; cbn; try exact I; assumption).
Qed.

Lemma fieldlike_wf : forall is s, Forall fieldlike is -> bounds h s ->
  prog_wf_from h s (map (tr ver) is) = true /\ Forall (insn_enc_ok e) is /\ Forall nosym is.
Proof.
  induction is as [|i is IH]; intros s Hf Hb; [repeat split; constructor|].
  inversion Hf as [|x xs (Hn & Hw & He & Hs) Hrest]; subst.
  destruct (neutral_step h s _ Hn Hb Hw) as [Hstep Hb'].
  destruct (IH _ Hrest Hb') as (W1 & E1 & N1).
  cbn [map prog_wf_from]. rewrite Hstep, W1. repeat split; constructor; assumption.
Qed.

(* the operation advance of an admissible step is a u64, also on top of the previous operation index *)
Lemma op_advance_u64 pao popi ao opi :
  P2.step_ok l pao popi ao opi -> ((ao - pao) / W.le_min_len l * W.le_max_ops l + opi < 18446744073709551616)%N ->
  (P2.op_advance_value l pao popi ao opi < 18446744073709551616)%N /\
  Z.of_N popi + Z.of_N (P2.op_advance_value l pao popi ao opi) < two64z.
Proof.
  intros (_ & _ & _ & Hpo & _) Hq. pose proof HP as (_ & _ & Hmops & _).
  unfold P2.op_advance_value, two64z.
  set (q := ((ao - pao) / W.le_min_len l * W.le_max_ops l)%N) in *. lia.
Qed.

(* what one generate_row call appends *)
Lemma row_insns_wf dbg prev row r chunks d adv :
  P1.enc_ok l -> P1.synced ver prev r -> P2.row_ok l prev row -> wrow_u64 row ->
  bounds h (r2s r) -> bounds h (r2s (P2.row_regs ver r (W.w_address_offset prev) row)) ->
  W.line_chunks 3 (Z.of_N (W.w_line row) - Z.of_N (W.w_line prev)) = Ok (chunks, d) ->
  W.advance_insns dbg l d
    (P2.op_advance_value l (W.w_address_offset prev) (W.w_op_index prev) (W.w_address_offset row)
       (W.w_op_index row)) = Ok adv ->
  prog_wf_from h (r2s r) (map (tr ver) (W.field_insns row prev ++ chunks ++ adv)) = true /\
  Forall (insn_enc_ok e) (W.field_insns row prev ++ chunks ++ adv) /\
  Forall nosym (W.field_insns row prev ++ chunks ++ adv).
Proof.
  intros Hok Hsync (Hstep & Hpl & Hrl & Hq) Hu64 Hb HbF Hch Hadv.
  pose proof Hsync as (Sop & _ & Sline & _ & _ & _ & _ & _ & _ & _ & Ses).
  destruct (op_advance_u64 _ _ _ _ Hstep Hq) as [Hoadv Hw].
  set (oadv := P2.op_advance_value l (W.w_address_offset prev) (W.w_op_index prev) (W.w_address_offset row)
                 (W.w_op_index row)) in *.
  destruct (fieldlike_wf _ (r2s r) (fields_like row prev Hu64) Hb) as (W1 & E1 & N1).
  destruct (srun_iso e l h _ r _ _ HM N1 Ses (P1.row_fields ver (W.params_of l) row prev r Hsync)) as [If Ef].
  fold ver in If.
  set (r1 := P1.fields_set ver row r) in *.
  destruct (chunks_wf e l h HM 3 _ chunks d Hch (r2s r1) Hb) as (W2 & R2 & E2 & N2 & B2 & Hd).
  { cbn. rewrite Sline. unfold two64z. lia. }
  set (delta := Z.of_N (W.w_line row) - Z.of_N (W.w_line prev)) in *.
  set (r2 := A.line_adv (delta - d) r1) in *.
  change (s_add_line (delta - d) (r2s r1)) with (r2s r2) in R2, B2.
  destruct (advance_wf e l h HM HP dbg d oadv adv r2 Hok Hd Hoadv Hadv) as (W3 & E3 & N3).
  { unfold P1.regs_ok. cbn. destruct Hstep as (_ & _ & _ & Hpo & _). lia. }
  { exact Ef. }
  { exact B2. }
  { unfold oadv, r2, r1, delta. rewrite (P2.row_regs_reached l ver prev row r d Hok Hsync Hstep). exact HbF. }
  { cbn. rewrite Sop. exact Hw. }
  fold ver in W2, R2, W3.
  rewrite !map_app, !prog_wf_from_app, If. cbn [snd]. rewrite R2. cbn [snd].
  rewrite W1, W2, W3. split; [reflexivity|].
  split; (apply Forall_app; split; [assumption | apply Forall_app; split; assumption]).
Qed.

(* what one end_sequence call appends *)
Lemma end_insns_wf prev off opi r :
  P1.enc_ok l -> P1.synced ver prev r -> P2.end_ok l prev off opi ->
  bounds h (r2s r) -> bounds h (r2s (P2.end_regs r (W.w_address_offset prev) off opi)) ->
  let oadv := P2.op_advance_value l (W.w_address_offset prev) (W.w_op_index prev) off opi in
  let new := (if negb (oadv =? 0)%N then [W.IAdvancePc oadv] else []) ++ [W.IEndSequence] in
  prog_wf_from h (r2s r) (map (tr ver) new) = true /\ Forall (insn_enc_ok e) new /\ Forall nosym new.
Proof.
  intros Hok (Sop & _) (Hstep & Hq) Hb HbF oadv new. subst new.
  destruct (op_advance_u64 _ _ _ _ Hstep Hq) as [Hoadv Hw]. fold oadv in Hoadv, Hw.
  destruct (negb (oadv =? 0)%N); cbn [app map tr prog_wf_from exec_spec fst];
    rewrite (endseq_step e l h HM HP); [|split; [reflexivity|]; split; repeat constructor].
  rewrite (advpc_step e l h HM HP (r2s r) oadv Hoadv Hb).
  - split; [reflexivity|]. split; repeat constructor. exact Hoadv.
  - cbn. rewrite Sop. lia.
  - cbn. rewrite Sop. exact Hw.
  - (* the address after the advance is that of the end_sequence row *)
    replace (s_advance h (Z.of_N oadv) (r2s r)) with (r2s (A.op_adv (W.params_of l) (Z.of_N oadv) r))
      by (pose proof HM as (_ & _ & Hmil & Hmops & _); unfold A.op_adv, s_advance, r2s; cbn;
          rewrite Hmil, Hmops; reflexivity).
    unfold oadv. rewrite (P2.op_advance_vliw l _ _ _ _ _ Hok Hstep Sop). apply HbF.
Qed.


Lemma setaddr_wf a r : bounds h (r2s r) -> A.r_address r <= Z.of_N a < addr_mask h - 1 ->
  prog_wf_from h (r2s r) (map (tr ver) [W.ISetAddress (W.AConst a)]) = true /\
  Forall (insn_enc_ok e) [W.ISetAddress (W.AConst a)] /\ Forall nosym [W.ISetAddress (W.AConst a)] /\
  bounds h (r2s (A.set_address (Z.of_N a) r)).
Proof.
  intros Hb Ha. cbn [map tr prog_wf_from]. rewrite (setaddr_step e l h HM HP (r2s r) a Hb Ha).
  split; [reflexivity|]. split; [|split; [repeat constructor|]].
  - constructor; [|constructor]. pose proof HP as (Hsz & _). pose proof HM as (_ & Hasz & _).
    split; [exact Hsz|]. rewrite addr_mask_pow, Hasz in Ha. lia.
  - destruct Hb as [Hba Hbl]. split; [cbn; lia|exact Hbl].
Qed.

(* one writer call appends a well-formed, encodable piece of program and keeps the registers in bounds *)
Lemma rop_wf dbg p r o ops p' new :
  W.p_lenc p = l -> W.p_enc p = e -> P1.enc_ok l ->
  P1.synced ver (W.p_prev p) r -> bounds h (r2s r) ->
  P2.script_ok e l (W.p_prev p) (W.p_in_seq p) (o :: ops) ->
  script_enc_ok h ver lp (r, W.w_address_offset (W.p_prev p)) (o :: ops) ->
  P2.apply_rop dbg p o = Ok p' -> W.p_insns p' = W.p_insns p ++ new ->
  prog_wf_from h (r2s r) (map (tr ver) new) = true /\ Forall (insn_enc_ok e) new /\ Forall nosym new /\
  bounds h (r2s (fst (snd (P2.m_step ver lp (r, W.w_address_offset (W.p_prev p)) o)))).
Proof.
  intros Hl He Hok Hsync Hb Hscript [Ho _] Hap Hins.
  destruct o as [[a|]|a|row|off opi]; cbn [P2.script_ok] in Hscript; cbn [P2.apply_rop] in Hap;
    cbn [P2.m_step fst snd] in *.
  - destruct Hscript as (Hin & _). unfold W.begin_sequence in Hap. rewrite Hin in Hap. injection Hap as <-.
    apply app_inv_head in Hins. subst new. apply setaddr_wf; assumption.
  - destruct Hscript as (Hin & _). unfold W.begin_sequence in Hap. rewrite Hin in Hap. injection Hap as <-.
    rewrite <- (app_nil_r (W.p_insns _)) in Hins at 1. apply app_inv_head in Hins. subst new.
    repeat split; try constructor; apply Hb.
  - injection Hap as <-. apply app_inv_head in Hins. subst new. apply setaddr_wf; assumption.
  - destruct Hscript as (Hrow & _). destruct Ho as (Hu64 & HbF). rewrite <- Hl in Hok, Hrow.
    destruct (P2.generate_row_parts dbg p row Hok Hrow) as (chunks & d & adv & Ech & Eadv & Egen).
    rewrite Egen in Hap. injection Hap as <-. apply app_inv_head in Hins. subst new.
    rewrite Hl in Hok, Hrow, Eadv.
    destruct (row_insns_wf dbg _ row r chunks d adv Hok Hsync Hrow Hu64 Hb HbF Ech Eadv)
      as (W1 & E1 & N1).
    repeat split; try assumption; apply HbF.
  - destruct Hscript as (Hend & _). rewrite <- Hl in Hok, Hend.
    rewrite (P2.end_sequence_parts dbg p off opi Hok Hend) in Hap. injection Hap as <-.
    apply app_inv_head in Hins. subst new. rewrite Hl in *.
    destruct (end_insns_wf _ off opi r Hok Hsync Hend Hb Ho) as (W1 & E1 & N1).
    repeat split; try assumption; apply (bounds_init h lp).
Qed.

Lemma script_wf dbg ops : forall p r,
  W.p_lenc p = l -> W.p_enc p = e ->
  P1.enc_ok l -> (ver <= 5)%N ->
  P1.synced ver (W.p_prev p) r -> bounds h (r2s r) ->
  P2.script_ok e l (W.p_prev p) (W.p_in_seq p) ops ->
  script_enc_ok h ver lp (r, W.w_address_offset (W.p_prev p)) ops ->
  exists p' new,
    P2.apply_rops dbg p ops = Ok p' /\ W.p_insns p' = W.p_insns p ++ new /\
    prog_wf_from h (r2s r) (map (tr ver) new) = true /\
    Forall (insn_enc_ok e) new /\ Forall nosym new /\
    A.run lp (map (W.denote ver) new) r =
      (fst (P2.meaning ver lp (r, W.w_address_offset (W.p_prev p)) ops),
       fst (snd (P2.meaning ver lp (r, W.w_address_offset (W.p_prev p)) ops))).
Proof.
  induction ops as [|o ops IH]; intros p r Hl He Hok Hver Hsync Hb Hscript Henc.
  - exists p, []. cbn. rewrite app_nil_r. repeat split; constructor.
  - destruct (P2.rop_correct dbg p r o ops) as (p1 & new1 & E1 & I1 & En1 & L1 & F1 & R1 & S1 & O1 & K1);
      rewrite ?Hl, ?He; try assumption.
    destruct (rop_wf dbg p r o ops p1 new1 Hl He Hok Hsync Hb Hscript Henc E1 I1) as (W1 & C1 & N1 & Hb1).
    destruct Henc as [_ Henc]. rewrite Hl, He in *. fold ver lp in R1, S1, O1.
    cbn [P2.apply_rops P2.meaning]. rewrite E1. cbn [bind].
    destruct (P2.m_step ver lp (r, W.w_address_offset (W.p_prev p)) o) as [rows1 [r1 pao1]].
    cbn [fst snd] in *. subst pao1.
    destruct (IH p1 r1 L1 En1 Hok Hver S1 Hb1 K1 Henc) as (p' & new & Eap & Eins & W2 & C2 & N2 & R2).
    exists p', (new1 ++ new). split; [exact Eap|].
    split; [rewrite Eins, I1; symmetry; apply app_assoc|].
    pose proof Hsync as (_ & _ & _ & _ & _ & _ & _ & _ & _ & _ & Ses).
    destruct (srun_iso e l h new1 r _ _ HM N1 Ses R1) as [Iso _]. fold ver in Iso.
    rewrite map_app, prog_wf_from_app, Iso. cbn [snd]. rewrite W1, W2.
    split; [reflexivity|]. repeat (split; [apply Forall_app; split; assumption|]).
    rewrite map_app, P1.run_app, R1. cbv beta iota. rewrite R2.
    destruct (P2.meaning ver lp (r1, W.w_address_offset (W.p_prev p1)) ops) as [rows [r2 pao2]]. reflexivity.
Qed.

(* the same for a program without rows yet, from the initial registers *)
Lemma fresh_script_wf dbg p ops :
  P2.fresh_prog e l p -> P1.enc_ok l -> (ver <= 5)%N ->
  P2.script_ok e l (W.wrow_initial e l) false ops ->
  script_enc_ok h ver lp (A.init_regs lp, 0%N) ops ->
  exists p',
    P2.apply_rops dbg p ops = Ok p' /\
    prog_wf_from h (r2s (A.init_regs lp)) (map (tr ver) (W.p_insns p')) = true /\
    Forall (insn_enc_ok e) (W.p_insns p') /\ Forall nosym (W.p_insns p') /\
    A.run lp (map (W.denote ver) (W.p_insns p')) (A.init_regs lp) =
      (fst (P2.meaning ver lp (A.init_regs lp, 0%N) ops), fst (snd (P2.meaning ver lp (A.init_regs lp, 0%N) ops))).
Proof.
  intros (Ins & Prev & Seq & Enc & Lenc) Hok Hver Hscript Henc.
  destruct (script_wf dbg ops p (A.init_regs lp) Lenc Enc Hok Hver) as (p' & new & Eap & Eins & Hnew).
  - rewrite Prev. apply P2.seq_reset, Hver.
  - apply bounds_init.
  - rewrite Prev, Seq. exact Hscript.
  - rewrite Prev. exact Henc.
  - rewrite Ins in Eins. cbn [app] in Eins. rewrite Prev in Hnew. cbn [W.wrow_initial W.w_address_offset] in Hnew.
    exists p'. rewrite Eins. split; [exact Eap|exact Hnew].
Qed.

End WithHeader.
