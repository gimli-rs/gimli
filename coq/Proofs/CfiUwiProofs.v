(* Proofs/CfiUwiProofs.v — unwind_info_for_address = address lookup (C05) composed with the table
   of the FDE found (C06): the row returned is the row of the DWARF call-frame table (CfaSpec) of
   the first FDE in section order that covers the address. *)
From Coq Require Import List NArith ZArith Bool Lia ZifyBool ZifyN ZifyNat.
From Coq.Strings Require Import Byte.
Require Import GV.Base.Res GV.Base.Byt GV.Base.Ints GV.Model.Leb GV.Model.Prim.
Require Import GV.Spec.CfaSpec GV.Model.CfiRun GV.Model.CfiRd GV.Model.CfiUwi GV.Model.CfiRunSetLoc.
Require GV.Proofs.CfiRunProofs.
Require Import GV.Proofs.CfiRdBase GV.Proofs.CfiRdPtr GV.Proofs.CfiRdBs GV.Proofs.CfiRdIter GV.Proofs.CfiRdSafe GV.Proofs.CfiRdHdr GV.Proofs.CfiRdEnt.
Import ListNotations.
Local Open Scope N_scope.

Module R := GV.Proofs.CfiRunProofs.

Definition outcome_err (o : outcome) : res row :=
  match o with
  | Done => Err ENoUnwindInfoForAddress
  | Fail e => Err e
  | Crash => Panic
  | Fuel => OutOfFuel
  end.

(* first delivered row that contains the address; else how the table ended *)
Definition pick (a : N) (rows : list row) (o : outcome) : res row :=
  match find (fun r => row_contains r a) rows with
  | Some r => Ok r
  | None => outcome_err o
  end.

(* FrameDescriptionEntry::unwind_info_for_address returns the first row of fde.rows() containing the address,
   whatever the instruction parser of its iterator *)
Lemma find_row_collect_g : forall P c fuel a t it,
  fst (find_row_g P fuel c a t it) =
  pick a (fst (fst (collect_g P fuel c t it))) (snd (fst (collect_g P fuel c t it))).
Proof.
  intros P c. induction fuel as [|f IH]; intros a t it; [reflexivity|].
  cbn [find_row_g collect_g].
  destruct (next_row_g P c t it) as [[[r|]|e| |] [t' it']]; try reflexivity.
  specialize (IH a t' it').
  destruct (collect_g P f c t' it') as [[rows o] cx]. cbn [fst snd] in *.
  unfold pick. cbn [find]. destruct (row_contains r a); [reflexivity|].
  rewrite IH. reflexivity.
Qed.

Lemma find_row_g_old : forall dbg d P,
  (forall off bs, P off bs = parse_insn dbg (d_be d) (d_asize d) (d_aarch64 d) off bs) ->
  forall fuel c a t it, find_row_g P fuel c a t it = find_row fuel dbg c d a t it.
Proof.
  intros dbg d P HP. induction fuel as [|f IH]; intros c a t it; [reflexivity|]. cbn [find_row_g find_row].
  rewrite (R.next_row_g_old dbg d P HP). destruct (next_row dbg c d t it) as [[[r|]|e| |] [t' it']]; try reflexivity.
  destruct (row_contains r a); [reflexivity|]. apply IH.
Qed.

Lemma fde_uwi_pick : forall dbg c f cx a,
  fst (CfiRun.unwind_info_for_address dbg c f cx a) =
  pick a (fst (fst (fde_rows dbg c f cx))) (snd (fst (fde_rows dbg c f cx))).
Proof.
  intros. rewrite R.fde_rows_with. unfold CfiRun.unwind_info_for_address, R.rows_with.
  destruct (negb (valid_asize (f_asize f))); [reflexivity|].
  destruct (table_new dbg c f cx) as [t|e| |]; try reflexivity.
  rewrite <- (find_row_g_old dbg (f_dparams f) (R.insn_parser dbg (f_dparams f)) (fun _ _ => eq_refl)).
  apply find_row_collect_g.
Qed.

Definition srow_contains (sr : srow) (a : N) : bool := (sr_start sr <=? a) && (a <? sr_end sr).

(* what a lookup in the spec table (rows delivered, outcome) must give *)
Definition uwi_result_spec (a : N) (srows : list srow) (o : outcome) (result : res row) : Prop :=
  match find (fun sr => srow_contains sr a) srows with
  | Some sr => exists r, result = Ok r /\ R.row_equiv r sr /\ sr_start sr <= a /\ a < sr_end sr
  | None => result = outcome_err o
  end.

Lemma pick_row_equiv : forall a rows srows o,
  Forall2 R.row_equiv rows srows -> uwi_result_spec a srows o (pick a rows o).
Proof.
  intros a rows srows o H. unfold uwi_result_spec, pick. induction H as [|r sr rows srows Hr _ IH]; [reflexivity|].
  cbn [find].
  assert (Hc : row_contains r a = srow_contains sr a).
  { destruct Hr as (H1 & H2 & _). unfold row_contains, srow_contains. rewrite H1, H2. reflexivity. }
  rewrite Hc. destruct (srow_contains sr a) eqn:E; [|exact IH].
  exists r. split; [reflexivity|]. split; [exact Hr|]. unfold srow_contains in E. lia.
Qed.

Lemma asz_ok_valid : forall a, asz_ok a -> valid_asize a = true.
Proof. intros a [->|[->|[->| ->]]]; reflexivity. Qed.

(* one FDE: the row returned is the spec row containing the address *)
Lemma fde_uwi_spec : forall dbg cp f cx a,
  valid_asize (f_asize f) = true -> cap_full (max_stack cp) 0 = false ->
  uwi_result_spec a (fst (R.spec_of dbg cp f)) (snd (R.spec_of dbg cp f))
                  (fst (CfiRun.unwind_info_for_address dbg cp f cx a)).
Proof.
  intros dbg cp f cx a Hv Hc. rewrite fde_uwi_pick.
  destruct (R.model_eq_spec dbg cp f cx Hv Hc) as (H1 & H2). rewrite H2.
  apply pick_row_equiv. exact H1.
Qed.

Lemma chain_covers : forall l0 lastx init a,
  R.chain init (l0 ++ [lastx]) -> Forall R.ordered l0 -> init <= a -> a < snd lastx ->
  exists x, In x (l0 ++ [lastx]) /\ fst x <= a /\ a < snd x.
Proof.
  induction l0 as [|x l0 IH]; intros lastx init a Hch Ho H1 H2.
  - cbn [app R.chain] in *. destruct Hch as [Hf _]. exists lastx. split; [left; reflexivity|lia].
  - cbn [app R.chain] in Hch. destruct Hch as [Hf Hch]. inversion Ho as [|? ? Hx Ho']; subst.
    unfold R.ordered in Hx.
    destruct (N.lt_ge_cases a (snd x)) as [Hlt|Hge].
    + exists x. split; [left; reflexivity|lia].
    + destruct (IH lastx (snd x) a Hch Ho' Hge H2) as (y & Hy & Hy2). exists y. split; [right; exact Hy|exact Hy2].
Qed.

Lemma pick_done_succeeds : forall init end_addr rows a,
  R.shape init end_addr (map R.mspan rows) Done -> init <= a -> a < end_addr ->
  exists r, pick a rows Done = Ok r /\ row_contains r a = true.
Proof.
  intros init end_addr rows a [Hch (l0 & lastx & Hl & Hlast & Ho)] H1 H2. unfold pick.
  rewrite Hl in Hch. rewrite <- Hlast in H2.
  destruct (chain_covers l0 lastx _ a Hch Ho H1 H2) as (x & Hx & Hx1 & Hx2).
  rewrite <- Hl in Hx. apply in_map_iff in Hx as (r & <- & Hin). cbn [R.mspan fst snd] in *.
  destruct (find (fun r => row_contains r a) rows) as [y|] eqn:Ey.
  - exists y. split; [reflexivity|]. apply find_some in Ey. tauto.
  - eapply find_none in Ey; [|exact Hin]. unfold row_contains in Ey. lia.
Qed.

Lemma end_address_covers : forall be aa fd a, asz_ok (ci_asz (fd_cie fd)) ->
  covers fd a = true -> fd_init fd <= a /\ a < end_address (fde_in_of be aa fd).
Proof.
  intros be aa fd a Hasz H. rewrite R.end_address_spec by (apply asz_ok_valid; exact Hasz).
  unfold covers in H. unfold spec_end. cbn [fde_in_of CfiRun.f_init CfiRun.f_range f_asize]. lia.
Qed.

(* UnwindSection:: and EhHdrTable::unwind_info_for_address: `lookup` is the outcome of the address lookup,
   `uwi` the unwind_info_for_address of the FDE found *)
Definition uwi_via (uwi : CfiRd.fde -> ctx -> N -> res row * ctx) (lookup : res CfiRd.fde) (cx : ctx) (a : N)
  : res row * ctx :=
  match lookup with
  | Ok fd => uwi fd cx a
  | Err e => (Err e, cx)
  | Panic => (Panic, cx)
  | OutOfFuel => (OutOfFuel, cx)
  end.

Section Compose.
  Variables (dbg : bool) (c : scfg) (aa : bool).
  Variable uwi : CfiRd.fde -> ctx -> N -> res row * ctx.
  (* the FDE's table, of which uwi returns the first row containing the address *)
  Variable rows : CfiRd.fde -> ctx -> (list row * outcome) * ctx.
  Hypothesis uwi_pick : forall fd cx a,
    fst (uwi fd cx a) = pick a (fst (fst (rows fd cx))) (snd (fst (rows fd cx))).

  Lemma uwi_via_pick : forall lookup cx a,
    fst (uwi_via uwi lookup cx a) =
    match lookup with
    | Ok fd => pick a (fst (fst (rows fd cx))) (snd (fst (rows fd cx)))
    | Err e => Err e
    | Panic => Panic
    | OutOfFuel => OutOfFuel
    end.
  Proof. intros [fd|e| |] cx a; try reflexivity. apply uwi_pick. Qed.

  (* a section whose traversal completes and whose FDEs all parse: the first FDE in section order that covers
     the address is used, also when FDE ranges overlap *)
  Lemma uwi_via_linear : forall sec cx a items fds,
    asz_ok (sc_asz c) -> entries_all dbg c sec = Ok (items, None) -> parsed_fdes dbg c sec items = Some fds ->
    fst (uwi_via uwi (fde_for_address dbg c sec a) cx a) =
    match find (fun f => covers f a) fds with
    | Some fd => fst (uwi fd cx a)
    | None => Err ENoUnwindInfoForAddress
    end.
  Proof.
    intros sec cx a items fds Hc He Hp. rewrite (linear_lookup_lem dbg c sec a items fds Hc He Hp).
    destruct (find _ fds); reflexivity.
  Qed.

  (* the header path uses whatever FDE the chosen table row designates *)
  Lemma uwi_via_hdr : forall hb h sec cx a, asz_ok (sc_asz c) ->
    fst (uwi_via uwi (hdr_fde_for_address dbg hb h c sec a) cx a) =
    (let* p := hdr_lookup dbg hb h a in
     let* o := pointer_to_offset dbg h p in
     let* fd := fde_from_offset dbg c sec o in
     if covers fd a then pick a (fst (fst (rows fd cx))) (snd (fst (rows fd cx)))
     else Err ENoUnwindInfoForAddress).
  Proof.
    intros hb h sec cx a Hc. rewrite uwi_via_pick, hdr_fde_for_address_covers by exact Hc.
    destruct (hdr_lookup dbg hb h a) as [p| | |]; try reflexivity. cbn [bind].
    destruct (pointer_to_offset dbg h p) as [o| | |]; try reflexivity. cbn [bind].
    destruct (fde_from_offset dbg c sec o) as [fd| | |]; try reflexivity. cbn [bind].
    destruct (covers fd a); reflexivity.
  Qed.

  (* success <-> some FDE covers the address, when the table of the first covering FDE evaluates to its end *)
  Lemma uwi_via_succeeds_iff : forall sec cx a items fds,
    (forall fd, R.shape (fd_init fd) (end_address (fde_in_of (sc_be c) aa fd))
                        (map R.mspan (fst (fst (rows fd cx)))) (snd (fst (rows fd cx)))) ->
    asz_ok (sc_asz c) -> entries_all dbg c sec = Ok (items, None) -> parsed_fdes dbg c sec items = Some fds ->
    (forall fd, find (fun f => covers f a) fds = Some fd -> snd (fst (rows fd cx)) = Done) ->
    ((exists r, fst (uwi_via uwi (fde_for_address dbg c sec a) cx a) = Ok r /\ row_contains r a = true)
     <-> exists fd, In fd fds /\ covers fd a = true).
  Proof.
    intros sec cx a items fds Hshape Hc He Hp Hdone. rewrite (uwi_via_linear sec cx a items fds Hc He Hp).
    destruct (find (fun f => covers f a) fds) as [fd|] eqn:Ef.
    - pose proof (find_some _ _ Ef) as [Hin Hcov]. split; [eauto|intros _].
      destruct (end_address_covers (sc_be c) aa fd a (covering_fde_asz _ _ _ _ _ _ _ Hp Hc Ef) Hcov) as [H1 H2].
      rewrite uwi_pick. specialize (Hshape fd). rewrite (Hdone fd eq_refl) in *.
      eapply pick_done_succeeds; eassumption.
    - split; [intros (r & Hr & _); discriminate|].
      intros (fd & Hin & Hcov). eapply find_none in Ef; [|exact Hin]. cbv beta in Ef. congruence.
  Qed.

  (* no panic, fuel suffices: every section, every address *)
  Lemma uwi_via_total : forall sec cx a,
    (forall fd, snd (fst (rows fd cx)) <> Crash /\ snd (fst (rows fd cx)) <> Fuel) -> asz_ok (sc_asz c) ->
    fst (uwi_via uwi (fde_for_address dbg c sec a) cx a) <> Panic /\
    fst (uwi_via uwi (fde_for_address dbg c sec a) cx a) <> OutOfFuel.
  Proof.
    intros sec cx a Hnp Hc. rewrite uwi_via_pick.
    pose proof (fde_for_address_returns dbg c sec a Hc) as [S1 S2].
    destruct (fde_for_address dbg c sec a) as [fd|e| |]; try congruence; [|split; discriminate].
    unfold pick. destruct (find _ _); [split; discriminate|].
    destruct (Hnp fd) as [N1 N2].
    destruct (snd (fst (rows fd cx))); cbn [outcome_err]; try congruence; split; discriminate.
  Qed.
End Compose.

(* the two instances for C06's evaluator on the adapter's record *)
Lemma fde_in_uwi_pick : forall dbg cp c aa fd cx a,
  fst (CfiRun.unwind_info_for_address dbg cp (fde_in_of (sc_be c) aa fd) cx a) =
  pick a (fst (fst (fde_rows dbg cp (fde_in_of (sc_be c) aa fd) cx)))
         (snd (fst (fde_rows dbg cp (fde_in_of (sc_be c) aa fd) cx))).
Proof. intros. apply fde_uwi_pick. Qed.

Lemma uwi_first_covering : forall dbg cp c aa sec cx a items fds,
  asz_ok (sc_asz c) -> entries_all dbg c sec = Ok (items, None) -> parsed_fdes dbg c sec items = Some fds ->
  fst (unwind_info_for_address dbg cp c aa sec cx a) =
  match find (fun f => covers f a) fds with
  | Some fd => fst (CfiRun.unwind_info_for_address dbg cp (fde_in_of (sc_be c) aa fd) cx a)
  | None => Err ENoUnwindInfoForAddress
  end.
Proof. intros dbg cp c aa. exact (uwi_via_linear dbg c _). Qed.

(* every FDE of the section decodes DW_CFA_set_loc operands as plain addresses (no 'R', or no set_loc reached) *)
Definition section_setloc_plain (dbg : bool) (c : scfg) (aa : bool) (fds : list CfiRd.fde) : Prop :=
  forall fd, In fd fds -> setloc_plain dbg (sc_be c) aa fd = true.

(* .eh_frame at 0x1000, CIE "zR" with absolute udata4 FDE addresses and initial instructions
   def_cfa r7+8; offset r16 at cfa-8. Two OVERLAPPING FDEs: [0x2000,0x2040) with three rows and
   [0x2008,0x206c) with one. *)
Definition ex_uw_cfg : scfg := mkcfg true false 8 (mksb (Some 4096) None None).
Definition ex_wires (l : list wire) : list byte := concat (map (enc_wire false 8) l).
Definition ex_uw_es : list CfiSpec.entry :=
  [ CfiSpec.ECie (CfiSpec.mkcie_rec false 1 true [CfiSpec.AR 3] 8 1 (-8) 16 (ex_wires [WDefCfa 7 8; WOffset0 16 1]));
    CfiSpec.EFde (CfiSpec.mkfde_rec false 0%nat 8192 64 0 []
                    (ex_wires [WAdvanceLoc0 4; WDefCfaOffset 16; WAdvanceLoc0 8; WOffset0 3 2]));
    CfiSpec.EFde (CfiSpec.mkfde_rec false 0%nat 8200 100 0 [] (ex_wires [WDefCfaOffset 99])) ].
Definition ex_uw_sec : list byte := CfiSpec.enc_section (sp_of ex_uw_cfg) ex_uw_es.
Definition ex_uw_fds : list CfiRd.fde :=
  Eval vm_compute in
    match entries_all true ex_uw_cfg ex_uw_sec with
    | Ok (items, _) => match parsed_fdes true ex_uw_cfg ex_uw_sec items with Some l => l | None => [] end
    | _ => []
    end.
Definition ex_heap : caps := {| max_stack := Some 4%nat; max_rules := Some 192%nat |}.
Definition ex_ctx : ctx := {| c_stack := []; c_initial_rule := None; c_init := true |}.

(* an FDE whose first instruction is DW_CFA_set_loc under pcrel|sdata4 *)
Definition ex_sl_es : list CfiSpec.entry :=
  [ CfiSpec.ECie (CfiSpec.mkcie_rec false 1 true [CfiSpec.AR 27] 8 1 (-8) 16 []);
    CfiSpec.EFde (CfiSpec.mkfde_rec false 0%nat 256 64 0 []
                    (n2b 1 :: CfiSpec.enc_value 11 8 false 512 ++ [n2b 0])) ].
Definition ex_sl_sec : list byte := CfiSpec.enc_section (sp_of ex_uw_cfg) ex_sl_es.
