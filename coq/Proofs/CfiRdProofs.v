(* Proofs/CfiRdProofs.v — the concrete inputs that Properties/C05.v names (the two overflow-prone
   headers, the example sections and tables), after the proof files of the reader:
     CfiRdBase  encoders read back, reader algebra, DW_EH_PE bytes
     CfiRdPtr   parse_encoded_value / parse_encoded_pointer = ptr_spec (all inputs; round trip)
     CfiRdBs    EhHdrTable::lookup loop invariant, bs_index
     CfiRdIter  fde_for_address = exhaustive scan
     CfiRdSafe  no panic / fuel suffices for every byte string; progress of the readers
     CfiRdEnt   decoding of sections produced by Spec.CfiSpec.enc_section
     CfiRdHdr   the .eh_frame_hdr path agrees with the linear search
     CfiRdHist  EhHdrTableIter as a state machine *)
From Coq Require Import List NArith ZArith Bool Lia ZifyBool ZifyN ZifyNat.
From Coq.Strings Require Import Byte.
Require Import GV.Base.Res GV.Base.Byt GV.Base.Ints GV.Model.Leb GV.Model.Prim GV.Spec.LebSpec.
Require Import GV.Spec.CfiSpec GV.Model.CfiRd.
Require Export GV.Proofs.CfiRdBase GV.Proofs.CfiRdPtr GV.Proofs.CfiRdBs GV.Proofs.CfiRdIter
               GV.Proofs.CfiRdSafe GV.Proofs.CfiRdEnt GV.Proofs.CfiRdHdr GV.Proofs.CfiRdHist.
Import ListNotations.
Local Open Scope N_scope.

Definition no_bases : sbases := mksb None None None.

(* .eh_frame_hdr: version 1, eh_frame_ptr udata4 = 0x100, fde_count udata8 = 2^63, table udata8:
   (len / 2) * row_size does not fit u64 *)
Definition mul_witness : list byte :=
  map n2b [1; 3; 4; 4;  0; 1; 0; 0;  0; 0; 0; 0; 0; 0; 0; 128;
           0; 0; 0; 0; 0; 0; 0; 0; 0; 0; 0; 0; 0; 0; 0; 0].

(* one row (0x10 -> address 0xff) below eh_frame_ptr = 0x100 *)
Definition s1_witness : list byte :=
  map n2b [1; 3; 3; 3;  0; 1; 0; 0;  1; 0; 0; 0;  16; 0; 0; 0;  255; 0; 0; 0].

(* a three-row udata4 table: locations 0x100,0x200,0x300 -> addresses 0x1010,0x1040,0x1070 *)
Definition ex_rows : list (list byte * list byte) :=
  [ (un_bytes 4 false 256, un_bytes 4 false 4112); (un_bytes 4 false 512, un_bytes 4 false 4160);
    (un_bytes 4 false 768, un_bytes 4 false 4208) ].
Definition ex_hdr : hdr := mkhdr 8 false (Direct 4096) 3 3 (mkrd 12 (flat ex_rows)).

(* .eh_frame at 0x1000: CIE "zPLR" (personality pcrel|sdata4 indirect, LSDA funcrel|udata4,
   addresses pcrel|sdata4), two FDEs, a zero terminator, then garbage that must not be reported *)
Definition ex_cfg : scfg := mkcfg true false 8 (mksb (Some 4096) (Some 8192) (Some 12288)).
Definition ex_cie : cie_rec :=
  mkcie_rec false 1 true [AP 155 (2 ^ 64 - 64); AL 67; AR 27] 8 1 (-8) 16 (map n2b [0; 0; 0]).
Definition ex_es : list entry :=
  [ ECie ex_cie;
    EFde (mkfde_rec false 0%nat 4096 32 5 [] (map n2b [0; 0]));
    EFde (mkfde_rec true 0%nat (2 ^ 64 - 256) 16 7 (map n2b [0]) []);
    EZero;
    EFde (mkfde_rec false 0%nat 1 1 1 [] []) ].

(* the two FDEs of ex_es as the reader decodes them, and a header for that section:
   eh_frame_ptr = 0x1000 (udata4), two udata4 rows sorted by initial address *)
Definition ex_sec : list byte := enc_section (sp_of ex_cfg) ex_es.
Definition ex_fds : list fde :=
  Eval vm_compute in
    match entries_all true ex_cfg ex_sec with
    | Ok (items, _) => match parsed_fdes true ex_cfg ex_sec items with Some l => l | None => [] end
    | _ => []
    end.
Definition ex_rows2 : list (list byte * list byte) :=
  [ (un_bytes 4 false 3907, un_bytes 4 false (4096 + 51)); (un_bytes 4 false 8228, un_bytes 4 false (4096 + 28)) ].
Definition ex_hdr2 : hdr := mkhdr 8 false (Direct 4096) 2 3 (mkrd 12 (flat ex_rows2)).

(* the rows of ex_hdr decoded, and the same table followed by 8 padding bytes *)
Definition ex_dec : list (pointer * pointer) :=
  [(Direct 256, Direct 4112); (Direct 512, Direct 4160); (Direct 768, Direct 4208)].
Definition ex_hdr_pad : hdr := mkhdr 8 false (Direct 4096) 3 3 (mkrd 12 (flat ex_rows ++ map n2b [9; 9; 9; 9; 9; 9; 9; 9])).
