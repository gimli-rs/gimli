(* Proofs/ConvertLineSafe.v — property C12, ConvertLineProgram (Model/ConvertLine.v):
   read_row never panics, its fuel suffices, the private row stays inside the address size, every returned event
   consumed input or left the SetAddress/ConvertRow states — for EVERY byte string (both build modes), for every
   header that LineProgramHeader::parse can produce (C04's hdr_ok). Then: the whole-program event iteration
   terminates within its fuel. Uses C04's parse_insn_good / execute_good. *)
From Coq Require Import List NArith ZArith Bool Lia ZifyBool ZifyN ZifyNat.
From Coq.Strings Require Import Byte.
Require Import GV.Base.Res GV.Base.Byt GV.Base.Ints GV.Model.Leb GV.Model.Prim GV.Spec.LineSpec GV.Model.LineRd
               GV.Proofs.LineRdBase GV.Proofs.LineRdMono GV.Model.LineWr GV.Model.ConvertLine
               GV.Proofs.ConvertLineProofs.
Import ListNotations.
Local Open Scope N_scope.

(* ------------------------------------------------------------------ DW_LNE_define_file *)

Lemma read_cstr_no_nul : forall bs s r, read_cstr bs = Ok (s, r) -> has_nul s = false.
Proof.
  induction bs as [|b bs IH]; cbn [read_cstr]; intros s r H; [discriminate|].
  destruct (b2n b =? 0) eqn:E.
  { inversion H. reflexivity. }
  destruct (read_cstr bs) as [[s' t]|e| |]; cbn [bind] in H; try discriminate.
  inversion H; subst. unfold has_nul. cbn [existsb]. rewrite E. cbn [orb]. exact (IH _ _ eq_refl).
Qed.

(* what the decoder guarantees about a DW_LNE_define_file entry: an inline NUL-free path, no source *)
Definition define_ok (f : file_entry) : Prop :=
  exists p, fe_path f = VString p /\ has_nul p = false /\ fe_source f = None.

Ltac crunch H :=
  repeat match type of H with
  | bind ?x _ = Ok _ =>
      let v := fresh "v" in let E := fresh "E" in
      destruct x as [v|?| |] eqn:E; cbn [bind] in H; try discriminate H;
      repeat match goal with v : (_ * _)%type |- _ => destruct v end
  | (if ?c then _ else _) = Ok _ => let E := fresh "E" in destruct c eqn:E; try discriminate H
  end.

Lemma parse_define_file dbg be h inp f rest :
  parse_insn dbg be h inp = Ok (LineSpec.IDefineFile f, rest) -> define_ok f.
Proof.
  unfold parse_insn. destruct inp as [|b input]; [discriminate|]. intros H.
  crunch H; try (inversion H; fail).
  inversion H; subst. clear H.
  match goal with Hf : file_entry_parse _ _ _ = Ok _ |- _ => unfold file_entry_parse in Hf; crunch Hf;
    inversion Hf; subst end.
  match goal with Hc : read_cstr _ = Ok _ |- _ => apply read_cstr_no_nul in Hc; rename Hc into Hn end.
  eexists. cbn. repeat split; [exact Hn].
Qed.

Lemma bytes_eqb_nil p : bytes_eqb p [] = false -> p <> [].
Proof. unfold bytes_eqb. destruct (list_eq_dec Byte.byte_eq_dec p []); [discriminate|auto]. Qed.

Lemma add_file_total p name d info :
  (match name with
   | LStr val => has_nul val = false /\ ((e_version (p_enc p) <=? 4) = true -> val <> [])
   | _ => True
   end) ->
  exists r, LineWr.add_file p name d info = Ok r.
Proof.
  intros Hn. unfold LineWr.add_file.
  assert (G : (match name with
               | LStr val =>
                   if (e_version (p_enc p) <=? 4) && (match val with [] => true | _ => false end) then Panic
                   else if has_nul val then Panic else Ok tt
               | _ => Ok tt
               end) = Ok tt).
  { destruct name as [val|id|id]; try reflexivity. destruct Hn as [Hn He]. rewrite Hn.
    destruct (e_version (p_enc p) <=? 4); cbn [andb]; [|reflexivity].
    destruct val; [exfalso; apply He; reflexivity|reflexivity]. }
  rewrite G. cbn [bind].
  destruct (file_find (p_files p) (name, d) 0); destruct info; eauto.
Qed.

(* convert_file + add_file on a decoded define_file entry: an error or a new FileId, never a panic *)
Lemma define_file_safe sx dirs ls p f :
  define_ok f ->
  match convert_file sx (p_enc p) dirs ls f with
  | Ok (name, d, info, ls') => exists r, LineWr.add_file p name d info = Ok r
  | Err _ => True
  | _ => False
  end.
Proof.
  intros (path & Ep & Hn & Es). unfold convert_file, convert_string, attr_line_string, lstr_new.
  rewrite Ep, Es. cbn [bind].
  destruct (e_version (p_enc p) <=? 4) eqn:V; cbn [bind].
  - cbn [lstr_eqb andb].
    destruct (bytes_eqb path []) eqn:Eb; [exact I|].
    destruct (N.of_nat (length dirs) <=? fe_dir f) eqn:Ed; [exact I|].
    destruct (nth_error dirs (N.to_nat (fe_dir f))) as [d|] eqn:En.
    + cbn [unwrap bind]. apply add_file_total. split; [exact Hn|]. intros _. apply bytes_eqb_nil. exact Eb.
    + apply nth_error_None in En. lia.
  - unfold tab_add. rewrite Hn. destruct (tab_find ls path 0); cbn [bind andb].
    + destruct (N.of_nat (length dirs) <=? fe_dir f) eqn:Ed; [exact I|].
      destruct (nth_error dirs (N.to_nat (fe_dir f))) as [d|] eqn:En.
      * cbn [unwrap bind]. apply add_file_total. exact I.
      * apply nth_error_None in En. lia.
    + destruct (N.of_nat (length dirs) <=? fe_dir f) eqn:Ed; [exact I|].
      destruct (nth_error dirs (N.to_nat (fe_dir f))) as [d|] eqn:En.
      * cbn [unwrap bind]. apply add_file_total. exact I.
      * apply nth_error_None in En. lia.
Qed.

(* ------------------------------------------------------------------ read_row *)

Definition rl_post (h : header) (c : cl) (o : rr_out) : Prop :=
  let '(out, c') := o in
  out <> Panic /\ out <> OutOfFuel /\ r_addr (cl_row c') <= amask h /\ sfx (cl_inp c') (cl_inp c) /\
  (forall ev, out = Ok (Some ev) ->
     (length (cl_inp c') < length (cl_inp c))%nat /\ (cl_st c' = cl_st c \/ cl_st c' = CSReadRow \/ cl_st c' = CSConvertRow)) /\
  (out = Ok None -> cl_inp c' = []).

Lemma ret_row_post h c0 c :
  r_addr (cl_row c) <= amask h -> sfx (cl_inp c) (cl_inp c0) -> (length (cl_inp c) < length (cl_inp c0))%nat ->
  (cl_st c = cl_st c0 \/ cl_st c = CSReadRow \/ cl_st c = CSConvertRow) ->
  rl_post h c0 (ret_row h c).
Proof.
  intros Ha Hs Hl Hst. unfold ret_row. pose proof (convert_row_exact h c) as X.
  destruct (convert_row h c) as [w|e| |]; try contradiction; cbn;
    repeat split; try discriminate; auto.
Qed.

Lemma rl_post_step h c0 c o :
  sfx (cl_inp c) (cl_inp c0) -> (length (cl_inp c) <= length (cl_inp c0))%nat -> cl_st c = cl_st c0 ->
  rl_post h c o -> rl_post h c0 o.
Proof.
  intros Hs Hl Hst. unfold rl_post. destruct o as [out c'].
  intros (P1 & P2 & P3 & P4 & P5 & P6). repeat split; auto.
  - eapply sfx_trans; eassumption.
  - destruct (P5 ev H) as [? ?]. eapply Nat.lt_le_trans; eassumption.
  - destruct (P5 ev H) as [_ Q]. rewrite <- Hst. exact Q.
Qed.

Lemma read_loop_post dbg be sx h : hdr_ok h ->
  forall fuel c tomb,
  r_addr (cl_row c) <= amask h -> (length (cl_inp c) < fuel)%nat ->
  rl_post h c (read_loop fuel dbg be sx h c tomb).
Proof.
  intros Hh. pose proof Hh as (Hlr & Hmo & Hob & Hsz).
  induction fuel as [|f IH]; intros c tomb Ha Hf; [lia|].
  destruct (cl_inp c) as [|b input] eqn:Einp.
  { rewrite (read_loop_nil dbg be sx h f c tomb Einp). cbn. rewrite Einp. repeat split; try discriminate; auto. apply sfx_refl. }
  pose proof (parse_insn_good dbg be h (b :: input)) as G.
  destruct (parse_insn dbg be h (b :: input)) as [[i rest]|e| |] eqn:EP; cbn [post] in G; try contradiction.
  2:{ rewrite (read_loop_stop dbg be sx h f c tomb b input Einp), EP by (rewrite EP; discriminate).
      cbn. rewrite Einp. repeat split; try discriminate; auto.
      exists (b :: input). now rewrite app_nil_r. }
  destruct G as (Gs & Gl & Gi); cbn [fst snd] in *.
  set (c1 := with_inp rest c).
  assert (S1 : sfx (cl_inp c1) (cl_inp c)) by (rewrite Einp; exact Gs).
  assert (L1 : (length (cl_inp c1) < length (cl_inp c))%nat) by (rewrite Einp; exact Gl).
  assert (A1 : r_addr (cl_row c1) <= amask h) by exact Ha.
  assert (F1 : (length (cl_inp c1) < f)%nat) by (change (length rest < f)%nat; cbn [length] in Gl, Hf; lia).
  (* the recursive calls: on a state with the input of c1 *)
  assert (K : forall c2 tomb2, cl_inp c2 = cl_inp c1 -> cl_st c2 = cl_st c -> r_addr (cl_row c2) <= amask h ->
              rl_post h c (read_loop f dbg be sx h c2 tomb2)).
  { intros c2 tomb2 E2 Est A2. eapply rl_post_step with (c := c2); [rewrite E2; exact S1|rewrite E2; lia|exact Est|].
    apply IH; [exact A2|rewrite E2; exact F1]. }
  destruct (insn_classes i) as [Hp|[[a ->]|[fe ->]]].
  - rewrite (read_loop_plain dbg be sx h f c tomb b input rest Einp i EP Hp). fold c1. change (cl_row c) with (cl_row c1).
    pose proof (execute_good dbg h (cl_row c1) i Hh Gi A1) as X. unfold after_exec.
    destruct (execute dbg h (cl_row c1) i) as [[r' x]|e| |]; cbn [post] in X; try contradiction.
    2:{ cbn. repeat split; try discriminate; auto. }
    cbn [fst] in X. destruct X as [X1 X2].
    destruct x as [| |e].
    + (* XRow *) cbv zeta.
      destruct tomb.
      * apply K; [destruct (r_end r'); reflexivity|destruct (r_end r'); reflexivity|].
        assert (R : r_addr (row_reset h r') <= amask h).
        { rewrite row_reset_addr. destruct (r_end r'); [lia|exact X2]. }
        destruct (r_end r'); exact R.
      * unfold emit_row. cbn [cl_row with_row]. destruct (r_end r').
        -- pose proof (address_offset_exact (with_row r' c1)) as AO.
           destruct (convert_address_offset (with_row r' c1)) as [ao|e| |]; try contradiction; cbn;
             repeat split; try discriminate; auto; intros; try lia.
        -- destruct (cl_addr (with_row r' c1)) as [a|].
           ++ cbn. repeat split; try discriminate; auto.
           ++ apply ret_row_post; cbn; auto.
    + (* XNoRow *) apply K; [reflexivity|reflexivity|exact X2].
    + (* XErr *) cbn. repeat split; try discriminate; auto.
  - (* ISetAddress *)
    rewrite (read_loop_set_address dbg be sx h f c tomb b input rest Einp a EP). fold c1. unfold after_set_address.
    assert (Hi0 : insn_ok h (LineSpec.ISetAddress 0)) by (cbn; split; [lia|exact Hsz]).
    pose proof (execute_good dbg h (cl_row c1) (LineSpec.ISetAddress 0) Hh Hi0 A1) as X.
    destruct (execute dbg h (cl_row c1) (LineSpec.ISetAddress 0)) as [[r' x]|e| |]; cbn [post] in X; try contradiction.
    2:{ cbn. repeat split; try discriminate; auto. }
    cbn [fst] in X. destruct X as [X1 X2].
    destruct x as [| |e];
      try (rewrite (ones_sized_ok dbg (h_addr_size h) Hsz); cbv zeta;
           apply K; [destruct (a =? mask_of (h_addr_size h)); reflexivity
                    |destruct (a =? mask_of (h_addr_size h)); reflexivity
                    |destruct (a =? mask_of (h_addr_size h)); exact X2]).
    cbn. repeat split; try discriminate; auto.
  - (* IDefineFile *)
    rewrite (read_loop_define_file dbg be sx h f c tomb b input rest Einp fe EP). fold c1. unfold after_define_file.
    pose proof (define_file_safe sx (cl_dirs c1) (cl_ls c1) (cl_prog c1) fe (parse_define_file _ _ _ _ _ _ EP)) as DF.
    destruct (convert_file sx (p_enc (cl_prog c1)) (cl_dirs c1) (cl_ls c1) fe) as [[[[name d] info] ls']|e| |];
      try contradiction.
    + destruct DF as [[p' id] ->]. apply K; [reflexivity|reflexivity|exact A1].
    + cbn. repeat split; try discriminate; auto.
Qed.

Definition cl_ok (h : header) (c : cl) : Prop := r_addr (cl_row c) <= amask h.

(* measure that every successful read_row call decreases *)
Definition st_weight (s : cstate) : nat := match s with CSReadRow => 0 | CSConvertRow => 1 | CSSetAddress => 2 end.
Definition measure (c : cl) : nat := 2 * length (cl_inp c) + st_weight (cl_st c).

Definition rr_post (h : header) (c : cl) (o : rr_out) : Prop :=
  let '(out, c') := o in
  out <> Panic /\ out <> OutOfFuel /\ cl_ok h c' /\ sfx (cl_inp c') (cl_inp c) /\
  (forall ev, out = Ok (Some ev) -> (measure c' < measure c)%nat) /\
  (out = Ok None -> cl_inp c' = []).

Lemma read_row_post dbg be sx h c : hdr_ok h -> cl_ok h c -> rr_post h c (read_row dbg be sx h c).
Proof.
  intros Hh Ha. unfold read_row, cl_ok in *.
  destruct (cl_st c) eqn:Est.
  - (* ReadRow *)
    set (c0 := with_row (row_reset h (cl_row c)) (with_addr None c)).
    assert (A0 : r_addr (cl_row c0) <= amask h).
    { cbn. rewrite row_reset_addr. destruct (r_end (cl_row c)); [lia|exact Ha]. }
    pose proof (read_loop_post dbg be sx h Hh (S (length (cl_inp c0))) c0 false A0 ltac:(lia)) as P.
    unfold rl_post, rr_post in *. destruct (read_loop _ dbg be sx h c0 false) as [out c'].
    destruct P as (P1 & P2 & P3 & P4 & P5 & P6). repeat split; auto.
    intros ev Hev. destruct (P5 ev Hev) as [L Q]. unfold measure. cbn [cl_inp cl_st c0 with_row with_addr] in L, Q.
    rewrite Est in *. destruct Q as [Q|[Q|Q]]; rewrite Q; cbn [st_weight]; lia.
  - (* SetAddress *)
    destruct (cl_addr c) as [a|].
    + cbn. unfold measure. cbn. rewrite Est. cbn. repeat split; try discriminate; auto; try apply sfx_refl. intros; lia.
    + pose proof (convert_row_exact h (with_st CSReadRow c)) as X. unfold ret_row.
      destruct (convert_row h (with_st CSReadRow c)) as [w|e| |]; try contradiction; cbn; unfold measure; cbn;
        rewrite ?Est; cbn; repeat split; try discriminate; auto; try apply sfx_refl; intros; lia.
  - (* ConvertRow *)
    pose proof (convert_row_exact h (with_st CSReadRow c)) as X. unfold ret_row.
    destruct (convert_row h (with_st CSReadRow c)) as [w|e| |]; try contradiction; cbn; unfold measure; cbn;
      rewrite ?Est; cbn; repeat split; try discriminate; auto; try apply sfx_refl; intros; lia.
Qed.

(* ------------------------------------------------------------------ the whole-program iteration *)

Lemma events_loop_post dbg be sx h : hdr_ok h ->
  forall fuel c, cl_ok h c -> (measure c < fuel)%nat ->
  let '(evs, s, cf) := events_loop fuel dbg be sx h c in s <> SPanic /\ s <> SFuel /\ cl_ok h cf.
Proof.
  intros Hh. induction fuel as [|f IH]; intros c Ha Hf; [lia|].
  cbn [events_loop]. pose proof (read_row_post dbg be sx h c Hh Ha) as P. unfold rr_post in P.
  destruct (read_row dbg be sx h c) as [out c']. destruct P as (P1 & P2 & P3 & P4 & P5 & P6).
  destruct out as [[ev|]|e| |]; try contradiction; try (repeat split; try discriminate; assumption).
  - specialize (IH c' P3 ltac:(specialize (P5 ev eq_refl); lia)).
    destruct (events_loop f dbg be sx h c') as [[evs s] cf]. exact IH.
Qed.

Lemma seq_fuel_enough c : (measure c < seq_fuel c)%nat.
Proof. unfold measure, seq_fuel. destruct (cl_st c); cbn [st_weight]; lia. Qed.

(* the state ConvertLineProgram::new returns *)
Lemma cl_new_shape dbg sx s ls c : cl_new dbg sx s ls = Ok c ->
  cl_inp c = h_program (sh_h s) /\ cl_row c = row_new (sh_h s) /\ cl_st c = CSReadRow.
Proof.
  unfold cl_new. intros H. crunch H. inversion H; subst. cbn. repeat split.
Qed.
