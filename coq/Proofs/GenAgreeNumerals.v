(* Proofs/GenAgreeNumerals.v — translator tie for the opcode / kind numerals that model decoders match on with
   bare numerals: the decoder applied to the one-byte input [Constants.DW_x] (plus minimal operands) yields the
   constructor named x, for every constant of the family, and every other byte of the family's domain is the
   decoder's error.  Constants = coq/Gen/Constants.v, regenerated from /repo/src/constants.rs on every run. *)
From Coq Require Import List NArith Bool String.
From Coq.Strings Require Import Byte.
Require Import GV.Base.Res GV.Base.Byt GV.Proofs.GenSweep.
Require GV.Gen.Constants.
Require GV.Spec.ListSpec GV.Model.ListsRd GV.Spec.MacroSpec GV.Model.MacroRd GV.Model.NamesRd GV.Spec.LineSpec.
Import ListNotations.
Local Open Scope string_scope.
Local Open Scope N_scope.

(* operands: every LEB128 / length / index is the single byte 1 *)
Definition tail : list byte := repeat x01 40.
Definition mem (k : N) (l : list N) : bool := existsb (N.eqb k) l.

Import ListSpec.
Definition lent_name (e : lent) : string :=
  match e with
  | LPair _ _ => "pair" | LBase _ => "base_address" | LBasex _ => "base_addressx"
  | LStartxEndx _ _ => "startx_endx" | LStartxLength _ _ => "startx_length" | LOffsetPair _ _ => "offset_pair"
  | LDefault => "default_location" | LStartEnd _ _ => "start_end" | LStartLength _ _ => "start_length"
  end.
Definition cfg5 : lcfg := {| c_be := false; c_asize := 8; c_version := 5 |}.
Definition cfg4 : lcfg := {| c_be := false; c_asize := 8; c_version := 4 |}.   (* GNU split-DWARF .debug_loc.dwo: u16 data
   length (0x0101 on the all-ones operands, hence the longer tail) and u32 startx_length *)
Definition rle_kind (k : N) : string :=
  match ListsRd.rng_parse false cfg5 false (n2b k :: tail) with
  | Ok (None, _) => "end_of_list" | Ok (Some e, _) => lent_name e
  | Err EUnknownRangeListsEntry => "unknown" | _ => "?"
  end.
Definition lle_kind (c : lcfg) (k : N) : string :=
  match ListsRd.loc_parse false c false (n2b k :: (if c_version c <=? 4 then repeat x01 300 else tail)) with
  | Ok (None, _) => "end_of_list" | Ok (Some (e, _), _) => lent_name e
  | Err EUnknownLocListsEntry => "unknown" | _ => "?"
  end.
Definition rle_decoded : list N :=
  [Constants.DW_RLE_end_of_list; Constants.DW_RLE_base_addressx; Constants.DW_RLE_startx_endx;
   Constants.DW_RLE_startx_length; Constants.DW_RLE_offset_pair; Constants.DW_RLE_base_address;
   Constants.DW_RLE_start_end; Constants.DW_RLE_start_length].
Definition lle_decoded : list N :=
  [Constants.DW_LLE_end_of_list; Constants.DW_LLE_base_addressx; Constants.DW_LLE_startx_endx;
   Constants.DW_LLE_startx_length; Constants.DW_LLE_offset_pair; Constants.DW_LLE_default_location;
   Constants.DW_LLE_base_address; Constants.DW_LLE_start_end; Constants.DW_LLE_start_length].


Import MacroSpec.
Definition mstring_name (s : mstring) : string :=
  match s with MDirect _ => "" | MStrp _ => "_strp" | MStrx _ => "_strx" | MSup _ => "_sup" end.
Definition mentry_name (e : mentry) : string :=
  match e with
  | MDefine _ s => "define" ++ mstring_name s | MUndef _ s => "undef" ++ mstring_name s
  | MStartFile _ _ => "start_file" | MEndFile => "end_file" | MImport _ => "import" | MImportSup _ => "import_sup"
  | MVendorExt _ _ => "vendor_ext"
  end.
(* operands "\x01\x01\x00...": LEB128 1, then a one-character NUL-terminated string / offsets *)
Definition mtail : list byte := [x01; x01; x00; x00; x00; x00; x00; x00; x00; x00; x00; x00].
Definition macro_kind (is_macro : bool) (k : N) : string :=
  match MacroRd.parse_next false false
          {| MacroRd.mi_input := n2b k :: mtail; MacroRd.mi_fmt64 := false; MacroRd.mi_is_macro := is_macro |} with
  | Ok (None, _) => "end" | Ok (Some e, _) => mentry_name e
  | Err EInvalidMacroType => "invalid_macro" | Err EInvalidMacinfoType => "invalid_macinfo" | _ => "?"
  end.
Definition macro_decoded : list N :=
  [Constants.DW_MACRO_define; Constants.DW_MACRO_undef; Constants.DW_MACRO_start_file; Constants.DW_MACRO_end_file;
   Constants.DW_MACRO_define_strp; Constants.DW_MACRO_undef_strp; Constants.DW_MACRO_import;
   Constants.DW_MACRO_define_sup; Constants.DW_MACRO_undef_sup; Constants.DW_MACRO_import_sup;
   Constants.DW_MACRO_define_strx; Constants.DW_MACRO_undef_strx].
Definition macinfo_decoded : list N :=
  [Constants.DW_MACINFO_define; Constants.DW_MACINFO_undef; Constants.DW_MACINFO_start_file;
   Constants.DW_MACINFO_end_file; Constants.DW_MACINFO_vendor_ext].


Definition nform_kind (form : N) : string * N :=
  match NamesRd.read_nform false false form tail with
  | Ok (NamesRd.NVUnsigned _, r) => ("unsigned", N.of_nat (List.length tail - List.length r))
  | Ok (NamesRd.NVOffset _, r) => ("offset", N.of_nat (List.length tail - List.length r))
  | Ok (NamesRd.NVFlag _, r) => ("flag", N.of_nat (List.length tail - List.length r))
  | Err EUnknownForm => ("unknown", 0)
  | _ => ("?", 0)
  end.
Definition nforms_decoded : list N :=
  [Constants.DW_FORM_flag; Constants.DW_FORM_flag_present; Constants.DW_FORM_data1; Constants.DW_FORM_data2;
   Constants.DW_FORM_data4; Constants.DW_FORM_data8; Constants.DW_FORM_udata; Constants.DW_FORM_ref1;
   Constants.DW_FORM_ref2; Constants.DW_FORM_ref4; Constants.DW_FORM_ref8; Constants.DW_FORM_ref_udata].

(* nforms_decoded lists the forms in the order in which read_nform tests them: a form that is none of them fails every test *)
Lemma read_nform_unknown : forall dbg be f bs,
  mem f nforms_decoded = false -> NamesRd.read_nform dbg be f bs = Err EUnknownForm.
Proof.
  intros dbg be f bs M. change (existsb (N.eqb f) [12; 25; 11; 5; 6; 7; 15; 17; 18; 19; 20; 21] = false) in M.
  cbn [existsb] in M. unfold NamesRd.read_nform.
  repeat (apply orb_false_elim in M; destruct M as [-> M]). reflexivity.
Qed.
