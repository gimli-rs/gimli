(* Proofs/FilterEdges.v — FilterUnit::read_entry builds exactly the dependency graph of Spec/FilterSpec.v:
   the parent stack finds the tree parent, add_entry/add_edge store the three kinds of edges. *)
From Coq Require Import List NArith ZArith Bool Lia.
Require Import GV.Base.Res GV.Spec.Graph GV.Model.Filter GV.Spec.FilterSpec GV.Proofs.FilterProofs.
Import ListNotations.
Local Open Scope N_scope.

Section TreeInd.
  Variable P : tree -> Prop.
  Variable Q : list tree -> Prop.
  Hypothesis HN : forall e ks, Q ks -> P (Node e ks).
  Hypothesis Hnil : Q [].
  Hypothesis Hcons : forall t l, P t -> Q l -> Q (t :: l).
  Fixpoint tree_ind2 (t : tree) : P t :=
    match t with
    | Node e ks =>
        HN e ks ((fix go (l : list tree) : Q l :=
                    match l with
                    | [] => Hnil
                    | t' :: l' => Hcons t' l' (tree_ind2 t') (go l')
                    end) ks)
    end.
  Lemma forest_ind2 : forall l, Q l.
  Proof. induction l as [|t l IH]; [exact Hnil|]. apply Hcons; auto. apply tree_ind2. Qed.
End TreeInd.

Lemma flatten_tree_eq : forall d e ks,
  flatten_tree d (Node e ks) =
  {| r_ent := e; r_depth := d; r_kids := negb (is_nil ks) |} :: flatten_list (d + 1) ks.
Proof.
  intros d e ks. cbn [flatten_tree]. f_equal.
  induction ks as [|k ks IH]; cbn [flatten_list]; auto. now rewrite IH.
Qed.

Lemma tree_pairs_eq : forall top e ks,
  tree_pairs top (Node e ks) = (e, top) :: forest_pairs (Some e) ks.
Proof.
  intros top e ks. cbn [tree_pairs]. f_equal.
  induction ks as [|k ks IH]; cbn [forest_pairs]; auto. now rewrite IH.
Qed.

Definition pview := option (N * N).     (* unit offset and tag of the parent *)
Definition fview (p : option fparent) : pview :=
  match p with Some p => Some (fp_off p, fp_tag p) | None => None end.
Definition eview (p : option entry) : pview :=
  match p with Some e => Some (e_off e, e_tag e) | None => None end.
Definition of_view (pv : pview) : option fparent :=
  match pv with Some (o, t) => Some {| fp_depth := 0; fp_off := o; fp_tag := t |} | None => None end.
Definition ev (p : entry * option entry) : entry * pview := (fst p, eview (snd p)).

Lemma fu_deps_view : forall rf dbg u e p d,
  fu_deps rf dbg u e p d = fu_deps rf dbg u e (of_view (fview p)) d.
Proof. intros. destruct p as [[dp po pt]|]; reflexivity. Qed.

(* entries with the parent the stack yields, and the stack afterwards *)
Fixpoint annotv (ps : list fparent) (rs : list rawent) : list (entry * pview) * list fparent :=
  match rs with
  | [] => ([], ps)
  | r :: rs' =>
      let a := annotv (fst (fu_parent ps r)) rs' in
      ((r_ent r, fview (snd (fu_parent ps r))) :: fst a, snd a)
  end.

Lemma annotv_app : forall a b ps,
  annotv ps (a ++ b) =
  (fst (annotv ps a) ++ fst (annotv (snd (annotv ps a)) b), snd (annotv (snd (annotv ps a)) b)).
Proof.
  induction a as [|r a IH]; intros b ps; cbn [annotv app fst snd].
  - now destruct (annotv ps b).
  - rewrite IH. reflexivity.
Qed.

Lemma pop_ge_le : forall d d' ps, (d <= d')%Z -> pop_ge d (pop_ge d' ps) = pop_ge d ps.
Proof.
  intros d d' ps Hle. induction ps as [|p ps IH]; cbn; auto.
  destruct (d' <=? fp_depth p)%Z eqn:E.
  - rewrite IH. assert (H : (d <=? fp_depth p)%Z = true) by (apply Z.leb_le; apply Z.leb_le in E; lia).
    now rewrite H.
  - reflexivity.
Qed.

Definition stack_spec (t_annot : list (entry * pview) * list fparent) (d : Z) (ps : list fparent)
           (expect : list (entry * pview)) : Prop :=
  fst t_annot = expect /\ pop_ge d (snd t_annot) = pop_ge d ps.

Lemma annot_forest : forall ts d ps top,
  fview (hd_error (pop_ge d ps)) = eview top ->
  stack_spec (annotv ps (flatten_list d ts)) d ps (map ev (forest_pairs top ts)).
Proof.
  intros ts.
  apply (forest_ind2
    (fun t => forall d ps top, fview (hd_error (pop_ge d ps)) = eview top ->
       stack_spec (annotv ps (flatten_tree d t)) d ps (map ev (tree_pairs top t)))
    (fun l => forall d ps top, fview (hd_error (pop_ge d ps)) = eview top ->
       stack_spec (annotv ps (flatten_list d l)) d ps (map ev (forest_pairs top l)))).
  - (* Node *)
    intros e ks IHks d ps top Htop.
    rewrite flatten_tree_eq, tree_pairs_eq. cbn [annotv map fst snd].
    unfold fu_parent at 1 2 3. cbn [r_depth r_kids r_ent fst snd].
    destruct ks as [|k ks'].
    + cbn [is_nil negb flatten_list annotv forest_pairs map fst snd]. split.
      * cbn [fst]. unfold ev at 1. cbn [fst snd]. now rewrite Htop.
      * cbn [snd]. apply pop_ge_le, Z.le_refl.
    + assert (Hnn : negb (is_nil (k :: ks')) = true) by reflexivity.
      set (ks := k :: ks') in *. rewrite !Hnn. clear Hnn.
      set (me := {| fp_depth := d; fp_off := e_off e; fp_tag := e_tag e |}).
      assert (Hpop : pop_ge (d + 1) (me :: pop_ge d ps) = me :: pop_ge d ps).
      { cbn. assert (H : (d + 1 <=? d)%Z = false) by (apply Z.leb_gt; lia). now rewrite H. }
      destruct (IHks (d + 1)%Z (me :: pop_ge d ps) (Some e)) as [H1 H2].
      { rewrite Hpop. reflexivity. }
      split.
      * cbn [fst]. unfold ev at 1. cbn [fst snd]. rewrite Htop. f_equal. exact H1.
      * cbn [snd].
        match goal with |- pop_ge d ?X = _ =>
          transitivity (pop_ge d (pop_ge (d + 1) X)); [symmetry; apply pop_ge_le; lia|] end.
        rewrite H2, Hpop.
        cbn. rewrite Z.leb_refl. apply pop_ge_le, Z.le_refl.
  - intros d ps top _. cbn. split; reflexivity.
  - intros t l IHt IHl d ps top Htop.
    cbn [flatten_list forest_pairs]. rewrite annotv_app, map_app.
    destruct (IHt d ps top Htop) as [H1 H2].
    destruct (IHl d (snd (annotv ps (flatten_tree d t))) top) as [H3 H4].
    { rewrite H2. exact Htop. }
    split; cbn [fst snd].
    + now rewrite H1, H3.
    + now rewrite H4, H2.
Qed.

(* the dependency part as a fold over (unit, DIE, parent view) *)

Definition aelt := (unitd * entry * pview)%type.

Definition step_deps rf (dbg : bool) (req : N -> bool) (d : deps) (a : aelt) : res deps :=
  let '(u, e, pv) := a in
  let* d' := fu_deps rf dbg u e (of_view pv) d in
  Ok (if req (sec u (e_off e)) then require_entry (sec u (e_off e)) d' else d').

Fixpoint fold_deps rf dbg req (d : deps) (al : list aelt) : res deps :=
  match al with
  | [] => Ok d
  | a :: al' => let* d' := step_deps rf dbg req d a in fold_deps rf dbg req d' al'
  end.

Lemma fold_deps_app : forall rf dbg req a b d,
  fold_deps rf dbg req d (a ++ b) =
  (let* d' := fold_deps rf dbg req d a in fold_deps rf dbg req d' b).
Proof.
  intros rf dbg req a. induction a as [|x a IH]; intros b d; cbn [app fold_deps]; auto.
  destruct (step_deps rf dbg req d x); cbn [bind]; auto.
Qed.

Definition tag_unit (u : unitd) (p : entry * pview) : aelt := (u, fst p, snd p).

Lemma fu_entries_fold : forall rf dbg req u rs ps d,
  fu_entries rf dbg req u (ps, d) rs =
  (let* d' := fold_deps rf dbg req d (map (tag_unit u) (fst (annotv ps rs))) in
   Ok (snd (annotv ps rs), d')).
Proof.
  intros rf dbg req u rs. induction rs as [|r rs IH]; intros ps d.
  - reflexivity.
  - cbn [fu_entries annotv map fst snd fold_deps].
    unfold fu_read_entry. destruct (fu_parent ps r) as [ps' parent] eqn:Ep. cbn [fst snd].
    unfold tag_unit at 1. cbn [fst snd step_deps].
    rewrite fu_deps_view.
    destruct (fu_deps rf dbg u (r_ent r) (of_view (fview parent)) d) as [d'| | |]; cbn [bind]; auto.
Qed.

Definition unit_al (u : unitd) : list aelt := map (tag_unit u) (map ev (unit_pairs u)).
Definition section_al (units : list unitd) : list aelt := flat_map unit_al units.

Lemma filter_section_fold : forall rf dbg req units d,
  filter_section rf dbg req units d = fold_deps rf dbg req d (section_al units).
Proof.
  intros rf dbg req units. induction units as [|u us IH]; intros d.
  - reflexivity.
  - cbn [filter_section section_al flat_map]. rewrite fold_deps_app, fu_entries_fold.
    destruct (annot_forest (u_kids u) 1%Z [] None eq_refl) as [H1 _].
    rewrite H1. fold (unit_pairs u). fold (unit_al u).
    destruct (fold_deps rf dbg req d (unit_al u)) as [d'| | |]; cbn [bind snd]; auto.
Qed.

Lemma add_entry_graph : forall dbg eo ds d, ~ dep_valid d eo ->
  exists d', add_entry dbg eo ds d = Ok d' /\ d_required d' = d_required d /\
    (forall x, dep_valid d' x <-> dep_valid d x \/ x = eo) /\
    (forall x y, dep_edge d' x y <-> dep_edge d x y \/ (x = eo /\ In y ds)).
Proof.
  intros dbg eo ds d Hfresh. unfold add_entry.
  destruct (em_get eo (d_edges d)) as [l|] eqn:E; [exfalso; apply Hfresh; exists l; exact E|].
  eexists. split; [reflexivity|]. split; [reflexivity|]. unfold dep_valid, dep_edge. cbn [d_edges].
  split; intros x; [|intros y]; rewrite em_get_insert; destruct (N.eqb_spec x eo) as [->|Hne].
  - split; eauto.
  - split; [auto|]. intros [H|H]; [exact H|contradiction].
  - rewrite E. split.
    + intros [l [Hl Hy]]. inversion Hl; subst. auto.
    + intros [[l [Hl _]]|[_ Hy]]; [discriminate|eauto].
  - split; [auto|]. intros [H|[H _]]; [exact H|contradiction].
Qed.

Lemma add_edge_graph : forall po eo d, dep_valid d po ->
  exists d', add_edge po eo d = Ok d' /\ d_required d' = d_required d /\
    (forall x, dep_valid d' x <-> dep_valid d x) /\
    (forall x y, dep_edge d' x y <-> dep_edge d x y \/ (x = po /\ y = eo)).
Proof.
  intros po eo d [l Hl]. destruct (em_push_spec po eo _ _ Hl) as [m' [Hm' Hget]].
  unfold add_edge. rewrite Hm'. eexists. split; [reflexivity|]. split; [reflexivity|].
  unfold dep_valid, dep_edge. cbn [d_edges].
  split; intros x; [|intros y]; rewrite Hget; destruct (N.eqb_spec x po) as [->|Hne].
  - split; eauto.
  - tauto.
  - rewrite Hl. split.
    + intros [l' [Hl' Hy]]. inversion Hl'; subst. apply in_app_iff in Hy.
      destruct Hy as [Hy|[<-|[]]]; [left; eauto|right; auto].
    + intros [[l' [Hl' Hy]]|[_ ->]]; eexists; (split; [reflexivity|]); apply in_app_iff.
      * inversion Hl'; subst. now left.
      * right. now left.
  - split; [auto|]. intros [H|[H _]]; [exact H|contradiction].
Qed.

(* the edges one DIE contributes *)
Definition a_off (a : aelt) : N := let '(u, e, _) := a in sec u (e_off e).

Definition a_edge (rf : unitd -> site -> list N) (a : aelt) (x y : N) : Prop :=
  let '(u, e, pv) := a in
  (x = sec u (e_off e) /\ In y (flat_map (rf u) (e_sites e))) \/
  match pv with
  | Some (po, pt) =>
      (x = sec u (e_off e) /\ y = sec u po) \/
      (x = sec u po /\ y = sec u (e_off e) /\
       pt <> DW_TAG_namespace /\ has_die_back_edge (e_tag e) (e_decl e) = true)
  | None => False
  end.

Definition al_edge rf (al : list aelt) (x y : N) : Prop := exists a, In a al /\ a_edge rf a x y.

Definition parent_avail (avail : N -> Prop) (a : aelt) : Prop :=
  let '(u, _, pv) := a in match pv with Some (po, _) => avail (sec u po) | None => True end.

Lemma in_snoc : forall (y p : N) l, In y (l ++ [p]) <-> In y l \/ y = p.
Proof. intros. rewrite in_app_iff. cbn. intuition. Qed.

Lemma step_char : forall rf dbg req d0 a,
  ~ dep_valid d0 (a_off a) -> parent_avail (dep_valid d0) a ->
  exists d1, step_deps rf dbg req d0 a = Ok d1 /\
    (forall x, dep_valid d1 x <-> dep_valid d0 x \/ x = a_off a) /\
    (forall x y, dep_edge d1 x y <-> dep_edge d0 x y \/ a_edge rf a x y) /\
    d_required d1 = d_required d0 ++ (if req (a_off a) then [a_off a] else []).
Proof.
  intros rf dbg req d0 [[u e] pv] Hfresh Hpar. cbn [a_off] in *. unfold step_deps.
  assert (Hfu : exists d', fu_deps rf dbg u e (of_view pv) d0 = Ok d' /\ d_required d' = d_required d0 /\
    (forall x, dep_valid d' x <-> dep_valid d0 x \/ x = sec u (e_off e)) /\
    (forall x y, dep_edge d' x y <-> dep_edge d0 x y \/ a_edge rf (u, e, pv) x y)).
  { destruct pv as [[po pt]|]; cbn [of_view fu_deps fp_off fp_tag parent_avail a_edge] in *.
    - destruct (negb (pt =? DW_TAG_namespace) && has_die_back_edge (e_tag e) (e_decl e)) eqn:Ec.
      + (* member-like child of a non-namespace parent: the back edge, then the node *)
        apply andb_true_iff in Ec. destruct Ec as [Ens Ebe]. apply negb_true_iff, N.eqb_neq in Ens.
        destruct (add_edge_graph (sec u po) (sec u (e_off e)) d0 Hpar) as [d1 [-> [Hr1 [Hv1 He1]]]].
        cbn [bind].
        destruct (add_entry_graph dbg (sec u (e_off e)) (flat_map (rf u) (e_sites e) ++ [sec u po]) d1)
          as [d2 [-> [Hr2 [Hv2 He2]]]]; [now rewrite Hv1|].
        exists d2. split; [reflexivity|]. split; [congruence|]. split.
        * intros x. rewrite Hv2, Hv1. tauto.
        * intros x y. rewrite He2, He1, in_snoc. tauto.
      + cbn [bind].
        destruct (add_entry_graph dbg (sec u (e_off e)) (flat_map (rf u) (e_sites e) ++ [sec u po]) d0 Hfresh)
          as [d2 [-> [Hr2 [Hv2 He2]]]].
        exists d2. split; [reflexivity|]. split; [exact Hr2|]. split; [exact Hv2|].
        intros x y. rewrite He2, in_snoc.
        apply andb_false_iff in Ec. rewrite negb_false_iff, N.eqb_eq in Ec.
        split; [tauto|]. intros [H|[H|[H|[_ [_ [Hns Hbe]]]]]]; try tauto.
        destruct Ec; [contradiction|congruence].
    - destruct (add_entry_graph dbg (sec u (e_off e)) (flat_map (rf u) (e_sites e)) d0 Hfresh)
        as [d2 [-> [Hr2 [Hv2 He2]]]].
      exists d2. split; [reflexivity|]. split; [exact Hr2|]. split; [exact Hv2|].
      intros x y. rewrite He2. tauto. }
  destruct Hfu as [d' [-> [Hr [Hv He]]]]. cbn [bind].
  eexists. split; [reflexivity|].
  destruct (req (sec u (e_off e))); (split; [exact Hv|]); (split; [exact He|]);
    cbn [require_entry d_required]; rewrite Hr; [reflexivity|now rewrite app_nil_r].
Qed.

Fixpoint parents_ok (avail : N -> Prop) (al : list aelt) : Prop :=
  match al with
  | [] => True
  | a :: al' => parent_avail avail a /\ parents_ok (fun x => avail x \/ x = a_off a) al'
  end.

Lemma parent_avail_ext : forall (A B : N -> Prop) a,
  (forall x, A x -> B x) -> parent_avail A a -> parent_avail B a.
Proof. intros A B [[u e] [[po pt]|]] H; cbn; auto. Qed.

Lemma parents_ok_ext : forall al (A B : N -> Prop),
  (forall x, A x -> B x) -> parents_ok A al -> parents_ok B al.
Proof.
  induction al as [|a al IH]; intros A B H; cbn; auto.
  intros [H1 H2]. split; [eapply parent_avail_ext; eauto|].
  eapply IH; [|exact H2]. intros x [Hx|Hx]; auto.
Qed.

Lemma parents_ok_app : forall l1 l2 (A : N -> Prop),
  parents_ok A l1 -> parents_ok (fun x => A x \/ In x (map a_off l1)) l2 ->
  parents_ok A (l1 ++ l2).
Proof.
  induction l1 as [|a l1 IH]; intros l2 A H1 H2; cbn [app].
  - eapply parents_ok_ext; [|exact H2]. intros x [Hx|[]]; auto.
  - destruct H1 as [Ha H1]. split; auto. apply IH; auto.
    eapply parents_ok_ext; [|exact H2]. cbn [map In].
    intros x [Hx|[Hx|Hx]]; auto.
Qed.

Lemma al_edge_cons : forall rf a al x y,
  al_edge rf (a :: al) x y <-> a_edge rf a x y \/ al_edge rf al x y.
Proof.
  intros. unfold al_edge. split.
  - intros [a' [[<-|Hin] He]]; [now left|]. right. eauto.
  - intros [He|[a' [Hin He]]]; [exists a; split; auto; now left|]. exists a'; split; auto. now right.
Qed.

Lemma fold_deps_char : forall rf dbg req al d0,
  NoDup (map a_off al) -> (forall a, In a al -> ~ dep_valid d0 (a_off a)) ->
  parents_ok (dep_valid d0) al ->
  exists d, fold_deps rf dbg req d0 al = Ok d /\
    (forall x, dep_valid d x <-> dep_valid d0 x \/ In x (map a_off al)) /\
    (forall x y, dep_edge d x y <-> dep_edge d0 x y \/ al_edge rf al x y) /\
    d_required d = d_required d0 ++ filter req (map a_off al).
Proof.
  intros rf dbg req al. induction al as [|a al IH]; intros d0 Hnd Hfresh Hpar.
  - exists d0. cbn. split; [reflexivity|]. split; [tauto|]. split.
    + intros x y. split; [auto|]. intros [H|[a [[] _]]]; exact H.
    + now rewrite app_nil_r.
  - cbn [map] in Hnd. inversion Hnd as [|? ? Hnotin Hnd']; subst.
    destruct Hpar as [Hpa Hpar].
    destruct (step_char rf dbg req d0 a (Hfresh a (or_introl eq_refl)) Hpa)
      as [d1 [Hstep [Hv1 [He1 Hr1]]]].
    destruct (IH d1 Hnd') as [d [Hfold [Hv [He Hr]]]].
    + intros a' Hin Hval. apply Hv1 in Hval. destruct Hval as [Hval|Heq].
      * eapply Hfresh; [right; exact Hin|exact Hval].
      * apply Hnotin. rewrite <- Heq. now apply in_map.
    + eapply parents_ok_ext; [|exact Hpar]. intros x Hx. now apply Hv1.
    + exists d. cbn [fold_deps]. rewrite Hstep. cbn [bind]. split; [exact Hfold|].
      split; [|split].
      * intros x. rewrite Hv, Hv1. cbn [map In]. intuition.
      * intros x y. rewrite He, He1, al_edge_cons. tauto.
      * rewrite Hr, Hr1, <- app_assoc. cbn [map filter]. now destruct (req (a_off a)).
Qed.

Lemma parents_ok_forest : forall u ts top (A : N -> Prop),
  match top with Some pe => A (sec u (e_off pe)) | None => True end ->
  parents_ok A (map (tag_unit u) (map ev (forest_pairs top ts))).
Proof.
  intros u ts.
  apply (forest_ind2
    (fun t => forall top (A : N -> Prop),
       match top with Some pe => A (sec u (e_off pe)) | None => True end ->
       parents_ok A (map (tag_unit u) (map ev (tree_pairs top t))))
    (fun l => forall top (A : N -> Prop),
       match top with Some pe => A (sec u (e_off pe)) | None => True end ->
       parents_ok A (map (tag_unit u) (map ev (forest_pairs top l))))).
  - intros e ks IH top A Htop. rewrite tree_pairs_eq. cbn [map parents_ok]. split.
    + unfold tag_unit, ev. cbn [fst snd parent_avail]. destruct top as [pe|]; cbn [eview]; auto.
    + apply IH. right. reflexivity.
  - intros top A _. exact I.
  - intros t l IHt IHl top A Htop. cbn [forest_pairs]. rewrite !map_app.
    apply parents_ok_app; [apply IHt; exact Htop|].
    apply IHl. destruct top; auto.
Qed.

Lemma parents_ok_section : forall units (A : N -> Prop), parents_ok A (section_al units).
Proof.
  induction units as [|u us IH]; intros A; [exact I|].
  cbn [section_al flat_map]. apply parents_ok_app; [|apply IH].
  unfold unit_al, unit_pairs. now apply parents_ok_forest.
Qed.

Lemma section_al_offsets : forall units, map a_off (section_al units) = section_offsets units.
Proof.
  induction units as [|u us IH]; [reflexivity|].
  cbn [section_al section_offsets flat_map]. rewrite map_app. f_equal; [|exact IH].
  unfold unit_al. rewrite !map_map. apply map_ext. intros [e par]. reflexivity.
Qed.

Lemma in_section_al : forall units a,
  In a (section_al units) <->
  exists u e par, occurs units u e par /\ a = (u, e, eview par).
Proof.
  intros units a. unfold section_al, occurs. rewrite in_flat_map. split.
  - intros [u [Hu Ha]]. unfold unit_al in Ha. rewrite map_map in Ha.
    apply in_map_iff in Ha. destruct Ha as [[e par] [Heq Hin]].
    exists u, e, par. split; [split; auto|]. now rewrite <- Heq.
  - intros [u [e [par [[Hu Hin] ->]]]]. exists u. split; auto.
    unfold unit_al. rewrite map_map. apply in_map_iff. exists (e, par). split; auto.
Qed.

Lemma section_al_valid : forall units x,
  In x (map a_off (section_al units)) <-> f_valid units x.
Proof.
  intros units x. rewrite in_map_iff. unfold f_valid. split.
  - intros [a [Hx Ha]]. apply in_section_al in Ha. destruct Ha as [u [e [par [Hocc ->]]]].
    exists u, e, par. split; auto.
  - intros [u [e [par [Hocc ->]]]]. exists (u, e, eview par). split; [reflexivity|].
    apply in_section_al. eauto.
Qed.

Lemma section_al_edge : forall rf units x y,
  al_edge rf (section_al units) x y <-> f_edge rf units x y.
Proof.
  intros rf units x y. unfold al_edge. split.
  - intros [a [Ha He]]. apply in_section_al in Ha. destruct Ha as [u [e [par [Hocc ->]]]].
    cbn [a_edge] in He. destruct He as [[-> Hy]|He].
    + apply in_flat_map in Hy. destruct Hy as [s [Hs Hy]]. eapply fe_ref; eauto.
    + destruct par as [pe|]; cbn [eview] in He; [|contradiction].
      destruct He as [[-> ->]|[-> [-> [Hns Hbe]]]].
      * eapply fe_parent; eauto.
      * eapply fe_member; eauto.
  - intros He. destruct He as [u e par s y Hocc Hs Hy|u e pe Hocc|u e pe Hocc Hns Hbe].
    + exists (u, e, eview par). split; [apply in_section_al; eauto|].
      cbn [a_edge]. left. split; auto. apply in_flat_map. eauto.
    + exists (u, e, eview (Some pe)). split; [apply in_section_al; eauto|].
      cbn [a_edge eview]. right. left. auto.
    + exists (u, e, eview (Some pe)). split; [apply in_section_al; eauto|].
      cbn [a_edge eview]. right. right. auto.
Qed.

(* FilterUnitSection + FilterUnit::read_entry build the specification graph *)
Lemma filter_graph : forall rf dbg req units, wf_offsets units ->
  exists d, filter_section rf dbg req units deps_empty = Ok d /\
    (forall x, dep_valid d x <-> f_valid units x) /\
    (forall x y, dep_edge d x y <-> f_edge rf units x y) /\
    (forall x, dep_required d x <-> f_valid units x /\ req x = true).
Proof.
  intros rf dbg req units Hwf. rewrite filter_section_fold.
  assert (Hempty : forall x, ~ dep_valid deps_empty x) by (intros x [l Hl]; discriminate).
  destruct (fold_deps_char rf dbg req (section_al units) deps_empty) as [d [Hf [Hv [He Hr]]]].
  - rewrite section_al_offsets. exact Hwf.
  - intros a _. apply Hempty.
  - apply parents_ok_section.
  - exists d. split; [exact Hf|]. split; [|split].
    + intros x. rewrite Hv, section_al_valid. split; [intros [H|H]; auto; destruct (Hempty _ H)|auto].
    + intros x y. rewrite He, section_al_edge. split; [intros [[l [Hl _]]|H]; auto; discriminate|auto].
    + intros x. unfold dep_required. rewrite Hr. cbn [deps_empty d_required app].
      rewrite filter_In, section_al_valid. tauto.
Qed.

(* the reserved offsets are the reachability closure in the specification graph *)
Lemma reserved_char : forall rf dbg req units, wf_offsets units ->
  exists S, reserved rf dbg req units = Ok S /\ strict_sorted S /\
    forall x, In x S <-> reach (f_valid units) (f_edge rf units) (fun x => req x = true) x.
Proof.
  intros rf dbg req units Hwf. unfold reserved.
  destruct (filter_graph rf dbg req units Hwf) as [d [Hf [Hv [He Hr]]]].
  rewrite Hf. cbn [bind].
  destruct (get_reachable_correct d) as [S [HS [Hsort Hin]]].
  exists S. split; [exact HS|]. split; [exact Hsort|].
  intros x. rewrite Hin.
  split; apply reach_mono; intros a; [|intros b| | |intros b|]; rewrite ?Hv, ?He, ?Hr; tauto.
Qed.

(* the edge relation is monotone in the view of the references, as far as edges to DIEs are concerned *)
Lemma f_edge_policy : forall rf1 rf2 units,
  (forall u e par s y, occurs units u e par -> In s (e_sites e) -> f_valid units y ->
                       In y (rf1 u s) -> In y (rf2 u s)) ->
  forall x y, f_valid units y -> f_edge rf1 units x y -> f_edge rf2 units x y.
Proof.
  intros rf1 rf2 units H x y Hv He.
  destruct He as [u e par s y Hocc Hs Hy|u e pe Hocc|u e pe Hocc Hns Hbe].
  - eapply fe_ref; eauto.
  - eapply fe_parent; eauto.
  - eapply fe_member; eauto.
Qed.

(* two views of the references that agree, on every site of the forest, about the DIEs they name reserve the
   same offsets *)
Lemma reserved_policy_eq : forall rf1 rf2 dbg req units, wf_offsets units ->
  (forall u e par s y, occurs units u e par -> In s (e_sites e) -> f_valid units y ->
                       (In y (rf1 u s) <-> In y (rf2 u s))) ->
  reserved rf1 dbg req units = reserved rf2 dbg req units.
Proof.
  intros rf1 rf2 dbg req units Hwf Heq.
  destruct (reserved_char rf1 dbg req units Hwf) as [S1 [H1 [Hs1 Hin1]]].
  destruct (reserved_char rf2 dbg req units Hwf) as [S2 [H2 [Hs2 Hin2]]].
  rewrite H1, H2. f_equal. apply strict_sorted_unique; auto.
  intros x. rewrite Hin1, Hin2.
  split; apply reach_mono; auto; intros a b Hv; apply f_edge_policy; auto;
    intros u e par s y Hocc Hs Hy; apply (Heq u e par s y Hocc Hs Hy).
Qed.
