(* Proofs/CfiRoundtrip.v — composition of the frame-table WRITER model (Model/CfiWr.v, property C14)
   with the CFI READER models: Model/CfiRun.v (instruction decoder + unwind table, C06) and Model/CfiRd.v
   (CIE/FDE parsing and iteration, C05), whose theorems are used as they are; names of the reader side are
   written qualified. The idea throughout: what the writer emits IS the encoding that the reader's own
   specification defines — an instruction is CfaSpec.enc_wire of its wire form, an entry is CfiSpec.enc_cie /
   enc_fde of its translation (cie_rec_of / fde_rec_of) — so that C06's and C05's read-back theorems apply. *)
From Coq Require Import List NArith ZArith Bool Lia ZifyBool ZifyN ZifyNat.
From Coq.Strings Require Import Byte.
Require Import GV.Base.Res GV.Base.Byt GV.Base.Ints GV.Spec.LebSpec GV.Model.Leb GV.Model.Prim.
Require GV.Spec.CfaSpec GV.Spec.CfiSpec GV.Model.CfiRun GV.Proofs.CfiRunProofs.
Require Import GV.Proofs.LebProofs GV.Proofs.PrimProofs.
Require Import GV.Spec.CfaEncSpec GV.Model.CfiWr GV.Proofs.CfiWrProofs.
Import ListNotations.
Local Open Scope N_scope.
Local Arguments N.add : simpl never.
Local Arguments N.sub : simpl never.
Local Arguments N.mul : simpl never.
Local Arguments N.land : simpl never.
Local Arguments N.lor : simpl never.
Local Arguments N.pow : simpl never.
Local Arguments N.modulo : simpl never.
Local Arguments N.div : simpl never.
Local Arguments Z.mul : simpl never.
Local Arguments Z.add : simpl never.
Ltac Zify.zify_post_hook ::= Z.to_euclidean_division_equations.

Definition rd_uexpr (off total : N) (e : list byte) : CfaSpec.uexpr :=
  {| CfaSpec.ue_off := off + total - len e; CfaSpec.ue_len := len e |}.

Definition to_insn (off total : N) (d : dinsn) : CfaSpec.insn :=
  match d with
  | DAdvance x => CfaSpec.IAdvanceLoc x
  | DOffset r fo => CfaSpec.IOffset r fo
  | DRestore r => CfaSpec.IRestore r
  | DNop => CfaSpec.INop
  | DUndefined r => CfaSpec.IUndefined r
  | DSameValue r => CfaSpec.ISameValue r
  | DRegister a b => CfaSpec.IRegister a b
  | DRememberState => CfaSpec.IRememberState
  | DRestoreState => CfaSpec.IRestoreState
  | DDefCfa r o => CfaSpec.IDefCfa r o
  | DDefCfaRegister r => CfaSpec.IDefCfaRegister r
  | DDefCfaOffset o => CfaSpec.IDefCfaOffset o
  | DDefCfaExpression e => CfaSpec.IDefCfaExpression (rd_uexpr off total e)
  | DExpression r e => CfaSpec.IExpression r (rd_uexpr off total e)
  | DOffsetExtendedSf r fo => CfaSpec.IOffsetExtendedSf r fo
  | DDefCfaSf r fo => CfaSpec.IDefCfaSf r fo
  | DDefCfaOffsetSf fo => CfaSpec.IDefCfaOffsetSf fo
  | DValOffset r fo => CfaSpec.IValOffset r fo
  | DValOffsetSf r fo => CfaSpec.IValOffsetSf r fo
  | DValExpression r e => CfaSpec.IValExpression r (rd_uexpr off total e)
  | DArgsSize n => CfaSpec.IArgsSize n
  | DNegateRaState => CfaSpec.INegateRaState
  end.

Definition expr_of (d : dinsn) : option (list byte) :=
  match d with
  | DDefCfaExpression e | DExpression _ e | DValExpression _ e => Some e
  | _ => None
  end.

Import CfaSpec.

(* a decoded instruction as a wire form of the reader's specification (CfaSpec, C06): the writer picks the
   short forms of advance_loc, offset and restore whenever the operand fits the opcode byte *)
Definition wire_of (d : dinsn) : wire :=
  match d with
  | DAdvance x => if x <? 64 then WAdvanceLoc0 x else if x <? 256 then WAdvanceLoc1 x
                  else if x <? 65536 then WAdvanceLoc2 x else WAdvanceLoc4 x
  | DOffset r o => if r <? 64 then WOffset0 r o else WOffsetExtended r o
  | DRestore r => if r <? 64 then WRestore0 r else WRestoreExtended r
  | DNop => WNop
  | DUndefined r => WUndefined r
  | DSameValue r => WSameValue r
  | DRegister a b => WRegister a b
  | DRememberState => WRememberState
  | DRestoreState => WRestoreState
  | DDefCfa r o => WDefCfa r o
  | DDefCfaRegister r => WDefCfaRegister r
  | DDefCfaOffset o => WDefCfaOffset o
  | DDefCfaExpression e => WDefCfaExpression e
  | DExpression r e => WExpression r e
  | DOffsetExtendedSf r f => WOffsetExtendedSf r f
  | DDefCfaSf r f => WDefCfaSf r f
  | DDefCfaOffsetSf f => WDefCfaOffsetSf f
  | DValOffset r o => WValOffset r o
  | DValOffsetSf r f => WValOffsetSf r f
  | DValExpression r e => WValExpression r e
  | DArgsSize n => WArgsSize n
  | DNegateRaState => WNegateRaState
  end.

Lemma cfa_enc_sleb_min z : in_i64 z = true -> CfaSpec.enc_sleb z = sleb_min 10 z.
Proof.
  intros H. unfold CfaSpec.enc_sleb. destruct (sleb_min_agrees 19 z) as (-> & _).
  apply (sleb_min_i64 19 z []); [lia|exact H].
Qed.

(* the writer's bytes are the wire encoding of that form *)
Lemma enc_dinsn_wire be asz d : dinsn_ok d -> enc_dinsn be d = enc_wire be asz (wire_of d).
Proof.
  destruct d; cbn [dinsn_ok enc_dinsn wire_of]; intros H;
    cbn [enc_wire]; rewrite ?cfa_enc_sleb_min by apply H; try reflexivity.
  - unfold adv_enc. destruct (delta <? 64) eqn:E1; [cbn [enc_wire]; rewrite N.mod_small by lia; reflexivity|].
    destruct (delta <? 256); [destruct be; reflexivity|]. destruct (delta <? 65536); destruct be; reflexivity.
  - destruct (r <? 64) eqn:E; [cbn [enc_wire]; rewrite N.mod_small by lia|]; reflexivity.
  - destruct (r <? 64) eqn:E; [cbn [enc_wire]; rewrite N.mod_small by lia|]; reflexivity.
Qed.

Lemma wire_of_ok asz d : dinsn_ok d -> wire_ok asz (wire_of d) = true.
Proof.
  destruct d; cbn [dinsn_ok wire_of]; intros H.
  1: destruct (delta <? 64) eqn:E1, (delta <? 256) eqn:E2, (delta <? 65536) eqn:E3.
  9-10: destruct (r <? 64) eqn:E.
  all: cbn [wire_ok]; unfold regb, u64b, i64b, two16, two32, two64, is_blob in *;
    rewrite ?andb_true_iff, ?N.ltb_lt; try exact H; lia.
Qed.

(* the reader's instruction, with expression operands located at the end of the instruction's bytes *)
Lemma to_insn_wire be off d : to_insn off (len (enc_dinsn be d)) d = wire_meaning off (wire_of d).
Proof.
  destruct d; cbn [to_insn wire_of enc_dinsn]; try reflexivity.
  1: destruct (delta <? 64), (delta <? 256), (delta <? 65536); reflexivity.
  1-2: destruct (r <? 64); reflexivity.
  all: cbn [wire_meaning]; f_equal; unfold rd_uexpr, mkexpr, ulen, enc_blob, len; cbn [length];
    rewrite ?app_length; f_equal; lia.
Qed.

(* only DW_CFA_set_loc, which the writer never emits, depends on the address size *)
Lemma parse_insn_asz dbg be asz asz' aa off b r : b2n b <> 1 ->
  CfiRun.parse_insn dbg be asz aa off (b :: r) = CfiRun.parse_insn dbg be asz' aa off (b :: r).
Proof.
  intros H. unfold CfiRun.parse_insn. cbn [read_u8 bind]. replace (b2n b =? 1) with false by lia. reflexivity.
Qed.

Lemma enc_dinsn_opcode be d : dinsn_ok d -> exists b r, enc_dinsn be d = b :: r /\ b2n b <> 1.
Proof.
  destruct d; cbn [dinsn_ok enc_dinsn]; intros H.
  1: unfold adv_enc; destruct (delta <? 64) eqn:E1, (delta <? 256), (delta <? 65536).
  9-10: destruct (r <? 64) eqn:E.
  all: eexists; eexists; (split; [reflexivity|]); try (vm_compute; discriminate);
    rewrite b2n_n2b_small by lia; lia.
Qed.

(* the reader's parser on the writer's encoding (C06); DW_CFA_AARCH64_negate_ra_state needs an AArch64 reader *)
Lemma parse_enc dbg be asz aa off d rest : dinsn_ok d ->
  CfiRun.parse_insn dbg be asz aa off (enc_dinsn be d ++ rest) =
  match d with
  | DNegateRaState => if aa then Ok (INegateRaState, rest) else Err EUnknownCallFrameInstruction
  | _ => Ok (to_insn off (len (enc_dinsn be d)) d, rest)
  end.
Proof.
  intros H. destruct (enc_dinsn_opcode be d H) as (b & r & E & Hb).
  rewrite to_insn_wire. rewrite E at 1. cbn [app]. rewrite (parse_insn_asz dbg be asz 8) by exact Hb.
  change (b :: r ++ rest) with ((b :: r) ++ rest). rewrite <- E, (enc_dinsn_wire be 8 d H).
  rewrite CfiRunProofs.insn_decode_thm by (reflexivity || apply wire_of_ok, H).
  destruct d; cbn [wire_of]; try reflexivity;
    [destruct (delta <? 64), (delta <? 256), (delta <? 65536)|destruct (r0 <? 64)|destruct (r0 <? 64)]; reflexivity.
Qed.

(* an expression operand is the tail of the instruction's bytes *)
Lemma enc_dinsn_expr be d e : expr_of d = Some e -> exists p, enc_dinsn be d = p ++ e.
Proof.
  destruct d; try discriminate; intros [= ->]; cbn [enc_dinsn]; unfold enc_blob.
  - exists (x0f :: enc_uleb (len e)). reflexivity.
  - exists (x10 :: enc_uleb r ++ enc_uleb (len e)). cbn [app]. now rewrite <- app_assoc.
  - exists (x16 :: enc_uleb r ++ enc_uleb (len e)). cbn [app]. now rewrite <- app_assoc.
Qed.

Lemma insn_read_by_reader_lem dbg be (caf : N) (daf : Z) (i : cfi) bs :
  cfi_wf i = true -> is_i8 daf = true -> write_insn dbg daf i = Ok bs ->
  exists d,
    (forall rest, decode1 be (bs ++ rest) = Some (d, rest)) /\ sem caf daf d = MInsn i /\
    (forall e, expr_of d = Some e -> exists p, bs = p ++ e) /\
    forall dbg' asz aa off rest,
      CfiRun.parse_insn dbg' be asz aa off (bs ++ rest) =
      if negb aa && (match i with NegateRaState => true | _ => false end)
      then Err EUnknownCallFrameInstruction
      else Ok (to_insn off (len bs) d, rest).
Proof.
  intros Hwf Hdaf H. destruct (write_insn_enc dbg be caf daf i bs Hwf Hdaf H) as (d & -> & Hsem & Hok).
  exists d. split; [intros rest; apply decode1_enc; exact Hok|]. split; [exact Hsem|]. split; [apply enc_dinsn_expr|].
  intros dbg' asz aa off rest. rewrite parse_enc by exact Hok.
  destruct d; cbn [sem] in Hsem; try discriminate; injection Hsem as <-; rewrite ?andb_false_r; try reflexivity.
  destruct aa; reflexivity.
Qed.

Import CfaSpec.

(* the bytes of a section area (starting at section offset base) that a reference designates *)
Definition bytes_at (base : N) (area : list byte) (o n : N) : list byte :=
  firstn (N.to_nat n) (skipn (N.to_nat (o - base)) area).

(* a reader instruction that is the reader's form of a decoded instruction: same operands, expression
   operands as references to bytes of the area that hold the blob *)
Definition imatch (base : N) (area : list byte) (d : dinsn) (i : insn) : Prop :=
  exists off total, i = to_insn off total d /\
    forall e, expr_of d = Some e ->
      base <= off + total - len e /\ bytes_at base area (off + total - len e) (len e) = e.

Lemma rdec_is_dec dbg dp off bs :
  CfiRun.decode dbg dp off bs = CfiRunProofs.dec dbg dp {| CfiRun.it_off := off; CfiRun.it_bytes := bs |}.
Proof. reflexivity. Qed.

Lemma rdec_cons dbg dp off a rest i :
  a <> [] ->
  CfiRun.parse_insn dbg (CfiRun.d_be dp) (CfiRun.d_asize dp) (CfiRun.d_aarch64 dp) off (a ++ rest) = Ok (i, rest) ->
  CfiRun.decode dbg dp off (a ++ rest) = It i :: CfiRun.decode dbg dp (off + len a) rest.
Proof.
  intros Hne Hp. rewrite !rdec_is_dec. rewrite CfiRunProofs.dec_unfold.
  unfold CfiRun.iter_next. cbn [CfiRun.it_bytes CfiRun.it_off].
  destruct (a ++ rest) as [|b t] eqn:E; [destruct a; [congruence|discriminate]|].
  rewrite <- E in *. rewrite Hp. do 3 f_equal.
  unfold CfiRun.consumed, len. rewrite app_length. lia.
Qed.

Lemma rdec_bad dbg dp off a rest e :
  a <> [] ->
  CfiRun.parse_insn dbg (CfiRun.d_be dp) (CfiRun.d_asize dp) (CfiRun.d_aarch64 dp) off (a ++ rest) = Err e ->
  CfiRun.decode dbg dp off (a ++ rest) = [Bad e].
Proof.
  intros Hne Hp. rewrite rdec_is_dec, CfiRunProofs.dec_unfold.
  unfold CfiRun.iter_next. cbn [CfiRun.it_bytes CfiRun.it_off].
  destruct (a ++ rest) as [|b t] eqn:E; [destruct a; [congruence|discriminate]|].
  rewrite <- E in *. rewrite Hp. reflexivity.
Qed.

Lemma rdec_nops dbg dp : forall pad off, all_nop pad = true ->
  CfiRun.decode dbg dp off pad = map It (repeat INop (length pad)).
Proof.
  induction pad as [|b r IH]; intros off H; [reflexivity|].
  cbn [all_nop forallb] in H. apply andb_true_iff in H. destruct H as [Hb Hr].
  assert (b = x00). { apply b2n_inj. change (b2n x00) with 0. lia. } subst b.
  change (x00 :: r) with ([x00] ++ r). rewrite (rdec_cons dbg dp off [x00] r INop); [|discriminate|exact (parse_enc dbg (CfiRun.d_be dp) _ _ off DNop r I)].
  cbn [length repeat map]. now rewrite IH.
Qed.

Lemma bytes_at_here base (pre p e rest : list byte) :
  bytes_at base (pre ++ (p ++ e) ++ rest) (base + len pre + len (p ++ e) - len e) (len e) = e.
Proof.
  unfold bytes_at. rewrite len_app.
  replace (N.to_nat (base + len pre + (len p + len e) - len e - base)) with (length (pre ++ p))
    by (rewrite app_length; unfold len; lia).
  replace (pre ++ (p ++ e) ++ rest) with ((pre ++ p) ++ e ++ rest) by (repeat rewrite <- app_assoc; reflexivity).
  rewrite skipn_app_exact. unfold len. rewrite Nat2N.id. apply firstn_app_exact.
Qed.

(* no DW_CFA_AARCH64_negate_ra_state unless the reader's vendor is AArch64 *)
Definition vendor_ok (aa : bool) (i : cfi) : bool :=
  aa || negb (match i with NegateRaState => true | _ => false end).

Definition dp_of (be aa : bool) (asz : N) : CfiRun.dparams :=
  {| CfiRun.d_be := be; CfiRun.d_asize := asz; CfiRun.d_aarch64 := aa |}.

(* the already-parsed CIE + FDE handed to the unwind-table model: factors and address size of the written
   CIE, the two instruction areas with their section offsets *)
Definition fde_in_of (be aa : bool) (c : CfiWr.cie) (init range : N)
           (cie_off : N) (cie_area : list byte) (fde_off : N) (fde_area : list byte) : CfiRun.fde_in :=
  {| CfiRun.f_caf := c_caf c; CfiRun.f_daf := c_daf c; CfiRun.f_asize := c_asize c;
     CfiRun.f_be := be; CfiRun.f_aarch64 := aa; CfiRun.f_init := init; CfiRun.f_range := range;
     CfiRun.f_cie_off := cie_off; CfiRun.f_cie := cie_area;
     CfiRun.f_fde_off := fde_off; CfiRun.f_fde := fde_area |}.

Lemma valid_asize_of a : asz_ok a -> CfiRun.valid_asize a = true.
Proof. intros [->|[->|[->| ->]]]; reflexivity. Qed.

Require GV.Model.CfiRd GV.Proofs.CfiRdProofs.

(* the signed encoder of CfiSpec is the writer's *)
Lemma enc_sleb_min z : (-9223372036854775808 <= z < 9223372036854775808)%Z -> CfiSpec.enc_sleb z = sleb_min 10 z.
Proof.
  intros H. unfold CfiSpec.enc_sleb. destruct (sleb_min_agrees 19 z) as (_ & -> & _).
  apply (sleb_min_i64 19 z []); [lia|]. unfold in_i64. lia.
Qed.

(* only the low n bytes of a value are written *)
Lemma enc_un_mod n be v : enc_un n be (v mod p256 n) = enc_un n be v.
Proof.
  pose proof (le_bytes_le_val (le_bytes n v)) as E. rewrite le_bytes_length, le_val_le_bytes in E.
  unfold enc_un, be_bytes. rewrite E. reflexivity.
Qed.

Lemma write_udata_un_bytes be v size bs :
  v < 18446744073709551616 -> write_udata be v size = Ok bs ->
  (size = 1 \/ size = 2 \/ size = 4 \/ size = 8) /\ bs = CfiSpec.un_bytes (N.to_nat size) be v /\ v < 2 ^ (8 * size).
Proof.
  intros Hv H. rewrite write_udata_spec in H.
  destruct (PrimSpec.size_ok size) eqn:E; [|discriminate].
  destruct ((size =? 8) || (v <? 2 ^ (8 * size))) eqn:L; [|discriminate].
  injection H as <-. split; [apply size_ok_cases, E|]. split; [symmetry; apply CfiRdBase.un_bytes_enc_un|].
  apply orb_true_iff in L. destruct L as [L|L]; [apply N.eqb_eq in L; subst size; exact Hv|lia].
Qed.

(* signed fixed-width: the bytes are the low bytes of the 64-bit pattern, which is what CfiSpec encodes *)
Lemma of_signed_to_i64 bits (val : N) :
  bits <= 64 -> val < 18446744073709551616 -> of_signed bits (to_i64 val) = val mod 2 ^ bits.
Proof.
  intros Hb Hv. unfold of_signed. rewrite <- (N2Z.id (val mod 2 ^ bits)), N2Z.inj_mod. f_equal.
  rewrite <- (to_i64_mod val Hv). apply Znumtheory.Zmod_div_mod; [| reflexivity |].
  - pose proof (pow2_pos bits). lia.
  - exists (Z.of_N (2 ^ (64 - bits))). rewrite <- N2Z.inj_mul, <- N.pow_add_r.
    replace (64 - bits + bits) with 64 by lia. reflexivity.
Qed.

Lemma write_sdata_un_bytes be val size bs :
  val < 18446744073709551616 -> write_sdata be (to_i64 val) size = Ok bs ->
  bs = CfiSpec.un_bytes (N.to_nat size) be val /\ in_signed (8 * size) (to_i64 val) = true.
Proof.
  intros Hv H. rewrite write_sdata_spec in H.
  destruct (PrimSpec.size_ok size) eqn:E; [|discriminate].
  destruct ((size =? 8) || in_signed (8 * size) (to_i64 val)) eqn:L; [|discriminate].
  injection H as <-. apply size_ok_cases in E. split.
  - rewrite of_signed_to_i64 by (exact Hv || lia). rewrite <- (N2Nat.id size) at 2. rewrite <- p256_pow2, enc_un_mod.
    symmetry. apply CfiRdBase.un_bytes_enc_un.
  - apply orb_true_iff in L. destruct L as [L|L]; [|exact L]. apply N.eqb_eq in L. subst size.
    pose proof (to_i64_range val). unfold in_signed. change (Z.of_N (2 ^ (8 * 8 - 1))) with 9223372036854775808%Z. lia.
Qed.

Lemma in_signed_fits bits val :
  1 <= bits <= 64 -> val < 18446744073709551616 -> in_signed bits (to_i64 val) = true ->
  ((val <? 2 ^ (bits - 1)) || ((2 ^ 64 - 2 ^ (bits - 1) <=? val) && (val <? 2 ^ 64))) = true.
Proof.
  intros Hb Hv H. pose proof (to_i64_mod val Hv) as Hm. pose proof (to_i64_range val) as Hr.
  unfold in_signed in H.
  assert (Hp : 2 ^ (bits - 1) <= 2 ^ 63) by (apply N.pow_le_mono_r; lia).
  change (2 ^ 63) with 9223372036854775808 in Hp. change (2 ^ 64) with 18446744073709551616.
  revert H Hp. generalize (2 ^ (bits - 1)). intros h H Hp. lia.
Qed.

Lemma s64_to_i64 val : val < 18446744073709551616 -> CfiSpec.s64 val = to_i64 val.
Proof.
  intros Hv. unfold CfiSpec.s64, to_i64, to_signed, wrapN. change (2 ^ 64) with 18446744073709551616.
  change (2 ^ (64 - 1)) with 9223372036854775808. change (2 ^ 63) with 9223372036854775808.
  rewrite N.mod_small by exact Hv.
  destruct (val <? 9223372036854775808); [reflexivity|].
  change (Z.of_N 18446744073709551616) with (2 ^ 64)%Z. reflexivity.
Qed.

Lemma write_eh_pointer_data_enc be val fmt asz bs :
  val < 18446744073709551616 ->
  write_eh_pointer_data be val fmt asz = Ok bs ->
  bs = CfiSpec.enc_value fmt asz be val /\ CfiSpec.fmt_valid fmt = true /\ CfiSpec.value_fits fmt asz val = true /\
  (fmt = 0 -> asz = 1 \/ asz = 2 \/ asz = 4 \/ asz = 8).
Proof.
  intros Hv H. unfold write_eh_pointer_data in H. unfold CfiSpec.enc_value, CfiSpec.value_fits.
  assert (U : forall size, write_udata be val size = Ok bs ->
                bs = CfiSpec.un_bytes (N.to_nat size) be val /\ (val <? 2 ^ (8 * size)) = true).
  { intros size Hu. destruct (write_udata_un_bytes be val size bs Hv Hu) as (_ & -> & Hlt). split; [reflexivity|lia]. }
  assert (S : forall size, 1 <= 8 * size <= 64 -> write_sdata be (to_i64 val) size = Ok bs ->
                bs = CfiSpec.un_bytes (N.to_nat size) be val /\
                ((val <? 2 ^ (8 * size - 1)) || ((2 ^ 64 - 2 ^ (8 * size - 1) <=? val) && (val <? 2 ^ 64))) = true).
  { intros size Hs Hu. destruct (write_sdata_un_bytes be val size bs Hv Hu) as (-> & Hin).
    split; [reflexivity|apply in_signed_fits; assumption]. }
  destruct (fmt =? 0) eqn:F0.
  { assert (fmt = 0) by lia. subst fmt. destruct (write_udata_un_bytes be val asz bs Hv H) as (Hs & -> & Hlt).
    repeat split; [lia|auto]. }
  assert (N0 : fmt = 0 -> asz = 1 \/ asz = 2 \/ asz = 4 \/ asz = 8) by lia.
  destruct (fmt =? 1) eqn:F1.
  { assert (fmt = 1) by lia. subst fmt. rewrite (write_uleb128_min val Hv) in H.
    split; [congruence|]. split; [reflexivity|]. split; [change (2 ^ 64) with 18446744073709551616; lia|exact N0]. }
  destruct (fmt =? 2) eqn:F2; [assert (fmt = 2) by lia; subst fmt; destruct (U 2 H) as (-> & Hf); repeat split; assumption|].
  destruct (fmt =? 3) eqn:F3; [assert (fmt = 3) by lia; subst fmt; destruct (U 4 H) as (-> & Hf); repeat split; assumption|].
  destruct (fmt =? 4) eqn:F4; [assert (fmt = 4) by lia; subst fmt; destruct (U 8 H) as (-> & Hf); repeat split; assumption|].
  destruct (fmt =? 9) eqn:F9.
  { assert (fmt = 9) by lia. subst fmt.
    rewrite (write_sleb128_min _ (to_i64_range val)) in H.
    split; [rewrite s64_to_i64, enc_sleb_min by (exact Hv || apply to_i64_range); congruence|].
    split; [reflexivity|]. split; [change (2 ^ 64) with 18446744073709551616; lia|exact N0]. }
  destruct (fmt =? 10) eqn:F10;
    [assert (fmt = 10) by lia; subst fmt; destruct (S 2 ltac:(lia) H) as (-> & Hf); repeat split; assumption|].
  destruct (fmt =? 11) eqn:F11;
    [assert (fmt = 11) by lia; subst fmt; destruct (S 4 ltac:(lia) H) as (-> & Hf); repeat split; assumption|].
  destruct (fmt =? 12) eqn:F12; [|discriminate].
  assert (fmt = 12) by lia. subst fmt. destruct (S 8 ltac:(lia) H) as (-> & Hf).
  repeat split; [change (2 ^ 64) with 18446744073709551616; lia|exact N0].
Qed.

(* the value the writer hands to the pointer format: absolute, or relative to the field's own offset *)
Definition ptr_raw (pos enc a : N) : N :=
  if CfiWr.pe_application enc =? 16 then wrap64 (two64 + a - wrap64 pos) else a.

Definition lsda_items (c : CfiWr.cie) : list CfiSpec.aug_item :=
  match c_lsda_enc c with Some e => [CfiSpec.AL e] | None => [] end.
Definition pers_items (c : CfiWr.cie) (dpos : N) : list CfiSpec.aug_item :=
  match c_pers c with
  | Some (e, AConst a) => [CfiSpec.AP e (ptr_raw (dpos + N.of_nat (length (lsda_items c)) + 1) e a)]
  | Some (e, ASym _ _) => [CfiSpec.AP e 0]
  | None => []
  end.
Definition aug_items_of (c : CfiWr.cie) (dpos : N) : list CfiSpec.aug_item :=
  lsda_items c ++ pers_items c dpos
  ++ (if negb (c_fde_enc c =? 0) then [CfiSpec.AR (c_fde_enc c)] else [])
  ++ (if c_sig c then [CfiSpec.AS] else []).

Definition cie_rec_of (c : CfiWr.cie) (dpos : N) (instr : list byte) : CfiSpec.cie_rec :=
  CfiSpec.mkcie_rec (c_fmt64 c) (c_version c) (has_augmentation c) (aug_items_of c dpos)
                    (c_asize c) (c_caf c) (c_daf c) (c_ra c) instr.


Lemma fmt_of_pe e : CfiSpec.fmt_of e = CfiWr.pe_format e.
Proof. unfold CfiSpec.fmt_of, CfiWr.pe_format. change 15 with (N.ones 4). rewrite N.land_ones. reflexivity. Qed.

Lemma enc_uleb_small n : n < 128 -> enc_uleb n = [n2b n].
Proof.
  intros H. unfold enc_uleb. change 19%nat with (S 18). cbn [enc_uleb_fuel].
  destruct (n <? 128) eqn:E; [reflexivity|lia].
Qed.

Lemma initial_length_eq fmt64 be L il :
  L < 18446744073709551616 -> write_initial_length fmt64 be L = Ok il ->
  il = CfiSpec.initial_length be fmt64 L /\ L < (if fmt64 then 2 ^ 64 else 4294967280).
Proof.
  intros HL H. rewrite write_initial_length_exact in H. unfold CfiSpec.initial_length.
  destruct fmt64; [|destruct (L <? 4294967280) eqn:E; [|destruct (L <=? 4294967295); discriminate]];
    injection H as <-; rewrite <- !CfiRdBase.un_bytes_enc_un; split; [reflexivity|exact HL|reflexivity|lia].
Qed.

Lemma write_eh_pointer_enc be pos a e asz pb :
  a < 18446744073709551616 -> write_eh_pointer be pos (AConst a) e asz = Ok pb ->
  pb = CfiSpec.enc_value (CfiWr.pe_format e) asz be (ptr_raw pos e a) /\
  (CfiWr.pe_application e = 0 \/ CfiWr.pe_application e = 16) /\
  CfiSpec.fmt_valid (CfiWr.pe_format e) = true /\
  CfiSpec.value_fits (CfiWr.pe_format e) asz (ptr_raw pos e a) = true /\
  ptr_raw pos e a < 18446744073709551616.
Proof.
  intros Ha H. unfold write_eh_pointer in H. unfold ptr_raw.
  destruct (CfiWr.pe_application e =? 0) eqn:A0.
  - cbn [bind] in H. replace (CfiWr.pe_application e =? 16) with false by lia.
    destruct (write_eh_pointer_data_enc be a _ asz pb Ha H) as (E1 & E2 & E3 & _).
    split; [exact E1|]. split; [left; lia|]. auto.
  - destruct (CfiWr.pe_application e =? 16) eqn:A16; [|discriminate]. cbn [bind] in H.
    assert (Hw : wrap64 (two64 + a - wrap64 pos) < 18446744073709551616) by apply wrap64_lt.
    destruct (write_eh_pointer_data_enc be _ _ asz pb Hw H) as (E1 & E2 & E3 & _).
    split; [exact E1|]. split; [right; lia|]. auto.
Qed.

Require GV.Proofs.CfiRdBase GV.Proofs.CfiRdEnt.
Module RdE := GV.Proofs.CfiRdEnt.

(* the operand types of a CIE, as inequalities *)
Lemma cie_wf_fields (c : CfiWr.cie) : cie_wf c = true ->
  c_version c < 65536 /\ c_asize c < 256 /\ c_caf c < 256 /\ (-128 <= c_daf c < 128)%Z /\ c_ra c < 65536 /\
  (forall e a, c_pers c = Some (e, a) -> e < 256 /\ addr_wf a = true) /\
  (forall e, c_lsda_enc c = Some e -> e < 256) /\ c_fde_enc c < 256.
Proof.
  unfold cie_wf. rewrite !andb_true_iff, !is_u16_iff, !is_u8_iff, is_i8_iff.
  intros ((((((((H1 & H2) & H3) & H4) & H5) & H6) & H7) & H8) & _).
  split; [exact H1|]. split; [exact H2|]. split; [exact H3|]. split; [exact H4|]. split; [exact H5|].
  split; [|split; [|exact H8]].
  - intros e a E. rewrite E in H6. apply andb_true_iff in H6. rewrite is_u8_iff in H6. exact H6.
  - intros e E. rewrite E in H7. apply is_u8_iff, H7.
Qed.

Lemma aug_chars_eq (c : CfiWr.cie) dpos :
  (if is_some (c_lsda_enc c) then [x4c] else []) ++ (if is_some (c_pers c) then [x50] else [])
  ++ (if negb (c_fde_enc c =? 0) then [x52] else []) ++ (if c_sig c then [x53] else [])
  = map (fun i => n2b (CfiSpec.item_char i)) (aug_items_of c dpos).
Proof.
  unfold aug_items_of, pers_items, lsda_items.
  destruct (c_lsda_enc c); destruct (c_pers c) as [[e [a|s d]]|]; destruct (negb (c_fde_enc c =? 0)); destruct (c_sig c);
    reflexivity.
Qed.

Lemma aug_items_len (c : CfiWr.cie) dpos :
  N.of_nat (length (aug_items_of c dpos)) =
  (if is_some (c_lsda_enc c) then 1 else 0) + (if is_some (c_pers c) then 1 else 0)
  + (if negb (c_fde_enc c =? 0) then 1 else 0) + (if c_sig c then 1 else 0).
Proof.
  unfold aug_items_of, pers_items, lsda_items.
  destruct (c_lsda_enc c); destruct (c_pers c) as [[e [a|s d]]|]; destruct (negb (c_fde_enc c =? 0)); destruct (c_sig c);
    reflexivity.
Qed.

Definition cie_sp (eh be : bool) (c : CfiWr.cie) : CfiSpec.sparams := CfiSpec.mksp eh be (c_asize c).
Definition id_size_of (eh fmt64 : bool) : N := if eh then 4 else if fmt64 then 8 else 4.

Definition cie_data_pos (eh be : bool) (pos : N) (c : CfiWr.cie) : N :=
  pos + ilen_size (c_fmt64 c) + id_size_of eh (c_fmt64 c)
  + CfiRd.nlen (RdE.cie_pre (cie_sp eh be c) (cie_rec_of c 0 [])) + 1.

Lemma cie_pre_indep eh be c d1 i1 d2 i2 :
  RdE.cie_pre (cie_sp eh be c) (cie_rec_of c d1 i1) = RdE.cie_pre (cie_sp eh be c) (cie_rec_of c d2 i2).
Proof.
  unfold RdE.cie_pre, RdE.aug_string, RdE.item_chars, cie_rec_of.
  cbn [CfiSpec.c_ver CfiSpec.c_z CfiSpec.c_items CfiSpec.c_asz CfiSpec.c_caf CfiSpec.c_daf CfiSpec.c_rar].
  rewrite <- (aug_chars_eq c d1), <- (aug_chars_eq c d2). reflexivity.
Qed.

Lemma cie_asz_sp eh be c d i : CfiSpec.cie_asz (cie_sp eh be c) (cie_rec_of c d i) = c_asize c.
Proof. unfold CfiSpec.cie_asz, cie_sp, cie_rec_of. cbn. destruct (negb eh && (c_version c =? 4)); reflexivity. Qed.

Lemma addr_const_of_write be a size bs : write_address be a size = Ok bs -> exists v, a = AConst v.
Proof. destruct a; [eauto|discriminate]. Qed.
Lemma addr_const_of_ptr be pos a e size bs : write_eh_pointer be pos a e size = Ok bs -> exists v, a = AConst v.
Proof. destruct a; [eauto|discriminate]. Qed.

(* a pointer encoding the writer accepted: the reader accepts it too *)
Definition enc_usable (e : N) : Prop :=
  e < 256 /\ (CfiWr.pe_application e = 0 \/ CfiWr.pe_application e = 16) /\ CfiSpec.fmt_valid (CfiWr.pe_format e) = true.

(* the personality pointer of a written CIE whose augmentation data starts at D *)
Definition pers_ok (c : CfiWr.cie) (D : N) : Prop :=
  match c_pers c with
  | Some (e, a) => exists v, a = AConst v /\ v < 18446744073709551616 /\ enc_usable e /\
      CfiSpec.value_fits (CfiWr.pe_format e) (c_asize c) (ptr_raw (D + N.of_nat (length (lsda_items c)) + 1) e v) = true
  | None => True
  end.

Lemma items_data_app asz be a b :
  RdE.items_data asz be (a ++ b) = RdE.items_data asz be a ++ RdE.items_data asz be b.
Proof. unfold RdE.items_data. now rewrite map_app, concat_app. Qed.

(* the augmentation data the writer emits (D = where they start) are the items' data behind a one-byte length *)
Lemma cie_augdata_enc dbg be eh (c : CfiWr.cie) D instr augdata :
  cie_wf c = true ->
  (if has_augmentation c then
     let l := match c_lsda_enc c with Some e => [n2b e] | None => [] end in
     let* p := match c_pers c with
               | Some (e, a) => let* pb := write_eh_pointer be (D + len l + 1) a e (c_asize c) in Ok (n2b e :: pb)
               | None => Ok []
               end in
     with_aug_len dbg be (l ++ p ++ (if negb (c_fde_enc c =? 0) then [n2b (c_fde_enc c)] else []))
   else Ok []) = Ok augdata ->
  augdata = RdE.cie_augpart (cie_sp eh be c) (cie_rec_of c D instr) /\
  CfiSpec.blen (RdE.items_data (c_asize c) be (aug_items_of c D)) < 128 /\ pers_ok c D.
Proof.
  intros Hwf H. destruct (cie_wf_fields c Hwf) as (_ & _ & _ & _ & _ & Hpe & _).
  unfold RdE.cie_augpart. cbv zeta. rewrite cie_asz_sp.
  cbn [cie_rec_of CfiSpec.c_z CfiSpec.c_items cie_sp CfiSpec.s_be].
  destruct (has_augmentation c) eqn:Ea.
  - cbv zeta in H. apply bind_ok in H. destruct H as (pp & Hpp & H). apply with_aug_len_inv in H. destruct H as [_ ->].
    unfold aug_items_of. rewrite !items_data_app.
    set (l := match c_lsda_enc c with Some e => [n2b e] | None => [] end) in *.
    set (r := if negb (c_fde_enc c =? 0) then [n2b (c_fde_enc c)] else []).
    assert (EL : RdE.items_data (c_asize c) be (lsda_items c) = l /\ len l = N.of_nat (length (lsda_items c)) /\ len l <= 1)
      by (unfold lsda_items, l; destruct (c_lsda_enc c); repeat split; cbn; lia).
    assert (ER : RdE.items_data (c_asize c) be (if negb (c_fde_enc c =? 0) then [CfiSpec.AR (c_fde_enc c)] else []) = r /\ len r <= 1)
      by (unfold r; destruct (negb (c_fde_enc c =? 0)); split; cbn; (reflexivity || lia)).
    assert (ES : RdE.items_data (c_asize c) be (if c_sig c then [CfiSpec.AS] else []) = [])
      by (destruct (c_sig c); reflexivity).
    assert (EP : pp = RdE.items_data (c_asize c) be (pers_items c D) /\ len pp <= 11 /\ pers_ok c D).
    { destruct EL as (_ & EL & _). rewrite EL in Hpp. unfold pers_items, pers_ok.
      destruct (c_pers c) as [[e a]|]; [|injection Hpp as <-; repeat split; cbn; lia].
      apply bind_ok in Hpp. destruct Hpp as (pb & Hpb & [= <-]).
      destruct (Hpe e a eq_refl) as [He Ha].
      destruct (addr_const_of_ptr _ _ _ _ _ _ Hpb) as (v & ->). cbn [addr_wf] in Ha. apply N.ltb_lt in Ha.
      pose proof (write_eh_pointer_len _ _ _ _ _ _ Hpb) as Hpl.
      destruct (write_eh_pointer_enc be _ v e (c_asize c) pb Ha Hpb) as (-> & Happ & Hfv & Hfit & _).
      split; [cbn; rewrite app_nil_r, fmt_of_pe; reflexivity|]. split; [unfold len; cbn [length]; lia|].
      exists v. unfold enc_usable. auto 6. }
    destruct EL as (-> & _ & Ll), ER as (-> & Lr), EP as (<- & Lp & Hp). rewrite ES, app_nil_r.
    assert (Hs : CfiSpec.blen (l ++ pp ++ r) < 128) by (change CfiSpec.blen with len; rewrite !len_app; lia).
    split; [rewrite enc_uleb_small by exact Hs; reflexivity|]. split; [exact Hs|exact Hp].
  - injection H as <-. unfold pers_ok, aug_items_of, pers_items, lsda_items.
    destruct (no_aug_fields c Ea) as (-> & -> & -> & ->). split; [reflexivity|]. split; [cbn; lia|exact I].
Qed.

(* the section as the harness reads it: loaded at address 0, no text/data bases *)
Definition rd_cfg (eh be : bool) (asz : N) : CfiRd.scfg :=
  CfiRd.mkcfg eh be asz (CfiRd.mksb (Some 0) None None).

(* closing an entry: nop padding up to the alignment, and the initial length of CfiSpec in front *)
Lemma close_entry_enc dbg be fmt64 asz body bs :
  len bs < 18446744073709551616 ->
  close_entry dbg be fmt64 asz body = Ok bs ->
  asz_ok asz /\ exists pad, all_nop pad = true /\ len pad < asz /\
    bs = CfiSpec.initial_length be fmt64 (CfiSpec.blen (body ++ pad)) ++ body ++ pad /\
    RdE.body_fits fmt64 (body ++ pad).
Proof.
  intros Hfit H. apply close_entry_parts in H. destruct H as (Hasz & il & pad & -> & Hil & _ & Hnop & Hpad & _).
  split; [exact Hasz|]. exists pad. split; [exact Hnop|]. split; [exact Hpad|]. rewrite len_app in Hfit.
  assert (HL : len (body ++ pad) < 18446744073709551616) by lia.
  destruct (initial_length_eq _ _ _ _ HL Hil) as [-> Hb]. split; [reflexivity|exact Hb].
Qed.

Lemma cie_id_len eh be c fmt64 : len (CfiSpec.cie_id (cie_sp eh be c) fmt64) = id_size_of eh fmt64.
Proof.
  unfold CfiSpec.cie_id, id_size_of, len, cie_sp. cbn [CfiSpec.s_eh CfiSpec.s_be].
  destruct eh; [|destruct fmt64]; rewrite CfiRdBase.un_bytes_length; reflexivity.
Qed.

(* the header fields the writer emits in front of the augmentation data *)
Lemma cie_pre_enc (be eh : bool) (c : CfiWr.cie) D instr :
  (if eh then enc_un 4 be 0 else if c_fmt64 c then enc_un 8 be (two64 - 1) else enc_un 4 be (two32 - 1)) ++
  [n2b (wrap8 (c_version c))] ++
  ((if has_augmentation c
    then [x7a] ++ (if is_some (c_lsda_enc c) then [x4c] else []) ++ (if is_some (c_pers c) then [x50] else []) ++
         (if negb (c_fde_enc c =? 0) then [x52] else []) ++ (if c_sig c then [x53] else [])
    else []) ++ [x00]) ++
  (if negb eh && (c_version c =? 4) then [n2b (c_asize c); x00] else []) ++
  enc_uleb (c_caf c) ++ CfiSpec.enc_sleb (c_daf c) ++
  (if c_version c =? 1 then [n2b (c_ra c)] else enc_uleb (c_ra c))
  = CfiSpec.cie_id (cie_sp eh be c) (c_fmt64 c) ++ RdE.cie_pre (cie_sp eh be c) (cie_rec_of c D instr).
Proof.
  unfold CfiSpec.cie_id, RdE.cie_pre, RdE.aug_string, RdE.item_chars, cie_sp, cie_rec_of.
  cbn [CfiSpec.s_eh CfiSpec.s_be CfiSpec.c_ver CfiSpec.c_z CfiSpec.c_items CfiSpec.c_asz CfiSpec.c_caf CfiSpec.c_daf CfiSpec.c_rar].
  rewrite <- (aug_chars_eq c D). unfold wrap8. rewrite n2b_mod.
  f_equal; try (destruct eh; [|destruct (c_fmt64 c)]; symmetry; apply CfiRdBase.un_bytes_enc_un).
  change (n2b 122) with x7a. change (n2b 0) with x00.
  destruct (has_augmentation c) eqn:Ea.
  - repeat rewrite <- app_assoc. reflexivity.
  - destruct (no_aug_fields c Ea) as (E1 & E2 & E3 & E4). rewrite E1, E2, E3, E4. reflexivity.
Qed.

(* the written CIE is CfiSpec.enc_cie of its translation, which satisfies what C05's entry lemmas ask for *)
Lemma cie_write_enc dbg be eh pos (c : CfiWr.cie) bs :
  cie_wf c = true -> pos + len bs < 18446744073709551616 ->
  cie_write dbg be eh pos c = Ok bs ->
  let cfg := rd_cfg eh be (c_asize c) in
  let D := cie_data_pos eh be pos c in
  exists insns pad,
    let cr := cie_rec_of c D (insns ++ pad) in
    write_insns dbg (c_daf c) (c_insns c) = Ok insns /\ all_nop pad = true /\ len pad < c_asize c /\
    bs = CfiSpec.enc_cie (cie_sp eh be c) cr /\
    RdE.wf_cie cfg cr /\ RdE.body_fits (c_fmt64 c) (RdE.cie_body cfg cr) /\
    CfiSpec.blen (RdE.items_data (c_asize c) be (aug_items_of c D)) < 128 /\ pers_ok c D.
Proof.
  intros Hwf Hfit H cfg D.
  destruct (cie_wf_fields c Hwf) as (_ & _ & Hcaf & Hdaf & Hra & _).
  unfold cie_write in H. cbv zeta in H.
  destruct (if eh then negb (c_version c =? 1)
            else negb ((c_version c =? 1) || (c_version c =? 3) || (c_version c =? 4))) eqn:Ever; [discriminate|].
  destruct (version_cases eh _ Ever) as [Hver Hveh].
  assert (Hv4 : (4 <=? c_version c) = (negb eh && (c_version c =? 4))).
  { destruct eh; [rewrite (Hveh eq_refl); reflexivity|cbn [negb andb]; lia]. }
  rewrite Hv4 in H.
  rewrite (write_uleb128_min (c_caf c)) in H by lia. cbn [bind] in H.
  rewrite (write_sleb128_min (c_daf c)), <- enc_sleb_min in H by lia. cbn [bind] in H.
  apply bind_ok in H. destruct H as (rab & Hrab & H).
  assert (Erab : rab = (if c_version c =? 1 then [n2b (c_ra c)] else enc_uleb (c_ra c)) /\ (c_version c = 1 -> c_ra c < 256)).
  { destruct (c_version c =? 1) eqn:E1;
      [destruct (c_ra c <? 256) eqn:E; [|discriminate]|rewrite write_uleb128_min in Hrab by lia];
      injection Hrab as <-; split; [reflexivity|lia|reflexivity|lia]. }
  destruct Erab as [-> Hra1]. clear Hrab.
  rewrite (cie_pre_enc be eh c 0 []) in H.
  apply bind_ok in H. destruct H as (augdata & Haug & H).
  apply bind_ok in H. destruct H as (insns & Hins & H).
  apply close_entry_enc in H; [|lia]. destruct H as (Hasz & pad & Hnop & Hpad & -> & Hb).
  rewrite len_app, cie_id_len in Haug.
  replace (pos + ilen_size (c_fmt64 c) + (id_size_of eh (c_fmt64 c) + len (RdE.cie_pre (cie_sp eh be c) (cie_rec_of c 0 []))) + 1)
    with D in Haug by (unfold D, cie_data_pos, len, CfiRd.nlen; lia).
  destruct (cie_augdata_enc dbg be eh c D (insns ++ pad) augdata Hwf Haug) as (-> & Hsmall & Hpers).
  rewrite (cie_pre_indep eh be c 0 [] D (insns ++ pad)) in Hb |- *.
  exists insns, pad. cbv zeta. set (cr := cie_rec_of c D (insns ++ pad)) in *.
  assert (Hbody : ((CfiSpec.cie_id (cie_sp eh be c) (c_fmt64 c) ++ RdE.cie_pre (cie_sp eh be c) cr) ++
                  RdE.cie_augpart (cie_sp eh be c) cr ++ insns) ++ pad = RdE.cie_body cfg cr).
  { unfold RdE.cie_body. change (RdE.sp_of cfg) with (cie_sp eh be c). rewrite RdE.cie_tail_split.
    change (CfiSpec.c_instr cr) with (insns ++ pad). change (CfiSpec.c_fmt64 cr) with (c_fmt64 c).
    repeat rewrite <- app_assoc. reflexivity. }
  rewrite Hbody in Hb |- *.
  split; [exact Hins|]. split; [exact Hnop|]. split; [exact Hpad|]. split; [reflexivity|].
  split; [|split; [exact Hb|split; [exact Hsmall|exact Hpers]]].
  constructor.
  - exact Hver.
  - exact Hasz.
  - unfold cr. change (RdE.sp_of cfg) with (cie_sp eh be c). rewrite cie_asz_sp. exact Hasz.
  - change (CfiSpec.c_caf cr) with (c_caf c). change (2 ^ 64) with 18446744073709551616. lia.
  - change (CfiSpec.c_daf cr) with (c_daf c). change (2 ^ 63)%Z with 9223372036854775808%Z. lia.
  - change (CfiSpec.c_rar cr) with (c_ra c). change (CfiSpec.c_ver cr) with (c_version c).
    destruct (c_version c =? 1) eqn:E; [apply Hra1; lia|lia].
  - unfold cr at 1. change (RdE.sp_of cfg) with (cie_sp eh be c). rewrite cie_asz_sp. change (CfiRd.sc_be cfg) with be.
    change (CfiSpec.c_items cr) with (aug_items_of c D). change (2 ^ 64) with 18446744073709551616. lia.
Qed.

Definition addr_val (a : addr) : N := match a with AConst v => v | ASym _ _ => 0 end.

(* offset of the address field of an FDE written at pos *)
Definition fde_addr_pos (eh : bool) (pos : N) (c : CfiWr.cie) : N :=
  pos + ilen_size (c_fmt64 c) + id_size_of eh (c_fmt64 c).

Definition fde_init_raw (eh : bool) (pos : N) (c : CfiWr.cie) (f : CfiWr.fde) : N :=
  if negb (c_fde_enc c =? 0) then ptr_raw (fde_addr_pos eh pos c) (c_fde_enc c) (addr_val (f_addr f))
  else addr_val (f_addr f).

Definition fde_afmt (c : CfiWr.cie) : N := if negb (c_fde_enc c =? 0) then CfiWr.pe_format (c_fde_enc c) else 0.

(* offset of the LSDA field *)
Definition fde_lsda_pos (be eh : bool) (pos : N) (c : CfiWr.cie) (f : CfiWr.fde) : N :=
  fde_addr_pos eh pos c
  + CfiRd.nlen (CfiSpec.enc_value (fde_afmt c) (c_asize c) be (fde_init_raw eh pos c f))
  + CfiRd.nlen (CfiSpec.enc_value (fde_afmt c) (c_asize c) be (f_len f)) + 1.

Definition fde_lsda_raw (be eh : bool) (pos : N) (c : CfiWr.cie) (f : CfiWr.fde) : N :=
  match f_lsda f, c_lsda_enc c with
  | Some a, Some e => ptr_raw (fde_lsda_pos be eh pos c f) e (addr_val a)
  | _, _ => 0
  end.

Definition fde_rec_of (be eh : bool) (pos : N) (c : CfiWr.cie) (f : CfiWr.fde) (idx : nat) (instr : list byte)
  : CfiSpec.fde_rec :=
  CfiSpec.mkfde_rec (c_fmt64 c) idx (fde_init_raw eh pos c f) (f_len f) (fde_lsda_raw be eh pos c f) [] instr.

Lemma find_R_items c d : CfiSpec.find_R (aug_items_of c d) = if negb (c_fde_enc c =? 0) then Some (c_fde_enc c) else None.
Proof.
  unfold aug_items_of, pers_items, lsda_items.
  destruct (c_lsda_enc c); destruct (c_pers c) as [[e [a|s x]]|]; destruct (negb (c_fde_enc c =? 0)); destruct (c_sig c);
    reflexivity.
Qed.
Lemma find_L_items c d : CfiSpec.find_L (aug_items_of c d) = c_lsda_enc c.
Proof.
  unfold aug_items_of, pers_items, lsda_items.
  destruct (c_lsda_enc c); destruct (c_pers c) as [[e [a|s x]]|]; destruct (negb (c_fde_enc c =? 0)); destruct (c_sig c);
    reflexivity.
Qed.
Lemma has_aug_items c d i : CfiSpec.has_aug (cie_rec_of c d i) = has_augmentation c.
Proof.
  unfold CfiSpec.has_aug, cie_rec_of. cbn [CfiSpec.c_z CfiSpec.c_items].
  destruct (has_augmentation c) eqn:Ea; [reflexivity|].
  destruct (no_aug_fields c Ea) as (E1 & E2 & E3 & E4).
  unfold aug_items_of, pers_items, lsda_items. rewrite E1, E2, E3, E4. reflexivity.
Qed.

(* what the reader needs to know about the values and encodings of a written FDE *)
Record fde_fits (be eh : bool) (pos : N) (c : CfiWr.cie) (f : CfiWr.fde) : Prop := {
  ff_lsda : lsda_ok c f = true;
  ff_addr : exists v, f_addr f = AConst v /\ v < 18446744073709551616;
  ff_lsda_addr : forall la, f_lsda f = Some la -> exists v, la = AConst v /\ v < 18446744073709551616;
  ff_len : f_len f < 4294967296;
  ff_enc : if negb (c_fde_enc c =? 0)
           then enc_usable (c_fde_enc c) /\
                CfiSpec.value_fits (CfiWr.pe_format (c_fde_enc c)) (c_asize c) (fde_init_raw eh pos c f) = true /\
                CfiSpec.value_fits (CfiWr.pe_format (c_fde_enc c)) (c_asize c) (f_len f) = true
           else fde_init_raw eh pos c f < 2 ^ (8 * c_asize c) /\ f_len f < 2 ^ (8 * c_asize c);
  ff_lsda_enc : forall e, c_lsda_enc c = Some e ->
                enc_usable e /\ CfiSpec.value_fits (CfiWr.pe_format e) (c_asize c) (fde_lsda_raw be eh pos c f) = true }.

Lemma cie_pointer_enc dbg be (eh fmt64 : bool) asz base coff ptr :
  base < 18446744073709551616 -> coff <= base ->
  (if eh then let* d := chk_sub 64 dbg base coff in write_udata be d 4
   else write_udata be coff (word_size fmt64)) = Ok ptr ->
  ptr = CfiSpec.cie_pointer (CfiSpec.mksp eh be asz) fmt64 base coff /\ len ptr = id_size_of eh fmt64 /\
  (if eh then base - coff < 4294967296 else coff < (if fmt64 then 18446744073709551616 else 4294967296)).
Proof.
  intros Hb Hc H. unfold CfiSpec.cie_pointer, id_size_of. cbn [CfiSpec.s_eh CfiSpec.s_be]. destruct eh.
  - rewrite chk_sub_ok in H by exact Hc. cbn [bind] in H.
    destruct (write_udata_un_bytes be (base - coff) 4 ptr ltac:(lia) H) as (_ & -> & Hlt).
    split; [reflexivity|]. split; [unfold len; rewrite CfiRdBase.un_bytes_length; reflexivity|exact Hlt].
  - destruct (write_udata_un_bytes be coff (word_size fmt64) ptr ltac:(lia) H) as (_ & -> & Hlt).
    destruct fmt64; cbn [word_size] in *;
      (split; [reflexivity|]; split; [unfold len; rewrite CfiRdBase.un_bytes_length; reflexivity|exact Hlt]).
Qed.

Lemma fde_addrs_enc be eh pos (c : CfiWr.cie) (f : CfiWr.fde) addrs :
  c_fde_enc c < 256 -> addr_wf (f_addr f) = true -> f_len f < 4294967296 ->
  (if negb (c_fde_enc c =? 0) then
     let* a := write_eh_pointer be (fde_addr_pos eh pos c) (f_addr f) (c_fde_enc c) (c_asize c) in
     let* l := write_eh_pointer_data be (f_len f) (pe_format (c_fde_enc c)) (c_asize c) in Ok (a ++ l)
   else
     let* a := write_address be (f_addr f) (c_asize c) in
     let* l := write_udata be (f_len f) (c_asize c) in Ok (a ++ l)) = Ok addrs ->
  addrs = CfiSpec.enc_value (fde_afmt c) (c_asize c) be (fde_init_raw eh pos c f)
          ++ CfiSpec.enc_value (fde_afmt c) (c_asize c) be (f_len f) /\
  (exists v, f_addr f = AConst v /\ v < 18446744073709551616) /\
  if negb (c_fde_enc c =? 0)
  then enc_usable (c_fde_enc c) /\
       CfiSpec.value_fits (CfiWr.pe_format (c_fde_enc c)) (c_asize c) (fde_init_raw eh pos c f) = true /\
       CfiSpec.value_fits (CfiWr.pe_format (c_fde_enc c)) (c_asize c) (f_len f) = true
  else fde_init_raw eh pos c f < 2 ^ (8 * c_asize c) /\ f_len f < 2 ^ (8 * c_asize c).
Proof.
  intros He Ha Hl H. unfold fde_afmt, fde_init_raw. destruct (negb (c_fde_enc c =? 0)).
  - apply bind_ok in H. destruct H as (ab & Hab & H). apply bind_ok in H. destruct H as (lb & Hlb & [= <-]).
    destruct (addr_const_of_ptr _ _ _ _ _ _ Hab) as (v & Ev). rewrite Ev in *. cbn [addr_val addr_wf] in *.
    apply N.ltb_lt in Ha.
    destruct (write_eh_pointer_enc be _ v _ _ ab Ha Hab) as (-> & Happ & Hfv & Hfit1 & _).
    destruct (write_eh_pointer_data_enc be (f_len f) _ _ lb ltac:(lia) Hlb) as (-> & _ & Hfit2 & _).
    unfold enc_usable. eauto 10.
  - apply bind_ok in H. destruct H as (ab & Hab & H). apply bind_ok in H. destruct H as (lb & Hlb & [= <-]).
    destruct (addr_const_of_write _ _ _ _ Hab) as (v & Ev). rewrite Ev in *. cbn [addr_val addr_wf write_address] in *.
    apply N.ltb_lt in Ha.
    destruct (write_udata_un_bytes be v _ ab Ha Hab) as (_ & -> & Hlt1).
    destruct (write_udata_un_bytes be (f_len f) _ lb ltac:(lia) Hlb) as (_ & -> & Hlt2).
    eauto 10.
Qed.

(* the augmentation data: the LSDA pointer behind a one-byte length *)
Lemma fde_augdata_enc dbg be eh pos (c : CfiWr.cie) (f : CfiWr.fde) augdata :
  (forall e, c_lsda_enc c = Some e -> e < 256) ->
  match f_lsda f with Some a => addr_wf a = true | None => True end ->
  lsda_ok c f = true ->
  (if has_augmentation c then
     let* d := match f_lsda f, c_lsda_enc c with
               | Some a, Some e => write_eh_pointer be (fde_lsda_pos be eh pos c f) a e (c_asize c)
               | _, _ => Ok []
               end in
     with_aug_len dbg be d
   else Ok []) = Ok augdata ->
  let ad := match c_lsda_enc c with
            | Some e => CfiSpec.enc_value (CfiSpec.fmt_of e) (c_asize c) be (fde_lsda_raw be eh pos c f)
            | None => [] end ++ [] in
  augdata = (if has_augmentation c then enc_uleb (CfiSpec.blen ad) ++ ad else []) /\
  (forall la, f_lsda f = Some la -> exists v, la = AConst v /\ v < 18446744073709551616) /\
  (forall e, c_lsda_enc c = Some e ->
     enc_usable e /\ CfiSpec.value_fits (CfiWr.pe_format e) (c_asize c) (fde_lsda_raw be eh pos c f) = true).
Proof.
  intros Hle Hla Hls H. unfold lsda_ok in Hls. apply (proj1 (bool_eqb_iff _ _)) in Hls.
  unfold fde_lsda_raw. cbv zeta. destruct (has_augmentation c) eqn:Ea.
  - apply bind_ok in H. destruct H as (d & Hd & H). apply with_aug_len_inv in H. destruct H as [_ ->].
    destruct (f_lsda f) as [la|]; destruct (c_lsda_enc c) as [le|]; cbn [is_some] in Hls; try discriminate.
    + destruct (addr_const_of_ptr _ _ _ _ _ _ Hd) as (v & ->). cbn [addr_val addr_wf] in *. apply N.ltb_lt in Hla.
      pose proof (write_eh_pointer_len _ _ _ _ _ _ Hd) as Hd10.
      destruct (write_eh_pointer_enc be _ v le _ d Hla Hd) as (-> & Happ & Hfv & Hfit & _).
      rewrite app_nil_r, fmt_of_pe. rewrite enc_uleb_small by (unfold CfiSpec.blen; lia).
      split; [reflexivity|]. split; [intros la [= <-]; eauto|].
      intros e [= <-]. specialize (Hle le eq_refl). unfold enc_usable. auto.
    + injection Hd as <-. split; [reflexivity|]. split; intros ? [=].
  - injection H as <-. destruct (no_aug_fields c Ea) as (E1 & _). rewrite E1 in *.
    split; [reflexivity|]. split; [|intros ? [=]].
    intros la Hl. rewrite Hl in Hls. discriminate.
Qed.

Lemma fde_write_enc dbg be eh pos coff (c : CfiWr.cie) (f : CfiWr.fde) bs :
  cie_wf c = true -> fde_wf f = true -> pos + len bs < 18446744073709551616 -> coff <= pos ->
  fde_write dbg be eh pos coff c f = Ok bs ->
  let cfg := rd_cfg eh be (c_asize c) in
  exists insns pad,
    write_fde_insns dbg be (c_caf c) (c_daf c) 0 (f_insns f) = Ok insns /\ all_nop pad = true /\ len pad < c_asize c /\
    fde_fits be eh pos c f /\
    forall d ci idx,
      let cr := cie_rec_of c d ci in
      let fr := fde_rec_of be eh pos c f idx (insns ++ pad) in
      bs = CfiSpec.enc_fde (cie_sp eh be c) cr coff pos fr /\
      RdE.body_fits (c_fmt64 c) (RdE.fde_body cfg cr coff pos fr).
Proof.
  intros Hwf Hfwf Hfit Hcoff H cfg.
  destruct (cie_wf_fields c Hwf) as (_ & _ & _ & _ & _ & _ & Hle & Hfe).
  destruct (fde_wf_parts2 f Hfwf) as (Hfa & Hfl & Hflsda). apply is_u32_iff in Hfl.
  unfold fde_write in H. cbv zeta in H.
  apply bind_ok in H. destruct H as (ptr & Hptr & H).
  apply bind_ok in H. destruct H as (addrs & Haddrs & H).
  destruct (Bool.eqb (is_some (f_lsda f)) (is_some (c_lsda_enc c))) eqn:Hls; cbn [negb] in H; [|discriminate].
  apply bind_ok in H. destruct H as (augdata & Haug & H).
  apply bind_ok in H. destruct H as (insns & Hins & H).
  apply close_entry_enc in H; [|lia]. destruct H as (Hasz & pad & Hnop & Hpad & Hbs & Hb).
  assert (Hbase : pos + ilen_size (c_fmt64 c) < 18446744073709551616).
  { rewrite Hbs, len_app in Hfit. change len with CfiRd.nlen in Hfit. rewrite RdE.nlen_initial_length in Hfit.
    change (CfiSpec.len_field_size (c_fmt64 c)) with (ilen_size (c_fmt64 c)) in Hfit. lia. }
  destruct (cie_pointer_enc dbg be eh (c_fmt64 c) (c_asize c) _ coff ptr Hbase ltac:(lia) Hptr) as (Eptr & Lptr & _).
  replace (pos + ilen_size (c_fmt64 c) + len ptr) with (fde_addr_pos eh pos c) in Haddrs, Haug
    by (unfold fde_addr_pos; lia).
  destruct (fde_addrs_enc be eh pos c f addrs Hfe Hfa Hfl Haddrs) as (Eaddr & Hconst & Henc).
  replace (fde_addr_pos eh pos c + len addrs + 1) with (fde_lsda_pos be eh pos c f) in Haug
    by (unfold fde_lsda_pos; rewrite Eaddr, len_app; unfold len, CfiRd.nlen; lia).
  destruct (fde_augdata_enc dbg be eh pos c f augdata Hle Hflsda Hls Haug) as (Eaug & Hlconst & Hlenc).
  exists insns, pad. split; [exact Hins|]. split; [exact Hnop|]. split; [exact Hpad|].
  split; [constructor; assumption|].
  intros d ci idx cr fr.
  assert (Hbody : (ptr ++ addrs ++ augdata ++ insns) ++ pad = RdE.fde_body cfg cr coff pos fr).
  { unfold RdE.fde_body, CfiSpec.fde_tail. cbv zeta. change (RdE.sp_of cfg) with (cie_sp eh be c).
    unfold cr. rewrite cie_asz_sp, has_aug_items. cbn [cie_rec_of CfiSpec.c_items]. rewrite find_R_items, find_L_items.
    unfold fr. cbn [fde_rec_of CfiSpec.f_fmt64 CfiSpec.f_init CfiSpec.f_range CfiSpec.f_lsda CfiSpec.f_pad CfiSpec.f_instr].
    change (CfiSpec.len_field_size (c_fmt64 c)) with (ilen_size (c_fmt64 c)).
    rewrite Eptr, Eaddr, Eaug. unfold fde_afmt, cie_sp. cbn [CfiSpec.s_be].
    destruct (negb (c_fde_enc c =? 0)); rewrite ?fmt_of_pe; repeat rewrite <- app_assoc; reflexivity. }
  rewrite Hbody in Hb, Hbs. split; [exact Hbs|exact Hb].
Qed.

Module RdP := GV.Proofs.CfiRdPtr.

Lemma pe_bits e : e < 256 ->
  CfiSpec.app_of e = CfiWr.pe_application e /\ CfiSpec.fmt_of e = CfiWr.pe_format e /\
  (negb (CfiSpec.ind_of e =? 0)) = negb (N.land e 128 =? 0).
Proof.
  intros He.
  assert (E : ((CfiSpec.app_of e =? CfiWr.pe_application e) && (CfiSpec.fmt_of e =? CfiWr.pe_format e)
               && Bool.eqb (negb (CfiSpec.ind_of e =? 0)) (negb (N.land e 128 =? 0))) = true).
  { apply (forallb_below (fun e => (CfiSpec.app_of e =? CfiWr.pe_application e) && (CfiSpec.fmt_of e =? CfiWr.pe_format e)
               && Bool.eqb (negb (CfiSpec.ind_of e =? 0)) (negb (N.land e 128 =? 0))) 256); [vm_compute; reflexivity|exact He]. }
  apply andb_true_iff in E. destruct E as [E E3]. apply andb_true_iff in E. destruct E as [E1 E2].
  apply (proj1 (bool_eqb_iff _ _)) in E3. split; [lia|]. split; [lia|exact E3].
Qed.

Lemma enc_usable_valid e : enc_usable e -> ((e <? 256) && CfiSpec.valid_spec e) = true /\ e <> 255.
Proof.
  intros (He & Happ & Hfmt). destruct (pe_bits e He) as (Ha & Hf & _).
  assert (Hne : e <> 255) by (intros ->; vm_compute in Happ; destruct Happ; discriminate).
  split; [|exact Hne]. unfold CfiSpec.valid_spec. rewrite Hf, Hfmt, Ha.
  replace (e <? 256) with true by lia. destruct Happ as [-> | ->]; cbn; rewrite orb_true_r; reflexivity.
Qed.

Lemma enc_usable_ok e : enc_usable e -> RdE.enc_ok e = true.
Proof.
  intros H. destruct (enc_usable_valid e H) as [Hv Hn]. unfold RdE.enc_ok. rewrite Hv.
  destruct (e =? 255) eqn:E; [lia|reflexivity].
Qed.

(* a pc-relative value, added back to the offset of its field and reduced to a size m that divides the
   modulus of the subtraction, is the address *)
Lemma pcrel_mod m k pos a : m <> 0 -> k <> 0 -> pos < m * k ->
  (pos mod m + (m * k + a - pos) mod (m * k)) mod m = a mod m.
Proof.
  intros Hm Hk Hp. set (x := m * k + a - pos). rewrite N.mod_mul_r by assumption.
  rewrite N.add_assoc, (N.mul_comm m (_ mod k)), N.mod_add, <- N.add_mod by exact Hm.
  replace (pos + x) with (a + k * m) by lia. apply N.mod_add, Hm.
Qed.

(* the pointer the LSB definition assigns to the value the writer encoded: the address, reduced to the
   address size (section loaded at 0) *)
Lemma ptr_spec_written e asz pos a func :
  e < 256 -> (asz = 1 \/ asz = 2 \/ asz = 4 \/ asz = 8) ->
  (CfiWr.pe_application e = 0 \/ CfiWr.pe_application e = 16) ->
  pos < 18446744073709551616 ->
  CfiSpec.ptr_spec e asz (CfiSpec.mkpb (Some 0) None None func) pos (ptr_raw pos e a)
  = Some (negb (N.land e 128 =? 0), a mod 2 ^ (8 * asz)).
Proof.
  intros He Hasz Happ Hp. destruct (pe_bits e He) as (Hap & _ & Hind).
  unfold CfiSpec.ptr_spec, CfiSpec.base_spec, ptr_raw. rewrite Hap, Hind. cbn [CfiSpec.b_section].
  destruct Happ as [E|E]; rewrite E; cbn [N.eqb Pos.eqb]; rewrite N.add_0_l; [reflexivity|].
  do 2 f_equal. unfold wrap64. rewrite (N.mod_small pos two64) by exact Hp.
  assert (E64 : two64 = 2 ^ (8 * asz) * 2 ^ (64 - 8 * asz)) by (rewrite <- N.pow_add_r, two64_eq; f_equal; lia).
  rewrite E64. apply pcrel_mod; try (apply N.pow_nonzero; discriminate). rewrite <- E64. exact Hp.
Qed.

(* the augmentation the reader must report for a written CIE *)
Definition rd_pers_of (c : CfiWr.cie) : option (N * CfiRd.pointer) :=
  match c_pers c with
  | Some (e, a) => Some (e, RdP.mkptr (negb (N.land e 128 =? 0)) (addr_val a mod 2 ^ (8 * c_asize c)))
  | None => None
  end.
Definition rd_augm_of (c : CfiWr.cie) : CfiRd.augm :=
  CfiRd.mkaug (c_lsda_enc c) (rd_pers_of c) (if negb (c_fde_enc c =? 0) then Some (c_fde_enc c) else None) (c_sig c).
Definition rd_aug_of (c : CfiWr.cie) : option CfiRd.augm :=
  if has_augmentation c then Some (rd_augm_of c) else None.

Lemma aug_fold_written be (c : CfiWr.cie) (dpos : N) :
  (c_asize c = 1 \/ c_asize c = 2 \/ c_asize c = 4 \/ c_asize c = 8) ->
  dpos + 2 < 18446744073709551616 ->
  (forall e, c_lsda_enc c = Some e -> enc_usable e) ->
  (negb (c_fde_enc c =? 0) = true -> enc_usable (c_fde_enc c)) ->
  pers_ok c dpos ->
  RdE.aug_fold (c_asize c) be (CfiRd.mksb (Some 0) None None) (aug_items_of c dpos) dpos CfiRd.aug_default
  = Some (rd_augm_of c).
Proof.
  intros Hasz Hpos HL HR HP. unfold aug_items_of, rd_augm_of, rd_pers_of, pers_ok in *.
  assert (T2 : forall pos a,
    RdE.aug_fold (c_asize c) be (CfiRd.mksb (Some 0) None None)
      ((if negb (c_fde_enc c =? 0) then [CfiSpec.AR (c_fde_enc c)] else []) ++ (if c_sig c then [CfiSpec.AS] else []))
      pos a
    = Some (CfiRd.mkaug (CfiRd.a_lsda a) (CfiRd.a_pers a)
              (if negb (c_fde_enc c =? 0) then Some (c_fde_enc c) else CfiRd.a_fde_enc a)
              (if c_sig c then true else CfiRd.a_sig a))).
  { intros pos a. destruct (negb (c_fde_enc c =? 0)) eqn:Ef.
    - destruct (enc_usable_valid _ (HR eq_refl)) as [Hv _]. cbn [app RdE.aug_fold]. rewrite Hv.
      destruct (c_sig c); cbn [app RdE.aug_fold]; destruct a; reflexivity.
    - destruct (c_sig c); cbn [app RdE.aug_fold]; destruct a; reflexivity. }
  assert (T1 : forall l0,
    RdE.aug_fold (c_asize c) be (CfiRd.mksb (Some 0) None None)
      (pers_items c dpos ++ (if negb (c_fde_enc c =? 0) then [CfiSpec.AR (c_fde_enc c)] else [])
                         ++ (if c_sig c then [CfiSpec.AS] else []))
      (dpos + N.of_nat (length (lsda_items c))) (CfiRd.mkaug l0 None None false)
    = Some (CfiRd.mkaug l0
              (match c_pers c with
               | Some (e, a) => Some (e, RdP.mkptr (negb (N.land e 128 =? 0)) (addr_val a mod 2 ^ (8 * c_asize c)))
               | None => None end)
              (if negb (c_fde_enc c =? 0) then Some (c_fde_enc c) else None) (c_sig c))).
  { intros l0. unfold pers_items. destruct (c_pers c) as [[e a]|].
    - destruct HP as (v & -> & Hv & He & Hfit).
      destruct (enc_usable_valid e He) as [Hval Hne]. destruct He as (He & Happ & Hfmt).
      cbn [app RdE.aug_fold]. rewrite Hval. replace (e =? 255) with false by lia. cbn [negb andb].
      rewrite fmt_of_pe, Hfit. cbn [CfiRd.sb_section CfiRd.sb_text CfiRd.sb_data].
      rewrite (ptr_spec_written e (c_asize c) _ v None He Hasz Happ) by (unfold lsda_items; destruct (c_lsda_enc c); cbn [length]; lia).
      rewrite T2. cbn [RdE.set_pers CfiRd.a_lsda CfiRd.a_pers CfiRd.a_fde_enc CfiRd.a_sig addr_val].
      destruct (negb (c_fde_enc c =? 0)); destruct (c_sig c); reflexivity.
    - cbn [app]. rewrite T2. cbn [CfiRd.a_lsda CfiRd.a_pers CfiRd.a_fde_enc CfiRd.a_sig].
      destruct (negb (c_fde_enc c =? 0)); destruct (c_sig c); reflexivity. }
  unfold lsda_items in *. destruct (c_lsda_enc c) as [e|] eqn:El.
  - destruct (enc_usable_valid e (HL e eq_refl)) as [Hv _].
    cbn [app RdE.aug_fold]. rewrite Hv. cbn [RdE.set_lsda CfiRd.aug_default CfiRd.a_pers CfiRd.a_fde_enc CfiRd.a_sig].
    specialize (T1 (Some e)). cbn [length] in T1. change (N.of_nat 1) with 1 in T1. exact T1.
  - cbn [app]. specialize (T1 None). cbn [length] in T1. change (N.of_nat 0) with 0 in T1. rewrite N.add_0_r in T1.
    exact T1.
Qed.

Lemma asz_ok_rd a : asz_ok a -> CfiRdBase.asz_ok a.
Proof. intros H. exact H. Qed.

Lemma tail_off_cfg eh be asz fmt64 pos :
  RdE.tail_off (rd_cfg eh be asz) fmt64 pos = pos + ilen_size fmt64 + id_size_of eh fmt64.
Proof.
  unfold RdE.tail_off, RdE.idsz_of, CfiRd.cie_id_is_u64, id_size_of, rd_cfg. cbn [CfiRd.sc_eh].
  destruct eh, fmt64; reflexivity.
Qed.

(* the LSDA the reader must report *)
Definition rd_lsda_of (c : CfiWr.cie) (f : CfiWr.fde) : option CfiRd.pointer :=
  match f_lsda f, c_lsda_enc c with
  | Some a, Some e => Some (RdP.mkptr (negb (N.land e 128 =? 0)) (addr_val a mod 2 ^ (8 * c_asize c)))
  | _, _ => None
  end.

(* what the reader's CIE record must contain for the CIE c written at offset o as the bytes b; fde_seen: the same
   for an FDE record *)
Definition cie_seen (dbg : bool) (c : CfiWr.cie) (o : N) (b : list byte) (ci : CfiRd.cie) : Prop :=
  CfiRd.ci_off ci = o /\ CfiRd.ci_fmt64 ci = c_fmt64 c /\ CfiRd.ci_ver ci = c_version c /\
  CfiRd.ci_asz ci = c_asize c /\ CfiRd.ci_caf ci = c_caf c /\ CfiRd.ci_daf ci = c_daf c /\
  CfiRd.ci_rar ci = c_ra c /\ CfiRd.ci_aug ci = rd_aug_of c /\
  exists insns pad,
    write_insns dbg (c_daf c) (c_insns c) = Ok insns /\ all_nop pad = true /\ len pad < c_asize c /\
    CfiRd.win (CfiRd.ci_instr ci) = insns ++ pad /\
    CfiRd.off (CfiRd.ci_instr ci) + len (insns ++ pad) = o + len b.

Definition fde_seen (dbg be : bool) (c : CfiWr.cie) (f : CfiWr.fde) (o : N) (b : list byte) (ci : CfiRd.cie)
           (fd : CfiRd.fde) : Prop :=
  CfiRd.fd_off fd = o /\ CfiRd.fd_fmt64 fd = c_fmt64 c /\ CfiRd.fd_cie fd = ci /\
  CfiRd.fd_init fd = addr_val (f_addr f) mod 2 ^ (8 * c_asize c) /\ CfiRd.fd_range fd = f_len f /\
  CfiRd.fd_aug fd = (if has_augmentation c then Some (rd_lsda_of c f) else None) /\
  exists insns pad,
    write_fde_insns dbg be (c_caf c) (c_daf c) 0 (f_insns f) = Ok insns /\ all_nop pad = true /\ len pad < c_asize c /\
    CfiRd.win (CfiRd.fd_instr fd) = insns ++ pad.

Section Assembly.
  Variables (dbg dbg' be eh : bool) (asz : N) (cies : list CfiWr.cie) (fdes : list (nat * CfiWr.fde)) (sec : list byte).
  Let cfg := rd_cfg eh be asz.

  (* a CIE tile already passed: where it sits in the section and what the reader makes of it *)
  Definition placed_cie (idx : nat) (o : N) (ci : CfiRd.cie) : Prop :=
    exists c b pre post,
      nth_error cies idx = Some c /\ sec = pre ++ b ++ post /\ len pre = o /\
      cie_seen dbg c o b ci /\
      CfiRd.cie_from_offset dbg' cfg sec o = Ok ci /\
      (exists cr, ci = RdE.exp_cie cfg cr o (CfiSpec.blen (RdE.cie_body cfg cr)) (RdE.tail_off cfg (c_fmt64 c) o) (rd_aug_of c) /\
                  cr = cie_rec_of c (cie_data_pos eh be o c) (CfiRd.win (CfiRd.ci_instr ci)) /\
                  RdE.exp_aug cfg cr (RdE.cie_dpos cfg cr (RdE.tail_off cfg (c_fmt64 c) o)) = Some (rd_aug_of c)).

  Fixpoint reader_sees (pos : N) (placed : list (nat * N)) (chunks : list (CfaEncSpec.item * list byte))
           (items : list CfiRd.item) : Prop :=
    match chunks, items with
    | [], [] => True
    | (CfaEncSpec.ICie idx, b) :: r, CfiRd.ICie ci :: its =>
        placed_cie idx pos ci /\ reader_sees (pos + len b) ((idx, pos) :: placed) r its
    | (CfaEncSpec.IFde k, b) :: r, CfiRd.IFde p :: its =>
        (exists idx f c coff ci fd,
           nth_error fdes k = Some (idx, f) /\ nth_error cies idx = Some c /\ CfiWrProofs.lookup idx placed = Some coff /\
           placed_cie idx coff ci /\
           CfiRd.pf_off p = pos /\ CfiRd.pf_cie_off p = coff /\
           CfiRd.fde_parse dbg' cfg sec p = Ok fd /\ fde_seen dbg be c f pos b ci fd)
        /\ reader_sees (pos + len b) placed r its
    | _, _ => False
    end.
End Assembly.

Lemma enc_cie_len eh be (c : CfiWr.cie) cr :
  len (CfiSpec.enc_cie (cie_sp eh be c) cr) =
  ilen_size (CfiSpec.c_fmt64 cr) + id_size_of eh (CfiSpec.c_fmt64 cr) + len (RdE.cie_pre (cie_sp eh be c) cr)
  + len (RdE.cie_augpart (cie_sp eh be c) cr) + len (CfiSpec.c_instr cr).
Proof.
  unfold CfiSpec.enc_cie. cbv zeta. rewrite RdE.cie_tail_split, !len_app, cie_id_len.
  change len with CfiRd.nlen at 1. rewrite RdE.nlen_initial_length.
  change (CfiSpec.len_field_size (CfiSpec.c_fmt64 cr)) with (ilen_size (CfiSpec.c_fmt64 cr)). lia.
Qed.

Lemma cie_tile dbg dbg' be eh cies idx (c : CfiWr.cie) pre b post :
  nth_error cies idx = Some c -> cie_wf c = true -> len pre + len b + 2 < 18446744073709551616 ->
  cie_write dbg be eh (len pre) c = Ok b ->
  (forall e, c_lsda_enc c = Some e -> enc_usable e) ->
  (negb (c_fde_enc c =? 0) = true -> enc_usable (c_fde_enc c)) ->
  (0 < length b)%nat /\
  exists ci,
    (forall rest, CfiRd.parse_cfi_entry dbg' (rd_cfg eh be (c_asize c)) (CfiRd.mkrd (len pre) (b ++ rest))
                  = Ok (Some (CfiRd.ICie ci), CfiRd.mkrd (len pre + len b) rest)) /\
    placed_cie dbg dbg' be eh (c_asize c) cies (pre ++ b ++ post) idx (len pre) ci.
Proof.
  intros Hn Hwf Hfit H HL HR. set (o := len pre) in *. set (cfg := rd_cfg eh be (c_asize c)).
  pose proof (proj1 (cie_write_parts _ _ _ _ _ _ H)) as Hasz.
  destruct (cie_write_enc dbg be eh o c b Hwf ltac:(lia) H)
    as (insns & pad & Hins & Hnop & Hpad & Hb & Hwfc & Hbf & Hsmall & Hpers).
  fold cfg in Hwfc, Hbf.
  set (D := cie_data_pos eh be o c) in *. set (cr := cie_rec_of c D (insns ++ pad)) in *.
  assert (Hsp : RdE.sp_of cfg = cie_sp eh be c) by reflexivity.
  pose proof (enc_cie_len eh be c cr) as Hlen. rewrite <- Hb in Hlen.
  change (CfiSpec.c_fmt64 cr) with (c_fmt64 c) in Hlen. change (CfiSpec.c_instr cr) with (insns ++ pad) in Hlen.
  assert (Hpre : len (RdE.cie_pre (cie_sp eh be c) cr) = CfiRd.nlen (RdE.cie_pre (cie_sp eh be c) (cie_rec_of c 0 [])))
    by (unfold cr; rewrite (cie_pre_indep eh be c D _ 0 []); reflexivity).
  assert (Hdpos : RdE.cie_dpos cfg cr (RdE.tail_off cfg (c_fmt64 c) o) = D).
  { unfold RdE.cie_dpos. rewrite Hsp. unfold cr at 2. rewrite cie_asz_sp. change (CfiRd.sc_be cfg) with be.
    change (CfiSpec.c_items cr) with (aug_items_of c D).
    rewrite enc_uleb_small by exact Hsmall. unfold cfg. rewrite tail_off_cfg.
    change CfiRd.nlen with len. rewrite Hpre. reflexivity. }
  assert (Haug : RdE.exp_aug cfg cr D = Some (rd_aug_of c)).
  { unfold RdE.exp_aug, rd_aug_of. rewrite Hsp. unfold cr. rewrite cie_asz_sp.
    cbn [cie_rec_of CfiSpec.c_z CfiSpec.c_items]. change (CfiRd.sc_be cfg) with be.
    change (CfiRd.sc_bases cfg) with (CfiRd.mksb (Some 0) None None).
    destruct (has_augmentation c) eqn:Ea.
    - rewrite (aug_fold_written be c D Hasz); [reflexivity| |exact HL|exact HR|exact Hpers].
      (* the data lies inside the entry *)
      assert (Hap : 1 <= len (RdE.cie_augpart (cie_sp eh be c) cr)).
      { unfold RdE.cie_augpart, cr. cbv zeta. rewrite cie_asz_sp. cbn [cie_rec_of CfiSpec.c_z CfiSpec.c_items]. rewrite Ea.
        change (CfiSpec.s_be (cie_sp eh be c)) with be. fold (RdE.items_data (c_asize c) be (aug_items_of c D)).
        rewrite enc_uleb_small by exact Hsmall. rewrite len_app. unfold len at 1. cbn [length]. lia. }
      unfold D, cie_data_pos in *. lia.
    - destruct (no_aug_fields c Ea) as (E1 & E2 & E3 & E4).
      unfold aug_items_of, pers_items, lsda_items. rewrite E1, E2, E3, E4. reflexivity. }
  rewrite <- Hdpos in Haug.
  split; [rewrite Hb; apply RdE.enc_cie_len|].
  exists (RdE.exp_cie cfg cr o (CfiSpec.blen (RdE.cie_body cfg cr)) (RdE.tail_off cfg (c_fmt64 c) o) (rd_aug_of c)).
  split.
  - intros rest. rewrite Hb at 1. rewrite <- Hsp.
    rewrite (RdE.parse_cfi_entry_cie dbg' cfg cr o rest (rd_aug_of c) Hwfc Hbf Haug).
    rewrite Hsp, <- Hb. reflexivity.
  - exists c, b, pre, post. split; [exact Hn|]. split; [reflexivity|]. split; [reflexivity|]. split; [|split].
    + unfold cie_seen, RdE.exp_cie. cbv zeta.
      cbn [CfiRd.ci_off CfiRd.ci_fmt64 CfiRd.ci_ver CfiRd.ci_asz CfiRd.ci_caf CfiRd.ci_daf CfiRd.ci_rar CfiRd.ci_aug
           CfiRd.ci_instr CfiRd.win CfiRd.off].
      rewrite Hsp. repeat split; try reflexivity; [apply cie_asz_sp|].
      exists insns, pad. split; [exact Hins|]. split; [exact Hnop|]. split; [exact Hpad|]. split; [reflexivity|].
      unfold cfg. rewrite tail_off_cfg. change CfiRd.nlen with len. lia.
    + rewrite Hb, <- Hsp. apply (RdE.cie_from_offset_enc dbg' cfg cr pre post (rd_aug_of c) Hwfc Hbf). exact Haug.
    + exists cr. split; [reflexivity|]. split; [reflexivity|exact Haug].
Qed.

Lemma enc_value_len fmt asz be v :
  CfiSpec.fmt_valid fmt = true -> asz <= 8 -> v < 18446744073709551616 ->
  (length (CfiSpec.enc_value fmt asz be v) <= 10)%nat.
Proof.
  intros Hf Ha Hv. unfold CfiSpec.enc_value.
  destruct (fmt =? 0); [rewrite CfiRdBase.un_bytes_length; lia|].
  destruct (fmt =? 1).
  { destruct (enc_uleb_spec v [] Hv) as (_ & _ & Hl & _). lia. }
  destruct (fmt =? 2); [rewrite CfiRdBase.un_bytes_length; lia|].
  destruct (fmt =? 3); [rewrite CfiRdBase.un_bytes_length; lia|].
  destruct (fmt =? 4); [rewrite CfiRdBase.un_bytes_length; lia|].
  destruct (fmt =? 9).
  { rewrite s64_to_i64, enc_sleb_min by (exact Hv || apply to_i64_range).
    destruct (sleb_min_i64 10 (to_i64 v) []) as (_ & _ & Hl & _); [lia|pose proof (to_i64_range v); unfold in_i64; lia|lia]. }
  destruct (fmt =? 10); [rewrite CfiRdBase.un_bytes_length; lia|].
  destruct (fmt =? 11); [rewrite CfiRdBase.un_bytes_length; lia|].
  destruct (fmt =? 12); [rewrite CfiRdBase.un_bytes_length; lia|]. cbn; lia.
Qed.

Lemma ptr_raw_lt pos e a : a < 18446744073709551616 -> ptr_raw pos e a < 18446744073709551616.
Proof. intros H. unfold ptr_raw. destruct (CfiWr.pe_application e =? 16); [apply wrap64_lt|exact H]. Qed.

(* the encoded address, range and LSDA of a written FDE take at most ten bytes each *)
Lemma fde_fields_len be eh pos (c : CfiWr.cie) (f : CfiWr.fde) :
  asz_ok (c_asize c) -> fde_fits be eh pos c f ->
  (length (CfiSpec.enc_value (fde_afmt c) (c_asize c) be (fde_init_raw eh pos c f)) <= 10)%nat /\
  (length (CfiSpec.enc_value (fde_afmt c) (c_asize c) be (f_len f)) <= 10)%nat /\
  forall e, c_lsda_enc c = Some e ->
    (length (CfiSpec.enc_value (CfiWr.pe_format e) (c_asize c) be (fde_lsda_raw be eh pos c f)) <= 10)%nat.
Proof.
  intros Hasz [_ (va & Hva & Hva64) Hlc Hlen Henc Hlenc].
  assert (Ha8 : c_asize c <= 8) by (destruct Hasz as [->|[->|[->| ->]]]; lia).
  assert (Hinit : fde_init_raw eh pos c f < 18446744073709551616).
  { unfold fde_init_raw. rewrite Hva. destruct (negb (c_fde_enc c =? 0)); [apply ptr_raw_lt|]; exact Hva64. }
  assert (Hfv : CfiSpec.fmt_valid (fde_afmt c) = true).
  { unfold fde_afmt. destruct (negb (c_fde_enc c =? 0)); [apply Henc|reflexivity]. }
  split; [apply enc_value_len; assumption|]. split; [apply enc_value_len; [assumption|assumption|lia]|].
  intros e He. destruct (Hlenc e He) as ((_ & _ & Hfe) & _). apply enc_value_len; [exact Hfe|exact Ha8|].
  unfold fde_lsda_raw. rewrite He. destruct (f_lsda f) as [la|]; [|lia].
  destruct (Hlc la eq_refl) as (v & -> & Hv). apply ptr_raw_lt. exact Hv.
Qed.

Lemma exp_fde_written be eh pos (c : CfiWr.cie) (f : CfiWr.fde) d ci0 idx instr (ci : CfiRd.cie) len0 :
  let cfg := rd_cfg eh be (c_asize c) in
  let cr := cie_rec_of c d ci0 in
  let fr := fde_rec_of be eh pos c f idx instr in
  asz_ok (c_asize c) -> pos + 64 < 18446744073709551616 -> fde_fits be eh pos c f ->
  exists ioff,
    RdE.exp_fde cfg cr ci fr pos len0 (fde_addr_pos eh pos c)
    = Some (CfiRd.mkfde pos len0 (c_fmt64 c) ci (addr_val (f_addr f) mod 2 ^ (8 * c_asize c)) (f_len f)
                        (if has_augmentation c then Some (rd_lsda_of c f) else None)
                        (CfiRd.mkrd ioff instr)).
Proof.
  intros cfg cr fr Hasz Hpos Hff.
  destruct (fde_fields_len be eh pos c f Hasz Hff) as (L1 & L2 & L3).
  destruct Hff as [Hls (va & Hva & Hva64) Hlconst _ Henc Hlenc].
  assert (Hapos : fde_addr_pos eh pos c <= pos + 20)
    by (unfold fde_addr_pos; destruct eh, (c_fmt64 c); cbn [ilen_size id_size_of]; lia).
  assert (Hlpos : fde_lsda_pos be eh pos c f <= pos + 41) by (unfold fde_lsda_pos, CfiRd.nlen; lia).
  unfold RdE.exp_fde. cbv zeta.
  assert (Hsp : RdE.sp_of cfg = cie_sp eh be c) by reflexivity.
  unfold cr. rewrite Hsp, cie_asz_sp, has_aug_items. change (CfiRd.sc_be cfg) with be.
  change (CfiRd.sc_bases cfg) with (CfiRd.mksb (Some 0) None None).
  cbn [cie_rec_of CfiSpec.c_items]. rewrite find_R_items, find_L_items.
  unfold fr. cbn [fde_rec_of CfiSpec.f_init CfiSpec.f_range CfiSpec.f_lsda CfiSpec.f_pad CfiSpec.f_instr CfiSpec.f_fmt64].
  unfold RdE.sb_pb. cbn [CfiRd.sb_section CfiRd.sb_text CfiRd.sb_data].
  rewrite Hva. cbn [addr_val].
  assert (Haddr :
    (match (if negb (c_fde_enc c =? 0) then Some (c_fde_enc c) else None) with
     | Some e =>
         if RdE.enc_ok e && CfiSpec.value_fits (CfiSpec.fmt_of e) (c_asize c) (fde_init_raw eh pos c f)
            && CfiSpec.value_fits (CfiSpec.fmt_of e) (c_asize c) (f_len f)
         then match CfiSpec.ptr_spec e (c_asize c) (CfiSpec.mkpb (Some 0) None None None) (fde_addr_pos eh pos c)
                      (fde_init_raw eh pos c f) with
              | Some (_, a) => Some a | None => None end
         else None
     | None => if (fde_init_raw eh pos c f <? 2 ^ (8 * c_asize c)) && (f_len f <? 2 ^ (8 * c_asize c))
               then Some (fde_init_raw eh pos c f) else None
     end) = Some (va mod 2 ^ (8 * c_asize c))).
  { destruct (negb (c_fde_enc c =? 0)) eqn:Ef.
    - destruct Henc as (Hu & Hf1 & Hf2).
      rewrite (enc_usable_ok _ Hu), fmt_of_pe, Hf1, Hf2. cbn [andb].
      unfold fde_init_raw. rewrite Ef, Hva. cbn [addr_val].
      destruct Hu as (He & Happ & _).
      rewrite (ptr_spec_written _ (c_asize c) _ va None He Hasz Happ) by lia. reflexivity.
    - destruct Henc as (H1 & H2).
      replace (fde_init_raw eh pos c f <? 2 ^ (8 * c_asize c)) with true by lia.
      replace (f_len f <? 2 ^ (8 * c_asize c)) with true by lia. cbn [andb].
      unfold fde_init_raw in *. rewrite Ef, Hva in *. cbn [addr_val] in *. rewrite N.mod_small by exact H1. reflexivity. }
  rewrite Haddr.
  destruct (has_augmentation c) eqn:Ea; [|eexists; reflexivity].
  unfold lsda_ok in Hls. apply (proj1 (bool_eqb_iff _ _)) in Hls.
  destruct (c_lsda_enc c) as [le|] eqn:Ecl.
  - destruct (f_lsda f) as [la|] eqn:Efl; [|discriminate].
    destruct (Hlconst la eq_refl) as (vl & -> & Hvl64).
    destruct (Hlenc le eq_refl) as (Hu & Hfit). specialize (L3 le eq_refl).
    rewrite app_nil_r, fmt_of_pe.
    assert (Hsm : CfiSpec.blen (CfiSpec.enc_value (CfiWr.pe_format le) (c_asize c) be (fde_lsda_raw be eh pos c f)) < 128)
      by (unfold CfiSpec.blen; lia).
    replace (CfiSpec.blen _ <? 2 ^ 64) with true by (change (2 ^ 64) with 18446744073709551616; lia).
    rewrite (enc_usable_ok _ Hu), Hfit. cbn [andb].
    rewrite enc_uleb_small by exact Hsm.
    assert (Hp3 : fde_addr_pos eh pos c
                  + CfiRd.nlen (CfiSpec.enc_value (match (if negb (c_fde_enc c =? 0) then Some (c_fde_enc c) else None) with
                                                   | Some e => CfiSpec.fmt_of e | None => 0 end) (c_asize c) be (fde_init_raw eh pos c f))
                  + CfiRd.nlen (CfiSpec.enc_value (match (if negb (c_fde_enc c =? 0) then Some (c_fde_enc c) else None) with
                                                   | Some e => CfiSpec.fmt_of e | None => 0 end) (c_asize c) be (f_len f))
                  + CfiRd.nlen [n2b (CfiSpec.blen (CfiSpec.enc_value (CfiWr.pe_format le) (c_asize c) be (fde_lsda_raw be eh pos c f)))]
                  = fde_lsda_pos be eh pos c f).
    { unfold fde_lsda_pos, fde_afmt. destruct (negb (c_fde_enc c =? 0)); rewrite ?fmt_of_pe; reflexivity. }
    rewrite Hp3.
    unfold fde_lsda_raw. rewrite Efl, Ecl. cbn [addr_val].
    destruct Hu as (He & Happ & _).
    rewrite (ptr_spec_written le (c_asize c) _ vl (Some (va mod 2 ^ (8 * c_asize c))) He Hasz Happ) by lia.
    eexists. unfold rd_lsda_of. rewrite Efl, Ecl. cbn [addr_val]. reflexivity.
  - destruct (f_lsda f) as [la|] eqn:Efl; [discriminate|].
    cbn [app]. replace (CfiSpec.blen [] <? 2 ^ 64) with true by reflexivity.
    eexists. unfold rd_lsda_of. rewrite Efl. reflexivity.
Qed.

Lemma fde_tile dbg dbg' be eh cies idx (c : CfiWr.cie) (f : CfiWr.fde) coff ci pre b post :
  nth_error cies idx = Some c -> cie_wf c = true -> fde_wf f = true ->
  len (pre ++ b ++ post) + 16 < 4294967295 -> coff <= len pre ->
  fde_write dbg be eh (len pre) coff c f = Ok b ->
  placed_cie dbg dbg' be eh (c_asize c) cies (pre ++ b ++ post) idx coff ci ->
  (0 < length b)%nat /\
  exists p fd,
    CfiRd.parse_cfi_entry dbg' (rd_cfg eh be (c_asize c)) (CfiRd.mkrd (len pre) (b ++ post))
    = Ok (Some (CfiRd.IFde p), CfiRd.mkrd (len pre + len b) post) /\
    CfiRd.pf_off p = len pre /\ CfiRd.pf_cie_off p = coff /\
    CfiRd.fde_parse dbg' (rd_cfg eh be (c_asize c)) (pre ++ b ++ post) p = Ok fd /\
    fde_seen dbg be c f (len pre) b ci fd.
Proof.
  intros Hn Hwf Hfw Hsmall Hcoff Hw Hpc. set (pos := len pre) in *. set (cfg := rd_cfg eh be (c_asize c)) in *.
  rewrite !len_app in Hsmall. fold pos in Hsmall.
  pose proof (proj1 (fde_write_parts _ _ _ _ _ _ _ _ Hw)) as Hasz.
  destruct (fde_write_enc dbg be eh pos coff c f b Hwf Hfw ltac:(lia) Hcoff Hw)
    as (insns & pad & Hins & Hnop & Hpad & Hff & Henc).
  destruct Hpc as (c' & cb & pre' & post' & Hn' & _ & _ & _ & Hfrom & cr & Eci & Ecr & Haug).
  rewrite Hn in Hn'. injection Hn' as <-. fold cfg in Hfrom, Eci, Haug.
  set (fr := fde_rec_of be eh pos c f idx (insns ++ pad)).
  destruct (Henc (cie_data_pos eh be coff c) (CfiRd.win (CfiRd.ci_instr ci)) idx) as [Hb Hbf].
  rewrite <- Ecr in Hb, Hbf. fold cfg fr in Hb, Hbf.
  assert (Href : RdE.cie_ref_ok cfg (CfiSpec.f_fmt64 fr) pos coff).
  { unfold RdE.cie_ref_ok. cbn [cfg rd_cfg CfiRd.sc_eh fr fde_rec_of CfiSpec.f_fmt64].
    change (CfiSpec.len_field_size (c_fmt64 c)) with (ilen_size (c_fmt64 c)).
    destruct eh.
    - change (2 ^ 32) with 4294967296. destruct (c_fmt64 c); cbn [ilen_size]; lia.
    - destruct (c_fmt64 c); [change (2 ^ 64 - 1) with 18446744073709551615|change (2 ^ 32 - 1) with 4294967295]; lia. }
  split; [rewrite Hb; apply RdE.enc_fde_len_pos|].
  pose proof (RdE.parse_cfi_entry_fde dbg' cfg cr coff pos fr post Hbf Href) as Hparse.
  change (RdE.sp_of cfg) with (cie_sp eh be c) in Hparse. rewrite <- Hb in Hparse. change (CfiSpec.blen b) with (len b) in Hparse.
  destruct (exp_fde_written be eh pos c f (cie_data_pos eh be coff c) (CfiRd.win (CfiRd.ci_instr ci)) idx
              (insns ++ pad) ci (CfiSpec.blen (RdE.fde_body cfg cr coff pos fr)) Hasz ltac:(lia) Hff) as (ioff & Hexp).
  fold cfg in Hexp. rewrite <- Ecr in Hexp. fold fr in Hexp.
  eexists. eexists. split; [exact Hparse|]. split; [reflexivity|]. split; [reflexivity|]. split.
  - apply (RdE.fde_body_enc dbg' cfg _ cr ci fr).
    + change (RdE.sp_of cfg) with (cie_sp eh be c). rewrite Ecr, cie_asz_sp. exact Hasz.
    + exact Hfrom.
    + rewrite Eci. eapply RdE.exp_cie_links. exact Haug.
    + cbn [fr fde_rec_of CfiSpec.f_fmt64]. unfold cfg. rewrite tail_off_cfg. exact Hexp.
  - destruct Hff as [_ _ _ _ _ _]. unfold fde_seen.
    cbn [CfiRd.fd_off CfiRd.fd_fmt64 CfiRd.fd_cie CfiRd.fd_init CfiRd.fd_range CfiRd.fd_aug CfiRd.fd_instr CfiRd.win].
    repeat split; try reflexivity. exists insns, pad. auto.
Qed.

Lemma entries_loop_nil fuel dbg cfg o : fuel <> O ->
  CfiRd.entries_loop fuel dbg cfg (CfiRd.mkrd o []) = Ok ([], None).
Proof. destruct fuel as [|f]; [congruence|]. intros _. reflexivity. Qed.

Lemma tiles_read dbg dbg' be eh asz cies fdes sec :
  Forall (fun c => cie_wf c = true /\ c_asize c = asz) cies ->
  Forall (fun p => fde_wf (snd p) = true) fdes ->
  (forall idx c, In idx (map fst fdes) -> nth_error cies idx = Some c ->
     (forall e, c_lsda_enc c = Some e -> enc_usable e) /\
     (negb (c_fde_enc c =? 0) = true -> enc_usable (c_fde_enc c))) ->
  len sec + 16 < 4294967295 ->
  forall chunks done placed fuel,
    sec = done ++ concat (map snd chunks) ->
    well_tiled dbg be eh cies fdes (len done) placed chunks ->
    (forall idx cb, In (CfaEncSpec.ICie idx, cb) chunks -> In idx (map fst fdes)) ->
    (forall idx o, CfiWrProofs.lookup idx placed = Some o ->
       o <= len done /\ exists ci, placed_cie dbg dbg' be eh asz cies sec idx o ci) ->
    (length chunks < fuel)%nat ->
    exists items,
      CfiRd.entries_loop fuel dbg' (rd_cfg eh be asz) (CfiRd.mkrd (len done) (concat (map snd chunks))) = Ok (items, None) /\
      reader_sees dbg dbg' be eh asz cies fdes sec (len done) placed chunks items.
Proof.
  intros HC HF HU Hsmall.
  induction chunks as [|[it b] r IH]; intros done placed fuel Hsec Hwt Hin Hpl Hfuel.
  - exists []. split; [apply entries_loop_nil; cbn [length] in Hfuel; lia|exact I].
  - destruct fuel as [|fuel]; [cbn [length] in Hfuel; lia|]. cbn [length] in Hfuel.
    change (concat (map snd ((it, b) :: r))) with (b ++ concat (map snd r)) in *.
    assert (Hsec' : sec = (done ++ b) ++ concat (map snd r)) by (rewrite Hsec, <- app_assoc; reflexivity).
    assert (Hlen' : len (done ++ b) = len done + len b) by apply len_app.
    assert (Hlen_sec : len sec = len done + len b + len (concat (map snd r))) by (rewrite Hsec, !len_app; lia).
    specialize (IH (done ++ b)). rewrite Hlen' in IH.
    destruct it as [idx|k]; cbn [well_tiled] in Hwt; destruct Hwt as [Hthis Hrest].
    + destruct Hthis as (c & Hn & Hw).
      destruct (Forall_nth_error _ _ _ _ HC Hn) as [Hcw <-].
      destruct (HU idx c (Hin idx b (or_introl eq_refl)) Hn) as [HL HR].
      destruct (cie_tile dbg dbg' be eh cies idx c done b (concat (map snd r)) Hn Hcw ltac:(lia) Hw HL HR)
        as (Hbpos & ci & Hparse & Hplaced).
      rewrite <- Hsec in Hplaced.
      rewrite (RdE.entries_loop_item fuel dbg' _ (len done) b _ (CfiRd.ICie ci) _ Hbpos (Hparse _)).
      destruct (IH ((idx, len done) :: placed) fuel Hsec' Hrest) as (items & Hloop & Hsees).
      * intros i cb Hi. eapply Hin. right. exact Hi.
      * intros i o Hlk. cbn [CfiWrProofs.lookup] in Hlk. destruct (Nat.eqb i idx) eqn:Ei.
        -- injection Hlk as <-. apply Nat.eqb_eq in Ei. subst i. split; [lia|]. exists ci. exact Hplaced.
        -- destruct (Hpl i o Hlk) as [Ho Hex]. split; [lia|exact Hex].
      * lia.
      * rewrite Hloop. cbn [bind].
        exists (CfiRd.ICie ci :: items). split; [reflexivity|]. cbn [reader_sees]. split; [exact Hplaced|exact Hsees].
    + destruct Hthis as (idx & f & c & coff & Hk & Hn & Hlk & Hw).
      destruct (Forall_nth_error _ _ _ _ HC Hn) as [Hcw <-].
      pose proof (Forall_nth_error _ _ _ _ HF Hk) as Hfw. cbn [snd] in Hfw.
      destruct (Hpl idx coff Hlk) as [Hcoff (ci & Hpc)].
      rewrite Hsec in Hsmall, Hpc.
      destruct (fde_tile dbg dbg' be eh cies idx c f coff ci done b (concat (map snd r)) Hn Hcw Hfw Hsmall Hcoff Hw Hpc)
        as (Hbpos & p & fd & Hparse & Hp1 & Hp2 & Hfd & Hseen).
      rewrite <- Hsec in Hpc, Hfd.
      rewrite (RdE.entries_loop_item fuel dbg' _ (len done) b _ (CfiRd.IFde p) _ Hbpos Hparse).
      destruct (IH placed fuel Hsec' Hrest) as (items & Hloop & Hsees).
      * intros i cbb Hi. eapply Hin. right. exact Hi.
      * intros i o Hl. destruct (Hpl i o Hl) as [Ho Hex]. split; [lia|exact Hex].
      * lia.
      * rewrite Hloop. cbn [bind].
        exists (CfiRd.IFde p :: items). split; [reflexivity|]. cbn [reader_sees]. split; [|exact Hsees].
        exists idx, f, c, coff, ci, fd. auto 10.
Qed.

Lemma well_tiled_fde_member dbg be eh cies fdes : forall chunks pos placed k b,
  well_tiled dbg be eh cies fdes pos placed chunks ->
  (forall i o, CfiWrProofs.lookup i placed = Some o -> o <= pos) ->
  In (CfaEncSpec.IFde k, b) chunks ->
  exists p coff idx f c,
    pos <= p /\ p + len b <= pos + len (concat (map snd chunks)) /\ coff <= p /\
    nth_error fdes k = Some (idx, f) /\ nth_error cies idx = Some c /\
    fde_write dbg be eh p coff c f = Ok b.
Proof.
  induction chunks as [|[it cb] r IH]; intros pos placed k b Hwt Hpl Hin; [destruct Hin|].
  change (concat (map snd ((it, cb) :: r))) with (cb ++ concat (map snd r)). rewrite len_app.
  destruct it as [idx|k']; cbn [well_tiled] in Hwt; destruct Hwt as [Hthis Hrest].
  - destruct Hin as [Heq|Hin]; [discriminate|].
    destruct (IH (pos + len cb) ((idx, pos) :: placed) k b Hrest) as (p & coff & i & f & c & H1 & H2 & H3 & H4);
      [|exact Hin|].
    + intros i o Hl. cbn [CfiWrProofs.lookup] in Hl. destruct (Nat.eqb i idx); [injection Hl as <-; lia|].
      specialize (Hpl i o Hl). lia.
    + exists p, coff, i, f, c. split; [lia|]. split; [lia|]. exact (conj H3 H4).
  - destruct Hin as [Heq|Hin].
    + injection Heq as <- <-. destruct Hthis as (idx & f & c & coff & Hk & Hn & Hlk & Hw).
      exists pos, coff, idx, f, c. split; [lia|]. split; [lia|]. split; [exact (Hpl idx coff Hlk)|]. auto.
    + destruct (IH (pos + len cb) placed k b Hrest) as (p & coff & i & f & c & H1 & H2 & H3 & H4); [|exact Hin|].
      * intros i o Hl. specialize (Hpl i o Hl). lia.
      * exists p, coff, i, f, c. split; [lia|]. split; [lia|]. exact (conj H3 H4).
Qed.

Lemma well_tiled_nonempty dbg be eh cies fdes : forall chunks pos placed,
  well_tiled dbg be eh cies fdes pos placed chunks ->
  (length chunks <= length (concat (map snd chunks)))%nat.
Proof.
  induction chunks as [|[it cb] r IH]; intros pos placed Hwt; [cbn; lia|].
  change (concat (map snd ((it, cb) :: r))) with (cb ++ concat (map snd r)). rewrite app_length. cbn [length].
  assert (Hcb : (1 <= length cb)%nat).
  { destruct it as [idx|k]; cbn [well_tiled] in Hwt; destruct Hwt as [Hthis _].
    - destruct Hthis as (c & _ & Hw).
      destruct (cie_write_parts dbg be eh pos c cb Hw) as (_ & il & hdr & insns & pad & -> & _ & Hl & _).
      rewrite app_length. unfold len in Hl. destruct (c_fmt64 c); cbn [ilen_size] in Hl; lia.
    - destruct Hthis as (idx & f & c & coff & _ & _ & _ & Hw).
      destruct (fde_write_parts dbg be eh pos coff c f cb Hw) as (_ & _ & il & hdr & insns & pad & -> & _ & Hl & _).
      rewrite app_length. unfold len in Hl. destruct (c_fmt64 c); cbn [ilen_size] in Hl; lia. }
  destruct it; cbn [well_tiled] in Hwt; destruct Hwt as [_ Hrest]; specialize (IH _ _ Hrest); lia.
Qed.

Lemma in_fde_items l k : In k (fde_items l) -> In (CfaEncSpec.IFde k) l.
Proof.
  induction l as [|x r IH]; [intros []|]. destruct x; cbn [fde_items]; intros H.
  - right. apply IH. exact H.
  - destruct H as [->|H]; [left; reflexivity|right; apply IH; exact H].
Qed.
Lemma in_cie_items l i : In (CfaEncSpec.ICie i) l -> In i (cie_items l).
Proof.
  induction l as [|x r IH]; [intros []|]. intros [->|H]; [left; reflexivity|].
  destruct x; cbn [cie_items]; [right|]; apply IH; exact H.
Qed.

Lemma entries_read_by_reader_lem dbg dbg' be eh asz (t : ftable) bs :
  Forall (fun c => cie_wf c = true /\ c_asize c = asz) (t_cies t) ->
  Forall (fun p => fde_wf (snd p) = true) (t_fdes t) ->
  len bs + 16 < 4294967295 ->
  write_table dbg be eh 0 t = Ok bs ->
  exists chunks items,
    map fst chunks = plan [] 0 (map fst (t_fdes t)) /\
    bs = concat (map snd chunks) /\
    CfiRd.entries_all dbg' (rd_cfg eh be asz) bs = Ok (items, None) /\
    reader_sees dbg dbg' be eh asz (t_cies t) (t_fdes t) bs 0 [] chunks items.
Proof.
  intros HC HF Hsmall H.
  destruct (write_table_tiled dbg be eh 0 t bs H) as (chunks & Hplan & Hbs & Hwt).
  exists chunks.
  (* every referenced CIE has encodings the reader accepts *)
  assert (HU : forall idx c, In idx (map fst (t_fdes t)) -> nth_error (t_cies t) idx = Some c ->
             (forall e, c_lsda_enc c = Some e -> enc_usable e) /\
             (negb (c_fde_enc c =? 0) = true -> enc_usable (c_fde_enc c))).
  { intros idx c Hin Hn.
    apply in_map_iff in Hin. destruct Hin as ([idx' f] & Hfst & Hinf). cbn [fst] in Hfst. subst idx'.
    apply In_nth_error in Hinf. destruct Hinf as (k & Hk).
    assert (Hk' : In k (fde_items (plan [] 0 (map fst (t_fdes t))))).
    { rewrite plan_fdes. apply in_seq. rewrite map_length.
      assert (k < length (t_fdes t))%nat by (apply nth_error_Some; congruence). lia. }
    apply in_fde_items in Hk'. rewrite <- Hplan in Hk'. apply in_map_iff in Hk'.
    destruct Hk' as ([it b] & Hit & Hinb). cbn [fst] in Hit. subst it.
    destruct (well_tiled_fde_member dbg be eh _ _ chunks 0 [] k b Hwt ltac:(intros i o Hl; discriminate) Hinb)
      as (p & coff & idx2 & f2 & c2 & Hp1 & Hp2 & Hp3 & Hk2 & Hn2 & Hw).
    rewrite Hk in Hk2. injection Hk2 as <- <-. rewrite Hn in Hn2. injection Hn2 as <-.
    destruct (Forall_nth_error _ _ _ _ HC Hn) as [Hcw _].
    pose proof (Forall_nth_error _ _ _ _ HF Hk) as Hfw. cbn [snd] in Hfw.
    rewrite <- Hbs in Hp2.
    destruct (fde_write_enc dbg be eh p coff c f b Hcw Hfw ltac:(lia) Hp3 Hw) as (_ & _ & _ & _ & _ & [_ _ _ _ Henc Hlenc] & _).
    split; [intros e He; apply (Hlenc e He)|]. intros Ef. rewrite Ef in Henc. apply Henc. }
  assert (Hin : forall idx cb, In (CfaEncSpec.ICie idx, cb) chunks -> In idx (map fst (t_fdes t))).
  { intros idx cb Hi. destruct (plan_cies (map fst (t_fdes t)) [] 0) as [_ Hc].
    apply (Hc idx). rewrite <- Hplan. apply in_cie_items. apply in_map_iff. exists (CfaEncSpec.ICie idx, cb). auto. }
  destruct (tiles_read dbg dbg' be eh asz (t_cies t) (t_fdes t) bs HC HF HU Hsmall chunks [] [] (S (length bs)))
    as (items & Hloop & Hsees).
  - exact Hbs.
  - exact Hwt.
  - exact Hin.
  - intros idx o Hl. discriminate.
  - pose proof (well_tiled_nonempty _ _ _ _ _ _ _ _ Hwt). rewrite <- Hbs in *. lia.
  - exists items. split; [exact Hplan|]. split; [exact Hbs|]. split; [|exact Hsees].
    unfold CfiRd.entries_all. rewrite <- Hbs in Hloop. exact Hloop.
Qed.
