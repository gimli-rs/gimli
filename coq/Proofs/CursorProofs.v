(* Proofs/CursorProofs.v — lemmas about Model/Cursor.v (C10). *)
From Coq Require Import List NArith ZArith Bool Lia ZifyBool ZifyN ZifyNat.
From Coq.Strings Require Import Byte.
Require Import GV.Base.Res GV.Base.Byt GV.Base.Ints GV.Model.Leb GV.Model.Prim
               GV.Spec.CursorSpec GV.Model.Cursor GV.Proofs.Lib GV.Proofs.PrimProofs.
Import ListNotations.
Local Open Scope N_scope.

(* ------------------------------------------------------------------ vocabulary of the theorems *)
(* representation invariant of SubRange: ptr .. ptr+len stays inside the allocation *)
Definition Inv (c : cur) : Prop := off c + len c <= blen c.
(* the allocation does not wrap around the address space (true of every Rust allocation) *)
Definition wf_alloc (c : cur) : Prop := base c + blen c < two64.
(* [c] reads the same buffer as [r] and its window lies inside the window of [r] *)
Definition Sub (r c : cur) : Prop :=
  buf c = buf r /\ base c = base r /\ off r <= off c /\ off c + len c <= off r + len r.
(* the reader after consuming n bytes *)
Definition adv (c : cur) (n : N) : cur := with_win c (off c + n) (len c - n).
Definition val_of (be : bool) (bs : list byte) : N := if be then be_val bs else le_val bs.

Lemma Sub_refl c : Sub c c.
Proof. unfold Sub; repeat split; lia. Qed.
Lemma Sub_trans a b c : Sub a b -> Sub b c -> Sub a c.
Proof.
  unfold Sub; intros (H1 & H2 & H3 & H4) (H5 & H6 & H7 & H8).
  repeat split; try congruence; lia.
Qed.
Lemma Sub_Inv r c : Inv r -> Sub r c -> Inv c.
Proof.
  unfold Inv, Sub, blen; intros HI (H1 & H2 & H3 & H4). rewrite H1. lia.
Qed.
Lemma Sub_wf r c : wf_alloc r -> Sub r c -> wf_alloc c.
Proof. unfold wf_alloc, Sub, blen; intros HI (H1 & H2 & _). rewrite H1, H2. exact HI. Qed.
Lemma new_Inv b a : Inv (new b a).
Proof. unfold Inv, new, blen; cbn. lia. Qed.

(* ------------------------------------------------------------------ lists and views *)
Lemma view_of_length b o l :
  N.of_nat (length (view_of b o l)) = N.min l (N.of_nat (length b) - o).
Proof. unfold view_of. rewrite firstn_length, skipn_length. lia. Qed.

Lemma view_of_length_le b o l : N.of_nat (length (view_of b o l)) <= l.
Proof. rewrite view_of_length. lia. Qed.

Lemma view_of_length_in b o l :
  o + l <= N.of_nat (length b) -> N.of_nat (length (view_of b o l)) = l.
Proof. intros H. rewrite view_of_length. lia. Qed.

Lemma firstn_view b o l n :
  n <= l -> firstn (N.to_nat n) (view_of b o l) = view_of b o n.
Proof.
  intros H. unfold view_of. rewrite firstn_firstn. f_equal. lia.
Qed.

Lemma skipn_view b o l n :
  n <= l -> skipn (N.to_nat n) (view_of b o l) = view_of b (o + n) (l - n).
Proof.
  intros H. unfold view_of. rewrite skipn_firstn_comm, skipn_skipn.
  f_equal; [lia | f_equal; lia].
Qed.

Lemma view_of_app b o l n :
  n <= l -> view_of b o l = view_of b o n ++ view_of b (o + n) (l - n).
Proof.
  intros H. rewrite <- (firstn_view b o l n H), <- (skipn_view b o l n H).
  symmetry; apply firstn_skipn.
Qed.

Lemma view_of_is_view b o l :
  o + l <= N.of_nat (length b) -> is_view b o (view_of b o l).
Proof.
  intros H. exists (firstn (N.to_nat o) b), (skipn (N.to_nat (o + l)) b). split.
  - unfold view_of.
    rewrite <- (firstn_skipn (N.to_nat o) b) at 1. f_equal.
    rewrite <- (firstn_skipn (N.to_nat l) (skipn (N.to_nat o) b)) at 1. f_equal.
    rewrite skipn_skipn. f_equal. lia.
  - rewrite firstn_length. lia.
Qed.

(* ------------------------------------------------------------------ closed forms of the primitives *)
Lemma sr_skip_eq dbg c n : n <= len c -> sr_skip dbg c n = Ok (adv c n).
Proof.
  intros H. unfold sr_skip, chk_sub.
  assert (E : (n <=? len c) = true) by lia. rewrite E. reflexivity.
Qed.
Lemma sr_truncate_eq c n : n <= len c -> sr_truncate c n = Ok (with_win c (off c) n).
Proof.
  intros H. unfold sr_truncate. assert (E : (n <=? len c) = true) by lia. now rewrite E.
Qed.

Lemma er_read_slice_eq dbg c n :
  er_read_slice dbg c n =
  if len c <? n then Err EUnexpectedEof else Ok (view_of (buf c) (off c) n, adv c n).
Proof.
  unfold er_read_slice, sr_read_slice. destruct (len c <? n) eqn:E; [reflexivity|].
  rewrite sr_skip_eq by lia. reflexivity.
Qed.
Lemma er_skip_eq dbg c n :
  er_skip dbg c n = if len c <? n then Err EUnexpectedEof else Ok (tt, adv c n).
Proof.
  unfold er_skip. destruct (len c <? n) eqn:E; [reflexivity|].
  rewrite sr_skip_eq by lia. reflexivity.
Qed.
Lemma er_split_eq dbg c n :
  er_split dbg c n =
  if len c <? n then Err EUnexpectedEof else Ok (with_win c (off c) n, adv c n).
Proof.
  unfold er_split. destruct (len c <? n) eqn:E; [reflexivity|].
  rewrite sr_truncate_eq, sr_skip_eq by lia. reflexivity.
Qed.
Lemma er_truncate_eq c n :
  er_truncate c n = if len c <? n then Err EUnexpectedEof else Ok (tt, with_win c (off c) n).
Proof.
  unfold er_truncate. destruct (len c <? n) eqn:E; [reflexivity|].
  rewrite sr_truncate_eq by lia. reflexivity.
Qed.
Lemma er_empty_eq c : er_empty c = Ok (tt, with_win c (off c) 0).
Proof. unfold er_empty. rewrite sr_truncate_eq by lia. reflexivity. Qed.

Lemma position_lt b l i : position b l = Some i -> i < N.of_nat (length l).
Proof.
  revert i; induction l as [|x l IH]; intros i; cbn [position length]; [discriminate|].
  destruct (b2n x =? b2n b).
  - intros [= <-]. lia.
  - destruct (position b l) as [j|]; [|discriminate].
    intros [= <-]. specialize (IH j eq_refl). lia.
Qed.

(* ------------------------------------------------------------------ the cursor specification *)
(* Closed form of one call: a failing call never moves the reader; the window only shrinks. *)
Definition spec_read_un (be : bool) (c : cur) (w : nat) (f : N -> oval cur) : cur * res (oval cur) :=
  let n := N.of_nat w in
  if len c <? n then (c, Err EUnexpectedEof)
  else (adv c n, Ok (f (val_of be (view_of (buf c) (off c) n)))).

Definition spec_step (dbg be : bool) (root c : cur) (op : cop) : cur * res (oval cur) :=
  match op with
  | CReadSlice n =>
      if len c <? n then (c, Err EUnexpectedEof)
      else (adv c n, Ok (VBytes (view_of (buf c) (off c) n)))
  | CReadUn w => spec_read_un be c w VNum
  | CReadIn w => spec_read_un be c w (fun v => VInt (to_signed (8 * N.of_nat w) v))
  | CReadUint k => if Nat.ltb 8 k then (c, Panic) else spec_read_un be c k VNum
  | CSkip n => if len c <? n then (c, Err EUnexpectedEof) else (adv c n, Ok VUnit)
  | CSplit n =>
      if len c <? n then (c, Err EUnexpectedEof)
      else (adv c n, Ok (VRd (with_win c (off c) n)))
  | CTruncate n =>
      if len c <? n then (c, Err EUnexpectedEof) else (with_win c (off c) n, Ok VUnit)
  | CEmpty => (with_win c (off c) 0, Ok VUnit)
  | CFind b =>
      (c, match position b (bytes c) with Some i => Ok (VNum i) | None => Err EUnexpectedEof end)
  | CLen => (c, Ok (VNum (len c)))
  | CIsEmpty => (c, Ok (VBool (len c =? 0)))
  | COffsetId => (c, Ok (VNum (ptr c)))
  | CLookupId id => (c, rmap VOpt (lookup_id_ptrs dbg (ptr c) (len c) id))
  | CRootLookupSelf => (c, rmap VOpt (lookup_id_ptrs dbg (ptr root) (len root) (ptr c)))
  | COffsetFromRoot => (c, rmap VNum (offset_from_ptrs dbg (ptr c) (len c) (ptr root) (len root)))
  | CToSlice => (c, Ok (VBytes (bytes c)))
  | CToString => (c, if utf8_valid (bytes c) then Ok (VBytes (bytes c)) else Err EBadUtf8)
  | CReadCstr =>
      match position x00 (bytes c) with
      | Some i => (adv c (i + 1), Ok (VRd (with_win c (off c) i)))
      | None => (c, Err EUnexpectedEof)
      end
  | CReadAddress size =>
      if size =? 1 then spec_read_un be c 1 VNum
      else if size =? 2 then spec_read_un be c 2 VNum
      else if size =? 4 then spec_read_un be c 4 VNum
      else if size =? 8 then spec_read_un be c 8 VNum
      else (c, Err EUnsupportedAddressSize)
  | CReadOffset f | CReadLength f =>
      if f then spec_read_un be c 8 VNum else spec_read_un be c 4 VNum
  | CReadSizedOffset size =>
      if size =? 1 then spec_read_un be c 1 VNum
      else if size =? 2 then spec_read_un be c 2 VNum
      else if size =? 4 then spec_read_un be c 4 VNum
      else if size =? 8 then spec_read_un be c 8 VNum
      else (c, Err EUnsupportedOffsetSize)
  end.

Lemma er_read_un_eq dbg be c w (f : N -> oval cur) :
  mmap f (g_read_un (er_req dbg) w be) c = spec_read_un be c w f.
Proof.
  unfold mmap, g_read_un, mbind, mret, spec_read_un. cbn [q_read_slice er_req]. unfold mprim.
  rewrite er_read_slice_eq. destruct (len c <? N.of_nat w); reflexivity.
Qed.

Lemma er_read_in_eq dbg be c w :
  mmap VInt (g_read_in (er_req dbg) w be) c =
  spec_read_un be c w (fun v => VInt (to_signed (8 * N.of_nat w) v)).
Proof.
  unfold mmap, g_read_in, g_read_un, mbind, mret, spec_read_un. cbn [q_read_slice er_req]. unfold mprim.
  rewrite er_read_slice_eq. destruct (len c <? N.of_nat w); reflexivity.
Qed.

Lemma adv_adv c i j : i + j <= len c -> adv (adv c i) j = adv c (i + j).
Proof.
  intros H. unfold adv, with_win; cbn. f_equal; lia.
Qed.

Lemma er_read_cstr_eq dbg c :
  mmap VRd (g_read_cstr (er_req dbg)) c =
  match position x00 (bytes c) with
  | Some i => (adv c (i + 1), Ok (VRd (with_win c (off c) i)))
  | None => (c, Err EUnexpectedEof)
  end.
Proof.
  unfold mmap, g_read_cstr, mbind, mret, mget. cbn [q_find q_split q_skip er_req]. unfold mprim, er_find.
  destruct (position x00 (bytes c)) as [i|] eqn:P; [|reflexivity].
  pose proof (position_lt _ _ _ P) as Hlt.
  pose proof (view_of_length_le (buf c) (off c) (len c)) as Hle. fold (bytes c) in Hle.
  rewrite er_split_eq. assert (E1 : (len c <? i) = false) by lia. rewrite E1.
  rewrite er_skip_eq. assert (E2 : (len (adv c i) <? 1) = false) by (cbn; lia). rewrite E2.
  rewrite adv_adv by lia. reflexivity.
Qed.

Theorem step_spec dbg be root c op : step dbg be root c op = spec_step dbg be root c op.
Proof.
  unfold step, gstep, er_impl, default_impl. cbn [i_req i_read_address i_read_offset i_read_sized_offset].
  destruct op; cbn [spec_step].
  - (* read_slice *) unfold mmap, mbind, mret. cbn [q_read_slice er_req]. unfold mprim.
    rewrite er_read_slice_eq. destruct (len c <? n); reflexivity.
  - apply er_read_un_eq.
  - apply er_read_in_eq.
  - unfold g_read_uint. destruct (Nat.ltb 8 n); [reflexivity | apply er_read_un_eq].
  - (* skip *) unfold mmap, mbind, mret. cbn [q_skip er_req]. unfold mprim.
    rewrite er_skip_eq. destruct (len c <? n); reflexivity.
  - (* split *) unfold mmap, mbind, mret. cbn [q_split er_req]. unfold mprim.
    rewrite er_split_eq. destruct (len c <? n); reflexivity.
  - (* truncate *) unfold mmap, mbind, mret. cbn [q_truncate er_req]. unfold mprim.
    rewrite er_truncate_eq. destruct (len c <? n); reflexivity.
  - (* empty *) unfold mmap, mbind, mret. cbn [q_empty er_req]. unfold mprim.
    rewrite er_empty_eq. reflexivity.
  - (* find *) cbn [q_find er_req]. unfold er_find. destruct (position b (bytes c)); reflexivity.
  - reflexivity.
  - reflexivity.
  - reflexivity.
  - reflexivity.
  - reflexivity.
  - reflexivity.
  - reflexivity.
  - (* to_string *) cbn [q_to_string er_req]. unfold er_to_string. destruct (utf8_valid (bytes c)); reflexivity.
  - apply er_read_cstr_eq.
  - (* read_address *) unfold g_read_address.
    destruct (size =? 1); [apply er_read_un_eq|]. destruct (size =? 2); [apply er_read_un_eq|].
    destruct (size =? 4); [apply er_read_un_eq|]. destruct (size =? 8); [apply er_read_un_eq|]. reflexivity.
  - unfold g_read_word. destruct fmt64; apply er_read_un_eq.
  - unfold g_read_word. destruct fmt64; apply er_read_un_eq.
  - unfold g_read_sized_offset.
    destruct (size =? 1); [apply er_read_un_eq|]. destruct (size =? 2); [apply er_read_un_eq|].
    destruct (size =? 4); [apply er_read_un_eq|]. destruct (size =? 8); [apply er_read_un_eq|]. reflexivity.
Qed.

(* ------------------------------------------------------------------ what a call can do *)
Lemma adv_Sub c n : n <= len c -> Sub c (adv c n).
Proof. intros H. unfold Sub, adv, with_win; cbn. repeat split; lia. Qed.
Lemma win_Sub c n : n <= len c -> Sub c (with_win c (off c) n).
Proof. intros H. unfold Sub, with_win; cbn. repeat split; lia. Qed.

(* the three shapes of a call: the reader stays (no reader is handed out, bytes handed out are the
   window); a prefix of n bytes is consumed (a reader handed out covers a prefix of the old window, bytes
   handed out are the prefix consumed); the window is cut to its first n bytes *)
Inductive outcome (c : cur) : cur * res (oval cur) -> Prop :=
| out_same r : (forall x, r <> Ok (VRd x)) -> (forall bs, r = Ok (VBytes bs) -> bs = bytes c) -> outcome c (c, r)
| out_adv n v : n <= len c -> (forall x, v = VRd x -> exists m, m <= n /\ x = with_win c (off c) m) ->
                (forall bs, v = VBytes bs -> bs = view_of (buf c) (off c) n) -> outcome c (adv c n, Ok v)
| out_cut n : n <= len c -> outcome c (with_win c (off c) n, Ok VUnit).

Lemma out_fail c (r : res (oval cur)) : is_ok r = false -> outcome c (c, r).
Proof. intros H. apply out_same; intros x E; rewrite E in H; discriminate H. Qed.

Lemma out_guard c n c' v :
  (n <= len c -> outcome c (c', Ok v)) -> outcome c (if len c <? n then (c, Err EUnexpectedEof) else (c', Ok v)).
Proof. intros H. destruct (len c <? n) eqn:E; [apply out_fail; reflexivity|apply H; lia]. Qed.

Lemma spec_read_un_outcome be c w f :
  (forall v x, f v <> VRd x) -> (forall v bs, f v <> VBytes bs) -> outcome c (spec_read_un be c w f).
Proof.
  intros H1 H2. apply out_guard. intros Hn. apply out_adv; [exact Hn| |]; intros x E; [apply H1 in E|apply H2 in E]; destruct E.
Qed.

Lemma spec_step_outcome dbg be root c op : outcome c (spec_step dbg be root c op).
Proof.
  assert (Hrmap : forall A (g : A -> oval cur) (x : res A), (forall a y, g a <> VRd y) -> (forall a bs, g a <> VBytes bs) ->
                    outcome c (c, rmap g x)).
  { intros A g x H1 H2. apply out_same; intros y E; destruct x; cbn in E; try discriminate; inversion E as [E'];
      [apply H1 in E'|apply H2 in E']; destruct E'. }
  assert (Hun : forall w, outcome c (spec_read_un be c w VNum)) by (intros w; apply spec_read_un_outcome; discriminate).
  destruct op; cbn [spec_step]; try apply Hun; try (apply Hrmap; discriminate).
  - apply out_guard. intros Hn. apply out_adv; [exact Hn|discriminate|]. intros bs E. inversion E. reflexivity.
  - apply spec_read_un_outcome; discriminate.
  - destruct (Nat.ltb 8 n); [apply out_fail; reflexivity|apply Hun].
  - apply out_guard. intros Hn. apply out_adv; [exact Hn|discriminate|discriminate].
  - apply out_guard. intros Hn. apply out_adv; [exact Hn| |discriminate].
    intros x E. inversion E. exists n. split; [lia|reflexivity].
  - apply out_guard. intros Hn. apply out_cut. exact Hn.
  - apply out_cut. lia.
  - apply out_same; destruct (position b (bytes c)); discriminate.
  - apply out_same; discriminate.
  - apply out_same; discriminate.
  - apply out_same; discriminate.
  - apply out_same; [discriminate|]. intros bs E. inversion E. reflexivity.
  - apply out_same; destruct (utf8_valid (bytes c)); try discriminate. intros bs E. inversion E. reflexivity.
  - destruct (position x00 (bytes c)) as [i|] eqn:P; [|apply out_fail; reflexivity].
    pose proof (position_lt _ _ _ P) as Hlt.
    pose proof (view_of_length_le (buf c) (off c) (len c)) as Hle. fold (bytes c) in Hle.
    apply out_adv; [lia| |discriminate]. intros x E. inversion E. exists i. split; [lia|reflexivity].
  - destruct (size =? 1); [apply Hun|]. destruct (size =? 2); [apply Hun|].
    destruct (size =? 4); [apply Hun|]. destruct (size =? 8); [apply Hun|]. apply out_fail. reflexivity.
  - destruct fmt64; apply Hun.
  - destruct fmt64; apply Hun.
  - destruct (size =? 1); [apply Hun|]. destruct (size =? 2); [apply Hun|].
    destruct (size =? 4); [apply Hun|]. destruct (size =? 8); [apply Hun|]. apply out_fail. reflexivity.
Qed.

Lemma step_outcome dbg be root c op : outcome c (step dbg be root c op).
Proof. rewrite step_spec. apply spec_step_outcome. Qed.

(* the window only shrinks *)
Lemma step_Sub dbg be root c op :
  Sub c (fst (step dbg be root c op)) /\
  forall r, snd (step dbg be root c op) = Ok (VRd r) -> Sub c r.
Proof.
  destruct (step_outcome dbg be root c op) as [r Hr _|n v Hn Hv _|n Hn]; cbn [fst snd].
  - split; [apply Sub_refl|]. intros x E. destruct (Hr x E).
  - split; [apply adv_Sub; exact Hn|]. intros x E. inversion E as [E']. destruct (Hv x E') as (m & Hm & ->). apply win_Sub. lia.
  - split; [apply win_Sub; exact Hn|discriminate].
Qed.

(* ------------------------------------------------------------------ histories *)
Lemma run_cons dbg be root c op ops :
  run dbg be root c (op :: ops) =
  (fst (run dbg be root (fst (step dbg be root c op)) ops),
   snd (step dbg be root c op) :: snd (run dbg be root (fst (step dbg be root c op)) ops)).
Proof.
  unfold run, step. cbn [grun].
  destruct (gstep (er_impl dbg) be root c op) as [c1 o]. cbn [fst snd].
  destruct (grun (er_impl dbg) be root c1 ops) as [c2 os]. reflexivity.
Qed.

Lemma run_Sub dbg be root ops : forall c,
  Sub c (fst (run dbg be root c ops)) /\
  Forall (fun o => forall r, o = Ok (VRd r) -> Sub c r) (snd (run dbg be root c ops)).
Proof.
  induction ops as [|op ops IH]; intros c.
  - cbn. split; [apply Sub_refl | constructor].
  - rewrite run_cons. cbn [fst snd].
    destruct (step_Sub dbg be root c op) as [H1 H2].
    destruct (IH (fst (step dbg be root c op))) as [H3 H4]. split.
    + eapply Sub_trans; eauto.
    + constructor; [exact H2|].
      eapply Forall_impl; [|exact H4]. intros o Ho r Hr. eapply Sub_trans; eauto.
Qed.

(* a pool of live readers (Cursor.pstep / prun): every reader in it stays inside r0 *)
Lemma Forall_set_nth {A} (P : A -> Prop) i x l : Forall P l -> P x -> Forall P (set_nth i x l).
Proof.
  intros H Hx. revert i. induction H as [|h t Hh Ht IH]; intros [|i]; cbn; constructor; auto.
Qed.
Lemma Forall_remove_nth {A} (P : A -> Prop) i l : Forall P l -> Forall P (remove_nth i l).
Proof.
  intros H. revert i. induction H as [|h t Hh Ht IH]; intros [|i]; cbn; try constructor; auto.
Qed.

Lemma pstep_Sub dbg be root r0 p o :
  Forall (Sub r0) p ->
  Forall (Sub r0) (fst (pstep dbg be root p o)) /\
  forall r, snd (pstep dbg be root p o) = Some (Ok (VRd r)) -> Sub r0 r.
Proof.
  intros HP. destruct o as [i op|i|i|i j|i j]; cbn [pstep].
  - destruct (nth_error p i) as [c|] eqn:E; [|cbn; split; [exact HP | discriminate]].
    pose proof (Forall_nth_error _ _ _ _ HP E) as Hc.
    destruct (step_Sub dbg be root c op) as [H1 H2].
    destruct (step dbg be root c op) as [c' r]. cbn [fst snd] in *.
    assert (Hset : Forall (Sub r0) (set_nth i c' p))
      by (apply Forall_set_nth; [exact HP | eapply Sub_trans; eauto]).
    split.
    + destruct r as [[| | | | |x|]| | |]; try exact Hset.
      apply Forall_app; split; [exact Hset|]. constructor; [|constructor].
      eapply Sub_trans; [exact Hc | now apply H2].
    + intros x [= ->]. eapply Sub_trans; [exact Hc | now apply H2].
  - destruct (nth_error p i) as [c|] eqn:E; cbn [fst snd]; [|split; [exact HP | discriminate]].
    pose proof (Forall_nth_error _ _ _ _ HP E) as Hc. split.
    + apply Forall_app; split; [exact HP | constructor; [exact Hc | constructor]].
    + intros x [= <-]. exact Hc.
  - destruct (nth_error p i); cbn [fst snd]; (split; [|discriminate]);
      [now apply Forall_remove_nth | exact HP].
  - destruct (nth_error p i), (nth_error p j); cbn [fst snd]; (split; [exact HP|]); try discriminate.
    intros x. destruct (er_offset_from dbg c c0); cbn; discriminate.
  - destruct (nth_error p i), (nth_error p j); cbn [fst snd]; (split; [exact HP|]); try discriminate.
    intros x. destruct (er_lookup_offset_id dbg c (er_offset_id c0)); cbn; discriminate.
Qed.

Lemma prun_cons dbg be root p o ops :
  prun dbg be root p (o :: ops) =
  (fst (prun dbg be root (fst (pstep dbg be root p o)) ops),
   snd (pstep dbg be root p o) :: snd (prun dbg be root (fst (pstep dbg be root p o)) ops)).
Proof.
  cbn [prun]. destruct (pstep dbg be root p o) as [p1 x]. cbn [fst snd].
  destruct (prun dbg be root p1 ops) as [p2 xs]. reflexivity.
Qed.

Lemma prun_Sub dbg be root r0 ops : forall p,
  Forall (Sub r0) p ->
  Forall (Sub r0) (fst (prun dbg be root p ops)) /\
  Forall (fun o => forall r, o = Some (Ok (VRd r)) -> Sub r0 r) (snd (prun dbg be root p ops)).
Proof.
  induction ops as [|o ops IH]; intros p HP.
  - cbn. split; [exact HP | constructor].
  - rewrite prun_cons. cbn [fst snd].
    destruct (pstep_Sub dbg be root r0 p o HP) as [H1 H2].
    destruct (IH _ H1) as [H3 H4]. split; [exact H3 | constructor; assumption].
Qed.

Definition in_section (b : list byte) (a : N) (c : cur) : Prop := buf c = b /\ base c = a /\ Inv c.

Lemma Sub_new_in_section b a c : Sub (new b a) c -> in_section b a c.
Proof.
  intros H. pose proof (Sub_Inv _ _ (new_Inv b a) H) as HI.
  destruct H as (H1 & H2 & _). repeat split; assumption.
Qed.

(* ------------------------------------------------------------------ views *)
Lemma bytes_length c : Inv c -> N.of_nat (length (bytes c)) = len c.
Proof. unfold Inv, blen, bytes. intros H. now apply view_of_length_in. Qed.

Lemma bytes_is_view c : Inv c -> is_view (buf c) (off c) (bytes c).
Proof. unfold Inv, blen, bytes. intros H. now apply view_of_is_view. Qed.

Lemma bytes_adv c n : n <= len c -> bytes (adv c n) = skipn (N.to_nat n) (bytes c).
Proof. intros H. unfold bytes, adv, with_win; cbn. symmetry. now apply skipn_view. Qed.

Lemma bytes_win c n : n <= len c -> bytes (with_win c (off c) n) = firstn (N.to_nat n) (bytes c).
Proof. intros H. unfold bytes, with_win; cbn. symmetry. now apply firstn_view. Qed.

Lemma bytes_split c n :
  n <= len c -> bytes c = bytes (with_win c (off c) n) ++ bytes (adv c n).
Proof.
  intros H. rewrite bytes_win, bytes_adv by exact H. symmetry. apply firstn_skipn.
Qed.

Lemma Sub_view_in r c :
  Inv r -> Sub r c ->
  is_view (buf r) (off c) (bytes c) /\ N.of_nat (length (bytes c)) = len c.
Proof.
  intros HI HS. pose proof (Sub_Inv _ _ HI HS) as HIc.
  destruct HS as (H1 & _). rewrite <- H1. split; [now apply bytes_is_view | now apply bytes_length].
Qed.

(* everything a call hands back is a run of bytes of the section inside the old window *)
Lemma returned_bytes_lemma dbg be root c op bs :
  Inv c -> snd (step dbg be root c op) = Ok (VBytes bs) ->
  exists o, off c <= o /\ o + N.of_nat (length bs) <= off c + len c /\ is_view (buf c) o bs.
Proof.
  intros HI. pose proof HI as HI'. unfold Inv, blen in HI'.
  destruct (step_outcome dbg be root c op) as [r _ Hb|n v Hn _ Hb|n Hn]; cbn [snd]; intros E; [| |discriminate].
  - rewrite (Hb bs E). exists (off c). rewrite bytes_length by exact HI. repeat split; try lia. now apply bytes_is_view.
  - inversion E as [E']. rewrite (Hb bs E'). exists (off c).
    rewrite view_of_length_in by lia. repeat split; try lia. apply view_of_is_view; lia.
Qed.

(* ------------------------------------------------------------------ reads = the list-level codecs of Prim.v *)
(* [st] is what the list-level parser [p] does on the bytes of [c] *)
Definition refines_prim {A} (p : list byte -> res (A * list byte)) (inj : A -> oval cur -> Prop)
           (c : cur) (st : cur * res (oval cur)) : Prop :=
  match p (bytes c) with
  | Ok (a, rest) => exists c' v, st = (c', Ok v) /\ inj a v /\ bytes c' = rest /\ Sub c c'
  | Err e => st = (c, Err e)
  | Panic => st = (c, Panic)
  | OutOfFuel => False
  end.

Lemma spec_read_un_refines be c w (f : N -> oval cur) :
  Inv c ->
  refines_prim (Prim.read_un w be) (fun a v => v = f a) c (spec_read_un be c w f).
Proof.
  intros HI. unfold refines_prim, spec_read_un. rewrite read_un_exact, <- val_is_sum. fold (val_of be (firstn w (bytes c))).
  pose proof (bytes_length c HI) as HL.
  destruct (len c <? N.of_nat w) eqn:E.
  - assert (E' : Nat.ltb (length (bytes c)) w = true) by lia. now rewrite E'.
  - assert (E' : Nat.ltb (length (bytes c)) w = false) by lia. rewrite E'.
    exists (adv c (N.of_nat w)), (f (val_of be (view_of (buf c) (off c) (N.of_nat w)))).
    split; [reflexivity|]. split; [|split].
    + f_equal. f_equal. rewrite <- (firstn_view (buf c) (off c) (len c) (N.of_nat w)) by lia.
      now rewrite Nat2N.id.
    + rewrite bytes_adv by lia. now rewrite Nat2N.id.
    + apply adv_Sub. lia.
Qed.

Lemma refines_prim_map {A B} (p : list byte -> res (A * list byte)) (g : A -> B)
      (inj : B -> oval cur -> Prop) c st :
  refines_prim p (fun a v => inj (g a) v) c st ->
  refines_prim (fun l => let* (a, t) := p l in Ok (g a, t)) inj c st.
Proof.
  unfold refines_prim. destruct (p (bytes c)) as [[a t]|e| |]; cbn; auto.
Qed.

Lemma b2n_x00 : b2n x00 = 0.
Proof. reflexivity. Qed.

Lemma prim_read_cstr_eq (l : list byte) :
  Prim.read_cstr l =
  match position x00 l with
  | Some i => Ok (firstn (N.to_nat i) l, skipn (N.to_nat (i + 1)) l)
  | None => Err EUnexpectedEof
  end.
Proof.
  induction l as [|x l IH]; cbn [Prim.read_cstr position]; [reflexivity|].
  rewrite b2n_x00. destruct (b2n x =? 0).
  - reflexivity.
  - rewrite IH. destruct (position x00 l) as [i|]; cbn; [|reflexivity].
    replace (N.to_nat (N.succ i)) with (S (N.to_nat i)) by lia.
    replace (N.to_nat (N.succ i + 1)) with (S (N.to_nat (i + 1))) by lia.
    reflexivity.
Qed.

(* ------------------------------------------------------------------ offsets and offset ids *)
Lemma lookup_id_in dbg p l id :
  p + l < two64 -> p <= id -> id <= p + l -> lookup_id_ptrs dbg p l id = Ok (Some (id - p)).
Proof.
  intros H1 H2 H3. unfold lookup_id_ptrs. rewrite chk_add_ok by exact H1. cbn [bind].
  assert (E : ((p <=? id) && (id <=? p + l)) = true) by lia. rewrite E.
  rewrite chk_sub_ok by exact H2. reflexivity.
Qed.
Lemma lookup_id_out dbg p l id :
  p + l < two64 -> (id < p \/ p + l < id) -> lookup_id_ptrs dbg p l id = Ok None.
Proof.
  intros H1 H2. unfold lookup_id_ptrs. rewrite chk_add_ok by exact H1. cbn [bind].
  assert (E : ((p <=? id) && (id <=? p + l)) = false) by lia. now rewrite E.
Qed.
Lemma lookup_id_some dbg p l id k :
  lookup_id_ptrs dbg p l id = Ok (Some k) -> id = p + k /\ k <= l.
Proof.
  unfold lookup_id_ptrs, chk_add, chk_sub. change (2 ^ 64) with two64.
  destruct (p + l <? two64) eqn:E0; cbn [bind].
  - destruct ((p <=? id) && (id <=? p + l)) eqn:E; [|discriminate].
    assert (E1 : (p <=? id) = true) by lia. rewrite E1. cbn [bind]. intros [= <-]. lia.
  - destruct dbg; [discriminate|]. cbn [bind]. unfold wrapN. change (2 ^ 64) with two64.
    destruct ((p <=? id) && (id <=? (p + l) mod two64)) eqn:E; [|discriminate].
    assert (E1 : (p <=? id) = true) by lia. rewrite E1. cbn [bind]. intros [= <-].
    assert ((p + l) mod two64 <= p + l) by (apply N.mod_le; unfold two64; lia). lia.
Qed.

Lemma ptr_bound r c : Inv r -> wf_alloc r -> Sub r c -> ptr c + len c <= ptr r + len r /\ ptr r + len r < two64.
Proof.
  unfold Inv, wf_alloc, Sub, ptr. intros HI HW (H1 & H2 & H3 & H4). rewrite H2. lia.
Qed.

Lemma offset_ids_lemma dbg root c :
  Inv root -> wf_alloc root -> Sub root c ->
  (* the id of any reader inside the section maps back to its position ... *)
  er_lookup_offset_id dbg root (er_offset_id c) = Ok (Some (off c - off root)) /\
  (* ... so does the id of its end ... *)
  er_lookup_offset_id dbg root (er_offset_id c + len c) = Ok (Some (off c + len c - off root)) /\
  (* ... an id is accepted only if it is an address of the section, and names that position ... *)
  (forall id k, er_lookup_offset_id dbg root id = Ok (Some k) ->
                id = er_offset_id root + k /\ k <= len root) /\
  (* ... and everything outside the section is rejected *)
  (forall id, id < er_offset_id root \/ er_offset_id root + len root < id ->
              er_lookup_offset_id dbg root id = Ok None).
Proof.
  intros HI HW HS. pose proof (ptr_bound _ _ HI HW HS) as [Hb1 Hb2].
  unfold er_lookup_offset_id, er_offset_id.
  assert (Hp : ptr c = ptr root + (off c - off root)).
  { destruct HS as (_ & H2 & H3 & _). unfold ptr. rewrite H2. lia. }
  repeat split.
  - rewrite lookup_id_in; try lia. f_equal. f_equal. lia.
  - rewrite lookup_id_in; try lia. f_equal. f_equal. destruct HS as (_ & _ & H3 & _). lia.
  - apply (lookup_id_some dbg _ _ _ _ H).
  - apply (lookup_id_some dbg _ _ _ _ H).
  - intros id Hid. apply lookup_id_out; [lia | exact Hid].
Qed.

Lemma offset_from_ptrs_in dbg p pl bp bl :
  bp + bl < two64 -> bp <= p -> p + pl <= bp + bl -> offset_from_ptrs dbg p pl bp bl = Ok (p - bp).
Proof.
  intros H1 H2 H3. unfold offset_from_ptrs.
  assert (E1 : (bp <=? p) = true) by lia. rewrite E1. cbn [negb]. rewrite andb_false_r.
  destruct dbg.
  - rewrite !chk_add_ok by (change (2 ^ 64) with two64; lia). cbn [bind].
    assert (E2 : (p + pl <=? bp + bl) = true) by lia. rewrite E2. cbn [negb andb].
    now apply chk_sub_ok.
  - cbn [bind andb]. now apply chk_sub_ok.
Qed.

Lemma offset_from_lemma dbg root c :
  Inv root -> wf_alloc root -> Sub root c ->
  er_offset_from dbg c root = Ok (off c - off root).
Proof.
  intros HI HW HS. pose proof (ptr_bound _ _ HI HW HS) as [Hb1 Hb2].
  unfold er_offset_from.
  assert (Hp : ptr c = ptr root + (off c - off root)).
  { destruct HS as (_ & H2 & H3 & _). unfold ptr. rewrite H2. lia. }
  rewrite offset_from_ptrs_in; try lia. f_equal. lia.
Qed.

(* ------------------------------------------------------------------ RelocateReader with the identity relocation *)
Definition RInv (rc : rrd cur) : Prop :=
  Inv (rsection rc) /\ wf_alloc (rsection rc) /\ Sub (rsection rc) (rreader rc).

Lemma set_reader_id {R} (rc : rrd R) : set_reader rc (rreader rc) = rc.
Proof. destruct rc; reflexivity. Qed.

Lemma lift_pure {A} rc (r : res A) (f : A -> oval (rrd cur)) (g : A -> oval cur) :
  (forall a, f a = lift_val rc (g a)) ->
  (rc, rmap f r) = lift_out rc (rreader rc, rmap g r).
Proof.
  intros H. unfold lift_out. cbn [fst snd]. rewrite set_reader_id. f_equal.
  destruct r; cbn; try reflexivity. now rewrite H.
Qed.

Lemma mmap_on_reader {A} rc (m : M cur A) (f : A -> oval (rrd cur)) (g : A -> oval cur) :
  (forall a, f a = lift_val rc (g a)) ->
  mmap f (on_reader m) rc = lift_out rc (mmap g m (rreader rc)).
Proof.
  intros H. unfold mmap, mbind, mret, on_reader, lift_out.
  destruct (m (rreader rc)) as [c' [a|e| |]]; cbn; try reflexivity. now rewrite H.
Qed.

Lemma g_read_un_rr {R} (I : reader_impl R) w be rc :
  g_read_un (rr_req I) w be rc = on_reader (g_read_un (i_req I) w be) rc.
Proof.
  unfold g_read_un, mbind, mret. cbn [q_read_slice rr_req]. unfold on_reader.
  destruct (q_read_slice (i_req I) (N.of_nat w) (rreader rc)) as [c' [bs|e| |]]; reflexivity.
Qed.
Lemma g_read_in_rr {R} (I : reader_impl R) w be rc :
  g_read_in (rr_req I) w be rc = on_reader (g_read_in (i_req I) w be) rc.
Proof.
  unfold g_read_in, mbind. rewrite (g_read_un_rr I). unfold on_reader, mret.
  destruct (g_read_un (i_req I) w be (rreader rc)) as [c' [v|e| |]]; reflexivity.
Qed.
Lemma g_read_uint_rr {R} (I : reader_impl R) n be rc :
  g_read_uint (rr_req I) n be rc = on_reader (g_read_uint (i_req I) n be) rc.
Proof.
  unfold g_read_uint. destruct (Nat.ltb 8 n).
  - unfold mpanic, on_reader. now rewrite set_reader_id.
  - apply (g_read_un_rr I).
Qed.
Lemma g_read_word_rr {R} (I : reader_impl R) be f rc :
  g_read_word (rr_req I) be f rc = on_reader (g_read_word (i_req I) be f) rc.
Proof. unfold g_read_word. destruct f; apply (g_read_un_rr I). Qed.

Lemma rr_relocated_id dbg (inner : M cur N) rc :
  RInv rc ->
  mmap VNum (rr_relocated (er_impl dbg) inner rel_id) rc = lift_out rc (mmap VNum inner (rreader rc)).
Proof.
  intros (HI & HW & HS). unfold rr_relocated, mmap, mbind, mret, lift_out.
  cbn [i_req er_impl default_impl q_offset_from er_req].
  rewrite (offset_from_lemma dbg _ _ HI HW HS).
  destruct (inner (rreader rc)) as [c' [v|e| |]]; reflexivity.
Qed.

Lemma rr_split_er dbg n rc :
  mmap VRd (rr_split (er_impl dbg) n) rc = lift_out rc (spec_step dbg false (rreader rc) (rreader rc) (CSplit n)).
Proof.
  unfold rr_split, mmap, mbind, mret, lift_out. cbn [i_req er_impl default_impl q_truncate q_skip er_req spec_step].
  unfold mprim. rewrite er_truncate_eq, er_skip_eq.
  destruct (len (rreader rc) <? n); cbn; [now rewrite set_reader_id | reflexivity].
Qed.

Lemma rr_read_cstr_er dbg rc :
  mmap VRd (g_read_cstr (rr_req (er_impl dbg))) rc =
  lift_out rc (spec_step dbg false (rreader rc) (rreader rc) CReadCstr).
Proof.
  unfold mmap, g_read_cstr, mbind, mret, mget, lift_out.
  cbn [q_find q_split q_skip rr_req i_req er_impl default_impl er_req spec_step].
  unfold rr_split, on_reader. cbn [i_req er_impl default_impl q_truncate q_skip er_req].
  unfold mprim, er_find.
  destruct (position x00 (bytes (rreader rc))) as [i|] eqn:P; cbn [fst snd rmap bind].
  2: now rewrite set_reader_id.
  pose proof (position_lt _ _ _ P) as Hlt.
  pose proof (view_of_length_le (buf (rreader rc)) (off (rreader rc)) (len (rreader rc))) as Hle.
  fold (bytes (rreader rc)) in Hle.
  rewrite er_truncate_eq, er_skip_eq.
  assert (E1 : (len (rreader rc) <? i) = false) by lia. rewrite E1.
  cbn [rreader set_reader].
  rewrite er_skip_eq. assert (E2 : (len (adv (rreader rc) i) <? 1) = false) by (cbn; lia). rewrite E2.
  rewrite adv_adv by lia. reflexivity.
Qed.

Lemma reloc_identity_lemma dbg be root rc op :
  RInv rc ->
  rstep dbg be root rc op = lift_out rc (step dbg be (rreader root) (rreader rc) op).
Proof.
  intros HR. unfold rstep, step, gstep.
  cbn [i_req rr_impl i_read_address i_read_offset i_read_sized_offset er_impl default_impl].
  destruct op.
  - cbn [q_read_slice rr_req]. now apply mmap_on_reader.
  - unfold mmap at 1, mbind at 1. rewrite g_read_un_rr.
    change (mmap VNum (on_reader (g_read_un (i_req (er_impl dbg)) w be)) rc = lift_out rc (mmap VNum (g_read_un (er_req dbg) w be) (rreader rc))).
    now apply mmap_on_reader.
  - unfold mmap at 1, mbind at 1. rewrite g_read_in_rr.
    change (mmap VInt (on_reader (g_read_in (i_req (er_impl dbg)) w be)) rc = lift_out rc (mmap VInt (g_read_in (er_req dbg) w be) (rreader rc))).
    now apply mmap_on_reader.
  - unfold mmap at 1, mbind at 1. rewrite g_read_uint_rr.
    change (mmap VNum (on_reader (g_read_uint (i_req (er_impl dbg)) n be)) rc = lift_out rc (mmap VNum (g_read_uint (er_req dbg) n be) (rreader rc))).
    now apply mmap_on_reader.
  - cbn [q_skip rr_req]. now apply mmap_on_reader.
  - change (mmap VRd (rr_split (er_impl dbg) n) rc =
            lift_out rc (step dbg be (rreader root) (rreader rc) (CSplit n))).
    rewrite rr_split_er. now rewrite step_spec.
  - cbn [q_truncate rr_req]. now apply mmap_on_reader.
  - cbn [q_empty rr_req]. now apply mmap_on_reader.
  - cbn [q_find rr_req]. now apply lift_pure.
  - cbn [q_len rr_req]. now apply (lift_pure rc (Ok (len (rreader rc))) VNum VNum).
  - unfold g_is_empty. cbn [q_len rr_req].
    now apply (lift_pure rc (Ok (len (rreader rc) =? 0)) VBool VBool).
  - cbn [q_offset_id rr_req]. now apply (lift_pure rc (Ok (er_offset_id (rreader rc))) VNum VNum).
  - cbn [q_lookup_offset_id rr_req]. now apply lift_pure.
  - cbn [q_lookup_offset_id q_offset_id rr_req]. now apply lift_pure.
  - cbn [q_offset_from rr_req]. now apply lift_pure.
  - cbn [q_to_slice rr_req]. now apply (lift_pure rc (Ok (bytes (rreader rc))) VBytes VBytes).
  - cbn [q_to_string rr_req]. now apply lift_pure.
  - change (mmap VRd (g_read_cstr (rr_req (er_impl dbg))) rc =
            lift_out rc (step dbg be (rreader root) (rreader rc) CReadCstr)).
    rewrite rr_read_cstr_er. now rewrite step_spec.
  - now apply rr_relocated_id.
  - now apply rr_relocated_id.
  - unfold mmap at 1, mbind at 1. rewrite g_read_word_rr.
    change (mmap VNum (on_reader (g_read_word (i_req (er_impl dbg)) be fmt64)) rc = lift_out rc (mmap VNum (g_read_word (er_req dbg) be fmt64) (rreader rc))).
    now apply mmap_on_reader.
  - now apply rr_relocated_id.
Qed.

Lemma rrun_cons dbg be root rc op ops :
  rrun dbg be root rc (op :: ops) =
  (fst (rrun dbg be root (fst (rstep dbg be root rc op)) ops),
   snd (rstep dbg be root rc op) :: snd (rrun dbg be root (fst (rstep dbg be root rc op)) ops)).
Proof.
  unfold rrun, rstep. cbn [grun].
  destruct (gstep (rr_impl (er_impl dbg) rel_id rel_id) be root rc op) as [c1 o]. cbn [fst snd].
  destruct (grun (rr_impl (er_impl dbg) rel_id rel_id) be root c1 ops) as [c2 os]. reflexivity.
Qed.

Lemma lift_val_set rc c v : lift_val (set_reader rc c) v = lift_val rc v.
Proof. destruct v; reflexivity. Qed.

Lemma RInv_step dbg be root rc op :
  RInv rc -> RInv (set_reader rc (fst (step dbg be root (rreader rc) op))).
Proof.
  intros (HI & HW & HS). split; [exact HI|]. split; [exact HW|]. cbn [rsection rreader set_reader].
  eapply Sub_trans; [exact HS | apply step_Sub].
Qed.

Lemma reloc_identity_run dbg be root ops : forall rc,
  RInv rc ->
  rrun dbg be root rc ops =
  (set_reader rc (fst (run dbg be (rreader root) (rreader rc) ops)),
   map (rmap (lift_val rc)) (snd (run dbg be (rreader root) (rreader rc) ops))).
Proof.
  induction ops as [|op ops IH]; intros rc HR.
  - cbn. now rewrite set_reader_id.
  - rewrite rrun_cons, run_cons, (reloc_identity_lemma dbg be root rc op HR).
    unfold lift_out. cbn [fst snd].
    rewrite (IH _ (RInv_step dbg be (rreader root) rc op HR)).
    cbn [fst snd rreader set_reader map]. reflexivity.
Qed.

Lemma RInv_new b a : a + N.of_nat (length b) < two64 -> RInv (rr_new (new b a)).
Proof.
  intros H. split; [apply new_Inv|]. split; [exact H | apply Sub_refl].
Qed.

(* ------------------------------------------------------------------ EndianSlice = EndianReader *)
Definition abs_val (v : oval cur) : oval srd :=
  match v with
  | VUnit => VUnit | VNum n => VNum n | VInt z => VInt z | VBool b => VBool b
  | VBytes bs => VBytes bs | VRd r => VRd (abs r) | VOpt o => VOpt o
  end.
Definition abs_out (x : cur * res (oval cur)) : srd * res (oval srd) :=
  (abs (fst x), rmap abs_val (snd x)).

Lemma slen_abs c : Inv c -> slen (abs c) = len c.
Proof. intros H. unfold slen, abs; cbn [swin]. now apply bytes_length. Qed.

Lemma abs_adv c n :
  n <= len c -> abs (adv c n) = mkS (saddr (abs c) + n) (skipn (N.to_nat n) (swin (abs c))).
Proof.
  intros H. unfold abs at 1. rewrite bytes_adv by exact H. cbn [abs saddr swin]. f_equal.
  unfold ptr, adv, with_win; cbn. lia.
Qed.
Lemma abs_win c n :
  n <= len c -> abs (with_win c (off c) n) = mkS (saddr (abs c)) (firstn (N.to_nat n) (swin (abs c))).
Proof.
  intros H. unfold abs at 1. rewrite bytes_win by exact H. reflexivity.
Qed.

Lemma sl_read_slice_abs c n :
  Inv c ->
  sl_read_slice (abs c) n =
  if len c <? n then Err EUnexpectedEof else Ok (view_of (buf c) (off c) n, abs (adv c n)).
Proof.
  intros HI. unfold sl_read_slice. rewrite slen_abs by exact HI.
  destruct (len c <? n) eqn:E; [reflexivity|].
  rewrite abs_adv by lia. f_equal. f_equal. cbn [abs swin]. unfold bytes. apply firstn_view. lia.
Qed.
Lemma sl_skip_abs c n :
  Inv c ->
  sl_skip (abs c) n = if len c <? n then Err EUnexpectedEof else Ok (tt, abs (adv c n)).
Proof.
  intros HI. unfold sl_skip. rewrite slen_abs by exact HI.
  destruct (len c <? n) eqn:E; [reflexivity|]. now rewrite abs_adv by lia.
Qed.
Lemma sl_truncate_abs c n :
  Inv c ->
  sl_truncate (abs c) n =
  if len c <? n then Err EUnexpectedEof else Ok (tt, abs (with_win c (off c) n)).
Proof.
  intros HI. unfold sl_truncate. rewrite slen_abs by exact HI.
  destruct (len c <? n) eqn:E; [reflexivity|]. now rewrite abs_win by lia.
Qed.
Lemma sl_split_abs c n :
  Inv c ->
  sl_split (abs c) n =
  if len c <? n then Err EUnexpectedEof else Ok (abs (with_win c (off c) n), abs (adv c n)).
Proof.
  intros HI. unfold sl_split. rewrite sl_read_slice_abs by exact HI.
  destruct (len c <? n) eqn:E; [reflexivity|]. cbn [bind].
  rewrite abs_win by lia. f_equal. f_equal. f_equal. cbn [abs swin]. unfold bytes.
  symmetry. apply firstn_view. lia.
Qed.

Lemma sl_read_un_eq dbg be c w (f : N -> oval srd) (g : N -> oval cur) :
  Inv c -> (forall v, f v = abs_val (g v)) ->
  mmap f (g_read_un (sl_req dbg) w be) (abs c) = abs_out (spec_read_un be c w g).
Proof.
  intros HI Hf. unfold mmap, g_read_un, mbind, mret, spec_read_un, abs_out.
  cbn [q_read_slice sl_req]. unfold mprim. rewrite sl_read_slice_abs by exact HI.
  destruct (len c <? N.of_nat w); cbn [fst snd rmap bind]; [reflexivity|].
  now rewrite Hf.
Qed.

Lemma sl_read_in_eq dbg be c w :
  Inv c ->
  mmap VInt (g_read_in (sl_req dbg) w be) (abs c) =
  abs_out (spec_read_un be c w (fun v => VInt (to_signed (8 * N.of_nat w) v))).
Proof.
  intros HI. unfold mmap, g_read_in, g_read_un, mbind, mret, spec_read_un, abs_out.
  cbn [q_read_slice sl_req]. unfold mprim. rewrite sl_read_slice_abs by exact HI.
  destruct (len c <? N.of_nat w); reflexivity.
Qed.

Lemma abs_pure {A} c (r : res A) (f : A -> oval srd) (g : A -> oval cur) :
  (forall a, f a = abs_val (g a)) -> (abs c, rmap f r) = abs_out (c, rmap g r).
Proof.
  intros H. unfold abs_out. cbn [fst snd]. f_equal. destruct r; cbn; try reflexivity. now rewrite H.
Qed.

Lemma sl_read_cstr_eq dbg c :
  Inv c ->
  mmap VRd (g_read_cstr (sl_req dbg)) (abs c) =
  abs_out (spec_step dbg false c c CReadCstr).
Proof.
  intros HI. unfold mmap, g_read_cstr, mbind, mret, mget, abs_out.
  cbn [q_find q_split q_skip sl_req spec_step]. unfold mprim, sl_find. cbn [abs swin].
  destruct (position x00 (bytes c)) as [i|] eqn:P; cbn [fst snd rmap bind]; [|reflexivity].
  pose proof (position_lt _ _ _ P) as Hlt. rewrite (bytes_length c HI) in Hlt.
  change (mkS (ptr c) (bytes c)) with (abs c).
  rewrite sl_split_abs by exact HI. assert (E1 : (len c <? i) = false) by lia. rewrite E1.
  assert (HIa : Inv (adv c i)) by (eapply Sub_Inv; [exact HI | apply adv_Sub; lia]).
  rewrite sl_skip_abs by exact HIa.
  assert (E2 : (len (adv c i) <? 1) = false) by (cbn; lia). rewrite E2.
  rewrite adv_adv by lia. reflexivity.
Qed.

Lemma kinds_agree_lemma dbg be root c op :
  Inv c -> Inv root ->
  sstep dbg be (abs root) (abs c) op = abs_out (step dbg be root c op).
Proof.
  intros HI HIr. rewrite step_spec. unfold sstep, gstep, sl_impl, default_impl.
  cbn [i_req i_read_address i_read_offset i_read_sized_offset].
  destruct op; cbn [spec_step].
  - unfold mmap, mbind, mret, abs_out. cbn [q_read_slice sl_req]. unfold mprim.
    rewrite sl_read_slice_abs by exact HI. destruct (len c <? n); reflexivity.
  - now apply sl_read_un_eq.
  - now apply sl_read_in_eq.
  - unfold g_read_uint. destruct (Nat.ltb 8 n); [reflexivity | now apply sl_read_un_eq].
  - unfold mmap, mbind, mret, abs_out. cbn [q_skip sl_req]. unfold mprim.
    rewrite sl_skip_abs by exact HI. destruct (len c <? n); reflexivity.
  - unfold mmap, mbind, mret, abs_out. cbn [q_split sl_req]. unfold mprim.
    rewrite sl_split_abs by exact HI. destruct (len c <? n); reflexivity.
  - unfold mmap, mbind, mret, abs_out. cbn [q_truncate sl_req]. unfold mprim.
    rewrite sl_truncate_abs by exact HI. destruct (len c <? n); reflexivity.
  - (* empty: `&self.slice[..0]` keeps the address, as SubRange::truncate(0) keeps ptr *)
    unfold mmap, mbind, mret, abs_out. cbn [q_empty sl_req]. unfold mprim, sl_empty. cbn [fst snd rmap bind].
    reflexivity.
  - cbn [q_find sl_req]. unfold sl_find. cbn [abs swin]. change (mkS (ptr c) (bytes c)) with (abs c).
    destruct (position b (bytes c)); reflexivity.
  - cbn [q_len sl_req]. rewrite slen_abs by exact HI. reflexivity.
  - unfold g_is_empty. cbn [q_len sl_req]. rewrite slen_abs by exact HI. reflexivity.
  - reflexivity.
  - cbn [q_lookup_offset_id sl_req]. unfold sl_lookup_offset_id. rewrite slen_abs by exact HI.
    now apply abs_pure.
  - cbn [q_lookup_offset_id q_offset_id sl_req]. unfold sl_lookup_offset_id. rewrite slen_abs by exact HIr.
    now apply abs_pure.
  - cbn [q_offset_from sl_req]. unfold sl_offset_from. rewrite !slen_abs by assumption.
    now apply abs_pure.
  - reflexivity.
  - cbn [q_to_string sl_req]. unfold sl_to_string. cbn [abs swin]. change (mkS (ptr c) (bytes c)) with (abs c).
    destruct (utf8_valid (bytes c)); reflexivity.
  - rewrite (sl_read_cstr_eq dbg c HI). reflexivity.
  - unfold g_read_address.
    destruct (size =? 1); [now apply sl_read_un_eq|]. destruct (size =? 2); [now apply sl_read_un_eq|].
    destruct (size =? 4); [now apply sl_read_un_eq|]. destruct (size =? 8); [now apply sl_read_un_eq|]. reflexivity.
  - unfold g_read_word. destruct fmt64; now apply sl_read_un_eq.
  - unfold g_read_word. destruct fmt64; now apply sl_read_un_eq.
  - unfold g_read_sized_offset.
    destruct (size =? 1); [now apply sl_read_un_eq|]. destruct (size =? 2); [now apply sl_read_un_eq|].
    destruct (size =? 4); [now apply sl_read_un_eq|]. destruct (size =? 8); [now apply sl_read_un_eq|]. reflexivity.
Qed.

Lemma srun_cons dbg be root s op ops :
  srun dbg be root s (op :: ops) =
  (fst (srun dbg be root (fst (sstep dbg be root s op)) ops),
   snd (sstep dbg be root s op) :: snd (srun dbg be root (fst (sstep dbg be root s op)) ops)).
Proof.
  unfold srun, sstep. cbn [grun].
  destruct (gstep (sl_impl dbg) be root s op) as [c1 o]. cbn [fst snd].
  destruct (grun (sl_impl dbg) be root c1 ops) as [c2 os]. reflexivity.
Qed.

(* ------------------------------------------------------------------ find *)
Lemma position_spec b l i : position b l = Some i <-> first_occurrence b l i.
Proof.
  split.
  - revert i. induction l as [|x l IH]; intros i; cbn [position]; [discriminate|].
    destruct (b2n x =? b2n b) eqn:E.
    + intros [= <-]. apply N.eqb_eq, b2n_inj in E. subst x.
      exists [], l. repeat split. intros [].
    + destruct (position b l) as [j|]; [|discriminate]. intros [= <-].
      destruct (IH j eq_refl) as (pre & post & -> & Hn & HL).
      exists (x :: pre), post. repeat split.
      * intros [->|Hin]; [rewrite N.eqb_refl in E; discriminate | now apply Hn].
      * cbn [length]. lia.
  - intros (pre & post & -> & Hn & HL). revert i HL.
    induction pre as [|x pre IH]; intros i HL; cbn [app position].
    + rewrite N.eqb_refl. cbn in HL. now subst.
    + destruct (b2n x =? b2n b) eqn:E.
      * apply N.eqb_eq, b2n_inj in E. subst x. exfalso. apply Hn. now left.
      * rewrite (IH (fun H => Hn (or_intror H)) (N.of_nat (length pre)) eq_refl).
        f_equal. cbn [length] in HL. lia.
Qed.

Lemma position_none b l : position b l = None <-> ~ In b l.
Proof.
  induction l as [|x l IH]; cbn [position In]; [tauto|].
  destruct (b2n x =? b2n b) eqn:E.
  - apply N.eqb_eq, b2n_inj in E. subst x. split; [discriminate | intros H; exfalso; apply H; now left].
  - destruct (position b l) as [j|].
    + split; [discriminate|]. intros H. exfalso.
      assert (Hn : ~ In b l) by (intros Hin; apply H; now right).
      apply IH in Hn. discriminate.
    + split; [|reflexivity]. intros _ [->|Hin]; [rewrite N.eqb_refl in E; discriminate|].
      now apply (proj1 IH eq_refl).
Qed.

(* ------------------------------------------------------------------ to_string accepts exactly well-formed UTF-8 *)
Lemma inr_rng lo hi b : inr lo hi b = true <-> rng lo hi b.
Proof. unfold inr, rng. lia. Qed.

Lemma utf8_valid_wf_fuel n : forall l, (length l <= n)%nat -> utf8_valid l = true -> wf_utf8 l.
Proof.
  induction n as [|n IH]; intros l HL.
  - destruct l; [intros _; constructor | cbn in HL; lia].
  - destruct l as [|a r]; [intros _; constructor|].
    cbn [length] in HL. cbn [utf8_valid]. destruct (b2n a <? 128) eqn:E1.
    { intros H. change (a :: r) with ([a] ++ r). constructor.
      - apply wf1. unfold rng. lia.
      - apply IH; [lia | exact H]. }
    destruct r as [|b r2]; [discriminate|]. cbn [length] in HL.
    destruct (inr 194 223 a) eqn:E2.
    { intros H. apply andb_true_iff in H as [Hb Hr].
      change (a :: b :: r2) with ([a; b] ++ r2). constructor.
      - apply wf2; now apply inr_rng.
      - apply IH; [lia | exact Hr]. }
    destruct r2 as [|c r3]; [discriminate|]. cbn [length] in HL.
    destruct (lead3 a b) eqn:E3.
    { intros H. apply andb_true_iff in H as [Hc Hr].
      assert (Hr' : wf_utf8 r3) by (apply IH; [lia | exact Hr]).
      apply inr_rng in Hc.
      change (a :: b :: c :: r3) with ([a; b; c] ++ r3). constructor; [|exact Hr'].
      unfold lead3, cont in E3.
      repeat rewrite orb_true_iff in E3. repeat rewrite andb_true_iff in E3.
      repeat rewrite inr_rng in E3.
      destruct E3 as [[[[A B]|[A B]]|[A B]]|[A B]];
        [now apply wf3_e0 | now apply wf3_e1 | now apply wf3_ed | now apply wf3_ee]. }
    destruct r3 as [|d r4]; [discriminate|]. cbn [length] in HL.
    intros H. apply andb_true_iff in H as [H Hr]. apply andb_true_iff in H as [H Hd].
    apply andb_true_iff in H as [E4 Hc].
    assert (Hr' : wf_utf8 r4) by (apply IH; [lia | exact Hr]).
    apply inr_rng in Hc. apply inr_rng in Hd.
    change (a :: b :: c :: d :: r4) with ([a; b; c; d] ++ r4). constructor; [|exact Hr'].
    unfold lead4, cont in E4.
    repeat rewrite orb_true_iff in E4. repeat rewrite andb_true_iff in E4.
    repeat rewrite inr_rng in E4.
    destruct E4 as [[[A B]|[A B]]|[A B]];
      [now apply wf4_f0 | now apply wf4_f1 | now apply wf4_f4].
Qed.

Ltac decide_ifs :=
  repeat match goal with
         | |- context [if ?g then _ else _] =>
             let E := fresh "E" in
             first [ assert (E : g = true) by lia; rewrite E; clear E
                   | assert (E : g = false) by lia; rewrite E; clear E ]
         end.

Lemma wf_utf8_valid l : wf_utf8 l -> utf8_valid l = true.
Proof.
  induction 1 as [|s r Hs Hr IH]; [reflexivity|].
  destruct Hs; cbn [app utf8_valid]; unfold lead3, lead4, cont, inr, rng in *;
    decide_ifs; rewrite ?IH; lia.
Qed.

Lemma utf8_valid_spec_lemma l : utf8_valid l = true <-> wf_utf8 l.
Proof.
  split; [apply (utf8_valid_wf_fuel (length l)); lia | apply wf_utf8_valid].
Qed.

(* ------------------------------------------------------------------ the only panic is read_uint(n > 8) *)
Lemma lookup_id_total dbg p l id :
  p + l < two64 -> exists o, lookup_id_ptrs dbg p l id = Ok o.
Proof.
  intros H. destruct (N.le_gt_cases p id) as [H1|H1].
  - destruct (N.le_gt_cases id (p + l)) as [H2|H2].
    + eexists. now apply lookup_id_in.
    + eexists. apply lookup_id_out; [exact H | now right].
  - eexists. apply lookup_id_out; [exact H | now left].
Qed.

Lemma spec_read_un_returns be c w f : returns (snd (spec_read_un be c w f)).
Proof. unfold spec_read_un. destruct (len c <? N.of_nat w); cbn; split; discriminate. Qed.

(* inside its section every call returns, read_uint(n) with n > 8 excepted *)
Lemma spec_step_returns dbg be root c op :
  Inv root -> wf_alloc root -> Sub root c ->
  match op with CReadUint n => (n <= 8)%nat | _ => True end ->
  returns (snd (spec_step dbg be root c op)).
Proof.
  intros HI HW HS Hop. pose proof (ptr_bound _ _ HI HW HS) as [Hb1 Hb2].
  assert (Hc : ptr c + len c < two64) by lia.
  assert (Hun : forall w f, returns (snd (spec_read_un be c w f))) by (intros; apply spec_read_un_returns).
  assert (Hid : forall p l id, p + l < two64 -> returns (rmap (@VOpt cur) (lookup_id_ptrs dbg p l id))).
  { intros p l id H. destruct (lookup_id_total dbg p l id H) as [o ->]. apply returns_ok. }
  destruct op; cbn [spec_step]; try apply Hun;
    try (destruct (len c <? n); cbn [snd]; split; discriminate); try (cbn [snd]; split; discriminate).
  - replace (Nat.ltb 8 n) with false by (symmetry; apply Nat.ltb_ge; exact Hop). apply Hun.
  - cbn [snd]. destruct (position b (bytes c)); split; discriminate.
  - apply Hid. exact Hc.
  - apply Hid. exact Hb2.
  - cbn [snd]. fold (er_offset_from dbg c root). rewrite (offset_from_lemma dbg root c HI HW HS). apply returns_ok.
  - cbn [snd]. destruct (utf8_valid (bytes c)); split; discriminate.
  - destruct (position x00 (bytes c)); cbn [snd]; split; discriminate.
  - destruct (size =? 1); [apply Hun|]. destruct (size =? 2); [apply Hun|].
    destruct (size =? 4); [apply Hun|]. destruct (size =? 8); [apply Hun|]. apply returns_err.
  - destruct fmt64; apply Hun.
  - destruct fmt64; apply Hun.
  - destruct (size =? 1); [apply Hun|]. destruct (size =? 2); [apply Hun|].
    destruct (size =? 4); [apply Hun|]. destruct (size =? 8); [apply Hun|]. apply returns_err.
Qed.
