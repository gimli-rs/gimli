(* Proofs/CfiWrProofs.v — the frame-table writer (Model/CfiWr: gimli's write/cfi.rs) against the read-back
   spec CfaEncSpec (C14). What write_insn emits is enc_dinsn of a decoded instruction whose meaning is the
   instruction supplied, and the decoder spec reads it back; an entry is a length field, a header, the
   instructions and nop padding up to a multiple of the address size; the header parsers of the spec find the
   written fields; a table is written as tiles in the order of the emission plan; where the writer can panic. *)
From Coq Require Import List NArith ZArith Bool Lia ZifyBool ZifyN ZifyNat.
From Coq.Strings Require Import Byte.
Require Import GV.Base.Res GV.Base.Byt GV.Base.Ints GV.Spec.LebSpec GV.Spec.PrimSpec GV.Spec.CfaEncSpec.
Require Import GV.Model.Leb GV.Model.Prim GV.Model.CfiWr GV.Proofs.LebProofs GV.Proofs.PrimProofs.
Import ListNotations.
Local Open Scope N_scope.
Local Arguments N.sub : simpl never.
Ltac Zify.zify_post_hook ::= Z.to_euclidean_division_equations.

Lemma is_i32_iff z : is_i32 z = true <-> (-2147483648 <= z < 2147483648)%Z.
Proof. unfold is_i32. lia. Qed.
Lemma is_i8_iff z : is_i8 z = true <-> (-128 <= z < 128)%Z.
Proof. unfold is_i8. lia. Qed.
Lemma is_u8_iff n : is_u8 n = true <-> n < 256.
Proof. unfold is_u8. lia. Qed.
Lemma is_u16_iff n : is_u16 n = true <-> n < 65536.
Proof. unfold is_u16. lia. Qed.
Lemma is_u32_iff n : is_u32 n = true <-> n < 4294967296.
Proof. unfold is_u32. lia. Qed.

Lemma chk_s_i32 dbg z : is_i32 z = true -> chk_s 32 dbg z = Ok z.
Proof. intros H. unfold chk_s. change (in_signed 32 z) with (is_i32 z). now rewrite H. Qed.

(* truncating division does not move away from zero, so multiplying back cannot overflow *)
Lemma quot_mul_i32 (o f : Z) : f <> 0%Z -> is_i32 o = true -> is_i32 (Z.quot o f * f) = true.
Proof.
  rewrite !is_i32_iff, Z.mul_comm. intros Hf Ho.
  destruct (Z.le_ge_cases 0 o) as [H|H];
    [pose proof (Z.mul_quot_le o f H Hf)|pose proof (Z.mul_quot_ge o f ltac:(lia) Hf)]; lia.
Qed.

(* factored_data_offset: the quotient when the division is exact and the quotient is an i32 (only
   i32::MIN / -1 is not), InvalidFrameDataOffset otherwise *)
Lemma factored_data_offset_spec : forall (dbg : bool) (o f : Z),
  is_i32 o = true -> is_i8 f = true ->
  (forall q, factored_data_offset dbg o f = Ok q <-> (f <> 0 /\ q * f = o /\ is_i32 q = true)%Z) /\
  (factored_data_offset dbg o f = Err WInvalidFrameDataOffset \/
   exists q, factored_data_offset dbg o f = Ok q).
Proof.
  intros dbg o f Ho _. unfold factored_data_offset.
  destruct ((f =? 0) || ((o =? -2147483648) && (f =? -1)))%Z eqn:E.
  - split; [|left; reflexivity]. intros q. split; [discriminate|]. rewrite is_i32_iff. clear Ho. nia.
  - assert (Hf : f <> 0%Z) by lia.
    rewrite chk_s_i32 by (apply quot_mul_i32; assumption). cbn [bind].
    destruct (o =? Z.quot o f * f)%Z eqn:E2; cbn [negb].
    + split; [|right; eexists; reflexivity]. intros q. split.
      * intros [= <-]. split; [exact Hf|]. split; [lia|]. apply is_i32_iff in Ho. apply is_i32_iff. nia.
      * intros (_ & <- & _). now rewrite Z.quot_mul.
    + split; [|left; reflexivity]. intros q. split; [discriminate|].
      intros (_ & <- & _). rewrite Z.quot_mul in E2 by exact Hf. lia.
Qed.

(* factored_code_delta without its overflow checks: multiplying the quotient back stays below the delta *)
Lemma factored_code_delta_eq dbg (prev off factor : N) :
  is_u32 off = true ->
  factored_code_delta dbg prev off factor =
    if off <? prev then Err WInvalidFrameCodeOffset
    else if factor =? 0 then Err WInvalidFrameCodeOffset
    else if negb (off - prev =? (off - prev) / factor * factor) then Err WInvalidFrameCodeOffset
    else Ok ((off - prev) / factor).
Proof.
  intros Ho. apply is_u32_iff in Ho. unfold factored_code_delta.
  destruct (off <? prev) eqn:E1; [reflexivity|]. rewrite chk_sub_ok by lia. cbn [bind].
  destruct (factor =? 0) eqn:E2; [reflexivity|].
  rewrite chk_mul_ok; [reflexivity|].
  apply N.le_lt_trans with (off - prev); [rewrite N.mul_comm; apply N.mul_div_le; lia|].
  change (2 ^ 32) with 4294967296. lia.
Qed.

(* the two high bits of an opcode byte and a six-bit operand do not overlap *)
Lemma lor_hi2 (h d : N) : d < 64 -> N.lor (64 * h) d = 64 * h + d.
Proof. intros H. rewrite N.lor_comm, N.add_comm, (N.mul_comm 64). exact (lor_mul_add d h 6 H). Qed.
(* the spec's fixed-width numbers are those of Prim *)
Lemma le_enc_le_bytes n v : le_enc n v = le_bytes n v.
Proof. revert v. induction n as [|k IH]; intros v; cbn [le_enc le_bytes]; [reflexivity|]. now rewrite IH. Qed.
Lemma enc_num_enc_un n be v : enc_num n be v = enc_un n be v.
Proof. unfold enc_num, enc_un, be_bytes. now rewrite le_enc_le_bytes. Qed.
Lemma num_val_sum be bs : num be bs = val_sum be bs.
Proof.
  assert (E : forall l, le_num l = le_val l) by (induction l as [|b r IH]; cbn [le_num le_val]; now rewrite ?IH).
  rewrite <- val_is_sum. unfold num, be_val. now rewrite !E.
Qed.
Lemma fixed_read_un n be bs :
  fixed n be bs = match read_un n be bs with Ok p => Some p | _ => None end.
Proof. unfold fixed. rewrite read_un_exact, num_val_sum. now destruct (length bs <? n)%nat. Qed.

Lemma fixed_enc_un_small n be v rest :
  v < 2 ^ (8 * N.of_nat n) -> fixed n be (enc_un n be v ++ rest) = Some (v, rest).
Proof. intros Hv. rewrite fixed_read_un, read_un_enc_un_small; [reflexivity|now rewrite p256_pow2]. Qed.

Lemma fixed1_byte be (b : byte) rest : fixed 1 be (b :: rest) = Some (b2n b, rest).
Proof.
  unfold fixed. cbn [length firstn skipn Nat.ltb Nat.leb]. unfold num. cbn [rev app le_num].
  destruct be; f_equal; f_equal; lia.
Qed.

Lemma decode1_hi1 be b r : b2n b / 64 = 1 -> decode1 be (b :: r) = Some (DAdvance (b2n b mod 64), r).
Proof. intros H. unfold decode1. cbv zeta. rewrite H. reflexivity. Qed.
Lemma decode1_hi2 be b r : b2n b / 64 = 2 ->
  decode1 be (b :: r) = omap (uleb r) (fun o r1 => Some (DOffset (b2n b mod 64) o, r1)).
Proof. intros H. unfold decode1. cbv zeta. rewrite H. reflexivity. Qed.
Lemma decode1_hi3 be b r : b2n b / 64 = 3 -> decode1 be (b :: r) = Some (DRestore (b2n b mod 64), r).
Proof. intros H. unfold decode1. cbv zeta. rewrite H. reflexivity. Qed.

Lemma hi2_byte (h d : N) : h < 4 -> d < 64 ->
  b2n (n2b (64 * h + d)) / 64 = h /\ b2n (n2b (64 * h + d)) mod 64 = d.
Proof. intros Hh Hd. rewrite b2n_n2b_small by lia. lia. Qed.

Lemma decode1_x00 be r : decode1 be (x00 :: r) = Some (DNop, r).
Proof. reflexivity. Qed.
Lemma decode1_x02 be r : decode1 be (x02 :: r) = omap (fixed 1 be r) (fun d r1 => Some (DAdvance d, r1)).
Proof. reflexivity. Qed.
Lemma decode1_x03 be r : decode1 be (x03 :: r) = omap (fixed 2 be r) (fun d r1 => Some (DAdvance d, r1)).
Proof. reflexivity. Qed.
Lemma decode1_x04 be r : decode1 be (x04 :: r) = omap (fixed 4 be r) (fun d r1 => Some (DAdvance d, r1)).
Proof. reflexivity. Qed.
Lemma decode1_x05 be r : decode1 be (x05 :: r) =
  omap (uleb r) (fun g r1 => omap (uleb r1) (fun o r2 => Some (DOffset g o, r2))).
Proof. reflexivity. Qed.
Lemma decode1_x06 be r : decode1 be (x06 :: r) = omap (uleb r) (fun g r1 => Some (DRestore g, r1)).
Proof. reflexivity. Qed.
Lemma decode1_x07 be r : decode1 be (x07 :: r) = omap (uleb r) (fun g r1 => Some (DUndefined g, r1)).
Proof. reflexivity. Qed.
Lemma decode1_x08 be r : decode1 be (x08 :: r) = omap (uleb r) (fun g r1 => Some (DSameValue g, r1)).
Proof. reflexivity. Qed.
Lemma decode1_x09 be r : decode1 be (x09 :: r) =
  omap (uleb r) (fun g r1 => omap (uleb r1) (fun h r2 => Some (DRegister g h, r2))).
Proof. reflexivity. Qed.
Lemma decode1_x0c be r : decode1 be (x0c :: r) =
  omap (uleb r) (fun g r1 => omap (uleb r1) (fun o r2 => Some (DDefCfa g o, r2))).
Proof. reflexivity. Qed.
Lemma decode1_x0d be r : decode1 be (x0d :: r) = omap (uleb r) (fun g r1 => Some (DDefCfaRegister g, r1)).
Proof. reflexivity. Qed.
Lemma decode1_x0e be r : decode1 be (x0e :: r) = omap (uleb r) (fun o r1 => Some (DDefCfaOffset o, r1)).
Proof. reflexivity. Qed.
Lemma decode1_x0f be r : decode1 be (x0f :: r) = omap (blob r) (fun e r1 => Some (DDefCfaExpression e, r1)).
Proof. reflexivity. Qed.
Lemma decode1_x10 be r : decode1 be (x10 :: r) =
  omap (uleb r) (fun g r1 => omap (blob r1) (fun e r2 => Some (DExpression g e, r2))).
Proof. reflexivity. Qed.
Lemma decode1_x11 be r : decode1 be (x11 :: r) =
  omap (uleb r) (fun g r1 => omap (sleb r1) (fun o r2 => Some (DOffsetExtendedSf g o, r2))).
Proof. reflexivity. Qed.
Lemma decode1_x12 be r : decode1 be (x12 :: r) =
  omap (uleb r) (fun g r1 => omap (sleb r1) (fun o r2 => Some (DDefCfaSf g o, r2))).
Proof. reflexivity. Qed.
Lemma decode1_x13 be r : decode1 be (x13 :: r) = omap (sleb r) (fun o r1 => Some (DDefCfaOffsetSf o, r1)).
Proof. reflexivity. Qed.
Lemma decode1_x14 be r : decode1 be (x14 :: r) =
  omap (uleb r) (fun g r1 => omap (uleb r1) (fun o r2 => Some (DValOffset g o, r2))).
Proof. reflexivity. Qed.
Lemma decode1_x15 be r : decode1 be (x15 :: r) =
  omap (uleb r) (fun g r1 => omap (sleb r1) (fun o r2 => Some (DValOffsetSf g o, r2))).
Proof. reflexivity. Qed.
Lemma decode1_x16 be r : decode1 be (x16 :: r) =
  omap (uleb r) (fun g r1 => omap (blob r1) (fun e r2 => Some (DValExpression g e, r2))).
Proof. reflexivity. Qed.
Lemma decode1_x2e be r : decode1 be (x2e :: r) = omap (uleb r) (fun n r1 => Some (DArgsSize n, r1)).
Proof. reflexivity. Qed.

Lemma decode1_adv_enc be delta rest :
  delta < 4294967296 -> decode1 be (adv_enc be delta ++ rest) = Some (DAdvance delta, rest).
Proof.
  intros Hd. unfold adv_enc.
  destruct (delta <? 64) eqn:E1.
  - cbn [app]. destruct (hi2_byte 1 delta) as [Hh Hl]; [lia|lia|]. change (64 * 1) with 64 in Hh, Hl.
    rewrite decode1_hi1 by exact Hh. now rewrite Hl.
  - destruct (delta <? 256) eqn:E2.
    + cbn [app]. rewrite decode1_x02, fixed1_byte. cbn [omap]. rewrite b2n_n2b_small by lia. reflexivity.
    + rewrite !enc_num_enc_un. destruct (delta <? 65536) eqn:E3; cbn [app].
      * rewrite decode1_x03, fixed_enc_un_small by (change (2 ^ (8 * N.of_nat 2)) with 65536; lia). reflexivity.
      * rewrite decode1_x04, fixed_enc_un_small by (change (2 ^ (8 * N.of_nat 4)) with 4294967296; lia). reflexivity.
Qed.

Lemma adv_enc_nonempty be d : adv_enc be d <> [].
Proof. unfold adv_enc. destruct (d <? 64); [discriminate|]. destruct (d <? 256); [discriminate|]. destruct (d <? 65536); discriminate. Qed.

Lemma write_advance_loc_eq dbg be (caf prev off : N) :
  is_u32 off = true ->
  write_advance_loc dbg be caf prev off =
    if off =? prev then Ok []
    else if off <? prev then Err WInvalidFrameCodeOffset
    else if caf =? 0 then Err WInvalidFrameCodeOffset
    else if negb (off - prev =? (off - prev) / caf * caf) then Err WInvalidFrameCodeOffset
    else Ok (adv_enc be ((off - prev) / caf)).
Proof.
  intros Ho. unfold write_advance_loc. rewrite (factored_code_delta_eq dbg prev off caf Ho).
  destruct (off =? prev); [reflexivity|]. destruct (off <? prev); [reflexivity|].
  destruct (caf =? 0) eqn:Ec; [reflexivity|].
  destruct (negb (off - prev =? (off - prev) / caf * caf)); [reflexivity|].
  cbn [bind]. unfold adv_enc. set (d := (off - prev) / caf).
  destruct (d <? 64) eqn:D1; [now rewrite wrap8_small, (lor_hi2 1) by lia|].
  destruct (d <? 256) eqn:D2; [now rewrite wrap8_small by lia|].
  destruct (d <? 65536) eqn:D3; [now rewrite wrap16_small by (unfold two16; lia)|reflexivity].
Qed.

Lemma write_advance_loc_ok dbg be (caf prev off : N) bs :
  is_u8 caf = true -> is_u32 prev = true -> is_u32 off = true ->
  write_advance_loc dbg be caf prev off = Ok bs ->
  (off = prev /\ bs = []) \/
  (exists delta, prev < off /\ delta * caf = off - prev /\ delta < 4294967296 /\ bs = adv_enc be delta).
Proof.
  intros _ _ Ho. rewrite (write_advance_loc_eq dbg be caf prev off Ho). apply is_u32_iff in Ho.
  destruct (off =? prev) eqn:E0; [intros [= <-]; left; split; [lia|reflexivity]|].
  destruct (off <? prev) eqn:E1; [discriminate|]. destruct (caf =? 0) eqn:E2; [discriminate|].
  destruct (off - prev =? (off - prev) / caf * caf) eqn:E3; [|discriminate].
  intros [= <-]. right. exists ((off - prev) / caf).
  split; [lia|]. split; [lia|]. split; [|reflexivity].
  apply N.le_lt_trans with (off - prev); [|lia]. apply N.div_le_upper_bound; nia.
Qed.

(* the writers emit the minimal encodings (LebProofs), which the spec decoders read back *)
Lemma write_uleb128_min v : v < 18446744073709551616 -> write_uleb128 v = Ok (enc_uleb v).
Proof. intros H. apply write_uleb128_enc, H. Qed.

Lemma i64_iff z : in_i64 z = true <-> (-9223372036854775808 <= z < 9223372036854775808)%Z.
Proof. unfold in_i64. lia. Qed.

Lemma write_sleb128_min z : (-9223372036854775808 <= z < 9223372036854775808)%Z -> write_sleb128 z = Ok (sleb_min 10 z).
Proof. intros H. apply write_sleb128_enc, i64_iff, H. Qed.

Lemma uleb_enc v r : v < 18446744073709551616 -> uleb (enc_uleb v ++ r) = Some (v, r).
Proof. intros H. unfold uleb. destruct (enc_uleb_spec v r H) as (-> & -> & _). reflexivity. Qed.

Lemma sleb_enc z r : in_i64 z = true -> sleb (sleb_min 10 z ++ r) = Some (z, r).
Proof. intros H. unfold sleb. destruct (sleb_min_i64 10 z r ltac:(lia) H) as (-> & -> & _). reflexivity. Qed.

Lemma len_app_ltb a b : (N.of_nat (length (a ++ b)) <? len a) = false.
Proof. unfold len. rewrite app_length. lia. Qed.
Lemma firstn_len a b : firstn (N.to_nat (len a)) (a ++ b) = a.
Proof. unfold len. rewrite Nat2N.id. apply firstn_app_exact. Qed.
Lemma skipn_len a b : skipn (N.to_nat (len a)) (a ++ b) = b.
Proof. unfold len. rewrite Nat2N.id. apply skipn_app_exact. Qed.

(* a length-prefixed expression block *)
Definition enc_blob (e : list byte) : list byte := enc_uleb (len e) ++ e.

Lemma write_blob_min e : is_blob e = true -> write_blob e = Ok (enc_blob e).
Proof. unfold is_blob, write_blob, len. intros H. now rewrite write_uleb128_min by lia. Qed.

Lemma blob_enc e r : is_blob e = true -> blob (enc_blob e ++ r) = Some (e, r).
Proof.
  unfold is_blob. intros H. unfold blob, enc_blob. rewrite <- app_assoc, uleb_enc by (unfold len; lia).
  now rewrite len_app_ltb, firstn_len, skipn_len.
Qed.

Lemma write_uleb_fuel_len : forall f v bs, write_uleb_fuel f v = Ok bs -> (length bs <= f)%nat.
Proof.
  induction f as [|f IH]; intros v bs H; cbn [write_uleb_fuel] in H; [discriminate|].
  destruct (N.shiftr v 7 =? 0).
  - injection H as <-. cbn [length]. lia.
  - destruct (write_uleb_fuel f (N.shiftr v 7)) as [r| | |] eqn:E; try discriminate.
    cbn [bind] in H. injection H as <-. cbn [length]. apply IH in E. lia.
Qed.

Lemma write_sleb_fuel_len : forall f v bs, write_sleb_fuel f v = Ok bs -> (length bs <= f)%nat.
Proof.
  induction f as [|f IH]; intros v bs H; cbn [write_sleb_fuel] in H; [discriminate|].
  destruct ((Z.shiftr v 6 =? 0)%Z || (Z.shiftr v 6 =? -1)%Z).
  - injection H as <-. cbn [length]. lia.
  - destruct (write_sleb_fuel f (Z.shiftr (Z.shiftr v 6) 1)) as [r| | |] eqn:E; try discriminate.
    cbn [bind] in H. injection H as <-. cbn [length]. apply IH in E. lia.
Qed.

Lemma z_as_u64_nonneg (o : Z) : (0 <= o < 9223372036854775808)%Z ->
  z_as_u64 o < 2 ^ 64 /\ Z.of_N (z_as_u64 o) = o.
Proof.
  intros H. unfold z_as_u64, of_signed. change (Z.of_N (2 ^ 64)) with 18446744073709551616%Z.
  change (2 ^ 64) with 18446744073709551616. lia.
Qed.

Lemma fdo_cases dbg o daf : is_i32 o = true -> is_i8 daf = true ->
  (factored_data_offset dbg o daf = Err WInvalidFrameDataOffset /\ ~ factorable daf o) \/
  (exists f, factored_data_offset dbg o daf = Ok f /\ (f * daf = o)%Z /\ is_i32 f = true /\ factorable daf o).
Proof.
  intros Ho Hd. destruct (factored_data_offset_spec dbg o daf Ho Hd) as [Hok [E|[q E]]].
  - left. split; [exact E|]. intros (q & Hq). apply Hok in Hq. congruence.
  - right. exists q. destruct (proj1 (Hok q) E) as (H0 & H1 & H2).
    split; [exact E|]. split; [exact H1|]. split; [exact H2|]. exists q. auto.
Qed.

(* what the writer emits for a decoded instruction: the opcode, then the operands as LEB128 numbers and
   length-prefixed blocks; a register below 64 of restore and offset goes into the opcode byte *)
Definition enc_dinsn (be : bool) (d : dinsn) : list byte :=
  match d with
  | DAdvance x => adv_enc be x
  | DOffset r o => if r <? 64 then n2b (128 + r) :: enc_uleb o else x05 :: enc_uleb r ++ enc_uleb o
  | DRestore r => if r <? 64 then [n2b (192 + r)] else x06 :: enc_uleb r
  | DNop => [x00]
  | DUndefined r => x07 :: enc_uleb r
  | DSameValue r => x08 :: enc_uleb r
  | DRegister a b => x09 :: enc_uleb a ++ enc_uleb b
  | DRememberState => [x0a]
  | DRestoreState => [x0b]
  | DDefCfa r o => x0c :: enc_uleb r ++ enc_uleb o
  | DDefCfaRegister r => x0d :: enc_uleb r
  | DDefCfaOffset o => x0e :: enc_uleb o
  | DDefCfaExpression e => x0f :: enc_blob e
  | DExpression r e => x10 :: enc_uleb r ++ enc_blob e
  | DOffsetExtendedSf r f => x11 :: enc_uleb r ++ sleb_min 10 f
  | DDefCfaSf r f => x12 :: enc_uleb r ++ sleb_min 10 f
  | DDefCfaOffsetSf f => x13 :: sleb_min 10 f
  | DValOffset r o => x14 :: enc_uleb r ++ enc_uleb o
  | DValOffsetSf r f => x15 :: enc_uleb r ++ sleb_min 10 f
  | DValExpression r e => x16 :: enc_uleb r ++ enc_blob e
  | DArgsSize n => x2e :: enc_uleb n
  | DNegateRaState => [x2d]
  end.

(* operands within the types both readers accept *)
Definition dinsn_ok (d : dinsn) : Prop :=
  match d with
  | DAdvance x => x < 4294967296
  | DOffset r o | DDefCfa r o | DValOffset r o => r < 65536 /\ o < 18446744073709551616
  | DRestore r | DUndefined r | DSameValue r | DDefCfaRegister r => r < 65536
  | DRegister a b => a < 65536 /\ b < 65536
  | DDefCfaOffset o | DArgsSize o => o < 18446744073709551616
  | DDefCfaExpression e => is_blob e = true
  | DExpression r e | DValExpression r e => r < 65536 /\ is_blob e = true
  | DOffsetExtendedSf r f | DDefCfaSf r f | DValOffsetSf r f => r < 65536 /\ in_i64 f = true
  | DDefCfaOffsetSf f => in_i64 f = true
  | DNop | DRememberState | DRestoreState | DNegateRaState => True
  end.

Lemma enc_dinsn_nonempty be d : enc_dinsn be d <> [].
Proof. destruct d; cbn [enc_dinsn]; try discriminate; [apply adv_enc_nonempty| |]; destruct (r <? 64); discriminate. Qed.

Lemma decode1_enc be d rest : dinsn_ok d -> decode1 be (enc_dinsn be d ++ rest) = Some (d, rest).
Proof.
  destruct d; cbn [dinsn_ok enc_dinsn]; intros H.
  - apply decode1_adv_enc. exact H.
  - destruct H as [Hr Ho]. destruct (r <? 64) eqn:Er; cbn [app].
    + destruct (hi2_byte 2 r) as [Hh Hl]; [lia|lia|]. change (64 * 2) with 128 in Hh, Hl.
      now rewrite decode1_hi2, Hl, uleb_enc by first [exact Hh|exact Ho].
    + rewrite <- app_assoc, decode1_x05, uleb_enc by lia. cbn [omap]. now rewrite uleb_enc by lia.
  - destruct (r <? 64) eqn:Er; cbn [app].
    + destruct (hi2_byte 3 r) as [Hh Hl]; [lia|lia|]. change (64 * 3) with 192 in Hh, Hl.
      now rewrite decode1_hi3, Hl by exact Hh.
    + now rewrite decode1_x06, uleb_enc by lia.
  - reflexivity.
  - cbn [app]. now rewrite decode1_x07, uleb_enc by lia.
  - cbn [app]. now rewrite decode1_x08, uleb_enc by lia.
  - cbn [app]. rewrite <- app_assoc, decode1_x09, uleb_enc by lia. cbn [omap]. now rewrite uleb_enc by lia.
  - reflexivity.
  - reflexivity.
  - cbn [app]. rewrite <- app_assoc, decode1_x0c, uleb_enc by lia. cbn [omap]. now rewrite uleb_enc by lia.
  - cbn [app]. now rewrite decode1_x0d, uleb_enc by lia.
  - cbn [app]. now rewrite decode1_x0e, uleb_enc by exact H.
  - cbn [app]. now rewrite decode1_x0f, blob_enc by exact H.
  - cbn [app]. rewrite <- app_assoc, decode1_x10, uleb_enc by lia. cbn [omap]. now rewrite blob_enc by tauto.
  - cbn [app]. rewrite <- app_assoc, decode1_x11, uleb_enc by lia. cbn [omap]. now rewrite sleb_enc by tauto.
  - cbn [app]. rewrite <- app_assoc, decode1_x12, uleb_enc by lia. cbn [omap]. now rewrite sleb_enc by tauto.
  - cbn [app]. now rewrite decode1_x13, sleb_enc by exact H.
  - cbn [app]. rewrite <- app_assoc, decode1_x14, uleb_enc by lia. cbn [omap]. now rewrite uleb_enc by lia.
  - cbn [app]. rewrite <- app_assoc, decode1_x15, uleb_enc by lia. cbn [omap]. now rewrite sleb_enc by tauto.
  - cbn [app]. rewrite <- app_assoc, decode1_x16, uleb_enc by lia. cbn [omap]. now rewrite blob_enc by tauto.
  - cbn [app]. now rewrite decode1_x2e, uleb_enc by exact H.
  - reflexivity.
Qed.

(* The writer, on every instruction variant: it chooses the form (factors the offset; the signed form for a
   negative one) and emits the encoding of a decoded instruction whose meaning under the CIE's factors is the
   instruction supplied; the one failure is an operand that is not an i32 multiple of the data alignment factor. *)
Lemma write_insn_spec dbg be (caf : N) (daf : Z) (i : cfi) :
  cfi_wf i = true -> is_i8 daf = true ->
  (exists d, write_insn dbg daf i = Ok (enc_dinsn be d) /\ sem caf daf d = MInsn i /\ dinsn_ok d /\
             (forall o, factored_operand i = Some o -> factorable daf o)) \/
  (write_insn dbg daf i = Err WInvalidFrameDataOffset /\
   exists o, factored_operand i = Some o /\ ~ factorable daf o).
Proof.
  intros Hwf Hdaf.
  destruct i as [r o|r|o|e|r|r|r|r o|r o|r1 r2|r e|r e| | |n| ]; cbn [cfi_wf] in Hwf; cbn [write_insn factored_operand];
    rewrite ?andb_true_iff, ?is_u16_iff, ?is_u32_iff in Hwf; unfold dinsn_ok.
  - destruct Hwf as [Hr Ho]. destruct (o <? 0)%Z eqn:Eo.
    + destruct (fdo_cases dbg o daf Ho Hdaf) as [[E Hn]|(f & E & Hf1 & Hf2 & Hfa)]; rewrite E; cbn [bind].
      * right. split; [reflexivity|]. exists o. auto.
      * left. apply is_i32_iff in Hf2. rewrite write_uleb128_min, write_sleb128_min by lia.
        exists (DDefCfaSf r f). cbn [sem]. rewrite Hf1, i64_iff.
        split; [reflexivity|]. split; [reflexivity|]. split; [lia|]. now intros ? [= <-].
    + left. apply is_i32_iff in Ho. destruct (z_as_u64_nonneg o) as [Hz1 Hz2]; [lia|].
      rewrite !write_uleb128_min by lia.
      exists (DDefCfa r (z_as_u64 o)). cbn [sem]. rewrite Hz2.
      split; [reflexivity|]. split; [reflexivity|]. split; [lia|discriminate].
  - left. rewrite write_uleb128_min by lia. exists (DDefCfaRegister r).
    split; [reflexivity|]. split; [reflexivity|]. split; [lia|discriminate].
  - destruct (o <? 0)%Z eqn:Eo.
    + destruct (fdo_cases dbg o daf Hwf Hdaf) as [[E Hn]|(f & E & Hf1 & Hf2 & Hfa)]; rewrite E; cbn [bind].
      * right. split; [reflexivity|]. exists o. auto.
      * left. apply is_i32_iff in Hf2. rewrite write_sleb128_min by lia.
        exists (DDefCfaOffsetSf f). cbn [sem]. rewrite Hf1, i64_iff.
        split; [reflexivity|]. split; [reflexivity|]. split; [lia|]. now intros ? [= <-].
    + left. apply is_i32_iff in Hwf. destruct (z_as_u64_nonneg o) as [Hz1 Hz2]; [lia|].
      rewrite write_uleb128_min by lia.
      exists (DDefCfaOffset (z_as_u64 o)). cbn [sem]. rewrite Hz2.
      split; [reflexivity|]. split; [reflexivity|]. split; [lia|discriminate].
  - left. rewrite write_blob_min by exact Hwf. exists (DDefCfaExpression e).
    split; [reflexivity|]. split; [reflexivity|]. split; [exact Hwf|discriminate].
  - left. exists (DRestore r). cbn [enc_dinsn]. destruct (r <? 64) eqn:Er.
    + rewrite wrap8_small, (lor_hi2 3) by lia.
      split; [reflexivity|]. split; [reflexivity|]. split; [lia|discriminate].
    + rewrite write_uleb128_min by lia.
      split; [reflexivity|]. split; [reflexivity|]. split; [lia|discriminate].
  - left. rewrite write_uleb128_min by lia. exists (DUndefined r).
    split; [reflexivity|]. split; [reflexivity|]. split; [lia|discriminate].
  - left. rewrite write_uleb128_min by lia. exists (DSameValue r).
    split; [reflexivity|]. split; [reflexivity|]. split; [lia|discriminate].
  - destruct Hwf as [Hr Ho].
    destruct (fdo_cases dbg o daf Ho Hdaf) as [[E Hn]|(f & E & Hf1 & Hf2 & Hfa)]; rewrite E; cbn [bind].
    + right. split; [reflexivity|]. exists o. auto.
    + left. apply is_i32_iff in Hf2. destruct (f <? 0)%Z eqn:Ef.
      * rewrite write_uleb128_min, write_sleb128_min by lia.
        exists (DOffsetExtendedSf r f). cbn [sem]. rewrite Hf1, i64_iff.
        split; [reflexivity|]. split; [reflexivity|]. split; [lia|]. now intros ? [= <-].
      * destruct (z_as_u64_nonneg f) as [Hz1 Hz2]; [lia|].
        exists (DOffset r (z_as_u64 f)). cbn [sem enc_dinsn]. rewrite Hz2, Hf1.
        destruct (r <? 64) eqn:Er.
        -- rewrite write_uleb128_min, wrap8_small, (lor_hi2 2) by lia.
           split; [reflexivity|]. split; [reflexivity|]. split; [lia|]. now intros ? [= <-].
        -- rewrite !write_uleb128_min by lia.
           split; [reflexivity|]. split; [reflexivity|]. split; [lia|]. now intros ? [= <-].
  - destruct Hwf as [Hr Ho].
    destruct (fdo_cases dbg o daf Ho Hdaf) as [[E Hn]|(f & E & Hf1 & Hf2 & Hfa)]; rewrite E; cbn [bind].
    + right. split; [reflexivity|]. exists o. auto.
    + left. apply is_i32_iff in Hf2. destruct (f <? 0)%Z eqn:Ef.
      * rewrite write_uleb128_min, write_sleb128_min by lia.
        exists (DValOffsetSf r f). cbn [sem]. rewrite Hf1, i64_iff.
        split; [reflexivity|]. split; [reflexivity|]. split; [lia|]. now intros ? [= <-].
      * destruct (z_as_u64_nonneg f) as [Hz1 Hz2]; [lia|].
        rewrite !write_uleb128_min by lia.
        exists (DValOffset r (z_as_u64 f)). cbn [sem]. rewrite Hz2, Hf1.
        split; [reflexivity|]. split; [reflexivity|]. split; [lia|]. now intros ? [= <-].
  - left. rewrite !write_uleb128_min by lia. exists (DRegister r1 r2).
    split; [reflexivity|]. split; [reflexivity|]. split; [lia|discriminate].
  - left. destruct Hwf as [Hr He]. rewrite write_uleb128_min, write_blob_min by first [lia|exact He].
    exists (DExpression r e). split; [reflexivity|]. split; [reflexivity|]. split; [auto|discriminate].
  - left. destruct Hwf as [Hr He]. rewrite write_uleb128_min, write_blob_min by first [lia|exact He].
    exists (DValExpression r e). split; [reflexivity|]. split; [reflexivity|]. split; [auto|discriminate].
  - left. exists DRememberState. split; [reflexivity|]. split; [reflexivity|]. split; [exact I|discriminate].
  - left. exists DRestoreState. split; [reflexivity|]. split; [reflexivity|]. split; [exact I|discriminate].
  - left. rewrite write_uleb128_min by lia. exists (DArgsSize n).
    split; [reflexivity|]. split; [reflexivity|]. split; [lia|discriminate].
  - left. exists DNegateRaState. split; [reflexivity|]. split; [reflexivity|]. split; [exact I|discriminate].
Qed.

Lemma write_insn_enc dbg be (caf : N) (daf : Z) (i : cfi) bs :
  cfi_wf i = true -> is_i8 daf = true -> write_insn dbg daf i = Ok bs ->
  exists d, bs = enc_dinsn be d /\ sem caf daf d = MInsn i /\ dinsn_ok d.
Proof.
  intros Hwf Hdaf H.
  destruct (write_insn_spec dbg be caf daf i Hwf Hdaf) as [(d & E & Hs & Hok & _)|[E _]]; [|congruence].
  exists d. split; [congruence|]. split; assumption.
Qed.

Lemma write_insn_decodes dbg be (caf : N) (daf : Z) (i : cfi) bs :
  cfi_wf i = true -> is_i8 daf = true -> write_insn dbg daf i = Ok bs ->
  bs <> [] /\
  exists d, (forall rest, decode1 be (bs ++ rest) = Some (d, rest)) /\ sem caf daf d = MInsn i.
Proof.
  intros Hwf Hdaf H. destruct (write_insn_enc dbg be caf daf i bs Hwf Hdaf H) as (d & -> & Hs & Hok).
  split; [apply enc_dinsn_nonempty|]. exists d. split; [intros rest; apply decode1_enc; exact Hok|exact Hs].
Qed.

Lemma decode_fuel_mono be : forall f f' bs ds,
  decode_fuel f be bs = Some ds -> (f <= f')%nat -> decode_fuel f' be bs = Some ds.
Proof.
  induction f as [|f IH]; intros f' bs ds H Hle.
  - destruct bs; cbn [decode_fuel] in H; [|discriminate].
    destruct f'; exact H.
  - destruct f' as [|f']; [lia|].
    destruct bs as [|b r]; [exact H|].
    cbn [decode_fuel] in *.
    destruct (decode1 be (b :: r)) as [[d r1]|]; [|discriminate].
    destruct (decode_fuel f be r1) as [ds1|] eqn:E; [|discriminate].
    rewrite (IH f' r1 ds1 E) by lia. exact H.
Qed.

Lemma decode_all_nil be : decode_all be [] = Some [].
Proof. reflexivity. Qed.

Lemma decode_all_cons be (a b : list byte) d ds :
  a <> [] -> (forall rest, decode1 be (a ++ rest) = Some (d, rest)) ->
  decode_all be b = Some ds -> decode_all be (a ++ b) = Some (d :: ds).
Proof.
  intros Hne Ha Hb. unfold decode_all in *.
  destruct a as [|x a']; [congruence|].
  cbn [app length]. rewrite app_length. cbn [decode_fuel].
  change (x :: a' ++ b) with ((x :: a') ++ b). rewrite Ha.
  rewrite (decode_fuel_mono be (length b) (length a' + length b) b ds Hb) by lia.
  reflexivity.
Qed.

(* the form of the decoding lemmas that composes: what follows an instruction area is decoded after it *)
Definition decodes_to (be : bool) (bs : list byte) (ds : list dinsn) : Prop :=
  forall rest ds', decode_all be rest = Some ds' -> decode_all be (bs ++ rest) = Some (ds ++ ds').

Lemma decodes_to_nil be : decodes_to be [] [].
Proof. intros rest ds' H. exact H. Qed.

Lemma decodes_to_cons be a d b ds :
  a <> [] -> (forall rest, decode1 be (a ++ rest) = Some (d, rest)) ->
  decodes_to be b ds -> decodes_to be (a ++ b) (d :: ds).
Proof.
  intros Hne Ha Hb rest ds' Hr. rewrite <- app_assoc. cbn [app].
  apply decode_all_cons; [exact Hne|exact Ha|]. apply Hb. exact Hr.
Qed.

Lemma decodes_to_all be bs ds : decodes_to be bs ds -> decode_all be bs = Some ds.
Proof. intros H. specialize (H [] [] eq_refl). now rewrite !app_nil_r in H. Qed.

Lemma write_insns_decodes dbg be (caf : N) (daf : Z) : forall (l : list cfi) bs,
  forallb cfi_wf l = true -> is_i8 daf = true ->
  write_insns dbg daf l = Ok bs ->
  exists ds, decodes_to be bs ds /\ map (sem caf daf) ds = map MInsn l.
Proof.
  induction l as [|i r IH]; intros bs Hwf Hdaf H.
  - cbn [write_insns] in H. injection H as <-. exists []. split; [apply decodes_to_nil|reflexivity].
  - cbn [write_insns] in H. cbn [forallb] in Hwf. apply andb_true_iff in Hwf. destruct Hwf as [Hi Hr].
    destruct (write_insn dbg daf i) as [a| | |] eqn:Ea; try discriminate. cbn [bind] in H.
    destruct (write_insns dbg daf r) as [b| | |] eqn:Eb; try discriminate. cbn [bind] in H.
    injection H as <-.
    destruct (write_insn_decodes dbg be caf daf i a Hi Hdaf Ea) as (Hne & d & Hd & Hs).
    destruct (IH b Hr Hdaf eq_refl) as (ds & Hds & Hm).
    exists (d :: ds). split.
    + apply decodes_to_cons; assumption.
    + cbn [map]. now rewrite Hs, Hm.
Qed.

Definition fde_insn_wf (p : N * cfi) : bool := is_u32 (fst p) && cfi_wf (snd p).

Lemma write_fde_insns_decodes dbg be (caf : N) (daf : Z) : forall (l : list (N * cfi)) prev bs,
  forallb fde_insn_wf l = true -> is_u8 caf = true -> is_i8 daf = true -> is_u32 prev = true ->
  write_fde_insns dbg be caf daf prev l = Ok bs ->
  exists ds, decodes_to be bs ds /\ locate prev (map (sem caf daf) ds) = l.
Proof.
  induction l as [|[off i] r IH]; intros prev bs Hwf Hcaf Hdaf Hprev H.
  - cbn [write_fde_insns] in H. injection H as <-. exists []. split; [apply decodes_to_nil|reflexivity].
  - cbn [write_fde_insns] in H. cbn [forallb] in Hwf. apply andb_true_iff in Hwf. destruct Hwf as [Hi Hr].
    unfold fde_insn_wf in Hi. cbn [fst snd] in Hi. apply andb_true_iff in Hi. destruct Hi as [Hoff Hi].
    destruct (write_advance_loc dbg be caf prev off) as [a| | |] eqn:Ea; try discriminate. cbn [bind] in H.
    destruct (write_insn dbg daf i) as [b| | |] eqn:Eb; try discriminate. cbn [bind] in H.
    destruct (write_fde_insns dbg be caf daf off r) as [c| | |] eqn:Ec; try discriminate. cbn [bind] in H.
    injection H as <-.
    destruct (write_insn_decodes dbg be caf daf i b Hi Hdaf Eb) as (Hne & d & Hd & Hs).
    destruct (IH off c Hr Hcaf Hdaf Hoff Ec) as (ds & Hds & Hm).
    destruct (write_advance_loc_ok dbg be caf prev off a Hcaf Hprev Hoff Ea)
      as [[-> ->]|(delta & Hlt & Hmul & Hdl & ->)].
    + exists (d :: ds). split.
      * cbn [app]. apply decodes_to_cons; assumption.
      * cbn [map locate]. rewrite Hs. cbn [locate]. now rewrite Hm.
    + exists (DAdvance delta :: d :: ds). split.
      * apply decodes_to_cons; [apply adv_enc_nonempty| |].
        -- intros rest. apply decode1_adv_enc. exact Hdl.
        -- apply decodes_to_cons; assumption.
      * cbn [map sem locate]. rewrite Hs. cbn [locate].
        replace (prev + delta * caf) with off by lia. now rewrite Hm.
Qed.

Lemma all_nop_decodes be : forall pad, all_nop pad = true ->
  decode_all be pad = Some (repeat DNop (length pad)).
Proof.
  induction pad as [|b r IH]; intros H; [reflexivity|].
  cbn [all_nop forallb] in H. apply andb_true_iff in H. destruct H as [Hb Hr].
  assert (b = x00). { apply b2n_inj. change (b2n x00) with 0. lia. } subst b.
  change (x00 :: r) with ([x00] ++ r). cbn [length repeat].
  apply decode_all_cons; [discriminate|intros rest; apply decode1_x00|]. apply IH. exact Hr.
Qed.

Lemma locate_nops caf daf loc ms n :
  locate loc (ms ++ map (sem caf daf) (repeat DNop n)) = locate loc ms.
Proof.
  revert loc. induction ms as [|m r IH]; intros loc.
  - cbn [app]. induction n as [|n IHn]; [reflexivity|]. cbn [repeat map sem locate]. exact IHn.
  - destruct m; cbn [app locate]; rewrite IH; reflexivity.
Qed.
Definition asz_ok (a : N) : Prop := a = 1 \/ a = 2 \/ a = 4 \/ a = 8.

Lemma asz_ok_dec a : ((a =? 1) || (a =? 2) || (a =? 4) || (a =? 8)) = true <-> asz_ok a.
Proof. unfold asz_ok. lia. Qed.

Lemma asz_divides_two64 a : asz_ok a -> a <> 0 /\ (a | two64).
Proof.
  intros H. assert (Ha : a <> 0) by (destruct H as [->|[->|[->| ->]]]; discriminate).
  split; [exact Ha|]. apply N.mod_divide; [exact Ha|]. destruct H as [->|[->|[->| ->]]]; reflexivity.
Qed.

Lemma land_asz_mask x a : asz_ok a -> N.land x (a - 1) = x mod a.
Proof.
  intros [->|[->|[->| ->]]];
    [exact (N.land_ones x 0)|exact (N.land_ones x 1)|exact (N.land_ones x 2)|exact (N.land_ones x 3)].
Qed.

(* reducing modulo M and then modulo a divisor of M is reducing modulo the divisor *)
Lemma mod_mod_divide (x M a : N) : a <> 0 -> (a | M) -> M <> 0 -> x mod M mod a = x mod a.
Proof.
  intros Ha [c ->] HM. assert (c <> 0) by (intros ->; apply HM; reflexivity).
  rewrite (N.mul_comm c a), N.mod_mul_r by assumption.
  now rewrite (N.mul_comm a), N.mod_add, N.mod_mod.
Qed.

(* the two's complement negation of L, reduced to a divisor of the word, pads L to a multiple of it *)
Lemma neg_mod_pads (M a L : N) : a <> 0 -> (a | M) -> M <> 0 -> (L + (M - L mod M) mod M mod a) mod a = 0.
Proof.
  intros Ha Hd HM. rewrite mod_mod_divide, N.add_mod_idemp_r by assumption.
  destruct Hd as [c Hc].
  pose proof (N.div_mod L M HM) as E. pose proof (N.mod_lt L M HM) as Hlt.
  replace (L + (M - L mod M)) with ((L / M + 1) * c * a); [apply N.mod_mul; exact Ha|].
  rewrite <- N.mul_assoc, <- Hc. lia.
Qed.

Lemma write_nop_unsupported dbg L a : ~ asz_ok a -> write_nop dbg L a = Err WUnsupportedWordSize.
Proof.
  intros H. unfold write_nop. destruct ((a =? 1) || (a =? 2) || (a =? 4) || (a =? 8)) eqn:E; [|reflexivity].
  apply asz_ok_dec in E. contradiction.
Qed.

Lemma all_nop_repeat n : all_nop (repeat x00 n) = true.
Proof. induction n as [|n IH]; [reflexivity|]. cbn [repeat all_nop forallb]. exact IH. Qed.

Lemma write_nop_spec dbg L a pad :
  write_nop dbg L a = Ok pad ->
  asz_ok a /\ all_nop pad = true /\ len pad < a /\ (L + len pad) mod a = 0.
Proof.
  unfold write_nop. intros H.
  destruct ((a =? 1) || (a =? 2) || (a =? 4) || (a =? 8)) eqn:E; cbn [negb] in H; [|discriminate].
  apply asz_ok_dec in E. destruct (asz_divides_two64 a E) as [Ha Hd].
  destruct (dbg && (L =? 0)); [discriminate|]. injection H as <-.
  rewrite (land_asz_mask _ a E). unfold wrap64, len. rewrite repeat_length, N2Nat.id.
  split; [exact E|]. split; [apply all_nop_repeat|].
  split; [apply N.mod_lt; exact Ha|apply neg_mod_pads; [exact Ha|exact Hd|discriminate]].
Qed.

Lemma write_udata_inv be v size bs :
  write_udata be v size = Ok bs ->
  asz_ok size /\ bs = enc_un (N.to_nat size) be v /\ (v < two64 -> v < 2 ^ (8 * size)).
Proof.
  unfold write_udata, asz_ok, two16, two32, two64. intros H.
  destruct (size =? 1) eqn:E1; [|destruct (size =? 2) eqn:E2; [|destruct (size =? 4) eqn:E4;
    [|destruct (size =? 8) eqn:E8; [|discriminate]]]];
    match goal with E : (size =? _) = true |- _ => apply N.eqb_eq in E; subst size end;
    [destruct (v <? 256) eqn:Ev|destruct (v <? 65536) eqn:Ev|destruct (v <? 4294967296) eqn:Ev|];
    try discriminate; injection H as <-; (split; [auto|split; [reflexivity|]]).
  - change (2 ^ (8 * 1)) with 256. lia.
  - change (2 ^ (8 * 2)) with 65536. lia.
  - change (2 ^ (8 * 4)) with 4294967296. lia.
  - trivial.
Qed.

Lemma write_udata_length be v size bs : write_udata be v size = Ok bs -> len bs = size.
Proof.
  intros H. destruct (write_udata_inv be v size bs H) as (_ & -> & _).
  unfold len. rewrite enc_un_length. apply N2Nat.id.
Qed.

Lemma write_initial_length_len fmt64 be l il :
  write_initial_length fmt64 be l = Ok il -> len il = ilen_size fmt64.
Proof.
  unfold write_initial_length.
  destruct (negb fmt64 && (4294967280 <=? l) && (l <=? 4294967295)); [discriminate|].
  destruct (write_udata be l (word_size fmt64)) as [body| | |] eqn:E; try discriminate.
  cbn [bind]. intros H; injection H as <-.
  apply write_udata_length in E. unfold len in *. rewrite app_length.
  destruct fmt64; cbn [word_size ilen_size] in *.
  - rewrite enc_un_length. lia.
  - cbn [length]. lia.
Qed.

Lemma len_app a b : len (a ++ b) = len a + len b.
Proof. unfold len. rewrite app_length. lia. Qed.

(* an entry is closed only for an address size of 1, 2, 4 or 8: the body is padded with nops to a multiple
   of it, counted from the start of the length field, and the length field holds the size of the rest *)
Lemma close_entry_parts dbg be fmt64 asize body bs :
  close_entry dbg be fmt64 asize body = Ok bs ->
  asz_ok asize /\
  exists il pad,
    bs = il ++ body ++ pad /\
    write_initial_length fmt64 be (len (body ++ pad)) = Ok il /\ len il = ilen_size fmt64 /\
    all_nop pad = true /\ len pad < asize /\
    (ilen_size fmt64 + len (body ++ pad)) mod asize = 0.
Proof.
  unfold close_entry. intros H.
  apply bind_ok in H. destruct H as (pad & Hpad & H).
  apply bind_ok in H. destruct H as (il & Hil & H). injection H as <-.
  destruct (write_nop_spec dbg _ asize pad Hpad) as (Ha & H1 & H2 & H3).
  split; [exact Ha|]. exists il, pad. split; [reflexivity|]. split; [exact Hil|].
  split; [eapply write_initial_length_len; exact Hil|]. split; [exact H1|]. split; [exact H2|].
  rewrite len_app, N.add_assoc. exact H3.
Qed.

Lemma cie_write_parts dbg be eh pos (c : cie) bs :
  cie_write dbg be eh pos c = Ok bs ->
  asz_ok (c_asize c) /\
  exists il hdr insns pad,
    bs = il ++ hdr ++ insns ++ pad /\
    write_initial_length (c_fmt64 c) be (len (hdr ++ insns ++ pad)) = Ok il /\
    len il = ilen_size (c_fmt64 c) /\
    write_insns dbg (c_daf c) (c_insns c) = Ok insns /\
    all_nop pad = true /\ len pad < c_asize c /\
    (ilen_size (c_fmt64 c) + len (hdr ++ insns ++ pad)) mod c_asize c = 0.
Proof.
  intros H. unfold cie_write in H.
  destruct (if eh then negb (c_version c =? 1)
            else negb ((c_version c =? 1) || (c_version c =? 3) || (c_version c =? 4))); [discriminate|].
  apply bind_ok in H. destruct H as (cafb & _ & H).
  apply bind_ok in H. destruct H as (dafb & _ & H).
  apply bind_ok in H. destruct H as (rab & _ & H).
  apply bind_ok in H. destruct H as (augdata & _ & H).
  apply bind_ok in H. destruct H as (insns & Hins & H).
  apply close_entry_parts in H.
  destruct H as (Ha & il & pad & Hbs & Hil & Hlen & Hnop & Hpad & Hmod). split; [exact Ha|].
  match type of Hbs with _ = il ++ ((?P ++ augdata ++ insns) ++ pad) =>
    exists il, (P ++ augdata), insns, pad end.
  rewrite <- !app_assoc in *.
  repeat split; assumption.
Qed.

Lemma cie_write_ok_asz dbg be eh pos c bs : cie_write dbg be eh pos c = Ok bs -> asz_ok (c_asize c).
Proof. intros H. exact (proj1 (cie_write_parts _ _ _ _ _ _ H)). Qed.

(* the FDE's LSDA is present exactly when the CIE has an encoding for it (otherwise InvalidAddress) *)
Definition lsda_ok (c : cie) (f : fde) : bool :=
  Bool.eqb (is_some (f_lsda f)) (is_some (c_lsda_enc c)).

Lemma fde_write_parts dbg be eh pos coff (c : cie) (f : fde) bs :
  fde_write dbg be eh pos coff c f = Ok bs ->
  asz_ok (c_asize c) /\ lsda_ok c f = true /\
  exists il hdr insns pad,
    bs = il ++ hdr ++ insns ++ pad /\
    write_initial_length (c_fmt64 c) be (len (hdr ++ insns ++ pad)) = Ok il /\
    len il = ilen_size (c_fmt64 c) /\
    write_fde_insns dbg be (c_caf c) (c_daf c) 0 (f_insns f) = Ok insns /\
    all_nop pad = true /\ len pad < c_asize c /\
    (ilen_size (c_fmt64 c) + len (hdr ++ insns ++ pad)) mod c_asize c = 0.
Proof.
  intros H. unfold fde_write in H. fold (lsda_ok c f) in H.
  apply bind_ok in H. destruct H as (ptr & _ & H).
  apply bind_ok in H. destruct H as (addrs & _ & H).
  destruct (lsda_ok c f); cbn [negb] in H; [|discriminate].
  apply bind_ok in H. destruct H as (augdata & _ & H).
  apply bind_ok in H. destruct H as (insns & Hins & H).
  apply close_entry_parts in H.
  destruct H as (Ha & il & pad & Hbs & Hil & Hlen & Hnop & Hpad & Hmod).
  split; [exact Ha|]. split; [reflexivity|].
  exists il, (ptr ++ addrs ++ augdata), insns, pad.
  rewrite <- !app_assoc in *.
  repeat split; assumption.
Qed.

Lemma fde_write_ok_asz dbg be eh pos coff c f bs : fde_write dbg be eh pos coff c f = Ok bs -> asz_ok (c_asize c).
Proof. intros H. exact (proj1 (fde_write_parts _ _ _ _ _ _ _ _ H)). Qed.

Lemma bytes_eq_iff a b : bytes_eq a b = true <-> a = b.
Proof.
  unfold bytes_eq, bytes_eqb. destruct (list_eq_dec Byte.byte_eq_dec a b); split; intros; congruence.
Qed.

Lemma cfi_eqb_iff a b : cfi_eqb a b = true <-> a = b.
Proof.
  split.
  - destruct a, b; cbn [cfi_eqb]; intros H; try discriminate; try reflexivity;
      repeat match goal with Hx : _ && _ = true |- _ => apply andb_true_iff in Hx; destruct Hx end;
      repeat match goal with
             | Hx : (_ =? _) = true |- _ => apply N.eqb_eq in Hx
             | Hx : (_ =? _)%Z = true |- _ => apply Z.eqb_eq in Hx
             | Hx : bytes_eq _ _ = true |- _ => apply bytes_eq_iff in Hx
             end; subst; reflexivity.
  - intros <-. destruct a; cbn [cfi_eqb]; try reflexivity;
      repeat (apply andb_true_iff; split);
      try apply N.eqb_refl; try apply Z.eqb_refl; try (apply bytes_eq_iff; reflexivity).
Qed.

Lemma cfis_eqb_iff : forall a b, cfis_eqb a b = true <-> a = b.
Proof.
  induction a as [|x r IH]; intros [|y s]; cbn [cfis_eqb]; split; intros H; try discriminate; try reflexivity.
  - apply andb_true_iff in H. destruct H as [H1 H2]. apply cfi_eqb_iff in H1. apply IH in H2. congruence.
  - injection H as -> ->. apply andb_true_iff. split; [apply cfi_eqb_iff|apply IH]; reflexivity.
Qed.

Lemma addr_eqb_iff a b : addr_eqb a b = true <-> a = b.
Proof.
  split.
  - destruct a, b; cbn [addr_eqb]; intros H; try discriminate.
    + apply N.eqb_eq in H. congruence.
    + apply andb_true_iff in H. destruct H as [H1 H2]. apply N.eqb_eq in H1. apply Z.eqb_eq in H2. congruence.
  - intros <-. destruct a; cbn [addr_eqb]; [apply N.eqb_refl|].
    apply andb_true_iff. split; [apply N.eqb_refl|apply Z.eqb_refl].
Qed.

Lemma opt_eqb_iff {A} (eqb : A -> A -> bool) :
  (forall x y, eqb x y = true <-> x = y) -> forall a b, opt_eqb eqb a b = true <-> a = b.
Proof.
  intros He [x|] [y|]; cbn [opt_eqb]; split; intros H; try discriminate; try reflexivity.
  - apply He in H. congruence.
  - injection H as ->. apply He. reflexivity.
Qed.

Lemma pers_eqb_iff (p q : N * addr) : ((fst p =? fst q) && addr_eqb (snd p) (snd q)) = true <-> p = q.
Proof.
  destruct p as [e a], q as [e' a']; cbn [fst snd]. rewrite andb_true_iff, N.eqb_eq, addr_eqb_iff.
  split; [intros [-> ->]; reflexivity|intros H; injection H as -> ->; auto].
Qed.

Lemma bool_eqb_iff a b : Bool.eqb a b = true <-> a = b.
Proof. apply Bool.eqb_true_iff. Qed.

Lemma cie_eqb_iff a b : cie_eqb a b = true <-> a = b.
Proof.
  destruct a as [f1 v1 s1 c1 d1 r1 p1 l1 e1 g1 i1], b as [f2 v2 s2 c2 d2 r2 p2 l2 e2 g2 i2].
  unfold cie_eqb. cbn [c_fmt64 c_version c_asize c_caf c_daf c_ra c_pers c_lsda_enc c_fde_enc c_sig c_insns].
  rewrite !andb_true_iff, !Bool.eqb_true_iff, !N.eqb_eq, Z.eqb_eq, cfis_eqb_iff.
  rewrite (opt_eqb_iff _ pers_eqb_iff), (opt_eqb_iff N.eqb N.eqb_eq).
  split.
  - intros H. decompose [and] H. subst. reflexivity.
  - intros H. injection H as -> -> -> -> -> -> -> -> -> -> ->. repeat split.
Qed.

Lemma find_cie_some c : forall l i k, find_cie c l i = Some k ->
  exists j, k = (i + j)%nat /\ nth_error l j = Some c.
Proof.
  induction l as [|x r IH]; intros i k H; cbn [find_cie] in H; [discriminate|].
  destruct (cie_eqb x c) eqn:E.
  - injection H as <-. apply cie_eqb_iff in E. subst x. exists O. split; [lia|reflexivity].
  - destruct (IH _ _ H) as (j & -> & Hj). exists (S j). split; [lia|exact Hj].
Qed.

Lemma find_cie_none c : forall l i, find_cie c l i = None -> ~ In c l.
Proof.
  induction l as [|x r IH]; intros i H; cbn [find_cie] in H; [intros []|].
  destruct (cie_eqb x c) eqn:E; [discriminate|].
  intros [->|Hin]; [|exact (IH _ H Hin)].
  assert (cie_eqb c c = true) by (apply cie_eqb_iff; reflexivity). congruence.
Qed.

Lemma add_cie_spec t c t' id :
  NoDup (t_cies t) -> add_cie t c = (t', id) ->
  NoDup (t_cies t') /\ nth_error (t_cies t') id = Some c /\
  (exists ext, t_cies t' = t_cies t ++ ext) /\ t_fdes t' = t_fdes t.
Proof.
  intros Hnd H. unfold add_cie in H.
  destruct (find_cie c (t_cies t) 0) as [i|] eqn:E.
  - injection H as <- <-. destruct (find_cie_some c _ _ _ E) as (j & -> & Hj).
    split; [exact Hnd|]. split; [exact Hj|]. split; [exists []; now rewrite app_nil_r|reflexivity].
  - injection H as <- <-. cbn [t_cies t_fdes]. apply find_cie_none in E.
    split.
    + apply NoDup_snoc; assumption.
    + split.
      * rewrite nth_error_app2 by lia. rewrite Nat.sub_diag. reflexivity.
      * split; [exists [c]; reflexivity|reflexivity].
Qed.
Fixpoint cies_of (ops : list bop) : list cie :=
  match ops with
  | [] => []
  | BAddCie c :: r => c :: cies_of r
  | BAddFde _ _ :: r => cies_of r
  end.


Lemma Forall2_weaken {A B} (R S : A -> B -> Prop) l1 l2 :
  (forall a b, R a b -> S a b) -> Forall2 R l1 l2 -> Forall2 S l1 l2.
Proof. intros HI H. induction H; constructor; auto. Qed.

Lemma build_ids dbg : forall ops t ids t' ids' (cs0 : list cie),
  NoDup (t_cies t) -> Forall2 (fun c id => nth_error (t_cies t) id = Some c) cs0 ids ->
  build dbg t ids ops = Ok (t', ids') ->
  NoDup (t_cies t') /\ Forall2 (fun c id => nth_error (t_cies t') id = Some c) (cs0 ++ cies_of ops) ids'.
Proof.
  induction ops as [|op r IH]; intros t ids t' ids' cs0 Hnd Hf H.
  - cbn [build] in H. injection H as <- <-. cbn [cies_of]. rewrite app_nil_r. auto.
  - destruct op as [c|k f]; cbn [build cies_of] in H |- *.
    + destruct (add_cie t c) as [t1 id] eqn:Ea.
      destruct (add_cie_spec t c t1 id Hnd Ea) as (Hnd1 & Hid & (ext & Hext) & _).
      replace (cs0 ++ c :: cies_of r) with ((cs0 ++ [c]) ++ cies_of r) by (rewrite <- app_assoc; reflexivity).
      apply (IH t1 (ids ++ [id]) t' ids' (cs0 ++ [c]) Hnd1); [|exact H].
      apply Forall2_app; [|constructor; [exact Hid|constructor]].
      eapply Forall2_weaken; [|exact Hf]. intros a b Hab. cbn beta in *.
      rewrite Hext, nth_error_app1; [exact Hab|]. apply nth_error_Some. congruence.
    + destruct (nth_error ids k) as [id|]; [|discriminate].
      destruct (fde_add_instructions dbg _ (f_insns f)) as [f'| | |]; try discriminate.
      cbn [bind] in H. apply (IH (add_fde t id f') ids t' ids' cs0); [exact Hnd|exact Hf|exact H].
Qed.


Fixpoint lookup (idx : nat) (pl : list (nat * N)) : option N :=
  match pl with
  | [] => None
  | (i, o) :: r => if Nat.eqb idx i then Some o else lookup idx r
  end.

Section Tiled.
  Variables (dbg be eh : bool) (cies : list cie) (fdes : list (nat * fde)).
  (* chunks laid out from section offset pos; placed = the CIE tiles laid out so far with their offsets.
     A CIE tile is that CIE written at its own offset; an FDE tile is that FDE written at its own offset
     with the offset of its CIE's tile as CIE pointer. *)
  Fixpoint well_tiled (pos : N) (placed : list (nat * N)) (chunks : list (item * list byte)) : Prop :=
    match chunks with
    | [] => True
    | (ICie idx, b) :: r =>
        (exists c, nth_error cies idx = Some c /\ cie_write dbg be eh pos c = Ok b)
        /\ well_tiled (pos + len b) ((idx, pos) :: placed) r
    | (IFde k, b) :: r =>
        (exists idx f c coff, nth_error fdes k = Some (idx, f) /\ nth_error cies idx = Some c /\
                              lookup idx placed = Some coff /\ fde_write dbg be eh pos coff c f = Ok b)
        /\ well_tiled (pos + len b) placed r
    end.
End Tiled.

Lemma lookup_existsb idx placed :
  existsb (Nat.eqb idx) (map fst placed) = is_some (lookup idx placed).
Proof.
  induction placed as [|[i o] r IH]; [reflexivity|].
  cbn [map fst existsb lookup]. destruct (Nat.eqb idx i); [reflexivity|exact IH].
Qed.

Lemma nth_error_set_nth {A} : forall (l : list A) n x j,
  (n < length l)%nat ->
  nth_error (set_nth l n x) j = if Nat.eqb j n then Some x else nth_error l j.
Proof.
  induction l as [|y r IH]; intros n x j Hn; [cbn in Hn; lia|].
  destruct n as [|n]; destruct j as [|j]; cbn [set_nth nth_error Nat.eqb]; try reflexivity.
  apply IH. cbn [length] in Hn. lia.
Qed.

Lemma set_nth_length {A} : forall (l : list A) n x, length (set_nth l n x) = length l.
Proof.
  induction l as [|y r IH]; intros n x; [reflexivity|].
  destruct n; cbn [set_nth length]; [reflexivity|]. now rewrite IH.
Qed.

Lemma unwrap_ok {A} (o : option A) a : unwrap o = Ok a -> o = Some a.
Proof. destruct o; cbn; intros H; [injection H as ->; reflexivity|discriminate]. Qed.

Lemma write_fdes_tiled dbg be eh cies full : forall fdes pre offs pos placed bs,
  full = pre ++ fdes ->
  length offs = length cies ->
  (forall idx, (idx < length cies)%nat -> nth_error offs idx = Some (lookup idx placed)) ->
  write_fdes dbg be eh cies offs pos fdes = Ok bs ->
  exists chunks,
    map fst chunks = plan (map fst placed) (length pre) (map fst fdes) /\
    bs = concat (map snd chunks) /\
    well_tiled dbg be eh cies full pos placed chunks.
Proof.
  induction fdes as [|[idx f] rest IH]; intros pre offs pos placed bs Hfull Hlen Hoffs H.
  - cbn [write_fdes] in H. injection H as <-. exists []. repeat split.
  - cbn [write_fdes] in H.
    apply bind_ok in H. destruct H as (c & Hc & H). apply unwrap_ok in Hc.
    assert (Hidx : (idx < length cies)%nat) by (apply nth_error_Some; congruence).
    apply bind_ok in H. destruct H as (slot & Hslot & H). apply unwrap_ok in Hslot.
    rewrite (Hoffs idx Hidx) in Hslot. injection Hslot as Hslot.
    assert (Hk : nth_error full (length pre) = Some (idx, f)).
    { rewrite Hfull, nth_error_app2 by lia. rewrite Nat.sub_diag. reflexivity. }
    assert (Hfull' : full = (pre ++ [(idx, f)]) ++ rest) by (rewrite <- app_assoc; exact Hfull).
    assert (Hpre' : length (pre ++ [(idx, f)]) = S (length pre)) by (rewrite app_length; cbn [length]; lia).
    destruct slot as [off|].
    + (* CIE already written *)
      cbn [bind] in H. change (len []) with 0 in H. rewrite N.add_0_r in H.
      apply bind_ok in H. destruct H as (fb & Hfb & H).
      apply bind_ok in H. destruct H as (r & Hr & H). injection H as <-.
      destruct (IH (pre ++ [(idx, f)]) offs (pos + len fb) placed r Hfull' Hlen Hoffs Hr)
        as (chunks & Hplan & Hbs & Htiled).
      exists ((IFde (length pre), fb) :: chunks). split; [|split].
      * cbn [map fst plan]. rewrite lookup_existsb, Hslot. cbn [is_some].
        rewrite Hplan, Hpre'. reflexivity.
      * cbn [map snd concat app]. now rewrite Hbs.
      * cbn [well_tiled]. split; [|exact Htiled].
        exists idx, f, c, off. auto.
    + (* first reference: the CIE is written here *)
      apply bind_ok in H. destruct H as ([[cb coff] offs'] & Hcb & H).
      apply bind_ok in Hcb. destruct Hcb as (cb' & Hcie & Hcb). injection Hcb as <- <- <-.
      apply bind_ok in H. destruct H as (fb & Hfb & H).
      apply bind_ok in H. destruct H as (r & Hr & H). injection H as <-.
      assert (Hlen' : length (set_nth offs idx (Some pos)) = length cies) by (now rewrite set_nth_length).
      assert (Hoffs' : forall j, (j < length cies)%nat ->
                nth_error (set_nth offs idx (Some pos)) j = Some (lookup j ((idx, pos) :: placed))).
      { intros j Hj. rewrite nth_error_set_nth by lia. cbn [lookup].
        destruct (Nat.eqb j idx); [reflexivity|]. apply Hoffs. exact Hj. }
      destruct (IH (pre ++ [(idx, f)]) _ (pos + len cb' + len fb) ((idx, pos) :: placed) r Hfull' Hlen' Hoffs' Hr)
        as (chunks & Hplan & Hbs & Htiled).
      exists ((ICie idx, cb') :: (IFde (length pre), fb) :: chunks). split; [|split].
      * cbn [map fst plan]. rewrite lookup_existsb, Hslot. cbn [is_some].
        cbn [map fst] in Hplan. rewrite Hplan, Hpre'. reflexivity.
      * cbn [map snd concat]. now rewrite Hbs.
      * cbn [well_tiled]. split; [exists c; auto|]. split; [|exact Htiled].
        exists idx, f, c, pos. cbn [lookup]. rewrite Nat.eqb_refl. auto.
Qed.

Lemma nth_error_repeat_lt {A} (x : A) n i : (i < n)%nat -> nth_error (repeat x n) i = Some x.
Proof.
  revert i. induction n as [|n IH]; intros i Hi; [lia|].
  destruct i; cbn [repeat nth_error]; [reflexivity|]. apply IH. lia.
Qed.

Lemma write_table_tiled dbg be eh pos t bs :
  write_table dbg be eh pos t = Ok bs ->
  exists chunks,
    map fst chunks = plan [] 0 (map fst (t_fdes t)) /\
    bs = concat (map snd chunks) /\
    well_tiled dbg be eh (t_cies t) (t_fdes t) pos [] chunks.
Proof.
  intros H. unfold write_table in H.
  apply (write_fdes_tiled dbg be eh (t_cies t) (t_fdes t) (t_fdes t) []
           (repeat None (length (t_cies t))) pos [] bs).
  - reflexivity.
  - apply repeat_length.
  - intros idx Hidx. cbn [lookup]. apply nth_error_repeat_lt. exact Hidx.
  - exact H.
Qed.

Fixpoint cie_items (l : list item) : list nat :=
  match l with [] => [] | ICie i :: r => i :: cie_items r | IFde _ :: r => cie_items r end.
Fixpoint fde_items (l : list item) : list nat :=
  match l with [] => [] | ICie _ :: r => fde_items r | IFde k :: r => k :: fde_items r end.

Lemma existsb_eqb_in idx seen : existsb (Nat.eqb idx) seen = true <-> In idx seen.
Proof.
  rewrite existsb_exists. split.
  - intros (x & Hx & He). apply Nat.eqb_eq in He. now subst.
  - intros H. exists idx. split; [exact H|apply Nat.eqb_refl].
Qed.

Lemma plan_fdes : forall refs seen k, fde_items (plan seen k refs) = seq k (length refs).
Proof.
  induction refs as [|idx r IH]; intros seen k; [reflexivity|].
  cbn [plan length seq]. destruct (existsb (Nat.eqb idx) seen); cbn [fde_items]; now rewrite IH.
Qed.

Lemma plan_cies : forall refs seen k,
  NoDup (cie_items (plan seen k refs)) /\
  (forall idx, In idx (cie_items (plan seen k refs)) <-> (In idx refs /\ ~ In idx seen)).
Proof.
  induction refs as [|idx r IH]; intros seen k.
  - cbn [plan cie_items]. split; [constructor|]. intros i. cbn [In]. tauto.
  - cbn [plan].
    destruct (existsb (Nat.eqb idx) seen) eqn:E.
    + destruct (IH seen (S k)) as [Hnd Hin].
      apply existsb_eqb_in in E. cbn [cie_items]. split; [exact Hnd|].
      intros i. rewrite Hin. cbn [In]. split.
      * intros [H1 H2]. tauto.
      * intros [[->|H1] H2]; [contradiction|]. tauto.
    + destruct (IH (idx :: seen) (S k)) as [Hnd Hin].
      assert (Hn : ~ In idx seen). { rewrite <- existsb_eqb_in. congruence. }
      cbn [cie_items]. split.
      * constructor; [|exact Hnd]. rewrite Hin. cbn [In]. tauto.
      * intros i. cbn [In]. rewrite Hin. cbn [In]. split.
        -- intros [<-|[H1 H2]]; [tauto|]. split; [tauto|]. intros H3. apply H2. right. exact H3.
        -- intros [[->|H1] H2]; [left; reflexivity|].
           destruct (Nat.eq_dec idx i) as [->|Hne]; [left; reflexivity|].
           right. split; [exact H1|]. intros [H3|H3]; contradiction.
Qed.

Lemma in_fde_items_app a j b : In j (fde_items (a ++ IFde j :: b)).
Proof.
  induction a as [|y a IHa]; cbn [app fde_items]; [left; reflexivity|].
  destruct y; cbn [fde_items]; [exact IHa|right; exact IHa].
Qed.

(* every FDE item is preceded by the item of its CIE (or the CIE was emitted before the plan started) *)
Lemma plan_cie_before_fde : forall refs seen k a j b idx,
  plan seen k refs = a ++ IFde j :: b -> nth_error refs (j - k) = Some idx -> (k <= j)%nat ->
  In idx seen \/ In (ICie idx) a.
Proof.
  induction refs as [|i r IH]; intros seen k a j b idx Hp Hn Hkj.
  - cbn [plan] in Hp. destruct a; discriminate.
  - cbn [plan] in Hp.
    destruct (existsb (Nat.eqb i) seen) eqn:E.
    + destruct a as [|x a'].
      * cbn [app] in Hp. injection Hp as <- _. rewrite Nat.sub_diag in Hn. cbn [nth_error] in Hn.
        injection Hn as <-. left. apply existsb_eqb_in. exact E.
      * cbn [app] in Hp. injection Hp as <- Hp.
        assert (Hj : (S k <= j)%nat).
        { pose proof (in_fde_items_app a' j b) as H. rewrite <- Hp, plan_fdes in H. apply in_seq in H. lia. }
        replace (j - k)%nat with (S (j - S k)) in Hn by lia. cbn [nth_error] in Hn.
        destruct (IH seen (S k) a' j b idx Hp Hn Hj) as [H|H]; [left; exact H|right; right; exact H].
    + destruct a as [|x a']; [cbn [app] in Hp; discriminate|].
      cbn [app] in Hp. injection Hp as <- Hp.
      destruct a' as [|y a''].
      * cbn [app] in Hp. injection Hp as <- _. rewrite Nat.sub_diag in Hn. cbn [nth_error] in Hn.
        injection Hn as <-. right. left. reflexivity.
      * cbn [app] in Hp. injection Hp as <- Hp.
        assert (Hj : (S k <= j)%nat).
        { pose proof (in_fde_items_app a'' j b) as H. rewrite <- Hp, plan_fdes in H. apply in_seq in H. lia. }
        replace (j - k)%nat with (S (j - S k)) in Hn by lia. cbn [nth_error] in Hn.
        destruct (IH (i :: seen) (S k) a'' j b idx Hp Hn Hj) as [[<-|H]|H].
        -- right. left. reflexivity.
        -- left. exact H.
        -- right. right. right. exact H.
Qed.
Definition addr_wf (a : addr) : bool :=
  match a with AConst v => v <? 18446744073709551616 | ASym _ _ => true end.

Definition cie_wf (c : cie) : bool :=
  is_u16 (c_version c) && is_u8 (c_asize c) && is_u8 (c_caf c) && is_i8 (c_daf c) && is_u16 (c_ra c)
  && match c_pers c with Some (e, a) => is_u8 e && addr_wf a | None => true end
  && match c_lsda_enc c with Some e => is_u8 e | None => true end
  && is_u8 (c_fde_enc c) && forallb cfi_wf (c_insns c).

Definition fde_wf (f : fde) : bool :=
  addr_wf (f_addr f) && is_u32 (f_len f)
  && match f_lsda f with Some a => addr_wf a | None => true end
  && forallb fde_insn_wf (f_insns f).

Lemma cie_wf_inv c : cie_wf c = true ->
  c_version c < 65536 /\ c_asize c < 256 /\ c_caf c < 256 /\ (-128 <= c_daf c < 128)%Z /\ c_ra c < 65536 /\
  match c_pers c with Some (e, a) => e < 256 /\ addr_wf a = true | None => True end /\
  match c_lsda_enc c with Some e => e < 256 | None => True end /\
  c_fde_enc c < 256 /\ forallb cfi_wf (c_insns c) = true.
Proof.
  unfold cie_wf. rewrite !andb_true_iff, !is_u16_iff, !is_u8_iff, is_i8_iff.
  intros ((((((((Hv & Ha) & Hc) & Hd) & Hr) & Hp) & Hl) & Hf) & Hi).
  repeat (split; [assumption|]). split; [|split; [|split; assumption]].
  - destruct (c_pers c) as [[e a]|]; [|exact I]. now rewrite andb_true_iff, is_u8_iff in Hp.
  - destruct (c_lsda_enc c); [|exact I]. now apply is_u8_iff.
Qed.

Lemma cie_wf_parts c : cie_wf c = true ->
  is_u8 (c_asize c) = true /\ is_u8 (c_caf c) = true /\ is_i8 (c_daf c) = true /\ forallb cfi_wf (c_insns c) = true.
Proof.
  intros H. destruct (cie_wf_inv c H) as (_ & Ha & Hc & Hd & _ & _ & _ & _ & Hi).
  now rewrite !is_u8_iff, is_i8_iff.
Qed.

Lemma fde_wf_parts2 f : fde_wf f = true ->
  addr_wf (f_addr f) = true /\ is_u32 (f_len f) = true /\
  match f_lsda f with Some a => addr_wf a = true | None => True end.
Proof.
  unfold fde_wf. rewrite !andb_true_iff. intros (((Ha & Hl) & Hs) & _).
  split; [exact Ha|]. split; [exact Hl|]. destruct (f_lsda f); [exact Hs|exact I].
Qed.

Lemma fde_wf_parts f : fde_wf f = true -> forallb fde_insn_wf (f_insns f) = true.
Proof. unfold fde_wf. rewrite !andb_true_iff. tauto. Qed.

Lemma write_udata_np be v size : write_udata be v size <> Panic.
Proof.
  unfold write_udata.
  repeat match goal with |- context [if ?c then _ else _] => destruct c end; discriminate.
Qed.
Lemma write_sdata_np be v size : write_sdata be v size <> Panic.
Proof.
  unfold write_sdata.
  repeat match goal with |- context [if ?c then _ else _] => destruct c end; discriminate.
Qed.

Lemma i64_to_i64 x : in_i64 (to_i64 x) = true.
Proof. apply i64_iff. exact (to_i64_range x). Qed.

Lemma write_eh_pointer_data_np be val fmt size :
  val < 2 ^ 64 -> write_eh_pointer_data be val fmt size <> Panic.
Proof.
  intros Hv. unfold write_eh_pointer_data.
  repeat match goal with |- context [if ?c then _ else _] => destruct c end;
    try apply write_udata_np; try apply write_sdata_np; try discriminate.
  - rewrite write_uleb128_min by exact Hv. discriminate.
  - rewrite write_sleb128_min by (apply i64_iff, i64_to_i64). discriminate.
Qed.

(* at most eight bytes of fixed width, at most ten of LEB128 *)
Lemma write_eh_pointer_data_len be val fmt size bs :
  write_eh_pointer_data be val fmt size = Ok bs -> (length bs <= 10)%nat.
Proof.
  assert (U : forall v s, write_udata be v s = Ok bs -> (length bs <= 10)%nat).
  { intros v s H. destruct (write_udata_inv be v s bs H) as ([->|[->|[->| ->]]] & -> & _); rewrite enc_un_length; lia. }
  assert (S : forall s, write_sdata be (to_i64 val) s = Ok bs -> (length bs <= 10)%nat).
  { intros s H. destruct (write_sdata_ok be _ s bs (i64_to_i64 val) H) as (Hs & _ & Hl & _).
    apply size_ok_cases in Hs. lia. }
  unfold write_eh_pointer_data.
  repeat match goal with |- context [if ?c then _ else _] => destruct c end; eauto; try discriminate.
  - apply write_uleb_fuel_len.
  - apply write_sleb_fuel_len.
Qed.

Lemma write_eh_pointer_np be pos a e size : addr_wf a = true -> write_eh_pointer be pos a e size <> Panic.
Proof.
  intros Ha. unfold write_eh_pointer. destruct a as [v|s d]; [|discriminate].
  cbn [addr_wf] in Ha.
  destruct (pe_application e =? 0).
  - cbn [bind]. apply write_eh_pointer_data_np. lia.
  - destruct (pe_application e =? 16); [|discriminate].
    cbn [bind]. apply write_eh_pointer_data_np. apply wrap64_lt.
Qed.

Lemma write_eh_pointer_len be pos a e size bs :
  write_eh_pointer be pos a e size = Ok bs -> (length bs <= 10)%nat.
Proof.
  unfold write_eh_pointer. destruct a as [v|s d]; [|discriminate].
  destruct (pe_application e =? 0).
  - cbn [bind]. apply write_eh_pointer_data_len.
  - destruct (pe_application e =? 16); [|discriminate]. cbn [bind]. apply write_eh_pointer_data_len.
Qed.

Lemma write_address_np be a size : write_address be a size <> Panic.
Proof. destruct a; cbn [write_address]; [apply write_udata_np|discriminate]. Qed.

Lemma write_insn_np dbg daf i : cfi_wf i = true -> is_i8 daf = true -> write_insn dbg daf i <> Panic.
Proof.
  intros Hi Hd. destruct (write_insn_spec dbg false 0 daf i Hi Hd) as [(bs & d & E & _)|[E _]]; congruence.
Qed.

Lemma write_insns_np dbg daf : forall l, forallb cfi_wf l = true -> is_i8 daf = true -> write_insns dbg daf l <> Panic.
Proof.
  induction l as [|i r IH]; intros Hl Hd; cbn [write_insns]; [discriminate|].
  cbn [forallb] in Hl. apply andb_true_iff in Hl. destruct Hl as [Hi Hr].
  apply bind_not_panic; [apply write_insn_np; assumption|]. intros a _.
  apply bind_not_panic; [apply IH; assumption|]. intros b _. discriminate.
Qed.

Lemma write_advance_loc_np dbg be caf prev off :
  is_u8 caf = true -> is_u32 prev = true -> is_u32 off = true -> write_advance_loc dbg be caf prev off <> Panic.
Proof.
  intros _ _ Ho. rewrite (write_advance_loc_eq dbg be caf prev off Ho).
  repeat match goal with |- context [if ?c then _ else _] => destruct c end; discriminate.
Qed.

Lemma write_fde_insns_np dbg be caf daf : forall l prev,
  forallb fde_insn_wf l = true -> is_u8 caf = true -> is_i8 daf = true -> is_u32 prev = true ->
  write_fde_insns dbg be caf daf prev l <> Panic.
Proof.
  induction l as [|[off i] r IH]; intros prev Hl Hc Hd Hp; cbn [write_fde_insns]; [discriminate|].
  cbn [forallb] in Hl. apply andb_true_iff in Hl. destruct Hl as [Hi Hr].
  unfold fde_insn_wf in Hi. cbn [fst snd] in Hi. apply andb_true_iff in Hi. destruct Hi as [Hoff Hi].
  apply bind_not_panic; [apply write_advance_loc_np; assumption|]. intros a _.
  apply bind_not_panic; [apply write_insn_np; assumption|]. intros b _.
  apply bind_not_panic; [apply IH; assumption|]. intros c _. discriminate.
Qed.

Lemma with_aug_len_np dbg be data : (length data < 128)%nat -> with_aug_len dbg be data <> Panic.
Proof.
  intros H. unfold with_aug_len, len.
  destruct (dbg && (128 <=? N.of_nat (length data))) eqn:E; [lia|].
  apply bind_not_panic; [apply write_udata_np|]. intros lb _. discriminate.
Qed.

Lemma write_initial_length_np fmt64 be l : write_initial_length fmt64 be l <> Panic.
Proof.
  unfold write_initial_length.
  destruct (negb fmt64 && (4294967280 <=? l) && (l <=? 4294967295)); [discriminate|].
  apply bind_not_panic; [apply write_udata_np|]. intros b _. discriminate.
Qed.

Lemma write_nop_np dbg L a : 0 < L -> write_nop dbg L a <> Panic.
Proof.
  intros HL. unfold write_nop.
  destruct (negb ((a =? 1) || (a =? 2) || (a =? 4) || (a =? 8))); [discriminate|].
  destruct (dbg && (L =? 0)) eqn:E; [lia|]. discriminate.
Qed.

Lemma close_entry_np dbg be fmt64 asize body :
  close_entry dbg be fmt64 asize body <> Panic.
Proof.
  unfold close_entry.
  apply bind_not_panic.
  - apply write_nop_np. destruct fmt64; cbn [ilen_size]; lia.
  - intros pad _. apply bind_not_panic; [apply write_initial_length_np|]. intros il _. discriminate.
Qed.

Lemma cie_write_np dbg be eh pos c :
  cie_wf c = true -> cie_write dbg be eh pos c <> Panic.
Proof.
  intros Hwf. destruct (cie_wf_inv c Hwf) as (_ & _ & Hcaf & Hdaf & Hra & Hpe & _ & _ & Hinsns).
  unfold cie_write.
  destruct (if eh then negb (c_version c =? 1)
            else negb ((c_version c =? 1) || (c_version c =? 3) || (c_version c =? 4))); [discriminate|].
  rewrite write_uleb128_min, write_sleb128_min by lia. cbn [bind].
  apply bind_not_panic.
  { destruct (c_version c =? 1); [destruct (c_ra c <? 256); discriminate|].
    rewrite write_uleb128_min by lia. discriminate. }
  intros rab _.
  apply bind_not_panic.
  { destruct (has_augmentation c); [|discriminate].
    destruct (c_pers c) as [[e a]|] eqn:Ep.
    - destruct Hpe as [_ Ha]. apply bind_not_panic.
      + apply bind_not_panic; [apply write_eh_pointer_np; exact Ha|]. intros pb _. discriminate.
      + intros p Hpb. apply bind_ok in Hpb. destruct Hpb as (pb & Hpb & Hp'). injection Hp' as <-.
        apply write_eh_pointer_len in Hpb.
        apply with_aug_len_np. rewrite !app_length. cbn [length].
        destruct (c_lsda_enc c); destruct (negb (c_fde_enc c =? 0)); cbn [length]; lia.
    - cbn [bind]. apply with_aug_len_np. rewrite !app_length.
      destruct (c_lsda_enc c); destruct (negb (c_fde_enc c =? 0)); cbn [length]; lia. }
  intros augdata _.
  apply bind_not_panic; [apply write_insns_np; [exact Hinsns|apply is_i8_iff; exact Hdaf]|]. intros insns _.
  apply close_entry_np.
Qed.

Lemma fde_write_np dbg be eh pos coff c f :
  cie_wf c = true -> fde_wf f = true ->
  coff <= pos ->
  fde_write dbg be eh pos coff c f <> Panic.
Proof.
  intros Hwf Hf Hcoff. destruct (cie_wf_parts c Hwf) as (_ & Hcaf & Hdaf & _).
  destruct (fde_wf_parts2 f Hf) as (Hfa & Hflen & Hfl). pose proof (fde_wf_parts f Hf) as Hfi.
  unfold fde_write.
  apply bind_not_panic.
  { destruct eh; [|apply write_udata_np].
    apply bind_not_panic; [|intros d _; apply write_udata_np].
    rewrite chk_sub_ok by (destruct (c_fmt64 c); cbn [ilen_size]; lia). discriminate. }
  intros ptr _.
  apply bind_not_panic.
  { destruct (negb (c_fde_enc c =? 0)).
    - apply bind_not_panic; [apply write_eh_pointer_np; exact Hfa|]. intros a _.
      apply bind_not_panic; [|intros l _; discriminate].
      apply write_eh_pointer_data_np. apply is_u32_iff in Hflen. change (2 ^ 64) with 18446744073709551616. lia.
    - apply bind_not_panic; [apply write_address_np|]. intros a _.
      apply bind_not_panic; [apply write_udata_np|]. intros l _. discriminate. }
  intros addrs _.
  destruct (negb (Bool.eqb (is_some (f_lsda f)) (is_some (c_lsda_enc c)))); [discriminate|].
  apply bind_not_panic.
  { destruct (has_augmentation c) eqn:Ea; [|discriminate].
    destruct (f_lsda f) as [a|]; [destruct (c_lsda_enc c) as [e|]|].
    + apply bind_not_panic; [apply write_eh_pointer_np; exact Hfl|].
      intros d Hd. apply write_eh_pointer_len in Hd. apply with_aug_len_np. lia.
    + cbn [bind]. apply with_aug_len_np. cbn [length]. lia.
    + cbn [bind]. apply with_aug_len_np. cbn [length]. lia. }
  intros augdata _.
  apply bind_not_panic.
  { apply write_fde_insns_np; [exact Hfi|exact Hcaf|exact Hdaf|reflexivity]. }
  intros insns _.
  apply close_entry_np.
Qed.

(* the loop: offsets recorded so far never exceed the current position *)
Definition offs_le (offs : list (option N)) (pos : N) : Prop :=
  forall i o, nth_error offs i = Some (Some o) -> o <= pos.

Lemma write_fdes_np dbg be eh cies : forall fdes offs pos,
  Forall (fun c => cie_wf c = true) cies ->
  Forall (fun p => fde_wf (snd p) = true /\ exists c, nth_error cies (fst p) = Some c) fdes ->
  length offs = length cies -> offs_le offs pos ->
  write_fdes dbg be eh cies offs pos fdes <> Panic.
Proof.
  induction fdes as [|[idx f] rest IH]; intros offs pos Hc Hf Hlen Hle; cbn [write_fdes]; [discriminate|].
  inversion Hf as [|x l Hx Hrest]; subst. cbn [fst snd] in Hx. destruct Hx as (Hfw & c & Hnth).
  rewrite Hnth. cbn [unwrap bind].
  pose proof (Forall_nth_error _ _ _ _ Hc Hnth) as Hcw.
  assert (Hidx : (idx < length offs)%nat) by (rewrite Hlen; apply nth_error_Some; congruence).
  destruct (nth_error offs idx) as [slot|] eqn:Eslot; [|apply nth_error_None in Eslot; lia].
  cbn [unwrap bind].
  destruct slot as [off|].
  - cbn [bind]. change (len []) with 0. rewrite N.add_0_r.
    assert (Hoff : off <= pos) by (eapply Hle; exact Eslot).
    apply bind_not_panic.
    + apply fde_write_np; try assumption.
    + intros fb _. apply bind_not_panic; [|intros r _; discriminate].
      apply IH; try assumption. intros i o Hio. specialize (Hle i o Hio). lia.
  - apply bind_not_panic.
    + apply bind_not_panic; [apply cie_write_np; assumption|]. intros bs _. discriminate.
    + intros [[cb coff] offs'] Hcb.
      apply bind_ok in Hcb. destruct Hcb as (cb' & _ & Hcb). injection Hcb as <- <- <-.
      apply bind_not_panic.
      * apply fde_write_np; try assumption. lia.
      * intros fb _. apply bind_not_panic; [|intros r _; discriminate].
        apply IH; try assumption.
        -- now rewrite set_nth_length.
        -- intros i o Hio. rewrite nth_error_set_nth in Hio by exact Hidx.
           destruct (Nat.eqb i idx).
           ++ injection Hio as <-. lia.
           ++ specialize (Hle i o Hio). lia.
Qed.


(* add_instruction panics only in a checked build and only for a decreasing offset *)
Fixpoint nondecreasing (prev : N) (l : list (N * cfi)) : bool :=
  match l with [] => true | (o, _) :: r => (prev <=? o) && nondecreasing o r end.

Lemma fde_add_instructions_np dbg : forall l f,
  (dbg = true -> nondecreasing (match rev (f_insns f) with (o, _) :: _ => o | [] => 0 end) l = true) ->
  fde_add_instructions dbg f l <> Panic.
Proof.
  induction l as [|[o i] r IH]; intros f H; cbn [fde_add_instructions]; [discriminate|].
  apply bind_not_panic.
  - unfold fde_add_instruction.
    destruct (dbg && (o <? match rev (f_insns f) with (o0, _) :: _ => o0 | [] => 0 end)) eqn:E; [|discriminate].
    apply andb_true_iff in E. destruct E as [-> E]. specialize (H eq_refl). cbn [nondecreasing] in H. lia.
  - intros f' Hf'. unfold fde_add_instruction in Hf'.
    destruct (dbg && (o <? match rev (f_insns f) with (o0, _) :: _ => o0 | [] => 0 end)); [discriminate|].
    injection Hf' as <-. apply IH. cbn [f_insns]. rewrite rev_app_distr. cbn [rev app].
    intros Hd. specialize (H Hd). cbn [nondecreasing] in H. apply andb_true_iff in H. tauto.
Qed.

Fixpoint ops_sorted (ops : list bop) : bool :=
  match ops with
  | [] => true
  | BAddCie _ :: r => ops_sorted r
  | BAddFde _ f :: r => nondecreasing 0 (f_insns f) && ops_sorted r
  end.

Lemma fde_program_read_pack : forall (dbg be : bool) (caf : N) (daf : Z) (l : list (N * cfi)) bs,
  forallb fde_insn_wf l = true -> is_u8 caf = true -> is_i8 daf = true ->
  write_fde_insns dbg be caf daf 0 l = Ok bs ->
  exists ds, decode_all be bs = Some ds /\ locate 0 (map (sem caf daf) ds) = l.
Proof.
  intros dbg be caf daf l bs Hl Hc Hd H.
  destruct (write_fde_insns_decodes dbg be caf daf l 0 bs Hl Hc Hd eq_refl H) as (ds & Hds & Hm).
  exists ds. split; [apply decodes_to_all; exact Hds|exact Hm].
Qed.

Lemma cie_program_read_pack : forall (dbg be : bool) (caf : N) (daf : Z) (l : list cfi) bs,
  forallb cfi_wf l = true -> is_i8 daf = true ->
  write_insns dbg daf l = Ok bs ->
  exists ds, decode_all be bs = Some ds /\ map (sem caf daf) ds = map MInsn l.
Proof.
  intros dbg be caf daf l bs Hl Hd H.
  destruct (write_insns_decodes dbg be caf daf l bs Hl Hd H) as (ds & Hds & Hm).
  exists ds. split; [apply decodes_to_all; exact Hds|exact Hm].
Qed.

Lemma cie_entry_layout : forall (dbg be eh : bool) (pos : N) (c : cie) bs,
  cie_wf c = true ->
  cie_write dbg be eh pos c = Ok bs ->
  asz_ok (c_asize c) /\
  exists il hdr area,
    bs = il ++ hdr ++ area /\
    write_initial_length (c_fmt64 c) be (len (hdr ++ area)) = Ok il /\ len il = ilen_size (c_fmt64 c) /\
    len bs mod c_asize c = 0 /\
    exists ds n, decode_all be area = Some (ds ++ repeat DNop n) /\ N.of_nat n < c_asize c /\
                 map (sem (c_caf c) (c_daf c)) ds = map MInsn (c_insns c).
Proof.
  intros dbg be eh pos c bs Hwf H.
  destruct (cie_wf_parts c Hwf) as (_ & _ & Hdaf & Hins).
  destruct (cie_write_parts dbg be eh pos c bs H)
    as (Hasz & il & hdr & insns & pad & -> & Hil & Hlen & Hw & Hnop & Hpad & Hmod).
  split; [exact Hasz|]. exists il, hdr, (insns ++ pad). repeat split; try assumption.
  - rewrite len_app, Hlen. exact Hmod.
  - destruct (write_insns_decodes dbg be (c_caf c) (c_daf c) (c_insns c) insns Hins Hdaf Hw) as (ds & Hds & Hm).
    exists ds, (length pad). split; [|split; [exact Hpad|exact Hm]].
    apply Hds. apply all_nop_decodes. exact Hnop.
Qed.

Lemma fde_entry_layout : forall (dbg be eh : bool) (pos coff : N) (c : cie) (f : fde) bs,
  cie_wf c = true -> fde_wf f = true ->
  fde_write dbg be eh pos coff c f = Ok bs ->
  asz_ok (c_asize c) /\
  exists il hdr area,
    bs = il ++ hdr ++ area /\
    write_initial_length (c_fmt64 c) be (len (hdr ++ area)) = Ok il /\ len il = ilen_size (c_fmt64 c) /\
    len bs mod c_asize c = 0 /\
    exists ds n, decode_all be area = Some (ds ++ repeat DNop n) /\ N.of_nat n < c_asize c /\
                 locate 0 (map (sem (c_caf c) (c_daf c)) (ds ++ repeat DNop n)) = f_insns f.
Proof.
  intros dbg be eh pos coff c f bs Hwf Hfw H.
  destruct (cie_wf_parts c Hwf) as (_ & Hcaf & Hdaf & _).
  pose proof (fde_wf_parts f Hfw) as Hins.
  destruct (fde_write_parts dbg be eh pos coff c f bs H)
    as (Hasz & _ & il & hdr & insns & pad & -> & Hil & Hlen & Hw & Hnop & Hpad & Hmod).
  split; [exact Hasz|]. exists il, hdr, (insns ++ pad). repeat split; try assumption.
  - rewrite len_app, Hlen. exact Hmod.
  - destruct (write_fde_insns_decodes dbg be (c_caf c) (c_daf c) (f_insns f) 0 insns Hins Hcaf Hdaf eq_refl Hw)
      as (ds & Hds & Hm).
    exists ds, (length pad). split; [|split; [exact Hpad|]].
    + apply Hds. apply all_nop_decodes. exact Hnop.
    + rewrite map_app, locate_nops. exact Hm.
Qed.

(* per-tile read-back: every tile of a written table is a well-formed entry whose instruction area decodes
   to the instructions of that CIE / to the instructions of that FDE at their code offsets *)
Definition tile_reads_back (be : bool) (cies : list cie) (fdes : list (nat * fde)) (ch : item * list byte) : Prop :=
  match ch with
  | (ICie idx, b) =>
      exists c il hdr area ds n,
        nth_error cies idx = Some c /\ b = il ++ hdr ++ area /\ len il = ilen_size (c_fmt64 c) /\
        decode_all be area = Some (ds ++ repeat DNop n) /\ N.of_nat n < c_asize c /\
        map (sem (c_caf c) (c_daf c)) ds = map MInsn (c_insns c)
  | (IFde k, b) =>
      exists idx f c il hdr area ds n,
        nth_error fdes k = Some (idx, f) /\ nth_error cies idx = Some c /\
        b = il ++ hdr ++ area /\ len il = ilen_size (c_fmt64 c) /\
        decode_all be area = Some (ds ++ repeat DNop n) /\ N.of_nat n < c_asize c /\
        locate 0 (map (sem (c_caf c) (c_daf c)) (ds ++ repeat DNop n)) = f_insns f
  end.

Lemma well_tiled_reads_back dbg be eh cies fdes :
  Forall (fun c => cie_wf c = true) cies ->
  Forall (fun p => fde_wf (snd p) = true) fdes ->
  forall chunks pos placed, well_tiled dbg be eh cies fdes pos placed chunks ->
  Forall (tile_reads_back be cies fdes) chunks.
Proof.
  intros Hc Hf. induction chunks as [|[it b] r IH]; intros pos placed H; [constructor|].
  destruct it as [idx|k]; cbn [well_tiled] in H; destruct H as [H Hr]; constructor; try (eapply IH; exact Hr).
  - destruct H as (c & Hn & Hw).
    pose proof (Forall_nth_error _ _ _ _ Hc Hn) as Hcw.
    destruct (cie_entry_layout dbg be eh pos c b Hcw Hw)
      as (_ & il & hdr & area & -> & _ & Hlen & _ & ds & n & Hd & Hn' & Hm).
    cbn [tile_reads_back]. exists c, il, hdr, area, ds, n. auto 10.
  - destruct H as (idx & f & c & coff & Hk & Hn & _ & Hw).
    pose proof (Forall_nth_error _ _ _ _ Hc Hn) as Hcw.
    pose proof (Forall_nth_error _ _ _ _ Hf Hk) as Hfw.
    destruct (fde_entry_layout dbg be eh pos coff c f b Hcw Hfw Hw)
      as (_ & il & hdr & area & -> & _ & Hlen & _ & ds & n & Hd & Hn' & Hm).
    cbn [tile_reads_back]. exists idx, f, c, il, hdr, area, ds, n. auto 12.
Qed.

Lemma write_udata_fixed be v size bs rest :
  v < 2 ^ 64 -> write_udata be v size = Ok bs ->
  asz_ok size /\ fixed (N.to_nat size) be (bs ++ rest) = Some (v, rest).
Proof.
  intros Hv H. destruct (write_udata_inv be v size bs H) as (Hs & -> & Hlt). split; [exact Hs|].
  apply fixed_enc_un_small. rewrite N2Nat.id. exact (Hlt Hv).
Qed.

Lemma fixed_signed_read_in size be bs :
  omap (fixed (N.to_nat size) be bs) (fun v r => Some (signed_of (8 * size) v, r)) =
  match read_in (N.to_nat size) be bs with Ok p => Some p | _ => None end.
Proof. unfold fixed. rewrite read_in_exact, num_val_sum, N2Nat.id. now destruct (length bs <? N.to_nat size)%nat. Qed.

Lemma write_sdata_fixed be z size bs rest :
  in_i64 z = true -> write_sdata be z size = Ok bs ->
  omap (fixed (N.to_nat size) be (bs ++ rest)) (fun v r => Some (signed_of (8 * size) v, r)) = Some (z, rest).
Proof.
  intros Hz H. destruct (write_sdata_ok be z size bs Hz H) as (_ & _ & _ & Hr).
  now rewrite fixed_signed_read_in, Hr.
Qed.

Lemma to_i64_mod x : x < 18446744073709551616 -> (to_i64 x mod 18446744073709551616 = Z.of_N x)%Z.
Proof.
  intros Hx. destruct (N.lt_ge_cases x (2 ^ 63)) as [H|H].
  - rewrite to_i64_small by exact H. apply Z.mod_small. lia.
  - rewrite to_i64_big by lia. rewrite <- (Z.mod_add _ 1), Z.mod_small by lia. lia.
Qed.

(* the decoded value is the written 64-bit pattern, as a signed or unsigned number *)
Lemma write_eh_pointer_data_reads be val fmt asz bs rest :
  val < 2 ^ 64 ->
  write_eh_pointer_data be val fmt asz = Ok bs ->
  exists v, pe_value be asz fmt (bs ++ rest) = Some (v, rest) /\
            (v mod 2 ^ 64 = Z.of_N val)%Z /\
            (fmt = 0 -> asz_ok asz).
Proof.
  intros Hv H. unfold write_eh_pointer_data in H. unfold pe_value.
  assert (Hm : (Z.of_N val mod 2 ^ 64 = Z.of_N val)%Z) by (apply Z.mod_small; lia).
  pose proof (to_i64_mod val Hv) as Hs. pose proof (i64_to_i64 val) as Hi.
  assert (U : forall s, write_udata be val s = Ok bs ->
            asz_ok s /\ omap (fixed (N.to_nat s) be (bs ++ rest)) (fun v r => Some (Z.of_N v, r)) = Some (Z.of_N val, rest)).
  { intros s Hw. destruct (write_udata_fixed be val s bs rest Hv Hw) as [Ha ->]. auto. }
  destruct (fmt =? 0) eqn:F0; [destruct (U asz H) as [Ha E]; exists (Z.of_N val); auto|].
  destruct (fmt =? 1) eqn:F1.
  { rewrite write_uleb128_min in H by exact Hv. injection H as <-. exists (Z.of_N val).
    rewrite uleb_enc by exact Hv. split; [reflexivity|]. split; [exact Hm|lia]. }
  destruct (fmt =? 2) eqn:F2; [exists (Z.of_N val); split; [exact (proj2 (U 2 H))|split; [exact Hm|lia]]|].
  destruct (fmt =? 3) eqn:F3; [exists (Z.of_N val); split; [exact (proj2 (U 4 H))|split; [exact Hm|lia]]|].
  destruct (fmt =? 4) eqn:F4; [exists (Z.of_N val); split; [exact (proj2 (U 8 H))|split; [exact Hm|lia]]|].
  destruct (fmt =? 9) eqn:F9.
  { assert (bs = sleb_min 10 (to_i64 val)) as ->
      by (rewrite write_sleb128_min in H by (apply i64_iff, Hi); congruence).
    exists (to_i64 val). rewrite sleb_enc by exact Hi. split; [reflexivity|]. split; [exact Hs|lia]. }
  destruct (fmt =? 10) eqn:F10;
    [exists (to_i64 val); split; [exact (write_sdata_fixed be _ 2 bs rest Hi H)|split; [exact Hs|lia]]|].
  destruct (fmt =? 11) eqn:F11;
    [exists (to_i64 val); split; [exact (write_sdata_fixed be _ 4 bs rest Hi H)|split; [exact Hs|lia]]|].
  destruct (fmt =? 12) eqn:F12; [|discriminate].
  exists (to_i64 val). split; [exact (write_sdata_fixed be _ 8 bs rest Hi H)|split; [exact Hs|lia]].
Qed.

(* a value known modulo 2^64, reduced to k <= 64 bits *)
Lemma mod_pow2_of_mod64 (v : Z) (a k : N) : k <= 64 ->
  (v mod 2 ^ 64 = Z.of_N a mod 2 ^ 64)%Z -> Z.to_N (v mod Z.of_N (2 ^ k)) = a mod 2 ^ k.
Proof.
  intros Hk Hv.
  assert (Hm : (0 < Z.of_N (2 ^ k))%Z) by (pose proof (N.pow_nonzero 2 k); lia).
  assert (Hd : (Z.of_N (2 ^ k) | 2 ^ 64)%Z).
  { exists (Z.of_N (2 ^ (64 - k))). change (2 ^ 64)%Z with (Z.of_N (2 ^ 64)).
    rewrite <- N2Z.inj_mul, <- N.pow_add_r. do 2 f_equal. lia. }
  apply N2Z.inj. rewrite Z2N.id by (apply Z.mod_pos_bound; exact Hm). rewrite N2Z.inj_mod.
  rewrite (Znumtheory.Zmod_div_mod _ (2 ^ 64) v), Hv, <- Znumtheory.Zmod_div_mod; try assumption; reflexivity.
Qed.

(* absolute: the value itself; pc-relative: the 64-bit difference to the field's own offset, which the reader
   adds back; both are exact modulo 2^64 and hence modulo the address size *)
Lemma write_eh_pointer_reads be pos a enc asz bs rest :
  a < 18446744073709551616 -> pos < 18446744073709551616 ->
  (asz = 1 \/ asz = 2 \/ asz = 4 \/ asz = 8) ->
  write_eh_pointer be pos (AConst a) enc asz = Ok bs ->
  pe_pointer be asz enc pos (bs ++ rest) = Some (a mod 2 ^ (8 * asz), rest).
Proof.
  intros Ha Hp Hasz H. unfold write_eh_pointer in H. unfold pe_pointer.
  fold (pe_format enc). fold (pe_application enc).
  assert (Hk : 8 * asz <= 64) by (destruct Hasz as [->|[->|[->| ->]]]; lia).
  destruct (pe_application enc =? 0) eqn:A0; [|destruct (pe_application enc =? 16) eqn:A16; [|discriminate]];
    cbn [bind] in H.
  - destruct (write_eh_pointer_data_reads be a (pe_format enc) asz bs rest Ha H) as (v & -> & Hvm & _).
    cbn [omap]. do 2 f_equal. apply mod_pow2_of_mod64; [exact Hk|].
    rewrite Hvm. symmetry. apply Z.mod_small. lia.
  - destruct (write_eh_pointer_data_reads be _ (pe_format enc) asz bs rest (wrap64_lt _) H) as (v & -> & Hvm & _).
    cbn [omap]. do 2 f_equal. apply mod_pow2_of_mod64; [exact Hk|].
    rewrite <- Z.add_mod_idemp_r, Hvm by discriminate.
    unfold wrap64. rewrite (N.mod_small pos) by exact Hp.
    rewrite N2Z.inj_mod, N2Z.inj_sub, N2Z.inj_add by (unfold two64; lia).
    change (Z.of_N two64) with (2 ^ 64)%Z. rewrite Z.add_mod_idemp_r by discriminate.
    replace (Z.of_N pos + (2 ^ 64 + Z.of_N a - Z.of_N pos))%Z with (Z.of_N a + 1 * 2 ^ 64)%Z by ring.
    apply Z.mod_add. discriminate.
Qed.

Definition aug_string (c : cie) : list byte :=
  if has_augmentation c then
    [x7a] ++ (if is_some (c_lsda_enc c) then [x4c] else [])
          ++ (if is_some (c_pers c) then [x50] else [])
          ++ (if negb (c_fde_enc c =? 0) then [x52] else [])
          ++ (if c_sig c then [x53] else [])
  else [].

Definition cie_fields_of (c : cie) : cie_fields :=
  mkFields (c_version c) (aug_string c)
           (if c_version c =? 4 then Some (c_asize c) else None)
           (c_caf c) (c_daf c) (c_ra c)
           (c_lsda_enc c)
           (match c_pers c with
            | Some (e, AConst a) => Some (e, a mod 2 ^ (8 * c_asize c))
            | Some (e, ASym _ _) => Some (e, 0)
            | None => None
            end)
           (if c_fde_enc c =? 0 then None else Some (c_fde_enc c))
           (c_sig c).

Lemma cstr_app (chars rest : list byte) :
  forallb (fun b => negb (b2n b =? 0)) chars = true -> cstr (chars ++ x00 :: rest) = Some (chars, rest).
Proof.
  induction chars as [|b r IH]; intros H; cbn [app cstr].
  - reflexivity.
  - cbn [forallb] in H. apply andb_true_iff in H. destruct H as [Hb Hr].
    destruct (b2n b =? 0); [discriminate|]. rewrite (IH Hr). reflexivity.
Qed.

Lemma consumed_app (a r : list byte) : consumed (a ++ r) r = len a.
Proof. unfold consumed, len. rewrite app_length. lia. Qed.

Lemma uleb_small_byte n rest : n < 128 -> uleb (n2b n :: rest) = Some (n, rest).
Proof.
  intros H. destruct (split_leb_last n rest H) as [Hs Hu]. cbn [app] in Hs.
  unfold uleb. now rewrite Hs, Hu.
Qed.

Lemma aug_walk_L be asz cs e d pos l p r s :
  aug_walk be asz (x4c :: cs) (e :: d) pos l p r s = aug_walk be asz cs d (pos + 1) (Some (b2n e)) p r s.
Proof. reflexivity. Qed.
Lemma aug_walk_R be asz cs e d pos l p r s :
  aug_walk be asz (x52 :: cs) (e :: d) pos l p r s = aug_walk be asz cs d (pos + 1) l p (Some (b2n e)) s.
Proof. reflexivity. Qed.
Lemma aug_walk_P be asz cs e d pos l p r s :
  aug_walk be asz (x50 :: cs) (e :: d) pos l p r s =
  match pe_pointer be asz (b2n e) (pos + 1) d with
  | Some (v, d') => aug_walk be asz cs d' (pos + 1 + consumed d d') l (Some (b2n e, v)) r s
  | None => None
  end.
Proof. reflexivity. Qed.

Lemma with_aug_len_inv dbg be data bs :
  with_aug_len dbg be data = Ok bs -> len data < 256 /\ bs = n2b (len data) :: data.
Proof.
  unfold with_aug_len. destruct (dbg && (128 <=? len data)); [discriminate|].
  intros H. apply bind_ok in H. destruct H as (lb & Hlb & H). injection H as <-.
  unfold write_udata in Hlb. change (1 =? 1) with true in Hlb. cbv iota in Hlb.
  destruct (len data <? 256) eqn:E; [|discriminate]. injection Hlb as <-. split; [lia|]. destruct be; reflexivity.
Qed.

Lemma id_stage (be eh fmt64 : bool) (R : list byte) :
  fixed (if eh then 4 else if fmt64 then 8 else 4)%nat be
        ((if eh then enc_un 4%nat be 0 else if fmt64 then enc_un 8%nat be (two64 - 1) else enc_un 4%nat be (two32 - 1)) ++ R)
  = Some ((if eh then 0 else if fmt64 then 18446744073709551615 else 4294967295), R).
Proof. destruct eh; [|destruct fmt64]; now rewrite fixed_enc_un_small. Qed.

Lemma aug_string_nonzero c : forallb (fun b => negb (b2n b =? 0)) (aug_string c) = true.
Proof.
  unfold aug_string. destruct (has_augmentation c); [|reflexivity].
  destruct (is_some (c_lsda_enc c)), (is_some (c_pers c)), (negb (c_fde_enc c =? 0)), (c_sig c); reflexivity.
Qed.

Lemma aug_string_cstr c R :
  cstr (((if has_augmentation c then
            [x7a] ++ (if is_some (c_lsda_enc c) then [x4c] else [])
                  ++ (if is_some (c_pers c) then [x50] else [])
                  ++ (if negb (c_fde_enc c =? 0) then [x52] else [])
                  ++ (if c_sig c then [x53] else [])
          else []) ++ [x00]) ++ R) = Some (aug_string c, R).
Proof. rewrite <- app_assoc. exact (cstr_app (aug_string c) R (aug_string_nonzero c)). Qed.

Lemma no_aug_fields c : has_augmentation c = false ->
  c_lsda_enc c = None /\ c_pers c = None /\ (c_fde_enc c =? 0) = true /\ c_sig c = false.
Proof.
  unfold has_augmentation. intros H.
  apply orb_false_iff in H. destruct H as [H H4].
  apply orb_false_iff in H. destruct H as [H H3].
  apply orb_false_iff in H. destruct H as [H1 H2].
  destruct (c_pers c); [discriminate|]. destruct (c_lsda_enc c); [discriminate|].
  destruct (c_fde_enc c =? 0); [|discriminate]. auto.
Qed.

Lemma aug_walk_RS be asz fe (sg : bool) pos l p : fe < 256 ->
  aug_walk be asz ((if negb (fe =? 0) then [x52] else []) ++ (if sg then [x53] else []))
           (if negb (fe =? 0) then [n2b fe] else []) pos l p None false
  = Some (l, p, (if fe =? 0 then None else Some fe), sg).
Proof.
  intros Hfe. destruct (fe =? 0); cbn [negb app]; [|rewrite aug_walk_R, b2n_n2b_small by exact Hfe];
    destruct sg; reflexivity.
Qed.

(* the augmentation data against the characters after 'z': 'L' records the LSDA encoding, 'P' reads the
   personality pointer back at the offset it was written at *)
Lemma aug_walk_written be (c : cie) (dpos : N) (pb : list byte) :
  cie_wf c = true -> asz_ok (c_asize c) ->
  (is_some (c_pers c) = true ->
   dpos + len (match c_lsda_enc c with Some e => [n2b e] | None => [] end) + 1 < 18446744073709551616) ->
  match c_pers c with
  | Some (e, a) => write_eh_pointer be (dpos + len (match c_lsda_enc c with Some e => [n2b e] | None => [] end) + 1)
                                    a e (c_asize c) = Ok pb
  | None => pb = []
  end ->
  aug_walk be (c_asize c)
    ((if is_some (c_lsda_enc c) then [x4c] else [])
       ++ (if is_some (c_pers c) then [x50] else [])
       ++ (if negb (c_fde_enc c =? 0) then [x52] else [])
       ++ (if c_sig c then [x53] else []))
    ((match c_lsda_enc c with Some e => [n2b e] | None => [] end)
       ++ (match c_pers c with Some (e, _) => n2b e :: pb | None => [] end)
       ++ (if negb (c_fde_enc c =? 0) then [n2b (c_fde_enc c)] else []))
    dpos None None None false
  = Some (cf_lsda_enc (cie_fields_of c), cf_pers (cie_fields_of c), cf_fde_enc (cie_fields_of c), c_sig c).
Proof.
  intros Hwf Hasz Hpos Hpb. destruct (cie_wf_inv c Hwf) as (_ & _ & _ & _ & _ & Hpe & Hle & Hfe & _).
  cbn [cie_fields_of cf_lsda_enc cf_pers cf_fde_enc].
  set (l := match c_lsda_enc c with Some e => [n2b e] | None => [] end) in *.
  assert (HL : forall cs d, aug_walk be (c_asize c) ((if is_some (c_lsda_enc c) then [x4c] else []) ++ cs) (l ++ d)
                                     dpos None None None false
                            = aug_walk be (c_asize c) cs d (dpos + len l) (c_lsda_enc c) None None false).
  { intros cs d. subst l. destruct (c_lsda_enc c) as [e|]; cbn [is_some app].
    - now rewrite aug_walk_L, b2n_n2b_small by exact Hle.
    - change (len []) with 0. now rewrite N.add_0_r. }
  rewrite HL. destruct (c_pers c) as [[e [av|sy ad]]|]; cbn [is_some app].
  - destruct Hpe as [He Ha]. cbn [addr_wf] in Ha.
    rewrite aug_walk_P, b2n_n2b_small by exact He.
    rewrite (write_eh_pointer_reads be _ av e (c_asize c) pb _ ltac:(lia) (Hpos eq_refl) Hasz Hpb).
    apply aug_walk_RS. exact Hfe.
  - discriminate Hpb.
  - subst pb. apply aug_walk_RS. exact Hfe.
Qed.

Lemma version_cases (eh : bool) ver :
  (if eh then negb (ver =? 1) else negb ((ver =? 1) || (ver =? 3) || (ver =? 4))) = false ->
  (ver = 1 \/ ver = 3 \/ ver = 4) /\ (eh = true -> ver = 1).
Proof. destruct eh; intros H; split; try lia; intros; lia. Qed.

Lemma len_cons (b : byte) l : len (b :: l) = 1 + len l.
Proof. unfold len. cbn [length]. lia. Qed.

Lemma cie_header_reads dbg be eh pos (c : cie) bs :
  cie_wf c = true ->
  pos + len bs < 18446744073709551616 ->
  cie_write dbg be eh pos c = Ok bs ->
  exists il body insns pad,
    bs = il ++ body /\ len il = ilen_size (c_fmt64 c) /\
    write_initial_length (c_fmt64 c) be (len body) = Ok il /\
    write_insns dbg (c_daf c) (c_insns c) = Ok insns /\ all_nop pad = true /\ len pad < c_asize c /\
    parse_cie_body be eh (c_fmt64 c) (c_asize c) (pos + ilen_size (c_fmt64 c)) body
      = Some (cie_fields_of c, insns ++ pad).
Proof.
  intros Hwf Hfit H. destruct (cie_wf_inv c Hwf) as (_ & Hasz8 & Hcaf & Hdaf & Hra & _).
  unfold cie_write in H. cbv zeta in H.
  destruct (if eh then negb (c_version c =? 1)
            else negb ((c_version c =? 1) || (c_version c =? 3) || (c_version c =? 4))) eqn:Ever; [discriminate|].
  destruct (version_cases eh _ Ever) as [Hver Hveh].
  replace (4 <=? c_version c) with (c_version c =? 4) in H by lia.
  rewrite write_uleb128_min, write_sleb128_min in H by lia. cbn [bind] in H.
  apply bind_ok in H. destruct H as (rab & Hrab & H).
  fold (aug_string c) in H.
  (* PRE: the header up to the return address register *)
  match type of H with context [pos + ilen_size (c_fmt64 c) + len ?P + 1] => set (PRE := P) in H end.
  apply bind_ok in H. destruct H as (augdata & Haug & H).
  apply bind_ok in H. destruct H as (insns & Hins & H).
  apply close_entry_parts in H. destruct H as (Hasz & il & pad & Hbs & Hil & Hlen & Hnop & Hpad & _).
  exists il, ((PRE ++ augdata ++ insns) ++ pad), insns, pad.
  split; [exact Hbs|]. split; [exact Hlen|]. split; [exact Hil|]. split; [exact Hins|]. split; [exact Hnop|]. split; [exact Hpad|].
  assert (Hbound : pos + ilen_size (c_fmt64 c) + len PRE + len augdata < 18446744073709551616).
  { rewrite Hbs in Hfit. rewrite !len_app in Hfit. lia. }
  set (B := (PRE ++ augdata ++ insns) ++ pad). unfold parse_cie_body.
  unfold B at 1. unfold PRE. rewrite <- !app_assoc. cbn [app].
  (* CIE id, version, augmentation string *)
  rewrite id_stage. cbn [omap]. rewrite N.eqb_refl. cbn [negb].
  rewrite fixed1_byte, wrap8_small, b2n_n2b_small by lia. cbn [omap].
  rewrite cstr_app by apply aug_string_nonzero. cbn [omap].
  (* address size and segment size, the factors, the return address register *)
  assert (Stage4 : forall (X : Type) (R : list byte) (k : option N -> list byte -> option X),
    omap (if c_version c =? 4
          then omap (fixed 1 be ((if c_version c =? 4 then [n2b (c_asize c); x00] else []) ++ R))
                 (fun a r => omap (fixed 1 be r) (fun seg r' => if seg =? 0 then Some (Some a, r') else None))
          else Some (None, (if c_version c =? 4 then [n2b (c_asize c); x00] else []) ++ R)) k
    = k (if c_version c =? 4 then Some (c_asize c) else None) R).
  { intros X R k. destruct (c_version c =? 4); [|reflexivity].
    cbn [app]. rewrite !fixed1_byte. cbn [omap]. now rewrite fixed1_byte, b2n_n2b_small by exact Hasz8. }
  rewrite Stage4.
  replace (match (if c_version c =? 4 then Some (c_asize c) else None) with Some a => a | None => c_asize c end)
    with (c_asize c) by (destruct (c_version c =? 4); reflexivity).
  rewrite uleb_enc by lia. cbn [omap]. rewrite sleb_enc by (apply i64_iff; lia). cbn [omap].
  assert (StageRa : forall R, (if c_version c =? 1 then fixed 1 be (rab ++ R) else uleb (rab ++ R)) = Some (c_ra c, R)).
  { intros R. destruct (c_version c =? 1).
    - destruct (c_ra c <? 256) eqn:Er; [|discriminate]. injection Hrab as <-. cbn [app].
      now rewrite fixed1_byte, b2n_n2b_small by lia.
    - rewrite write_uleb128_min in Hrab by lia. injection Hrab as <-. apply uleb_enc. lia. }
  rewrite StageRa. cbn [omap].
  (* augmentation data *)
  unfold aug_string. destruct (has_augmentation c) eqn:Ea.
  - cbn [app]. change (b2n x7a =? 122) with true. cbn [negb].
    apply bind_ok in Haug. destruct Haug as (pp & Hpp & Haug).
    apply with_aug_len_inv in Haug. destruct Haug as [Hdl ->].
    set (l := match c_lsda_enc c with Some e => [n2b e] | None => [] end) in *.
    set (r := if negb (c_fde_enc c =? 0) then [n2b (c_fde_enc c)] else []) in *.
    assert (Hp : exists pb, pp = match c_pers c with Some (e, _) => n2b e :: pb | None => [] end /\
                 match c_pers c with
                 | Some (e, a) => write_eh_pointer be (pos + ilen_size (c_fmt64 c) + len PRE + 1 + len l + 1) a e (c_asize c) = Ok pb
                 | None => pb = []
                 end /\ (length pb <= 10)%nat).
    { destruct (c_pers c) as [[e a]|].
      - apply bind_ok in Hpp. destruct Hpp as (pb & Hpb & Hpp). injection Hpp as <-.
        exists pb. split; [reflexivity|]. split; [exact Hpb|eapply write_eh_pointer_len; exact Hpb].
      - injection Hpp as <-. exists []. split; [reflexivity|]. split; [reflexivity|cbn; lia]. }
    destruct Hp as (pb & -> & Hpb & Hpbl).
    set (data := l ++ (match c_pers c with Some (e, _) => n2b e :: pb | None => [] end) ++ r) in *.
    assert (Hdl2 : len data < 128 /\ (is_some (c_pers c) = true -> len l + 1 <= len data)).
    { assert (len l <= 1) by (subst l; destruct (c_lsda_enc c); unfold len; cbn [length]; lia).
      assert (len r <= 1) by (subst r; destruct (negb (c_fde_enc c =? 0)); unfold len; cbn [length]; lia).
      unfold data. rewrite !len_app. destruct (c_pers c) as [[? ?]|]; unfold len in *; cbn [length is_some]; lia. }
    cbn [app]. rewrite uleb_small_byte by lia. cbn [omap].
    rewrite len_app_ltb, firstn_len, skipn_len.
    replace (consumed B (data ++ insns ++ pad)) with (len PRE + 1).
    2:{ replace B with ((PRE ++ [n2b (len data)]) ++ data ++ insns ++ pad)
          by (unfold B; now rewrite <- !app_assoc).
        now rewrite consumed_app, len_app. }
    unfold data, l, r.
    rewrite (aug_walk_written be c (pos + ilen_size (c_fmt64 c) + (len PRE + 1)) pb Hwf Hasz).
    + unfold cie_fields_of, aug_string. now rewrite Ea.
    + intros Hs. rewrite len_cons in Hbound. fold l. destruct Hdl2 as [_ Hd]. specialize (Hd Hs). lia.
    + destruct (c_pers c) as [[e a]|]; [|exact Hpb]. rewrite <- Hpb. f_equal. fold l. lia.
  - destruct (no_aug_fields c Ea) as (E1 & E2 & E3 & E4).
    injection Haug as <-. cbn [app]. unfold cie_fields_of, aug_string. now rewrite Ea, E1, E2, E3, E4.
Qed.

Definition fde_fields_of (c : cie) (f : fde) (coff : N) : fde_fields :=
  mkFdeFields coff
    (match f_addr f with AConst a => a mod 2 ^ (8 * c_asize c) | ASym _ _ => 0 end)
    (f_len f)
    (match f_lsda f, c_lsda_enc c with
     | Some (AConst a), Some _ => Some (a mod 2 ^ (8 * c_asize c))
     | _, _ => None
     end).

Lemma write_udata_lt be v size bs :
  v < 18446744073709551616 -> write_udata be v size = Ok bs -> v < 2 ^ (8 * size).
Proof. intros Hv H. exact (proj2 (proj2 (write_udata_inv be v size bs H)) Hv). Qed.

Lemma fde_header_reads dbg be eh pos coff (c : cie) (f : fde) bs :
  cie_wf c = true -> fde_wf f = true ->
  pos + len bs < 18446744073709551616 -> coff <= pos ->
  fde_write dbg be eh pos coff c f = Ok bs ->
  exists il body insns pad,
    bs = il ++ body /\ len il = ilen_size (c_fmt64 c) /\
    write_initial_length (c_fmt64 c) be (len body) = Ok il /\
    write_fde_insns dbg be (c_caf c) (c_daf c) 0 (f_insns f) = Ok insns /\ all_nop pad = true /\ len pad < c_asize c /\
    parse_fde_body be eh (c_fmt64 c) (c_asize c) (cf_fde_enc (cie_fields_of c)) (c_lsda_enc c) (has_augmentation c)
                   (pos + ilen_size (c_fmt64 c)) body
      = Some (fde_fields_of c f coff, insns ++ pad).
Proof.
  intros Hwf Hfwf Hfit Hcoff H.
  destruct (fde_wf_parts2 f Hfwf) as (Hfa & Hfl & Hflsda). apply is_u32_iff in Hfl.
  unfold fde_write in H. cbv zeta in H. fold (lsda_ok c f) in H.
  set (base := pos + ilen_size (c_fmt64 c)) in *.
  apply bind_ok in H. destruct H as (ptr & Hptr & H).
  apply bind_ok in H. destruct H as (addrs & Haddrs & H).
  destruct (lsda_ok c f) eqn:Hls; cbn [negb] in H; [|discriminate].
  unfold lsda_ok in Hls. apply Bool.eqb_true_iff in Hls.
  apply bind_ok in H. destruct H as (augdata & Haug & H).
  apply bind_ok in H. destruct H as (insns & Hins & H).
  apply close_entry_parts in H. destruct H as (Hasz & il & pad & Hbs & Hil & Hlen & Hnop & Hpad & _).
  exists il, ((ptr ++ addrs ++ augdata ++ insns) ++ pad), insns, pad.
  split; [exact Hbs|]. split; [exact Hlen|]. split; [exact Hil|]. split; [exact Hins|]. split; [exact Hnop|]. split; [exact Hpad|].
  assert (Hbound : base + len ptr + len addrs + len augdata < 18446744073709551616).
  { rewrite Hbs in Hfit. rewrite !len_app in Hfit. rewrite Hlen in Hfit. subst base. lia. }
  rewrite <- !app_assoc.
  set (BODY := ptr ++ addrs ++ augdata ++ insns ++ pad).
  unfold parse_fde_body.
  (* the CIE pointer *)
  assert (Sptr : fixed (if eh then 4 else if c_fmt64 c then 8 else 4) be BODY
                 = Some ((if eh then base - coff else coff), addrs ++ augdata ++ insns ++ pad)).
  { destruct eh.
    - apply bind_ok in Hptr. destruct Hptr as (d & Hd & Hptr).
      rewrite chk_sub_ok in Hd by (subst base; lia). injection Hd as <-.
      exact (proj2 (write_udata_fixed be (base - coff) 4 ptr _ ltac:(lia) Hptr)).
    - destruct (c_fmt64 c); exact (proj2 (write_udata_fixed be coff _ ptr _ ltac:(lia) Hptr)). }
  rewrite Sptr. cbn [omap].
  replace (if eh then base - (if eh then base - coff else coff) else (if eh then base - coff else coff))
    with coff by (destruct eh; [subst base; lia|reflexivity]).
  replace (consumed BODY (addrs ++ augdata ++ insns ++ pad)) with (len ptr) by (symmetry; apply consumed_app).
  (* address and range *)
  assert (Saddr :
    match cf_fde_enc (cie_fields_of c) with
    | Some e =>
        omap (pe_pointer be (c_asize c) e (base + len ptr) (addrs ++ augdata ++ insns ++ pad)) (fun a r =>
        omap (pe_value be (c_asize c) (N.land e 15) r) (fun l r' =>
          Some ((a, Z.to_N (l mod 18446744073709551616)), r')))
    | None =>
        omap (fixed (N.to_nat (c_asize c)) be (addrs ++ augdata ++ insns ++ pad)) (fun a r =>
        omap (fixed (N.to_nat (c_asize c)) be r) (fun l r' => Some ((a, l), r')))
    end = Some ((match f_addr f with AConst a => a mod 2 ^ (8 * c_asize c) | ASym _ _ => 0 end, f_len f),
                augdata ++ insns ++ pad)).
  { cbn [cie_fields_of cf_fde_enc].
    destruct (c_fde_enc c =? 0) eqn:Ef; cbn [negb] in Haddrs;
      apply bind_ok in Haddrs; destruct Haddrs as (ab & Hab & Haddrs);
      apply bind_ok in Haddrs; destruct Haddrs as (lb & Hlb & Haddrs); injection Haddrs as <-;
      (destruct (f_addr f) as [a|sy ad]; [|discriminate]); cbn [write_address addr_wf] in *;
      rewrite <- !app_assoc.
    - rewrite (proj2 (write_udata_fixed be a _ ab _ ltac:(lia) Hab)). cbn [omap].
      rewrite (proj2 (write_udata_fixed be (f_len f) _ lb _ ltac:(lia) Hlb)). cbn [omap].
      rewrite N.mod_small by (eapply write_udata_lt; [|exact Hab]; lia). reflexivity.
    - rewrite (write_eh_pointer_reads be (base + len ptr) a (c_fde_enc c) (c_asize c) ab _); [|lia|lia|exact Hasz|exact Hab].
      cbn [omap]. fold (pe_format (c_fde_enc c)).
      destruct (write_eh_pointer_data_reads be (f_len f) (pe_format (c_fde_enc c)) (c_asize c) lb (augdata ++ insns ++ pad))
        as (v & Hv & Hvm & _); [lia|exact Hlb|].
      rewrite Hv. cbn [omap]. change 18446744073709551616%Z with (2 ^ 64)%Z. rewrite Hvm, N2Z.id. reflexivity. }
  rewrite Saddr. cbn [omap fst snd].
  (* augmentation data *)
  unfold fde_fields_of. destruct (has_augmentation c) eqn:Ea.
  - apply bind_ok in Haug. destruct Haug as (d & Hd & Haug).
    apply with_aug_len_inv in Haug. destruct Haug as [Hdl ->].
    assert (Hd10 : (length d <= 10)%nat).
    { destruct (f_lsda f); [destruct (c_lsda_enc c)|]; [eapply write_eh_pointer_len; exact Hd| |];
        injection Hd as <-; cbn; lia. }
    cbn [app]. rewrite uleb_small_byte by (unfold len; lia). cbn [omap].
    rewrite len_app_ltb, firstn_len, skipn_len.
    replace (consumed BODY (d ++ insns ++ pad)) with (len ptr + len addrs + 1).
    2:{ replace BODY with ((ptr ++ addrs ++ [n2b (len d)]) ++ d ++ insns ++ pad)
          by (unfold BODY; now rewrite <- !app_assoc).
        rewrite consumed_app, !len_app. change (len [n2b (len d)]) with 1. lia. }
    destruct (f_lsda f) as [la|] eqn:Efl; destruct (c_lsda_enc c) as [le|] eqn:Ecl; cbn [is_some] in Hls; try discriminate.
    + destruct la as [a|sy ad]; [|discriminate]. cbn [addr_wf] in Hflsda.
      rewrite len_cons in Hbound.
      rewrite <- (app_nil_r d) at 1.
      rewrite (write_eh_pointer_reads be _ a le (c_asize c) d []); [reflexivity|lia|lia|exact Hasz|].
      rewrite <- Hd. f_equal. subst base. lia.
    + reflexivity.
  - destruct (no_aug_fields c Ea) as (E1 & E2 & E3 & E4).
    injection Haug as <-. cbn [app]. rewrite E1.
    destruct (f_lsda f) as [[?|? ?]|]; reflexivity.
Qed.

Section ReadsBack.
  Variables (be eh : bool) (cies : list cie) (fdes : list (nat * fde)).
  (* what a reader finds, tile by tile, in a section laid out from offset pos: placed = the CIE tiles met so
     far with their offsets *)
  Fixpoint reads_back (pos : N) (placed : list (nat * N)) (chunks : list (item * list byte)) : Prop :=
    match chunks with
    | [] => True
    | (ICie idx, b) :: r =>
        (exists c il body area ds n,
           nth_error cies idx = Some c /\ b = il ++ body /\ len il = ilen_size (c_fmt64 c) /\
           write_initial_length (c_fmt64 c) be (len body) = Ok il /\
           parse_cie_body be eh (c_fmt64 c) (c_asize c) (pos + ilen_size (c_fmt64 c)) body
             = Some (cie_fields_of c, area) /\
           decode_all be area = Some (ds ++ repeat DNop n) /\ N.of_nat n < c_asize c /\
           map (sem (c_caf c) (c_daf c)) ds = map MInsn (c_insns c))
        /\ reads_back (pos + len b) ((idx, pos) :: placed) r
    | (IFde k, b) :: r =>
        (exists idx f c coff il body area ds n,
           nth_error fdes k = Some (idx, f) /\ nth_error cies idx = Some c /\ lookup idx placed = Some coff /\
           b = il ++ body /\ len il = ilen_size (c_fmt64 c) /\
           write_initial_length (c_fmt64 c) be (len body) = Ok il /\
           parse_fde_body be eh (c_fmt64 c) (c_asize c) (cf_fde_enc (cie_fields_of c)) (c_lsda_enc c)
                          (has_augmentation c) (pos + ilen_size (c_fmt64 c)) body
             = Some (fde_fields_of c f coff, area) /\
           decode_all be area = Some (ds ++ repeat DNop n) /\ N.of_nat n < c_asize c /\
           locate 0 (map (sem (c_caf c) (c_daf c)) (ds ++ repeat DNop n)) = f_insns f)
        /\ reads_back (pos + len b) placed r
    end.
End ReadsBack.



Lemma reads_back_of_tiled dbg be eh cies fdes :
  Forall (fun c => cie_wf c = true) cies ->
  Forall (fun p => fde_wf (snd p) = true) fdes ->
  forall chunks pos placed,
    pos + len (concat (map snd chunks)) < 18446744073709551616 ->
    Forall (fun p => snd p <= pos) placed ->
    well_tiled dbg be eh cies fdes pos placed chunks ->
    reads_back be eh cies fdes pos placed chunks.
Proof.
  intros Hc Hf. induction chunks as [|[it b] r IH]; intros pos placed Hfit Hpl H; [exact I|].
  cbn [map snd concat] in Hfit. rewrite len_app in Hfit.
  destruct it as [idx|k]; cbn [well_tiled] in H; destruct H as [H Hr]; cbn [reads_back]; split.
  - destruct H as (c & Hn & Hw).
    pose proof (Forall_nth_error _ _ _ _ Hc Hn) as Hcw.
    destruct (cie_wf_parts c Hcw) as (_ & _ & Hdaf & Hins).
    destruct (cie_header_reads dbg be eh pos c b Hcw ltac:(lia) Hw)
      as (il & body & insns & pad & -> & Hlen & Hil & Hwi & Hnop & Hpad & Hparse).
    destruct (write_insns_decodes dbg be (c_caf c) (c_daf c) (c_insns c) insns Hins Hdaf Hwi) as (ds & Hds & Hm).
    exists c, il, body, (insns ++ pad), ds, (length pad).
    repeat split; try assumption.
    apply Hds. apply all_nop_decodes. exact Hnop.
  - apply IH; [lia| |exact Hr].
    constructor; [cbn [snd]; lia|]. eapply Forall_impl; [|exact Hpl]. cbn beta. intros p Hp. lia.
  - destruct H as (idx & f & c & coff & Hk & Hn & Hlk & Hw).
    pose proof (Forall_nth_error _ _ _ _ Hc Hn) as Hcw.
    pose proof (Forall_nth_error _ _ _ _ Hf Hk) as Hfw.
    destruct (cie_wf_parts c Hcw) as (_ & Hcaf & Hdaf & _).
    pose proof (fde_wf_parts f Hfw) as Hins.
    assert (Hcoff : coff <= pos).
    { clear - Hlk Hpl. induction placed as [|[i o] pl IHp]; [discriminate|].
      cbn [lookup] in Hlk. inversion Hpl as [|x l Hx Hl]; subst. destruct (Nat.eqb idx i).
      - injection Hlk as <-. exact Hx.
      - apply IHp; assumption. }
    destruct (fde_header_reads dbg be eh pos coff c f b Hcw Hfw ltac:(lia) Hcoff Hw)
      as (il & body & insns & pad & -> & Hlen & Hil & Hwi & Hnop & Hpad & Hparse).
    destruct (write_fde_insns_decodes dbg be (c_caf c) (c_daf c) (f_insns f) 0 insns Hins Hcaf Hdaf eq_refl Hwi)
      as (ds & Hds & Hm).
    exists idx, f, c, coff, il, body, (insns ++ pad), ds, (length pad).
    repeat split; try assumption.
    + apply Hds. apply all_nop_decodes. exact Hnop.
    + rewrite map_app, locate_nops. exact Hm.
  - apply IH; [lia| |exact Hr].
    eapply Forall_impl; [|exact Hpl]. cbn beta. intros p Hp. lia.
Qed.
