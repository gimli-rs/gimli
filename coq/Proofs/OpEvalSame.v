(* Proofs/OpEvalSame.v — eval_same: running the evaluator model on the bytes write::Expression emitted gives the
   same conversation as running it on a canonical re-encoding (Spec/StackSpec.v enc_op: DWARF 5 opcodes, minimal
   LEB128, no short forms) of the same operations, branches re-targeted to the re-encoding's own boundaries. *)
From Coq Require Import List NArith ZArith Bool Lia ZifyBool ZifyN ZifyNat.
From Coq.Strings Require Import Byte.
Require Import GV.Base.Res GV.Base.Byt GV.Base.Ints GV.Spec.LebSpec GV.Model.Leb GV.Model.Prim.
Require Import GV.Spec.OpEncSpec GV.Model.OpWr GV.Proofs.LebProofs GV.Proofs.OpWrProofs GV.Proofs.OpWrDec.
Require Import GV.Model.OpDec GV.Model.OpVal GV.Model.OpEval GV.Spec.StackSpec GV.Proofs.PrimProofs GV.Proofs.OpDecProofs GV.Proofs.OpEvalProofs.
Require Import GV.Proofs.OpRoundtrip GV.Proofs.OpEvalSim GV.Proofs.OpParseWf.
Import ListNotations.
Local Open Scope N_scope.

(* ---- boundaries of a concatenation ---- *)
Fixpoint psums (acc : nat) (l : list nat) : list nat :=
  acc :: match l with [] => [] | x :: r => psums (acc + x) r end.

Lemma psums_length : forall l acc, length (psums acc l) = S (length l).
Proof. induction l as [|x r IH]; intros acc; cbn [psums length]; [reflexivity|]. rewrite IH. reflexivity. Qed.

Lemma psums_concat : forall (segs : list (list byte)) acc k seg,
  nth_error segs k = Some seg ->
  exists bk, nth_error (psums acc (map (@length byte) segs)) k = Some bk /\
             nth_error (psums acc (map (@length byte) segs)) (S k) = Some (bk + length seg)%nat /\
             (acc <= bk)%nat /\
             skipn (bk - acc) (concat segs) = seg ++ skipn (bk - acc + length seg) (concat segs) /\
             (bk - acc + length seg <= length (concat segs))%nat.
Proof.
  induction segs as [|s0 r IH]; intros acc k seg H; [destruct k; discriminate|].
  destruct k as [|k]; cbn [nth_error] in H.
  - inversion H; subst. exists acc. cbn [map psums nth_error concat].
    split; [reflexivity|]. split; [destruct r; reflexivity|]. split; [lia|].
    rewrite Nat.sub_diag. cbn [skipn Nat.add]. rewrite skipn_app, skipn_all, Nat.sub_diag. cbn [skipn app].
    split; [reflexivity|]. rewrite app_length. lia.
  - destruct (IH (acc + length s0)%nat k seg H) as [bk [E1 [E2 [E3 [E4 E5]]]]].
    exists bk. cbn [map psums nth_error concat]. split; [exact E1|]. split; [exact E2|]. split; [lia|].
    replace (bk - acc)%nat with (length s0 + (bk - (acc + length s0)))%nat by lia.
    rewrite <- !Nat.add_assoc. rewrite !skipn_app.
    rewrite !(skipn_all2 s0) by lia. cbn [app].
    replace (length s0 + (bk - (acc + length s0)) - length s0)%nat with (bk - (acc + length s0))%nat by lia.
    replace (length s0 + (bk - (acc + length s0) + length seg) - length s0)%nat with (bk - (acc + length s0) + length seg)%nat by lia.
    split; [exact E4|]. rewrite app_length. lia.
Qed.

Lemma psums_last : forall l acc, nth_error (psums acc l) (length l) = Some (acc + fold_right Nat.add 0 l)%nat.
Proof.
  induction l as [|x r IH]; intros acc; cbn [psums length nth_error fold_right]; [f_equal; lia|].
  rewrite IH. f_equal. lia.
Qed.

Lemma concat_length (segs : list (list byte)) : length (concat segs) = fold_right Nat.add 0%nat (map (@length byte) segs).
Proof. induction segs as [|s r IH]; cbn; [reflexivity|]. rewrite app_length, IH. reflexivity. Qed.

(* ---- boundaries of what the table decoded ---- *)
Lemma decode_from_head c : forall fuel off bs o1 d1 l, decode_from fuel c off bs = Some ((o1, d1) :: l) -> o1 = off.
Proof.
  intros fuel off bs o1 d1 l H. destruct fuel; destruct bs as [|b r]; cbn [decode_from] in H; try discriminate.
  destruct (decode_one c (b :: r)) as [[d t]|]; [|discriminate].
  destruct (decode_from fuel c _ t); [|discriminate]. inversion H; reflexivity.
Qed.
Lemma decode_from_nil c : forall fuel off bs, decode_from fuel c off bs = Some [] -> bs = [].
Proof.
  intros fuel off bs H. destruct bs as [|b r]; [reflexivity|]. destruct fuel; cbn [decode_from] in H; [discriminate|].
  destruct (decode_one c (b :: r)) as [[d t]|]; [|discriminate].
  destruct (decode_from fuel c _ t); discriminate.
Qed.

Lemma decode_from_nth c : forall fuel off0 bs0 dl,
  decode_from fuel c off0 bs0 = Some dl ->
  forall k off d, nth_error dl k = Some (off, d) ->
  exists nxt, nth_error (map fst dl ++ [off0 + blen bs0]) (S k) = Some nxt /\
              off0 <= off /\ off < nxt /\ nxt <= off0 + blen bs0 /\
              decode_one c (skipn (N.to_nat (off - off0)) bs0) = Some (d, skipn (N.to_nat (nxt - off0)) bs0).
Proof.
  induction fuel as [|fuel IH]; intros off0 bs0 dl H k off d Hk.
  - destruct bs0; [|discriminate]. inversion H; subst. destruct k; discriminate.
  - destruct bs0 as [|b r]; [inversion H; subst; destruct k; discriminate|].
    cbn [decode_from] in H.
    destruct (decode_one c (b :: r)) as [[d0 t]|] eqn:Ed; [|discriminate].
    set (used := N.of_nat (length (b :: r)) - N.of_nat (length t)) in *.
    destruct (decode_from fuel c (off0 + used) t) as [l|] eqn:El; [|discriminate].
    inversion H; subst dl. clear H.
    destruct (table_agrees_with_reader true c _ _ _ Ed) as [o [_ Hp]].
    destruct (parse_op_consumes _ _ _ _ _ Hp) as [b' [u Eu]]. inversion Eu as [[Eb Er]]. subst b' r. clear Eu.
    assert (Hused : used = N.of_nat (S (length u))).
    { unfold used. cbn [length]. rewrite app_length. lia. }
    assert (Ht : skipn (S (length u)) (b :: u ++ t) = t).
    { cbn [skipn]. apply skipn_app_exact. }
    assert (Hbl : blen (b :: u ++ t) = used + blen t).
    { unfold blen. rewrite Hused. cbn [length]. rewrite app_length. lia. }
    assert (Hnxt0 : nth_error (map fst l ++ [off0 + blen (b :: u ++ t)]) 0 = Some (off0 + used)).
    { destruct l as [|[o1 d1] l'].
      - apply decode_from_nil in El. subst t. cbn [map app nth_error]. f_equal; rewrite ?Hbl, ?blen_nil; lia.
      - apply decode_from_head in El. subst o1. reflexivity. }
    destruct k as [|k]; cbn [nth_error] in Hk.
    + inversion Hk; subst off d. exists (off0 + used).
      split; [exact Hnxt0|]. split; [lia|]. split; [lia|]. split; [lia|].
      rewrite N.sub_diag. cbn [N.to_nat skipn].
      replace (N.to_nat (off0 + used - off0)) with (S (length u)) by lia. rewrite Ht. exact Ed.
    + destruct (IH _ _ _ El k off d Hk) as [nxt [N1 [N2 [N3 [N4 N5]]]]].
      exists nxt.
      replace (off0 + used + blen t) with (off0 + blen (b :: u ++ t)) in N1, N4 by lia.
      split; [exact N1|]. split; [lia|]. split; [lia|]. split; [lia|].
      rewrite <- Ht in N5. rewrite !skipn_skipn in N5.
      replace (N.to_nat (off - off0)) with (S (length u) + N.to_nat (off - (off0 + used)))%nat by lia.
      replace (N.to_nat (nxt - off0)) with (S (length u) + N.to_nat (nxt - (off0 + used)))%nat by lia.
      exact N5.
Qed.

(* ---- the two boundary lists and the re-targeting relation ---- *)
Definition A_of (dl : list (N * dop)) (bs : list byte) : list nat :=
  map (fun x => N.to_nat (fst x)) dl ++ [length bs].
Definition canon_bytes (e' : OpDec.enc) (ops2 : list operation) : list byte := concat (map (enc_op e') ops2).
Definition B_of (e' : OpDec.enc) (ops2 : list operation) : list nat :=
  psums 0 (map (@length byte) (map (enc_op e') ops2)).

(* ops2 = the operations the reader sees in the written bytes, with every Skip/Bra displacement replaced by
   the one that reaches the same operation in the re-encoding *)
Definition retargeted (A B : list nat) (ros1 ops2 : list operation) : Prop :=
  length ros1 = length ops2 /\
  forall k o1 o2 a' b', nth_error ros1 k = Some o1 -> nth_error ops2 k = Some o2 ->
    nth_error A (S k) = Some a' -> nth_error B (S k) = Some b' -> orel (combine A B) a' b' o1 o2.

Lemma enc_op_nonempty e' o : (1 <= length (enc_op e' o))%nat.
Proof.
  destruct o; cbn [enc_op length]; try lia.
  - destruct (base_type =? 0); cbn [length app]; lia.
  - destruct (base_type =? 0); cbn [length]; lia.
  - destruct offset; cbn [length]; lia.
  - destruct bit_offset; cbn [length]; lia.
Qed.

Lemma nth_error_In_combine {X Y} : forall (l1 : list X) (l2 : list Y) k a b,
  nth_error l1 k = Some a -> nth_error l2 k = Some b -> In (a, b) (combine l1 l2).
Proof.
  induction l1 as [|x r IH]; intros l2 k a b H1 H2; [destruct k; discriminate|].
  destruct l2 as [|y r2]; [destruct k; discriminate|]. destruct k as [|k]; cbn [nth_error combine] in *.
  - inversion H1; inversion H2; subst. left; reflexivity.
  - right. eapply IH; eauto.
Qed.
Lemma combine_In_nth {X Y} : forall (l1 : list X) (l2 : list Y) a b,
  In (a, b) (combine l1 l2) -> exists k, nth_error l1 k = Some a /\ nth_error l2 k = Some b.
Proof.
  induction l1 as [|x r IH]; intros l2 a b H; [destruct H|]. destruct l2 as [|y r2]; [destruct H|].
  cbn [combine] in H. destruct H as [E|H].
  - inversion E; subst. exists 0%nat. auto.
  - destruct (IH _ _ _ H) as [k [K1 K2]]. exists (S k). auto.
Qed.

Lemma A_of_nth dl bs k v :
  nth_error (map fst dl ++ [0 + blen bs]) k = Some v -> nth_error (A_of dl bs) k = Some (N.to_nat v).
Proof.
  unfold A_of. intros H.
  replace (map (fun x : N * dop => N.to_nat (fst x)) dl ++ [length bs]) with (map N.to_nat (map fst dl ++ [0 + blen bs])).
  - rewrite nth_error_map, H. reflexivity.
  - rewrite map_app, map_map. cbn [map]. unfold blen. rewrite N.add_0_l, Nat2N.id. reflexivity.
Qed.

Section Same.
Variable c0 : dcfg.
Let e' := renc c0.
Variables (bs : list byte) (dl : list (N * dop)) (ros1 ops2 : list operation).
Hypothesis Hdec : decode c0 bs = Some dl.
Hypothesis Hros : map (fun x => tr (snd x)) dl = map Some ros1.
Hypothesis Hwf2 : Forall (StackSpec.wf_op e') ops2.
Hypothesis Hlen1 : N.of_nat (length bs) < 2 ^ 63.
Hypothesis Hlen2 : N.of_nat (length (canon_bytes e' ops2)) < 2 ^ 63.
Hypothesis Hret : retargeted (A_of dl bs) (B_of e' ops2) ros1 ops2.

Lemma same_lengths : length dl = length ros1 /\ length ros1 = length ops2.
Proof. split; [|apply Hret]. pose proof (f_equal (@length _) Hros) as H. rewrite !map_length in H. exact H. Qed.

Lemma layout_same : layout_ok e' bs (canon_bytes e' ops2) (combine (A_of dl bs) (B_of e' ops2)).
Proof.
  destruct same_lengths as [L1 L2].
  assert (LA : length (A_of dl bs) = S (length dl)) by (unfold A_of; rewrite app_length, map_length; cbn; lia).
  assert (LB : length (B_of e' ops2) = S (length ops2)) by (unfold B_of; rewrite psums_length, !map_length; reflexivity).
  assert (Alast : nth_error (A_of dl bs) (length dl) = Some (length bs)).
  { unfold A_of. rewrite nth_error_app2 by (rewrite map_length; lia). rewrite map_length, Nat.sub_diag. reflexivity. }
  assert (Blast : nth_error (B_of e' ops2) (length ops2) = Some (length (canon_bytes e' ops2))).
  { unfold B_of, canon_bytes. pose proof (psums_last (map (@length byte) (map (enc_op e') ops2)) 0) as P.
    rewrite !map_length in P. rewrite P. rewrite concat_length. reflexivity. }
  (* what holds at every index below the last *)
  assert (Hk : forall k off d, nth_error dl k = Some (off, d) ->
            exists o1 o2 a' b',
              nth_error (A_of dl bs) k = Some (N.to_nat off) /\ (N.to_nat off < length bs)%nat /\
              nth_error ros1 k = Some o1 /\ nth_error ops2 k = Some o2 /\
              nth_error (A_of dl bs) (S k) = Some a' /\ nth_error (B_of e' ops2) (S k) = Some b' /\
              (exists b, nth_error (B_of e' ops2) k = Some b /\ (b < length (canon_bytes e' ops2))%nat /\
                 parse_op true e' (skipn b (canon_bytes e' ops2)) = Ok (o2, skipn b' (canon_bytes e' ops2))) /\
              parse_op true e' (skipn (N.to_nat off) bs) = Ok (o1, skipn a' bs)).
  { intros k off d Hd.
    destruct (decode_from_nth c0 _ _ _ _ Hdec k off d Hd) as [nxt [N1 [N2 [N3 [N4 N5]]]]].
    rewrite N.sub_0_r in N5. rewrite N.sub_0_r in N5.
    destruct (table_agrees_with_reader true c0 _ _ _ N5) as [o1 [To Po]].
    assert (R1 : nth_error ros1 k = Some o1).
    { pose proof (f_equal (fun l => nth_error l k) Hros) as E. cbv beta in E. rewrite !nth_error_map, Hd in E.
      cbn [option_map snd] in E. rewrite To in E. destruct (nth_error ros1 k); inversion E; reflexivity. }
    assert (Hk2 : (k < length ops2)%nat) by (rewrite <- L2, <- L1; apply nth_error_Some; congruence).
    destruct (nth_error ops2 k) as [o2|] eqn:E2; [|apply nth_error_None in E2; lia].
    assert (Es : nth_error (map (enc_op e') ops2) k = Some (enc_op e' o2)) by (rewrite nth_error_map, E2; reflexivity).
    destruct (psums_concat _ 0 _ _ Es) as [bk [B1 [B2 [_ [B4 B5]]]]].
    rewrite !Nat.sub_0_r in B4, B5.
    exists o1, o2, (N.to_nat nxt), (bk + length (enc_op e' o2))%nat.
    assert (A0 : nth_error (A_of dl bs) k = Some (N.to_nat off)).
    { apply A_of_nth. rewrite nth_error_app1 by (rewrite map_length; apply nth_error_Some; congruence).
      rewrite nth_error_map, Hd. reflexivity. }
    split; [exact A0|]. split; [unfold blen in N4; lia|]. split; [exact R1|]. split; [reflexivity|].
    split; [apply A_of_nth; exact N1|]. split; [exact B2|]. split.
    - exists bk. split; [exact B1|]. pose proof (enc_op_nonempty e' o2). split; [unfold canon_bytes; lia|].
      unfold canon_bytes. rewrite B4. apply decode_roundtrip_lemma.
      rewrite Forall_forall in Hwf2. apply Hwf2. eapply nth_error_In; eauto.
    - exact Po. }
  split.
  { (* (0, 0) *)
    eapply (nth_error_In_combine _ _ 0%nat).
    - unfold A_of. destruct dl as [|[o1 d1] l] eqn:Edl.
      + unfold decode in Hdec. apply decode_from_nil in Hdec. subst bs. reflexivity.
      + unfold decode in Hdec. apply decode_from_head in Hdec. subst o1. reflexivity.
    - unfold B_of. destruct (map (@length byte) (map (enc_op e') ops2)); reflexivity. }
  split; [exact Hlen1|]. split; [exact Hlen2|].
  intros a b Hin. destruct (combine_In_nth _ _ _ _ Hin) as [k [Ka Kb]].
  assert (Hkl : (k <= length dl)%nat).
  { assert (k < length (A_of dl bs))%nat by (apply nth_error_Some; congruence). lia. }
  destruct (Nat.eq_dec k (length dl)) as [->|Nk].
  - rewrite Alast in Ka. inversion Ka; subst a. rewrite L1, L2 in Kb. rewrite Blast in Kb. inversion Kb; subst b.
    split; [lia|]. split; [lia|]. split; [tauto|]. intros X; lia.
  - destruct (nth_error dl k) as [[off d]|] eqn:Ed; [|apply nth_error_None in Ed; lia].
    destruct (Hk _ _ _ Ed) as [o1 [o2 [a' [b' [A0 [A1 [R1 [R2 [A2 [B2 [[b0 [B0 [B1 PB]]] PA]]]]]]]]]]].
    rewrite A0 in Ka. inversion Ka; subst a. rewrite B0 in Kb. inversion Kb; subst b.
    split; [lia|]. split; [lia|]. split; [split; intros; lia|]. intros _.
    exists o1, o2, a', b'. split; [eapply nth_error_In_combine; eauto|]. split; [exact PA|]. split; [exact PB|].
    destruct Hret as [_ Hr]. eapply Hr; eauto.
Qed.

Theorem run_same F fuel dbg c answers :
  c_enc c = e' -> run F fuel dbg c bs answers = run F fuel dbg c (canon_bytes e' ops2) answers.
Proof. intros Hc. eapply run_layout_independent; [exact layout_same|exact Hc]. Qed.

End Same.

(* eval_same: for every expression decode_written covers, and every canonical re-encoding ops2 of what the reader
   sees in the written bytes (each operation well-formed for StackSpec.enc_op, Skip/Bra re-targeted to the
   re-encoding's own boundaries — `retargeted`), the evaluator's whole conversation is the same on both byte
   strings, for every fops, fuel, build mode, configuration and answer list. *)
Theorem eval_same_lemma dbg0 e uo refs base ex bs fx :
  forallb OpWr.wf_op ex = true -> wf_uoffs uo = true -> forallb decodable ex = true ->
  base + blen bs < 2 ^ 63 ->
  write_expr dbg0 e uo refs base ex = Ok (bs, fx) ->
  exists dl ros1,
    decode (dcfg_of e) bs = Some dl /\
    operations true (renc (dcfg_of e)) bs = (ros1, None) /\
    map (fun x => tr (snd x)) dl = map Some ros1 /\
    forall ops2,
      Forall (StackSpec.wf_op (renc (dcfg_of e))) ops2 ->
      N.of_nat (length (canon_bytes (renc (dcfg_of e)) ops2)) < 2 ^ 63 ->
      retargeted (A_of dl bs) (B_of (renc (dcfg_of e)) ops2) ros1 ops2 ->
      forall F fuel dbg c answers, c_enc c = renc (dcfg_of e) ->
        run F fuel dbg c bs answers = run F fuel dbg c (canon_bytes (renc (dcfg_of e)) ops2) answers.
Proof.
  intros Hwf Huo Hd Hpos H.
  destruct (decode_written_expr _ _ _ _ _ _ _ _ Hwf Huo Hd Hpos H) as [offsets [dl [Ho [Hdec Hdd]]]].
  pose proof Hdec as Hdec'. unfold decode in Hdec'.
  destruct (decode_from_operations true _ _ _ _ _ Hdec' (S (length bs))) as [ros [Hr Hm]]; [lia|].
  exists dl, ros. split; [exact Hdec|]. split; [exact Hr|]. split; [exact Hm|].
  intros ops2 Hw2 Hl2 Hret F fuel dbg c answers Hc.
  eapply run_same; eauto.
  unfold blen in Hpos. lia.
Qed.

(* ================= a computable canonical re-encoding ================= *)

Definition i16b (d : Z) : bool := ((-32768 <=? d) && (d <? 32768))%Z.

Fixpoint find_idx (A : list nat) (x : Z) (k : nat) : option nat :=
  match A with
  | [] => None
  | a :: r => if (Z.of_nat a =? x)%Z then Some k else find_idx r x (S k)
  end.

(* the k-th operation with its branch re-aimed at the boundary of B that corresponds to the boundary of A it
   reaches; None when it reaches no boundary or a displacement does not fit i16 *)
Definition retarget (A B : list nat) (k : nat) (o : operation) : option operation :=
  let tgt (d : Z) :=
    match nth_error A (S k), nth_error B (S k) with
    | Some a', Some b' =>
        match find_idx A (Z.of_nat a' + d) 0 with
        | Some j =>
            match nth_error B j with
            | Some bj => let d2 := (Z.of_nat bj - Z.of_nat b')%Z in
                         if i16b d && i16b d2 then Some d2 else None
            | None => None
            end
        | None => None
        end
    | _, _ => None
    end in
  match o with
  | OSkip d => option_map OSkip (tgt d)
  | OBra d => option_map OBra (tgt d)
  | _ => Some o
  end.

Fixpoint canon_from (A B : list nat) (k : nat) (ros : list operation) : option (list operation) :=
  match ros with
  | [] => Some []
  | o :: r =>
      match retarget A B k o, canon_from A B (S k) r with
      | Some o', Some l => Some (o' :: l)
      | _, _ => None
      end
  end.

Definition canon_ops (e' : OpDec.enc) (dl : list (N * dop)) (bs : list byte) (ros1 : list operation) : option (list operation) :=
  canon_from (A_of dl bs) (B_of e' ros1) 0 ros1.

Lemma find_idx_spec : forall A x k j, find_idx A x k = Some j ->
  exists a, (k <= j)%nat /\ nth_error A (j - k) = Some a /\ Z.of_nat a = x.
Proof.
  induction A as [|a r IH]; intros x k j H; cbn [find_idx] in H; [discriminate|].
  destruct (Z.of_nat a =? x)%Z eqn:E.
  - inversion H; subst. exists a. rewrite Nat.sub_diag. split; [lia|]. split; [reflexivity|lia].
  - destruct (IH _ _ _ H) as [a0 [L [N1 N2]]]. exists a0. split; [lia|].
    replace (j - k)%nat with (S (j - S k)) by lia. auto.
Qed.

Lemma canon_from_nth A B : forall ros k ops2, canon_from A B k ros = Some ops2 ->
  length ops2 = length ros /\
  forall i o1, nth_error ros i = Some o1 -> exists o2, nth_error ops2 i = Some o2 /\ retarget A B (k + i) o1 = Some o2.
Proof.
  induction ros as [|o r IH]; intros k ops2 H; cbn [canon_from] in H.
  - inversion H; subst. split; [reflexivity|]. intros i o1 Hi. destruct i; discriminate.
  - destruct (retarget A B k o) as [o'|] eqn:Er; [|discriminate].
    destruct (canon_from A B (S k) r) as [l|] eqn:El; [|discriminate]. inversion H; subst.
    destruct (IH _ _ El) as [Hl Hn]. split; [cbn [length]; lia|].
    intros i o1 Hi. destruct i as [|i]; cbn [nth_error] in *.
    + inversion Hi; subst. exists o'. rewrite Nat.add_0_r. auto.
    + destruct (Hn _ _ Hi) as [o2 [N1 N2]]. exists o2. replace (k + S i)%nat with (S k + i)%nat by lia. auto.
Qed.

(* retarget leaves an operation that is not a branch alone; a branch keeps its kind, and its displacement d becomes
   d2, the one to the boundary of B with the index j of the boundary of A that d reaches *)
Lemma retarget_inv A B k o o' : retarget A B k o = Some o' ->
  same_op (fun d d2 => exists a' b' j bj,
             nth_error A (S k) = Some a' /\ nth_error B (S k) = Some b' /\
             find_idx A (Z.of_nat a' + d) 0 = Some j /\ nth_error B j = Some bj /\
             d2 = (Z.of_nat bj - Z.of_nat b')%Z /\ i16b d = true /\ i16b d2 = true) o o'.
Proof.
  unfold retarget. destruct o; cbn [same_op]; intros H; try (injection H as <-; reflexivity).
  all: destruct (nth_error A (S k)) as [a'|] eqn:EA, (nth_error B (S k)) as [b'|] eqn:EB; try discriminate;
    destruct (find_idx A _ 0) as [j|] eqn:Ej; try discriminate; destruct (nth_error B j) as [bj|] eqn:Eb; try discriminate;
    destruct (i16b target && i16b _) eqn:Ei; try discriminate; injection H as <-;
    apply andb_true_iff in Ei; eexists; (split; [reflexivity|]); exists a', b', j, bj; tauto.
Qed.

Lemma retarget_size e' A B k o o' : retarget A B k o = Some o' -> length (enc_op e' o') = length (enc_op e' o).
Proof.
  intros H. apply retarget_inv in H. destruct o; cbn [same_op] in H; try (subst; reflexivity);
    destruct H as (d2 & -> & _); cbn [enc_op length]; unfold enc_i16; rewrite !enc_un_length; reflexivity.
Qed.

Lemma canon_from_sizes e' A B : forall ros k ops2, canon_from A B k ros = Some ops2 ->
  map (@length byte) (map (enc_op e') ops2) = map (@length byte) (map (enc_op e') ros).
Proof.
  induction ros as [|o r IH]; intros k ops2 H; cbn [canon_from] in H.
  - inversion H; reflexivity.
  - destruct (retarget A B k o) as [o'|] eqn:Er; [|discriminate].
    destruct (canon_from A B (S k) r) as [l|] eqn:El; [|discriminate]. inversion H; subst.
    cbn [map]. rewrite (retarget_size _ _ _ _ _ _ Er), (IH _ _ El). reflexivity.
Qed.

Lemma orel_refl pts a' b' o : (forall d, o <> OSkip d) -> (forall d, o <> OBra d) -> orel pts a' b' o o.
Proof. intros H1 H2. destruct o; cbn; try reflexivity; exfalso; [eapply H2|eapply H1]; reflexivity. Qed.

Theorem canon_ops_retargeted e' dl bs ros1 ops2 :
  canon_ops e' dl bs ros1 = Some ops2 -> retargeted (A_of dl bs) (B_of e' ops2) ros1 ops2.
Proof.
  unfold canon_ops. intros H.
  assert (HB : B_of e' ops2 = B_of e' ros1) by (unfold B_of; rewrite (canon_from_sizes _ _ _ _ _ _ H); reflexivity).
  rewrite HB. set (A := A_of dl bs) in *. set (B := B_of e' ros1) in *.
  destruct (canon_from_nth _ _ _ _ _ H) as [Hl Hn]. split; [symmetry; exact Hl|].
  intros k o1 o2 a' b' K1 K2 KA KB.
  destruct (Hn _ _ K1) as [o2' [K2' Hr]]. rewrite K2 in K2'. injection K2' as <-. cbn [Nat.add] in Hr.
  apply retarget_inv in Hr.
  destruct o1; cbn [same_op] in Hr; try (subst o2; apply orel_refl; intros d Hd; discriminate Hd).
  all: destruct Hr as (d2 & -> & a'' & b'' & j & bj & EA & EB & Ef & Eb & -> & I1 & I2);
    rewrite KA in EA; rewrite KB in EB; injection EA as <-; injection EB as <-;
    destruct (find_idx_spec _ _ _ _ Ef) as [aj [_ [Na Za]]]; rewrite Nat.sub_0_r in Na;
    cbn [orel]; unfold i16b, i16 in *; split; [lia|]; split; [lia|]; exists aj, bj;
    (split; [eapply nth_error_In_combine; eauto|lia]).
Qed.

(* ---- the canonical operations are well-formed: no side condition left on them ---- *)
Lemma operations_fuel_wf dbg e' : e_asz e' < 256 -> forall fuel bs ros st,
  operations_fuel fuel dbg e' bs = (ros, st) -> Forall (StackSpec.wf_op e') ros.
Proof.
  intros Ha. induction fuel as [|fuel IH]; intros bs ros st H; cbn [operations_fuel] in H.
  - inversion H; constructor.
  - destruct bs as [|b r]; [inversion H; constructor|].
    destruct (parse_op dbg e' (b :: r)) as [[o t]|x| |] eqn:Ep; try (inversion H; constructor).
    destruct (operations_fuel fuel dbg e' t) as [l t'] eqn:El. inversion H; subst.
    constructor; [eapply parse_wf; eauto|eapply IH; eauto].
Qed.

Lemma i16b_in_signed d : i16b d = true -> in_signed 16 d = true.
Proof. unfold i16b, in_signed. change (Z.of_N (2 ^ (16 - 1))) with 32768%Z. lia. Qed.

Lemma retarget_wf e' A B k o o' : StackSpec.wf_op e' o -> retarget A B k o = Some o' -> StackSpec.wf_op e' o'.
Proof.
  intros Hw H. apply retarget_inv in H. destruct o; cbn [same_op] in H; try (subst; exact Hw);
    destruct H as (d2 & -> & _ & _ & _ & _ & _ & _ & _ & _ & _ & _ & I2); cbn [StackSpec.wf_op]; apply i16b_in_signed; exact I2.
Qed.

Lemma canon_from_wf e' A B : forall ros k ops2, Forall (StackSpec.wf_op e') ros ->
  canon_from A B k ros = Some ops2 -> Forall (StackSpec.wf_op e') ops2.
Proof.
  induction ros as [|o r IH]; intros k ops2 HF H; cbn [canon_from] in H.
  - inversion H; constructor.
  - destruct (retarget A B k o) as [o'|] eqn:Er; [|discriminate].
    destruct (canon_from A B (S k) r) as [l|] eqn:El; [|discriminate]. inversion H; subst.
    inversion HF; subst. constructor; [eapply retarget_wf; eauto|eapply IH; eauto].
Qed.

(* so the re-encoding of what the reader saw needs no well-formedness hypothesis *)
Lemma canon_ops_wf dbg e' dl bs ros st ops2 :
  e_asz e' < 256 -> operations dbg e' bs = (ros, st) -> canon_ops e' dl bs ros = Some ops2 ->
  Forall (StackSpec.wf_op e') ops2.
Proof.
  intros Ha Hr Hc. eapply canon_from_wf; [|exact Hc]. eapply operations_fuel_wf; [exact Ha|exact Hr].
Qed.
