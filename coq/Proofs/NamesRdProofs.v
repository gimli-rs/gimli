(* Proofs/NamesRdProofs.v — C17: .debug_names bucket / hash iteration = exhaustive scan, DJB hash,
   layout and panic freedom of the name index readers. *)
From Coq Require Import List NArith ZArith Bool Lia ZifyBool ZifyN ZifyNat Sorted.
From Coq.Strings Require Import Byte.
Require Import GV.Base.Res GV.Base.Byt GV.Base.Ints GV.Model.Leb GV.Model.Prim.
Require Import GV.Spec.LebSpec GV.Spec.LookupSpec GV.Model.IndexRd GV.Model.NamesRd.
Require Import GV.Proofs.LebProofs GV.Proofs.PrimProofs GV.Proofs.IndexRdProofs.
Import ListNotations.
Local Open Scope N_scope.

Lemma lowercase_byte (b : byte) : to_ascii_lowercase (b2n b) = ascii_lower (b2n b).
Proof. destruct b; vm_compute; reflexivity. Qed.

Lemma djb_hash_byte_mod h1 h2 c :
  h1 mod 2 ^ 32 = h2 mod 2 ^ 32 -> djb_hash_byte h1 c = (h2 * 33 + c) mod 2 ^ 32.
Proof.
  intros H. unfold djb_hash_byte, wrap32. change two32 with (2 ^ 32).
  rewrite N.add_mod_idemp_l by (apply N.pow_nonzero; discriminate).
  rewrite <- (N.add_mod_idemp_l (h1 * 33)), <- (N.add_mod_idemp_l (h2 * 33)) by (apply N.pow_nonzero; discriminate).
  rewrite <- (N.mul_mod_idemp_l h1), <- (N.mul_mod_idemp_l h2) by (apply N.pow_nonzero; discriminate).
  rewrite H. reflexivity.
Qed.

Lemma djb_fold s : forall h1 h2,
  h1 mod 2 ^ 32 = h2 mod 2 ^ 32 -> h1 < 2 ^ 32 ->
  fold_left (fun h b => djb_hash_byte h (to_ascii_lowercase (b2n b))) s h1
  = (fold_left (fun h b => h * 33 + ascii_lower (b2n b)) s h2) mod 2 ^ 32.
Proof.
  induction s as [|b s IH]; intros h1 h2 H Hlt.
  - cbn [fold_left]. rewrite <- H. symmetry. apply N.mod_small. exact Hlt.
  - cbn [fold_left]. apply IH.
    + rewrite (djb_hash_byte_mod h1 h2 _ H), lowercase_byte.
      apply N.mod_mod. apply N.pow_nonzero. discriminate.
    + unfold djb_hash_byte, wrap32. apply N.mod_lt. discriminate.
Qed.

(* the hash does not distinguish the case of ASCII letters *)
Lemma ascii_lower_idem b : ascii_lower (ascii_lower b) = ascii_lower b.
Proof. unfold ascii_lower. destruct ((65 <=? b) && (b <=? 90)) eqn:E; [|rewrite E; reflexivity].
  destruct ((65 <=? b + 32) && (b + 32 <=? 90)) eqn:E2; [lia|reflexivity]. Qed.

(* the run of names of bucket b starting at position i *)
Fixpoint run_members (bc b : N) (i : N) (hs : list N) : list (N * N) :=
  match hs with
  | [] => []
  | h :: r => if h mod bc =? b then (i, h) :: run_members bc b (i + 1) r else []
  end.

(* names outside bucket b contribute nothing to it *)
Lemma bucket_members_skip bc b : forall pre i l,
  Forall (fun x => x mod bc <> b) pre ->
  bucket_members bc b i (pre ++ l) = bucket_members bc b (i + N.of_nat (length pre)) l.
Proof.
  induction pre as [|x pre IH]; intros i l F; cbn [app length].
  - rewrite N.add_0_r. reflexivity.
  - inversion F as [|? ? Hx F']; subst. cbn [bucket_members].
    destruct (x mod bc =? b) eqn:E; [apply N.eqb_eq in E; contradiction|].
    rewrite (IH (i + 1) l F'), Nat2N.inj_succ, <- N.add_assoc, N.add_1_l. reflexivity.
Qed.

Lemma members_run bc b : forall r j,
  (forall x, In x (drop_run bc b r) -> x mod bc <> b) ->
  bucket_members bc b j r = run_members bc b j r.
Proof.
  induction r as [|x r IH]; intros j H; [reflexivity|].
  cbn [bucket_members run_members drop_run] in *.
  destruct (x mod bc =? b) eqn:E.
  - f_equal. apply IH. exact H.
  - rewrite <- (app_nil_r r), bucket_members_skip; [reflexivity|].
    apply Forall_forall. intros y Hy. apply H. right. exact Hy.
Qed.

(* the bucket is empty, or its entry designates the first name with that bucket number *)
Lemma first_in_bucket_cases bc b : forall hs i,
  (first_in_bucket bc b i hs = 0 /\ Forall (fun x => x mod bc <> b) hs) \/
  (exists pre h r, hs = pre ++ h :: r /\ Forall (fun x => x mod bc <> b) pre /\ h mod bc = b /\
                   first_in_bucket bc b i hs = i + N.of_nat (length pre) + 1).
Proof.
  induction hs as [|h r IH]; intros i; [left; split; [reflexivity|constructor]|].
  cbn [first_in_bucket]. destruct (h mod bc =? b) eqn:E.
  - apply N.eqb_eq in E. right. exists [], h, r. cbn [app length]. rewrite N.add_0_r. auto.
  - apply N.eqb_neq in E. destruct (IH (i + 1)) as [(H0 & F)|(pre & h' & r' & -> & F & Hh & Hf)].
    + left. split; [exact H0|constructor; assumption].
    + right. exists (h :: pre), h', r'. cbn [app length].
      rewrite Hf, Nat2N.inj_succ, <- N.add_1_l, !N.add_assoc. auto.
Qed.

Lemma grouped_app bc : forall pre l, grouped bc (pre ++ l) -> grouped bc l.
Proof. induction pre as [|x pre IH]; intros l G; [exact G|]. apply IH. exact (proj2 G). Qed.

Lemma filter_members_positions bc h : forall hs i,
  map fst (filter (fun p => snd p =? h) (bucket_members bc (h mod bc) i hs)) = positions h i hs.
Proof.
  induction hs as [|x r IH]; intros i; [reflexivity|]. cbn [bucket_members positions].
  destruct (x mod bc =? h mod bc) eqn:E.
  - cbn [filter snd]. destruct (x =? h) eqn:Ex; cbn [map fst]; rewrite IH; reflexivity.
  - destruct (x =? h) eqn:Ex; [assert (x = h) by lia; subst; lia|]. apply IH.
Qed.

Lemma nseq_nth : forall len start k, (k < len)%nat -> nth_error (nseq start len) k = Some (start + N.of_nat k).
Proof.
  induction len as [|len IH]; intros start k H; [lia|]. destruct k as [|k]; cbn [nseq nth_error].
  - f_equal. lia.
  - rewrite IH by lia. f_equal. lia.
Qed.

Lemma build_buckets_nth bc hs b :
  b < bc -> nth_error (build_buckets bc hs) (N.to_nat b) = Some (first_in_bucket bc b 0 hs).
Proof.
  intros H. unfold build_buckets. rewrite nth_error_map, nseq_nth by lia. cbn. f_equal. f_equal. lia.
Qed.

Lemma build_buckets_length bc hs : length (build_buckets bc hs) = N.to_nat bc.
Proof.
  unfold build_buckets. rewrite map_length.
  assert (H : forall len start, length (nseq start len) = len) by (induction len; intros; cbn; auto).
  apply H.
Qed.

Lemma first_in_bucket_le bc b : forall hs i, first_in_bucket bc b i hs <= i + N.of_nat (length hs).
Proof.
  induction hs as [|h r IH]; intros i; cbn [first_in_bucket length]; [lia|].
  destruct (h mod bc =? b); [lia|]. specialize (IH (i + 1)). lia.
Qed.

Lemma bucket_loop_words dbg be bc b nc : forall hs fuel idx,
  bc <> 0 -> nc < 2 ^ 32 -> idx + N.of_nat (length hs) = nc ->
  Forall (fun v => v < 2 ^ 32) hs -> (length hs < fuel)%nat ->
  bucket_loop dbg be fuel (enc_words 4 be hs) idx nc b bc = (run_members bc b idx hs, SDone).
Proof.
  induction hs as [|h r IH]; intros fuel idx Hbc Hnc Hidx F Hf.
  - destruct fuel as [|fuel]; [cbn in Hf; lia|]. cbn [bucket_loop length] in *.
    destruct (nc <=? idx) eqn:E; [reflexivity|lia].
  - destruct fuel as [|fuel]; [cbn in Hf; lia|]. cbn [bucket_loop length] in *.
    destruct (nc <=? idx) eqn:E; [lia|].
    inversion F as [|? ? Hh F']; subst.
    rewrite enc_words_cons, read_un_enc_un_small by (change (p256 4) with (2 ^ 32); exact Hh).
    rewrite chk_add_ok by lia.
    destruct (bc =? 0) eqn:E0; [lia|].
    cbn [run_members]. destruct (h mod bc =? b) eqn:Eb; cbn [negb]; [|reflexivity].
    rewrite (IH fuel (idx + 1)) by (try assumption; lia). reflexivity.
Qed.

(* for ANY bytes: the loop ends, yields at most the remaining names, and does not panic *)
Lemma bucket_loop_total dbg be bc b nc : forall fuel reader idx,
  bc <> 0 -> nc < 2 ^ 32 -> (length reader < fuel)%nat ->
  let '(items, st) := bucket_loop dbg be fuel reader idx nc b bc in
  st <> SFuel /\ st <> SPanic /\ N.of_nat (length items) <= nc - idx.
Proof.
  induction fuel as [|fuel IH]; intros reader idx Hbc Hnc Hf; [lia|].
  cbn [bucket_loop]. destruct (nc <=? idx) eqn:E.
  { cbn. repeat split; try discriminate; lia. }
  rewrite read_un_exact. destruct (length reader <? 4)%nat eqn:El.
  { cbn. repeat split; try discriminate; lia. }
  rewrite chk_add_ok by lia. destruct (bc =? 0) eqn:E0; [lia|].
  destruct (negb (_ mod bc =? b)).
  - cbn. repeat split; try discriminate; lia.
  - specialize (IH (skipn 4 reader) (idx + 1) Hbc Hnc).
    destruct (bucket_loop dbg be fuel (skipn 4 reader) (idx + 1) nc b bc) as [items st].
    unfold run_cons. cbn [fst snd length].
    destruct IH as (H1 & H2 & H3); [rewrite skipn_length; lia|].
    repeat split; try assumption. lia.
Qed.

(* a name index whose bucket and hash arrays follow DWARF 5 §6.1.1.4.5 *)
Definition names_wf (be : bool) (ix : name_index) (hs : list N) : Prop :=
  let bc := ni_bucket_count ix in
  0 < bc /\ bc < 2 ^ 32 /\
  ni_buckets ix = enc_words 4 be (build_buckets bc hs) /\
  ni_hashes ix = enc_words 4 be hs /\
  ni_name_count ix = N.of_nat (length hs) /\ N.of_nat (length hs) < 2 ^ 32 /\
  Forall (fun v => v < 2 ^ 32) hs /\ grouped bc hs.

Lemma bucket_iter_new_wf dbg be ix hs b :
  names_wf be ix hs -> b < ni_bucket_count ix ->
  bucket_iter_new dbg be ix b =
    let s1 := first_in_bucket (ni_bucket_count ix) b 0 hs in
    Ok (if s1 =? 0 then None else Some (enc_words 4 be (skipn (N.to_nat (s1 - 1)) hs), s1 - 1)).
Proof.
  intros (Hbc0 & Hbc & Hb & Hh & Hnc & Hlen & F & G) Hlt. unfold bucket_iter_new. cbv zeta.
  change (2 ^ 32) with 4294967296 in *.
  rewrite chk_mul_ok by (change (2 ^ 64) with 18446744073709551616; lia). cbn [bind].
  pose proof (build_buckets_nth (ni_bucket_count ix) hs b Hlt) as Hn.
  pose proof (first_in_bucket_le (ni_bucket_count ix) b hs 0) as Hle.
  destruct (word_at_words 4 be _ [] _ _ Hn) as (r & Hr & r' & Hr').
  { change (p256 4) with (2 ^ 32). change (2 ^ 32) with 4294967296. lia. }
  rewrite app_nil_r, N2Nat.id in Hr. change (N.of_nat 4) with 4 in Hr.
  rewrite Hb, Hr. cbn [bind]. rewrite Hr'. cbn [bind].
  set (s1 := first_in_bucket (ni_bucket_count ix) b 0 hs) in *.
  destruct (s1 =? 0) eqn:E0; [reflexivity|].
  rewrite chk_sub_ok by lia. cbn [bind].
  rewrite chk_mul_ok by (change (2 ^ 64) with 18446744073709551616; lia). cbn [bind].
  rewrite Hh. rewrite <- (app_nil_r (enc_words 4 be hs)).
  replace ((s1 - 1) * 4) with (N.of_nat (N.to_nat (s1 - 1)) * N.of_nat 4) by (change (N.of_nat 4) with 4; lia).
  rewrite rd_skip_words by lia. cbn [bind]. rewrite app_nil_r. reflexivity.
Qed.

Theorem find_by_bucket_wf dbg be ix hs b :
  names_wf be ix hs -> b < ni_bucket_count ix ->
  ni_find_by_bucket dbg be ix b =
    Ok (match bucket_members (ni_bucket_count ix) b 0 hs with
        | [] => None
        | l => Some (l, SDone)
        end).
Proof.
  intros Hwf Hlt. unfold ni_find_by_bucket. rewrite (bucket_iter_new_wf dbg be ix hs b Hwf Hlt). cbv zeta.
  destruct Hwf as (Hbc0 & Hbc & Hb & Hh & Hnc & Hlen & F & G).
  destruct (first_in_bucket_cases (ni_bucket_count ix) b hs 0)
    as [(E & Hnone)|(pre & h & r & -> & Hpre & Hhb & E)]; rewrite E.
  - rewrite <- (app_nil_r hs), (bucket_members_skip _ _ _ _ _ Hnone). reflexivity.
  - rewrite (bucket_members_skip _ _ _ _ _ Hpre), N.add_0_l in *.
    apply grouped_app in G. destruct G as [G _]. rewrite Hhb in G.
    rewrite (proj2 (N.eqb_neq _ 0)) by (rewrite N.add_1_r; apply N.neq_succ_0). cbn [bind].
    rewrite N.add_sub, Nat2N.id, skipn_app, skipn_all, Nat.sub_diag. cbn [skipn app].
    rewrite (bucket_loop_words dbg be (ni_bucket_count ix) b (ni_name_count ix) (h :: r)).
    + cbn [bucket_members run_members]. rewrite Hhb, N.eqb_refl, (members_run _ _ _ _ G). reflexivity.
    + apply N.neq_0_lt_0. exact Hbc0.
    + rewrite Hnc. exact Hlen.
    + rewrite Hnc, app_length, Nat2N.inj_add. reflexivity.
    + apply Forall_app in F. exact (proj2 F).
    + rewrite enc_words_length. apply Nat.lt_succ_r. cbn [length]. lia.
Qed.

Theorem find_by_hash_wf dbg be ix hs h :
  names_wf be ix hs ->
  ni_find_by_hash dbg be ix h = Ok (positions h 0 hs, SDone).
Proof.
  intros Hwf. unfold ni_find_by_hash.
  pose proof Hwf as (Hbc0 & _).
  destruct (ni_bucket_count ix =? 0) eqn:E0; [lia|].
  rewrite (find_by_bucket_wf dbg be ix hs (h mod ni_bucket_count ix) Hwf)
    by (apply N.mod_lt; lia).
  cbn [bind].
  rewrite <- (filter_members_positions (ni_bucket_count ix) h hs 0).
  destruct (bucket_members (ni_bucket_count ix) (h mod ni_bucket_count ix) 0 hs); reflexivity.
Qed.

(* positions really are the exhaustive scan: i + j is listed iff the j-th hash is h *)
Lemma positions_spec h : forall hs i k,
  In k (positions h i hs) <-> exists j, nth_error hs j = Some h /\ k = i + N.of_nat j.
Proof.
  induction hs as [|x r IH]; intros i k; cbn [positions].
  - split; [intros []|intros ([|j] & H & _); discriminate].
  - assert (Hr : In k (positions h (i + 1) r) <->
                 exists j, nth_error (x :: r) (S j) = Some h /\ k = i + N.of_nat (S j)).
    { rewrite IH. split; intros (j & H & ->); exists j; (split; [exact H|lia]). }
    destruct (N.eqb_spec x h) as [->|Hne]; cbn [In]; rewrite Hr; split.
    + intros [<-|(j & H)]; [exists 0%nat; split; [reflexivity|lia]|exists (S j); exact H].
    + intros ([|j] & H & ->); [left; lia|right; exists j; split; [exact H|reflexivity]].
    + intros (j & H). exists (S j). exact H.
    + intros ([|j] & H & ->); [cbn in H; congruence|exists j; split; [exact H|reflexivity]].
Qed.

Lemma positions_sorted h : forall hs i, StronglySorted N.lt (positions h i hs) /\ Forall (fun k => i <= k) (positions h i hs).
Proof.
  induction hs as [|x r IH]; intros i; cbn [positions]; [split; constructor|].
  destruct (IH (i + 1)) as [S1 F1].
  assert (F2 : Forall (fun k => i <= k) (positions h (i + 1) r)).
  { eapply Forall_impl; [|exact F1]. cbn. intros; lia. }
  destruct (x =? h).
  - split.
    + constructor; [exact S1|]. eapply Forall_impl; [|exact F1]. cbn. intros; lia.
    + constructor; [lia|exact F2].
  - split; assumption.
Qed.

Lemma post_read_u8 bs :
  post (fun p => fst p < 256 /\ (length bs = S (length (snd p)))%nat) (read_u8 bs).
Proof. destruct bs as [|b r]; cbn; [exact I|]. split; [apply b2n_lt|reflexivity]. Qed.

Lemma split_leb_shorter bs e r : split_leb bs = Some (e, r) -> (length r < length bs)%nat.
Proof.
  intros H. pose proof (split_leb_nonempty _ _ _ H). rewrite (split_leb_app _ _ _ H), app_length. lia.
Qed.

Lemma post_read_uleb128 dbg bs :
  post (fun p => fst p < 2 ^ 64 /\ (length (snd p) < length bs)%nat) (read_uleb128 dbg bs).
Proof.
  apply post_intro; [apply read_uleb128_total|]. intros [v r] H.
  apply read_uleb128_ok in H. destruct H as (e & Hs & _ & _ & Hv).
  split; [exact Hv|exact (split_leb_shorter _ _ _ Hs)].
Qed.

Lemma post_read_uleb128_u16 bs :
  post (fun p => fst p < 2 ^ 16 /\ (length (snd p) < length bs)%nat) (read_uleb128_u16 bs).
Proof.
  apply post_intro; [apply read_uleb128_u16_no_panic|]. intros [v r] H.
  apply read_uleb128_u16_ok in H. destruct H as (e & Hs & _ & _ & Hv).
  split; [exact Hv|exact (split_leb_shorter _ _ _ Hs)].
Qed.

Lemma post_nattrs_parse : forall fuel bs, (length bs < fuel)%nat ->
  post (fun p => (length (snd p) <= length bs)%nat) (nattrs_parse fuel bs).
Proof.
  induction fuel as [|fuel IH]; intros bs Hf; [lia|]. cbn [nattrs_parse].
  eapply post_bind; [apply post_read_uleb128_u16|]. intros [name r] _ (_ & Hl1). cbn [fst snd] in *.
  eapply post_bind; [apply post_read_uleb128_u16|]. intros [form r'] _ (_ & Hl2). cbn [fst snd] in *.
  destruct ((name =? 0) && (form =? 0)); [cbn; lia|].
  destruct (name =? 0); [exact I|]. destruct (form =? 0); [exact I|].
  eapply post_bind; [apply IH; lia|]. intros [l r''] _ Hl3. cbn in *. lia.
Qed.

Lemma post_nabbrevs_parse dbg : forall fuel bs, (length bs < fuel)%nat ->
  post (fun _ => True) (nabbrevs_parse dbg fuel bs).
Proof.
  induction fuel as [|fuel IH]; intros bs Hf; [lia|]. cbn [nabbrevs_parse].
  destruct bs as [|b0 bs0]; [exact I|]. set (bs := b0 :: bs0) in *.
  eapply post_bind; [apply post_read_uleb128|]. intros [code r] _ (_ & Hl1). cbn [fst snd] in *.
  destruct (code =? 0); [exact I|].
  eapply post_bind; [apply post_read_uleb128_u16|]. intros [tag r1] _ (_ & Hl2). cbn [fst snd] in *.
  destruct (tag =? 0); [exact I|].
  eapply post_bind; [apply post_nattrs_parse; lia|]. intros [attrs r2] _ Hl3. cbn [fst snd] in *.
  eapply post_bind; [apply IH; lia|]. intros; exact I.
Qed.

Lemma post_name_abbrevs dbg bs : post (fun _ => True) (name_abbrevs dbg bs).
Proof. unfold name_abbrevs. apply post_nabbrevs_parse. lia. Qed.

Lemma post_read_initial_length be bs :
  post (fun p => fst (fst p) < 2 ^ 64 /\ (length (snd p) < length bs)%nat) (read_initial_length be bs).
Proof.
  unfold read_initial_length.
  eapply post_bind; [apply post_read_un|]. intros [v r] _ (Hv & Hr & Hl). cbn [fst snd] in *.
  assert (Hlr : (length r < length bs)%nat) by (subst r; rewrite skipn_length; lia).
  destruct (v <? 4294967280) eqn:E; [cbn; split; [change (2 ^ 64) with 18446744073709551616; lia|exact Hlr]|].
  destruct (v =? 4294967295); [|exact I].
  eapply post_bind; [apply post_read_un|]. intros [v8 r8] _ (Hv8 & Hr8 & Hl8). cbn [fst snd] in *.
  cbn. split; [exact Hv8|]. subst r8. rewrite skipn_length. lia.
Qed.

Definition nh_wf (h : name_header) : Prop :=
  nh_cu_count h < 2 ^ 32 /\ nh_ltu_count h < 2 ^ 32 /\ nh_ftu_count h < 2 ^ 32 /\
  nh_bucket_count h < 2 ^ 32 /\ nh_name_count h < 2 ^ 32 /\ nh_abbrev_size h < 2 ^ 32.

Lemma post_name_header_parse dbg be off bs :
  post (fun p => nh_wf (fst p) /\ (length (snd p) < length bs)%nat) (name_header_parse dbg be off bs).
Proof.
  unfold name_header_parse.
  eapply post_bind; [apply post_read_initial_length|]. intros [[len f64] r] _ (_ & Hl0). cbn [fst snd] in *.
  eapply post_bind; [apply post_rd_split|]. intros [inp rest] _ (_ & Hrest & _). cbn [fst snd] in *.
  assert (Hlr : (length rest < length bs)%nat) by (subst rest; rewrite skipn_length; lia).
  eapply post_bind; [apply post_read_un|]. intros [version i0] _ _.
  destruct (negb (version =? 5)); [exact I|].
  eapply post_bind; [apply post_rd_skip|]. intros i1 _ _.
  eapply post_bind; [apply post_read_un|]. intros [cu i2] _ (Hcu & _).
  eapply post_bind; [apply post_read_un|]. intros [ltu i3] _ (Hltu & _).
  eapply post_bind; [apply post_read_un|]. intros [ftu i4] _ (Hftu & _).
  eapply post_bind; [apply post_read_un|]. intros [bc i5] _ (Hbc & _).
  eapply post_bind; [apply post_read_un|]. intros [nc i6] _ (Hnc & _).
  eapply post_bind; [apply post_read_un|]. intros [asz i7] _ (Hasz & _).
  eapply post_bind; [apply post_read_un|]. intros [aug i8] _ (Haug & _).
  cbn [fst snd] in *. change (p256 4) with (2 ^ 32) in *.
  eapply post_bind with (P := fun _ => True).
  { destruct (0 <? aug); [|exact I].
    eapply post_bind; [apply post_rd_split|]. intros [v i9] _ _.
    assert (H3 : N.land aug 3 <= 4) by (eapply N.le_trans; [apply land_le_r|discriminate]).
    rewrite chk_sub_ok by exact H3. cbn [bind].
    eapply post_bind; [apply post_rd_skip|]. intros; exact I. }
  intros [a i10] _ _. cbn. split; [|exact Hlr]. unfold nh_wf. cbn. tauto.
Qed.

Lemma name_headers_loop_total dbg be total : forall fuel bs,
  (length bs < fuel)%nat -> blen bs <= total ->
  let '(hs, st) := name_headers_loop dbg be fuel total bs in
  st <> SPanic /\ st <> SFuel /\ Forall nh_wf hs.
Proof.
  induction fuel as [|fuel IH]; intros bs Hf Ht; [lia|]. cbn [name_headers_loop].
  destruct bs as [|b0 bs0]; [cbn; repeat split; try discriminate; constructor|].
  set (bs := b0 :: bs0) in *.
  rewrite chk_sub_ok by exact Ht.
  pose proof (post_name_header_parse dbg be (total - blen bs) bs) as P.
  destruct (name_header_parse dbg be (total - blen bs) bs) as [[h rest]| e | |]; cbn in P; try contradiction.
  - cbn [fst snd] in P. destruct P as (Hwf & Hl).
    specialize (IH rest). destruct (name_headers_loop dbg be fuel total rest) as [hs st].
    unfold run_cons. cbn [fst snd].
    unfold bs, blen in *. cbn [length] in *. destruct IH as (H1 & H2 & H3); [lia|lia|].
    repeat split; try assumption. constructor; assumption.
  - cbn. repeat split; try discriminate. constructor.
Qed.

(* NameIndex::new: the slices have the §6.1.1.2 sizes, for any header content *)
Definition ni_wf (ix : name_index) : Prop :=
  let ws := word_size (ni_fmt64 ix) in
  ni_cu_count ix < 2 ^ 32 /\ ni_ltu_count ix < 2 ^ 32 /\ ni_ftu_count ix < 2 ^ 32 /\
  ni_bucket_count ix < 2 ^ 32 /\ ni_name_count ix < 2 ^ 32 /\
  blen (ni_cu_list ix) = ni_cu_count ix * ws /\
  blen (ni_ltu_list ix) = ni_ltu_count ix * ws /\
  blen (ni_ftu_list ix) = ni_ftu_count ix * 8 /\
  blen (ni_buckets ix) = ni_bucket_count ix * 4 /\
  blen (ni_hashes ix) = (if ni_bucket_count ix =? 0 then 0 else ni_name_count ix * 4) /\
  blen (ni_names ix) = ni_name_count ix * ws /\
  blen (ni_entry_offsets ix) = ni_name_count ix * ws.

Theorem post_name_index_new dbg h : nh_wf h -> post ni_wf (name_index_new dbg h).
Proof.
  intros (Hcu & Hltu & Hftu & Hbc & Hnc & Hasz). unfold name_index_new.
  change (2 ^ 32) with 4294967296 in *.
  assert (Hws : word_size (nh_fmt64 h) = 4 \/ word_size (nh_fmt64 h) = 8) by (destruct (nh_fmt64 h); cbn; auto).
  set (ws := word_size (nh_fmt64 h)) in *.
  rewrite !chk_mul_ok by (change (2 ^ 64) with 18446744073709551616; lia). cbn [bind].
  eapply post_bind with (P := fun v => v = (if nh_bucket_count h =? 0 then 0 else nh_name_count h * 4)).
  { destruct (nh_bucket_count h =? 0); [reflexivity|].
    rewrite ?chk_mul_ok by (change (2 ^ 64) with 18446744073709551616; lia). reflexivity. }
  intros hsz _ ->.
  rewrite ?chk_mul_ok by (change (2 ^ 64) with 18446744073709551616; lia). cbn [bind].
  eapply post_bind; [apply post_rd_split|]. intros [cu r1] _ (E1 & _ & L1).
  eapply post_bind; [apply post_rd_split|]. intros [ltu r2] _ (E2 & _ & L2).
  eapply post_bind; [apply post_rd_split|]. intros [ftu r3] _ (E3 & _ & L3).
  eapply post_bind; [apply post_rd_split|]. intros [bk r4] _ (E4 & _ & L4).
  eapply post_bind; [apply post_rd_split|]. intros [hsh r5] _ (E5 & _ & L5).
  eapply post_bind; [apply post_rd_split|]. intros [nm r6] _ (E6 & _ & L6).
  eapply post_bind; [apply post_rd_split|]. intros [eo r7] _ (E7 & _ & L7).
  eapply post_bind; [apply post_rd_split|]. intros [ab r8] _ (E8 & _ & L8).
  cbn [fst snd] in *.
  eapply post_bind; [apply post_name_abbrevs|]. intros abbrevs _ _.
  cbn [Lib.post]. unfold ni_wf. cbn. fold ws. change (2 ^ 32) with 4294967296.
  subst cu ltu ftu bk hsh nm eo.
  rewrite !blen_firstn by assumption. repeat split; try assumption; reflexivity.
Qed.

Lemma post_read_word f64 be bs :
  post (fun p => fst p < 2 ^ 64 /\ (length (snd p) < length bs)%nat) (read_word f64 be bs).
Proof.
  unfold read_word. destruct f64.
  - eapply post_weaken; [apply post_read_un|]. intros [v r] (Hv & Hr & Hl). cbn [fst snd] in *.
    split; [exact Hv|]. subst r. rewrite skipn_length. lia.
  - eapply post_weaken; [apply post_read_un|]. intros [v r] (Hv & Hr & Hl). cbn [fst snd] in *.
    change (p256 4) with (2 ^ 32) in Hv.
    split; [change (2 ^ 32) with 4294967296 in Hv; change (2 ^ 64) with 18446744073709551616; lia|].
    subst r. rewrite skipn_length. lia.
Qed.

Lemma post_word_at dbg be f64 tbl i : i < 2 ^ 32 -> post (fun v => v < 2 ^ 64) (word_at dbg be f64 tbl i).
Proof.
  intros Hi. unfold word_at. change (2 ^ 32) with 4294967296 in Hi.
  rewrite chk_mul_ok by (destruct f64; cbn [word_size]; change (2 ^ 64) with 18446744073709551616; lia).
  cbn [bind]. eapply post_bind; [apply post_rd_skip|]. intros r _ _.
  unfold rd_word. eapply post_bind; [apply post_read_word|]. intros [v r'] _ (Hv & _). exact Hv.
Qed.

Lemma post_foreign_type_unit dbg be ix i : i < 2 ^ 32 -> post (fun _ => True) (ni_foreign_type_unit dbg be ix i).
Proof.
  intros Hi. unfold ni_foreign_type_unit. change (2 ^ 32) with 4294967296 in Hi.
  rewrite chk_mul_ok by (change (2 ^ 64) with 18446744073709551616; lia). cbn [bind].
  eapply post_bind; [apply post_rd_skip|]. intros r _ _.
  eapply post_bind; [apply post_read_un|]. intros [v r'] _ _; exact I.
Qed.

Lemma post_type_unit dbg be ix i : i < 2 ^ 32 -> post (fun _ => True) (ni_type_unit dbg be ix i).
Proof.
  intros Hi. unfold ni_type_unit. destruct (ni_ltu_count ix <=? i).
  - eapply post_bind; [apply post_foreign_type_unit; lia|]. intros; exact I.
  - eapply post_bind; [apply post_word_at; exact Hi|]. intros; exact I.
Qed.

(* bucket and hash iteration of any parsed index: no panic (in particular no division by zero),
   termination, and never more items than there are names *)
Lemma post_bucket_iter_new dbg be ix b :
  ni_wf ix -> b < 2 ^ 32 -> post (fun _ => ni_bucket_count ix <> 0) (bucket_iter_new dbg be ix b).
Proof.
  intros (_ & _ & _ & Hbc & Hnc & _ & _ & _ & Hbl & _) Hb. unfold bucket_iter_new.
  change (2 ^ 32) with 4294967296 in *.
  rewrite chk_mul_ok by (change (2 ^ 64) with 18446744073709551616; lia). cbn [bind].
  destruct (N.eq_dec (ni_bucket_count ix) 0) as [E0|E0].
  { (* no hash table: the bucket array is empty and the read fails *)
    assert (Hnil : ni_buckets ix = []).
    { rewrite E0 in Hbl. unfold blen in Hbl. destruct (ni_buckets ix); [reflexivity|cbn in Hbl; lia]. }
    rewrite Hnil. destruct (rd_skip_cases (b * 4) []) as [(H & _)|(H & _)]; rewrite H; cbn [bind]; [|exact I].
    rewrite skipn_nil. exact I. }
  eapply post_bind; [apply post_rd_skip|]. intros r _ _.
  eapply post_bind; [apply post_read_un|]. intros [start r'] _ (Hst & _). cbn [fst] in Hst.
  change (p256 4) with (2 ^ 32) in Hst. change (2 ^ 32) with 4294967296 in Hst.
  destruct (start =? 0) eqn:Es; [exact E0|].
  rewrite chk_sub_ok by lia. cbn [bind].
  rewrite chk_mul_ok by (change (2 ^ 64) with 18446744073709551616; lia). cbn [bind].
  eapply post_bind; [apply post_rd_skip|]. intros reader _ _. exact E0.
Qed.

Lemma filter_len_le {A} (f : A -> bool) l : (length (filter f l) <= length l)%nat.
Proof. induction l as [|a l IH]; cbn; [lia|]. destruct (f a); cbn; lia. Qed.

Lemma post_read_nform dbg be form bs :
  post (fun p => (length (snd p) <= length bs)%nat) (read_nform dbg be form bs).
Proof.
  unfold read_nform.
  assert (U8 : forall (f : N -> nval), post (fun p : nval * list byte => (length (snd p) <= length bs)%nat)
                 (let* (v, r) := read_u8 bs in Ok (f v, r))).
  { intros f. eapply post_bind; [apply post_read_u8|]. intros [v r] _ (_ & Hl). cbn in *. lia. }
  assert (UN : forall n (f : N -> nval), post (fun p : nval * list byte => (length (snd p) <= length bs)%nat)
                 (let* (v, r) := read_un n be bs in Ok (f v, r))).
  { intros n f. eapply post_bind; [apply post_read_un|]. intros [v r] _ (_ & Hr & Hl). cbn in *.
    subst r. rewrite skipn_length. lia. }
  assert (UL : forall (f : N -> nval), post (fun p : nval * list byte => (length (snd p) <= length bs)%nat)
                 (let* (v, r) := read_uleb128 dbg bs in Ok (f v, r))).
  { intros f. eapply post_bind; [apply post_read_uleb128|]. intros [v r] _ (_ & Hl). cbn in *. lia. }
  repeat match goal with
         | |- post _ (if ?c then _ else _) => destruct c
         end;
  try apply U8; try apply UN; try apply UL; try exact I.
  cbn. lia.
Qed.

Lemma post_read_nattrs dbg be : forall specs bs,
  post (fun p => (length (snd p) <= length bs)%nat) (read_nattrs dbg be specs bs).
Proof.
  induction specs as [|[name form] specs IH]; intros bs; [cbn; lia|]. cbn [read_nattrs].
  eapply post_bind; [apply post_read_nform|]. intros [v bs'] _ Hl. cbn [snd] in Hl.
  eapply post_bind; [apply IH|]. intros [l bs''] _ Hl2. cbn in *. lia.
Qed.

Lemma post_nentry_parse dbg be abbrevs off bs :
  post (fun p => (length (snd p) < length bs)%nat) (nentry_parse dbg be abbrevs off bs).
Proof.
  unfold nentry_parse.
  eapply post_bind; [apply post_read_uleb128|]. intros [code r] _ (_ & Hl). cbn [snd] in Hl.
  destruct (code =? 0); [cbn; lia|].
  destruct (nabbrev_get code abbrevs) as [a|]; [|exact I].
  eapply post_bind; [apply post_read_nattrs|]. intros [attrs r'] _ Hl2. cbn in *. lia.
Qed.

Lemma nentries_loop_total dbg be abbrevs end_offset : forall fuel bs,
  (length bs < fuel)%nat -> blen bs <= end_offset ->
  let '(es, st) := nentries_loop dbg be fuel abbrevs end_offset bs in st <> SPanic /\ st <> SFuel.
Proof.
  induction fuel as [|fuel IH]; intros bs Hf Hle; [lia|]. cbn [nentries_loop].
  destruct bs as [|b0 bs0]; [split; discriminate|]. set (bs := b0 :: bs0) in *.
  rewrite chk_sub_ok by exact Hle.
  pose proof (post_nentry_parse dbg be abbrevs (end_offset - blen bs) bs) as P.
  destruct (nentry_parse dbg be abbrevs (end_offset - blen bs) bs) as [[[e|] r]| err | |];
    cbn in P; try contradiction; try (split; discriminate).
  specialize (IH r). destruct (nentries_loop dbg be fuel abbrevs end_offset r) as [es st].
  unfold run_cons. cbn [snd]. unfold bs, blen in *. cbn [length] in *. apply IH; lia.
Qed.

Theorem name_entries_total dbg be ix i :
  i < 2 ^ 32 -> post (fun p => snd p <> SPanic /\ snd p <> SFuel) (ni_name_entries dbg be ix i).
Proof.
  intros Hi. unfold ni_name_entries.
  eapply post_bind; [apply post_word_at; exact Hi|]. intros off _ _.
  eapply post_bind; [apply post_rd_skip|]. intros entries _ (He & _). cbn [Lib.post].
  pose proof (nentries_loop_total dbg be (ni_abbrevs ix) (blen (ni_pool ix)) (S (length entries)) entries) as T.
  destruct (nentries_loop dbg be (S (length entries)) (ni_abbrevs ix) (blen (ni_pool ix)) entries) as [es st].
  cbn [snd]. apply T; [lia|]. subst entries. unfold blen. rewrite skipn_length. lia.
Qed.

Theorem name_entry_total dbg be ix off : post (fun _ => True) (ni_name_entry dbg be ix off).
Proof.
  unfold ni_name_entry. eapply post_bind; [apply post_rd_skip|]. intros entries _ _.
  eapply post_bind; [apply post_nentry_parse|]. intros [[e|] r] _ _; exact I.
Qed.

Lemma post_attr_index a : post (fun v => v < 2 ^ 32) (attr_index a).
Proof.
  unfold attr_index. destruct (at_value a); try exact I.
  destruct (v <? two32) eqn:E; [|exact I]. cbn. change two32 with (2 ^ 32) in E. lia.
Qed.

Theorem entry_accessors_total dbg be ix e :
  post (fun _ => True) (ne_compile_unit dbg be ix e) /\
  post (fun _ => True) (ne_type_unit dbg be ix e) /\
  post (fun _ => True) (ne_die_offset e) /\ post (fun _ => True) (ne_parent e) /\
  post (fun _ => True) (ne_type_hash e).
Proof.
  repeat split.
  - unfold ne_compile_unit. destruct (find_attr 1 (ne_attrs e)); [|exact I].
    eapply post_bind; [apply post_attr_index|]. intros i _ Hi.
    eapply post_bind; [apply post_word_at; exact Hi|]. intros; exact I.
  - unfold ne_type_unit. destruct (find_attr 2 (ne_attrs e)); [|exact I].
    eapply post_bind; [apply post_attr_index|]. intros i _ Hi.
    eapply post_bind; [apply post_type_unit; exact Hi|]. intros; exact I.
  - unfold ne_die_offset. destruct (find_attr 3 (ne_attrs e)); [|exact I]. destruct (at_value n); exact I.
  - unfold ne_parent. destruct (find_attr 4 (ne_attrs e)); [|exact I].
    destruct (at_value n) as [| |[|]]; exact I.
  - unfold ne_type_hash. destruct (find_attr 5 (ne_attrs e)); [|exact I]. destruct (at_value n); exact I.
Qed.

Theorem names_layout dbg h cu ltu ftu bk hsh nm eo ab pool abbrevs :
  nh_wf h ->
  nh_content h = cu ++ ltu ++ ftu ++ bk ++ hsh ++ nm ++ eo ++ ab ++ pool ->
  blen cu = nh_cu_count h * word_size (nh_fmt64 h) ->
  blen ltu = nh_ltu_count h * word_size (nh_fmt64 h) ->
  blen ftu = nh_ftu_count h * 8 ->
  blen bk = nh_bucket_count h * 4 ->
  blen hsh = (if nh_bucket_count h =? 0 then 0 else nh_name_count h * 4) ->
  blen nm = nh_name_count h * word_size (nh_fmt64 h) ->
  blen eo = nh_name_count h * word_size (nh_fmt64 h) ->
  blen ab = nh_abbrev_size h ->
  name_abbrevs dbg ab = Ok abbrevs ->
  name_index_new dbg h =
    Ok {| ni_fmt64 := nh_fmt64 h; ni_cu_count := nh_cu_count h; ni_ltu_count := nh_ltu_count h;
          ni_ftu_count := nh_ftu_count h; ni_bucket_count := nh_bucket_count h;
          ni_name_count := nh_name_count h;
          ni_cu_list := cu; ni_ltu_list := ltu; ni_ftu_list := ftu; ni_buckets := bk; ni_hashes := hsh;
          ni_names := nm; ni_entry_offsets := eo; ni_pool := pool; ni_abbrevs := abbrevs |}.
Proof.
  intros (Hcu & Hltu & Hftu & Hbc & Hnc & Hasz) Hc L1 L2 L3 L4 L5 L6 L7 L8 Hab. unfold name_index_new.
  change (2 ^ 32) with 4294967296 in *.
  assert (Hws : word_size (nh_fmt64 h) = 4 \/ word_size (nh_fmt64 h) = 8) by (destruct (nh_fmt64 h); cbn; auto).
  set (ws := word_size (nh_fmt64 h)) in *.
  rewrite ?chk_mul_ok by (change (2 ^ 64) with 18446744073709551616; lia). cbn [bind].
  assert (Hh : (if nh_bucket_count h =? 0 then Ok 0 else Ok (nh_name_count h * 4))
               = Ok (if nh_bucket_count h =? 0 then 0 else nh_name_count h * 4))
    by (destruct (nh_bucket_count h =? 0); reflexivity).
  rewrite Hh. cbn [bind]. rewrite Hc.
  rewrite (rd_split_app_n _ cu) by (symmetry; exact L1). cbn [bind].
  rewrite (rd_split_app_n _ ltu) by (symmetry; exact L2). cbn [bind].
  rewrite (rd_split_app_n _ ftu) by (symmetry; exact L3). cbn [bind].
  rewrite (rd_split_app_n _ bk) by (symmetry; exact L4). cbn [bind].
  rewrite (rd_split_app_n _ hsh) by (symmetry; exact L5). cbn [bind].
  rewrite (rd_split_app_n _ nm) by (symmetry; exact L6). cbn [bind].
  rewrite (rd_split_app_n _ eo) by (symmetry; exact L7). cbn [bind].
  rewrite (rd_split_app_n _ ab) by (symmetry; exact L8). cbn [bind].
  rewrite Hab. reflexivity.
Qed.

Lemma blen_enc_words_fmt (fmt64 be : bool) l :
  blen (concat (map (enc_word fmt64 be) l)) = N.of_nat (length l) * word_size fmt64.
Proof.
  unfold blen. induction l as [|a l IH]; [reflexivity|]. cbn [map concat length].
  rewrite app_length. unfold enc_word at 1. destruct fmt64; rewrite enc_un_length; cbn [word_size] in *; lia.
Qed.

Definition names_desc_wf (d : names_desc) : Prop :=
  N.of_nat (length (n_cus d)) < 2 ^ 32 /\ N.of_nat (length (n_ltus d)) < 2 ^ 32 /\
  N.of_nat (length (n_ftus d)) < 2 ^ 32 /\ N.of_nat (length (n_buckets d)) < 2 ^ 32 /\
  n_name_count d < 2 ^ 32 /\ N.of_nat (length (n_abbrev d)) < 2 ^ 32 /\ N.of_nat (length (n_aug d)) < 2 ^ 32.

Definition names_content (be : bool) (d : names_desc) : list byte :=
  concat (map (enc_word (n_fmt64 d) be) (n_cus d))
  ++ concat (map (enc_word (n_fmt64 d) be) (n_ltus d))
  ++ enc_words 8 be (n_ftus d)
  ++ enc_words 4 be (n_buckets d)
  ++ enc_words 4 be (n_hashes d)
  ++ concat (map (enc_word (n_fmt64 d) be) (n_stroffs d))
  ++ concat (map (enc_word (n_fmt64 d) be) (n_entryoffs d))
  ++ n_abbrev d ++ n_pool d.

Theorem names_header_encoded dbg be off d rest :
  names_desc_wf d ->
  blen (enc_names_body be d) < (if n_fmt64 d then 2 ^ 64 else 4294967280) ->
  name_header_parse dbg be off (enc_names be d ++ rest) =
    Ok ({| nh_offset := off; nh_length := blen (enc_names_body be d); nh_fmt64 := n_fmt64 d; nh_version := 5;
           nh_cu_count := N.of_nat (length (n_cus d)); nh_ltu_count := N.of_nat (length (n_ltus d));
           nh_ftu_count := N.of_nat (length (n_ftus d)); nh_bucket_count := N.of_nat (length (n_buckets d));
           nh_name_count := n_name_count d; nh_abbrev_size := N.of_nat (length (n_abbrev d));
           nh_aug := (match n_aug d with [] => None | _ => Some (n_aug d) end);
           nh_content := names_content be d |}, rest).
Proof.
  intros (H1 & H2 & H3 & H4 & H5 & H6 & H7) Hlen. unfold name_header_parse, enc_names. cbv zeta.
  change (N.of_nat (length (enc_names_body be d))) with (blen (enc_names_body be d)).
  set (L := blen (enc_names_body be d)) in *.
  rewrite <- app_assoc. rewrite read_initial_length_enc by exact Hlen. cbn [bind].
  rewrite rd_split_app_n by reflexivity. cbn [bind].
  unfold enc_names_body. rewrite <- ?app_assoc.
  rewrite read_un_enc_un_small by (change (p256 2) with (2 ^ 16); reflexivity). cbn [bind].
  change (negb (5 =? 5)) with false. cbv iota.
  rewrite (rd_skip_app_n 2 (enc_un 2 be 0)) by (unfold blen; rewrite enc_un_length; reflexivity). cbn [bind].
  change (p256 4) with (2 ^ 32).
  do 7 (rewrite read_un_enc_un_small by (change (p256 4) with (2 ^ 32); assumption); cbn [bind]).
  fold (names_content be d).
  destruct (n_aug d) as [|a0 aug0] eqn:Eaug.
  - cbn [length]. change (0 <? N.of_nat 0) with false. cbv iota. cbn [bind app repeat].
    change (N.to_nat (aug_padding (N.of_nat 0))) with O. cbn [repeat app]. reflexivity.
  - rewrite <- Eaug in *. set (al := N.of_nat (length (n_aug d))) in *.
    assert (Hpos : 0 <? al = true) by (unfold al; rewrite Eaug; cbn [length]; lia).
    rewrite Hpos.
    rewrite (rd_split_app_n al (n_aug d)) by reflexivity. cbn [bind].
    assert (H3' : N.land al 3 <= 4) by (eapply N.le_trans; [apply land_le_r|discriminate]).
    rewrite chk_sub_ok by exact H3'. cbn [bind].
    assert (Hp : N.land (4 - N.land al 3) 3 = aug_padding al).
    { rewrite !(land_mask 2). unfold aug_padding. reflexivity. }
    rewrite Hp. rewrite rd_skip_app_n by (rewrite blen_repeat, N2Nat.id; reflexivity). cbn [bind].
    rewrite Eaug. reflexivity.
Qed.

(* end to end: bytes of an encoded name index whose buckets are built from its (grouped) hashes:
   header, NameIndex::new, then find_by_hash = exhaustive scan of the hash array *)
Theorem names_lookup_encoded dbg be off d rest abbrevs :
  names_desc_wf d ->
  blen (enc_names_body be d) < (if n_fmt64 d then 2 ^ 64 else 4294967280) ->
  let bc := N.of_nat (length (n_buckets d)) in
  0 < bc -> n_buckets d = build_buckets bc (n_hashes d) -> grouped bc (n_hashes d) ->
  n_name_count d = N.of_nat (length (n_hashes d)) ->
  length (n_stroffs d) = length (n_hashes d) -> length (n_entryoffs d) = length (n_hashes d) ->
  Forall (fun v => v < 2 ^ 32) (n_hashes d) ->
  name_abbrevs dbg (n_abbrev d) = Ok abbrevs ->
  exists h ix,
    name_header_parse dbg be off (enc_names be d ++ rest) = Ok (h, rest) /\
    name_index_new dbg h = Ok ix /\
    (forall hash, ni_find_by_hash dbg be ix hash = Ok (positions hash 0 (n_hashes d), SDone)) /\
    (forall b, b < bc ->
       ni_find_by_bucket dbg be ix b =
         Ok (match bucket_members bc b 0 (n_hashes d) with [] => None | l => Some (l, SDone) end)).
Proof.
  intros Hwf Hlen bc Hbc Hb Hg Hnc Ls Le Fh Hab.
  pose proof Hwf as (H1 & H2 & H3 & H4 & H5 & H6 & H7).
  eexists. eexists. split; [apply names_header_encoded; assumption|].
  assert (Hbc0 : (bc =? 0) = false) by lia.
  split.
  - eapply names_layout; cbn [nh_cu_count nh_ltu_count nh_ftu_count nh_bucket_count nh_name_count
                              nh_abbrev_size nh_fmt64 nh_content].
    + unfold nh_wf. cbn. tauto.
    + reflexivity.
    + apply blen_enc_words_fmt.
    + apply blen_enc_words_fmt.
    + rewrite blen_enc_words. change (N.of_nat 8) with 8. lia.
    + rewrite blen_enc_words. change (N.of_nat 4) with 4. lia.
    + fold bc. rewrite Hbc0, blen_enc_words, Hnc. change (N.of_nat 4) with 4. lia.
    + rewrite blen_enc_words_fmt, Ls, Hnc. reflexivity.
    + rewrite blen_enc_words_fmt, Le, Hnc. reflexivity.
    + reflexivity.
    + exact Hab.
  - match goal with |- (forall hash, ni_find_by_hash _ _ ?ix _ = _) /\ _ =>
      assert (W : names_wf be ix (n_hashes d)) end.
    { unfold names_wf. cbn [ni_bucket_count ni_buckets ni_hashes ni_name_count]. fold bc.
      repeat split; try assumption; try (rewrite Hb at 1; reflexivity); try reflexivity.
      rewrite <- Hnc. exact H5. }
    split.
    + intros hash. apply find_by_hash_wf. exact W.
    + intros b Hlt. apply (find_by_bucket_wf dbg be _ (n_hashes d) b W). exact Hlt.
Qed.

Definition attr_spec_ok (a : N * N) : Prop := fst a <> 0 /\ snd a <> 0 /\ fst a < 2 ^ 16 /\ snd a < 2 ^ 16.
Definition enc_attr_specs (attrs : list (N * N)) : list byte :=
  concat (map (fun a => enc_uleb (fst a) ++ enc_uleb (snd a)) attrs).

Lemma enc_uleb_nonempty v : (1 <= length (enc_uleb v))%nat.
Proof. unfold enc_uleb. rewrite enc_uleb_fuel_S. destruct (v <? 128); cbn [length]; lia. Qed.

Lemma enc_attr_specs_length attrs : (length attrs <= length (enc_attr_specs attrs))%nat.
Proof.
  unfold enc_attr_specs. induction attrs as [|a l IH]; [cbn; lia|]. cbn [map concat length].
  rewrite !app_length. pose proof (enc_uleb_nonempty (fst a)). lia.
Qed.

Lemma nattrs_parse_enc rest : forall attrs fuel,
  Forall attr_spec_ok attrs -> (length attrs < fuel)%nat ->
  nattrs_parse fuel (enc_attr_specs attrs ++ x00 :: x00 :: rest) = Ok (attrs, rest).
Proof.
  induction attrs as [|[n f] attrs IH]; intros fuel F Hf.
  - destruct fuel as [|fuel]; [lia|]. reflexivity.
  - destruct fuel as [|fuel]; [cbn in Hf; lia|]. cbn [nattrs_parse].
    inversion F as [|? ? (Hn & Hfm & Hn16 & Hf16) F']; subst. cbn [fst snd] in *.
    unfold enc_attr_specs. cbn [map concat fst snd]. rewrite <- !app_assoc.
    rewrite read_uleb128_u16_enc by exact Hn16. cbn [bind].
    rewrite read_uleb128_u16_enc by exact Hf16. cbn [bind].
    destruct (n =? 0) eqn:E1; [lia|]. destruct (f =? 0) eqn:E2; [lia|]. cbn [andb].
    fold (enc_attr_specs attrs). rewrite (IH fuel F') by (cbn in Hf; lia). reflexivity.
Qed.

Definition abbrev_ok (a : nabbrev) : Prop :=
  na_code a <> 0 /\ na_code a < 2 ^ 64 /\ na_tag a <> 0 /\ na_tag a < 2 ^ 16 /\ Forall attr_spec_ok (na_attrs a).
Definition enc_abbrevs (l : list nabbrev) : list byte :=
  concat (map (fun a => enc_nabbrev (na_code a) (na_tag a) (na_attrs a)) l).

Lemma enc_abbrevs_length l : (length l <= length (enc_abbrevs l))%nat.
Proof.
  unfold enc_abbrevs. induction l as [|a l IH]; [cbn; lia|]. cbn [map concat length].
  rewrite app_length.
  assert (H : (1 <= length (enc_nabbrev (na_code a) (na_tag a) (na_attrs a)))%nat).
  { unfold enc_nabbrev. rewrite !app_length. pose proof (enc_uleb_nonempty (na_code a)). lia. }
  lia.
Qed.

(* the table ends at its end or at a zero code; whatever follows the zero is ignored *)
Lemma nabbrevs_parse_enc dbg tail : (tail = [] \/ exists junk, tail = x00 :: junk) ->
  forall l fuel, Forall abbrev_ok l -> (length l < fuel)%nat ->
  nabbrevs_parse dbg fuel (enc_abbrevs l ++ tail) = Ok l.
Proof.
  intros Htail. induction l as [|a l IH]; intros fuel F Hf.
  - destruct fuel as [|fuel]; [lia|]. cbn [enc_abbrevs map concat app nabbrevs_parse].
    destruct Htail as [->|(junk & ->)]; reflexivity.
  - destruct fuel as [|fuel]; [cbn in Hf; lia|].
    inversion F as [|? ? (Hc & Hc64 & Ht & Ht16 & Fa) F']; subst.
    unfold enc_abbrevs. cbn [map concat]. fold (enc_abbrevs l). unfold enc_nabbrev. rewrite <- !app_assoc.
    cbn [nabbrevs_parse].
    rewrite match_nonempty by (rewrite app_length; pose proof (enc_uleb_nonempty (na_code a)); lia).
    rewrite read_uleb128_enc by exact Hc64. cbn [bind].
    destruct (na_code a =? 0) eqn:E0; [lia|].
    rewrite read_uleb128_u16_enc by exact Ht16. cbn [bind].
    destruct (na_tag a =? 0) eqn:E1; [lia|].
    fold (enc_attr_specs (na_attrs a)). cbn [app].
    rewrite nattrs_parse_enc; [|exact Fa|].
    2:{ rewrite app_length. pose proof (enc_attr_specs_length (na_attrs a)). lia. }
    cbn [bind]. rewrite (IH fuel F') by (cbn in Hf; lia). cbn [bind].
    destruct a; reflexivity.
Qed.

Definition enc_nval (be : bool) (form : N) (v : nval) : list byte :=
  match v with
  | NVFlag b => if form =? 25 then [] else [n2b (if b then 1 else 0)]
  | NVUnsigned x =>
      if form =? 11 then [n2b x] else if form =? 5 then enc_un 2 be x else if form =? 6 then enc_un 4 be x
      else if form =? 7 then enc_un 8 be x else enc_uleb x
  | NVOffset x =>
      if form =? 17 then [n2b x] else if form =? 18 then enc_un 2 be x else if form =? 19 then enc_un 4 be x
      else if form =? 20 then enc_un 8 be x else enc_uleb x
  end.
(* which values a form can carry *)
Definition nval_ok (form : N) (v : nval) : Prop :=
  match v with
  | NVFlag b => form = 12 \/ (form = 25 /\ b = true)
  | NVUnsigned x => (form = 11 /\ x < 2 ^ 8) \/ (form = 5 /\ x < 2 ^ 16) \/ (form = 6 /\ x < 2 ^ 32) \/
                    (form = 7 /\ x < 2 ^ 64) \/ (form = 15 /\ x < 2 ^ 64)
  | NVOffset x => (form = 17 /\ x < 2 ^ 8) \/ (form = 18 /\ x < 2 ^ 16) \/ (form = 19 /\ x < 2 ^ 32) \/
                  (form = 20 /\ x < 2 ^ 64) \/ (form = 21 /\ x < 2 ^ 64)
  end.

Lemma read_nform_enc dbg be form v rest :
  nval_ok form v -> read_nform dbg be form (enc_nval be form v ++ rest) = Ok (v, rest).
Proof.
  destruct v as [x|x|b]; cbn [nval_ok enc_nval]; intros H.
  - destruct H as [(-> & Hx)|[(-> & Hx)|[(-> & Hx)|[(-> & Hx)|(-> & Hx)]]]]; unfold read_nform;
      cbn [N.eqb Pos.eqb app].
    + cbn [read_u8 bind]. rewrite b2n_n2b_small by exact Hx. reflexivity.
    + rewrite read_un_enc_un_small by exact Hx. reflexivity.
    + rewrite read_un_enc_un_small by exact Hx. reflexivity.
    + rewrite read_un_enc_un_small by exact Hx. reflexivity.
    + rewrite read_uleb128_enc by exact Hx. reflexivity.
  - destruct H as [(-> & Hx)|[(-> & Hx)|[(-> & Hx)|[(-> & Hx)|(-> & Hx)]]]]; unfold read_nform;
      cbn [N.eqb Pos.eqb app].
    + cbn [read_u8 bind]. rewrite b2n_n2b_small by exact Hx. reflexivity.
    + rewrite read_un_enc_un_small by exact Hx. reflexivity.
    + rewrite read_un_enc_un_small by exact Hx. reflexivity.
    + rewrite read_un_enc_un_small by exact Hx. reflexivity.
    + rewrite read_uleb128_enc by exact Hx. reflexivity.
  - destruct H as [->|(-> & ->)]; unfold read_nform; cbn [N.eqb Pos.eqb app].
    + cbn [read_u8 bind]. destruct b; reflexivity.
    + reflexivity.
Qed.

Definition enc_nattrs (be : bool) (attrs : list nattr) : list byte :=
  concat (map (fun a => enc_nval be (at_form a) (at_value a)) attrs).
Definition spec_of (a : nattr) : N * N := (at_name a, at_form a).

Lemma read_nattrs_enc dbg be rest : forall attrs,
  Forall (fun a => nval_ok (at_form a) (at_value a)) attrs ->
  read_nattrs dbg be (map spec_of attrs) (enc_nattrs be attrs ++ rest) = Ok (attrs, rest).
Proof.
  induction attrs as [|a attrs IH]; intros F; [reflexivity|].
  inversion F as [|? ? Ha F']; subst. cbn [map read_nattrs spec_of].
  unfold enc_nattrs. cbn [map concat]. rewrite <- app_assoc.
  rewrite read_nform_enc by exact Ha. cbn [bind]. fold (enc_nattrs be attrs). rewrite (IH F'). cbn [bind].
  destruct a; reflexivity.
Qed.

(* one entry: abbreviation code then the attribute values in the abbreviation's order *)
Definition enc_nentry (be : bool) (code : N) (attrs : list nattr) : list byte :=
  enc_uleb code ++ enc_nattrs be attrs.

Theorem nentry_parse_encoded dbg be abbrevs a off code attrs rest :
  code <> 0 -> code < 2 ^ 64 -> nabbrev_get code abbrevs = Some a ->
  na_attrs a = map spec_of attrs -> Forall (fun x => nval_ok (at_form x) (at_value x)) attrs ->
  nentry_parse dbg be abbrevs off (enc_nentry be code attrs ++ rest) =
    Ok (Some {| ne_offset := off; ne_code := code; ne_tag := na_tag a; ne_attrs := attrs |}, rest).
Proof.
  intros Hc Hc64 Hget Hsp F. unfold nentry_parse, enc_nentry. rewrite <- app_assoc.
  rewrite read_uleb128_enc by exact Hc64. cbn [bind].
  destruct (code =? 0) eqn:E; [lia|]. rewrite Hget, Hsp.
  rewrite read_nattrs_enc by exact F. reflexivity.
Qed.

(* a series of entries ends at a zero code; each entry carries its offset in the pool *)
Definition entry_ok (abbrevs : list nabbrev) (e : N * list nattr) : Prop :=
  fst e <> 0 /\ fst e < 2 ^ 64 /\
  (exists a, nabbrev_get (fst e) abbrevs = Some a /\ na_attrs a = map spec_of (snd e)) /\
  Forall (fun x => nval_ok (at_form x) (at_value x)) (snd e).
Definition tag_of (abbrevs : list nabbrev) (code : N) : N :=
  match nabbrev_get code abbrevs with Some a => na_tag a | None => 0 end.
Fixpoint series_bytes (be : bool) (es : list (N * list nattr)) : list byte :=
  match es with [] => [] | e :: r => enc_nentry be (fst e) (snd e) ++ series_bytes be r end.
Fixpoint series_entries (be : bool) (abbrevs : list nabbrev) (end_offset : N) (es : list (N * list nattr))
         (tail : list byte) : list nentry :=
  match es with
  | [] => []
  | e :: r =>
      {| ne_offset := end_offset - blen (series_bytes be (e :: r) ++ tail); ne_code := fst e;
         ne_tag := tag_of abbrevs (fst e); ne_attrs := snd e |} :: series_entries be abbrevs end_offset r tail
  end.

Theorem nentries_encoded dbg be abbrevs end_offset junk : forall es fuel,
  Forall (entry_ok abbrevs) es -> (length es < fuel)%nat ->
  blen (series_bytes be es ++ x00 :: junk) <= end_offset ->
  nentries_loop dbg be fuel abbrevs end_offset (series_bytes be es ++ x00 :: junk)
  = (series_entries be abbrevs end_offset es (x00 :: junk), SDone).
Proof.
  induction es as [|[code attrs] es IH]; intros fuel F Hf Hle.
  - destruct fuel as [|fuel]; [lia|]. cbn [series_bytes app nentries_loop].
    rewrite chk_sub_ok by exact Hle. unfold nentry_parse.
    change (x00 :: junk) with (enc_uleb 0 ++ junk). rewrite read_uleb128_enc by reflexivity. reflexivity.
  - destruct fuel as [|fuel]; [cbn in Hf; lia|].
    inversion F as [|? ? (Hc & Hc64 & (a & Hget & Hsp) & Fa) F']; subst. cbn [fst snd] in *.
    cbn [nentries_loop].
    rewrite match_nonempty by (rewrite app_length; cbn [length]; lia). rewrite chk_sub_ok by exact Hle.
    cbn [series_bytes fst snd] in *. rewrite <- app_assoc in *.
    rewrite (nentry_parse_encoded dbg be abbrevs a _ code attrs _ Hc Hc64 Hget Hsp Fa).
    rewrite (IH fuel F') by (try (cbn in Hf; lia); rewrite blen_app in Hle; lia).
    unfold run_cons. cbn [fst snd series_entries series_bytes]. unfold tag_of. rewrite Hget.
    rewrite <- app_assoc. reflexivity.
Qed.

Lemma enc_word_words (f64 be : bool) l :
  concat (map (enc_word f64 be) l) = enc_words (if f64 then 8 else 4) be l.
Proof. unfold enc_words, enc_word. destruct f64; reflexivity. Qed.

Lemma word_at_enc dbg be (f64 : bool) l (i : nat) v :
  nth_error l i = Some v -> v < (if f64 then 2 ^ 64 else 2 ^ 32) -> N.of_nat i < 2 ^ 32 ->
  word_at dbg be f64 (concat (map (enc_word f64 be) l)) (N.of_nat i) = Ok v.
Proof.
  intros Hn Hv Hi. unfold word_at. change (2 ^ 32) with 4294967296 in Hi.
  rewrite chk_mul_ok by (destruct f64; cbn [word_size]; change (2 ^ 64) with 18446744073709551616; lia).
  cbn [bind]. rewrite enc_word_words.
  destruct (word_at_words (if f64 then 8 else 4)%nat be l [] i v Hn) as (r & Hr & r' & Hr').
  { destruct f64; [change (p256 8) with (2 ^ 64)|change (p256 4) with (2 ^ 32)]; exact Hv. }
  rewrite app_nil_r in Hr.
  replace (N.of_nat i * word_size f64) with (N.of_nat i * N.of_nat (if f64 then 8 else 4)%nat)
    by (destruct f64; reflexivity).
  rewrite Hr. cbn [bind]. unfold rd_word, read_word. destruct f64; rewrite Hr'; reflexivity.
Qed.

Theorem type_unit_split dbg be ix (ltus ftus : list N) :
  ni_ltu_list ix = concat (map (enc_word (ni_fmt64 ix) be) ltus) ->
  ni_ftu_list ix = enc_words 8 be ftus ->
  ni_ltu_count ix = N.of_nat (length ltus) -> ni_ftu_count ix = N.of_nat (length ftus) ->
  N.of_nat (length ltus) + N.of_nat (length ftus) < 2 ^ 32 ->
  Forall (fun v => v < (if ni_fmt64 ix then 2 ^ 64 else 2 ^ 32)) ltus -> Forall (fun v => v < 2 ^ 64) ftus ->
  forall i : nat, N.of_nat i < 2 ^ 32 ->
    ni_type_unit dbg be ix (N.of_nat i) =
      match nth_error ltus i with
      | Some off => Ok (inl off)
      | None => match nth_error ftus (i - length ltus) with
                | Some sig => Ok (inr sig)
                | None => Err EUnexpectedEof
                end
      end.
Proof.
  intros El Ef Cl Cf Hsum Fl Ff i Hi32. unfold ni_type_unit at 1. rewrite Cl.
  destruct (nth_error ltus i) as [off|] eqn:En.
  - assert (Hi : (i < length ltus)%nat) by (apply nth_error_Some; congruence).
    destruct (N.of_nat (length ltus) <=? N.of_nat i) eqn:E; [lia|].
    unfold ni_local_type_unit. rewrite El.
    rewrite (word_at_enc dbg be (ni_fmt64 ix) ltus i off En); [reflexivity| |lia].
    exact (Forall_nth_error _ _ _ _ Fl En).
  - apply nth_error_None in En.
    destruct (N.of_nat (length ltus) <=? N.of_nat i) eqn:E; [|lia].
    destruct (nth_error ftus (i - length ltus)) as [sig|] eqn:Ef'.
    + assert (Hi : (i - length ltus < length ftus)%nat) by (apply nth_error_Some; congruence).
      unfold ni_foreign_type_unit. change (2 ^ 32) with 4294967296 in Hsum.
      rewrite chk_mul_ok by (change (2 ^ 64) with 18446744073709551616; lia). cbn [bind].
      destruct (word_at_words 8 be ftus [] (i - length ltus) sig Ef') as (r & Hr & r' & Hr').
      { change (p256 8) with (2 ^ 64). exact (Forall_nth_error _ _ _ _ Ff Ef'). }
      rewrite app_nil_r in Hr. rewrite Ef.
      replace ((N.of_nat i - N.of_nat (length ltus)) * 8) with (N.of_nat (i - length ltus) * N.of_nat 8)
        by (change (N.of_nat 8) with 8; lia).
      rewrite Hr. cbn [bind]. rewrite Hr'. reflexivity.
    + apply nth_error_None in Ef'.
      unfold ni_foreign_type_unit. change (2 ^ 32) with 4294967296 in *.
      rewrite chk_mul_ok by (change (2 ^ 64) with 18446744073709551616; lia). cbn [bind].
      rewrite Ef.
      destruct (rd_skip_cases ((N.of_nat i - N.of_nat (length ltus)) * 8) (enc_words 8 be ftus))
        as [(Hs & Hle)|(Hs & _)]; rewrite Hs; cbn [bind]; [|reflexivity].
      rewrite blen_enc_words in Hle. change (N.of_nat 8) with 8 in Hle.
      rewrite (proj2 (read_un_eof_iff 8 be _)); [reflexivity|].
      rewrite skipn_length, enc_words_length. lia.
Qed.
