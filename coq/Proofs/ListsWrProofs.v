(* Proofs/ListsWrProofs.v — C16: written range / location lists read back as the same lists.
   The DWARF 5 writers against the decoder dec5, the pre-v5 writers entry by entry (rejects, the pair encoding,
   dec4, resolution), the layout of a written table, de-duplication, the unit base address, panic freedom. *)
From Coq Require Import List NArith ZArith Bool Lia ZifyBool ZifyN ZifyNat.
From Coq.Strings Require Import Byte.
Require Import GV.Base.Res GV.Base.Byt GV.Base.Ints GV.Spec.LebSpec GV.Model.Leb GV.Model.Prim
  GV.Proofs.LebProofs GV.Proofs.PrimProofs GV.Spec.ListWrSpec GV.Model.ListsWr.
Require GV.Spec.PrimSpec.
Import ListNotations.
Local Open Scope N_scope.

Definition size_ok (s : N) : Prop := s = 1 \/ s = 2 \/ s = 4 \/ s = 8.

Lemma lw_amod_le_64 size : size_ok size -> amod size <= 2 ^ 64.
Proof. unfold size_ok, amod. intros [-> | [-> | [-> | ->]]]; vm_compute; discriminate. Qed.

Lemma lw_mask_amod size : mask_of size = amod size - 1.
Proof. reflexivity. Qed.

Lemma lw_write_udata_ok be v size bs :
  write_udata be v size = Ok bs -> v < 2 ^ 64 ->
  size_ok size /\ v < amod size /\ bs = enc_un (N.to_nat size) be v.
Proof.
  intros H Hv. rewrite write_udata_exact in H by exact Hv.
  destruct (PrimSpec.size_ok size) eqn:E; [|discriminate]. apply size_ok_cases in E.
  unfold amod. destruct (v <? 2 ^ (8 * size)) eqn:El; inversion H. repeat split; [exact E|lia].
Qed.

Lemma lw_write_udata_fits be v size :
  size_ok size -> v < amod size -> write_udata be v size = Ok (enc_un (N.to_nat size) be v).
Proof.
  intros Hs Hv. pose proof (lw_amod_le_64 _ Hs). rewrite write_udata_exact by (unfold two64; lia).
  apply size_ok_cases in Hs. rewrite Hs. unfold amod in Hv.
  destruct (v <? 2 ^ (8 * size)) eqn:E; [reflexivity|lia].
Qed.

Lemma lw_read_address_enc size be v rest :
  size_ok size -> v < amod size ->
  read_address size be (enc_un (N.to_nat size) be v ++ rest) = Ok (v, rest).
Proof.
  intros Hs Hv. apply size_ok_cases in Hs. rewrite read_address_exact, Hs.
  apply read_un_enc_un_small. rewrite p256_pow2, N2Nat.id. exact Hv.
Qed.

Lemma lw_write_uleb_nonempty v bs : write_uleb128 v = Ok bs -> (1 <= length bs)%nat.
Proof. intros H. apply write_uleb128_ok in H. lia. Qed.

Definition data_of (x : wloc) : list byte :=
  match x with
  | LBase _ => []
  | LOffsetPair _ _ d | LStartEnd _ _ d | LStartLength _ _ d | LDefault d => d
  end.

(* the input is a value of the Rust types; a range list carries no expression data *)
Definition wf (loc : bool) (x : wloc) : Prop :=
  wloc_wf x /\ N.of_nat (length (data_of x)) < 2 ^ 64 /\ (loc = false -> exists r, x = loc_of_range r).

Lemma lw_wf_range (r : wrange) : wloc_wf (loc_of_range r) -> wf false (loc_of_range r).
Proof. intros H. split; [exact H|]. split; [destruct r; vm_compute; reflexivity|]. intros _. eauto. Qed.

Lemma lw_wf_nodata loc x : wf loc x -> loc = false -> data_of x = [].
Proof. intros [_ [_ H]] Hl. destruct (H Hl) as [r ->]. destruct r; reflexivity. Qed.

Ltac bind_ok H :=
  match type of H with
  | bind ?r _ = Ok _ =>
      let E := fresh "E" in destruct r eqn:E; cbn [bind] in H; try discriminate H
  end.

Lemma lw_write_address_ok be a size bs :
  write_address be a size = Ok bs -> addr_wf a ->
  exists v, a = AConst v /\ size_ok size /\ v < amod size /\ bs = enc_un (N.to_nat size) be v.
Proof.
  destruct a as [v|s z]; cbn [write_address addr_wf]; [|discriminate].
  intros H Hv. destruct (lw_write_udata_ok _ _ _ _ H Hv) as [Hs [Hf Hb]]. eauto.
Qed.

Lemma lw_write_uleb v : v < 2 ^ 64 -> write_uleb128 v = Ok (enc_uleb v).
Proof. intros Hv. now apply write_uleb128_enc. Qed.

(* a counted expression block, read back *)
Lemma lw_dec_data (dbg v5 be : bool) (d rest : list byte) :
  N.of_nat (length d) < (if v5 then 2 ^ 64 else 65536) ->
  dec_data dbg v5 be ((if v5 then enc_uleb (N.of_nat (length d)) else enc_un 2 be (N.of_nat (length d))) ++ d ++ rest)
  = Ok (d, rest).
Proof.
  intros Hd. unfold dec_data. destruct v5.
  - rewrite read_uleb128_enc by exact Hd. cbn [bind].
    destruct (N.of_nat (length (d ++ rest)) <? N.of_nat (length d)) eqn:El; [rewrite app_length in El; lia|].
    unfold read_bytes. now rewrite Nat2N.id, (take_app _ d rest eq_refl).
  - rewrite read_un_enc_un_small by exact Hd. cbn [bind].
    destruct (N.of_nat (length (d ++ rest)) <? N.of_nat (length d)) eqn:El; [rewrite app_length in El; lia|].
    unfold read_bytes. now rewrite Nat2N.id, (take_app _ d rest eq_refl).
Qed.

(* the optional expression of a DWARF 5 entry, read back *)
Lemma lw_opt_data5 dbg loc be d x rest :
  opt_expression loc be 5 d = Ok x -> N.of_nat (length d) < 2 ^ 64 -> (loc = false -> d = []) ->
  dec_opt_data dbg loc true be (x ++ rest) = Ok (d, rest).
Proof.
  unfold opt_expression, write_expression, dec_opt_data. destruct loc; intros H Hd Hn.
  - change (5 <=? 4) with false in H. cbv iota in H. rewrite lw_write_uleb in H by exact Hd.
    inversion H; subst. rewrite <- app_assoc. exact (lw_dec_data dbg true be d rest Hd).
  - inversion H; subst. now rewrite (Hn eq_refl).
Qed.

(* an entry is its kind byte followed by operands that dec5_entry reads back *)
Lemma lw_entry5 dbg loc be asz x bs :
  write_entry_v5 loc be 5 asz x = Ok bs -> wf loc x ->
  exists k tail e, bs = n2b k :: tail /\ 1 <= k < 256 /\ ent_of x = Some e /\
    forall rest, dec5_entry dbg loc be asz k (tail ++ rest) = Ok (e, rest).
Proof.
  intros H Hw. pose proof (lw_wf_nodata _ _ Hw) as Hn. destruct Hw as [Hwf [Hd Hr]].
  destruct x as [a|b e d|b e d|b len d|d]; cbn [write_entry_v5] in H; cbn [wloc_wf data_of] in *.
  - (* base *)
    bind_ok H. inversion H; subst.
    destruct (lw_write_address_ok _ _ _ _ E Hwf) as [v [-> [Hs [Hv ->]]]].
    exists (kind_base loc), (enc_un (N.to_nat asz) be v), (EBase v).
    split; [reflexivity|]. split; [destruct loc; vm_compute; split; congruence|].
    split; [reflexivity|]. intros rest. unfold dec5_entry, kind_base.
    destruct loc; cbn [N.eqb Pos.eqb]; rewrite (lw_read_address_enc _ _ _ _ Hs Hv); reflexivity.
  - (* offset pair *)
    destruct Hwf as [Hb He]. rewrite !lw_write_uleb in H by assumption. cbn [bind] in H. bind_ok H. inversion H; subst.
    exists kind_offset_pair, (enc_uleb b ++ enc_uleb e ++ a), (EOffsetPair b e d).
    split; [reflexivity|]. split; [vm_compute; split; congruence|]. split; [reflexivity|].
    intros rest. unfold dec5_entry, kind_offset_pair. cbn [N.eqb Pos.eqb]. rewrite <- !app_assoc.
    rewrite read_uleb128_enc by assumption. cbn [bind]. rewrite read_uleb128_enc by assumption. cbn [bind].
    rewrite (lw_opt_data5 dbg _ _ _ _ _ E Hd Hn). reflexivity.
  - (* start end *)
    destruct Hwf as [Hb He]. bind_ok H. bind_ok H. bind_ok H. inversion H; subst.
    destruct (lw_write_address_ok _ _ _ _ E Hb) as [vb [-> [Hs [Hvb ->]]]].
    destruct (lw_write_address_ok _ _ _ _ E0 He) as [ve [-> [_ [Hve ->]]]].
    exists (kind_start_end loc), (enc_un (N.to_nat asz) be vb ++ enc_un (N.to_nat asz) be ve ++ a1), (EStartEnd vb ve d).
    split; [reflexivity|]. split; [destruct loc; vm_compute; split; congruence|]. split; [reflexivity|].
    intros rest. unfold dec5_entry, kind_start_end.
    destruct loc; cbn [N.eqb Pos.eqb]; rewrite <- !app_assoc;
      rewrite (lw_read_address_enc _ _ _ _ Hs Hvb); cbn [bind];
      rewrite (lw_read_address_enc _ _ _ _ Hs Hve); cbn [bind];
      rewrite (lw_opt_data5 dbg _ _ _ _ _ E1 Hd Hn); reflexivity.
  - (* start length *)
    destruct Hwf as [Hb Hl]. rewrite lw_write_uleb in H by assumption. bind_ok H. cbn [bind] in H. bind_ok H.
    inversion H; subst.
    destruct (lw_write_address_ok _ _ _ _ E Hb) as [vb [-> [Hs [Hvb ->]]]].
    exists (kind_start_length loc), (enc_un (N.to_nat asz) be vb ++ enc_uleb len ++ a0), (EStartLength vb len d).
    split; [reflexivity|]. split; [destruct loc; vm_compute; split; congruence|]. split; [reflexivity|].
    intros rest. unfold dec5_entry, kind_start_length.
    destruct loc; cbn [N.eqb Pos.eqb]; rewrite <- !app_assoc;
      rewrite (lw_read_address_enc _ _ _ _ Hs Hvb); cbn [bind];
      rewrite read_uleb128_enc by assumption; cbn [bind];
      rewrite (lw_opt_data5 dbg _ _ _ _ _ E0 Hd Hn); reflexivity.
  - (* default location: only in location lists *)
    bind_ok H. inversion H; subst. destruct loc.
    + exists kind_default, a, (EDefault d).
      split; [reflexivity|]. split; [vm_compute; split; congruence|]. split; [reflexivity|].
      intros rest. unfold dec5_entry, kind_default. cbn [N.eqb Pos.eqb andb].
      pose proof (lw_opt_data5 dbg true be d a rest E Hd Hn) as Hx. unfold dec_opt_data in Hx.
      rewrite Hx. reflexivity.
    + destruct (Hr eq_refl) as [r Hx]. destruct r; discriminate Hx.
Qed.

Lemma lw_pairs_ents_nil : ents_of [] = Some []. Proof. reflexivity. Qed.

Lemma lw_list5 dbg loc be asz l bs :
  write_list_v5 loc be 5 asz l = Ok bs -> Forall (wf loc) l ->
  exists es, ents_of l = Some es /\
    forall rest fuel, (length bs <= fuel)%nat ->
      dec5_fuel fuel dbg loc be asz (bs ++ rest) = Ok (es, rest).
Proof.
  revert bs. induction l as [|x r IH]; intros bs H Hwf; cbn [write_list_v5] in H.
  - inversion H; subst. exists []. split; [reflexivity|]. intros rest fuel Hf.
    destruct fuel as [|f]; [cbn [length] in Hf; lia|].
    cbn [dec5_fuel app read_u8 bind]. rewrite b2n_n2b_small by lia. reflexivity.
  - bind_ok H. bind_ok H. inversion H; subst.
    inversion Hwf as [|? ? Hx Hr]; subst.
    destruct (lw_entry5 dbg _ _ _ _ _ E Hx) as [k [tail [e [-> [Hk [He Hdec]]]]]].
    destruct (IH _ eq_refl Hr) as [es [Hes Hrest]].
    exists (e :: es). split; [cbn [ents_of]; rewrite He, Hes; reflexivity|].
    intros rest fuel Hf. destruct fuel as [|f]; [cbn [length app] in Hf; lia|].
    cbn [app length] in Hf. rewrite app_length in Hf.
    cbn [dec5_fuel app read_u8 bind]. rewrite b2n_n2b_small by lia.
    destruct (k =? 0) eqn:Ek; [lia|].
    rewrite <- app_assoc. rewrite Hdec. cbn [bind].
    rewrite Hrest by lia. reflexivity.
Qed.

(* every list the DWARF 5 writer accepts decodes to exactly its entries *)
Lemma lw_list5_dec dbg loc be asz l bs :
  write_list_v5 loc be 5 asz l = Ok bs -> Forall (wf loc) l ->
  exists es, ents_of l = Some es /\ forall rest, dec5 dbg loc be asz (bs ++ rest) = Ok (es, rest).
Proof.
  intros H Hwf. destruct (lw_list5 dbg _ _ _ _ _ H Hwf) as [es [He Hd]].
  exists es. split; [exact He|]. intros rest. unfold dec5. apply Hd. rewrite app_length. lia.
Qed.

(* both table loops have this shape *)
Fixpoint tbl_gen (f : list wloc -> res (list byte)) (pos : N) (tbl : list (list wloc)) : res (list byte * list N) :=
  match tbl with
  | [] => Ok ([], [])
  | l :: r =>
      let* bs := f l in
      let* (rest, offs) := tbl_gen f (pos + N.of_nat (length bs)) r in
      Ok (bs ++ rest, pos :: offs)
  end.

Lemma lw_lists_v4_gen loc be version asz mk hb pos tbl :
  write_lists_v4 loc be version asz mk hb pos tbl = tbl_gen (write_list_v4 loc be version asz mk hb) pos tbl.
Proof. revert pos; induction tbl as [|l r IH]; intros pos; cbn [write_lists_v4 tbl_gen]; [reflexivity|].
  destruct (write_list_v4 loc be version asz mk hb l); cbn [bind]; try reflexivity. now rewrite IH. Qed.

Lemma lw_lists_v5_gen loc be version asz pos tbl :
  write_lists_v5 loc be version asz pos tbl = tbl_gen (write_list_v5 loc be version asz) pos tbl.
Proof. revert pos; induction tbl as [|l r IH]; intros pos; cbn [write_lists_v5 tbl_gen]; [reflexivity|].
  destruct (write_list_v5 loc be version asz l); cbn [bind]; try reflexivity. now rewrite IH. Qed.

Fixpoint offsets_from (pos : N) (bss : list (list byte)) : list N :=
  match bss with
  | [] => []
  | b :: r => pos :: offsets_from (pos + N.of_nat (length b)) r
  end.

(* the table is emitted as one copy of every element, in table order, and the offsets are the running positions *)
Lemma lw_tbl_gen_char f : forall tbl pos body offs,
  tbl_gen f pos tbl = Ok (body, offs) ->
  exists bss, Forall2 (fun l bs => f l = Ok bs) tbl bss /\ body = concat bss /\ offs = offsets_from pos bss.
Proof.
  induction tbl as [|l r IH]; intros pos body offs H; cbn [tbl_gen] in H.
  - inversion H; subst. exists []. repeat split; constructor.
  - bind_ok H. bind_ok H. destruct a0 as [rest o]. inversion H; subst.
    destruct (IH _ _ _ E0) as [bss [HF [-> ->]]].
    exists (a :: bss). split; [constructor; assumption|]. split; reflexivity.
Qed.

Lemma lw_offsets_from_nth : forall bss pos i bs,
  nth_error bss i = Some bs ->
  nth_error (offsets_from pos bss) i = Some (pos + N.of_nat (length (concat (firstn i bss)))) /\
  concat bss = concat (firstn i bss) ++ bs ++ concat (skipn (S i) bss).
Proof.
  induction bss as [|b r IH]; intros pos i bs H; destruct i as [|i]; cbn [nth_error] in H; try discriminate.
  - inversion H; subst. cbn [offsets_from nth_error firstn skipn concat app length]. split; [f_equal; lia|reflexivity].
  - destruct (IH (pos + N.of_nat (length b)) i bs H) as [H1 H2].
    cbn [offsets_from nth_error firstn skipn concat]. rewrite H1. split.
    + f_equal. rewrite app_length. lia.
    + rewrite H2 at 1. rewrite <- app_assoc. reflexivity.
Qed.


(* element i of the table lies in the section at the offset recorded for it: after `pre`, before `post` *)
Lemma lw_tbl_gen_nth f tbl pos body offs (sec0 : list byte) :
  tbl_gen f pos tbl = Ok (body, offs) -> N.of_nat (length sec0) = pos ->
  forall i l, nth_error tbl i = Some l ->
    exists pre bs post, nth_error offs i = Some (N.of_nat (length pre)) /\ f l = Ok bs /\
      sec0 ++ body = pre ++ bs ++ post.
Proof.
  intros H Hs i l Hl. destruct (lw_tbl_gen_char f _ _ _ _ H) as [bss [HF [-> ->]]].
  destruct (Forall2_nth_ex _ _ _ _ _ HF Hl) as [bs [Hb Hfl]].
  destruct (lw_offsets_from_nth _ pos _ _ Hb) as [Ho Hc].
  exists (sec0 ++ concat (firstn i bss)), bs, (concat (skipn (S i) bss)).
  split; [rewrite Ho; f_equal; rewrite app_length; lia|]. split; [exact Hfl|].
  rewrite Hc at 1. rewrite <- app_assoc. reflexivity.
Qed.

Lemma lw_at_offset_pre (pre x : list byte) : at_offset (N.of_nat (length pre)) (pre ++ x) = x.
Proof. unfold at_offset. now rewrite Nat2N.id, skipn_app_exact. Qed.

Lemma lw_write_initial_length_len fmt64 be len il :
  write_initial_length fmt64 be len = Ok il -> N.of_nat (length il) = initial_length_size fmt64.
Proof.
  unfold write_initial_length, initial_length_size.
  destruct (negb fmt64 && (4294967280 <=? len) && (len <=? 4294967295)); [discriminate|].
  intros H. bind_ok H. inversion H; subst.
  unfold write_udata, word_size in E. destruct fmt64; cbn [N.eqb Pos.eqb] in E.
  - inversion E; subst. rewrite app_length, !enc_un_length. reflexivity.
  - destruct (len <? two32); [|discriminate]. inversion E; subst. cbn [app]. rewrite enc_un_length. reflexivity.
Qed.

Lemma lw_marker_of_ok asz mk : marker_of asz = Ok mk -> 1 <= asz <= 8 /\ mk = marker asz.
Proof.
  unfold marker_of. destruct ((1 <=? asz) && (asz <=? 8)) eqn:E; [|discriminate]. intros H.
  assert (Hc : asz = 1 \/ asz = 2 \/ asz = 3 \/ asz = 4 \/ asz = 5 \/ asz = 6 \/ asz = 7 \/ asz = 8) by lia.
  split; [lia|].
  destruct Hc as [-> | [-> | [-> | [-> | [-> | [-> | [-> | ->]]]]]]]; vm_compute in H; inversion H; reflexivity.
Qed.

Lemma lw_marker_of_valid asz : size_ok asz -> marker_of asz = Ok (marker asz).
Proof. intros [-> | [-> | [-> | ->]]]; vm_compute; reflexivity. Qed.

Lemma lw_marker_of_bad asz : ~ (1 <= asz <= 8) -> marker_of asz = Err WUnsupportedWordSize.
Proof. intros H. unfold marker_of. destruct ((1 <=? asz) && (asz <=? 8)) eqn:E; [lia|reflexivity]. Qed.

(* RangeListTable::write / LocationListTable::write: where each list of the table lies, written by which writer *)
Lemma lw_table_layout_v5 loc be fmt64 asz hb start tbl out offs (sec0 : list byte) :
  table_write loc be fmt64 5 asz hb start tbl = Ok (out, offs) -> N.of_nat (length sec0) = start ->
  forall i l, nth_error tbl i = Some l ->
    exists pre bs post, nth_error offs i = Some (N.of_nat (length pre)) /\
      write_list_v5 loc be 5 asz l = Ok bs /\ sec0 ++ out = pre ++ bs ++ post.
Proof.
  intros H Hs i l Hl. destruct tbl as [|l0 r]; [destruct i; discriminate Hl|].
  unfold table_write, write_tbl_v5 in H. change ((2 <=? 5) && (5 <=? 4)) with false in H.
  change (5 =? 5) with true in H. cbv iota in H. cbn [negb] in H.
  bind_ok H. destruct a as [body o]. bind_ok H. inversion H; subst.
  rewrite lw_lists_v5_gen in E. pose proof (lw_write_initial_length_len _ _ _ _ E0) as Hil.
  destruct (lw_tbl_gen_nth _ _ _ _ _ (sec0 ++ a ++ header_v5 be 5 asz) E) with (i := i) (l := l)
    as [pre [bs [post [Ho [Hw Hsec]]]]]; [|exact Hl|].
  { unfold header_v5. rewrite !app_length, !enc_un_length. lia. }
  exists pre, bs, post. split; [exact Ho|]. split; [exact Hw|].
  rewrite <- Hsec. rewrite <- !app_assoc. reflexivity.
Qed.

Lemma lw_table_layout_v4 loc be fmt64 version asz hb start tbl out offs (sec0 : list byte) :
  table_write loc be fmt64 version asz hb start tbl = Ok (out, offs) -> 2 <= version <= 4 ->
  N.of_nat (length sec0) = start ->
  forall i l, nth_error tbl i = Some l ->
    exists pre bs post, nth_error offs i = Some (N.of_nat (length pre)) /\
      write_list_v4 loc be version asz (marker asz) hb l = Ok bs /\ sec0 ++ out = pre ++ bs ++ post.
Proof.
  intros H Hv Hs i l Hl. destruct tbl as [|l0 r]; [destruct i; discriminate Hl|].
  unfold table_write in H. destruct ((2 <=? version) && (version <=? 4)) eqn:E; [|lia].
  unfold write_tbl_v4 in H. bind_ok H. destruct (lw_marker_of_ok _ _ E0) as [_ ->]. rewrite lw_lists_v4_gen in H.
  exact (lw_tbl_gen_nth _ _ _ _ _ sec0 H Hs i l Hl).
Qed.

(* Unit::write: its two tables are written by table_write with the unit's flag *)
Lemma lw_unit_tables be fmt64 version asz attrs rstart lstart rtbl ltbl r l :
  unit_write_lists be fmt64 version asz attrs rstart lstart rtbl ltbl = Ok (r, l) ->
  table_write false be fmt64 version asz (have_base_address attrs) rstart (map (map loc_of_range) rtbl) = Ok r /\
  table_write true be fmt64 version asz (have_base_address attrs) lstart ltbl = Ok l.
Proof.
  unfold unit_write_lists. destruct (negb ((2 <=? version) && (version <=? 5))); [discriminate|].
  intros H. bind_ok H. bind_ok H. bind_ok H. inversion H; subst. split; reflexivity.
Qed.

Definition enc_word (be : bool) (asz v : N) : list byte := enc_un (N.to_nat asz) be v.

(* the pair format, as a function of the pairs *)
Definition enc_pair4 (loc be : bool) (asz : N) (p : ent) : list byte :=
  match p with
  | EBase a => enc_word be asz (mask_of asz) ++ enc_word be asz a
  | EPair b e d =>
      enc_word be asz b ++ enc_word be asz e ++
      (if loc then enc_un 2 be (N.of_nat (length d)) ++ d else [])
  | _ => []
  end.
Definition enc_list4 (loc be : bool) (asz : N) (ps : list ent) : list byte :=
  flat_map (enc_pair4 loc be asz) ps ++ enc_word be asz 0 ++ enc_word be asz 0.

(* what every emitted pair satisfies: it fits the address size and is not the (0,0) terminator *)
Definition pair_ok (loc : bool) (asz : N) (p : ent) : Prop :=
  match p with
  | EBase a => a < amod asz
  | EPair b e d =>
      b < amod asz /\ e < amod asz /\ ~ (b = 0 /\ e = 0) /\
      N.of_nat (length d) < 65536 /\ (loc = false -> d = [])
  | _ => False
  end.
(* ... and, since the writers reject such entries (/repo 85ffc95; DESIGN §8 F8), a non-base pair does not begin
   with the base-selection marker *)
Definition pair_nomark (asz : N) (p : ent) : Prop :=
  match p with EPair b _ _ => b <> mask_of asz | _ => True end.

Lemma lw_enc_list4_cons loc be asz p ps : enc_list4 loc be asz (p :: ps) = enc_pair4 loc be asz p ++ enc_list4 loc be asz ps.
Proof. unfold enc_list4. cbn [flat_map]. now rewrite <- app_assoc. Qed.

Lemma lw_opt_expr4 loc be version d x :
  opt_expression loc be version d = Ok x -> version <= 4 -> (loc = false -> d = []) ->
  x = (if loc then enc_un 2 be (N.of_nat (length d)) ++ d else []) /\
  N.of_nat (length d) < 65536.
Proof.
  unfold opt_expression. destruct loc; intros H Hv Hn.
  - unfold write_expression in H. destruct (version <=? 4) eqn:E; [|lia].
    bind_ok H. inversion H; subst.
    assert (Hl : N.of_nat (length d) < 2 ^ 64).
    { unfold write_udata in E0. cbn [N.eqb Pos.eqb] in E0.
      destruct (N.of_nat (length d) <? two16) eqn:E2; [|discriminate]. unfold two16 in E2.
      apply N.lt_trans with 65536; [lia|vm_compute; reflexivity]. }
    destruct (lw_write_udata_ok _ _ _ _ E0 Hl) as [_ [Hf ->]]. change (amod 2) with 65536 in Hf.
    split; [reflexivity|exact Hf].
  - inversion H; subst. rewrite (Hn eq_refl). split; [reflexivity|vm_compute; reflexivity].
Qed.

Lemma lw_opt_expr4_fits loc be version d :
  version <= 4 -> N.of_nat (length d) < 65536 -> exists x, opt_expression loc be version d = Ok x.
Proof.
  intros Hv Hd. unfold opt_expression, write_expression. destruct loc; [|eauto].
  destruct (version <=? 4) eqn:E; [|lia].
  rewrite (lw_write_udata_fits be _ 2) by (unfold size_ok; auto). cbn [bind]. eauto.
Qed.

Lemma lw_mask_pos asz : size_ok asz -> mask_of asz <> 0 /\ mask_of asz < amod asz.
Proof. intros [-> | [-> | [-> | ->]]]; vm_compute; split; congruence. Qed.

Lemma lw_tombstone_pos asz : size_ok asz -> (tombstone asz <=? 0) = false.
Proof. intros [-> | [-> | [-> | ->]]]; vm_compute; reflexivity. Qed.

(* one entry of write_ranges / write_loc once its checks have passed *)
Definition entry4 (loc be : bool) (version asz : N) (x : wloc) : res (list byte) :=
  match x with
  | LBase a =>
      let* b1 := write_udata be (marker asz) asz in
      let* b2 := write_address be a asz in Ok (b1 ++ b2)
  | LOffsetPair b e d =>
      let* b1 := write_udata be b asz in
      let* b2 := write_udata be e asz in
      let* x := opt_expression loc be version d in Ok (b1 ++ b2 ++ x)
  | LStartEnd b e d =>
      let* b1 := write_address be b asz in
      let* b2 := write_address be e asz in
      let* x := opt_expression loc be version d in Ok (b1 ++ b2 ++ x)
  | LStartLength b len d =>
      let* e := start_length_end b len in
      let* b1 := write_address be b asz in
      let* b2 := write_address be e asz in
      let* x := opt_expression loc be version d in Ok (b1 ++ b2 ++ x)
  | LDefault _ => Err WInvalidRange
  end.

Lemma bind_app3 {T} (r1 r2 r3 r4 : res (list T)) :
  (let* b1 := r1 in let* b2 := r2 in let* x := r3 in let* rest := r4 in Ok (b1 ++ b2 ++ x ++ rest)) =
  (let* b := (let* b1 := r1 in let* b2 := r2 in let* x := r3 in Ok (b1 ++ b2 ++ x)) in
   let* rest := r4 in Ok (b ++ rest)).
Proof.
  destruct r1; [|reflexivity..]. destruct r2; [|reflexivity..]. destruct r3; [|reflexivity..].
  destruct r4; [|reflexivity..]. cbn [bind]. now rewrite <- !app_assoc.
Qed.

(* the end of a StartLength entry exists exactly when the sum fits, and equals the begin exactly when the
   length is 0 *)
Lemma lw_sle_cases b len d :
  if sum_fits (LStartLength b len d)
  then exists e, start_length_end b len = Ok e /\ addr_eqb b e = (len =? 0)
  else start_length_end b len = Err WValueTooLarge.
Proof.
  destruct b as [v|s z]; cbn [start_length_end sum_fits addr_eqb].
  - destruct (v + len <? 2 ^ 64); [|reflexivity]. eexists. split; [reflexivity|]. cbn [addr_eqb]. lia.
  - destruct (len <? 2 ^ 63); [|reflexivity]. destruct (in_i64 (z + Z.of_N len)); [|reflexivity].
    eexists. split; [reflexivity|]. cbn [addr_eqb andb]. rewrite N.eqb_refl. cbn [andb]. lia.
Qed.

(* write_ranges / write_loc entry by entry: the checks are `reject_entry`, in its order; a base address entry
   raises the flag for the rest of the list *)
Lemma write_list_v4_cons loc be version asz hb x r :
  write_list_v4 loc be version asz (marker asz) hb (x :: r) =
  match reject_entry asz hb x with
  | Some e => Err e
  | None =>
      let* b := entry4 loc be version asz x in
      let* rest := write_list_v4 loc be version asz (marker asz) (hb || is_base x) r in
      Ok (b ++ rest)
  end.
Proof.
  destruct x as [a|b e d|b e d|b len d|d]; cbn [write_list_v4 reject_entry entry4 is_base].
  - rewrite orb_true_r.
    destruct (write_udata be (marker asz) asz), (write_address be a asz),
      (write_list_v4 loc be version asz (marker asz) true r); cbn [bind]; try reflexivity.
    now rewrite <- app_assoc.
  - rewrite orb_false_r. destruct (b =? e); [reflexivity|]. destruct (negb hb); [reflexivity|].
    destruct (b =? marker asz); [reflexivity|]. apply bind_app3.
  - rewrite orb_false_r. destruct (addr_eqb b e); [reflexivity|]. destruct hb; [reflexivity|].
    destruct (addr_eqb b (AConst (marker asz))); [reflexivity|]. apply bind_app3.
  - rewrite orb_false_r. pose proof (lw_sle_cases b len d) as S.
    destruct (sum_fits (LStartLength b len d)); cbn [negb]; [|rewrite S; reflexivity].
    destruct S as [e [-> Ee]]. cbn [bind]. rewrite Ee. destruct (len =? 0); [reflexivity|].
    destruct hb; [reflexivity|]. destruct (addr_eqb b (AConst (marker asz))); [reflexivity|]. apply bind_app3.
  - reflexivity.
Qed.

(* one accepted entry: it is written as the pair encoding of `pair_of x`, that pair fits, is neither (0,0) nor
   begins with the marker, and it means, relative to the base the flag stands for, what `ent_of x` means *)
Lemma entry4_ok loc be version asz hb x b :
  entry4 loc be version asz x = Ok b -> reject_entry asz hb x = None -> version <= 4 -> wf loc x -> size_ok asz ->
  exists p e, pair_of x = Some p /\ ent_of x = Some e /\ b = enc_pair4 loc be asz p /\
    pair_ok loc asz p /\ pair_nomark asz p /\
    forall base ps es, (hb = false -> base = 0) ->
      (forall base', (hb || is_base x = false -> base' = 0) -> resolve asz base' ps = resolve asz base' es) ->
      resolve asz base (p :: ps) = resolve asz base (e :: es).
Proof.
  intros H Hrej Hv Hw Hs. pose proof (lw_wf_nodata _ _ Hw) as Hn. destruct Hw as [Hxw [Hd _]].
  pose proof (lw_tombstone_pos _ Hs) as Ht. pose proof (lw_amod_le_64 _ Hs) as H64.
  destruct x as [a|vb ve d|vb ve d|vb len d|d]; cbn [entry4 reject_entry wloc_wf data_of is_base] in *.
  - (* base *)
    bind_ok H. bind_ok H. inversion H; subst.
    destruct (lw_write_address_ok _ _ _ _ E0 Hxw) as [v [-> [_ [Hvf ->]]]].
    destruct (lw_mask_pos _ Hs) as [_ Hmf].
    destruct (lw_write_udata_ok _ _ _ _ E ltac:(change (marker asz) with (mask_of asz); lia)) as [_ [_ ->]].
    exists (EBase v), (EBase v). repeat split; try assumption.
    intros base ps es _ Hr. cbn [resolve]. apply Hr. rewrite orb_true_r. discriminate.
  - (* offset pair *)
    destruct Hxw as [Hb He]. destruct (vb =? ve) eqn:Ebe; [discriminate|].
    destruct hb; [|discriminate]. cbn [negb] in Hrej. destruct (vb =? marker asz) eqn:Ebm; [discriminate|].
    bind_ok H. bind_ok H. bind_ok H. inversion H; subst.
    destruct (lw_write_udata_ok _ _ _ _ E Hb) as [_ [Hbf ->]].
    destruct (lw_write_udata_ok _ _ _ _ E0 He) as [_ [Hef ->]].
    destruct (lw_opt_expr4 _ _ _ _ _ E1 Hv Hn) as [-> Hdl].
    exists (EPair vb ve d), (EOffsetPair vb ve d). cbn [pair_ok pair_nomark].
    repeat split; try assumption; try (change (mask_of asz) with (marker asz); lia).
    intros base ps es _ Hr. cbn [resolve]. now rewrite Hr.
  - (* start end *)
    destruct Hxw as [Hb He]. destruct (addr_eqb vb ve) eqn:Ebe; [discriminate|].
    destruct hb; [discriminate|]. destruct (addr_eqb vb (AConst (marker asz))) eqn:Ebm; [discriminate|].
    bind_ok H. bind_ok H. bind_ok H. inversion H; subst.
    destruct (lw_write_address_ok _ _ _ _ E Hb) as [b [-> [_ [Hbf ->]]]].
    destruct (lw_write_address_ok _ _ _ _ E0 He) as [e [-> [_ [Hef ->]]]].
    destruct (lw_opt_expr4 _ _ _ _ _ E1 Hv Hn) as [-> Hdl]. cbn [addr_eqb] in Ebe, Ebm.
    exists (EPair b e d), (EStartEnd b e d). cbn [pair_ok pair_nomark].
    repeat split; try assumption; try (change (mask_of asz) with (marker asz); lia).
    intros base ps es Hb0 Hr. rewrite (Hb0 eq_refl). cbn [resolve]. rewrite Ht.
    rewrite !N.add_0_l, !N.mod_small by assumption. now rewrite Hr.
  - (* start length *)
    destruct Hxw as [Hb Hl]. pose proof (lw_sle_cases vb len d) as S.
    destruct (sum_fits (LStartLength vb len d)); cbn [negb] in Hrej; [|discriminate].
    destruct S as [ve [Ee Eeq]]. rewrite Ee in H. cbn [bind] in H.
    destruct (len =? 0) eqn:El; [discriminate|]. destruct hb; [discriminate|].
    destruct (addr_eqb vb (AConst (marker asz))) eqn:Ebm; [discriminate|].
    bind_ok H. bind_ok H. bind_ok H. inversion H; subst.
    destruct (lw_write_address_ok _ _ _ _ E Hb) as [b [-> [_ [Hbf ->]]]].
    cbn [start_length_end] in Ee. destruct (b + len <? 2 ^ 64) eqn:Es; [|discriminate]. inversion Ee; subst ve.
    destruct (lw_write_address_ok _ _ _ _ E0 ltac:(cbn [addr_wf]; lia)) as [e [He' [_ [Hef ->]]]]. inversion He'; subst e.
    destruct (lw_opt_expr4 _ _ _ _ _ E1 Hv Hn) as [-> Hdl]. cbn [addr_eqb] in Ebm.
    exists (EPair b (b + len) d), (EStartLength b len d). cbn [pair_ok pair_nomark].
    repeat split; try assumption; try (change (mask_of asz) with (marker asz); lia).
    intros base ps es Hb0 Hr. rewrite (Hb0 eq_refl). cbn [resolve]. rewrite Ht.
    rewrite !N.add_0_l, (N.mod_small b) by assumption. now rewrite Hr.
  - discriminate.
Qed.

(* the pre-v5 writers: on success the bytes are the pair encoding of `pairs_of l` with its terminator; every pair
   fits the address size, none is (0,0), no address-or-offset pair begins with the base-selection marker; and the
   pairs mean what the list means. hb = false (no base address in force) implies that the reader's base is 0:
   address pairs are absolute. *)
Theorem write_list_v4_pairs loc be version asz : forall l hb bs,
  write_list_v4 loc be version asz (marker asz) hb l = Ok bs -> version <= 4 -> Forall (wf loc) l ->
  size_ok asz /\ exists ps es, pairs_of l = Some ps /\ ents_of l = Some es /\ bs = enc_list4 loc be asz ps /\
    Forall (pair_ok loc asz) ps /\ Forall (pair_nomark asz) ps /\
    forall base, (hb = false -> base = 0) -> resolve asz base ps = resolve asz base es.
Proof.
  induction l as [|x r IH]; intros hb bs H Hv Hwf.
  - cbn [write_list_v4] in H. bind_ok H. inversion H; subst.
    assert (H0 : 0 < 2 ^ 64) by (vm_compute; reflexivity).
    destruct (lw_write_udata_ok _ _ _ _ E H0) as [Hs [_ ->]].
    split; [exact Hs|]. exists [], []. repeat split; constructor.
  - rewrite write_list_v4_cons in H. destruct (reject_entry asz hb x) eqn:Ere; [discriminate|].
    bind_ok H. bind_ok H. inversion H; subst. inversion Hwf as [|? ? Hx Hr]; subst.
    destruct (IH _ _ E0 Hv Hr) as [Hs [ps [es [Hp [He [-> [Hok [Hnm Hres]]]]]]]].
    destruct (entry4_ok _ _ _ _ _ _ _ E Ere Hv Hx Hs) as [p [e [Hpx [Hex [-> [Hpo [Hpn Hstep]]]]]]].
    split; [exact Hs|]. exists (p :: ps), (e :: es). cbn [pairs_of ents_of]. rewrite Hpx, Hp, Hex, He.
    repeat split; try (constructor; assumption); [symmetry; apply lw_enc_list4_cons|].
    intros base Hb. now apply Hstep.
Qed.

(* ... and never bytes for a list that must be rejected *)
Lemma lw_never_bytes loc be version asz : forall l hb bs,
  write_list_v4 loc be version asz (marker asz) hb l = Ok bs -> rejected asz hb l = None.
Proof.
  induction l as [|x r IH]; intros hb bs H; [reflexivity|].
  rewrite write_list_v4_cons in H. cbn [rejected].
  destruct (reject_entry asz hb x); [discriminate|]. bind_ok H. bind_ok H. eapply IH; eauto.
Qed.

(* an entry the pair format can hold is written *)
Lemma entry4_plain loc be version asz hb x :
  size_ok asz -> version <= 4 -> reject_entry asz hb x = None -> plainb asz x = true ->
  exists b, entry4 loc be version asz x = Ok b.
Proof.
  intros Hs Hv Hrej Hp. pose proof (lw_amod_le_64 _ Hs) as H64. destruct (lw_mask_pos _ Hs) as [_ Hmf].
  destruct x as [a|b e d|b e d|b len d|d]; cbn [entry4 plainb reject_entry] in *.
  - destruct a as [v|s z]; [|discriminate]. cbn [write_address]. change (marker asz) with (mask_of asz).
    rewrite (lw_write_udata_fits be _ _ Hs Hmf), (lw_write_udata_fits be _ _ Hs) by lia. cbn [bind]. eauto.
  - rewrite !(lw_write_udata_fits be _ _ Hs) by lia. cbn [bind].
    destruct (lw_opt_expr4_fits loc be version d Hv ltac:(lia)) as [xx ->]. cbn [bind]. eauto.
  - destruct b as [vb|s z]; [|discriminate]. destruct e as [ve|s z]; [|discriminate]. cbn [write_address].
    rewrite !(lw_write_udata_fits be _ _ Hs) by lia. cbn [bind].
    destruct (lw_opt_expr4_fits loc be version d Hv ltac:(lia)) as [xx ->]. cbn [bind]. eauto.
  - destruct b as [vb|s z]; [|discriminate]. cbn [start_length_end].
    destruct (vb + len <? 2 ^ 64) eqn:Es; [|lia]. cbn [bind write_address].
    rewrite !(lw_write_udata_fits be _ _ Hs) by lia. cbn [bind].
    destruct (lw_opt_expr4_fits loc be version d Hv ltac:(lia)) as [xx ->]. cbn [bind]. eauto.
  - discriminate.
Qed.

(* the first entry that must be rejected decides the result, with exactly the error of the rule *)
Lemma lw_rejects loc be version asz : size_ok asz -> version <= 4 -> forall l hb e,
  rejected asz hb l = Some e -> plain_until_reject asz hb l = true ->
  write_list_v4 loc be version asz (marker asz) hb l = Err e.
Proof.
  intros Hs Hv. induction l as [|x r IH]; intros hb e Hrej Hpl; [discriminate|].
  rewrite write_list_v4_cons.
  cbn [rejected plain_until_reject] in *. destruct (reject_entry asz hb x) eqn:Ere; [congruence|].
  apply andb_prop in Hpl as [Hp Hpl].
  destruct (entry4_plain loc be version asz hb x Hs Hv Ere Hp) as [b ->]. cbn [bind].
  now rewrite (IH _ _ Hrej Hpl).
Qed.

Lemma lw_opt_data4 (dbg loc be : bool) (d rest : list byte) :
  N.of_nat (length d) < 65536 -> (loc = false -> d = []) ->
  dec_opt_data dbg loc false be ((if loc then enc_un 2 be (N.of_nat (length d)) ++ d else []) ++ rest) = Ok (d, rest).
Proof.
  intros Hd Hn. unfold dec_opt_data. destruct loc.
  - rewrite <- app_assoc. exact (lw_dec_data dbg false be d rest Hd).
  - now rewrite (Hn eq_refl).
Qed.

Lemma lw_enc_word_length be asz v : length (enc_word be asz v) = N.to_nat asz.
Proof. apply enc_un_length. Qed.

(* dec4 inverts the pair encoding on lists without (0,0) pairs and without marker clashes *)
Lemma lw_dec4_enc dbg loc be asz : size_ok asz -> forall ps,
  Forall (pair_ok loc asz) ps -> Forall (pair_nomark asz) ps ->
  forall rest fuel, (length (flat_map (enc_pair4 loc be asz) ps) < fuel)%nat ->
    dec4_fuel fuel dbg loc be asz (enc_list4 loc be asz ps ++ rest) = Ok (ps, rest).
Proof.
  intros Hs. assert (Hz : 0 < amod asz) by (destruct Hs as [-> | [-> | [-> | ->]]]; vm_compute; reflexivity).
  assert (Hsz : (1 <= N.to_nat asz)%nat) by (destruct Hs as [-> | [-> | [-> | ->]]]; vm_compute; lia).
  destruct (lw_mask_pos _ Hs) as [Hm0 Hmf].
  induction ps as [|p ps IH]; intros Hok Hnm rest fuel Hf.
  - destruct fuel as [|f]; [cbn [flat_map length] in Hf; lia|].
    unfold enc_list4. cbn [flat_map app dec4_fuel]. unfold enc_word. rewrite <- app_assoc.
    rewrite (lw_read_address_enc _ _ _ _ Hs Hz). cbn [bind].
    rewrite (lw_read_address_enc _ _ _ _ Hs Hz). cbn [bind]. reflexivity.
  - inversion Hok as [|? ? Hp Hok']; subst. inversion Hnm as [|? ? Hq Hnm']; subst.
    destruct fuel as [|f]; [lia|].
    cbn [flat_map] in Hf. rewrite app_length in Hf.
    rewrite lw_enc_list4_cons, <- app_assoc.
    destruct p as [a|b e d|b e d|b len d|d|b e d]; cbn [pair_ok] in Hp; try contradiction.
    + (* base selection *)
      cbn [enc_pair4] in *. rewrite app_length, !lw_enc_word_length in Hf.
      unfold enc_word at 1 2. rewrite <- !app_assoc. cbn [dec4_fuel].
      rewrite (lw_read_address_enc _ _ _ _ Hs Hmf). cbn [bind].
      rewrite (lw_read_address_enc _ _ _ _ Hs Hp). cbn [bind].
      destruct ((mask_of asz =? 0) && (a =? 0)) eqn:E0; [lia|].
      rewrite N.eqb_refl. rewrite IH by (try assumption; lia). reflexivity.
    + (* address or offset pair *)
      destruct Hp as [Hb [He [Hnz [Hd Hn]]]]. cbn [pair_nomark] in Hq.
      cbn [enc_pair4] in *. rewrite !app_length, !lw_enc_word_length in Hf.
      unfold enc_word at 1 2. rewrite <- !app_assoc. cbn [dec4_fuel].
      rewrite (lw_read_address_enc _ _ _ _ Hs Hb). cbn [bind].
      rewrite (lw_read_address_enc _ _ _ _ Hs He). cbn [bind].
      destruct ((b =? 0) && (e =? 0)) eqn:E0; [lia|].
      destruct (b =? mask_of asz) eqn:E1; [lia|].
      rewrite (lw_opt_data4 dbg _ _ _ _ Hd Hn). cbn [bind].
      rewrite IH by (try assumption; lia). reflexivity.
Qed.

Lemma lw_dec4_enc_full dbg loc be asz ps rest :
  size_ok asz -> Forall (pair_ok loc asz) ps -> Forall (pair_nomark asz) ps ->
  dec4 dbg loc be asz (enc_list4 loc be asz ps ++ rest) = Ok (ps, rest).
Proof.
  intros Hs Hok Hnm. unfold dec4. apply lw_dec4_enc; try assumption.
  unfold enc_list4. rewrite !app_length. lia.
Qed.

(* every list the pre-v5 writers accept decodes to pairs that mean what the list means *)
Lemma lw_write_read_v4_list dbg' loc be version asz hb base l bs :
  write_list_v4 loc be version asz (marker asz) hb l = Ok bs -> version <= 4 -> Forall (wf loc) l ->
  (hb = false -> base = 0) ->
  exists ps es, pairs_of l = Some ps /\ ents_of l = Some es /\
    (forall rest, dec4 dbg' loc be asz (bs ++ rest) = Ok (ps, rest)) /\
    resolve asz base ps = resolve asz base es.
Proof.
  intros H Hv Hwf Hb.
  destruct (write_list_v4_pairs _ _ _ _ _ _ _ H Hv Hwf) as [Hs [ps [es [Hp [He [-> [Hok [Hnm Hres]]]]]]]].
  exists ps, es. repeat split; try assumption; [|now apply Hres].
  intros rest. now apply lw_dec4_enc_full.
Qed.

(* RangeListTable::add / LocationListTable::add (FnvIndexSet::insert_full) *)

Section Dedup.
  Context {A : Type} (eqb : A -> A -> bool).
  Hypothesis eqb_spec : forall x y, eqb x y = true <-> x = y.

  Lemma lw_index_of_some x : forall l i, index_of eqb x l = Some i -> nth_error l i = Some x.
  Proof.
    induction l as [|y r IH]; intros i H; cbn [index_of] in H; [discriminate|].
    destruct (eqb x y) eqn:E.
    - inversion H; subst. apply eqb_spec in E. subst. reflexivity.
    - destruct (index_of eqb x r) as [j|] eqn:Ej; [|discriminate]. inversion H; subst. cbn [nth_error]. now apply IH.
  Qed.

  Lemma lw_index_of_none x : forall l, index_of eqb x l = None -> ~ In x l.
  Proof.
    induction l as [|y r IH]; intros H; cbn [index_of] in H; [intros []|].
    destruct (eqb x y) eqn:E; [discriminate|].
    destruct (index_of eqb x r) eqn:Ej; [discriminate|].
    intros [Hy|Hr]; [|now apply IH].
    subst y. assert (eqb x x = true) by (apply eqb_spec; reflexivity). congruence.
  Qed.

  (* one insertion: the id points at the list, earlier ids stay valid, no duplicate is created *)
  Lemma lw_tbl_add tbl x t i :
    tbl_add eqb tbl x = (t, i) ->
    nth_error t i = Some x /\ (exists suffix, t = tbl ++ suffix) /\ (NoDup tbl -> NoDup t) /\
    (forall y, In y t -> In y tbl \/ y = x).
  Proof.
    unfold tbl_add. destruct (index_of eqb x tbl) as [j|] eqn:E; intros H; inversion H; subst.
    - split; [now apply lw_index_of_some|]. split; [exists []; now rewrite app_nil_r|]. split; [auto|]. auto.
    - split; [rewrite nth_error_app2, Nat.sub_diag by lia; reflexivity|].
      split; [eauto|]. split.
      + intros Hnd. apply NoDup_snoc; [exact Hnd|]. now apply lw_index_of_none.
      + intros y Hy. apply in_app_or in Hy. destruct Hy as [Hy|[Hy|[]]]; auto.
  Qed.

  Lemma lw_tbl_add_all : forall xs tbl t ids,
    tbl_add_all eqb tbl xs = (t, ids) -> NoDup tbl ->
    NoDup t /\ (exists suffix, t = tbl ++ suffix) /\
    Forall2 (fun x i => nth_error t i = Some x) xs ids /\
    (forall y, In y t -> In y tbl \/ In y xs).
  Proof.
    induction xs as [|x r IH]; intros tbl t ids H Hnd; cbn [tbl_add_all] in H.
    - inversion H; subst. split; [exact Hnd|]. split; [exists []; now rewrite app_nil_r|]. split; [constructor|auto].
    - destruct (tbl_add eqb tbl x) as [t1 i] eqn:E1. destruct (tbl_add_all eqb t1 r) as [t2 ids'] eqn:E2.
      inversion H; subst. destruct (lw_tbl_add _ _ _ _ E1) as [Hi [[s1 Hs1] [Hn1 Hin1]]].
      destruct (IH _ _ _ E2 (Hn1 Hnd)) as [Hn2 [[s2 Hs2] [HF Hin2]]].
      split; [exact Hn2|]. split; [exists (s1 ++ s2); subst; now rewrite app_assoc|]. split.
      + constructor; [|exact HF]. subst t. rewrite nth_error_app1; [exact Hi|].
        apply nth_error_Some. congruence.
      + intros y Hy. destruct (Hin2 y Hy) as [Hy1|Hy2]; [|right; now right].
        destruct (Hin1 y Hy1) as [? | ->]; [now left|right; now left].
  Qed.

  (* equal lists <-> equal ids; the table holds each distinct list once *)
  Lemma lw_dedup xs t ids :
    tbl_add_all eqb [] xs = (t, ids) ->
    NoDup t /\ length ids = length xs /\
    (forall k x, nth_error xs k = Some x -> exists i, nth_error ids k = Some i /\ nth_error t i = Some x) /\
    (forall k1 k2 x1 x2 i1 i2, nth_error xs k1 = Some x1 -> nth_error xs k2 = Some x2 ->
       nth_error ids k1 = Some i1 -> nth_error ids k2 = Some i2 -> (x1 = x2 <-> i1 = i2)) /\
    (forall y, In y t <-> In y xs).
  Proof.
    intros H. destruct (lw_tbl_add_all _ _ _ _ H (NoDup_nil A)) as [Hnd [_ [HF Hin]]].
    split; [exact Hnd|]. split; [symmetry; eapply Forall2_length; eauto|].
    assert (Hk : forall k x, nth_error xs k = Some x -> exists i, nth_error ids k = Some i /\ nth_error t i = Some x).
    { intros k x Hx. destruct (Forall2_nth_ex _ _ _ _ _ HF Hx) as [i [Hi Ht]]. eauto. }
    split; [exact Hk|]. split.
    - intros k1 k2 x1 x2 i1 i2 H1 H2 Hi1 Hi2.
      destruct (Hk _ _ H1) as [j1 [Hj1 Ht1]]. destruct (Hk _ _ H2) as [j2 [Hj2 Ht2]].
      assert (j1 = i1) by congruence. assert (j2 = i2) by congruence. subst j1 j2. split.
      + intros ->. eapply (proj1 (NoDup_nth_error t) Hnd); [apply nth_error_Some; congruence|congruence].
      + intros ->. congruence.
    - intros y. split.
      + intros Hy. destruct (Hin y Hy) as [[]|Hy']; exact Hy'.
      + intros Hy. apply In_nth_error in Hy. destruct Hy as [k Hkx].
        destruct (Hk _ _ Hkx) as [i [_ Hti]]. eapply nth_error_In; eauto.
  Qed.
End Dedup.

Lemma lw_addr_eqb_spec a b : addr_eqb a b = true <-> a = b.
Proof.
  destruct a as [x|s z], b as [y|s' z']; cbn [addr_eqb]; split; intros H; try discriminate.
  - f_equal; lia. - inversion H; lia. - apply andb_prop in H. destruct H. f_equal; lia.
  - inversion H; subst. rewrite N.eqb_refl, Z.eqb_refl. reflexivity.
Qed.

Lemma lw_bytes_eqb_spec : forall a b, bytes_eqb' a b = true <-> a = b.
Proof.
  induction a as [|x r IH]; intros [|y s]; cbn [bytes_eqb']; split; intros H; try discriminate; try reflexivity.
  - apply andb_prop in H. destruct H as [H1 H2]. f_equal; [apply b2n_inj; lia|now apply IH].
  - inversion H; subst. rewrite N.eqb_refl. cbn [andb]. now apply IH.
Qed.

Lemma lw_list_eqb_spec {A} (eqb : A -> A -> bool) :
  (forall x y, eqb x y = true <-> x = y) -> forall a b, list_eqb eqb a b = true <-> a = b.
Proof.
  intros He. induction a as [|x r IH]; intros [|y s]; cbn [list_eqb]; split; intros H; try discriminate; try reflexivity.
  - apply andb_prop in H. destruct H as [H1 H2]. f_equal; [now apply He|now apply IH].
  - inversion H; subst. apply andb_true_intro. split; [now apply He|now apply IH].
Qed.

Lemma lw_wloc_eqb_spec x y : wloc_eqb x y = true <-> x = y.
Proof.
  destruct x, y; cbn [wloc_eqb]; split; intros H; try discriminate;
    repeat match goal with
           | H : _ && _ = true |- _ => apply andb_prop in H; destruct H
           | H : addr_eqb _ _ = true |- _ => apply lw_addr_eqb_spec in H
           | H : bytes_eqb' _ _ = true |- _ => apply lw_bytes_eqb_spec in H
           | H : (_ =? _) = true |- _ => apply N.eqb_eq in H
           end; subst; try reflexivity;
    inversion H; subst;
    repeat (apply andb_true_intro; split);
    try (apply lw_addr_eqb_spec; reflexivity); try (apply lw_bytes_eqb_spec; reflexivity); try apply N.eqb_refl.
Qed.

(* a range is compared as the location it is written as *)
Lemma lw_wrange_eqb_spec x y : wrange_eqb x y = true <-> x = y.
Proof.
  replace (wrange_eqb x y) with (wloc_eqb (loc_of_range x) (loc_of_range y))
    by (destruct x, y; cbn [loc_of_range wloc_eqb wrange_eqb bytes_eqb']; rewrite ?andb_true_r; reflexivity).
  rewrite lw_wloc_eqb_spec. split; [|intros ->; reflexivity].
  destruct x, y; intros H; inversion H; reflexivity.
Qed.

Lemma lw_is_const0 v : is_address_const0 v = true <-> v = VAddress (AConst 0).
Proof.
  destruct v as [[[|p]|s z]|u|]; cbn [is_address_const0]; split; intros H; try discriminate; try reflexivity.
Qed.

(* the writer's flag is false only when the reader's base address is 0 *)
Lemma lw_base_from_root attrs : have_base_address attrs = false -> unit_base attrs = 0.
Proof.
  unfold unit_base, have_base_address.
  assert (G : forall attrs cur,
    (cur = None \/ cur = Some (VAddress (AConst 0))) ->
    existsb (fun p => (fst p =? DW_AT_low_pc) && negb (is_address_const0 (snd p))) attrs = false ->
    last_low_pc cur attrs = None \/ last_low_pc cur attrs = Some (VAddress (AConst 0))).
  { induction attrs0 as [|[n v] r IH]; intros cur Hc H; cbn [last_low_pc existsb fst snd] in *; [exact Hc|].
    apply orb_false_elim in H. destruct H as [H1 H2].
    apply IH; [|exact H2]. destruct (n =? DW_AT_low_pc); [|exact Hc].
    cbn [andb] in H1. right. f_equal. apply lw_is_const0. destruct (is_address_const0 v); [reflexivity|discriminate]. }
  intros H. destruct (G attrs None (or_introl eq_refl) H) as [-> | ->]; reflexivity.
Qed.

Lemma lw_np_write_udata be v size : returns (write_udata be v size).
Proof.
  unfold write_udata.
  repeat match goal with |- returns (if ?c then _ else _) => destruct c end; try apply returns_ok; apply returns_err.
Qed.

Lemma lw_np_write_address be a size : returns (write_address be a size).
Proof. destruct a; cbn [write_address]; [apply lw_np_write_udata|apply returns_err]. Qed.

Lemma lw_np_opt_expression loc be version d : N.of_nat (length d) < 2 ^ 64 -> returns (opt_expression loc be version d).
Proof.
  intros Hd. unfold opt_expression, write_expression. destruct loc; [|apply returns_ok].
  apply returns_bind; [|intros; apply returns_ok].
  destruct (version <=? 4); [apply lw_np_write_udata|rewrite lw_write_uleb by exact Hd; apply returns_ok].
Qed.

Ltac np_step :=
  first [ apply returns_ok | apply returns_err | apply lw_np_write_udata | apply lw_np_write_address
        | (rewrite lw_write_uleb by tauto) | (apply lw_np_opt_expression; assumption)
        | (apply returns_bind; [|intros ? ?]) ].

Lemma lw_np_entry_v5 loc be version asz x : wf loc x -> returns (write_entry_v5 loc be version asz x).
Proof.
  intros [Hw [Hd _]]. destruct x as [a|b e d|b e d|b len d|d]; cbn [write_entry_v5 wloc_wf data_of] in *;
    repeat np_step.
Qed.

Lemma lw_np_list_v5 loc be version asz l : Forall (wf loc) l -> returns (write_list_v5 loc be version asz l).
Proof.
  induction 1 as [|x r Hx Hr IH]; cbn [write_list_v5]; [apply returns_ok|].
  apply returns_bind; [now apply lw_np_entry_v5|intros ? _]. apply returns_bind; [exact IH|intros ? _; apply returns_ok].
Qed.

Lemma lw_np_tbl_gen f : forall tbl pos, Forall (fun l => returns (f l)) tbl -> returns (tbl_gen f pos tbl).
Proof.
  induction tbl as [|l r IH]; intros pos H; cbn [tbl_gen]; [apply returns_ok|].
  inversion H; subst. apply returns_bind; [assumption|intros ? _].
  apply returns_bind; [now apply IH|intros [? ?] _; apply returns_ok].
Qed.

Lemma lw_np_tbl_v5 loc be fmt64 version asz start tbl :
  Forall (Forall (wf loc)) tbl -> returns (write_tbl_v5 loc be fmt64 version asz start tbl).
Proof.
  intros H. unfold write_tbl_v5. destruct (negb (version =? 5)); [apply returns_err|].
  rewrite lw_lists_v5_gen. apply returns_bind.
  - apply lw_np_tbl_gen. eapply Forall_impl; [|exact H]. intros l Hl. now apply lw_np_list_v5.
  - intros [body offs] _. apply returns_bind; [|intros; apply returns_ok].
    unfold write_initial_length. destruct (negb fmt64 && _ && _); [apply returns_err|].
    apply returns_bind; [apply lw_np_write_udata|intros; apply returns_ok].
Qed.

Lemma lw_np_entry4 loc be version asz x : wf loc x -> returns (entry4 loc be version asz x).
Proof.
  intros [Hw [Hd _]]. destruct x as [a|b e d|b e d|b len d|d]; cbn [entry4 wloc_wf data_of] in *;
    repeat np_step.
  destruct b as [v|s z]; cbn [start_length_end];
    repeat match goal with |- returns (if ?c then _ else _) => destruct c end; np_step.
Qed.

(* no operation of the pre-v5 writers can overflow: every list of values of the Rust types returns *)
Lemma lw_np_list_v4 loc be version asz : forall l hb,
  Forall (wf loc) l -> returns (write_list_v4 loc be version asz (marker asz) hb l).
Proof.
  induction l as [|x r IH]; intros hb Hwf.
  - cbn [write_list_v4]. repeat np_step.
  - inversion Hwf; subst. rewrite write_list_v4_cons. destruct (reject_entry asz hb x); [apply returns_err|].
    apply returns_bind; [now apply lw_np_entry4|intros ? _].
    apply returns_bind; [now apply IH|intros ? _; apply returns_ok].
Qed.

Lemma lw_np_table_write loc be fmt64 version asz hb start tbl :
  Forall (Forall (wf loc)) tbl -> returns (table_write loc be fmt64 version asz hb start tbl).
Proof.
  intros Hwf. unfold table_write. destruct tbl as [|l r]; [apply returns_ok|].
  destruct ((2 <=? version) && (version <=? 4)); [|destruct (version =? 5); [now apply lw_np_tbl_v5|apply returns_err]].
  unfold write_tbl_v4. apply returns_bind.
  - unfold marker_of. destruct ((1 <=? asz) && (asz <=? 8)); [apply returns_ok|apply returns_err].
  - intros mk E. apply lw_marker_of_ok in E as [_ ->]. rewrite lw_lists_v4_gen. apply lw_np_tbl_gen.
    eapply Forall_impl; [|exact Hwf]. intros l0 Hl. now apply lw_np_list_v4.
Qed.

Lemma lw_np_root_attrs be asz attrs : returns (root_attrs_write be asz attrs).
Proof.
  induction attrs as [|[n v] r IH]; cbn [root_attrs_write]; [apply returns_ok|].
  destruct v; try exact IH. apply returns_bind; [apply lw_np_write_address|intros; exact IH].
Qed.

Lemma lw_wf_map_range rtbl :
  Forall (Forall wloc_wf) (map (map loc_of_range) rtbl) -> Forall (Forall (wf false)) (map (map loc_of_range) rtbl).
Proof.
  intros H. rewrite Forall_forall in *. intros l Hl. specialize (H l Hl).
  apply in_map_iff in Hl. destruct Hl as [rl [<- _]].
  rewrite Forall_forall in *. intros x Hx. specialize (H x Hx).
  apply in_map_iff in Hx. destruct Hx as [r [<- _]]. now apply lw_wf_range.
Qed.

Definition unit_wf (rtbl : list (list wrange)) (ltbl : list (list wloc)) : Prop :=
  Forall (Forall wloc_wf) (map (map loc_of_range) rtbl) /\ Forall (Forall (wf true)) ltbl.

Lemma lw_np_unit be fmt64 version asz attrs rstart lstart rtbl ltbl :
  unit_wf rtbl ltbl -> returns (unit_write_lists be fmt64 version asz attrs rstart lstart rtbl ltbl).
Proof.
  intros [Hr Hl]. unfold unit_write_lists.
  destruct (negb ((2 <=? version) && (version <=? 5))); [apply returns_err|].
  apply returns_bind; [apply lw_np_table_write; now apply lw_wf_map_range|intros ? _].
  apply returns_bind; [now apply lw_np_table_write|intros ? _].
  apply returns_bind; [apply lw_np_root_attrs|intros; apply returns_ok].
Qed.

(* DWARF 5: every list of the table decodes, at the offset recorded for it, to exactly its entries *)
Lemma lw_table_read_v5 dbg' loc be fmt64 asz hb start tbl out offs (sec0 : list byte) :
  table_write loc be fmt64 5 asz hb start tbl = Ok (out, offs) ->
  N.of_nat (length sec0) = start -> Forall (Forall (wf loc)) tbl ->
  forall i l, nth_error tbl i = Some l ->
    exists o es rest, nth_error offs i = Some o /\ ents_of l = Some es /\
      dec5 dbg' loc be asz (at_offset o (sec0 ++ out)) = Ok (es, rest).
Proof.
  intros H Hs Hwf i l Hl.
  destruct (lw_table_layout_v5 _ _ _ _ _ _ _ _ _ sec0 H Hs i l Hl) as [pre [bs [post [Ho [Hw ->]]]]].
  rewrite Forall_forall in Hwf. assert (Hwl : Forall (wf loc) l) by (apply Hwf; eapply nth_error_In; eauto).
  destruct (lw_list5_dec dbg' _ _ _ _ _ Hw Hwl) as [es [Hes Hdec]].
  exists (N.of_nat (length pre)), es, post. rewrite lw_at_offset_pre. auto.
Qed.

(* DWARF 2-4: at the offset recorded for it the pair decoder yields pairs that mean what the list means *)
Lemma lw_table_read_v4 dbg' loc be fmt64 version asz hb base start tbl out offs (sec0 : list byte) :
  table_write loc be fmt64 version asz hb start tbl = Ok (out, offs) ->
  2 <= version <= 4 ->
  N.of_nat (length sec0) = start -> Forall (Forall (wf loc)) tbl -> (hb = false -> base = 0) ->
  forall i l, nth_error tbl i = Some l ->
    exists o ps es rest, nth_error offs i = Some o /\ ents_of l = Some es /\
      dec4 dbg' loc be asz (at_offset o (sec0 ++ out)) = Ok (ps, rest) /\
      resolve asz base ps = resolve asz base es.
Proof.
  intros H Hv Hs Hwf Hb i l Hl.
  destruct (lw_table_layout_v4 _ _ _ _ _ _ _ _ _ _ sec0 H Hv Hs i l Hl) as [pre [bs [post [Ho [Hw ->]]]]].
  rewrite Forall_forall in Hwf. assert (Hwl : Forall (wf loc) l) by (apply Hwf; eapply nth_error_In; eauto).
  destruct (lw_write_read_v4_list dbg' _ _ _ _ _ base _ _ Hw ltac:(lia) Hwl Hb) as [ps [es [Hp [He [Hd Hr]]]]].
  exists (N.of_nat (length pre)), ps, es, post. rewrite lw_at_offset_pre. auto.
Qed.

(* an address size outside 1..8 is refused before anything is written, whatever the lists are *)
Lemma lw_rejects_bad_address_size loc be fmt64 version asz hb start tbl :
  2 <= version <= 4 -> ~ (1 <= asz <= 8) -> tbl <> [] ->
  table_write loc be fmt64 version asz hb start tbl = Err WUnsupportedWordSize.
Proof.
  intros Hv Ha Ht. unfold table_write. destruct tbl as [|l r]; [contradiction|].
  destruct ((2 <=? version) && (version <=? 4)) eqn:E; [|lia].
  unfold write_tbl_v4. rewrite (lw_marker_of_bad _ Ha). reflexivity.
Qed.

Lemma lw_offsets_get offs i o : nth_error offs i = Some o -> offsets_get offs i = Ok o.
Proof. unfold offsets_get. intros ->. reflexivity. Qed.

(* a table of one list that must be rejected *)
Lemma lw_rejects_table loc be fmt64 version asz hb start l e :
  size_ok asz -> 2 <= version <= 4 ->
  rejected asz hb l = Some e -> plain_until_reject asz hb l = true ->
  table_write loc be fmt64 version asz hb start [l] = Err e.
Proof.
  intros Hs Hv Hr Hp. unfold table_write. destruct ((2 <=? version) && (version <=? 4)) eqn:E4; [|lia].
  unfold write_tbl_v4. rewrite (lw_marker_of_valid _ Hs). cbn [bind write_lists_v4].
  rewrite (lw_rejects loc be version asz Hs ltac:(lia) _ _ _ Hr Hp). reflexivity.
Qed.
