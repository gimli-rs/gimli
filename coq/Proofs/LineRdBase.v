(* Proofs/LineRdBase.v — what the readers under the line-program parsers do with their input. Each of
   them is `framed`: on success it has consumed a prefix of the input, returned the rest, and that
   prefix alone determines the result. No panic, "the rest is a suffix", strict consumption and
   locality of a parser all follow from this one statement, which goes through `bind`. *)
From Coq Require Import List NArith ZArith Bool Lia ZifyBool ZifyN ZifyNat.
From Coq.Strings Require Import Byte.
Require Import GV.Base.Res GV.Base.Byt GV.Base.Ints GV.Model.Leb GV.Model.Prim GV.Spec.LebSpec GV.Spec.PrimSpec
               GV.Spec.LineSpec GV.Model.LineRd GV.Proofs.LebProofs GV.Proofs.PrimProofs.
Require Export GV.Proofs.Lib.
Import ListNotations.
Local Open Scope N_scope.

(* `sfx r bs`: r is what is left of bs after reading a prefix *)
Definition sfx (r bs : list byte) : Prop := exists p, bs = p ++ r.
Lemma sfx_refl bs : sfx bs bs. Proof. now exists []. Qed.
Lemma sfx_cons b r bs : sfx r bs -> sfx r (b :: bs).
Proof. intros [p ->]. now exists (b :: p). Qed.
Lemma sfx_trans a b c : sfx a b -> sfx b c -> sfx a c.
Proof. intros [p ->] [q ->]. exists (q ++ p). now rewrite app_assoc. Qed.
Lemma sfx_len r bs : sfx r bs -> (length r <= length bs)%nat.
Proof. intros [p ->]. rewrite app_length. lia. Qed.
Lemma sfx_tl b r bs : sfx r bs -> sfx r (b :: bs) /\ (length r < length (b :: bs))%nat.
Proof. intros H. split; [now apply sfx_cons|]. apply sfx_len in H. simpl. lia. Qed.

(* strict consumption: the rest is a proper suffix *)
Definition sg (inp : list byte) {A} (p : A * list byte) : Prop :=
  sfx (snd p) inp /\ (length (snd p) < length inp)%nat.

(* `framed Q p`: p never panics; when it succeeds with value v it has consumed a prefix c of its input
   with Q c v, and on c followed by any other bytes it returns v and those bytes *)
Definition framed {A} (Q : list byte -> A -> Prop) (p : list byte -> res (A * list byte)) : Prop :=
  forall inp, post (fun vr => exists c, inp = c ++ snd vr /\ Q c (fst vr) /\ forall t, p (c ++ t) = Ok (fst vr, t))
                   (p inp).

Lemma framed_ok {A} Q (p : list byte -> res (A * list byte)) inp v r : framed Q p -> p inp = Ok (v, r) ->
  exists c, inp = c ++ r /\ Q c v /\ forall t, p (c ++ t) = Ok (v, t).
Proof. intros F H. exact (post_ok _ _ _ (F inp) H). Qed.

Lemma framed_weaken {A} (Q Q' : list byte -> A -> Prop) p : framed Q p -> (forall c v, Q c v -> Q' c v) -> framed Q' p.
Proof.
  intros F W inp. eapply post_weaken; [apply F|]. intros vr (c & E & H & T). exists c. auto.
Qed.

Lemma framed_sfx {A} Q (p : list byte -> res (A * list byte)) inp :
  framed Q p -> post (fun vr => sfx (snd vr) inp) (p inp).
Proof. intros F. eapply post_weaken; [apply F|]. intros vr (c & E & _). now exists c. Qed.

Lemma framed_sg {A} Q (p : list byte -> res (A * list byte)) inp :
  framed Q p -> (forall c v, Q c v -> c <> []) -> post (sg inp) (p inp).
Proof.
  intros F N. eapply post_weaken; [apply F|]. intros vr (c & -> & H & _). apply N in H.
  split; [now exists c|]. rewrite app_length. destruct c; [contradiction|simpl; lia].
Qed.

Lemma framed_ret {A} (Q : list byte -> A -> Prop) v : Q [] v -> framed Q (fun inp => Ok (v, inp)).
Proof. intros H inp. exists []. auto. Qed.

(* sequencing: the prefixes concatenate *)
Lemma framed_bind {A B} (Q1 : list byte -> A -> Prop) (Q : list byte -> B -> Prop) p q :
  framed Q1 p -> (forall c1 v, Q1 c1 v -> framed (fun c2 w => Q (c1 ++ c2) w) (q v)) ->
  framed Q (fun inp => let* (v, r) := p inp in q v r).
Proof.
  intros Fp Fq inp. eapply post_bind; [apply Fp|]. intros [v r] _ (c1 & -> & H1 & T1). cbn [fst snd] in *.
  eapply post_weaken; [apply (Fq c1 v H1)|]. intros [w r2] (c2 & -> & H2 & T2). cbn [fst snd] in *.
  exists (c1 ++ c2). split; [apply app_assoc|]. split; [exact H2|].
  intros t. rewrite <- app_assoc, T1. exact (T2 t).
Qed.

(* a step that does not look at the input *)
Lemma framed_pure {A B} (P : A -> Prop) (Q : list byte -> B -> Prop) (x : res A) q :
  post P x -> (forall a, P a -> framed Q (q a)) -> framed Q (fun inp => let* a := x in q a inp).
Proof.
  intros G Fq inp. destruct x as [a| | |]; cbn [post bind] in *; try contradiction; [|exact I].
  exact (Fq a G inp).
Qed.

(* the first byte taken off by pattern matching *)
Lemma framed_cons {A} (Q : list byte -> A -> Prop) e (F : byte -> list byte -> res (A * list byte)) :
  (forall b, framed (fun c v => Q (b :: c) v) (F b)) ->
  framed Q (fun inp => match inp with [] => Err e | b :: input => F b input end).
Proof.
  intros H [|b input]; [exact I|]. eapply post_weaken; [apply H|]. intros vr (c & -> & HQ & T).
  exists (b :: c). split; [reflexivity|]. split; [exact HQ|exact T].
Qed.

(* one operand, then the constructor *)
Lemma framed_operand {A B} (Q1 : list byte -> A -> Prop) (Q : list byte -> B -> Prop) p (mk : A -> B) :
  framed Q1 p -> (forall c v, Q1 c v -> Q c (mk v)) -> framed Q (fun inp => let* (v, r) := p inp in Ok (mk v, r)).
Proof.
  intros F H. eapply framed_bind; [exact F|]. intros c v Hv. apply framed_ret. rewrite app_nil_r. now apply H.
Qed.

Lemma read_u8_np bs : read_u8 bs <> Panic.
Proof. destruct bs; simpl; discriminate. Qed.

Lemma read_u8_framed : framed (fun c v => c <> [] /\ v < 256) read_u8.
Proof.
  intros [|b r]; cbn; [exact I|]. exists [b].
  split; [reflexivity|]. split; [split; [discriminate|apply b2n_lt]|reflexivity].
Qed.

Lemma read_un_framed n be : framed (fun c v => length c = n /\ v < 256 ^ N.of_nat n) (read_un n be).
Proof.
  intros inp. rewrite read_un_exact. destruct (length inp <? n)%nat eqn:E; [exact I|].
  assert (L : length (firstn n inp) = n) by (apply firstn_length_le; lia).
  exists (firstn n inp). split; [symmetry; apply firstn_skipn|]. split; [split; [exact L|]|].
  - pose proof (val_sum_lt be (firstn n inp)) as B. rewrite L in B. exact B.
  - intros t. apply read_un_app, L.
Qed.

Lemma read_word_framed fmt64 be : framed (fun c _ => c <> []) (read_word fmt64 be).
Proof.
  unfold read_word. destruct fmt64; (eapply framed_weaken; [apply read_un_framed|]);
    intros c v [L _] ->; discriminate L.
Qed.

Lemma read_address_framed size be :
  framed (fun c v => c <> [] /\ v <= mask_of size /\ 1 <= size <= 8) (read_address size be).
Proof.
  intros inp. rewrite read_address_exact. destruct (size_ok size) eqn:E; [|exact I].
  eapply post_weaken; [apply read_un_framed|]. intros [v r] (c & -> & [L B] & T). cbn [fst snd] in *.
  exists c. split; [reflexivity|]. pose proof (proj1 (size_ok_cases size) E) as C. split.
  - split; [intros ->; cbn in L; lia|]. rewrite N2Nat.id in B. change 256 with (2 ^ 8) in B.
    rewrite <- N.pow_mul_r in B. unfold mask_of. lia.
  - intros t. rewrite read_address_exact, E. apply T.
Qed.

(* the LEB128 group at the head of the input is found without looking past it *)
Lemma split_leb_prefix bs e r : split_leb bs = Some (e, r) ->
  bs = e ++ r /\ e <> [] /\ forall t, split_leb (e ++ t) = Some (e, t).
Proof.
  intros H. pose proof (split_leb_nonempty _ _ _ H) as N. pose proof (split_leb_app _ _ _ H) as ->.
  split; [reflexivity|]. split; [intros ->; simpl in N; lia|]. intros t.
  destruct (split_leb_local e r e r H (le_n _)) as (x & Hx & He).
  apply (f_equal (@length byte)) in Hx. rewrite app_length in Hx.
  destruct x; [|simpl in Hx; lia]. exact (split_leb_ext _ _ _ t He).
Qed.

(* a reader that takes the LEB128 group at the head of its input and accepts it or not *)
Lemma leb_reader_framed {A} (p : list byte -> res (A * list byte)) (ok : list byte -> bool) (val : list byte -> A) e :
  (forall bs, match split_leb bs with
              | Some (enc, rest) => p bs = if ok enc then Ok (val enc, rest) else Err e
              | None => exists e', p bs = Err e'
              end) ->
  framed (fun c _ => c <> []) p.
Proof.
  intros S inp. pose proof (S inp) as Si. destruct (split_leb inp) as [[enc rest]|] eqn:E.
  - rewrite Si. destruct (ok enc) eqn:O; [|exact I].
    destruct (split_leb_prefix _ _ _ E) as (-> & Ne & Ht). exists enc. split; [reflexivity|]. split; [exact Ne|].
    intros t. specialize (S (enc ++ t)). rewrite Ht in S. rewrite S, O. reflexivity.
  - destruct Si as [e' ->]. exact I.
Qed.

Lemma read_uleb128_framed dbg : framed (fun c _ => c <> []) (read_uleb128 dbg).
Proof.
  apply (leb_reader_framed _ (fun enc => (length enc <=? 10)%nat && (uval enc <? 2 ^ 64)) uval EBadUnsignedLeb128).
  intros bs. rewrite read_uleb128_exact. unfold uleb_spec.
  destruct (split_leb bs) as [[enc rest]|]; [reflexivity|]. destruct (10 <=? length bs)%nat; eexists; reflexivity.
Qed.

Lemma read_sleb128_framed dbg : framed (fun c _ => c <> []) (read_sleb128 dbg).
Proof.
  apply (leb_reader_framed _ (fun enc => (length enc <=? 10)%nat && in_i64 (sval enc)) sval EBadSignedLeb128).
  intros bs. rewrite read_sleb128_exact. unfold sleb_spec.
  destruct (split_leb bs) as [[enc rest]|]; [reflexivity|]. destruct (10 <=? length bs)%nat; eexists; reflexivity.
Qed.

Lemma read_uleb128_u16_framed : framed (fun c _ => c <> []) read_uleb128_u16.
Proof.
  apply (leb_reader_framed _ (fun enc => (length enc <=? 3)%nat && (uval enc <? 2 ^ 16)) uval EBadUnsignedLeb128).
  intros bs. rewrite read_uleb128_u16_exact. unfold uleb16_spec.
  destruct (split_leb bs) as [[enc rest]|]; [reflexivity|]. destruct (3 <=? length bs)%nat; eexists; reflexivity.
Qed.

Lemma read_cstr_framed : framed (fun c _ => c <> []) read_cstr.
Proof.
  intros inp. apply post_intro; [apply read_cstr_total|]. intros [s r] H. cbn [fst snd].
  destruct (read_cstr_ok _ _ _ H) as [-> N]. exists (s ++ [x00]). split; [now rewrite <- app_assoc|].
  split; [destruct s; discriminate|]. intros t. rewrite <- app_assoc. apply read_cstr_app, N.
Qed.

(* Reader::split: the value is the prefix itself *)
Lemma split_n_framed n : framed (fun c v => c = v /\ length v = N.to_nat n) (split_n n).
Proof.
  intros inp. unfold split_n. destruct (N.of_nat (length inp) <? n) eqn:E; [exact I|].
  assert (L : length (firstn (N.to_nat n) inp) = N.to_nat n) by (apply firstn_length_le; lia).
  exists (firstn (N.to_nat n) inp). split; [symmetry; apply firstn_skipn|]. split; [split; [reflexivity|exact L]|].
  intros t. rewrite app_length, L. destruct (N.of_nat (N.to_nat n + length t) <? n) eqn:E2; [lia|].
  rewrite <- L at 1 3. now rewrite firstn_app_exact, skipn_app_exact.
Qed.

Lemma split_n_app a tail : split_n (len_n a) (a ++ tail) = Ok (a, tail).
Proof.
  unfold split_n, len_n. rewrite app_length.
  destruct (N.of_nat (length a + length tail) <? N.of_nat (length a)) eqn:E; [lia|].
  now rewrite Nat2N.id, firstn_app_exact, skipn_app_exact.
Qed.

Lemma skip_n_good n bs : post (fun r => sfx r bs) (skip_n n bs).
Proof.
  unfold skip_n. destruct (N.of_nat (length bs) <? n); [exact I|].
  exists (firstn (N.to_nat n) bs). symmetry; apply firstn_skipn.
Qed.

(* LineSpec.enc_fixed is convertible with Prim.enc_un (the same text), LineSpec.enc_sleb is the minimal
   encoder of LebProofs *)
Lemma enc_fixed_length n be v : length (enc_fixed n be v) = n.
Proof. apply enc_un_length. Qed.

Lemma read_un_enc n be v tail : v < 256 ^ N.of_nat n -> read_un n be (enc_fixed n be v ++ tail) = Ok (v, tail).
Proof. apply read_un_enc_un_small. Qed.

Lemma read_address_enc size be a tail :
  (size =? 1) || (size =? 2) || (size =? 4) || (size =? 8) = true -> a <= mask_of size ->
  read_address size be (enc_fixed (N.to_nat size) be a ++ tail) = Ok (a, tail).
Proof.
  intros S H. rewrite read_address_exact. fold (size_ok size) in S. rewrite S. apply read_un_enc.
  rewrite N2Nat.id. change 256 with (2 ^ 8). rewrite <- N.pow_mul_r.
  pose proof (pow2_pos (8 * size)). unfold mask_of in H. lia.
Qed.

Lemma read_sleb_enc dbg z tail : (-9223372036854775808 <= z < 9223372036854775808)%Z ->
  read_sleb128 dbg (enc_sleb z ++ tail) = Ok (z, tail).
Proof.
  intros Hz. unfold enc_sleb. destruct (sleb_min_agrees 19 z) as (_ & _ & -> & _).
  apply read_sleb128_enc; [lia|]. unfold in_i64. lia.
Qed.

Lemma no_nul_free s : no_nul s = true -> nul_free s.
Proof.
  induction s as [|b s IH]; cbn [no_nul]; intros H; constructor; apply andb_true_iff in H as [H1 H2].
  - apply N.eqb_neq, negb_true_iff, H1.
  - apply IH, H2.
Qed.
