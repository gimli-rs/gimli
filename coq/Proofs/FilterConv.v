(* Proofs/FilterConv.v — the converter under the filter's entry_ids (C19): ConvertUnitSection::new_with_filter
   slices the reserved offsets exactly per unit; the look-ups of a reserved DIE succeed whenever the filter saw
   every reference the converter resolves; the DIEs that come out are the reserved ones, each attached to its
   own parent. *)
From Coq Require Import List NArith ZArith Bool Lia.
Require Import GV.Base.Res GV.Spec.Graph GV.Model.Filter GV.Spec.FilterSpec GV.Model.FilterAttrs.
Require Import GV.Proofs.FilterProofs GV.Proofs.FilterEdges.
Import ListNotations.
Local Open Scope N_scope.

Definition in_unit (u : unitd) (x : N) : bool :=
  match to_unit_offset u x with Some _ => true | None => false end.

Lemma in_bounds_iff : forall u v, in_bounds u v = true <-> u_hdr u <= v /\ v < u_hdr u + u_len u.
Proof.
  intros u v. unfold in_bounds.
  destruct (v <? u_hdr u) eqn:E1; [apply N.ltb_lt in E1; split; [discriminate|lia]|].
  apply N.ltb_ge in E1. rewrite N.ltb_lt. lia.
Qed.

Lemma in_unit_iff : forall u x,
  in_unit u x = true <-> u_off u + u_hdr u <= x /\ x < unit_end u.
Proof.
  intros u x. unfold in_unit, to_unit_offset, unit_end.
  destruct (x <? u_off u) eqn:E1; [apply N.ltb_lt in E1; split; [discriminate|lia]|].
  apply N.ltb_ge in E1. pose proof (in_bounds_iff u (x - u_off u)) as H.
  destruct (in_bounds u (x - u_off u)).
  - split; [intros _|reflexivity]. destruct (proj1 H eq_refl). lia.
  - split; [discriminate|]. intros Hx. apply H. lia.
Qed.

(* two units of an ordered list are the same, or one ends before the other begins *)
Lemma units_ordered_cmp : forall units u u', units_ordered units -> In u units -> In u' units ->
  u = u' \/ unit_end u <= u_off u' \/ unit_end u' <= u_off u.
Proof.
  induction units as [|w ws IH]; intros u u' Hord Hu Hu'; [destruct Hu|].
  destruct Hord as [Hw Hord]. destruct Hu as [<-|Hu]; destruct Hu' as [<-|Hu']; auto.
Qed.

Lemma ordered_unit_unique : forall units u u' y, units_ordered units -> In u units -> In u' units ->
  in_unit u y = true -> in_unit u' y = true -> u = u'.
Proof.
  intros units u u' y Hord Hu Hu' Hy Hy'. apply in_unit_iff in Hy. apply in_unit_iff in Hy'.
  destruct (units_ordered_cmp units u u' Hord Hu Hu') as [H|[H|H]]; auto; unfold unit_end in *; lia.
Qed.

Lemma occurs_in_unit : forall units u e par, wf_layout units -> occurs units u e par ->
  in_unit u (sec u (e_off e)) = true.
Proof.
  intros units u e par [_ Hin] Hocc. apply in_unit_iff.
  destruct (Hin _ _ _ Hocc) as [H1 H2]. unfold sec, unit_end. lia.
Qed.

(* a unit that holds a DIE is not empty: its root DIE lies in it *)
Lemma root_in_unit : forall units u e par, wf_layout units -> occurs units u e par ->
  in_unit u (root_off u) = true.
Proof.
  intros units u e par [_ Hin] Hocc. apply in_unit_iff.
  destruct (Hin _ _ _ Hocc) as [H1 H2]. unfold root_off, sec, unit_end. lia.
Qed.

Definition is_root (units : list unitd) (x : N) : Prop := exists u, In u units /\ x = root_off u.

(* a DIE offset is never a root offset *)
Lemma valid_not_root : forall units x, wf_layout units -> f_valid units x -> ~ is_root units x.
Proof.
  intros units x Hlay [u [e [par [Hocc ->]]]] [u' [Hu' Heq]].
  destruct Hlay as [Hord Hin]. destruct (Hin _ _ _ Hocc) as [H1 H2].
  unfold root_off, sec in Heq.
  destruct (units_ordered_cmp units u u' Hord (proj1 Hocc) Hu') as [<-|[Hc|Hc]]; unfold unit_end in *; lia.
Qed.

Lemma take_unit_split : forall u offs a b, take_unit u offs = (a, b) ->
  offs = a ++ b /\ (forall x, In x a -> in_unit u x = true) /\
  match b with [] => True | y :: _ => in_unit u y = false end.
Proof.
  intros u offs. induction offs as [|x rest IH]; intros a b H; cbn in H.
  - inversion H; subst. auto.
  - destruct (to_unit_offset u x) as [o|] eqn:E.
    + destruct (take_unit u rest) as [a' b'] eqn:Et. inversion H; subst.
      destruct (IH _ _ eq_refl) as [H1 [H2 H3]]. split; [cbn; now rewrite H1|]. split; auto.
      intros y [<-|Hy]; auto. unfold in_unit. now rewrite E.
    + inversion H; subst. split; auto. split; [intros y []|]. unfold in_unit. now rewrite E.
Qed.

Lemma filter_all_true : forall (f : N -> bool) l, (forall x, In x l -> f x = true) -> filter f l = l.
Proof.
  intros f l. induction l as [|x l IH]; intros H; cbn; auto.
  rewrite (H x (or_introl eq_refl)). f_equal. apply IH. intros y Hy. apply H. now right.
Qed.

Lemma filter_all_false : forall (f : N -> bool) l, (forall x, In x l -> f x = false) -> filter f l = [].
Proof.
  intros f l. induction l as [|x l IH]; intros H; cbn; auto.
  rewrite (H x (or_introl eq_refl)). apply IH. intros y Hy. apply H. now right.
Qed.

Definition covered (units : list unitd) (x : N) : Prop :=
  exists u, In u units /\ in_unit u x = true.

Lemma slices_exact : forall dbg units offs,
  units_ordered units -> strict_sorted offs -> (forall x, In x offs -> covered units x) ->
  slices dbg units offs = Ok (map (fun u => filter (in_unit u) offs) units).
Proof.
  intros dbg units. induction units as [|u us IH]; intros offs Hord Hsort Hcov.
  - destruct offs as [|x offs]; [cbn; now destruct dbg|].
    destruct (Hcov x (or_introl eq_refl)) as [u [[] _]].
  - cbn [slices map]. destruct (take_unit u offs) as [a b] eqn:Et.
    destruct (take_unit_split _ _ _ _ Et) as [Hab [Ha Hb]]. subst offs.
    destruct Hord as [Hu Hord]. apply strict_sorted_app_r in Hsort.
    (* everything left over lies in a later unit *)
    assert (Hb' : forall z, In z b -> in_unit u z = false /\ covered us z).
    { destruct b as [|y b']; [intros z []|].
      assert (Hy : covered us y).
      { destruct (Hcov y) as [u' [[<-|Hin] Hu']]; [apply in_or_app; right; now left|congruence|].
        exists u'. auto. }
      destruct Hy as [u' [Hin' Hu']]. apply in_unit_iff in Hu'. specialize (Hu _ Hin').
      assert (Hlow : forall z, In z (y :: b') -> unit_end u <= z).
      { intros z [<-|Hz]; [lia|].
        apply strict_sorted_cons_iff in Hsort. destruct Hsort as [_ Hlt]. specialize (Hlt z Hz). lia. }
      intros z Hz. assert (Hf : in_unit u z = false).
      { apply not_true_iff_false. rewrite in_unit_iff. specialize (Hlow z Hz). lia. }
      split; auto.
      destruct (Hcov z) as [u2 [[<-|Hin2] Hu2]]; [apply in_or_app; now right|congruence|].
      exists u2. auto. }
    rewrite (IH b Hord Hsort (fun z Hz => proj2 (Hb' z Hz))).
    cbn [bind]. f_equal. f_equal.
    + rewrite filter_app, (filter_all_true _ a Ha), (filter_all_false _ b (fun z Hz => proj1 (Hb' z Hz))).
      now rewrite app_nil_r.
    + apply map_ext_in. intros u' Hin'. rewrite filter_app.
      rewrite (filter_all_false _ a); auto.
      intros z Hz. apply not_true_iff_false. rewrite in_unit_iff.
      specialize (Ha _ Hz). apply in_unit_iff in Ha. specialize (Hu _ Hin'). lia.
Qed.

Lemma reserve_all_in : forall (f : unitd -> list N) units x,
  In x (reserve_all units (map f units)) <->
  exists u, In u units /\ (x = root_off u \/ In x (f u)).
Proof.
  intros f units x. induction units as [|u us IH]; cbn [reserve_all map].
  - split; [intros []|intros [u [[] _]]].
  - cbn [In]. rewrite in_app_iff, IH. split.
    + intros [H|[H|[u' [Hin H]]]]; [exists u; auto|exists u; auto|exists u'; auto].
    + intros [u' [[<-|Hin] H]].
      * destruct H as [->|H]; auto.
      * right. right. eauto.
Qed.

(* the parent of a DIE is a DIE of the same unit *)
Lemma parent_in_pairs : forall ts top e pe,
  In (e, Some pe) (forest_pairs top ts) ->
  top = Some pe \/ exists par, In (pe, par) (forest_pairs top ts).
Proof.
  intros ts.
  apply (forest_ind2
    (fun t => forall top e pe, In (e, Some pe) (tree_pairs top t) ->
       top = Some pe \/ exists par, In (pe, par) (tree_pairs top t))
    (fun l => forall top e pe, In (e, Some pe) (forest_pairs top l) ->
       top = Some pe \/ exists par, In (pe, par) (forest_pairs top l))).
  - intros e0 ks IH top e pe. rewrite tree_pairs_eq. intros [Heq|Hin].
    + inversion Heq; subst. now left.
    + destruct (IH _ _ _ Hin) as [Heq|[par Hpar]].
      * inversion Heq; subst. right. exists top. now left.
      * right. exists par. now right.
  - intros top e pe [].
  - intros t l IHt IHl top e pe. cbn [forest_pairs]. rewrite in_app_iff. intros [Hin|Hin].
    + destruct (IHt _ _ _ Hin) as [|[par Hpar]]; auto. right. exists par. apply in_or_app. now left.
    + destruct (IHl _ _ _ Hin) as [|[par Hpar]]; auto. right. exists par. apply in_or_app. now right.
Qed.

Lemma parent_occurs : forall units u e pe, occurs units u e (Some pe) ->
  exists par, occurs units u pe par.
Proof.
  intros units u e pe [Hu Hin]. unfold unit_pairs in Hin.
  destruct (parent_in_pairs _ _ _ _ Hin) as [Heq|[par Hpar]]; [discriminate|].
  exists par. split; auto.
Qed.

Lemma dependency_closed_iff : forall rf req units T,
  dependency_closed rf req units T <->
  closed_under (f_valid units) (f_edge rf units) (fun x => req x = true) T.
Proof.
  intros rf req units T. unfold dependency_closed, closed_under. split.
  - intros [H1 [H2 [H3 H4]]]. split; [intros x Hr Hv; auto|].
    intros x y Hx He Hv. destruct He as [u e par s y Hocc Hs Hy|u e pe Hocc|u e pe Hocc Hns Hbe]; eauto.
  - intros [H1 H2]. split; [auto|]. split; [|split].
    + intros u e pe Hocc HT. eapply H2; [exact HT|eapply fe_parent; eauto|].
      destruct (parent_occurs _ _ _ _ Hocc) as [par Hpar]. exists u, pe, par. auto.
    + intros u e par s y Hocc Hs Hy Hv HT. eapply H2; [exact HT|eapply fe_ref; eauto|exact Hv].
    + intros u e pe Hocc Hns Hbe HT. eapply H2; [exact HT|eapply fe_member; eauto|].
      exists u, e, (Some pe). auto.
Qed.

(* the reserved set is the least dependency-closed set of DIE offsets *)
Lemma reserved_closure : forall rf dbg req units, wf_offsets units ->
  exists S, reserved rf dbg req units = Ok S /\ strict_sorted S /\
    dependency_closed rf req units (fun x => In x S) /\
    (forall x, In x S -> f_valid units x) /\
    (forall T, dependency_closed rf req units T -> forall x, In x S -> T x).
Proof.
  intros rf dbg req units Hwf.
  destruct (reserved_char rf dbg req units Hwf) as [S [HS [Hsort Hin]]].
  exists S. split; [exact HS|]. split; [exact Hsort|].
  destruct (reach_least (f_valid units) (f_edge rf units) (fun x => req x = true)) as [Hc Hl].
  split; [|split].
  - apply dependency_closed_iff. destruct Hc as [H1 H2]. split.
    + intros x Hr Hv. apply Hin. auto.
    + intros x y Hx He Hv. apply Hin. apply Hin in Hx. eauto.
  - intros x Hx. apply Hin in Hx. eapply reach_valid; eauto.
  - intros T HT x Hx. apply dependency_closed_iff in HT. apply Hin in Hx. eapply Hl; eauto.
Qed.

(* entry_ids after new_with_filter = the unit roots + the reserved offsets *)
Lemma filtered_ids : forall rf dbg req units, wf_offsets units -> wf_layout units ->
  exists S ids,
    reserved rf dbg req units = Ok S /\ strict_sorted S /\
    dependency_closed rf req units (fun x => In x S) /\ (forall x, In x S -> f_valid units x) /\
    slices dbg units S = Ok (map (fun u => filter (in_unit u) S) units) /\
    ids = reserve_all units (map (fun u => filter (in_unit u) S) units) /\
    (forall x, In x ids <-> is_root units x \/ In x S).
Proof.
  intros rf dbg req units Hwf Hlay.
  destruct (reserved_closure rf dbg req units Hwf) as [S [HS [Hsort [Hclosed [Hvalid _]]]]].
  assert (Hcov : forall x, In x S -> covered units x).
  { intros x Hx. destruct (Hvalid x Hx) as [u [e [par [Hocc ->]]]].
    exists u. split; [exact (proj1 Hocc)|]. eapply occurs_in_unit; eauto. }
  exists S, (reserve_all units (map (fun u => filter (in_unit u) S) units)).
  repeat (split; [assumption|]). split; [apply slices_exact; auto; exact (proj1 Hlay)|].
  split; [reflexivity|].
  intros x. rewrite reserve_all_in. unfold is_root. split.
  - intros [u [Hu [->|Hx]]]; [left; eauto|]. right. apply filter_In in Hx. tauto.
  - intros [[u [Hu ->]]|Hx]; [exists u; auto|].
    destruct (Hcov _ Hx) as [u [Hu Hx']]. exists u. split; auto. right. apply filter_In. auto.
Qed.

Definition op_inb (u : unitd) (op : refop) (v : N) : bool :=
  match op with
  | OpDerefType | OpRegvalType | OpConvert | OpReinterpret => (v =? 0) || in_bounds u v
  | OpConstType | OpParameterRef | OpCall => in_bounds u v
  | OpCallRef | OpImplicitPointer | OpVariableValue => true
  end.

(* a unit-relative operand that is out of bounds makes the conversion fail whatever is reserved *)
Definition site_inb (u : unitd) (s : site) : bool :=
  match s_car s with
  | CAttrUnit => in_bounds u (s_val s)
  | CAttrInfo => true
  | CExpr _ op => op_inb u op (s_val s)
  | CLoc _ _ op => op_inb u op (s_val s)
  end.

Definition site_err (s : site) : error :=
  if site_unit_relative s then CInvalidUnitRef else CInvalidDebugInfoRef.

(* whatever the carrier, a site is converted by a bounds test and the look-up of `conv_refs` *)
Lemma conv_site_spec : forall u ids s,
  conv_site u ids s =
  if site_inb u s
  then (if forallb (fun y => mem_n y ids) (conv_refs u s) then Ok tt else Err (site_err s))
  else Err CInvalidUnitRef.
Proof.
  intros u ids [[| |n op|k n op] v]; try destruct op; cbn;
    unfold convert_unit_ref, convert_debug_info_ref, unit_target;
    try destruct (v =? 0); cbn; try destruct (in_bounds u v); cbn; try destruct (mem_n _ ids); reflexivity.
Qed.

Lemma conv_site_ok : forall u ids s,
  conv_site u ids s = Ok tt <->
  site_inb u s = true /\ forall y, In y (conv_refs u s) -> In y ids.
Proof.
  intros u ids s. rewrite conv_site_spec. destruct (site_inb u s); [|intuition discriminate].
  destruct (forallb (fun y => mem_n y ids) (conv_refs u s)) eqn:E.
  - split; [intros _; split; [reflexivity|]|reflexivity].
    intros y Hy. rewrite forallb_forall in E. apply mem_n_iff, E, Hy.
  - split; [discriminate|]. intros [_ H].
    rewrite (proj2 (forallb_forall _ _) (fun y Hy => proj2 (mem_n_iff y ids) (H y Hy))) in E. discriminate.
Qed.

Lemma conv_sites_ok : forall u ids ss,
  conv_sites u ids ss = Ok tt <-> forall s, In s ss -> conv_site u ids s = Ok tt.
Proof.
  intros u ids ss. induction ss as [|s ss IH]; cbn [conv_sites].
  - split; auto. intros _ s [].
  - destruct (conv_site u ids s) as [[]| | |] eqn:E; cbn [bind];
      [rewrite IH; split; [intros H s' [<-|Hs']; auto|intros H s' Hs'; apply H; now right]|..];
      (split; [discriminate|]); intros H; rewrite (H s (or_introl eq_refl)) in E; discriminate.
Qed.

(* the filter records every reference the converter resolves, whatever the carrier *)
Lemma filter_refs_complete : forall u s, incl (conv_refs u s) (filter_refs u s).
Proof.
  intros u [car v]. unfold conv_refs, filter_refs. cbn [s_car s_val].
  assert (Hop : forall op, incl (conv_op_refs u op v) (filter_op_refs u op v)).
  { intros op. destruct op; cbn [filter_op_refs conv_op_refs]; try apply incl_refl;
      destruct (v =? 0); try apply incl_refl; apply incl_nil_l. }
  destruct car as [| |nest op|k nest op]; try apply incl_refl; apply Hop.
Qed.

Definition ent_sec (u : unitd) (r : rawent) : N := sec u (e_off (r_ent r)).

(* the conversion of a unit succeeds iff the sites of every reserved DIE convert; its output lists the
   reserved DIEs in order *)
Lemma cu_entries_char : forall u ids rs st,
  (forall r, In r rs -> mem_n (ent_sec u r) ids = true -> conv_sites u ids (e_sites (r_ent r)) = Ok tt) ->
  exists st', cu_entries u ids st rs = Ok st' /\
              map fst (snd st') = map fst (snd st) ++ filter (fun x => mem_n x ids) (map (ent_sec u) rs).
Proof.
  intros u ids rs. induction rs as [|r rs IH]; intros [ps out] Hok.
  - exists (ps, out). cbn. now rewrite app_nil_r.
  - cbn [cu_entries cu_entry]. fold (ent_sec u r). cbn [map filter].
    pose proof (fun st => IH st (fun r' Hr' => Hok r' (or_intror Hr'))) as IH'.
    destruct (mem_n (ent_sec u r) ids) eqn:Em.
    + rewrite (Hok r (or_introl eq_refl) Em). cbn [bind].
      edestruct IH' as [st' [H1 H2]]. exists st'. split; [exact H1|].
      rewrite H2. cbn [snd]. rewrite map_app. cbn [map fst]. now rewrite <- app_assoc.
    + cbn [bind]. edestruct IH' as [st' [H1 H2]]. exists st'. split; [exact H1|exact H2].
Qed.

Lemma cu_entries_sites : forall u ids rs st st',
  cu_entries u ids st rs = Ok st' ->
  forall r, In r rs -> mem_n (ent_sec u r) ids = true -> conv_sites u ids (e_sites (r_ent r)) = Ok tt.
Proof.
  intros u ids rs. induction rs as [|r rs IH]; intros [ps out] st' H r' Hin Hm; [destruct Hin|].
  cbn [cu_entries cu_entry] in H. fold (ent_sec u r) in H.
  destruct (mem_n (ent_sec u r) ids) eqn:Em.
  - destruct (conv_sites u ids (e_sites (r_ent r))) as [[]| | |] eqn:Ec; cbn [bind] in H; try discriminate.
    destruct Hin as [<-|Hin]; auto. eapply IH; eauto.
  - cbn [bind] in H. destruct Hin as [<-|Hin]; [congruence|]. eapply IH; eauto.
Qed.

Definition unit_raw (u : unitd) : list rawent := flatten_list 1 (u_kids u).

Lemma convert_units_char : forall ids units out,
  (forall u r, In u units -> In r (unit_raw u) -> mem_n (ent_sec u r) ids = true ->
               conv_sites u ids (e_sites (r_ent r)) = Ok tt) ->
  exists out', convert_units ids units out = Ok out' /\
    map fst out' = map fst out ++
      filter (fun x => mem_n x ids) (flat_map (fun u => map (ent_sec u) (unit_raw u)) units).
Proof.
  intros ids units. induction units as [|u us IH]; intros out Hok.
  - exists out. cbn. now rewrite app_nil_r.
  - cbn [convert_units flat_map].
    match goal with |- context [cu_entries u ids ?st _] =>
      destruct (cu_entries_char u ids (unit_raw u) st) as [st' [H1 H2]] end.
    { intros r Hr. apply Hok; auto. now left. }
    unfold unit_raw in H1. rewrite H1. cbn [bind].
    destruct (IH (snd st')) as [out' [H3 H4]].
    { intros u' r Hu'. apply Hok. now right. }
    exists out'. split; [exact H3|]. rewrite H4, H2. cbn [snd]. rewrite filter_app, app_assoc. reflexivity.
Qed.

(* the tolerant loop converts no site, so it always succeeds *)
Lemma convert_units_tol_char : forall ids units out,
  exists out', convert_units_tol ids units out = Ok out' /\
    map fst out' = map fst out ++
      filter (fun x => mem_n x ids) (flat_map (fun u => map (ent_sec u) (unit_raw u)) units).
Proof.
  intros ids units. induction units as [|u us IH]; intros out.
  - exists out. cbn. now rewrite app_nil_r.
  - cbn [convert_units_tol flat_map].
    match goal with |- context [cu_entries u ids ?st _] =>
      destruct (cu_entries_char u ids (map strip_raw (unit_raw u)) st) as [st' [H1 H2]] end.
    { intros r Hr _. apply in_map_iff in Hr. destruct Hr as [r0 [<- _]]. reflexivity. }
    unfold unit_raw in H1. rewrite H1. cbn [bind].
    destruct (IH (snd st')) as [out' [H3 H4]].
    exists out'. split; [exact H3|]. rewrite H4, H2, map_map. cbn [snd].
    rewrite filter_app, app_assoc. reflexivity.
Qed.

Lemma convert_units_sites : forall ids units out out',
  convert_units ids units out = Ok out' ->
  forall u r, In u units -> In r (unit_raw u) -> mem_n (ent_sec u r) ids = true ->
              conv_sites u ids (e_sites (r_ent r)) = Ok tt.
Proof.
  intros ids units. induction units as [|u us IH]; intros out out' H u' r Hu' Hr Hm; [destruct Hu'|].
  cbn [convert_units] in H.
  match type of H with context [cu_entries u ids ?st ?rs] =>
    destruct (cu_entries u ids st rs) as [st'| | |] eqn:Ec end; cbn [bind] in H; try discriminate.
  destruct Hu' as [<-|Hu'].
  - eapply cu_entries_sites; eauto.
  - eapply IH; eauto.
Qed.

(* raw entries and (DIE, parent) pairs list the same DIEs *)
Lemma annotv_fst : forall rs ps, map fst (fst (annotv ps rs)) = map r_ent rs.
Proof. induction rs as [|r rs IH]; intros ps; cbn [annotv map fst]; auto. now rewrite IH. Qed.

Lemma unit_raw_ents : forall u, map r_ent (unit_raw u) = map fst (unit_pairs u).
Proof.
  intros u. unfold unit_raw, unit_pairs.
  rewrite <- (annotv_fst (flatten_list 1 (u_kids u)) []).
  destruct (annot_forest (u_kids u) 1%Z [] None eq_refl) as [H _]. rewrite H.
  rewrite map_map. apply map_ext. intros [e par]. reflexivity.
Qed.

Lemma in_unit_raw : forall u r, In r (unit_raw u) -> exists par, In (r_ent r, par) (unit_pairs u).
Proof.
  intros u r Hr. assert (H : In (r_ent r) (map fst (unit_pairs u))).
  { rewrite <- unit_raw_ents. now apply in_map. }
  apply in_map_iff in H. destruct H as [[e par] [He Hin]]. cbn in He. subst. eauto.
Qed.

Lemma unit_raw_offsets : forall units,
  flat_map (fun u => map (ent_sec u) (unit_raw u)) units = section_offsets units.
Proof.
  induction units as [|u us IH]; [reflexivity|]. cbn [flat_map section_offsets]. f_equal; auto.
  unfold ent_sec. rewrite <- (map_map r_ent (fun e => sec u (e_off e))), unit_raw_ents, map_map.
  reflexivity.
Qed.

(* every site of a reserved DIE that a successful conversion went through is in bounds, and what it refers to
   is in entry_ids *)
Lemma convert_units_site : forall ids units out out' u e par s,
  convert_units ids units out = Ok out' -> In u units -> In (e, par) (unit_pairs u) ->
  In (sec u (e_off e)) ids -> In s (e_sites e) ->
  site_inb u s = true /\ forall y, In y (conv_refs u s) -> In y ids.
Proof.
  intros ids units out out' u e par s Hrun Hu Hp He Hs.
  assert (H : In e (map r_ent (unit_raw u))).
  { rewrite unit_raw_ents. apply in_map_iff. exists (e, par). auto. }
  apply in_map_iff in H. destruct H as [r [<- Hr]].
  apply mem_n_iff in He. pose proof (convert_units_sites _ _ _ _ Hrun u r Hu Hr He) as Hc.
  rewrite conv_sites_ok in Hc. apply conv_site_ok, Hc, Hs.
Qed.

Lemma ids_all_in : forall units x,
  In x (flat_map (fun u => root_off u :: all_offsets u) units) <-> is_root units x \/ f_valid units x.
Proof.
  intros units x. rewrite <- section_al_valid, section_al_offsets, <- unit_raw_offsets.
  rewrite !in_flat_map. unfold is_root. split.
  - intros [u [Hu [<-|Hx]]]; [left; eauto|]. right. exists u. split; auto.
  - intros [[u [Hu ->]]|[u [Hu Hx]]]; exists u; split; auto; [now left|now right].
Qed.

(* when entry_ids holds the unit roots and a sorted set S of DIE offsets, the DIEs looked up successfully are S *)
Lemma emitted_reserved : forall units ids S, wf_layout units ->
  (forall x, In x ids <-> is_root units x \/ In x S) -> (forall x, In x S -> f_valid units x) ->
  strict_sorted S ->
  (forall x, In x (filter (fun x => mem_n x ids) (section_offsets units)) <-> In x S) /\
  (strict_sorted (section_offsets units) -> filter (fun x => mem_n x ids) (section_offsets units) = S).
Proof.
  intros units ids S Hlay Hids Hvalid Hsort.
  assert (Hset : forall x, In x (filter (fun x => mem_n x ids) (section_offsets units)) <-> In x S).
  { intros x. rewrite filter_In, mem_n_iff, Hids, <- section_al_offsets, section_al_valid. split.
    - intros [Hv [Hroot|HinS]]; auto. exfalso. eapply valid_not_root; eauto.
    - auto. }
  split; [exact Hset|].
  intros Hss. apply strict_sorted_unique; auto. now apply filter_strict_sorted.
Qed.

Lemma filtered_conversion_ok : forall rf dbg req units,
  wf_offsets units -> wf_layout units ->
  (forall u e par s, occurs units u e par -> In s (e_sites e) -> incl (conv_refs u s) (rf u s)) ->
  (exists out0, convert_all units = Ok out0) ->
  exists S out,
    reserved rf dbg req units = Ok S /\
    convert_filtered rf dbg req units = Ok out /\
    (forall x, In x (map fst out) <-> In x S) /\
    (strict_sorted (section_offsets units) -> map fst out = S).
Proof.
  intros rf dbg req units Hwf Hlay Hincl [out0 Hall].
  destruct (filtered_ids rf dbg req units Hwf Hlay)
    as [S [ids [HS [Hsort [[_ [_ [Hrefs _]]] [Hvalid [Hsl [Hdef Hids]]]]]]]].
  unfold convert_all in Hall.
  destruct (convert_units_char ids units []) as [out [Hout Hfst]].
  { intros u r Hu Hr Hm. apply conv_sites_ok. intros s Hs. apply conv_site_ok.
    destruct (in_unit_raw _ _ Hr) as [par Hpar].
    assert (Hocc : occurs units u (r_ent r) par) by (split; auto).
    assert (Hv : f_valid units (ent_sec u r)) by (exists u, (r_ent r), par; auto).
    destruct (convert_units_site _ _ _ _ u (r_ent r) par s Hall Hu Hpar) as [Hinb Hall0]; auto.
    { apply ids_all_in. now right. }
    split; [exact Hinb|]. intros y Hy. apply Hids.
    destruct (proj1 (ids_all_in units y) (Hall0 y Hy)) as [Hroot|Hvy]; [now left|]. right.
    (* the source DIE is reserved, the filter recorded the reference *)
    apply mem_n_iff, Hids in Hm. destruct Hm as [Hroot|HinS]; [destruct (valid_not_root units _ Hlay Hv Hroot)|].
    exact (Hrefs u (r_ent r) par s y Hocc Hs (Hincl u (r_ent r) par s Hocc Hs y Hy) Hvy HinS). }
  exists S, out. split; [exact HS|]. split.
  { unfold convert_filtered. rewrite HS. cbn [bind]. rewrite Hsl. cbn [bind]. now rewrite <- Hdef. }
  rewrite Hfst, unit_raw_offsets. now apply emitted_reserved.
Qed.

(* a filter that records every reference the converter resolves never loses a needed DIE *)
Lemma complete_filter_ok : forall (dbg : bool) (req : N -> bool) (units : list unitd),
  wf_offsets units -> wf_layout units ->
  (exists out0, convert_all units = Ok out0) ->
  exists S out,
    reserved conv_refs dbg req units = Ok S /\
    convert_filtered conv_refs dbg req units = Ok out /\
    (forall x, In x (map fst out) <-> In x S) /\
    (strict_sorted (section_offsets units) -> map fst out = S).
Proof.
  intros dbg req units Hwf Hlay Hall. apply filtered_conversion_ok; auto.
  intros u e par s _ _. apply incl_refl.
Qed.

(* the error-tolerant conversion emits exactly the reserved DIEs, for EVERY forest (no hypothesis that the
   unfiltered conversion succeeds): out-of-bounds and dangling references neither add to nor remove from
   the output *)
Lemma tolerant_conversion_ok : forall rf (dbg : bool) (req : N -> bool) (units : list unitd),
  wf_offsets units -> wf_layout units ->
  exists S out,
    reserved rf dbg req units = Ok S /\
    convert_filtered_tol rf dbg req units = Ok out /\
    (forall x, In x (map fst out) <-> In x S) /\
    (strict_sorted (section_offsets units) -> map fst out = S).
Proof.
  intros rf dbg req units Hwf Hlay.
  destruct (filtered_ids rf dbg req units Hwf Hlay) as [S [ids [HS [Hsort [_ [Hvalid [Hsl [Hdef Hids]]]]]]]].
  destruct (convert_units_tol_char ids units []) as [out [Hout Hfst]].
  exists S, out. split; [exact HS|]. split.
  { unfold convert_filtered_tol. rewrite HS. cbn [bind]. rewrite Hsl. cbn [bind]. now rewrite <- Hdef. }
  rewrite Hfst, unit_raw_offsets. now apply emitted_reserved.
Qed.

(* parent links: ConvertUnit::read_entry skips unreserved DIEs and still attaches every reserved DIE to its own
   parent, provided the reserved set contains the parent of each of its DIEs                    *)

Lemma pop_ge_c_le : forall d d' ps, (d <= d')%Z -> pop_ge_c d (pop_ge_c d' ps) = pop_ge_c d ps.
Proof.
  intros d d' ps Hle. induction ps as [|[pd pid] ps IH]; cbn; auto.
  destruct (d' <=? pd)%Z eqn:E.
  - rewrite IH. assert (H : (d <=? pd)%Z = true) by (apply Z.leb_le; apply Z.leb_le in E; lia).
    now rewrite H.
  - reflexivity.
Qed.

Lemma cu_entries_app : forall u ids a b st,
  cu_entries u ids st (a ++ b) = (let* st' := cu_entries u ids st a in cu_entries u ids st' b).
Proof.
  intros u ids a. induction a as [|r a IH]; intros b st; cbn [app cu_entries]; auto.
  destruct (cu_entry u ids st r); cbn [bind]; auto.
Qed.

Section Attach.
  Variable u : unitd.
  Variable ids : list N.

  Definition attach (par : option entry) : N :=
    match par with Some pe => sec u (e_off pe) | None => root_off u end.
  Definition head_c (ps : list (Z * N)) : N :=
    match ps with (_, pid) :: _ => pid | [] => root_off u end.
  Definition top_res (top : option entry) : bool :=
    match top with Some pe => mem_n (sec u (e_off pe)) ids | None => true end.
  Definition sel (p : entry * option entry) : list (N * N) :=
    if mem_n (sec u (e_off (fst p))) ids then [(sec u (e_off (fst p)), attach (snd p))] else [].

  Definition parent_closed_in (pairs : list (entry * option entry)) : Prop :=
    forall e pe, In (e, Some pe) pairs ->
      mem_n (sec u (e_off e)) ids = true -> mem_n (sec u (e_off pe)) ids = true.

  Definition attach_spec (l : list rawent) (pairs : list (entry * option entry)) (d : Z)
             (top : option entry) : Prop :=
    forall ps out st',
      parent_closed_in pairs ->
      (top_res top = true -> head_c (pop_ge_c d ps) = attach top) ->
      cu_entries u ids (ps, out) l = Ok st' ->
      snd st' = out ++ flat_map sel pairs /\ pop_ge_c d (fst st') = pop_ge_c d ps.

  Lemma attach_forest : forall ts d top,
    attach_spec (flatten_list d ts) (forest_pairs top ts) d top.
  Proof.
    intros ts.
    apply (forest_ind2
      (fun t => forall d top, attach_spec (flatten_tree d t) (tree_pairs top t) d top)
      (fun l => forall d top, attach_spec (flatten_list d l) (forest_pairs top l) d top)).
    - (* Node *)
      intros e ks IH d top ps out st' Hpc Hhead Hrun.
      rewrite flatten_tree_eq in Hrun. rewrite tree_pairs_eq in *.
      cbn [cu_entries cu_entry r_ent r_depth r_kids] in Hrun.
      cbn [flat_map]. unfold sel at 1. cbn [fst snd].
      assert (Hpc' : parent_closed_in (forest_pairs (Some e) ks)).
      { intros e1 pe1 Hin. apply Hpc. now right. }
      destruct (mem_n (sec u (e_off e)) ids) eqn:Em.
      + (* reserved: attached to the parent on top of the stack *)
        assert (Htr : top_res top = true).
        { destruct top as [pe|]; [|reflexivity]. cbn [top_res].
          apply (Hpc e pe); [now left|exact Em]. }
        destruct (conv_sites u ids (e_sites e)) as [[]| | |]; cbn [bind] in Hrun; try discriminate.
        assert (Hatt : match pop_ge_c d ps with (_, pid) :: _ => pid | [] => root_off u end = attach top)
          by (apply Hhead; exact Htr).
        rewrite Hatt in Hrun.
        destruct ks as [|k ks'].
        * cbn [is_nil negb flatten_list cu_entries] in Hrun. inversion Hrun; subst st'.
          cbn [snd fst forest_pairs flat_map]. rewrite app_nil_r.
          split; [reflexivity|apply pop_ge_c_le, Z.le_refl].
        * assert (Hnn : negb (is_nil (k :: ks')) = true) by reflexivity.
          set (ks := k :: ks') in *. rewrite Hnn in Hrun. clear Hnn.
          set (me := (d, sec u (e_off e))) in *.
          assert (Hpop : pop_ge_c (d + 1) (me :: pop_ge_c d ps) = me :: pop_ge_c d ps).
          { unfold me. cbn. assert (H : (d + 1 <=? d)%Z = false) by (apply Z.leb_gt; lia). now rewrite H. }
          destruct (IH (d + 1)%Z (Some e) _ _ _ Hpc' (fun _ => f_equal head_c Hpop) Hrun) as [H1 H2].
          split.
          -- rewrite H1. now rewrite <- app_assoc.
          -- match goal with |- pop_ge_c d ?X = _ =>
               transitivity (pop_ge_c d (pop_ge_c (d + 1) X)); [symmetry; apply pop_ge_c_le; lia|] end.
             rewrite H2, Hpop. unfold me. cbn. rewrite Z.leb_refl. apply pop_ge_c_le, Z.le_refl.
      + (* not reserved: skipped, nothing pushed *)
        cbn [bind] in Hrun.
        assert (Htr : top_res (Some e) = true -> head_c (pop_ge_c (d + 1) (pop_ge_c d ps)) = attach (Some e)).
        { cbn [top_res]. rewrite Em. discriminate. }
        destruct (IH (d + 1)%Z (Some e) _ _ _ Hpc' Htr Hrun) as [H1 H2].
        split; [exact H1|].
        match goal with |- pop_ge_c d ?X = _ =>
          transitivity (pop_ge_c d (pop_ge_c (d + 1) X)); [symmetry; apply pop_ge_c_le; lia|] end.
        rewrite H2, pop_ge_c_le by lia. apply pop_ge_c_le, Z.le_refl.
    - intros d top ps out st' _ _ Hrun. cbn in Hrun. inversion Hrun; subst. cbn. now rewrite app_nil_r.
    - intros t l IHt IHl d top ps out st' Hpc Hhead Hrun.
      cbn [flatten_list forest_pairs] in *. rewrite cu_entries_app in Hrun.
      destruct (cu_entries u ids (ps, out) (flatten_tree d t)) as [[ps1 out1]| | |] eqn:E1;
        cbn [bind] in Hrun; try discriminate.
      assert (Hpc1 : parent_closed_in (tree_pairs top t)).
      { intros e pe Hin. apply Hpc. apply in_or_app. now left. }
      assert (Hpc2 : parent_closed_in (forest_pairs top l)).
      { intros e pe Hin. apply Hpc. apply in_or_app. now right. }
      destruct (IHt d top _ _ _ Hpc1 Hhead E1) as [H1 H2]. cbn [fst snd] in H1, H2.
      assert (Hhead2 : top_res top = true -> head_c (pop_ge_c d ps1) = attach top).
      { rewrite H2. exact Hhead. }
      destruct (IHl d top _ _ _ Hpc2 Hhead2 Hrun) as [H3 H4].
      split.
      + rewrite H3, H1, flat_map_app. now rewrite <- app_assoc.
      + now rewrite H4, H2.
  Qed.
End Attach.

Lemma convert_units_out : forall ids units out out',
  (forall u, In u units -> parent_closed_in u ids (unit_pairs u)) ->
  convert_units ids units out = Ok out' ->
  out' = out ++ flat_map (fun u => flat_map (sel u ids) (unit_pairs u)) units.
Proof.
  intros ids units. induction units as [|u us IH]; intros out out' Hpc Hrun.
  - cbn in Hrun. inversion Hrun; subst. cbn. now rewrite app_nil_r.
  - cbn [convert_units] in Hrun.
    match type of Hrun with context [cu_entries u ids (?ps0, out) ?rs] =>
      destruct (cu_entries u ids (ps0, out) rs) as [st'| | |] eqn:E1 end;
      cbn [bind] in Hrun; try discriminate.
    assert (H1 : snd st' = out ++ flat_map (sel u ids) (forest_pairs None (u_kids u))).
    { eapply (attach_forest u ids (u_kids u) 1%Z None); [apply Hpc; now left| |exact E1].
      intros _. destruct (u_kids u); cbn; reflexivity. }
    rewrite (IH _ _ (fun u' Hu' => Hpc u' (or_intror Hu')) Hrun), H1.
    cbn [flat_map]. unfold unit_pairs. now rewrite <- app_assoc.
Qed.

(* every DIE that a conversion under a parent-closed entry_ids emits hangs below its own parent (or the unit root) *)
Lemma convert_units_parents : forall ids units out,
  (forall u, In u units -> parent_closed_in u ids (unit_pairs u)) ->
  convert_units ids units [] = Ok out ->
  forall x p, In (x, p) out ->
    exists u e par, occurs units u e par /\ x = sec u (e_off e) /\
      p = match par with Some pe => sec u (e_off pe) | None => root_off u end.
Proof.
  intros ids units out Hpc Hrun x p Hin.
  rewrite (convert_units_out _ _ _ _ Hpc Hrun) in Hin. cbn [app] in Hin.
  apply in_flat_map in Hin. destruct Hin as [u [Hu Hin]].
  apply in_flat_map in Hin. destruct Hin as [[e par] [Hpair Hsel]].
  unfold sel in Hsel. cbn [fst snd] in Hsel.
  destruct (mem_n (sec u (e_off e)) ids); [|destruct Hsel].
  destruct Hsel as [Heq|[]]. inversion Heq; subst.
  exists u, e, par. split; [split; auto|]. split; reflexivity.
Qed.
