(* Proofs/FilterSplit.v — the split-unit filter path (ConvertSplitUnitSection::new_with_filter) on a .dwo section
   with ANY number of units (C19; /repo 7a2e6de: only the offsets of the converted unit are reserved):
   what it emits, no reference to a DIE that is never emitted, a reference into another unit is an error. *)
From Coq Require Import List NArith ZArith Bool Lia.
Require Import GV.Base.Res GV.Base.Ints GV.Spec.Graph GV.Model.Filter GV.Spec.FilterSpec GV.Model.FilterAttrs.
Require Import GV.Proofs.FilterProofs GV.Proofs.FilterEdges GV.Proofs.FilterConv GV.Proofs.FilterAttrsProofs.
Import ListNotations.
Local Open Scope N_scope.

Lemma cu_entry_strip : forall u ids st r st', cu_entry u ids st r = Ok st' -> cu_entry u ids st (strip_raw r) = Ok st'.
Proof.
  intros u ids [ps out] r st' H. unfold cu_entry in *. cbn [strip_raw r_ent r_depth r_kids e_off e_sites].
  destruct (mem_n (sec u (e_off (r_ent r))) ids); [|exact H].
  destruct (conv_sites u ids (e_sites (r_ent r))) as [[]| | |]; cbn [bind] in H; try discriminate. exact H.
Qed.

Lemma cu_entries_strip : forall u ids rs st st', cu_entries u ids st rs = Ok st' ->
  cu_entries u ids st (map strip_raw rs) = Ok st'.
Proof.
  intros u ids rs. induction rs as [|r rs IH]; intros st st' H; cbn [cu_entries map] in *; [exact H|].
  destruct (cu_entry u ids st r) as [st1| | |] eqn:E; cbn [bind] in H; try discriminate.
  rewrite (cu_entry_strip _ _ _ _ _ E). cbn [bind]. now apply IH.
Qed.

(* a strict conversion that succeeds emits what the tolerant loop emits *)
Lemma convert_units_strip : forall ids units out out', convert_units ids units out = Ok out' ->
  convert_units_tol ids units out = Ok out'.
Proof.
  intros ids units. induction units as [|u us IH]; intros out out' H; cbn [convert_units convert_units_tol] in *; [exact H|].
  match type of H with context [cu_entries u ids ?st ?rs] =>
    destruct (cu_entries u ids st rs) as [st1| | |] eqn:E end; cbn [bind] in H; try discriminate.
  rewrite (cu_entries_strip _ _ _ _ _ E). cbn [bind]. now apply IH.
Qed.

Lemma own_offsets_in : forall u S x, In x (own_offsets u S) <-> In x S /\ in_unit u x = true.
Proof. intros u S x. unfold own_offsets. rewrite filter_In. unfold in_unit. tauto. Qed.

(* of the first unit of a .dwo section, entry_ids = its root + the reserved offsets lying in it lets through
   exactly those reserved offsets *)
Lemma emitted_own : forall u0 us S x, wf_layout (u0 :: us) -> (forall y, In y S -> f_valid (u0 :: us) y) ->
  In x (filter (fun y => mem_n y (root_off u0 :: own_offsets u0 S)) (section_offsets [u0])) <->
  In x S /\ in_unit u0 x = true.
Proof.
  intros u0 us S x Hlay Hvalid.
  unfold section_offsets. cbn [flat_map]. rewrite app_nil_r, filter_In, mem_n_iff, in_map_iff. split.
  - intros [[[e par] [Hx Hp]] Hm]. cbn [fst] in Hx. subst x.
    destruct Hm as [Hr|Hs]; [|now apply own_offsets_in in Hs]. exfalso.
    eapply (valid_not_root (u0 :: us)); [exact Hlay| |exists u0; split; [now left|symmetry; exact Hr]].
    exists u0, e, par. split; [split; [now left|exact Hp]|reflexivity].
  - intros [Hs Hu]. destruct (Hvalid _ Hs) as [u' [e' [par' [Hocc' ->]]]].
    assert (u0 = u').
    { eapply ordered_unit_unique; [exact (proj1 Hlay)|now left|apply Hocc'|exact Hu|].
      eapply occurs_in_unit; eauto. }
    subst u'. split; [exists (e', par'); split; [reflexivity|apply Hocc']|].
    right. apply own_offsets_in. auto.
Qed.

(* a reference to an offset outside the unit that entry_ids does not hold is a .debug_info-form reference, and
   its conversion fails with InvalidDebugInfoRef *)
Lemma foreign_site_fails : forall u ids s y,
  In y (conv_refs u s) -> in_unit u y = false -> ~ In y ids ->
  site_unit_relative s = false /\ conv_site u ids s = Err CInvalidDebugInfoRef.
Proof.
  intros u ids s y Hy Hout Hnot.
  assert (Hrel : site_unit_relative s = false).
  { destruct (site_unit_relative s) eqn:E; [|reflexivity].
    pose proof (unit_relative_target_in_unit u s y E (filter_refs_complete u s y Hy)). congruence. }
  split; [exact Hrel|]. destruct (conv_site_info u ids s Hrel) as [-> Hr]. rewrite Hr in Hy.
  destruct Hy as [<-|[]]. unfold convert_debug_info_ref.
  destruct (mem_n (s_val s) ids) eqn:Em; [apply mem_n_iff in Em; contradiction|reflexivity].
Qed.

(* a .dwo section with two units, a variable of the first unit whose DW_AT_type is a DW_FORM_ref_addr reference
   to a struct of the second unit *)
Definition sx_var : entry :=
  {| e_off := 21; e_tag := 52; e_decl := false; e_sites := [ {| s_car := CAttrInfo; s_val := 131 |} ] |}.
Definition sx_ns : entry := {| e_off := 21; e_tag := 57; e_decl := false; e_sites := [] |}.
Definition sx_struct : entry := {| e_off := 31; e_tag := 19; e_decl := false; e_sites := [] |}.
Definition sx_u0 : unitd := {| u_off := 0; u_hdr := 11; u_len := 30; u_kids := [ Node sx_var [] ] |}.
Definition sx_units : list unitd :=
  [ sx_u0; {| u_off := 100; u_hdr := 11; u_len := 40; u_kids := [ Node sx_ns [ Node sx_struct [] ] ] |} ].
