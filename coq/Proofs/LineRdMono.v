(* Proofs/LineRdMono.v — C04 clauses that hold for EVERY input: instruction decoding and execution
   never panic, the fuel of the model loops suffices, and emitted row addresses are monotone within a
   sequence and bounded by the address size. *)
From Coq Require Import List NArith ZArith Bool Lia ZifyBool ZifyN ZifyNat.
From Coq.Strings Require Import Byte.
Require Import GV.Base.Res GV.Base.Byt GV.Base.Ints GV.Model.Leb GV.Model.Prim GV.Spec.LineSpec GV.Model.LineRd
               GV.Proofs.LineRdBase.
Import ListNotations.
Local Open Scope N_scope.

Definition asz_ok (h : header) : Prop := 1 <= h_addr_size h <= 8.
Definition hdr_ok (h : header) : Prop :=
  1 <= h_line_range h /\ 1 <= h_max_ops h /\ h_opcode_base h <= 255 /\ asz_ok h.
Definition amask (h : header) : N := mask_of (h_addr_size h).

(* what LineInstruction::parse guarantees about the instruction it returns *)
Definition insn_ok (h : header) (i : insn) : Prop :=
  match i with
  | ISpecial op => h_opcode_base h <= op /\ op < 256
  | ISetAddress a => a <= amask h /\ asz_ok h
  | _ => True
  end.

(* `for _ in 0..k { read_uleb128 }`, then the skipped bytes recovered from the two lengths *)
Lemma skip_ulebs_prefix dbg : forall k inp,
  post (fun r => exists c, inp = c ++ r /\ forall t, skip_ulebs dbg k (c ++ t) = Ok t) (skip_ulebs dbg k inp).
Proof.
  induction k as [|k IH]; intros inp; cbn [skip_ulebs]; [now exists []|].
  eapply post_bind; [apply read_uleb128_framed|]. intros [v r] _ (c1 & -> & _ & T1). cbn [fst snd] in *.
  eapply post_weaken; [apply IH|]. intros r2 (c2 & -> & T2).
  exists (c1 ++ c2). split; [apply app_assoc|]. intros t. rewrite <- app_assoc, T1. apply T2.
Qed.

Lemma skipped_ulebs_framed dbg k {A} (f : list byte -> A) :
  framed (fun c v => v = f c)
         (fun input => let* input' := skip_ulebs dbg k input in Ok (f (firstn (length input - length input') input), input')).
Proof.
  intros inp. eapply post_bind; [apply skip_ulebs_prefix|]. intros r _ (c & -> & T).
  assert (E : forall t, firstn (length (c ++ t) - length t) (c ++ t) = c).
  { intros t. now rewrite app_length, Nat.add_sub, firstn_app_exact. }
  exists c. cbn [fst snd]. rewrite E. split; [reflexivity|]. split; [reflexivity|].
  intros t. rewrite T. cbn [bind]. now rewrite E.
Qed.

Lemma file_entry_parse_framed dbg path : framed (fun _ _ => True) (fun inp => file_entry_parse dbg inp path).
Proof.
  unfold file_entry_parse.
  eapply framed_bind; [apply read_uleb128_framed|]. intros c1 d _.
  eapply framed_bind; [apply read_uleb128_framed|]. intros c2 t _.
  eapply framed_bind; [apply read_uleb128_framed|]. intros c3 s _.
  now apply framed_ret.
Qed.

(* what the parser establishes: it takes at least the opcode byte, and the instruction is `insn_ok` *)
Definition parsed (h : header) (c : list byte) (i : insn) : Prop := c <> [] /\ insn_ok h i.

Lemma parse_insn_framed dbg be h : framed (parsed h) (parse_insn dbg be h).
Proof.
  assert (R : forall (b : byte) c i, insn_ok h i -> parsed h (b :: c) i) by (split; [discriminate|assumption]).
  unfold parse_insn. apply framed_cons. intros b. cbv zeta.
  destruct (b2n b =? 0).
  { (* extended: the operands are read inside the `len` bytes split off, the rest follows them *)
    eapply framed_bind; [apply read_uleb128_framed|]. intros c1 len _.
    eapply framed_bind; [apply split_n_framed|]. intros c2 instr_rest _.
    eapply framed_pure; [apply (read_u8_framed instr_rest)|]. intros [op ir] _. cbv beta iota.
    destruct (op =? 1); [now apply framed_ret, R|].
    destruct (op =? 2).
    { eapply framed_pure; [apply (read_address_framed _ be ir)|]. intros [a r'] (_ & _ & (_ & Ha & Hs) & _).
      apply framed_ret, R. exact (conj Ha Hs). }
    destruct (op =? 3).
    { destruct (h_version h <=? 4); [|now apply framed_ret, R].
      eapply framed_pure; [apply (read_cstr_framed ir)|]. intros [path r'] _. cbv beta iota.
      eapply framed_pure; [apply (file_entry_parse_framed dbg path r')|]. intros [fe r''] _.
      now apply framed_ret, R. }
    destruct (op =? 4); [|now apply framed_ret, R].
    eapply framed_pure; [apply (read_uleb128_framed dbg ir)|]. intros [d r'] _. now apply framed_ret, R. }
  destruct (h_opcode_base h <=? b2n b) eqn:Eb.
  { apply framed_ret, R. cbn. pose proof (b2n_lt b). lia. }
  destruct (b2n b =? 1); [now apply framed_ret, R|].
  destruct (b2n b =? 2); [eapply framed_operand; [apply (read_uleb128_framed dbg)|now intros; apply R]|].
  destruct (b2n b =? 3); [eapply framed_operand; [apply (read_sleb128_framed dbg)|now intros; apply R]|].
  destruct (b2n b =? 4); [eapply framed_operand; [apply (read_uleb128_framed dbg)|now intros; apply R]|].
  destruct (b2n b =? 5); [eapply framed_operand; [apply (read_uleb128_framed dbg)|now intros; apply R]|].
  destruct (b2n b =? 6); [now apply framed_ret, R|].
  destruct (b2n b =? 7); [now apply framed_ret, R|].
  destruct (b2n b =? 8); [now apply framed_ret, R|].
  destruct (b2n b =? 9); [eapply framed_operand; [apply (read_un_framed 2 be)|now intros; apply R]|].
  destruct (b2n b =? 10); [now apply framed_ret, R|].
  destruct (b2n b =? 11); [now apply framed_ret, R|].
  destruct (b2n b =? 12); [eapply framed_operand; [apply (read_uleb128_framed dbg)|now intros; apply R]|].
  (* unknown standard opcode: the operand count comes from the header *)
  eapply framed_pure; [apply skip_n_good|]. intros ol _.
  eapply framed_pure; [apply (read_u8_framed ol)|]. intros [num_args ?] _. cbv beta iota.
  destruct (num_args =? 0); [now apply framed_ret, R|].
  destruct (num_args =? 1); [eapply framed_operand; [apply (read_uleb128_framed dbg)|now intros; apply R]|].
  eapply framed_weaken; [apply skipped_ulebs_framed|]. intros c v ->. now apply R.
Qed.

Definition parsed_ok (h : header) (inp : list byte) (p : insn * list byte) : Prop :=
  sfx (snd p) inp /\ (length (snd p) < length inp)%nat /\ insn_ok h (fst p).

Lemma parse_insn_good dbg be h inp : post (parsed_ok h inp) (parse_insn dbg be h inp).
Proof.
  eapply post_weaken; [apply parse_insn_framed|]. intros [i r] (c & -> & [N Hi] & _).
  split; [now exists c|]. split; [|exact Hi]. cbn [snd]. rewrite app_length. destruct c; [contradiction|simpl; lia].
Qed.

(* address sizes 1..8 (the caller's size is not validated for versions 2-4): a finite check *)
Lemma ones_sized_ok dbg size : 1 <= size <= 8 -> ones_sized dbg size = Ok (mask_of size).
Proof.
  intros H.
  assert (C : size = 1 \/ size = 2 \/ size = 3 \/ size = 4 \/ size = 5 \/ size = 6 \/ size = 7 \/ size = 8) by lia.
  destruct dbg; repeat destruct C as [C|C]; subst; reflexivity.
Qed.

Lemma mask_of_lt size : 1 <= size <= 8 -> mask_of size < two64.
Proof.
  intros H. unfold mask_of, two64. pose proof (pow2_pos (8 * size)).
  assert (2 ^ (8 * size) <= 2 ^ 64) by (apply N.pow_le_mono_r; lia). lia.
Qed.

Lemma add_sized_g_exact dbg a len size : 1 <= size <= 8 ->
  add_sized_g dbg a len size = if a + len <=? mask_of size then Ok (a + len) else Err EAddressOverflow.
Proof.
  intros H. pose proof (mask_of_lt size H). unfold add_sized_g. rewrite ones_sized_ok by exact H. cbn [bind].
  destruct (two64 <=? a + len) eqn:E1, (mask_of size <? a + len) eqn:E2, (a + len <=? mask_of size) eqn:E3;
    reflexivity || lia.
Qed.

Lemma add_sized_g_good dbg a len size :
  1 <= size <= 8 ->
  match add_sized_g dbg a len size with
  | Ok a' => a' = a + len /\ a' <= mask_of size
  | Err e => e = EAddressOverflow
  | _ => False
  end.
Proof.
  intros H. rewrite add_sized_g_exact by exact H.
  destruct (a + len <=? mask_of size) eqn:E; [split; [reflexivity|lia]|reflexivity].
Qed.

Lemma min_tombstone_g_ok dbg size : 1 <= size <= 8 -> min_tombstone_g dbg size = Ok (mask_of size - 1).
Proof.
  intros H. unfold min_tombstone_g. rewrite ones_sized_ok by exact H. cbn [bind]. f_equal.
  assert (C : size = 1 \/ size = 2 \/ size = 3 \/ size = 4 \/ size = 5 \/ size = 6 \/ size = 7 \/ size = 8) by lia.
  repeat destruct C as [C|C]; subst; reflexivity.
Qed.

(* address facts of the small setters *)
Lemma addr_set_opi r v : r_addr (set_opi r v) = r_addr r. Proof. reflexivity. Qed.
Lemma addr_set_line r v : r_addr (set_line r v) = r_addr r. Proof. reflexivity. Qed.
Lemma addr_set_tomb r v : r_addr (set_tomb r v) = r_addr r. Proof. reflexivity. Qed.
Lemma addr_set_addr r v : r_addr (set_addr r v) = v. Proof. reflexivity. Qed.
Lemma addr_line_advance r z : r_addr (apply_line_advance r z) = r_addr r.
Proof. unfold apply_line_advance. destruct (z <? 0)%Z; [destruct (Z.abs_N z <=? r_line r)|]; reflexivity. Qed.
Lemma tomb_line_advance r z : r_tomb (apply_line_advance r z) = r_tomb r.
Proof. unfold apply_line_advance. destruct (z <? 0)%Z; [destruct (Z.abs_N z <=? r_line r)|]; reflexivity. Qed.
Lemma end_line_advance r z : r_end (apply_line_advance r z) = r_end r.
Proof. unfold apply_line_advance. destruct (z <? 0)%Z; [destruct (Z.abs_N z <=? r_line r)|]; reflexivity. Qed.

(* the address only grows and stays inside the address size *)
Definition step_ok (h : header) (r r' : row) : Prop :=
  r_addr r <= r_addr r' /\ r_addr r' <= amask h.

Lemma aoa_good dbg h r adv :
  hdr_ok h -> r_addr r <= amask h ->
  post (fun p => step_ok h r (fst p)) (apply_operation_advance dbg h r adv).
Proof.
  intros (Hlr & Hmo & Hob & Hsz) Ha. unfold apply_operation_advance, step_ok, amask in *.
  destruct (r_tomb r); [cbn; lia|].
  destruct (h_max_ops h =? 1) eqn:E1.
  - cbn [bind]. rewrite add_sized_g_exact by exact Hsz. cbn [r_addr set_opi].
    destruct (_ <=? _) eqn:E; cbn; lia.
  - destruct (h_max_ops h =? 0) eqn:E0; [lia|]. cbn [bind].
    rewrite add_sized_g_exact by exact Hsz. cbn [r_addr set_opi].
    destruct (_ <=? _) eqn:E; cbn; lia.
Qed.

Lemma adv_result_good h r (x : res (row * option error)) k :
  post (fun p => step_ok h r (fst p)) x -> post (fun p => step_ok h r (fst p)) (adv_result x k).
Proof.
  intros G. unfold adv_result. eapply post_bind; [exact G|]. intros [r' e] _ H; cbn [fst] in H.
  destruct e; cbn; exact H.
Qed.

Lemma execute_good dbg h r i :
  hdr_ok h -> insn_ok h i -> r_addr r <= amask h ->
  post (fun p => step_ok h r (fst p)) (execute dbg h r i).
Proof.
  intros Hh Hi Ha. pose proof Hh as (Hlr & Hmo & Hob & Hsz).
  assert (R : step_ok h r r) by (unfold step_ok; lia).
  destruct i; cbn [execute]; try exact R.
  - (* ISpecial *)
    destruct Hi as [Hi1 Hi2]. unfold adjust_opcode, chk_sub.
    destruct (h_opcode_base h <=? op) eqn:E; [|lia]. cbn [bind].
    destruct (h_line_range h =? 0) eqn:E0; [lia|].
    set (r1 := apply_line_advance r _).
    assert (A1 : r_addr r1 = r_addr r) by apply addr_line_advance.
    eapply post_weaken; [apply adv_result_good, aoa_good; [exact Hh|rewrite A1; exact Ha]|].
    intros [r' x] S1; cbn [fst] in *. unfold step_ok in *. rewrite A1 in S1. exact S1.
  - (* IAdvancePc *) apply adv_result_good, aoa_good; assumption.
  - (* IAdvanceLine *) cbn. unfold step_ok. rewrite addr_line_advance. lia.
  - (* IConstAddPc *)
    unfold adjust_opcode, chk_sub. destruct (h_opcode_base h <=? 255) eqn:E; [|lia]. cbn [bind].
    destruct (h_line_range h =? 0) eqn:E0; [lia|].
    apply adv_result_good, aoa_good; assumption.
  - (* IFixedAddPc *)
    destruct (r_tomb r); [exact R|].
    rewrite add_sized_g_exact by exact Hsz. unfold step_ok, amask in *.
    destruct (_ <=? _) eqn:E; cbn; lia.
  - (* ISetAddress *)
    destruct Hi as [Hi _].
    destruct (a <? r_addr r) eqn:E1; cbn [bind]; [exact R|].
    rewrite min_tombstone_g_ok by exact Hsz. cbn [bind].
    destruct (mask_of (h_addr_size h) - 1 <=? a); cbn; unfold step_ok; cbn; lia.
Qed.

Lemma row_reset_addr h r : r_addr (row_reset h r) = if r_end r then 0 else r_addr r.
Proof. unfold row_reset. destruct (r_end r); reflexivity. Qed.

(* what one call leaves of the input, for every header: a suffix, a proper one when a row or an error
   is returned; in_sequence is set from the row returned *)
Definition nr_frame (inp : list byte) (res : nr_out * lr_state) : Prop :=
  let '(out, st') := res in
  sfx (st_inp st') inp /\
  (out = NRow -> (length (st_inp st') < length inp)%nat /\ st_inseq st' = negb (r_end (st_row st'))) /\
  (forall e, out = NErr e -> (length (st_inp st') < length inp)%nat).

Lemma nr_frame_stop inp out r rest added q :
  sfx rest inp -> (length rest < length inp)%nat -> (out = NRow -> q = negb (r_end r)) ->
  nr_frame inp (out, mk_st r rest added q).
Proof. intros S L Q. split; [exact S|]. split; [intros E; split; [exact L|exact (Q E)]|intros e _; exact L]. Qed.

Lemma nr_frame_trans rest inp res : sfx rest inp -> nr_frame rest res -> nr_frame inp res.
Proof.
  destruct res as [out st']. intros S (I1 & I2 & I3). pose proof (sfx_len _ _ S) as L.
  split; [eapply sfx_trans; eassumption|].
  split; [intros E; destruct (I2 E); split; [lia|assumption]|intros e E; specialize (I3 e E); lia].
Qed.

Lemma next_row_loop_frame dbg be res h : forall fuel r inp added q,
  nr_frame inp (next_row_loop fuel dbg be res h r inp added q).
Proof.
  induction fuel as [|f IH]; intros r inp added q; cbn [next_row_loop].
  { split; [apply sfx_refl|]. split; [discriminate|intros e; discriminate]. }
  destruct inp as [|b inp].
  { split; [apply sfx_refl|]. split; [discriminate|intros e; discriminate]. }
  pose proof (parse_insn_good dbg be h (b :: inp)) as G.
  destruct (parse_insn dbg be h (b :: inp)) as [[i rest]|e| |]; cbn [post] in G; try contradiction.
  2:{ apply nr_frame_stop; [exists (b :: inp); now rewrite app_nil_r|simpl; lia|discriminate]. }
  destruct G as (Gs & Gl & _); cbn [fst snd] in *.
  destruct (execute dbg h r i) as [[r' x]|e| |]; try (apply nr_frame_stop; [exact Gs|exact Gl|discriminate]).
  destruct x as [| |e]; [destruct (r_tomb r' && negb (r_end r' && q))|..].
  - eapply nr_frame_trans; [exact Gs|apply IH].
  - apply nr_frame_stop; [exact Gs|exact Gl|reflexivity].
  - eapply nr_frame_trans; [exact Gs|apply IH].
  - apply nr_frame_stop; [exact Gs|exact Gl|discriminate].
Qed.

Lemma next_row_frame dbg be res h st : nr_frame (st_inp st) (next_row dbg be res h st).
Proof. apply next_row_loop_frame. Qed.

(* with a decoded header: no panic, the fuel suffices, the address stays inside the address size and,
   inside a sequence, does not go down *)
Definition nr_post (h : header) (r : row) (inseq : bool) (res : nr_out * lr_state) : Prop :=
  let '(out, st') := res in
  out <> NPanic /\ out <> NFuel /\ r_addr (st_row st') <= amask h /\
  (inseq = true -> r_addr r <= r_addr (st_row st')).

Lemma next_row_loop_post dbg be resumed h : hdr_ok h ->
  forall fuel r inp added inseq,
  r_addr r <= amask h -> (length inp < fuel)%nat ->
  nr_post h r inseq (next_row_loop fuel dbg be resumed h r inp added inseq).
Proof.
  intros Hh. induction fuel as [|f IH]; intros r inp added inseq Ha Hf; [lia|].
  cbn [next_row_loop].
  destruct inp as [|b input].
  { cbn. repeat split; try discriminate; lia. }
  pose proof (parse_insn_good dbg be h (b :: input)) as G.
  destruct (parse_insn dbg be h (b :: input)) as [[i rest]|e| |]; cbn [post] in G; try contradiction.
  2:{ cbn. repeat split; try discriminate; lia. }
  destruct G as (_ & Gl & Gi); cbn [fst snd] in *. cbn [length] in Gl, Hf.
  pose proof (execute_good dbg h r i Hh Gi Ha) as X.
  destruct (execute dbg h r i) as [[r' x]|e| |]; cbn [post] in X; try contradiction.
  2:{ cbn. repeat split; try discriminate; lia. }
  cbn [fst] in X. destruct X as [X1 X2].
  destruct x as [| |e].
  - (* XRow *)
    destruct (r_tomb r' && negb (r_end r' && inseq)) eqn:Et; [|cbn; repeat split; try discriminate; lia].
    assert (A : r_addr (row_reset h r') <= amask h).
    { rewrite row_reset_addr. destruct (r_end r'); [lia|exact X2]. }
    specialize (IH (row_reset h r') rest added inseq A ltac:(lia)). unfold nr_post in *.
    destruct (next_row_loop f dbg be resumed h (row_reset h r') rest added inseq) as [out st'].
    destruct IH as (I1 & I2 & I3 & I4). repeat split; auto.
    intros Ei. specialize (I4 Ei). rewrite row_reset_addr in I4. subst inseq.
    destruct (r_end r'); [|lia]. rewrite andb_true_r in Et. cbn in Et. rewrite andb_false_r in Et. discriminate.
  - (* XNoRow *)
    specialize (IH r' rest (add_file resumed i added) inseq X2 ltac:(lia)). unfold nr_post in *.
    destruct (next_row_loop f dbg be resumed h r' rest (add_file resumed i added) inseq) as [out st'].
    destruct IH as (I1 & I2 & I3 & I4). repeat split; auto. intros Ei. specialize (I4 Ei). lia.
  - (* XErr *)
    cbn. repeat split; try discriminate; lia.
Qed.

Lemma next_row_post dbg be resumed h st : hdr_ok h -> r_addr (st_row st) <= amask h ->
  nr_post h (row_reset h (st_row st)) (st_inseq st) (next_row dbg be resumed h st).
Proof.
  intros Hh Ha. unfold next_row. apply next_row_loop_post; auto.
  rewrite row_reset_addr. destruct (r_end (st_row st)); lia.
Qed.

(* `chain h a l`: starting from address floor `a` (0 at the start of a sequence), every row is at or
   above the floor and inside the address size; an end_sequence row resets the floor *)
Fixpoint chain (h : header) (a : N) (l : list row) : Prop :=
  match l with
  | [] => True
  | r :: tl => a <= r_addr r /\ r_addr r <= amask h /\ chain h (if r_end r then 0 else r_addr r) tl
  end.

Definition floor_of (st : lr_state) : N := if st_inseq st then r_addr (st_row st) else 0.
Definition st_ok (h : header) (st : lr_state) : Prop :=
  r_addr (st_row st) <= amask h /\ (st_inseq st = true -> r_end (st_row st) = false).

Lemma rows_loop_post dbg be resumed h : hdr_ok h ->
  forall fuel st l s stf,
  st_ok h st -> (length (st_inp st) < fuel)%nat ->
  rows_loop fuel dbg be resumed h st = (l, s, stf) ->
  s <> SPanic /\ s <> SFuel /\ chain h (floor_of st) l /\ r_addr (st_row stf) <= amask h.
Proof.
  intros Hh. induction fuel as [|f IH]; intros st l s stf [Ha Hi] Hf H; [lia|].
  cbn [rows_loop] in H.
  pose proof (next_row_post dbg be resumed h st Hh Ha) as P. pose proof (next_row_frame dbg be resumed h st) as F.
  destruct (next_row dbg be resumed h st) as [out st'].
  destruct P as (I1 & I2 & I3 & I4). destruct F as (_ & I7 & _).
  destruct out; try congruence.
  - destruct (I7 eq_refl) as [L T].
    destruct (rows_loop f dbg be resumed h st') as [[rs s'] stf'] eqn:E.
    inversion H; subst; clear H.
    assert (Ok' : st_ok h st').
    { split; [exact I3|]. rewrite T. destruct (r_end (st_row st')); [discriminate|reflexivity]. }
    destruct (IH st' rs s stf Ok' ltac:(lia) E) as (J1 & J2 & J3 & J4).
    split; [exact J1|]. split; [exact J2|]. split; [|exact J4].
    cbn [chain]. split.
    { unfold floor_of. destruct (st_inseq st) eqn:Ei; [|lia].
      specialize (I4 eq_refl). rewrite row_reset_addr, (Hi eq_refl) in I4. exact I4. }
    split; [exact I3|].
    unfold floor_of in J3. rewrite T in J3. destruct (r_end (st_row st')); exact J3.
  - inversion H; subst. repeat split; auto; discriminate.
  - inversion H; subst. repeat split; auto; discriminate.
Qed.

Lemma st_init_ok h inp : st_ok h (st_init h inp).
Proof. split; cbn; [lia|discriminate]. Qed.

(* a run over all rows of `inp` from a fresh state: rows() and resume_from() alike *)
Lemma rows_init_post dbg be resumed h inp l s stf : hdr_ok h ->
  rows_loop (S (length inp)) dbg be resumed h (st_init h inp) = (l, s, stf) ->
  chain h 0 l /\ s <> SPanic /\ s <> SFuel.
Proof.
  intros Hh H.
  destruct (rows_loop_post dbg be resumed h Hh _ (st_init h inp) _ _ _ (st_init_ok h inp) (Nat.lt_succ_diag_r _) H)
    as (H1 & H2 & H3 & _).
  auto.
Qed.

(* consecutive elements of a list *)
Inductive adjacent {A} : list A -> A -> A -> Prop :=
| adj_here x y l : adjacent (x :: y :: l) x y
| adj_later z l x y : adjacent l x y -> adjacent (z :: l) x y.

Lemma chain_adjacent h : forall l a p q,
  chain h a l -> adjacent l p q -> r_end p = false -> r_addr p <= r_addr q.
Proof.
  induction l as [|x l IH]; intros a p q C A; inversion A; subst.
  - cbn [chain] in C. destruct C as (_ & _ & C). cbn [chain] in C. destruct C as (C & _).
    intros E1. rewrite E1 in C. exact C.
  - cbn [chain] in C. destruct C as (_ & _ & C). eapply IH; eauto.
Qed.

Lemma chain_bounded h : forall l a, chain h a l -> Forall (fun r => r_addr r <= amask h) l.
Proof.
  induction l as [|x l IH]; intros a C; constructor.
  - cbn [chain] in C. tauto.
  - cbn [chain] in C. destruct C as (_ & _ & C). eapply IH; eauto.
Qed.

(* within a sequence (rows up to and including an end_sequence row) addresses never decrease *)
Definition rows_monotone (rs : list row) : Prop :=
  forall r1 r2, adjacent rs r1 r2 -> r_end r1 = false -> r_addr r1 <= r_addr r2.

Lemma chain_monotone h l a : chain h a l -> rows_monotone l /\ Forall (fun r => r_addr r <= amask h) l.
Proof.
  intros C. split; [intros r1 r2; eapply chain_adjacent; eauto|eapply chain_bounded; eauto].
Qed.

Lemma rows_model_post dbg be h : hdr_ok h ->
  chain h 0 (fst (rows_model dbg be h)) /\ snd (rows_model dbg be h) <> SPanic /\ snd (rows_model dbg be h) <> SFuel.
Proof.
  intros Hh. unfold rows_model, rows_full.
  destruct (rows_loop _ dbg be false h _) as [[l s] stf] eqn:E. exact (rows_init_post _ _ _ _ _ _ _ _ Hh E).
Qed.

Lemma cont_loop_post dbg be h : hdr_ok h ->
  forall fuel st, r_addr (st_row st) <= amask h -> (length (st_inp st) < fuel)%nat ->
  snd (cont_loop fuel dbg be h st) <> SPanic /\ snd (cont_loop fuel dbg be h st) <> SFuel.
Proof.
  intros Hh. induction fuel as [|f IH]; intros st Ha Hf; [lia|].
  cbn [cont_loop].
  pose proof (next_row_post dbg be false h st Hh Ha) as P. pose proof (next_row_frame dbg be false h st) as F.
  destruct (next_row dbg be false h st) as [out st'].
  destruct P as (I1 & I2 & I3 & I4). destruct F as (_ & I7 & I8).
  destruct out; try congruence.
  - destruct (I7 eq_refl) as [L T]. specialize (IH st' I3 ltac:(lia)).
    destruct (cont_loop f dbg be h st') as [es s]. exact IH.
  - cbn. split; discriminate.
  - specialize (I8 e eq_refl). specialize (IH st' I3 ltac:(lia)).
    destruct (cont_loop f dbg be h st') as [es s]. exact IH.
Qed.

Lemma seq_loop_post dbg be h : hdr_ok h ->
  forall fuel st ins start, r_addr (st_row st) <= amask h -> (length (st_inp st) < fuel)%nat ->
  seq_loop fuel dbg be h st ins start <> Panic /\ seq_loop fuel dbg be h st ins start <> OutOfFuel.
Proof.
  intros Hh. induction fuel as [|f IH]; intros st ins start Ha Hf; [lia|].
  cbn [seq_loop].
  pose proof (next_row_post dbg be false h st Hh Ha) as P. pose proof (next_row_frame dbg be false h st) as F.
  destruct (next_row dbg be false h st) as [out st'].
  destruct P as (I1 & I2 & I3 & I4). destruct F as (_ & I7 & I8).
  destruct out; try congruence; try (split; discriminate).
  destruct (I7 eq_refl) as [L T].
  destruct (r_end (st_row st')).
  - destruct (IH st' (st_inp st') None I3 ltac:(lia)) as [J1 J2].
    destruct (seq_loop f dbg be h st' (st_inp st') None) as [[fs ss]| | |]; cbn; split; congruence.
  - apply IH; [exact I3|lia].
Qed.

(* the program of the repaired defect (fixed: 9872ff0): set_address 0x1000; copy; set_address 0 (tombstone);
   end_sequence; set_address 0x500; copy; end_sequence. The tombstoned end_sequence row is now returned
   (at the last valid address), so the two sequences stay apart. *)
Definition witness_header : header :=
  mk_header false 4 4 0 0 1 1 true (-5) 14 13
    [x00; x01; x01; x01; x01; x00; x00; x00; x01; x00; x00; x01] [] [] [] []
    [x00; x05; x02; x00; x10; x00; x00;  x01;  x00; x05; x02; x00; x00; x00; x00;  x00; x01; x01;
     x00; x05; x02; x00; x05; x00; x00;  x01;  x00; x01; x01].

(* a non-trivial program: set_address 0x1000; special 0x4b; advance_pc 3; special 0x20; end_sequence;
   set_address 0x800; copy; end_sequence *)
Definition sample_header : header :=
  mk_header false 4 4 0 0 1 1 true (-5) 14 13
    [x00; x01; x01; x01; x01; x00; x00; x00; x01; x00; x00; x01] [] [] [] []
    [x00; x05; x02; x00; x10; x00; x00;  x4b;  x02; x03;  x20;  x00; x01; x01;
     x00; x05; x02; x00; x08; x00; x00;  x01;  x00; x01; x01].

Lemma hdr_ok_examples : hdr_ok sample_header /\ hdr_ok witness_header.
Proof. split; unfold hdr_ok, asz_ok; cbn; lia. Qed.
