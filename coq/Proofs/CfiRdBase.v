(* Proofs/CfiRdBase.v — what the C05 proofs need below the level of CIEs and FDEs: the fixed-width and
   SLEB128 encoders of Spec/CfiSpec.v read back by Model/Prim.v and Model/Leb.v, the offset-tracking
   reader of Model/CfiRd.v on an encoded prefix, address-size arithmetic, and the DW_EH_PE byte as
   bit fields. *)
From Coq Require Import List NArith ZArith Bool Lia ZifyBool ZifyN ZifyNat.
From Coq.Strings Require Import Byte.
Require Import GV.Base.Res GV.Base.Byt GV.Base.Ints GV.Model.Leb GV.Model.Prim GV.Spec.LebSpec.
Require Import GV.Spec.PrimSpec GV.Spec.CfiSpec GV.Model.CfiRd GV.Proofs.LebProofs GV.Proofs.PrimProofs.
Import ListNotations.
Local Open Scope N_scope.

Lemma take_none_len : forall n (bs : list byte), take n bs = None -> (length bs < n)%nat.
Proof. intros n bs H. rewrite take_exact in H. destruct (length bs <? n)%nat eqn:E; [lia|discriminate]. Qed.

Lemma read_un_eof : forall n be bs, (length bs < n)%nat -> read_un n be bs = Err EUnexpectedEof.
Proof. intros n be bs. apply read_un_eof_iff. Qed.

(* the spec's fixed-width encoder is Prim's *)
Lemma un_bytes_enc_un : forall n be v, un_bytes n be v = enc_un n be v.
Proof.
  assert (H : forall n v, le_n n v = le_bytes n v) by (induction n; intros; cbn; [|rewrite IHn]; reflexivity).
  intros. unfold un_bytes, enc_un, be_bytes. rewrite H. reflexivity.
Qed.

Lemma un_bytes_length n be v : length (un_bytes n be v) = n.
Proof. rewrite un_bytes_enc_un. apply enc_un_length. Qed.

Lemma read_un_small : forall n be v rest, v < 256 ^ N.of_nat n ->
  read_un n be (un_bytes n be v ++ rest) = Ok (v, rest).
Proof. intros. rewrite un_bytes_enc_un. apply read_un_enc_un_small. assumption. Qed.

Lemma read_in_enc : forall n be v rest,
  read_in n be (un_bytes n be v ++ rest) = Ok (to_signed (8 * N.of_nat n) (v mod 256 ^ N.of_nat n), rest).
Proof. intros. unfold read_in. rewrite un_bytes_enc_un, read_un_enc_un. reflexivity. Qed.

Lemma pow2_split : forall a b, 2 ^ (a + b) = 2 ^ a * 2 ^ b.
Proof. intros. apply N.pow_add_r. Qed.

Lemma enc_uleb_nonempty : forall v, enc_uleb v <> [].
Proof. intros v. unfold enc_uleb. rewrite enc_uleb_fuel_S. destruct (v <? 128); discriminate. Qed.

Lemma read_sleb_enc : forall dbg z rest, (- 2 ^ 63 <= z < 2 ^ 63)%Z ->
  read_sleb128 dbg (enc_sleb z ++ rest) = Ok (z, rest).
Proof.
  intros dbg z rest Hz. unfold enc_sleb. destruct (sleb_min_agrees 19 z) as (_ & -> & _).
  apply read_sleb128_enc; [lia|]. unfold in_i64. lia.
Qed.

Lemma nlen_app : forall a b, nlen (a ++ b) = nlen a + nlen b.
Proof. intros. unfold nlen. rewrite app_length. lia. Qed.

Lemma nlen_cons : forall x l, nlen (x :: l) = 1 + nlen l.
Proof. intros. unfold nlen. cbn [length]. lia. Qed.

Lemma nlen_blen : forall l, nlen l = blen l.
Proof. reflexivity. Qed.

Lemma lift_app : forall A (f : list byte -> res (A * list byte)) o e rest a,
  f (e ++ rest) = Ok (a, rest) -> lift f (mkrd o (e ++ rest)) = Ok (a, mkrd (o + nlen e) rest).
Proof.
  intros A f o e rest a H. unfold lift. cbn [win off]. rewrite H. cbn [bind].
  rewrite nlen_app. do 2 f_equal. f_equal. lia.
Qed.

Lemma lift_err : forall A (f : list byte -> res (A * list byte)) o w e,
  f w = Err e -> lift f (mkrd o w) = Err e.
Proof. intros A f o w e H. unfold lift. cbn [win]. rewrite H. reflexivity. Qed.

Lemma firstn_nlen_app : forall (e rest : list byte), firstn (N.to_nat (nlen e)) (e ++ rest) = e.
Proof. intros. unfold nlen. rewrite Nat2N.id. apply firstn_app_exact. Qed.
Lemma skipn_nlen_app : forall (e rest : list byte), skipn (N.to_nat (nlen e)) (e ++ rest) = rest.
Proof. intros. unfold nlen. rewrite Nat2N.id. apply skipn_app_exact. Qed.

Lemma rd_split_app : forall o e rest,
  rd_split (nlen e) (mkrd o (e ++ rest)) = Ok (mkrd o e, mkrd (o + nlen e) rest).
Proof.
  intros. unfold rd_split. cbn [win off]. rewrite nlen_app.
  destruct (nlen e + nlen rest <? nlen e) eqn:E; [lia|].
  rewrite firstn_nlen_app, skipn_nlen_app. reflexivity.
Qed.

Lemma rd_skip_app : forall o e rest,
  rd_skip (nlen e) (mkrd o (e ++ rest)) = Ok (mkrd (o + nlen e) rest).
Proof.
  intros. unfold rd_skip. cbn [win off]. rewrite nlen_app.
  destruct (nlen e + nlen rest <? nlen e) eqn:E; [lia|].
  rewrite skipn_nlen_app. reflexivity.
Qed.

Lemma rd_u8_cons : forall o b rest, rd_u8 (mkrd o (b :: rest)) = Ok (b2n b, mkrd (o + 1) rest).
Proof.
  intros. unfold rd_u8. change (b :: rest) with ([b] ++ rest). rewrite (lift_app _ _ _ _ _ (b2n b)); reflexivity.
Qed.

Definition asz_ok (asz : N) : Prop := asz = 1 \/ asz = 2 \/ asz = 4 \/ asz = 8.

Lemma asz_ok_size_ok : forall asz, asz_ok asz -> size_ok asz = true.
Proof. intros asz H. apply size_ok_cases. exact H. Qed.

Lemma wadd_sized_ok : forall dbg a len asz, asz_ok asz ->
  wadd_sized dbg a len asz = Ok ((a + len) mod 2 ^ (8 * asz)).
Proof.
  intros dbg a len asz H. apply asz_ok_size_ok in H. unfold wadd_sized. rewrite ones_sized_ok by exact H.
  cbn [bind]. fold (wrapping_add_sized a len asz). rewrite wrapping_add_sized_exact by exact H. reflexivity.
Qed.

Lemma read_address_ok_fun : forall asz be, asz_ok asz -> read_address asz be = read_un (N.to_nat asz) be.
Proof. intros asz be [->|[->|[->| ->]]]; reflexivity. Qed.

Lemma of_i64_s64 : forall v, v < 2 ^ 64 -> of_i64 (s64 v) = v.
Proof.
  intros v Hv. unfold of_i64, of_signed, s64.
  assert (H6364 : 2 ^ 64 = 2 * 2 ^ 63) by reflexivity.
  change (Z.of_N (2 ^ 64)) with (2 ^ 64)%Z.
  assert (Hz : (2 ^ 64 = 2 * Z.of_N (2 ^ 63))%Z) by reflexivity.
  destruct (v <? 2 ^ 63) eqn:E.
  - rewrite Z.mod_small by lia. lia.
  - replace (Z.of_N v - 2 ^ 64)%Z with (Z.of_N v + (-1) * 2 ^ 64)%Z by lia.
    rewrite Z.mod_add by lia. rewrite Z.mod_small by lia. lia.
Qed.

Lemma s64_range : forall v, v < 2 ^ 64 -> (- 2 ^ 63 <= s64 v < 2 ^ 63)%Z.
Proof.
  intros v Hv. unfold s64.
  assert (Hz : (2 ^ 64 = 2 * 2 ^ 63)%Z) by reflexivity.
  assert (Hz2 : Z.of_N (2 ^ 64) = (2 ^ 64)%Z) by reflexivity.
  assert (Hz3 : Z.of_N (2 ^ 63) = (2 ^ 63)%Z) by reflexivity.
  destruct (v <? 2 ^ 63) eqn:E; lia.
Qed.

(* sign extension of a k-byte two's complement field back to the u64 it came from *)
Lemma of_i64_to_signed : forall bits v, (bits = 16 \/ bits = 32 \/ bits = 64) -> v < 2 ^ 64 ->
  (v < 2 ^ (bits - 1) \/ 2 ^ 64 - 2 ^ (bits - 1) <= v) ->
  of_i64 (to_signed bits (v mod 2 ^ bits)) = v.
Proof.
  intros bits v Hb Hv Hfit. unfold of_i64, of_signed, to_signed, wrapN.
  rewrite N.mod_mod by (apply N.pow_nonzero; lia).
  assert (Hz64 : Z.of_N (2 ^ 64) = (2 ^ 64)%Z) by reflexivity. rewrite Hz64.
  destruct Hb as [->|[->| ->]].
  - change (2 ^ (16 - 1)) with 32768 in *. change (2 ^ 16) with 65536.
    change (2 ^ 64) with 18446744073709551616 in *. change (2 ^ 64)%Z with 18446744073709551616%Z.
    change (Z.of_N 65536) with 65536%Z.
    destruct (v mod 65536 <? 32768) eqn:E; lia.
  - change (2 ^ (32 - 1)) with 2147483648 in *. change (2 ^ 32) with 4294967296.
    change (2 ^ 64) with 18446744073709551616 in *. change (2 ^ 64)%Z with 18446744073709551616%Z.
    change (Z.of_N 4294967296) with 4294967296%Z.
    destruct (v mod 4294967296 <? 2147483648) eqn:E; lia.
  - change (2 ^ (64 - 1)) with 9223372036854775808 in *.
    change (2 ^ 64) with 18446744073709551616 in *. change (2 ^ 64)%Z with 18446744073709551616%Z.
    change (Z.of_N 18446744073709551616) with 18446744073709551616%Z.
    destruct (v mod 18446744073709551616 <? 9223372036854775808) eqn:E; lia.
Qed.

Lemma pe_is_valid_spec : forall e, e < 256 -> pe_is_valid e = valid_spec e.
Proof.
  intros e He. apply eqb_prop. revert e He.
  apply (forallb_below (fun e => Bool.eqb (pe_is_valid e) (valid_spec e)) 256). vm_compute. reflexivity.
Qed.

Lemma pe_fields_spec : forall e, e < 256 ->
  pe_format e = fmt_of e /\ pe_application e = app_of e /\
  pe_is_indirect e = negb (ind_of e =? 0) /\ pe_is_absent e = (e =? 255) /\
  e = fmt_of e + app_of e + ind_of e.
Proof.
  intros e He.
  apply (forallb_below (fun e => (pe_format e =? fmt_of e) && (pe_application e =? app_of e)
            && Bool.eqb (pe_is_indirect e) (negb (ind_of e =? 0))
            && Bool.eqb (pe_is_absent e) (e =? 255)
            && (e =? fmt_of e + app_of e + ind_of e)) 256) in He.
  - repeat rewrite andb_true_iff in He. destruct He as [[[[H1 H2] H3] H4] H5].
    apply N.eqb_eq in H1, H2, H5. apply eqb_prop in H3, H4. auto.
  - vm_compute. reflexivity.
Qed.
