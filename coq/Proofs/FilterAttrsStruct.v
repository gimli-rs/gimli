(* Proofs/FilterAttrsStruct.v — the attribute-level conversion (FilterAttrs.convert_units_attrs) and the
   conversion of Model/Filter.v are ONE model: they emit the same DIEs attached to the same parents (C19).
   Forgetting the attributes, a step of the former is a step of the latter on the same DIE without its sites;
   conversely a strict step of the latter that succeeds has resolved every site, so the former succeeds. *)
From Coq Require Import List NArith ZArith Bool Lia.
Require Import GV.Base.Res GV.Base.Ints GV.Spec.Graph GV.Model.Filter GV.Spec.FilterSpec GV.Model.FilterAttrs.
Require Import GV.Proofs.FilterProofs GV.Proofs.FilterEdges GV.Proofs.FilterConv GV.Proofs.FilterAttrsProofs.
Import ListNotations.
Local Open Scope N_scope.

Definition cd_pair (c : cdie) : N * N := (cd_off c, cd_parent c).

(* one DIE: whenever the attribute-level step succeeds, the step of Model/Filter.v on the same DIE without its
   sites makes the same decision and attaches the DIE to the same parent *)
Lemma cua_entry_sim : forall tol u m ps out r ps' out',
  cua_entry tol u m (ps, out) r = Ok (ps', out') ->
  cu_entry u (map fst m) (ps, map cd_pair out) (strip_raw (raw_of r)) = Ok (ps', map cd_pair out').
Proof.
  intros tol u m ps out r ps' out' H. unfold cua_entry in H. unfold cu_entry.
  cbn [strip_raw raw_of r_ent r_depth r_kids e_off e_sites entry_of].
  rewrite mem_n_keys.
  destruct (im_get (sec u (ae_off (ar_ent r))) m) as [id|].
  - unfold cu_filter_attributes in H.
    destruct (if tol then Ok (cv_attributes_tol u m (filter attr_kept (ae_attrs (ar_ent r))))
              else cv_attributes u m (filter attr_kept (ae_attrs (ar_ent r)))) as [ca| | |]; cbn [bind] in H; try discriminate.
    inversion H; subst. cbn [conv_sites bind]. rewrite map_app. reflexivity.
  - inversion H; subst. reflexivity.
Qed.

Lemma cua_entries_sim : forall tol u m rs ps out ps' out',
  cua_entries tol u m (ps, out) rs = Ok (ps', out') ->
  cu_entries u (map fst m) (ps, map cd_pair out) (map strip_raw (map raw_of rs)) = Ok (ps', map cd_pair out').
Proof.
  intros tol u m rs. induction rs as [|r rs IH]; intros ps out ps' out' H; cbn [cua_entries] in H.
  - inversion H; subst. reflexivity.
  - destruct (cua_entry tol u m (ps, out) r) as [[ps1 out1]| | |] eqn:E; cbn [bind] in H; try discriminate.
    cbn [map cu_entries]. rewrite (cua_entry_sim _ _ _ _ _ _ _ _ E). cbn [bind]. now apply IH.
Qed.

Lemma convert_units_attrs_sim : forall tol m aunits out out',
  convert_units_attrs tol m aunits out = Ok out' ->
  convert_units_tol (map fst m) (map unit_of aunits) (map cd_pair out) = Ok (map cd_pair out').
Proof.
  intros tol m aunits. induction aunits as [|au us IH]; intros out out' H; cbn [convert_units_attrs] in H.
  - inversion H; subst. reflexivity.
  - destruct (cua_entries tol (unit_of au) m
                (if is_nil (au_kids au) then [] else [(0%Z, root_off (unit_of au))], out)
                (aflatten_list 1 (au_kids au))) as [[ps1 out1]| | |] eqn:E; cbn [bind] in H; try discriminate.
    cbn [map convert_units_tol].
    replace (u_kids (unit_of au)) with (map tree_of (au_kids au)) by reflexivity.
    rewrite is_nil_map, <- aflatten_raw.
    rewrite (cua_entries_sim _ _ _ _ _ _ _ _ E). cbn [bind snd]. now apply IH.
Qed.

Lemma convert_filtered_attrs_sim : forall (tol dbg : bool) (req : N -> bool) (aunits : list aunit) m out,
  convert_filtered_attrs tol dbg req aunits = Ok (m, out) ->
  ids_filtered dbg req (map unit_of aunits) = Ok m /\
  convert_filtered_tol filter_refs dbg req (map unit_of aunits) = Ok (map cd_pair out).
Proof.
  intros tol dbg req aunits m out H. unfold convert_filtered_attrs in H.
  destruct (ids_filtered dbg req (map unit_of aunits)) as [m0| | |] eqn:Em; cbn [bind] in H; try discriminate.
  destruct (convert_units_attrs tol m0 aunits []) as [out0| | |] eqn:Eo; cbn [bind] in H; try discriminate.
  inversion H; subst. split; [reflexivity|].
  unfold ids_filtered in Em. unfold convert_filtered_tol.
  destruct (reserved filter_refs dbg req (map unit_of aunits)) as [offs| | |]; cbn [bind] in Em |- *; try discriminate.
  destruct (slices dbg (map unit_of aunits) offs) as [sl| | |]; cbn [bind] in Em |- *; try discriminate.
  inversion Em; subst. rewrite <- section_ids_keys with (j := 0).
  apply (convert_units_attrs_sim _ _ _ _ _ Eo).
Qed.

(* the tolerant loop never fails, and says what every DIE it emits carries *)

Definition tol_die (u : unitd) (m : idmap) (e : aentry) (c : cdie) : Prop :=
  cd_off c = sec u (ae_off e) /\
  cd_attrs c = cv_attributes_tol u m (snd (cu_filter_attributes (ae_attrs e))).

Lemma cua_entries_tol : forall u m rs st,
  exists st', cua_entries true u m st rs = Ok st' /\
    forall c, In c (snd st') -> In c (snd st) \/ exists r, In r rs /\ tol_die u m (ar_ent r) c.
Proof.
  intros u m rs. induction rs as [|r rs IH]; intros [ps out]; cbn [cua_entries]; [eauto|].
  (* the DIEs of the rest are those of the list *)
  assert (Hrest : forall st1, (forall c, In c (snd st1) -> In c out \/ tol_die u m (ar_ent r) c) ->
    exists st', cua_entries true u m st1 rs = Ok st' /\
      forall c, In c (snd st') -> In c out \/ exists r', In r' (r :: rs) /\ tol_die u m (ar_ent r') c).
  { intros st1 H1. destruct (IH st1) as [st' [Hrun Hd]]. exists st'. split; [exact Hrun|].
    intros c Hc. destruct (Hd c Hc) as [Hin|[r' [Hr' Ht]]]; [|right; exists r'; split; [now right|exact Ht]].
    destruct (H1 c Hin) as [|Ht]; [now left|right; exists r; split; [now left|exact Ht]]. }
  unfold cua_entry, cu_filter_attributes.
  destruct (im_get (sec u (ae_off (ar_ent r))) m) as [id|]; cbn [bind]; apply Hrest; cbn [snd]; [|now left].
  intros c Hc. apply in_app_iff in Hc. destruct Hc as [Hc|[<-|[]]]; [now left|right; split; reflexivity].
Qed.

Lemma convert_units_attrs_tol : forall m aunits out,
  exists out', convert_units_attrs true m aunits out = Ok out' /\
    forall c, In c out' ->
      In c out \/ exists au e, In au aunits /\ In e (aunit_entries au) /\ tol_die (unit_of au) m e c.
Proof.
  intros m aunits. induction aunits as [|au us IH]; intros out; cbn [convert_units_attrs]; [eauto|].
  match goal with |- context [cua_entries true ?u m ?st ?rs] =>
    destruct (cua_entries_tol u m rs st) as [st' [-> Hd1]] end.
  cbn [bind]. destruct (IH (snd st')) as [out' [Hrun Hd]]. exists out'. split; [exact Hrun|].
  intros c Hc. destruct (Hd c Hc) as [Hin|[au' [e [Hau' He]]]]; [|right; exists au', e; split; [now right|exact He]].
  destruct (Hd1 c Hin) as [Hin'|[r [Hr Ht]]]; [now left|].
  right. exists au, (ar_ent r). split; [now left|]. split; [|exact Ht].
  unfold aunit_entries. rewrite <- (aflatten_entries (au_kids au) 1). now apply in_map.
Qed.

(* on a well-formed forest it emits exactly the reserved set, under the parents of convert_filtered_tol *)
Lemma attrs_tolerant : forall (dbg : bool) (req : N -> bool) (aunits : list aunit),
  wf_offsets (map unit_of aunits) -> wf_layout (map unit_of aunits) ->
  exists S m out,
    reserved filter_refs dbg req (map unit_of aunits) = Ok S /\
    ids_filtered dbg req (map unit_of aunits) = Ok m /\
    convert_filtered_attrs true dbg req aunits = Ok (m, out) /\
    convert_filtered_tol filter_refs dbg req (map unit_of aunits) = Ok (map cd_pair out) /\
    (forall x, In x (map cd_off out) <-> In x S) /\
    forall c, In c out -> exists au e, In au aunits /\ In e (aunit_entries au) /\ tol_die (unit_of au) m e c.
Proof.
  intros dbg req aunits Hwf Hlay.
  destruct (reserved_agree dbg req aunits Hwf Hlay) as [S [m [HS [Hm _]]]].
  destruct (convert_units_attrs_tol m aunits []) as [out [Hout Hdies]].
  assert (H : convert_filtered_attrs true dbg req aunits = Ok (m, out)).
  { unfold convert_filtered_attrs. rewrite Hm. cbn [bind]. rewrite Hout. reflexivity. }
  destruct (convert_filtered_attrs_sim _ _ _ _ _ _ H) as [_ Hs].
  destruct (tolerant_conversion_ok filter_refs dbg req _ Hwf Hlay) as [S' [out' [HS' [Ht [Hin _]]]]].
  rewrite HS in HS'. inversion HS'; subst S'. rewrite Hs in Ht. inversion Ht; subst out'.
  exists S, m, out. repeat (split; [assumption|]). split.
  - intros x. rewrite <- Hin, map_map. reflexivity.
  - intros c Hc. destruct (Hdies c Hc) as [[]|Hd]. exact Hd.
Qed.

(* strict conversion: whenever the conversion of Model/Filter.v succeeds, the attribute-level conversion
   succeeds and emits the same DIEs under the same parents                                      *)

Lemma lookups_total : forall e m ys, (forall y, In y ys -> In y (map fst m)) -> exists l, lookups e m ys = Ok l.
Proof.
  intros e m ys. induction ys as [|y ys IH]; intros H; cbn [lookups]; [eauto|].
  destruct (im_get y m) as [id|] eqn:E.
  - destruct (IH (fun z Hz => H z (or_intror Hz))) as [l ->]. cbn. eauto.
  - apply im_get_none in E. destruct (E (H y (or_introl eq_refl))).
Qed.

Lemma conv_site_cv : forall u m s, conv_site u (map fst m) s = Ok tt -> exists l, cv_site u m s = Ok l.
Proof.
  intros u m s H. apply conv_site_ok in H. destruct H as [Hinb Hrefs]. rewrite cv_site_spec, Hinb.
  destruct (lookups_total (site_err s) m _ Hrefs) as [l ->]. cbn. eauto.
Qed.

Lemma conv_sites_app : forall u ids a b, conv_sites u ids (a ++ b) = Ok tt ->
  conv_sites u ids a = Ok tt /\ conv_sites u ids b = Ok tt.
Proof.
  intros u ids a b. rewrite !conv_sites_ok. intros H. split; intros s Hs; apply H, in_or_app; auto.
Qed.

Lemma conv_sites_cv : forall u m ss, conv_sites u (map fst m) ss = Ok tt -> exists l, cv_sites u m ss = Ok l.
Proof.
  intros u m ss. induction ss as [|s ss IH]; intros H; cbn [conv_sites cv_sites] in *; [eauto|].
  destruct (conv_site u (map fst m) s) as [[]| | |] eqn:E; cbn [bind] in H; try discriminate.
  destruct (conv_site_cv _ _ _ E) as [a ->]. destruct (IH H) as [b ->]. cbn. eauto.
Qed.

Lemma conv_sites_cv_attributes : forall u m l,
  conv_sites u (map fst m) (flat_map at_sites l) = Ok tt -> exists ca, cv_attributes u m l = Ok ca.
Proof.
  intros u m l. induction l as [|a l IH]; intros H; cbn [flat_map cv_attributes] in *; [eauto|].
  apply conv_sites_app in H. destruct H as [Ha Hl]. destruct (IH Hl) as [ca Hca].
  destruct (at_name a =? DW_AT_GNU_locviews); [eauto|].
  destruct (conv_sites_cv _ _ _ Ha) as [ids ->]. rewrite Hca. cbn. eauto.
Qed.

Lemma cu_entry_cua : forall u m ps out r ps' o',
  cu_entry u (map fst m) (ps, map cd_pair out) (raw_of r) = Ok (ps', o') ->
  exists out', cua_entry false u m (ps, out) r = Ok (ps', out') /\ map cd_pair out' = o'.
Proof.
  intros u m ps out r ps' o' H. unfold cu_entry in H. unfold cua_entry.
  cbn [raw_of r_ent r_depth r_kids e_off e_sites entry_of] in H. rewrite mem_n_keys in H.
  destruct (im_get (sec u (ae_off (ar_ent r))) m) as [id|].
  - unfold cu_filter_attributes, fu_filter_attributes in *.
    destruct (conv_sites u (map fst m) (flat_map at_sites (filter attr_kept (ae_attrs (ar_ent r))))) as [[]| | |] eqn:E;
      cbn [bind] in H; try discriminate.
    destruct (conv_sites_cv_attributes _ _ _ E) as [ca ->]. cbn [bind]. inversion H; subst.
    eexists. split; [reflexivity|]. rewrite map_app. reflexivity.
  - inversion H; subst. eauto.
Qed.

Lemma cu_entries_cua : forall u m rs ps out ps' o',
  cu_entries u (map fst m) (ps, map cd_pair out) (map raw_of rs) = Ok (ps', o') ->
  exists out', cua_entries false u m (ps, out) rs = Ok (ps', out') /\ map cd_pair out' = o'.
Proof.
  intros u m rs. induction rs as [|r rs IH]; intros ps out ps' o' H; cbn [map cu_entries cua_entries] in *.
  - inversion H; subst. eauto.
  - destruct (cu_entry u (map fst m) (ps, map cd_pair out) (raw_of r)) as [[ps1 o1]| | |] eqn:E; cbn [bind] in H; try discriminate.
    destruct (cu_entry_cua _ _ _ _ _ _ _ E) as [out1 [-> Ho1]]. cbn [bind]. subst o1. now apply IH.
Qed.

Lemma convert_units_cua : forall m aunits out o',
  convert_units (map fst m) (map unit_of aunits) (map cd_pair out) = Ok o' ->
  exists out', convert_units_attrs false m aunits out = Ok out' /\ map cd_pair out' = o'.
Proof.
  intros m aunits. induction aunits as [|au us IH]; intros out o' H; cbn [map convert_units convert_units_attrs] in *.
  - inversion H; subst. eauto.
  - replace (u_kids (unit_of au)) with (map tree_of (au_kids au)) in H by reflexivity.
    rewrite is_nil_map, <- aflatten_raw in H.
    destruct (cu_entries (unit_of au) (map fst m)
                (if is_nil (au_kids au) then [] else [(0%Z, root_off (unit_of au))], map cd_pair out)
                (map raw_of (aflatten_list 1 (au_kids au)))) as [[ps1 o1]| | |] eqn:E; cbn [bind snd] in H; try discriminate.
    destruct (cu_entries_cua _ _ _ _ _ _ _ E) as [out1 [-> Ho1]]. cbn [bind snd]. subst o1. now apply IH.
Qed.
