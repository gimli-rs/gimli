(* Proofs/SibOvSibProofs.v — next_sibling over units whose DW_AT_sibling values are overridden by values of
   the IGNORED class (Proofs/SibOvProofs.v, SibBadProofs.v). An overridden entry takes the scanning path
   (bad_sibling_ignored), an entry with the correct value may jump; both reach the state behind the subtree:
   the events below an entry are a `span` of Proofs/EventWalk.v (tail_ov_span). *)
From Coq Require Import List NArith ZArith Bool Lia ZifyBool ZifyN ZifyNat.
From Coq.Strings Require Import Byte.
Require Import GV.Base.Res GV.Base.Byt GV.Base.Ints GV.Model.Leb GV.Model.Prim
               GV.Spec.LebSpec GV.Spec.FormSpec GV.Model.Attr GV.Spec.Forest GV.Model.AbbrevRd
               GV.Model.DieRd GV.Proofs.AttrProofs GV.Proofs.AbbrevRdProofs GV.Proofs.DieRdProofs GV.Proofs.EventWalk
               GV.Proofs.SibOvProofs.
Import ListNotations.
Local Open Scope N_scope.

(* the sibling pointer of a well-formed entry *)
Lemma find_sibling e next : forall items s v,
  Forall (item_ok e) items ->
  find (fun p : aspec * attr_value => at_name (fst p) =? DW_AT_sibling) (map (item_val next) items) = Some (s, v) ->
  at_name s = DW_AT_sibling /\ v = VUnitRef next.
Proof.
  induction items as [|it items IH]; intros s v Hok H; [discriminate|]. inversion Hok as [|? ? Hit Hl]; subst.
  cbn [map find] in H. destruct it as [a|w]; cbn [item_val fst] in H.
  - destruct Hit as (u & (_ & _ & _ & Hn) & Hr). unfold resolve in Hr.
    destruct (enc_layout _ _ _); [|discriminate]. destruct (form_value _ _ _ _ _); [|discriminate].
    inversion Hr; subst a. cbn [a_spec at_name] in H.
    replace (u_name u =? DW_AT_sibling) with false in H by (symmetry; apply N.eqb_neq; exact Hn).
    apply IH; assumption.
  - cbn [sib_spec at_name] in H. rewrite N.eqb_refl in H. inversion H; subst. split; reflexivity.
Qed.

Lemma length_le_forest_size codes : forall ts, N.of_nat (length ts) <= forest_size codes ts.
Proof.
  unfold forest_size. induction ts as [|t ts IH]; [cbn; lia|]. cbn [length map sumN fold_right].
  pose proof (tree_size_pos codes t). fold (sumN (map (tree_size codes) ts)). lia.
Qed.

Section OvSib.
  Variables (codes : coding) (ov : N -> option N) (dbg : bool) (e : enc) (tbl : abbrevs) (E : N) (rest : list byte).

  (* the override of the entry at p is of the ignored class: backward or the entry itself, inside the
     entry's own bytes, or beyond the end E of the unit *)
  Definition ig (p : N * tree) : Prop :=
    match ov (fst p) with
    | Some w => w <= fst p \/ w < kids_off codes (fst p) (snd p) \/ E < w
    | None => True
    end.
  Definition pk (p : N * tree) : Prop := placed_ok_ov codes ov e tbl p /\ ig p.

  (* the pointer of a root entry: overridden and ignored, or the end of its subtree *)
  Lemma head_ov_jump d off t : node_ok codes e t -> ig (off, t) ->
    jump_at E (head_ev_ov codes ov (be e) d off t) (tail_ov codes ov (be e) d off t).
  Proof.
    intros [_ Hitems] Hig. unfold ig in Hig. cbn [fst snd] in Hig. pose proof (kids_off_ge codes off t) as Hk.
    assert (Hv : die_attr_value (root_die_ov codes ov off d t) DW_AT_sibling = None \/
                 die_attr_value (root_die_ov codes ov off d t) DW_AT_sibling =
                   Some (VUnitRef (sibv ov off (off + tree_size codes t)))).
    { unfold die_attr_value, root_die_ov. cbn [d_attrs].
      destruct (find _ _) as [[s v]|] eqn:F; [|left; reflexivity].
      apply (find_sibling e) in F; [|exact Hitems]. destruct F as [Hs ->]. rewrite Hs. right. reflexivity. }
    destruct Hv as [Hv|Hv]; [left; right; cbn [head_ev_ov x_die]; rewrite Hv; exact I|].
    unfold sibv in Hv. destruct (ov off) as [w|].
    - left. right. cbn [head_ev_ov x_die x_bytes root_die_ov d_offset]. fold (root_die_ov codes ov off d t).
      rewrite Hv, head_bytes_ov_len. replace (off + (kids_off codes off t - off)) with (kids_off codes off t) by lia.
      exact Hig.
    - right. exists (tail_ov codes ov (be e) d off t), []. split; [rewrite app_nil_r; reflexivity|].
      cbn [head_ev_ov x_die x_bytes x_post root_die_ov d_offset d_depth]. fold (root_die_ov codes ov off d t).
      split; [|apply tail_ov_end_depth].
      unfold die_sibling. rewrite Hv. cbn [root_die_ov d_offset].
      pose proof (tree_size_pos codes t). pose proof (tail_ov_bytes_len codes ov (be e) d off t).
      replace (off <? off + tree_size codes t) with true by lia. rewrite head_bytes_ov_len. f_equal. lia.
  Qed.

  Lemma evs_list_ov_jumps_of d : forall l off,
    Forall (fun t => forall d o, Forall pk (placed codes o t) -> jumps_ok E (evs_ov codes ov (be e) d o t)) l ->
    Forall pk (on_list (placed codes) (tree_size codes) off l) ->
    jumps_ok E (evs_list_ov codes ov (be e) d off l).
  Proof.
    unfold evs_list_ov. induction l as [|t l IH]; intros off H Hp; [exact I|]. inversion H; subst.
    rewrite on_list_cons in *. apply Forall_app in Hp. destruct Hp as [Hp1 Hp2].
    apply jumps_ok_app; auto.
  Qed.

  Lemma evs_ov_jumps : forall t d off, Forall pk (placed codes off t) -> jumps_ok E (evs_ov codes ov (be e) d off t).
  Proof.
    induction t as [tag flag items kids IH] using tree_ind'. intros d off Hp.
    set (t := Node tag flag items kids) in *.
    rewrite placed_unfold in Hp. inversion Hp as [|? ? ((_ & Hok & _) & Hig) Hk]; subst. cbn [snd] in *.
    change (t_kids t) with kids in Hk.
    rewrite evs_ov_tail. split; [apply head_ov_jump; assumption|].
    unfold tail_ov. change (t_kids t) with kids. destruct (has_children t); [|exact I].
    apply jumps_ok_app; [|split; [left; apply null_ev_ignored|exact I]].
    apply (evs_list_ov_jumps_of (d + 1) kids); assumption.
  Qed.

  Lemma evs_list_ov_jumps d l off :
    Forall pk (on_list (placed codes) (tree_size codes) off l) -> jumps_ok E (evs_list_ov codes ov (be e) d off l).
  Proof. apply evs_list_ov_jumps_of. apply Forall_forall. intros t _ d' o. apply evs_ov_jumps. Qed.

  (* the events below a root entry *)
  Lemma tail_ov_span d off t : Forall pk (placed codes off t) ->
    span E d (head_ev_ov codes ov (be e) d off t) (tail_ov codes ov (be e) d off t).
  Proof.
    intros Hp. pose proof (evs_ov_jumps t d off Hp) as Hj. rewrite evs_ov_tail in Hj. destruct Hj as [Hj Hjs].
    split; [exact Hj|]. split; [exact Hjs|]. split; [apply tail_ov_depth|apply tail_ov_end_depth].
  Qed.

  (* a cursor standing on the root entry of [t], its subtree and [after] still ahead *)
  Definition on_head (c : cursor) (D : Z) (off : N) (t : tree) (after : list xev) : Prop :=
    c_cur c = root_die_ov codes ov off D t /\
    behind dbg e tbl E rest (c_raw c) (head_ev_ov codes ov (be e) D off t) (tail_ov codes ov (be e) D off t ++ after).

  Lemma on_head_intro r D off t after :
    at_chain dbg e tbl E rest r (head_ev_ov codes ov (be e) D off t :: tail_ov codes ov (be e) D off t ++ after) ->
    on_head (mkCur (mkRaw (xbytes (tail_ov codes ov (be e) D off t ++ after) ++ rest) E (post_depth D t))
                   (root_die_ov codes ov off D t)) D off t after.
  Proof. intros Hat. split; [reflexivity|]. exact (behind_step dbg e tbl E rest r _ _ Hat). Qed.

  (* next_sibling from the root entry of [t]: the event after its subtree decides *)
  Lemma next_sibling_over c D off t m : (m = [] -> rest = []) ->
    on_head c D off t m -> Forall pk (placed codes off t) ->
    match m with
    | y :: l2 => next_sibling (cursor_fuel c) dbg e tbl c =
                 let c' := mkCur (mkRaw (xbytes l2 ++ rest) E (x_post y)) (x_die y) in Ok (SOk (current c') c')
    | [] => exists c', next_sibling (cursor_fuel c) dbg e tbl c = Ok (SOk None c')
    end.
  Proof.
    intros Hm [Hcur Hb] Hpt.
    destruct (placed_root codes _ _ t Hpt) as ((_ & Hn & _) & _).
    apply (next_sibling_skip dbg e tbl E rest c (head_ev_ov codes ov (be e) D off t) (tail_ov codes ov (be e) D off t) m Hm Hcur);
      [|exact Hb|exact (tail_ov_span D off t Hpt)].
    exact (root_die_ov_not_null codes ov e off D t Hn).
  Qed.

  Definition roots_ov (off : N) (d : Z) (f : list tree) : list die :=
    on_list (fun o t => [root_die_ov codes ov o d t]) (tree_size codes) off f.

  (* what ends a sibling list: the end of the input, or a null entry (and whatever follows it) *)
  Definition list_end (d : Z) (m : list xev) : Prop :=
    (m = [] /\ rest = []) \/ (exists o l', m = null_ev o d :: l').

  Lemma siblings_iter d m : list_end d m ->
    forall ts t off c1 fuel,
    on_head c1 d off t (evs_list_ov codes ov (be e) d (off + tree_size codes t) ts ++ m) ->
    Forall pk (on_list (placed codes) (tree_size codes) off (t :: ts)) ->
    (length ts < fuel)%nat ->
    siblings_all fuel dbg e tbl c1 = Ok (roots_ov (off + tree_size codes t) d ts, None).
  Proof.
    intros Hend. induction ts as [|t' ts IH]; intros t off c1 fuel Hon Hp Hf;
      (destruct fuel as [|fuel]; [lia|]); cbn [siblings_all];
      rewrite on_list_cons in Hp; apply Forall_app in Hp; destruct Hp as [Hpt Hpts].
    - unfold evs_list_ov in Hon. cbn [on_list app] in Hon.
      destruct Hend as [[-> Hr]|(o & l' & ->)].
      + destruct (next_sibling_over c1 d off t [] (fun _ => Hr) Hon Hpt) as (c' & Hs). rewrite Hs. reflexivity.
      + rewrite (next_sibling_over c1 d off t (null_ev o d :: l') ltac:(discriminate) Hon Hpt). reflexivity.
    - assert (Hn' : node_ok codes e t').
      { rewrite on_list_cons in Hpts. apply Forall_app in Hpts. destruct Hpts as [Hpt' _].
        destruct (placed_root codes _ _ t' Hpt') as ((_ & Hn' & _) & _). exact Hn'. }
      rewrite evs_list_ov_cons in Hon. cbn [app] in Hon. rewrite <- app_assoc in Hon.
      rewrite (next_sibling_over c1 d off t (_ :: _) ltac:(discriminate) Hon Hpt).
      cbv zeta. unfold current at 1. cbn [c_cur head_ev_ov x_die x_post].
      rewrite (root_die_ov_not_null codes ov e _ d t' Hn'). cbn [bind].
      destruct Hon as [_ (_ & Hat & _)]. apply at_chain_drop in Hat.
      rewrite (IH t' _ _ fuel (on_head_intro _ d _ t' _ Hat) Hpts ltac:(cbn in Hf; lia)).
      unfold roots_ov. rewrite on_list_cons. reflexivity.
  Qed.
End OvSib.

(* ------------------------------------------------------------------ *)
(** * The next_sibling walk over the top-level entries of a unit with ignored-class overrides *)
Section UnitOvSib.
  Variables (dbg bigend types : bool) (uoff : N) (h : uheader) (codes : coding) (ov : N -> option N)
            (t : tree) (f : list tree) (pad : nat) (tbl : abbrevs).
  Let e := unit_enc bigend h.
  Let hl := header_len h.
  Let body := enc_forest_ov codes ov bigend hl (t :: f) pad.
  Let hdr := parsed_header bigend types uoff h body.
  Hypothesis He : addr_size_ok e.
  Hypothesis Hlen : hl + nlen body < two63.
  Hypothesis Hcov : all_covered tbl codes (t :: f).
  Hypothesis Hok : forest_ok codes e (t :: f).
  Hypothesis Hfit : sibs_fit_ov codes ov hl (t :: f).
  Hypothesis Hig : Forall (ig codes ov (hl + nlen body)) (on_list (placed codes) (tree_size codes) hl (t :: f)).

  Lemma siblings_ov :
    exists c c1, entries dbg hdr = Ok c /\ next_entry dbg e tbl c = Ok (SOk true c1) /\
                 c_cur c1 = root_die_ov codes ov hl 0 t /\
                 siblings_all (cursor_fuel c1) dbg e tbl c1 = Ok (roots_ov codes ov (hl + tree_size codes t) 0 f, None).
  Proof.
    pose proof (placed_ok_ov_all codes ov e tbl hl (t :: f) Hcov Hok Hfit) as Hp0.
    pose proof (unit_at_chain_ov dbg bigend h codes ov (t :: f) pad tbl He Hlen Hp0) as Hat.
    fold e hl body in Hat. rewrite evs_list_ov_cons in Hat. cbn [app] in Hat. rewrite <- app_assoc in Hat.
    change bigend with (be e) in Hat.
    set (c := mkCur (mkRaw body (hl + nlen body) 0) null_die).
    change (mkRaw body (hl + nlen body) 0) with (c_raw c) in Hat.
    exists c. eexists. split; [apply entries_parsed; exact Hlen|].
    split; [apply (next_entry_chain _ _ _ _ _ _ _ _ Hat)|]. cbn [head_ev_ov x_die x_post c_cur].
    split; [reflexivity|].
    apply (siblings_iter codes ov dbg e tbl (hl + nlen body) [] 0%Z (pad_evs (hl + forest_size codes (t :: f)) 0 pad)).
    - destruct pad as [|p]; [left; split; reflexivity|right; cbn [pad_evs]; eexists; eexists; reflexivity].
    - exact (on_head_intro codes ov dbg e tbl _ [] _ 0%Z hl t _ Hat).
    - rewrite Forall_forall in *. intros p Hin. split; [apply Hp0|apply Hig]; exact Hin.
    - unfold cursor_fuel. cbn [c_raw r_in].
      destruct (evs_list_ov_facts codes ov (be e) 0 f (hl + tree_size codes t)) as (_ & L2 & _).
      pose proof (length_le_forest_size codes f) as Lf.
      rewrite !xbytes_app, !app_length. unfold nlen in *. lia.
  Qed.
End UnitOvSib.
