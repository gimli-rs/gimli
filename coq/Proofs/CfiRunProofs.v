(* Proofs/CfiRunProofs.v — the unwind table of Model/CfiRun.v (CallFrameInstruction::parse, UnwindContext,
   UnwindTable) against the call-frame machine of Spec/CfaSpec.v: properties C06 and C20 (context clause).
   The fuel-driven loops are first flattened to a recursion [run_mid] over the decoded items. The items are
   then run in lockstep with the specification under a relation [R] between table and machine state: the top
   row is the current entry, the rows below it the remembered states, and one more row lies at the bottom when
   the CIE left more than one initial rule. Storage limits appear on the specification's side as a guard on its
   own occupancy; where the guard never fires the table is that of the unlimited machine. *)
From Coq Require Import List NArith ZArith Bool Lia Permutation.
From Coq Require Import ZifyBool ZifyN ZifyNat.
From Coq.Strings Require Import Byte.
Require Import GV.Base.Res GV.Base.Byt GV.Base.Ints GV.Spec.LebSpec GV.Model.Leb GV.Model.Prim GV.Spec.CfaSpec GV.Model.CfiRun GV.Model.CfiRunSetLoc.
Require Import GV.Proofs.LebProofs GV.Proofs.PrimProofs.
Import ListNotations.
Local Open Scope N_scope.

(* a reader result is "tame": an error, or a value with a strictly shorter rest *)
Definition tame {A} (bs : list byte) (r : res (A * list byte)) : Prop :=
  match r with
  | Ok (_, rest) => (length rest < length bs)%nat
  | Err _ => True
  | Panic => False
  | OutOfFuel => False
  end.
(* same, allowing no consumption *)
Definition tame0 {A} (bs : list byte) (r : res (A * list byte)) : Prop :=
  match r with
  | Ok (_, rest) => (length rest <= length bs)%nat
  | Err _ => True
  | Panic => False
  | OutOfFuel => False
  end.

Lemma split_leb_shorter bs e r : split_leb bs = Some (e, r) -> (length r < length bs)%nat.
Proof.
  intros H. pose proof (split_leb_nonempty _ _ _ H). rewrite (split_leb_app _ _ _ H), app_length. lia.
Qed.

Lemma read_uleb128_tame dbg bs : tame bs (read_uleb128 dbg bs).
Proof.
  destruct (read_uleb128_total dbg bs) as (Hp & Hf).
  destruct (read_uleb128 dbg bs) as [[v r]|e| |] eqn:E; cbn [tame]; auto.
  destruct (read_uleb128_ok _ _ _ _ E) as (enc & Hs & _). exact (split_leb_shorter _ _ _ Hs).
Qed.

Lemma read_sleb128_tame dbg bs : tame bs (read_sleb128 dbg bs).
Proof.
  destruct (read_sleb128_total dbg bs) as (Hp & Hf).
  destruct (read_sleb128 dbg bs) as [[v r]|e| |] eqn:E; cbn [tame]; auto.
  destruct (read_sleb128_ok _ _ _ _ E) as (enc & Hs & _). exact (split_leb_shorter _ _ _ Hs).
Qed.

Lemma tame_weaken {A} bs (r : res (A * list byte)) : tame bs r -> tame0 bs r.
Proof. destruct r as [[? ?]| | |]; cbn; auto; lia. Qed.

Lemma tame_bind {A B} bs (r : res (A * list byte)) (k : A * list byte -> res (B * list byte)) :
  tame bs r ->
  (forall a rest, (length rest < length bs)%nat -> tame0 rest (k (a, rest))) ->
  tame bs (bind r k).
Proof.
  intros Hr Hk. destruct r as [[a rest]| | |]; cbn [bind tame] in *; auto.
  specialize (Hk a rest Hr). destruct (k (a, rest)) as [[? ?]| | |]; cbn [tame tame0] in *; auto. lia.
Qed.

Lemma tame0_bind {A B} bs (r : res (A * list byte)) (k : A * list byte -> res (B * list byte)) :
  tame0 bs r ->
  (forall a rest, (length rest <= length bs)%nat -> tame0 rest (k (a, rest))) ->
  tame0 bs (bind r k).
Proof.
  intros Hr Hk. destruct r as [[a rest]| | |]; cbn [bind tame0] in *; auto.
  specialize (Hk a rest Hr). destruct (k (a, rest)) as [[? ?]| | |]; cbn [tame0] in *; auto. lia.
Qed.

Lemma tame0_ok {A} bs (a : A) : tame0 bs (Ok (a, bs)).
Proof. cbn. lia. Qed.

Lemma read_u8_tame bs : tame bs (read_u8 bs).
Proof. destruct bs; cbn; auto. Qed.

Lemma read_un_tame n be bs : (0 < n)%nat -> tame bs (read_un n be bs).
Proof.
  intros Hn. rewrite read_un_exact. destruct (length bs <? n)%nat eqn:E; cbn [tame]; auto.
  rewrite skipn_length. lia.
Qed.

Lemma read_address_tame asize be bs : tame bs (read_address asize be bs).
Proof.
  rewrite read_address_exact. destruct (PrimSpec.size_ok asize) eqn:E; [|exact I].
  apply read_un_tame. apply size_ok_cases in E. lia.
Qed.

Lemma rd_reg_tame dbg bs : tame bs (rd_reg dbg bs).
Proof.
  unfold rd_reg. apply tame_bind; [apply read_uleb128_tame|].
  intros a rest _. unfold reg_from_u64. destruct (wrap16 a =? a); cbn; auto.
Qed.

Lemma rd_expr_tame dbg off all bs : tame bs (rd_expr dbg off all bs).
Proof.
  unfold rd_expr. apply tame_bind; [apply read_uleb128_tame|].
  intros a rest _. unfold skip_n.
  destruct (N.of_nat (length rest) <? a); cbn [bind tame0]; auto.
  rewrite skipn_length. lia.
Qed.

(* every opcode arm is a sequence of such readers *)
Create HintDb tame discriminated.
#[local] Hint Resolve tame0_ok tame0_bind tame_weaken read_uleb128_tame read_sleb128_tame rd_reg_tame rd_expr_tame
  read_u8_tame read_address_tame : tame.
#[local] Hint Extern 1 (tame _ (read_un _ _ _)) => apply read_un_tame; lia : tame.

Theorem parse_insn_tame dbg be asize aa off bs : tame bs (parse_insn dbg be asize aa off bs).
Proof.
  unfold parse_insn. apply tame_bind; [apply read_u8_tame|].
  intros op r _. cbv zeta.
  repeat match goal with
         | |- tame0 _ (if ?c then _ else _) => destruct c
         end;
    try exact I; unfold read_u16, read_u32; auto 7 with tame.
Qed.

(* the loop of next_row over decoded items *)
Fixpoint loop_items (c : caps) (t : tbl) (items : list item) : res (option row) * (tbl * list item) :=
  match items with
  | [] =>
      if t_returned_last t then (Ok None, (t, [])) else
      match with_top (set_end (t_last_end t)) (t_ctx t) with
      | Ok cx => (some_row cx, (with_flags true true (with_ctx cx t), []))
      | Err e => (Err e, (t, []))
      | Panic => (Panic, (t, []))
      | OutOfFuel => (OutOfFuel, (t, []))
      end
  | Bad e :: _ => (Err e, (t, []))
  | BadPanic :: _ => (Panic, (t, []))
  | BadFuel :: _ => (OutOfFuel, (t, []))
  | It i :: rest =>
      match evaluate c t i with
      | Ok (true, t1) =>
          let t2 := with_flags (t_returned_last t1) true t1 in
          (some_row (t_ctx t2), (t2, rest))
      | Ok (false, t1) => loop_items c t1 rest
      | Err e => (Err e, (t, rest))
      | Panic => (Panic, (t, rest))
      | OutOfFuel => (OutOfFuel, (t, rest))
      end
  end.

(* the prologue of next_row *)
Definition prologue (t : tbl) : option tbl :=
  match c_stack (t_ctx t) with
  | [] => None
  | r :: st =>
      Some (with_flags (t_returned_last t) false
              (with_ctx {| c_stack := set_start (t_next_start t) r :: st;
                           c_initial_rule := c_initial_rule (t_ctx t); c_init := c_init (t_ctx t) |} t))
  end.

(* everything `while let Some(row) = table.next_row()?` sees, and the context it leaves behind,
   by recursion on the items. [t] is the table after the prologue of the next_row call under way. *)
Fixpoint run_mid (c : caps) (t : tbl) (items : list item) : (list row * outcome) * ctx :=
  match items with
  | [] =>
      match with_top (set_end (t_last_end t)) (t_ctx t) with
      | Ok cx =>
          let t1 := with_flags true true (with_ctx cx t) in
          match top cx with
          | Ok r =>
              match prologue t1 with
              | Some t2 => (([r], Done), t_ctx t2)
              | None => (([r], Crash), t_ctx t1)
              end
          | Err e => (([], Fail e), cx) | Panic => (([], Crash), cx) | OutOfFuel => (([], Fuel), cx)
          end
      | Err e => (([], Fail e), t_ctx t) | Panic => (([], Crash), t_ctx t) | OutOfFuel => (([], Fuel), t_ctx t)
      end
  | Bad e :: _ => (([], Fail e), t_ctx t)
  | BadPanic :: _ => (([], Crash), t_ctx t)
  | BadFuel :: _ => (([], Fuel), t_ctx t)
  | It i :: rest =>
      match evaluate c t i with
      | Ok (true, t1) =>
          let t2 := with_flags (t_returned_last t1) true t1 in
          match top (t_ctx t2) with
          | Ok r =>
              match prologue t2 with
              | Some t3 => let '((rows, o), cx) := run_mid c t3 rest in ((r :: rows, o), cx)
              | None => (([r], Crash), t_ctx t2)
              end
          | Err e => (([], Fail e), t_ctx t2) | Panic => (([], Crash), t_ctx t2) | OutOfFuel => (([], Fuel), t_ctx t2)
          end
      | Ok (false, t1) => run_mid c t1 rest
      | Err e => (([], Fail e), t_ctx t)
      | Panic => (([], Crash), t_ctx t)
      | OutOfFuel => (([], Fuel), t_ctx t)
      end
  end.

Definition out_of (r : res (option row)) : outcome :=
  match r with Ok _ => Done | Err e => Fail e | Panic => Crash | OutOfFuel => Fuel end.

Lemma evaluate_flags c t i b t' :
  evaluate c t i = Ok (b, t') ->
  t_returned_last t' = t_returned_last t /\ t_last_end t' = t_last_end t /\
  t_caf t' = t_caf t /\ t_daf t' = t_daf t /\ t_asize t' = t_asize t.
Proof.
  unfold evaluate, t_set_rule, t_upd_top. intros H.
  repeat match type of H with
         | bind ?r _ = Ok _ => let E := fresh "E" in destruct r eqn:E; cbn [bind] in H; try discriminate
         | (match ?x with _ => _ end) = Ok _ => let E := fresh "E" in destruct x eqn:E; try discriminate
         | (if ?x then _ else _) = Ok _ => let E := fresh "E" in destruct x eqn:E; try discriminate
         | (let* _ := ?r in _) = Ok _ => let E := fresh "E" in destruct r eqn:E; cbn [bind] in H; try discriminate
         end;
    try (inversion H; subst; cbn; auto).
Qed.

Lemma prologue_flags t t0 :
  prologue t = Some t0 ->
  t_returned_last t0 = t_returned_last t /\ t_last_end t0 = t_last_end t /\
  t_caf t0 = t_caf t /\ t_daf t0 = t_daf t /\ t_asize t0 = t_asize t /\
  c_stack (t_ctx t0) <> [].
Proof.
  unfold prologue. destruct (c_stack (t_ctx t)); [discriminate|].
  intros H; inversion H; subst; cbn. repeat split; auto; discriminate.
Qed.

Lemma prologue_some t : c_stack (t_ctx t) <> [] -> exists t0, prologue t = Some t0.
Proof. unfold prologue. destruct (c_stack (t_ctx t)); [congruence|eauto]. Qed.

Lemma with_top_stack f cx cx' : with_top f cx = Ok cx' -> c_stack cx' <> [].
Proof.
  unfold with_top. destruct (c_stack cx); [discriminate|].
  intros H; inversion H; subst; cbn. discriminate.
Qed.

(* one call of the loop against run_mid: it ends with a row and items left, with the final row, or
   with the error run_mid ends with *)
Lemma loop_items_char c : forall items t,
  t_returned_last t = false ->
  match loop_items c t items with
  | (Ok (Some r), (t', items')) =>
      (t_returned_last t' = false /\ (length items' < length items)%nat /\
       run_mid c t items =
         match prologue t' with
         | Some t3 => let '((rows, o), cx) := run_mid c t3 items' in ((r :: rows, o), cx)
         | None => (([r], Crash), t_ctx t')
         end)
      \/ (t_returned_last t' = true /\ items' = [] /\ c_stack (t_ctx t') <> [] /\
          run_mid c t items =
            match prologue t' with
            | Some t2 => (([r], Done), t_ctx t2)
            | None => (([r], Crash), t_ctx t')
            end)
  | (Ok None, _) => False
  | (Err e, (t', _)) => run_mid c t items = (([], Fail e), t_ctx t')
  | (Panic, (t', _)) => run_mid c t items = (([], Crash), t_ctx t')
  | (OutOfFuel, (t', _)) => run_mid c t items = (([], Fuel), t_ctx t')
  end.
Proof.
  induction items as [|x items IH]; intros t Hr.
  - cbn [loop_items run_mid]. rewrite Hr.
    destruct (with_top (set_end (t_last_end t)) (t_ctx t)) as [cx|e| |] eqn:Ew; auto.
    unfold some_row. destruct (top cx) as [r|e| |] eqn:Et; auto.
    right. cbn [t_returned_last with_flags]. repeat split; auto.
    cbn. eapply with_top_stack; eauto.
  - destruct x as [i|e| |]; cbn [loop_items run_mid]; auto.
    destruct (evaluate c t i) as [[[|] t1]|e| |] eqn:Ev; auto.
    + apply evaluate_flags in Ev. destruct Ev as (Ev1 & _).
      unfold some_row. cbn [t_ctx with_flags].
      destruct (top (t_ctx t1)) as [r|e| |] eqn:Et; auto.
      left. cbn [t_returned_last with_flags length]. repeat split; [congruence|lia].
    + pose proof Ev as Ev'. apply evaluate_flags in Ev'. destruct Ev' as (Ev1 & _).
      specialize (IH t1 ltac:(congruence)).
      destruct (loop_items c t1 items) as [[[r|]|e| |] [t' items']]; auto.
      destruct IH as [(H1 & H2 & H3)|(H1 & H2 & H3 & H4)]; [left|right]; repeat split; auto.
      cbn [length]. lia.
Qed.

(* The loops are written once over the parser [P] of the instruction iterator (Model/CfiRunSetLoc.v);
   all they need of it is that it consumes input and never panics. *)
Section Flatten.
Variable P : N -> list byte -> res (insn * list byte).
Hypothesis P_tame : forall off bs, tame bs (P off bs).
Variable c : caps.

Definition dec_with (it : cfi_iter) : list item := decode_fuel_g P (S (length (it_bytes it))) it.

Lemma iter_next_g_cases it :
  match iter_next_g P it with
  | (Ok None, it') => it_bytes it = [] /\ it' = it
  | (Ok (Some _), it') => (length (it_bytes it') < length (it_bytes it))%nat
  | (Err _, it') => it_bytes it' = [] /\ it_bytes it <> []
  | (Panic, _) => False
  | (OutOfFuel, _) => False
  end.
Proof.
  unfold iter_next_g. destruct (it_bytes it) as [|b bs] eqn:E; [auto|].
  pose proof (P_tame (it_off it) (b :: bs)) as H.
  destruct (P (it_off it) (b :: bs)) as [[i rest]|e| |]; cbn [tame] in H; cbn [it_bytes]; auto.
  split; [reflexivity|discriminate].
Qed.

Lemma decode_fuel_g_enough : forall f1 f2 it,
  (length (it_bytes it) < f1)%nat -> (length (it_bytes it) < f2)%nat ->
  decode_fuel_g P f1 it = decode_fuel_g P f2 it.
Proof.
  induction f1 as [|f1 IH]; intros f2 it H1 H2; [lia|].
  destruct f2 as [|f2]; [lia|]. cbn [decode_fuel_g].
  pose proof (iter_next_g_cases it) as Hc.
  destruct (iter_next_g P it) as [[[i|]|e| |] it']; try reflexivity.
  f_equal. apply IH; lia.
Qed.

Lemma dec_with_unfold it :
  dec_with it = match iter_next_g P it with
                | (Ok None, _) => []
                | (Ok (Some i), it') => It i :: dec_with it'
                | (Err e, _) => [Bad e]
                | (Panic, _) => [BadPanic]
                | (OutOfFuel, _) => [BadFuel]
                end.
Proof.
  unfold dec_with at 1. cbn [decode_fuel_g].
  pose proof (iter_next_g_cases it) as Hc.
  destruct (iter_next_g P it) as [[[i|]|e| |] it']; try reflexivity.
  f_equal. apply decode_fuel_g_enough; lia.
Qed.

Lemma dec_with_empty it : it_bytes it = [] -> dec_with it = [].
Proof. intros H. rewrite dec_with_unfold. unfold iter_next_g. rewrite H. reflexivity. Qed.

Lemma dec_with_length it : (length (dec_with it) <= length (it_bytes it))%nat.
Proof.
  remember (length (it_bytes it)) as n eqn:En. revert it En.
  induction n as [n IH] using lt_wf_ind. intros it En.
  rewrite dec_with_unfold. pose proof (iter_next_g_cases it) as Hc.
  destruct (iter_next_g P it) as [[[i|]|e| |] it']; cbn [length]; try lia.
  - specialize (IH (length (it_bytes it')) ltac:(lia) it' eq_refl). lia.
  - destruct Hc as [_ Hne]. destruct (it_bytes it); [congruence|cbn [length] in En; lia].
Qed.

(* a stream never decodes to a panic, and the fuel of the decoder suffices *)
Lemma dec_with_clean : forall n it, (length (it_bytes it) <= n)%nat ->
  Forall (fun x => x <> BadPanic /\ x <> BadFuel) (dec_with it).
Proof.
  induction n as [|n IH]; intros it Hn; rewrite dec_with_unfold;
    pose proof (iter_next_g_cases it) as Hc;
    destruct (iter_next_g P it) as [[[i|]|e| |] it']; try contradiction;
    try (constructor; [split; discriminate|]); try constructor.
  - lia.
  - apply IH. lia.
Qed.

(* next_row_loop_g = loop_items on the decoded stream; the iterator left behind decodes to the
   items left behind (irrelevant after Panic/OutOfFuel, which never come from the iterator) *)
Lemma next_row_loop_g_eq : forall fuel t it,
  (length (it_bytes it) < fuel)%nat ->
  exists it',
    next_row_loop_g P fuel c t it =
      (fst (loop_items c t (dec_with it)), (fst (snd (loop_items c t (dec_with it))), it')) /\
    dec_with it' = snd (snd (loop_items c t (dec_with it))) /\
    (length (it_bytes it') <= length (it_bytes it))%nat.
Proof.
  induction fuel as [|fuel IH]; intros t it Hf; [lia|].
  cbn [next_row_loop_g]. rewrite (dec_with_unfold it).
  pose proof (iter_next_g_cases it) as Hc.
  destruct (iter_next_g P it) as [[[i|]|e| |] it'] eqn:En; try contradiction.
  - (* instruction *)
    cbn [loop_items].
    destruct (evaluate c t i) as [[[|] t1]|e| |] eqn:Ev; cbn [fst snd].
    2: { destruct (IH t1 it' ltac:(lia)) as (it2 & H1 & H2 & H3). exists it2. repeat split; auto; lia. }
    all: exists it'; repeat split; auto; lia.
  - (* end of input *)
    destruct Hc as [Hb ->]. cbn [loop_items].
    destruct (t_returned_last t).
    + exists it. cbn [fst snd]. repeat split; auto. apply dec_with_empty; auto.
    + destruct (with_top (set_end (t_last_end t)) (t_ctx t)) as [cx|e| |]; cbn [fst snd];
        exists it; repeat split; auto; apply dec_with_empty; auto.
  - (* decode error *)
    destruct Hc as [Hb _]. cbn [loop_items fst snd]. exists it'. repeat split; auto.
    + apply dec_with_empty; auto.
    + rewrite Hb. cbn [length]. lia.
Qed.

Lemma next_row_g_eq t it :
  exists it',
    next_row_g P c t it =
      match prologue t with
      | None => (Panic, (t, it))
      | Some t0 => (fst (loop_items c t0 (dec_with it)), (fst (snd (loop_items c t0 (dec_with it))), it'))
      end /\
    (forall t0, prologue t = Some t0 -> dec_with it' = snd (snd (loop_items c t0 (dec_with it)))) /\
    (length (it_bytes it') <= length (it_bytes it))%nat.
Proof.
  unfold next_row_g, prologue, with_top.
  destruct (c_stack (t_ctx t)) as [|r st] eqn:Es.
  - exists it. repeat split; auto. discriminate.
  - match goal with |- context [next_row_loop_g _ _ _ ?t0 _] => set (T0 := t0) end.
    destruct (next_row_loop_g_eq (S (length (it_bytes it))) T0 it ltac:(lia)) as (it' & H1 & H2 & H3).
    exists it'. repeat split; auto. intros t0 H. inversion H; subst. exact H2.
Qed.

Lemma collect_g_after_last fuel t it :
  t_returned_last t = true -> dec_with it = [] -> (1 <= fuel)%nat ->
  collect_g P fuel c t it =
    match prologue t with
    | Some t0 => (([], Done), t_ctx t0)
    | None => (([], Crash), t_ctx t)
    end.
Proof.
  intros Hr Hd Hf. destruct fuel as [|f]; [lia|]. cbn [collect_g].
  destruct (next_row_g_eq t it) as (it' & H1 & _ & _). rewrite H1.
  destruct (prologue t) as [t0|] eqn:Hp; [|reflexivity].
  apply prologue_flags in Hp. destruct Hp as (Hp & _).
  rewrite Hd. cbn [loop_items]. rewrite Hp, Hr. reflexivity.
Qed.

(* the whole `while let Some(row) = table.next_row()?` loop is run_mid on the decoded stream *)
Lemma collect_g_run_mid : forall n t it fuel,
  (length (dec_with it) <= n)%nat -> (n + 2 <= fuel)%nat -> t_returned_last t = false ->
  collect_g P fuel c t it =
    match prologue t with
    | None => (([], Crash), t_ctx t)
    | Some t0 => run_mid c t0 (dec_with it)
    end.
Proof.
  induction n as [n IH] using lt_wf_ind; intros t it fuel Hn Hf Hr.
  destruct fuel as [|f]; [lia|]. cbn [collect_g].
  destruct (next_row_g_eq t it) as (it' & H1 & H2 & H3). rewrite H1.
  destruct (prologue t) as [t0|] eqn:Hp; [|reflexivity].
  specialize (H2 t0 eq_refl). pose proof (prologue_flags _ _ Hp) as (Hp1 & _).
  pose proof (loop_items_char c (dec_with it) t0 ltac:(congruence)) as Hc.
  destruct (loop_items c t0 (dec_with it)) as [[[r|]|e| |] [t' items']]; cbn [fst snd] in *;
    try contradiction; try (rewrite Hc; reflexivity).
  destruct Hc as [(Hc1 & Hc2 & Hc3)|(Hc1 & Hc2 & Hc3 & Hc4)].
  - (* a row, and items left: the rest of the loop runs on fewer items *)
    rewrite (IH (length items') ltac:(lia) t' it' f ltac:(rewrite H2; lia) ltac:(lia) Hc1).
    rewrite Hc3, <- H2. destruct (prologue t') as [t3|]; [|reflexivity].
    destruct (run_mid c t3 (dec_with it')) as [[rows o] cx]. reflexivity.
  - (* the final row *)
    rewrite (collect_g_after_last f t' it' Hc1 ltac:(congruence) ltac:(lia)).
    rewrite Hc4. destruct (prologue t'); reflexivity.
Qed.
End Flatten.

(* CfiRun's own loops are the generic ones at CallFrameInstruction::parse *)
Section Agree.
Variable dbg : bool.
Variable d : dparams.
Variable P : N -> list byte -> res (insn * list byte).
Hypothesis HP : forall off bs, P off bs = parse_insn dbg (d_be d) (d_asize d) (d_aarch64 d) off bs.

Lemma iter_next_g_old it : iter_next_g P it = iter_next dbg d it.
Proof. unfold iter_next_g, iter_next. rewrite HP. reflexivity. Qed.

Lemma decode_fuel_g_old : forall fuel it, decode_fuel_g P fuel it = decode_fuel fuel dbg d it.
Proof.
  induction fuel as [|f IH]; intros it; [reflexivity|]. cbn [decode_fuel_g decode_fuel].
  rewrite iter_next_g_old. destruct (iter_next dbg d it) as [[[i|]|e| |] it']; try reflexivity.
  rewrite IH. reflexivity.
Qed.

Lemma next_row_loop_g_old : forall fuel c t it, next_row_loop_g P fuel c t it = next_row_loop fuel dbg c d t it.
Proof.
  induction fuel as [|f IH]; intros c t it; [reflexivity|]. cbn [next_row_loop_g next_row_loop].
  rewrite iter_next_g_old. destruct (iter_next dbg d it) as [[[i|]|e| |] it']; try reflexivity.
  destruct (evaluate c t i) as [[[|] t1]|e| |]; try reflexivity. apply IH.
Qed.

Lemma next_row_g_old c t it : next_row_g P c t it = next_row dbg c d t it.
Proof.
  unfold next_row_g, next_row. destruct (c_stack (t_ctx t)); [reflexivity|].
  destruct (with_top _ _); try reflexivity. apply next_row_loop_g_old.
Qed.

Lemma collect_g_old : forall fuel c t it, collect_g P fuel c t it = collect fuel None dbg c d t it.
Proof.
  induction fuel as [|f IH]; intros c t it; [reflexivity|]. cbn [collect_g collect].
  rewrite next_row_g_old. destruct (next_row dbg c d t it) as [[[r|]|e| |] [t' it']]; try reflexivity.
  rewrite IH. reflexivity.
Qed.
End Agree.

Definition insn_parser (dbg : bool) (d : dparams) : N -> list byte -> res (insn * list byte) :=
  parse_insn dbg (d_be d) (d_asize d) (d_aarch64 d).

Lemma insn_parser_tame dbg d off bs : tame bs (insn_parser dbg d off bs).
Proof. apply parse_insn_tame. Qed.

Definition dec (dbg : bool) (d : dparams) (it : cfi_iter) : list item :=
  decode_fuel (S (length (it_bytes it))) dbg d it.

Lemma dec_is_dec_with dbg d it : dec dbg d it = dec_with (insn_parser dbg d) it.
Proof. symmetry. apply decode_fuel_g_old. reflexivity. Qed.

Lemma dec_unfold dbg d it :
  dec dbg d it = match iter_next dbg d it with
                 | (Ok None, _) => []
                 | (Ok (Some i), it') => It i :: dec dbg d it'
                 | (Err e, _) => [Bad e]
                 | (Panic, _) => [BadPanic]
                 | (OutOfFuel, _) => [BadFuel]
                 end.
Proof.
  rewrite dec_is_dec_with.
  rewrite (dec_with_unfold (insn_parser dbg d) (insn_parser_tame dbg d) it).
  rewrite (iter_next_g_old dbg d (insn_parser dbg d) (fun _ _ => eq_refl)).
  destruct (iter_next dbg d it) as [[[i|]|e| |] it']; try reflexivity. rewrite dec_is_dec_with. reflexivity.
Qed.

(* drain is collect with the rows thrown away *)
Lemma drain_collect dbg c d : forall fuel t it,
  match fst (collect fuel None dbg c d t it) with
  | (_, Done) => exists t', drain fuel dbg c d t it = Ok t' /\ t_ctx t' = snd (collect fuel None dbg c d t it)
  | (_, Fail e) => drain fuel dbg c d t it = Err e
  | (_, Crash) => drain fuel dbg c d t it = Panic
  | (_, Fuel) => drain fuel dbg c d t it = OutOfFuel
  end.
Proof.
  induction fuel as [|fuel IH]; intros t it; cbn [collect drain fst snd]; auto.
  destruct (next_row dbg c d t it) as [[[r|]|e| |] [t' it']]; cbn [fst snd]; eauto.
  specialize (IH t' it').
  destruct (collect fuel None dbg c d t' it') as [[rows o] cx]. cbn [fst snd] in *. exact IH.
Qed.

Definition keys (m : rmap) : list reg := map fst m.
Definition nodup (m : rmap) : Prop := NoDup (keys m).
Definition same_map (a b : rmap) : Prop := forall r, lookup r a = lookup r b.

Lemma lookup_none_iff r m : lookup r m = None <-> ~ In r (keys m).
Proof.
  induction m as [|[r' x] m IH]; cbn [lookup keys map fst In]; [tauto|].
  destruct (N.eqb_spec r' r) as [->|Hne].
  - split; [discriminate|]. intros H. exfalso. apply H. auto.
  - rewrite IH. unfold keys. tauto.
Qed.

Lemma lookup_some_in r m x : lookup r m = Some x -> In r (keys m).
Proof.
  intros H. destruct (in_dec N.eq_dec r (keys m)) as [Hi|Hn]; auto.
  apply lookup_none_iff in Hn. congruence.
Qed.

Lemma same_map_refl a : same_map a a. Proof. intros r; reflexivity. Qed.
Lemma same_map_sym a b : same_map a b -> same_map b a. Proof. intros H r; symmetry; apply H. Qed.
Lemma same_map_trans a b c : same_map a b -> same_map b c -> same_map a c.
Proof. intros H1 H2 r. rewrite H1. apply H2. Qed.

Lemma same_map_length a b : nodup a -> nodup b -> same_map a b -> length a = length b.
Proof.
  intros Ha Hb Hs.
  assert (Hincl : forall a b, same_map a b -> incl (keys a) (keys b)).
  { intros a0 b0 H r Hr. destruct (lookup r a0) eqn:E.
    - rewrite H in E. eapply lookup_some_in; eauto.
    - apply lookup_none_iff in E. contradiction. }
  pose proof (NoDup_incl_length Ha (Hincl a b Hs)) as H1.
  pose proof (NoDup_incl_length Hb (Hincl b a (same_map_sym _ _ Hs))) as H2.
  unfold keys in H1, H2. rewrite !map_length in H1, H2. lia.
Qed.

Lemma keys_remove_notin r m : ~ In r (keys (remove r m)).
Proof.
  induction m as [|[r' x] m IH]; cbn [remove filter keys map fst]; [tauto|].
  destruct (N.eqb_spec r' r) as [->|Hne]; cbn [negb]; [exact IH|].
  cbn [keys map fst In]. intros [H|H]; [congruence|]. apply IH. exact H.
Qed.

Lemma keys_remove_incl r m : incl (keys (remove r m)) (keys m).
Proof.
  induction m as [|[r' x] m IH]; cbn [remove filter keys map fst]; [apply incl_refl|].
  destruct (negb (r' =? r)); cbn [map fst].
  - apply incl_cons; [left; reflexivity|]. apply incl_tl. exact IH.
  - apply incl_tl. exact IH.
Qed.

Lemma nodup_remove r m : nodup m -> nodup (remove r m).
Proof.
  unfold nodup. induction m as [|[r' x] m IH]; cbn [remove filter keys map fst]; auto.
  intros H. inversion H as [|? ? Hn Hd]; subst.
  destruct (negb (r' =? r)); cbn [map fst]; [|apply IH; exact Hd].
  constructor; [|apply IH; exact Hd].
  intros Hi. apply Hn. apply (keys_remove_incl r m). exact Hi.
Qed.

Lemma lookup_remove r r' m : lookup r' (remove r m) = if r =? r' then None else lookup r' m.
Proof.
  unfold remove. induction m as [|[k x] m IH]; cbn [filter lookup fst].
  - destruct (r =? r'); reflexivity.
  - destruct (N.eqb_spec k r) as [->|Hne]; cbn [negb lookup].
    + rewrite IH. destruct (N.eqb_spec r r'); reflexivity.
    + rewrite IH. destruct (N.eqb_spec k r') as [->|Hk]; [|reflexivity].
      destruct (N.eqb_spec r r'); [congruence|reflexivity].
Qed.

Lemma lookup_update r o r' m :
  lookup r' (update r o m) = if r =? r' then o else lookup r' m.
Proof.
  destruct o as [x|]; cbn [update].
  - change (lookup r' ((r, x) :: remove r m)) with (if r =? r' then Some x else lookup r' (remove r m)).
    rewrite lookup_remove. destruct (r =? r'); reflexivity.
  - apply lookup_remove.
Qed.

Lemma nodup_update r o m : nodup m -> nodup (update r o m).
Proof.
  intros H. destruct o as [x|]; cbn [update]; [|apply nodup_remove; exact H].
  unfold nodup. cbn [keys map fst]. constructor; [apply keys_remove_notin|].
  apply nodup_remove. exact H.
Qed.

Lemma remove_absent r m : lookup r m = None -> remove r m = m.
Proof.
  induction m as [|[k x] m IH]; cbn [remove filter lookup fst]; auto.
  destruct (N.eqb_spec k r) as [->|Hne]; [discriminate|]. cbn [negb]. intros H. f_equal. apply IH. exact H.
Qed.

Lemma rm_replace_none r x m : rm_replace r x m = None <-> lookup r m = None.
Proof.
  induction m as [|[k y] m IH]; cbn [rm_replace lookup]; [tauto|].
  destruct (k =? r); [split; discriminate|].
  destruct (rm_replace r x m); [split; [discriminate|]|tauto].
  intros H. apply IH in H. discriminate.
Qed.

Lemma rm_replace_some r x m m' :
  rm_replace r x m = Some m' ->
  keys m' = keys m /\ (forall r', lookup r' m' = if r =? r' then Some x else lookup r' m) /\
  lookup r m <> None.
Proof.
  revert m'. induction m as [|[k y] m IH]; intros m' H; cbn [rm_replace] in H; [discriminate|].
  destruct (N.eqb_spec k r) as [->|Hne].
  - inversion H; subst. cbn [keys map fst lookup]. rewrite N.eqb_refl. repeat split; [|discriminate].
    intros r'. destruct (r =? r'); reflexivity.
  - destruct (rm_replace r x m) as [t'|] eqn:E; [|discriminate]. inversion H; subst.
    destruct (IH t' eq_refl) as (K & L & N0). cbn [keys map fst lookup].
    repeat split.
    + f_equal. exact K.
    + intros r'. rewrite L. destruct (N.eqb_spec k r') as [->|Hk]; [|reflexivity].
      destruct (N.eqb_spec r r'); [congruence|reflexivity].
    + destruct (k =? r) eqn:Ek; [apply N.eqb_eq in Ek; congruence|exact N0].
Qed.

Lemma lookup_app r m m2 :
  lookup r (m ++ m2) = match lookup r m with Some x => Some x | None => lookup r m2 end.
Proof.
  induction m as [|[k y] m IH]; cbn [app lookup]; [reflexivity|].
  destruct (k =? r); [reflexivity|exact IH].
Qed.

Lemma keys_app m m2 : keys (m ++ m2) = keys m ++ keys m2.
Proof. unfold keys. apply map_app. Qed.

(* lookups do not depend on the order when registers are unique *)
Lemma lookup_perm a b : nodup a -> Permutation a b -> same_map a b.
Proof.
  intros Ha Hp. induction Hp as [|[k x] l l' Hp IH|[k1 x1] [k2 x2] l|l l' l'' Hp1 IH1 Hp2 IH2].
  - apply same_map_refl.
  - intros r. cbn [lookup]. destruct (k =? r); [reflexivity|].
    apply IH. unfold nodup in *. cbn [keys map fst] in Ha. inversion Ha; auto.
  - intros r. cbn [lookup].
    destruct (N.eqb_spec k2 r) as [->|H2]; destruct (N.eqb_spec k1 r) as [->|H1]; try reflexivity.
    unfold nodup in Ha. cbn [keys map fst] in Ha. inversion Ha as [|? ? Hn _]; subst.
    exfalso. apply Hn. left. reflexivity.
  - eapply same_map_trans; [apply IH1; exact Ha|].
    apply IH2. unfold nodup, keys in *. eapply Permutation_NoDup; [|exact Ha].
    apply Permutation_map. exact Hp1.
Qed.

Lemma rm_clear_perm r m : nodup m -> Permutation (rm_clear r m) (remove r m).
Proof.
  induction m as [|[k y] m IH]; intros Hn; cbn [rm_clear remove filter fst]; [constructor|].
  unfold nodup in Hn. cbn [keys map fst] in Hn. inversion Hn as [|? ? Hk Hd]; subst.
  destruct (N.eqb_spec k r) as [->|Hne]; cbn [negb].
  - (* first (and only) match: the last element moves into its slot *)
    fold (remove r m). rewrite (remove_absent r m) by (apply lookup_none_iff; exact Hk).
    destruct (rev m) as [|z rt] eqn:Er.
    + apply (f_equal (@rev _)) in Er. rewrite rev_involutive in Er. subst. constructor.
    + apply (f_equal (@rev _)) in Er. rewrite rev_involutive in Er. cbn [rev] in Er. subst m.
      apply Permutation_cons_append.
  - fold (remove r m). constructor. apply IH. exact Hd.
Qed.

Lemma rm_clear_spec r m sm :
  nodup m -> same_map m sm ->
  same_map (rm_clear r m) (remove r sm) /\ nodup (rm_clear r m).
Proof.
  intros Hn Hs. pose proof (rm_clear_perm r m Hn) as Hp. split.
  - intros r'. rewrite <- (lookup_perm _ _ (nodup_remove r m Hn) (Permutation_sym Hp) r').
    rewrite !lookup_remove, Hs. reflexivity.
  - unfold nodup, keys. eapply Permutation_NoDup; [apply Permutation_map, Permutation_sym, Hp|].
    apply nodup_remove. exact Hn.
Qed.

Lemma rm_set_spec cap r x m sm :
  nodup m -> nodup sm -> same_map m sm ->
  match rm_set cap r x m with
  | Ok m' => same_map m' (update r (Some x) sm) /\ nodup m' /\
             (length m' = length m \/ (cap_full cap (length m) = false /\ length m' = S (length m)))
  | Err e => e = ETooManyRegisterRules /\ cap_full cap (length m) = true /\
             length (update r (Some x) sm) = S (length m)
  | Panic => False
  | OutOfFuel => False
  end.
Proof.
  intros Hn Hsn Hs. unfold rm_set.
  destruct (rm_replace r x m) as [m'|] eqn:E.
  - destruct (rm_replace_some _ _ _ _ E) as (K & L & _). repeat split.
    + intros r'. rewrite L, lookup_update, Hs. reflexivity.
    + unfold nodup. rewrite K. exact Hn.
    + left. apply (f_equal (@length _)) in K. unfold keys in K. rewrite !map_length in K. exact K.
  - apply rm_replace_none in E.
    destruct (cap_full cap (length m)) eqn:Ef.
    + repeat split. cbn [update length]. rewrite remove_absent by (rewrite <- Hs; exact E).
      f_equal. symmetry. apply same_map_length; auto.
    + repeat split.
      * intros r'. rewrite lookup_app, lookup_update, <- Hs. cbn [lookup].
        destruct (N.eqb_spec r r') as [->|Hne]; [rewrite E; reflexivity|].
        destruct (lookup r' m); reflexivity.
      * unfold nodup. rewrite keys_app. cbn [keys map fst].
        apply NoDup_snoc; [exact Hn|]. apply lookup_none_iff. exact E.
      * right. split; [reflexivity|]. rewrite app_length. cbn [length]. lia.
Qed.

Lemma pow64_N : Z.of_N (2 ^ 64) = 18446744073709551616%Z. Proof. reflexivity. Qed.

Lemma to_i64_mod (x : N) :
  (to_i64 x mod 18446744073709551616 = Z.of_N x mod 18446744073709551616)%Z.
Proof.
  unfold to_i64, to_signed, wrapN.
  assert (Hm : Z.of_N (x mod 2 ^ 64) = (Z.of_N x mod 18446744073709551616)%Z).
  { rewrite N2Z.inj_mod. rewrite pow64_N. reflexivity. }
  destruct (x mod 2 ^ 64 <? 2 ^ (64 - 1)).
  - rewrite Hm. apply Z.mod_mod. lia.
  - rewrite Hm, pow64_N.
    replace (Z.of_N x mod 18446744073709551616 - 18446744073709551616)%Z
      with (Z.of_N x mod 18446744073709551616 + (-1) * 18446744073709551616)%Z by lia.
    rewrite Z_mod_plus_full. apply Z.mod_mod. lia.
Qed.

Lemma wrap_signed_cong (a b : Z) :
  (a mod 18446744073709551616 = b mod 18446744073709551616)%Z -> wrap_signed 64 a = wrap_signed 64 b.
Proof. intros H. unfold wrap_signed, of_signed. rewrite pow64_N, H. reflexivity. Qed.

Lemma wmul_to_i64 (fo : N) (daf : Z) : wmul_i64 (to_i64 fo) daf = wrap_i64 (Z.of_N fo * daf).
Proof.
  unfold wmul_i64, wrap_i64. apply wrap_signed_cong.
  rewrite <- (Z.mul_mod_idemp_l (to_i64 fo)) by lia.
  rewrite <- (Z.mul_mod_idemp_l (Z.of_N fo)) by lia.
  rewrite to_i64_mod. reflexivity.
Qed.

Lemma to_i64_wrap (off : N) : to_i64 off = wrap_i64 (Z.of_N off).
Proof.
  unfold wrap_i64, wrap_signed, of_signed, to_i64, to_signed, wrapN.
  rewrite <- N2Z.inj_mod, N2Z.id. rewrite N.mod_mod by discriminate. reflexivity.
Qed.

Lemma valid_asize_cases a : valid_asize a = true -> a = 1 \/ a = 2 \/ a = 4 \/ a = 8.
Proof. unfold valid_asize. lia. Qed.

Lemma add_sized_spec a len size :
  valid_asize size = true ->
  add_sized a len size =
    if 2 ^ (8 * size) <=? a + len then Err EAddressOverflow else Ok (a + len).
Proof.
  intros Hv. rewrite (add_sized_exact a len size Hv). pose proof (pow2_pos (8 * size)).
  destruct (a + len <=? 2 ^ (8 * size) - 1) eqn:E1; destruct (2 ^ (8 * size) <=? a + len) eqn:E2;
    try reflexivity; lia.
Qed.

Lemma end_address_spec f :
  valid_asize (f_asize f) = true ->
  end_address f = spec_end (f_asize f) (f_init f) (f_range f).
Proof. apply wrapping_add_sized_exact. Qed.

Lemma cap_full_over cap n : cap_full cap n = over cap (S n).
Proof. destruct cap as [k|]; cbn [cap_full over]; reflexivity. Qed.

Lemma over_mono cap n n' : (n' <= n)%nat -> over cap n = false -> over cap n' = false.
Proof. destruct cap as [k|]; cbn [over]; [|reflexivity]. lia. Qed.

Lemma remove_length r m : (length (remove r m) <= length m)%nat.
Proof.
  unfold remove, rmap, reg in *. induction m as [|a m IH]; [cbn; lia|].
  simpl. destruct (negb (fst a =? r)); simpl; lia.
Qed.

Lemma top_eq cx tp l : c_stack cx = tp :: l -> top cx = Ok tp.
Proof. unfold top. intros ->. reflexivity. Qed.

Lemma with_top_eq f cx tp l :
  c_stack cx = tp :: l ->
  with_top f cx = Ok {| c_stack := f tp :: l; c_initial_rule := c_initial_rule cx; c_init := c_init cx |}.
Proof. unfold with_top. intros ->. reflexivity. Qed.

Section Sim.
Variable c : caps.
Variable p : sparams.

Definition row_equiv (r : row) (sr : srow) : Prop :=
  r_start r = sr_start sr /\ r_end r = sr_end sr /\ r_cfa r = sr_cfa sr /\ r_args r = sr_args sr /\
  (forall g, rm_get g (r_regs r) = lookup g (sr_rules sr)).

(* a model row carries a remembered (or the current) spec entry *)
Definition entry_rel (r : row) (e : cfa_rule * rmap * N) : Prop :=
  r_cfa r = fst (fst e) /\ r_args r = snd e /\ same_map (r_regs r) (snd (fst e)) /\
  nodup (r_regs r) /\ nodup (snd (fst e)) /\ over (max_rules c) (length (snd (fst e))) = false.

(* how the context stores the CIE's initial rules *)
Definition bottom_rel (ini : option rmap) (cx : ctx) (bottom : list row) : Prop :=
  match ini with
  | None => c_init cx = false /\ c_initial_rule cx = None /\ bottom = []
  | Some m =>
      c_init cx = true /\ nodup m /\
      match c_initial_rule cx with
      | Some None => m = [] /\ bottom = []
      | Some (Some (r, x)) => same_map m [(r, x)] /\ length m = 1%nat /\ bottom = []
      | None => exists b, bottom = [b] /\ same_map (r_regs b) m /\ (2 <= length m)%nat
      end
  end.

Definition Rcore (ini : option rmap) (t : tbl) (s : sstate) (tp : row) (rest bottom : list row) : Prop :=
  t_caf t = sp_caf p /\ t_daf t = sp_daf p /\ t_asize t = sp_asize p /\ valid_asize (sp_asize p) = true /\
  c_stack (t_ctx t) = tp :: rest ++ bottom /\
  entry_rel tp (s_cfa s, s_rules s, s_args s) /\
  Forall2 entry_rel rest (s_stack s) /\
  bottom_rel ini (t_ctx t) bottom /\
  guard c ini s = Ok tt.

(* the relation while a row is being built: the top row starts at the spec location *)
Definition R (ini : option rmap) (t : tbl) (s : sstate) : Prop :=
  exists tp rest bottom, Rcore ini t s tp rest bottom /\ r_start tp = s_loc s.
(* ... and right after a row was completed: the next row will start at the spec location *)
Definition Rdone (ini : option rmap) (t : tbl) (s : sstate) : Prop :=
  exists tp rest bottom, Rcore ini t s tp rest bottom /\ t_next_start t = s_loc s.

Lemma guard_ok_iff ini s :
  guard c ini s = Ok tt <->
  over (max_stack c) (stack_occ ini s) = false /\ over (max_rules c) (rules_occ s) = false.
Proof.
  unfold guard. destruct (over (max_stack c) (stack_occ ini s)); [split; [discriminate|intros [? _]; discriminate]|].
  destruct (over (max_rules c) (rules_occ s)); [split; [discriminate|intros [_ ?]; discriminate]|].
  tauto.
Qed.

Lemma bottom_len ini cx bottom :
  bottom_rel ini cx bottom ->
  length bottom = match ini with Some m => if Nat.leb 2 (length m) then 1%nat else 0%nat | None => 0%nat end /\
  (length bottom = 1%nat <-> (c_init cx = true /\ c_initial_rule cx = None)).
Proof.
  unfold bottom_rel. destruct ini as [m|].
  - intros (Hi & Hn & H). destruct (c_initial_rule cx) as [[[r x]|]|].
    + destruct H as (_ & Hl & ->). rewrite Hl. cbn. split; [reflexivity|]. split; [discriminate|intros [_ ?]; discriminate].
    + destruct H as (-> & ->). cbn. split; [reflexivity|]. split; [discriminate|intros [_ ?]; discriminate].
    + destruct H as (b & -> & _ & Hl). cbn [length].
      destruct (Nat.leb 2 (length m)) eqn:E; [|apply Nat.leb_gt in E; lia]. tauto.
  - intros (Hi & Hr & ->). cbn. split; [reflexivity|]. split; [discriminate|]. rewrite Hi. intros [? _]; discriminate.
Qed.

Lemma stack_len ini t s tp rest bottom :
  Rcore ini t s tp rest bottom -> length (c_stack (t_ctx t)) = stack_occ ini s.
Proof.
  intros (_ & _ & _ & _ & Hst & _ & Hrest & Hbot & _).
  rewrite Hst. cbn [length]. rewrite app_length.
  apply Forall2_length in Hrest. apply bottom_len in Hbot. destruct Hbot as (Hb & _).
  unfold stack_occ. rewrite Hrest, Hb. lia.
Qed.

(* a table with the same parameters whose context differs only in the rows above [bottom] *)
Lemma Rcore_set ini t s tp rest bottom t' s' tp' rest' :
  Rcore ini t s tp rest bottom ->
  t_caf t' = t_caf t -> t_daf t' = t_daf t -> t_asize t' = t_asize t ->
  c_stack (t_ctx t') = tp' :: rest' ++ bottom ->
  c_initial_rule (t_ctx t') = c_initial_rule (t_ctx t) -> c_init (t_ctx t') = c_init (t_ctx t) ->
  entry_rel tp' (s_cfa s', s_rules s', s_args s') -> Forall2 entry_rel rest' (s_stack s') ->
  guard c ini s' = Ok tt ->
  Rcore ini t' s' tp' rest' bottom.
Proof.
  intros (H1 & H2 & H3 & H4 & _ & _ & _ & Hbot & _) E1 E2 E3 Hst Er Ei He Hrest Hg.
  unfold Rcore. rewrite E1, E2, E3.
  refine (conj H1 (conj H2 (conj H3 (conj H4 (conj Hst (conj He (conj Hrest (conj _ Hg)))))))).
  unfold bottom_rel in *. rewrite Er, Ei. exact Hbot.
Qed.

Lemma entry_rel_set_start a r e : entry_rel r e -> entry_rel (set_start a r) e.
Proof. unfold entry_rel. cbn. tauto. Qed.
Lemma entry_rel_set_end a r e : entry_rel r e -> entry_rel (set_end a r) e.
Proof. unfold entry_rel. cbn. tauto. Qed.

Lemma guard_same_occ ini s s' :
  s_stack s' = s_stack s -> length (s_rules s') = length (s_rules s) -> guard c ini s' = guard c ini s.
Proof. intros H1 H2. unfold guard, stack_occ, rules_occ. rewrite H1, H2. reflexivity. Qed.

(* what one instruction does on both sides: no row yet, a completed row, or the same error *)
Definition step_rel (ini : option rmap) (rm : res (bool * tbl)) (rs : res (sstate * option srow)) : Prop :=
  match rm, rs with
  | Ok (false, t'), Ok (s', None) => R ini t' s'
  | Ok (true, t'), Ok (s', Some sr) =>
      Rdone ini t' s' /\ exists tp', top (t_ctx t') = Ok tp' /\ row_equiv tp' sr
  | Err e, Err e' => e = e'
  | _, _ => False
  end.

(* instructions that only touch cfa / args of the current row *)
Lemma sim_upd_top ini t s (f : row -> row) (s' : sstate) :
  R ini t s ->
  (forall r, r_start (f r) = r_start r /\ r_regs (f r) = r_regs r) ->
  (forall r, r_cfa r = s_cfa s -> r_args r = s_args s -> r_cfa (f r) = s_cfa s' /\ r_args (f r) = s_args s') ->
  s_loc s' = s_loc s -> s_rules s' = s_rules s -> s_stack s' = s_stack s ->
  step_rel ini (t_upd_top f t) (let* _ := guard c ini s' in Ok (s', None)).
Proof.
  intros (tp & rest & bottom & HR & Hl) Hf1 Hf2 El Er Es.
  pose proof HR as (_ & _ & _ & _ & Hst & (E1 & E2 & E3 & E4 & E5 & E6) & Hrest & _ & Hg).
  destruct (Hf1 tp) as (F1 & F2). destruct (Hf2 tp E1 E2) as (F3 & F4).
  assert (Hg' : guard c ini s' = Ok tt).
  { rewrite (guard_same_occ ini s s'); auto. rewrite Er. reflexivity. }
  unfold t_upd_top. rewrite (with_top_eq f _ _ _ Hst), Hg'. cbn [bind step_rel].
  exists (f tp), rest, bottom. split; [|rewrite F1, El; exact Hl].
  apply (Rcore_set ini t s tp rest bottom _ _ _ _ HR); try reflexivity; [|rewrite Es; exact Hrest|exact Hg'].
  unfold entry_rel. cbn [fst snd] in *. rewrite F2, Er. repeat split; auto.
Qed.

Lemma sim_cfa ini t s cf :
  R ini t s ->
  step_rel ini (t_upd_top (set_cfa cf) t) (let* _ := guard c ini (with_cfa cf s) in Ok (with_cfa cf s, None)).
Proof. intros HR. apply (sim_upd_top ini t s); auto; intros r; cbn; auto. Qed.

Lemma sim_args ini t s n :
  R ini t s ->
  step_rel ini (t_upd_top (set_args n) t) (let* _ := guard c ini (with_args n s) in Ok (with_args n s, None)).
Proof. intros HR. apply (sim_upd_top ini t s); auto; intros r; cbn; auto. Qed.

Lemma sim_set_rule ini t s r x :
  R ini t s ->
  step_rel ini (t_set_rule c r x t) (let* _ := guard c ini (set_rule r x s) in Ok (set_rule r x s, None)).
Proof.
  intros (tp & rest & bottom & HR & Hl).
  pose proof HR as (_ & _ & _ & _ & Hst & (E1 & E2 & E3 & E4 & E5 & E6) & Hrest & _ & Hg).
  cbn [fst snd] in *.
  unfold t_set_rule, set_register_rule. rewrite (top_eq _ _ _ Hst). cbn [bind].
  pose proof (rm_set_spec (max_rules c) r x (r_regs tp) (s_rules s) E4 E5 E3) as Hs.
  apply guard_ok_iff in Hg. destruct Hg as (Hg1 & Hg2).
  assert (Hlen : length (r_regs tp) = length (s_rules s)) by (apply same_map_length; auto).
  destruct (rm_set (max_rules c) r x (r_regs tp)) as [m'|e| |]; cbn [bind]; try contradiction.
  - destruct Hs as (S1 & S2 & S3).
    rewrite (with_top_eq (set_regs m') _ _ _ Hst). cbn [bind].
    assert (Hn' : nodup (update r (Some x) (s_rules s))) by (apply nodup_update; exact E5).
    assert (Hlen' : length m' = length (update r (Some x) (s_rules s))) by (apply same_map_length; auto).
    assert (Ho : over (max_rules c) (length (update r (Some x) (s_rules s))) = false).
    { rewrite <- Hlen'. destruct S3 as [S3|(S3 & S4)].
      - rewrite S3, Hlen. exact Hg2.
      - rewrite S4, <- cap_full_over. exact S3. }
    assert (Hg' : guard c ini (set_rule r x s) = Ok tt).
    { apply guard_ok_iff. split; [exact Hg1|exact Ho]. }
    rewrite Hg'. cbn [bind step_rel].
    exists (set_regs m' tp), rest, bottom. split; [|exact Hl].
    apply (Rcore_set ini t s tp rest bottom _ _ _ _ HR); try reflexivity; [|exact Hrest|exact Hg'].
    unfold entry_rel. cbn [fst snd set_rule with_rules s_cfa s_rules s_args set_regs r_cfa r_args r_regs].
    repeat split; auto.
  - destruct Hs as (-> & S2 & S3).
    unfold guard.
    change (stack_occ ini (set_rule r x s)) with (stack_occ ini s). rewrite Hg1.
    change (rules_occ (set_rule r x s)) with (length (update r (Some x) (s_rules s))).
    rewrite S3, <- cap_full_over, S2. reflexivity.
Qed.

Lemma sim_clear ini t s r :
  R ini t s ->
  step_rel ini (let* cx := clear_register_rule r (t_ctx t) in Ok (false, with_ctx cx t))
    (let* _ := guard c ini (with_rules (remove r (s_rules s)) s) in Ok (with_rules (remove r (s_rules s)) s, None)).
Proof.
  intros (tp & rest & bottom & HR & Hl).
  pose proof HR as (_ & _ & _ & _ & Hst & (E1 & E2 & E3 & E4 & E5 & E6) & Hrest & _ & Hg).
  cbn [fst snd] in *.
  unfold clear_register_rule. rewrite (top_eq _ _ _ Hst). cbn [bind].
  rewrite (with_top_eq _ _ _ _ Hst). cbn [bind].
  destruct (rm_clear_spec r (r_regs tp) (s_rules s) E4 E3) as (C1 & C2).
  apply guard_ok_iff in Hg. destruct Hg as (Hg1 & Hg2).
  assert (Hg' : guard c ini (with_rules (remove r (s_rules s)) s) = Ok tt).
  { apply guard_ok_iff. split; [exact Hg1|]. eapply over_mono; [apply remove_length|exact Hg2]. }
  rewrite Hg'. cbn [bind step_rel].
  exists (set_regs (rm_clear r (r_regs tp)) tp), rest, bottom. split; [|exact Hl].
  apply (Rcore_set ini t s tp rest bottom _ _ _ _ HR); try reflexivity; [|exact Hrest|exact Hg'].
  unfold entry_rel. cbn [fst snd with_rules s_cfa s_rules s_args set_regs r_cfa r_args r_regs].
  apply guard_ok_iff in Hg'. repeat split; auto; [apply nodup_remove; exact E5|apply Hg'].
Qed.

Lemma last_opt_app {A} (l : list A) (b : A) : last_opt (l ++ [b]) = Some b.
Proof.
  induction l as [|a l IH]; [reflexivity|]. cbn [app].
  destruct (l ++ [b]) eqn:E; [destruct l; discriminate|]. cbn [last_opt]. exact IH.
Qed.

Lemma sim_get_initial ini t s r :
  R ini t s ->
  get_initial_rule (t_ctx t) r =
    Ok (match ini with None => None | Some m => Some (lookup r m) end).
Proof.
  intros (tp & rest & bottom & HR & Hl).
  pose proof HR as (_ & _ & _ & _ & Hst & _ & _ & Hb & _).
  unfold get_initial_rule. unfold bottom_rel in Hb. destruct ini as [m|].
  - destruct Hb as (Hi & Hn & Hb). rewrite Hi. cbn [negb].
    destruct (c_initial_rule (t_ctx t)) as [[[r' x]|]|].
    + destruct Hb as (Hm & _ & _). rewrite (Hm r). cbn [lookup].
      destruct (r' =? r); reflexivity.
    + destruct Hb as (-> & _). reflexivity.
    + destruct Hb as (b & -> & Hm & _). rewrite Hst.
      change (tp :: rest ++ [b]) with ((tp :: rest) ++ [b]). rewrite last_opt_app.
      unfold rm_get. rewrite (Hm r). reflexivity.
  - destruct Hb as (Hi & _ & _). rewrite Hi. reflexivity.
Qed.

Lemma sim_push ini t s :
  R ini t s ->
  let s' := {| s_loc := s_loc s; s_cfa := s_cfa s; s_rules := s_rules s; s_args := s_args s;
               s_stack := (s_cfa s, s_rules s, s_args s) :: s_stack s |} in
  step_rel ini (let* cx := push_row c (t_ctx t) in Ok (false, with_ctx cx t))
    (let* _ := guard c ini s' in Ok (s', None)).
Proof.
  intros (tp & rest & bottom & HR & Hl) s'.
  pose proof (stack_len _ _ _ _ _ _ HR) as Hlen.
  pose proof HR as (_ & _ & _ & _ & Hst & Htop & Hrest & _ & Hg).
  unfold push_row. rewrite (top_eq _ _ _ Hst). cbn [bind].
  apply guard_ok_iff in Hg. destruct Hg as (Hg1 & Hg2).
  assert (Hocc : stack_occ ini s' = S (stack_occ ini s)) by (unfold stack_occ, s'; cbn [s_stack length]; lia).
  unfold guard at 1. rewrite Hocc, <- cap_full_over, <- Hlen.
  destruct (cap_full (max_stack c) (length (c_stack (t_ctx t)))) eqn:Ef; [reflexivity|].
  change (rules_occ s') with (rules_occ s). rewrite Hg2. cbn [bind step_rel].
  exists tp, (tp :: rest), bottom. split; [|exact Hl].
  apply (Rcore_set ini t s tp rest bottom _ _ _ _ HR); try reflexivity.
  - cbn [t_ctx with_ctx with_stack c_stack]. rewrite Hst. reflexivity.
  - exact Htop.
  - constructor; [exact Htop|exact Hrest].
  - apply guard_ok_iff. rewrite Hocc, <- cap_full_over, <- Hlen. split; [exact Ef|exact Hg2].
Qed.

Lemma sim_pop ini t s :
  R ini t s ->
  match pop_row (t_ctx t), s_stack s with
  | Err e, [] => e = EPopWithEmptyStack
  | Ok cx, (cf, m, a) :: st =>
      forall start, start = s_loc s ->
        let s' := {| s_loc := s_loc s; s_cfa := cf; s_rules := m; s_args := a; s_stack := st |} in
        step_rel ini (let* cx2 := with_top (set_start start) cx in Ok (false, with_ctx cx2 t))
          (let* _ := guard c ini s' in Ok (s', None))
  | _, _ => False
  end.
Proof.
  intros (tp & rest & bottom & HR & Hl).
  pose proof HR as (_ & _ & _ & _ & Hst & _ & Hrest & Hb & Hg).
  destruct (bottom_len _ _ _ Hb) as (Hb1 & Hb2).
  unfold pop_row. rewrite Hst. cbn [length]. rewrite app_length.
  assert (Hmin : (if c_init (t_ctx t) && match c_initial_rule (t_ctx t) with None => true | Some _ => false end
                  then 2%nat else 1%nat) = S (length bottom)).
  { assert (Hb01 : length bottom = 0%nat \/ length bottom = 1%nat).
    { rewrite Hb1. destruct ini as [mm|]; [destruct (Nat.leb 2 (length mm))|]; auto. }
    destruct Hb01 as [Hb0|Hb0].
    - rewrite Hb0.
      destruct (c_init (t_ctx t)) eqn:Ei; destruct (c_initial_rule (t_ctx t)) as [o|] eqn:Er; cbn [andb]; auto.
      exfalso. assert (length bottom = 1%nat) by (apply Hb2; auto). lia.
    - rewrite Hb0. apply Hb2 in Hb0. destruct Hb0 as [Ei Er]. rewrite Ei, Er. reflexivity. }
  rewrite Hmin.
  destruct (s_stack s) as [|[[cf m] a] st] eqn:Es;
    [inversion Hrest; subst | inversion Hrest as [|e ? rest' ? He Hrest']; subst].
  - cbn [length app]. rewrite Nat.leb_refl. reflexivity.
  - cbn [length].
    match goal with |- context [Nat.leb ?x ?y] => destruct (Nat.leb x y) eqn:El end;
      [apply Nat.leb_le in El; lia|].
    cbn [app]. intros start ->.
    set (s' := {| s_loc := s_loc s; s_cfa := cf; s_rules := m; s_args := a; s_stack := st |}).
    unfold with_top. cbn [with_stack c_stack bind].
    apply guard_ok_iff in Hg. destruct Hg as (Hg1 & Hg2).
    pose proof He as (_ & _ & _ & _ & _ & E6). cbn [fst snd] in E6.
    assert (Hg' : guard c ini s' = Ok tt).
    { apply guard_ok_iff. split; [|exact E6].
      eapply over_mono; [|exact Hg1]. unfold stack_occ, s'. rewrite Es. cbn [s_stack length]. lia. }
    rewrite Hg'. cbn [bind step_rel].
    exists (set_start (s_loc s) e), rest', bottom. split; [|reflexivity].
    apply (Rcore_set ini t s tp (e :: rest') bottom _ _ _ _ HR); try reflexivity;
      [apply entry_rel_set_start; exact He|exact Hrest'|exact Hg'].
Qed.

Lemma sim_row ini t s a :
  R ini t s ->
  exists cx, with_top (set_end a) (t_ctx t) = Ok cx /\
    guard c ini (with_loc a s) = Ok tt /\
    Rdone ini (with_ctx cx (with_next_start a t)) (with_loc a s) /\
    exists tp', top cx = Ok tp' /\ row_equiv tp' (row_of s a).
Proof.
  intros (tp & rest & bottom & HR & Hl).
  pose proof HR as (_ & _ & _ & _ & Hst & Htop & Hrest & _ & Hg).
  rewrite (with_top_eq _ _ _ _ Hst). eexists. split; [reflexivity|].
  assert (Hg' : guard c ini (with_loc a s) = Ok tt) by exact Hg.
  split; [exact Hg'|]. split.
  - exists (set_end a tp), rest, bottom. split; [|reflexivity].
    apply (Rcore_set ini t s tp rest bottom _ _ _ _ HR); try reflexivity;
      [apply entry_rel_set_end; exact Htop|exact Hrest|exact Hg'].
  - exists (set_end a tp). split; [reflexivity|].
    destruct Htop as (E1 & E2 & E3 & _). cbn [fst snd] in *.
    unfold row_equiv, row_of. cbn. repeat split; auto.
Qed.

(* what the relation says of the table, without its witnesses *)
Lemma R_inv ini t s :
  R ini t s ->
  guard c ini s = Ok tt /\
  (t_caf t = sp_caf p /\ t_daf t = sp_daf p /\ t_asize t = sp_asize p /\ valid_asize (sp_asize p) = true) /\
  exists tp, top (t_ctx t) = Ok tp /\ r_start tp = s_loc s /\ r_cfa tp = s_cfa s /\
             same_map (r_regs tp) (s_rules s).
Proof.
  intros (tp & rest & bottom & (H1 & H2 & H3 & H4 & Hst & (E1 & _ & E3 & _) & _ & _ & Hg) & Hl).
  split; [exact Hg|]. split; [auto|].
  exists tp. repeat split; auto. eapply top_eq; eauto.
Qed.

Theorem step_sim ini t s i :
  R ini t s -> step_rel ini (evaluate c t i) (step_lim c p ini s i).
Proof.
  intros HR.
  destruct (R_inv _ _ _ HR) as (Hg & (Pc & Pd & Pa & Pv) & tp & Htp & Tl & Tc & Tm).
  pose proof (sim_cfa ini t s) as Hcfa. pose proof (sim_set_rule ini t s) as Hset.
  destruct i; unfold step_lim; cbn [spec_step bind evaluate].
  - (* ISetLoc *)
    rewrite Htp. cbn [bind]. rewrite Tl.
    destruct (a <? s_loc s); [reflexivity|].
    destruct (sim_row ini t s a HR) as (cx & E & Hg' & Hd & Hrow).
    cbn [bind t_ctx with_next_start]. rewrite E, Hg'. cbn [bind step_rel]. split; [exact Hd|].
    cbn [t_ctx with_ctx]. exact Hrow.
  - (* IAdvanceLoc *)
    rewrite Htp. cbn [bind]. rewrite Tl, Pc, Pa, (add_sized_spec _ _ _ Pv).
    destruct (2 ^ (8 * sp_asize p) <=? s_loc s + wrap64 (d * sp_caf p)); [reflexivity|].
    destruct (sim_row ini t s (s_loc s + wrap64 (d * sp_caf p)) HR) as (cx & E & Hg' & Hd & Hrow).
    cbn [bind t_ctx with_next_start]. rewrite E, Hg'. cbn [bind step_rel]. split; [exact Hd|].
    cbn [t_ctx with_ctx]. exact Hrow.
  - (* IDefCfa *) rewrite to_i64_wrap. apply Hcfa, HR.
  - (* IDefCfaSf *) unfold factored, wrap_i64. rewrite <- Pd. apply Hcfa, HR.
  - (* IDefCfaRegister *)
    rewrite Htp. cbn [bind]. rewrite Tc. destruct (s_cfa s); [apply Hcfa, HR|reflexivity].
  - (* IDefCfaOffset *)
    rewrite Htp. cbn [bind]. rewrite Tc. destruct (s_cfa s); [|reflexivity].
    rewrite to_i64_wrap. apply Hcfa, HR.
  - (* IDefCfaOffsetSf *)
    rewrite Htp. cbn [bind]. rewrite Tc. destruct (s_cfa s); [|reflexivity].
    unfold factored, wrap_i64. rewrite <- Pd. apply Hcfa, HR.
  - (* IDefCfaExpression *) apply Hcfa, HR.
  - (* IUndefined *) apply Hset, HR.
  - (* ISameValue *) apply Hset, HR.
  - (* IOffset *) rewrite wmul_to_i64, Pd. apply Hset, HR.
  - (* IOffsetExtendedSf *) unfold factored, wrap_i64. rewrite <- Pd. apply Hset, HR.
  - (* IValOffset *) rewrite wmul_to_i64, Pd. apply Hset, HR.
  - (* IValOffsetSf *) unfold factored, wrap_i64. rewrite <- Pd. apply Hset, HR.
  - (* IRegister *) apply Hset, HR.
  - (* IExpression *) apply Hset, HR.
  - (* IValExpression *) apply Hset, HR.
  - (* IRestore *)
    rewrite (sim_get_initial ini t s r HR). cbn [bind].
    destruct ini as [m|]; [|reflexivity].
    destruct (lookup r m) as [x|] eqn:El; cbn [update]; [apply Hset, HR|apply sim_clear, HR].
  - (* IRememberState *) apply sim_push, HR.
  - (* IRestoreState *)
    rewrite Htp. cbn [bind].
    pose proof (sim_pop ini t s HR) as H.
    destruct (pop_row (t_ctx t)) as [cx|e| |]; destruct (s_stack s) as [|[[cf m] a] st];
      cbn [bind step_rel]; try contradiction; [apply H, Tl|exact H].
  - (* IArgsSize *) apply sim_args, HR.
  - (* INegateRaState *)
    rewrite Htp. cbn [bind]. unfold rm_get. rewrite (Tm RA_SIGN_STATE).
    destruct (lookup RA_SIGN_STATE (s_rules s)) as [[]|]; try reflexivity; apply Hset, HR.
  - (* INop *) rewrite Hg. cbn [bind step_rel]. exact HR.
Qed.
End Sim.

Section RunSim.
Variable c : caps.
Variable p : sparams.

Lemma Rdone_prologue ini t s a b :
  Rdone c p ini t s ->
  exists t3, prologue (with_flags a b t) = Some t3 /\ R c p ini t3 s /\ t_last_end t3 = t_last_end t.
Proof.
  intros (tp & rest & bottom & HR & Hn).
  pose proof HR as (_ & _ & _ & _ & Hst & Htop & Hrest & _ & Hg).
  unfold prologue. cbn [t_ctx with_flags]. rewrite Hst.
  eexists. split; [reflexivity|]. split; [|reflexivity].
  exists (set_start (t_next_start t) tp), rest, bottom. split; [|cbn; exact Hn].
  apply (Rcore_set c p ini t s tp rest bottom _ _ _ _ HR); try reflexivity;
    [apply entry_rel_set_start; exact Htop|exact Hrest|exact Hg].
Qed.

Lemma run_sim ini end_addr : forall items t s,
  R c p ini t s -> t_last_end t = end_addr ->
  match run_mid c t items, spec_run c p ini end_addr s items with
  | ((rows, o), cx), (srows, (so, sfin)) =>
      Forall2 row_equiv rows srows /\ o = so /\
      (o = Done -> exists tf tp rest bottom, t_ctx tf = cx /\ Rcore c p ini tf sfin tp rest bottom)
  end.
Proof.
  induction items as [|x items IH]; intros t s HR He.
  - (* end of the stream: the final row *)
    cbn [run_mid spec_run].
    destruct HR as (tp & rest & bottom & HR & Hl).
    pose proof HR as (_ & _ & _ & _ & Hst & Htop & Hrest & _ & Hg).
    rewrite (with_top_eq _ _ _ _ Hst). unfold top at 1. cbn [c_stack].
    unfold prologue. cbn [t_ctx with_flags with_ctx c_stack c_init c_initial_rule t_next_start t_returned_last].
    split; [|split; [reflexivity|]].
    + constructor; [|constructor].
      destruct Htop as (E1 & E2 & E3 & _). cbn [fst snd] in *.
      unfold row_equiv, row_of. cbn. rewrite He. repeat split; auto.
    + intros _.
      match goal with |- exists tf _ _ _, t_ctx tf = ?cx /\ _ => exists (with_ctx cx t) end.
      exists (set_start (t_next_start t) (set_end (t_last_end t) tp)), rest, bottom.
      split; [reflexivity|].
      apply (Rcore_set c p ini t s tp rest bottom _ _ _ _ HR); try reflexivity;
        [apply entry_rel_set_start, entry_rel_set_end; exact Htop|exact Hrest|exact Hg].
  - destruct x as [i|e| |]; cbn [run_mid spec_run];
      try (split; [constructor|split; [reflexivity|discriminate]]).
    pose proof (step_sim c p ini t s i HR) as Hs.
    destruct (evaluate c t i) as [[[|] t1]|e| |] eqn:Ev;
      destruct (step_lim c p ini s i) as [[s' [sr|]]|e'| |]; cbn [step_rel] in Hs; try contradiction.
    + (* a row was completed *)
      destruct Hs as (Hd & tp' & Htp & Hrow).
      cbn [t_ctx with_flags]. rewrite Htp.
      apply evaluate_flags in Ev. destruct Ev as (_ & Ev2 & _).
      destruct (Rdone_prologue ini t1 s' (t_returned_last t1) true Hd) as (t3 & Hp & HR3 & Hl3).
      rewrite Hp.
      specialize (IH t3 s' HR3 ltac:(congruence)).
      destruct (run_mid c t3 items) as [[rows o] cx].
      destruct (spec_run c p ini end_addr s' items) as [srows [so sfin]].
      destruct IH as (I1 & I2 & I3). split; [constructor; auto|]. auto.
    + (* no row yet *)
      apply evaluate_flags in Ev. destruct Ev as (_ & Ev2 & _).
      apply IH; [exact Hs|congruence].
    + subst. split; [constructor|split; [reflexivity|discriminate]].
Qed.
End RunSim.

Definition sparams_of (f : fde_in) : sparams :=
  {| sp_caf := f_caf f; sp_daf := f_daf f; sp_asize := f_asize f |}.

(* the specification's answer for an already-parsed CIE/FDE (limits layered on by [c]) *)
Definition spec_of (dbg : bool) (c : caps) (f : fde_in) : list srow * outcome :=
  run_spec_lim c (sparams_of f) (f_init f) (spec_end (f_asize f) (f_init f) (f_range f))
    (decode dbg (f_dparams f) (f_cie_off f) (f_cie f))
    (decode dbg (f_dparams f) (f_fde_off f) (f_fde f)).

Section Whole.
Variable c : caps.
Variable p : sparams.

Lemma Rcore_with_loc ini t s tp rest bottom a :
  Rcore c p ini t s tp rest bottom -> Rcore c p ini t (with_loc a s) tp rest bottom.
Proof. unfold Rcore. cbn [with_loc s_cfa s_rules s_args s_stack]. tauto. Qed.

Lemma guard_with_loc ini s a : guard c ini (with_loc a s) = guard c ini s.
Proof. reflexivity. Qed.

Lemma save_sim dbg t sc tp rest bottom :
  Rcore c p None t sc tp rest bottom ->
  match save_initial_rules dbg c (t_ctx t), guard c (Some (s_rules sc)) sc with
  | Ok cx2, Ok _ =>
      exists tp' rest' bottom',
        forall t', t_ctx t' = cx2 -> t_caf t' = sp_caf p -> t_daf t' = sp_daf p -> t_asize t' = sp_asize p ->
                   Rcore c p (Some (s_rules sc)) t' sc tp' rest' bottom'
  | Err e, Err e' => e = e'
  | _, _ => False
  end.
Proof.
  intros HR.
  pose proof (stack_len _ _ _ _ _ _ _ _ HR) as Hlen.
  destruct HR as (H1 & H2 & H3 & H4 & Hst & Htop & Hrest & Hb & Hg).
  destruct Hb as (Hi & Hr & ->). rewrite app_nil_r in Hst.
  pose proof Htop as (E1 & E2 & E3 & E4 & E5 & E6). cbn [fst snd] in *.
  assert (Hl : length (r_regs tp) = length (s_rules sc)) by (apply same_map_length; auto).
  apply guard_ok_iff in Hg. destruct Hg as (Hg1 & Hg2).
  unfold save_initial_rules. rewrite Hi, andb_false_r, Hst.
  assert (Hocc : stack_occ (Some (s_rules sc)) sc =
                 (stack_occ None sc + if Nat.leb 2 (length (s_rules sc)) then 1 else 0)%nat)
    by (unfold stack_occ; lia).
  assert (Hfin : forall cx2 bottom',
            c_stack cx2 = tp :: rest ++ bottom' -> bottom_rel (Some (s_rules sc)) cx2 bottom' ->
            guard c (Some (s_rules sc)) sc = Ok tt ->
            exists tp' rest' bottom'',
              forall t', t_ctx t' = cx2 -> t_caf t' = sp_caf p -> t_daf t' = sp_daf p -> t_asize t' = sp_asize p ->
                         Rcore c p (Some (s_rules sc)) t' sc tp' rest' bottom'').
  { intros cx2 bottom' Hs Hb' Hg'. exists tp, rest, bottom'. intros t' <- Hc Hd Ha.
    exact (conj Hc (conj Hd (conj Ha (conj H4 (conj Hs (conj Htop (conj Hrest (conj Hb' Hg')))))))). }
  destruct (r_regs tp) as [|[r x] [|y l]] eqn:Er; cbn [length] in Hl.
  - (* no initial rules *)
    symmetry in Hl. apply length_zero_iff_nil in Hl.
    assert (Hg' : guard c (Some (s_rules sc)) sc = Ok tt).
    { apply guard_ok_iff. rewrite Hocc, Hl. cbn [length Nat.leb]. rewrite Nat.add_0_r. auto. }
    rewrite Hg'. apply (Hfin _ []); [cbn [c_stack]; rewrite app_nil_r; reflexivity| |exact Hg'].
    unfold bottom_rel. cbn [c_init c_initial_rule]. auto.
  - (* exactly one *)
    assert (Hg' : guard c (Some (s_rules sc)) sc = Ok tt).
    { apply guard_ok_iff. rewrite Hocc, <- Hl. cbn [Nat.leb]. rewrite Nat.add_0_r. auto. }
    rewrite Hg'. apply (Hfin _ []); [cbn [c_stack]; rewrite app_nil_r; reflexivity| |exact Hg'].
    unfold bottom_rel. cbn [c_init c_initial_rule]. repeat split; auto.
    apply same_map_sym. exact E3.
  - (* two or more: the row is cloned under the stack *)
    assert (H2le : Nat.leb 2 (length (s_rules sc)) = true) by (apply Nat.leb_le; lia).
    unfold guard. rewrite Hocc, H2le, Nat.add_1_r, <- cap_full_over, <- Hlen, Hst.
    destruct (cap_full (max_stack c) (length (tp :: rest))) eqn:Ef; [reflexivity|].
    unfold rules_occ in *. rewrite Hg2.
    apply (Hfin _ [tp]); [reflexivity| |].
    + unfold bottom_rel. cbn [c_init c_initial_rule]. repeat split; auto.
      exists tp. split; [reflexivity|]. split; [rewrite Er; exact E3|apply Nat.leb_le; exact H2le].
    + apply guard_ok_iff. rewrite Hocc, H2le, Nat.add_1_r, <- cap_full_over, <- Hlen, Hst. auto.
Qed.
End Whole.

Definition start_tbl (f : fde_in) (start last_end : N) (cx : ctx) : tbl :=
  {| t_caf := f_caf f; t_daf := f_daf f; t_asize := f_asize f; t_next_start := start; t_last_end := last_end;
     t_returned_last := false; t_cur_valid := false; t_ctx := cx |}.

Lemma new_table_ok f start last_end cx :
  c_stack cx <> [] ->
  new_table (f_caf f) (f_daf f) (f_asize f) start last_end cx = Ok (start_tbl f start last_end cx).
Proof. unfold new_table. destruct (c_stack cx); [congruence|reflexivity]. Qed.

(* one instruction stream, run by the loops over a parser [P], on a table on which a row has just been
   completed *)
Lemma collect_g_sim P (P_tame : forall off bs, tame bs (P off bs)) c p ini t s it :
  Rdone c p ini t s -> t_returned_last t = false ->
  match collect_g P (length (it_bytes it) + 2) c t it, spec_run c p ini (t_last_end t) s (dec_with P it) with
  | ((rows, o), cxf), (srows, (so, sfin)) =>
      Forall2 row_equiv rows srows /\ o = so /\
      (o = Done -> exists tf tp rest bottom, t_ctx tf = cxf /\ Rcore c p ini tf sfin tp rest bottom)
  end.
Proof.
  intros Hd Hr.
  destruct (Rdone_prologue c p ini t s (t_returned_last t) false Hd) as (t3 & Hp & HR3 & Hl3).
  change (prologue t = Some t3) in Hp.
  rewrite (collect_g_run_mid P P_tame c (length (it_bytes it)) t it (length (it_bytes it) + 2));
    [|apply (dec_with_length P P_tame it)|lia|exact Hr].
  rewrite Hp. exact (run_sim c p ini (t_last_end t) (dec_with P it) t3 s HR3 Hl3).
Qed.

Lemma collect_sim dbg c f ini start last_end cx items_off items s tp rest bottom :
  valid_asize (f_asize f) = true ->
  Rcore c (sparams_of f) ini (start_tbl f start last_end cx) s tp rest bottom ->
  match collect (length items + 2) None dbg c (f_dparams f) (start_tbl f start last_end cx)
                {| it_off := items_off; it_bytes := items |},
        spec_run c (sparams_of f) ini last_end (with_loc start s)
                 (decode dbg (f_dparams f) items_off items) with
  | ((rows, o), cxf), (srows, (so, sfin)) =>
      Forall2 row_equiv rows srows /\ o = so /\
      (o = Done -> exists tf tp' rest' bottom', t_ctx tf = cxf /\
                                                Rcore c (sparams_of f) ini tf sfin tp' rest' bottom')
  end.
Proof.
  intros _ HR.
  rewrite <- (collect_g_old dbg (f_dparams f) (insn_parser dbg (f_dparams f))) by reflexivity.
  change (decode dbg (f_dparams f) items_off items)
    with (dec dbg (f_dparams f) {| it_off := items_off; it_bytes := items |}).
  rewrite dec_is_dec_with.
  apply (collect_g_sim _ (insn_parser_tame dbg (f_dparams f)) c (sparams_of f) ini (start_tbl f start last_end cx)
           (with_loc start s) {| it_off := items_off; it_bytes := items |}); [|reflexivity].
  exists tp, rest, bottom. split; [apply Rcore_with_loc; exact HR|reflexivity].
Qed.

(* UnwindContext::initialize against the CIE's run of the specification and the guard on what it leaves *)
Lemma initialize_sim dbg c f cx :
  valid_asize (f_asize f) = true -> cap_full (max_stack c) 0 = false ->
  match spec_run c (sparams_of f) None 0 init_state (decode dbg (f_dparams f) (f_cie_off f) (f_cie f)) with
  | (_, (Done, sc)) =>
      match initialize dbg c f cx, guard c (Some (s_rules sc)) sc with
      | Ok cx2, Ok _ =>
          exists tp rest bottom,
            Rcore c (sparams_of f) (Some (s_rules sc)) (start_tbl f (f_init f) (end_address f) cx2) sc tp rest bottom
      | Err e, Err e' => e = e'
      | _, _ => False
      end
  | (_, (Fail e, _)) => initialize dbg c f cx = Err e
  | (_, (Crash, _)) => initialize dbg c f cx = Panic
  | (_, (Fuel, _)) => initialize dbg c f cx = OutOfFuel
  end.
Proof.
  intros Hv Hcap. unfold initialize, reset. rewrite Hcap. cbn [bind].
  set (cx0 := {| c_stack := [default_row]; c_initial_rule := None; c_init := false |}).
  rewrite (new_table_ok f 0 0 cx0) by discriminate. cbn [bind].
  assert (HR0 : Rcore c (sparams_of f) None (start_tbl f 0 0 cx0) init_state default_row [] []).
  { unfold Rcore. cbn. repeat split; auto; try constructor.
    - destruct (max_rules c); reflexivity.
    - apply guard_ok_iff. cbn. split; [|destruct (max_rules c); reflexivity].
      rewrite <- cap_full_over. exact Hcap. }
  pose proof (collect_sim dbg c f None 0 0 cx0 (f_cie_off f) (f_cie f) init_state default_row [] [] Hv HR0) as Hc.
  pose proof (drain_collect dbg c (f_dparams f) (length (f_cie f) + 2) (start_tbl f 0 0 cx0)
                {| it_off := f_cie_off f; it_bytes := f_cie f |}) as Hdr.
  destruct (collect (length (f_cie f) + 2) None dbg c (f_dparams f) (start_tbl f 0 0 cx0)
              {| it_off := f_cie_off f; it_bytes := f_cie f |}) as [[rows_c o_c] cx1].
  change (with_loc 0 init_state) with init_state in Hc.
  destruct (spec_run c (sparams_of f) None 0 init_state (decode dbg (f_dparams f) (f_cie_off f) (f_cie f)))
    as [srows_c [so_c sc]].
  destruct Hc as (_ & <- & Hfin). cbn [fst snd] in Hdr.
  destruct o_c as [|e| |]; try (rewrite Hdr; reflexivity).
  destruct Hdr as (t' & -> & Hctx). cbn [bind].
  destruct (Hfin eq_refl) as (tf & tp & rest & bottom & Htf & HRc).
  pose proof (save_sim c (sparams_of f) dbg tf sc tp rest bottom HRc) as Hsave.
  rewrite Htf, <- Hctx in Hsave.
  destruct (save_initial_rules dbg c (t_ctx t')) as [cx2|e| |];
    destruct (guard c (Some (s_rules sc)) sc) as [[]|e'| |]; try contradiction; [|exact Hsave].
  destruct Hsave as (tp2 & rest2 & bottom2 & Hsave). exists tp2, rest2, bottom2.
  apply Hsave; reflexivity.
Qed.

(* `fde.rows(..)` + the next_row loop when the FDE's iterator parses with [P] (the CIE's initial
   instructions are always parsed by CallFrameInstruction::parse without an address encoding), and
   what the specification says of the streams so decoded *)
Definition rows_with (P : N -> list byte -> res (insn * list byte)) (dbg : bool) (c : caps) (f : fde_in) (cx : ctx)
  : (list row * outcome) * ctx :=
  if negb (valid_asize (f_asize f)) then (([], Fail EUnsupportedAddressSize), cx) else
  match table_new dbg c f cx with
  | Ok t => collect_g P (length (f_fde f) + 2) c t {| it_off := f_fde_off f; it_bytes := f_fde f |}
  | Err e => (([], Fail e), cx)
  | Panic => (([], Crash), cx)
  | OutOfFuel => (([], Fuel), cx)
  end.
Definition spec_with (P : N -> list byte -> res (insn * list byte)) (dbg : bool) (c : caps) (f : fde_in)
  : list srow * outcome :=
  run_spec_lim c (sparams_of f) (f_init f) (spec_end (f_asize f) (f_init f) (f_range f))
    (decode dbg (f_dparams f) (f_cie_off f) (f_cie f)) (decode_g P (f_fde_off f) (f_fde f)).

Lemma fde_rows_with dbg c f cx : fde_rows dbg c f cx = rows_with (insn_parser dbg (f_dparams f)) dbg c f cx.
Proof.
  unfold fde_rows, fde_rows_lim, rows_with. destruct (negb (valid_asize (f_asize f))); [reflexivity|].
  destruct (table_new dbg c f cx); try reflexivity. symmetry. apply collect_g_old. reflexivity.
Qed.

Lemma spec_of_with dbg c f : spec_of dbg c f = spec_with (insn_parser dbg (f_dparams f)) dbg c f.
Proof.
  unfold spec_of, spec_with, decode_g, decode.
  rewrite (decode_fuel_g_old dbg (f_dparams f) (insn_parser dbg (f_dparams f))) by reflexivity. reflexivity.
Qed.

Lemma rows_with_invalid P dbg c f cx :
  valid_asize (f_asize f) = false -> fst (rows_with P dbg c f cx) = ([], Fail EUnsupportedAddressSize).
Proof. intros H. unfold rows_with. rewrite H. reflexivity. Qed.

Lemma rows_with_nocap P dbg c f cx :
  valid_asize (f_asize f) = true -> cap_full (max_stack c) 0 = true -> fst (rows_with P dbg c f cx) = ([], Crash).
Proof. intros Hv H. unfold rows_with, table_new, initialize, reset. rewrite Hv, H. reflexivity. Qed.

(* the table is the limit-guarded specification, for any parser of the FDE's instructions that consumes input *)
Theorem rows_with_eq_spec P (P_tame : forall off bs, tame bs (P off bs)) dbg c f cx :
  valid_asize (f_asize f) = true -> cap_full (max_stack c) 0 = false ->
  Forall2 row_equiv (fst (fst (rows_with P dbg c f cx))) (fst (spec_with P dbg c f)) /\
  snd (fst (rows_with P dbg c f cx)) = snd (spec_with P dbg c f).
Proof.
  intros Hv Hcap. unfold rows_with, spec_with, run_spec_lim, table_new. rewrite Hv. cbn [negb].
  pose proof (initialize_sim dbg c f cx Hv Hcap) as Hi.
  destruct (spec_run c (sparams_of f) None 0 init_state (decode dbg (f_dparams f) (f_cie_off f) (f_cie f)))
    as [rows_c [[|e| |] sc]]; try (rewrite Hi; cbn; split; [constructor|reflexivity]).
  rewrite guard_with_loc.
  destruct (initialize dbg c f cx) as [cx2|e| |]; destruct (guard c (Some (s_rules sc)) sc) as [[]|e'| |];
    try contradiction; cbn [bind]; [|subst; cbn; split; [constructor|reflexivity]].
  destruct Hi as (tp & rest & bottom & HR).
  rewrite (new_table_ok f (f_init f) (end_address f) cx2)
    by (destruct HR as (_ & _ & _ & _ & Hst & _); cbn [t_ctx start_tbl] in Hst; rewrite Hst; discriminate).
  rewrite <- (end_address_spec f Hv).
  pose proof (collect_g_sim P P_tame c (sparams_of f) (Some (s_rules sc)) (start_tbl f (f_init f) (end_address f) cx2)
                (with_loc (f_init f) sc) {| it_off := f_fde_off f; it_bytes := f_fde f |}) as Hf.
  cbn [it_bytes t_last_end start_tbl] in Hf. change (dec_with P _) with (decode_g P (f_fde_off f) (f_fde f)) in Hf.
  destruct (collect_g P (length (f_fde f) + 2) c (start_tbl f (f_init f) (end_address f) cx2)
              {| it_off := f_fde_off f; it_bytes := f_fde f |}) as [[rows o] cxf].
  destruct (spec_run c (sparams_of f) (Some (s_rules sc)) (end_address f) (with_loc (f_init f) sc)
              (decode_g P (f_fde_off f) (f_fde f))) as [srows [so sfin]].
  destruct Hf as (Hrows & Ho & _); [|reflexivity|cbn [fst snd]; auto].
  exists tp, rest, bottom. split; [apply Rcore_with_loc; exact HR|reflexivity].
Qed.

Theorem model_eq_spec dbg c f cx :
  valid_asize (f_asize f) = true ->
  cap_full (max_stack c) 0 = false ->
  Forall2 row_equiv (fst (fst (fde_rows dbg c f cx))) (fst (spec_of dbg c f)) /\
  snd (fst (fde_rows dbg c f cx)) = snd (spec_of dbg c f).
Proof. rewrite fde_rows_with, spec_of_with. apply rows_with_eq_spec, insn_parser_tame. Qed.

Lemma guard_no_caps ini s : guard no_caps ini s = Ok tt.
Proof. reflexivity. Qed.

Lemma step_lim_no_caps p ini s i :
  step_lim no_caps p ini s i = spec_step p ini s i.
Proof.
  unfold step_lim. destruct (spec_step p ini s i) as [[s' row]|e| |]; reflexivity.
Qed.

Definition is_limit (o : outcome) : Prop := o = Fail EStackFull \/ o = Fail ETooManyRegisterRules.

Lemma guard_cases c ini s :
  guard c ini s = Ok tt \/ guard c ini s = Err EStackFull \/ guard c ini s = Err ETooManyRegisterRules.
Proof.
  unfold guard. destruct (over (max_stack c) (stack_occ ini s)); auto.
  destruct (over (max_rules c) (rules_occ s)); auto.
Qed.

Inductive prefix {A} : list A -> list A -> Prop :=
| prefix_nil l : prefix [] l
| prefix_cons a l l' : prefix l l' -> prefix (a :: l) (a :: l').

Lemma prefix_refl {A} (l : list A) : prefix l l.
Proof. induction l; constructor; auto. Qed.

(* the limited run is the unlimited run, cut at the first instruction whose result exceeds the limits *)
Lemma spec_run_fits c p ini e : forall items s,
  (fits c p ini s items = true /\ spec_run c p ini e s items = spec_run no_caps p ini e s items) \/
  (fits c p ini s items = false /\ is_limit (fst (snd (spec_run c p ini e s items))) /\
   prefix (fst (spec_run c p ini e s items)) (fst (spec_run no_caps p ini e s items))).
Proof.
  induction items as [|x items IH]; intros s; [left; split; reflexivity|].
  destruct x as [i|er| |]; try (left; split; reflexivity).
  cbn [fits spec_run]. rewrite step_lim_no_caps. unfold step_lim.
  destruct (spec_step p ini s i) as [[s' row]|er| |]; cbn [bind]; try (left; split; reflexivity).
  unfold guard_ok.
  destruct (guard_cases c ini s') as [Hg|[Hg|Hg]]; rewrite Hg; cbn [bind andb].
  - destruct (IH s') as [(F & E)|(F & L & P)].
    + left. split; [exact F|]. rewrite E. reflexivity.
    + right. split; [exact F|].
      destruct row as [r|];
        destruct (spec_run c p ini e s' items) as [rows [o sf]];
        destruct (spec_run no_caps p ini e s' items) as [rows' [o' sf']]; cbn [fst snd] in *;
        split; auto. constructor. exact P.
  - right. split; [reflexivity|]. split; [left; reflexivity|]. cbn [fst]. constructor.
  - right. split; [reflexivity|]. split; [right; reflexivity|]. cbn [fst]. constructor.
Qed.

Lemma run_spec_fits c p init_addr e cie fde :
  (fits_run c p init_addr cie fde = true /\
   run_spec_lim c p init_addr e cie fde = run_spec p init_addr e cie fde) \/
  (fits_run c p init_addr cie fde = false /\ is_limit (snd (run_spec_lim c p init_addr e cie fde)) /\
   prefix (fst (run_spec_lim c p init_addr e cie fde)) (fst (run_spec p init_addr e cie fde))).
Proof.
  unfold fits_run, run_spec, run_spec_lim.
  destruct (spec_run_fits c p None 0 cie init_state) as [(F & E)|(F & L & P)].
  - rewrite F, E. cbn [andb].
    destruct (spec_run no_caps p None 0 init_state cie) as [rows_c [[|er| |] sc]];
      try (left; split; reflexivity).
    rewrite guard_no_caps. unfold guard_ok.
    destruct (guard_cases c (Some (s_rules sc)) (with_loc init_addr sc)) as [Hg|[Hg|Hg]]; rewrite Hg; cbn [andb].
    + destruct (spec_run_fits c p (Some (s_rules sc)) e fde (with_loc init_addr sc)) as [(F2 & E2)|(F2 & L2 & P2)].
      * left. split; [exact F2|]. rewrite E2. reflexivity.
      * right. split; [exact F2|].
        destruct (spec_run c p (Some (s_rules sc)) e (with_loc init_addr sc) fde) as [rows [o sf]].
        destruct (spec_run no_caps p (Some (s_rules sc)) e (with_loc init_addr sc) fde) as [rows' [o' sf']].
        cbn [fst snd] in *. auto.
    + right. split; [reflexivity|]. split; [left; reflexivity|constructor].
    + right. split; [reflexivity|]. split; [right; reflexivity|constructor].
  - rewrite F. cbn [andb]. right. split; [reflexivity|].
    destruct (spec_run c p None 0 init_state cie) as [rows_c [o_c sc]]. cbn [fst snd] in L.
    destruct L as [-> | ->]; (split; [|constructor]); [left|right]; reflexivity.
Qed.

Definition span := (N * N)%type.
Fixpoint chain (start : N) (l : list span) : Prop :=
  match l with
  | [] => True
  | x :: t => fst x = start /\ chain (snd x) t
  end.
Definition ordered (x : span) : Prop := fst x <= snd x.

(* contiguous from [init]; every row but the final one has start <= end; when the table
   ended normally the final row ends at [end_addr] *)
Definition shape (init end_addr : N) (l : list span) (o : outcome) : Prop :=
  chain init l /\
  match o with
  | Done => exists l0 lastx, l = l0 ++ [lastx] /\ snd lastx = end_addr /\ Forall ordered l0
  | _ => Forall ordered l
  end.

Definition sspan (r : srow) : span := (sr_start r, sr_end r).
Definition mspan (r : row) : span := (r_start r, r_end r).

Lemma spec_step_loc p ini s i s' orow :
  spec_step p ini s i = Ok (s', orow) ->
  match orow with
  | Some row => sr_start row = s_loc s /\ sr_end row = s_loc s' /\ s_loc s <= s_loc s'
  | None => s_loc s' = s_loc s
  end.
Proof.
  destruct i; cbn [spec_step]; intros H;
    repeat match type of H with
           | (if ?x then _ else _) = _ => let E := fresh "E" in destruct x eqn:E; try discriminate
           | (match ?x with _ => _ end) = _ => destruct x; try discriminate
           end;
    inversion H; subst; cbn; auto; try lia.
Qed.

Lemma spec_run_shape c p ini e : forall items s,
  shape (s_loc s) e (map sspan (fst (spec_run c p ini e s items))) (fst (snd (spec_run c p ini e s items))).
Proof.
  induction items as [|x items IH]; intros s.
  - cbn. split; [split; [reflexivity|exact I]|]. exists (@nil span). exists (s_loc s, e). repeat split. constructor.
  - destruct x as [i|er| |]; cbn [spec_run]; try (cbn; split; [exact I|constructor]).
    unfold step_lim. destruct (spec_step p ini s i) as [[s' orow]|er| |] eqn:Es; cbn [bind];
      try (cbn; split; [exact I|constructor]).
    destruct (guard c ini s') as [[]|er| |]; cbn [bind]; try (cbn; split; [exact I|constructor]).
    apply spec_step_loc in Es. specialize (IH s').
    destruct (spec_run c p ini e s' items) as [rows [o sf]]. cbn [fst snd] in *.
    destruct orow as [row|].
    + destruct Es as (E1 & E2 & E3). destruct IH as (C & T). cbn [map fst snd].
      split; [cbn; rewrite E1, E2; auto|].
      assert (Ho : ordered (sspan row)) by (unfold ordered, sspan; cbn; lia).
      destruct o; try (constructor; assumption).
      destruct T as (l0 & lastx & El & Ee & Fo). exists (sspan row :: l0), lastx.
      rewrite El. repeat split; auto.
    + rewrite <- Es. exact IH.
Qed.

Lemma run_spec_lim_shape c p init_addr e cie fde :
  shape init_addr e (map sspan (fst (run_spec_lim c p init_addr e cie fde)))
        (snd (run_spec_lim c p init_addr e cie fde)).
Proof.
  unfold run_spec_lim.
  destruct (spec_run c p None 0 init_state cie) as [rows_c [[|er| |] sc]];
    try (cbn; split; [exact I|constructor]).
  destruct (guard c (Some (s_rules sc)) (with_loc init_addr sc)) as [[]|er| |];
    try (cbn; split; [exact I|constructor]).
  pose proof (spec_run_shape c p (Some (s_rules sc)) e fde (with_loc init_addr sc)) as H.
  destruct (spec_run c p (Some (s_rules sc)) e (with_loc init_addr sc) fde) as [rows [o sf]].
  exact H.
Qed.

Fixpoint nondec (l : list N) : Prop :=
  match l with
  | a :: (b :: _) as t => a <= b /\ nondec t
  | _ => True
  end.

Lemma chain_ordered_nondec : forall l start, chain start l -> Forall ordered l -> nondec (map fst l).
Proof.
  induction l as [|x l IH]; intros start Hc Ho; [exact I|].
  destruct l as [|y l]; [exact I|].
  destruct Hc as (Hx & Hy & Hc). inversion Ho as [|? ? Ox Ol]; subst.
  cbn [map nondec]. split; [unfold ordered in Ox; lia|].
  apply (IH (snd x)); [split; auto|exact Ol].
Qed.

Lemma shape_nondec init e l o : shape init e l o -> nondec (map fst l).
Proof.
  intros (Hc & Ho). destruct o; [|eapply chain_ordered_nondec; eassumption ..].
  destruct Ho as (l0 & lastx & -> & _ & Fo).
  clear e. revert init Hc. induction l0 as [|x l0 IH]; intros init Hc; [exact I|].
  inversion Fo as [|? ? Ox Ol]; subst.
  destruct Hc as (Hx & Hc).
  destruct l0 as [|y l0].
  - cbn in *. destruct Hc as (Hy & _). unfold ordered in Ox. lia.
  - cbn [app map nondec]. cbn [app chain] in Hc. destruct Hc as (Hy & Hc).
    split; [unfold ordered in Ox; lia|].
    apply (IH Ol (snd x)). cbn [app chain]. auto.
Qed.

Definition cie_items (dbg : bool) (f : fde_in) : list item := decode dbg (f_dparams f) (f_cie_off f) (f_cie f).
Definition fde_items (dbg : bool) (f : fde_in) : list item := decode dbg (f_dparams f) (f_fde_off f) (f_fde f).
(* the unlimited DWARF machine on this CIE/FDE *)
Definition spec_unl (dbg : bool) (f : fde_in) : list srow * outcome :=
  run_spec (sparams_of f) (f_init f) (spec_end (f_asize f) (f_init f) (f_range f)) (cie_items dbg f) (fde_items dbg f).
Definition within_limits (dbg : bool) (c : caps) (f : fde_in) : bool :=
  fits_run c (sparams_of f) (f_init f) (cie_items dbg f) (fde_items dbg f).

Lemma row_equiv_spans rows srows : Forall2 row_equiv rows srows -> map mspan rows = map sspan srows.
Proof.
  induction 1 as [|r sr rows srows (E1 & E2 & _) _ IH]; [reflexivity|].
  cbn [map]. unfold mspan at 1, sspan at 1. rewrite E1, E2, IH. reflexivity.
Qed.

Theorem rows_with_shape P (P_tame : forall off bs, tame bs (P off bs)) dbg c f cx :
  shape (f_init f) (end_address f) (map mspan (fst (fst (rows_with P dbg c f cx)))) (snd (fst (rows_with P dbg c f cx))).
Proof.
  destruct (valid_asize (f_asize f)) eqn:Hv.
  - destruct (cap_full (max_stack c) 0) eqn:Hc.
    + rewrite (rows_with_nocap P dbg c f cx Hv Hc). cbn. split; [exact I|constructor].
    + destruct (rows_with_eq_spec P P_tame dbg c f cx Hv Hc) as (H1 & H2).
      rewrite (row_equiv_spans _ _ H1), H2, (end_address_spec f Hv). apply run_spec_lim_shape.
  - rewrite (rows_with_invalid P dbg c f cx Hv). cbn. split; [exact I|constructor].
Qed.

Theorem rows_shape_thm dbg c f cx :
  shape (f_init f) (end_address f) (map mspan (fst (fst (fde_rows dbg c f cx)))) (snd (fst (fde_rows dbg c f cx))).
Proof. rewrite fde_rows_with. apply rows_with_shape, insn_parser_tame. Qed.

Lemma fde_rows_invalid dbg c f cx :
  valid_asize (f_asize f) = false -> fst (fde_rows dbg c f cx) = ([], Fail EUnsupportedAddressSize).
Proof. rewrite fde_rows_with. apply rows_with_invalid. Qed.

Lemma fde_rows_nocap dbg c f cx :
  valid_asize (f_asize f) = true -> cap_full (max_stack c) 0 = true -> fst (fde_rows dbg c f cx) = ([], Crash).
Proof. rewrite fde_rows_with. apply rows_with_nocap. Qed.

(* within the limits the table is that of the unlimited machine; otherwise it ends with the limit's
   error after a prefix of the unlimited machine's rows *)
Lemma model_vs_unlimited dbg c f cx :
  valid_asize (f_asize f) = true -> cap_full (max_stack c) 0 = false ->
  (within_limits dbg c f = true /\
   Forall2 row_equiv (fst (fst (fde_rows dbg c f cx))) (fst (spec_unl dbg f)) /\
   snd (fst (fde_rows dbg c f cx)) = snd (spec_unl dbg f)) \/
  (within_limits dbg c f = false /\ is_limit (snd (fst (fde_rows dbg c f cx))) /\
   exists rows', Forall2 row_equiv (fst (fst (fde_rows dbg c f cx))) rows' /\ prefix rows' (fst (spec_unl dbg f))).
Proof.
  intros Hv Hc. destruct (model_eq_spec dbg c f cx Hv Hc) as (H1 & H2). rewrite H2.
  destruct (run_spec_fits c (sparams_of f) (f_init f) (spec_end (f_asize f) (f_init f) (f_range f))
              (cie_items dbg f) (fde_items dbg f)) as [(F & E)|(F & L & P)]; [left|right]; (split; [exact F|]).
  - unfold spec_of in *. unfold cie_items, fde_items in E. rewrite E in H1 |- *. split; [exact H1|reflexivity].
  - split; [exact L|]. eexists. split; [exact H1|exact P].
Qed.

Theorem no_silent_limit_thm dbg c f cx :
  valid_asize (f_asize f) = true -> cap_full (max_stack c) 0 = false ->
  within_limits dbg c f = true ->
  Forall2 row_equiv (fst (fst (fde_rows dbg c f cx))) (fst (spec_unl dbg f)) /\
  snd (fst (fde_rows dbg c f cx)) = snd (spec_unl dbg f).
Proof.
  intros Hv Hc Hf. destruct (model_vs_unlimited dbg c f cx Hv Hc) as [(_ & H)|(F & _)]; [exact H|congruence].
Qed.

(* no panic, and the fuel of the model always suffices *)
Lemma dec_clean dbg d : forall n it, (length (it_bytes it) <= n)%nat ->
  Forall (fun x => x <> BadPanic /\ x <> BadFuel) (dec dbg d it).
Proof. intros n it H. rewrite dec_is_dec_with. exact (dec_with_clean _ (insn_parser_tame dbg d) n it H). Qed.

Lemma spec_step_total p ini s i : spec_step p ini s i <> Panic /\ spec_step p ini s i <> OutOfFuel.
Proof.
  destruct i; cbn [spec_step];
    repeat match goal with
           | |- context [if ?x then _ else _] => destruct x
           | |- context [match ?x with _ => _ end] => destruct x
           end; split; discriminate.
Qed.

Lemma spec_run_clean c p ini e : forall items s,
  Forall (fun x => x <> BadPanic /\ x <> BadFuel) items ->
  fst (snd (spec_run c p ini e s items)) <> Crash /\ fst (snd (spec_run c p ini e s items)) <> Fuel.
Proof.
  induction items as [|x items IH]; intros s Hf; [cbn; split; discriminate|].
  inversion Hf as [|? ? (Hx1 & Hx2) Hf']; subst.
  destruct x as [i|er| |]; try congruence; cbn [spec_run]; [|cbn; split; discriminate].
  unfold step_lim. destruct (spec_step_total p ini s i) as (T1 & T2).
  destruct (spec_step p ini s i) as [[s' orow]|er| |]; try congruence; cbn [bind]; [|cbn; split; discriminate].
  destruct (guard_cases c ini s') as [Hg|[Hg|Hg]]; rewrite Hg; cbn [bind]; try (cbn; split; discriminate).
  specialize (IH s' Hf'). destruct (spec_run c p ini e s' items) as [rows [o sf]].
  destruct orow; exact IH.
Qed.

Lemma run_spec_lim_clean c p init_addr e cie fde :
  Forall (fun x => x <> BadPanic /\ x <> BadFuel) cie -> Forall (fun x => x <> BadPanic /\ x <> BadFuel) fde ->
  snd (run_spec_lim c p init_addr e cie fde) <> Crash /\ snd (run_spec_lim c p init_addr e cie fde) <> Fuel.
Proof.
  intros Dc Df. unfold run_spec_lim.
  pose proof (spec_run_clean c p None 0 cie init_state Dc) as Hcl.
  destruct (spec_run c p None 0 init_state cie) as [rows_c [[|er| |] sc]]; cbn [fst snd] in *;
    try (split; discriminate); try (destruct Hcl; congruence).
  destruct (guard_cases c (Some (s_rules sc)) (with_loc init_addr sc)) as [Hg|[Hg|Hg]]; rewrite Hg;
    try (cbn; split; discriminate).
  pose proof (spec_run_clean c p (Some (s_rules sc)) e fde (with_loc init_addr sc) Df) as Hcl2.
  destruct (spec_run c p (Some (s_rules sc)) e (with_loc init_addr sc) fde) as [rows [o sf]]. exact Hcl2.
Qed.

Theorem rows_with_no_panic P (P_tame : forall off bs, tame bs (P off bs)) dbg c f cx :
  cap_full (max_stack c) 0 = false ->
  snd (fst (rows_with P dbg c f cx)) <> Crash /\ snd (fst (rows_with P dbg c f cx)) <> Fuel.
Proof.
  intros Hc. destruct (valid_asize (f_asize f)) eqn:Hv;
    [|rewrite (rows_with_invalid P dbg c f cx Hv); cbn; split; discriminate].
  destruct (rows_with_eq_spec P P_tame dbg c f cx Hv Hc) as (_ & ->). apply run_spec_lim_clean.
  - exact (dec_clean dbg (f_dparams f) _ {| it_off := f_cie_off f; it_bytes := f_cie f |} (le_n _)).
  - exact (dec_with_clean P P_tame _ {| it_off := f_fde_off f; it_bytes := f_fde f |} (le_n _)).
Qed.


Theorem no_panic_thm dbg c f cx :
  cap_full (max_stack c) 0 = false ->
  snd (fst (fde_rows dbg c f cx)) <> Crash /\ snd (fst (fde_rows dbg c f cx)) <> Fuel.
Proof. rewrite fde_rows_with. apply rows_with_no_panic, insn_parser_tame. Qed.

(* `initialize` starts with `reset`, which does not look at the context it is given *)
Lemma table_new_indep dbg c f cx cx' : table_new dbg c f cx = table_new dbg c f cx'.
Proof. reflexivity. Qed.

Lemma use_ctx_indep dbg c u cx cx' : fst (use_ctx dbg c u cx) = fst (use_ctx dbg c u cx').
Proof.
  unfold use_ctx. destruct u as [f [lim|a]]; cbn [fst snd].
  - unfold fde_rows_lim. destruct (negb (valid_asize (f_asize f))); [reflexivity|].
    rewrite (table_new_indep dbg c f cx cx').
    destruct (table_new dbg c f cx') as [t|e| |]; reflexivity.
  - unfold unwind_info_for_address. destruct (negb (valid_asize (f_asize f))); [reflexivity|].
    rewrite (table_new_indep dbg c f cx cx').
    destruct (table_new dbg c f cx') as [t|e| |]; reflexivity.
Qed.

Lemma enc_sleb_read dbg z rest :
  in_i64 z = true -> read_sleb128 dbg (enc_sleb z ++ rest) = Ok (z, rest).
Proof.
  intros Hz. unfold enc_sleb. destruct (sleb_min_agrees 19 z) as (-> & _).
  apply read_sleb128_enc; [lia|exact Hz].
Qed.

Lemma hi_bits d : d < 64 ->
  (N.land (64 + d) 192 = 64 /\ N.land (64 + d) 63 = d) /\
  (N.land (128 + d) 192 = 128 /\ N.land (128 + d) 63 = d) /\
  (N.land (192 + d) 192 = 192 /\ N.land (192 + d) 63 = d).
Proof.
  intros Hd.
  pose proof (forallb_below (fun d => (N.land (64 + d) 192 =? 64) && (N.land (64 + d) 63 =? d) &&
                                      (N.land (128 + d) 192 =? 128) && (N.land (128 + d) 63 =? d) &&
                                      (N.land (192 + d) 192 =? 192) && (N.land (192 + d) 63 =? d))
                           64 ltac:(vm_compute; reflexivity) d Hd) as H.
  cbv beta in H. lia.
Qed.

Lemma fixed_enc_un be n v : fixed_enc be n v = enc_un n be v.
Proof.
  assert (H : forall n v, le_enc n v = le_bytes n v)
    by (clear; induction n as [|n IH]; intros v; cbn [le_enc le_bytes]; congruence).
  unfold fixed_enc, enc_un, be_bytes. rewrite H. reflexivity.
Qed.

Lemma read_u8_n2b k rest : k < 256 -> read_u8 (n2b k :: rest) = Ok (k, rest).
Proof. intros Hk. cbn [read_u8]. rewrite b2n_n2b_small by exact Hk. reflexivity. Qed.

Lemma rd_reg_enc dbg r rest : r < two16 -> rd_reg dbg (enc_uleb r ++ rest) = Ok (r, rest).
Proof.
  intros H. unfold rd_reg. rewrite read_uleb128_enc by (unfold two16, two64 in *; lia). cbn [bind].
  unfold reg_from_u64, wrap16. rewrite N.mod_small by exact H. rewrite N.eqb_refl. reflexivity.
Qed.

(* [all] is the whole instruction, [pre] what precedes the block: the expression is recorded by
   its section offset *)
Lemma rd_expr_enc dbg off all pre e rest :
  N.of_nat (length e) < two64 ->
  all = pre ++ blk e ++ rest ->
  rd_expr dbg off all (blk e ++ rest) =
    Ok (mkexpr (off + N.of_nat (length pre) + ulen (N.of_nat (length e))) e, rest).
Proof.
  intros Hl ->. unfold rd_expr, blk. rewrite <- app_assoc, read_uleb128_enc by exact Hl. cbn [bind].
  unfold skip_n. rewrite app_length, Nat2N.inj_add.
  destruct (N.of_nat (length e) + N.of_nat (length rest) <? N.of_nat (length e)) eqn:E; [lia|].
  cbn [bind]. rewrite Nat2N.id, skipn_app, skipn_all, Nat.sub_diag. cbn [skipn app].
  unfold mkexpr, consumed, ulen. f_equal. f_equal. f_equal.
  rewrite !app_length. lia.
Qed.

Lemma read_address_enc be asize a rest :
  valid_asize asize = true -> a < 2 ^ (8 * asize) ->
  read_address asize be (fixed_enc be (N.to_nat asize) a ++ rest) = Ok (a, rest).
Proof.
  intros Hv Ha. rewrite read_address_exact. change (PrimSpec.size_ok asize) with (valid_asize asize). rewrite Hv.
  rewrite fixed_enc_un. apply read_un_enc_un_small. rewrite p256_pow2, N2Nat.id. exact Ha.
Qed.

Lemma in_i64_and a b : a && b = true -> a = true /\ b = true.
Proof. apply andb_prop. Qed.

(* wire forms without a signed LEB128 operand *)
Definition unsigned_wire (w : wire) : bool :=
  match w with
  | WOffsetExtendedSf _ _ | WDefCfaSf _ _ | WDefCfaOffsetSf _ | WValOffsetSf _ _ => false
  | _ => true
  end.

Definition decode_expect (aa : bool) (off : N) (w : wire) (rest : list byte) : res (insn * list byte) :=
  match w with
  | WNegateRaState => if aa then Ok (wire_meaning off w, rest) else Err EUnknownCallFrameInstruction
  | _ => Ok (wire_meaning off w, rest)
  end.

(* once the opcode byte is a literal, the dispatch of parse_insn computes *)
Ltac opcode :=
  cbv beta iota delta [N.land Pos.land Pos.Ndouble Pos.Nsucc_double N.eqb Pos.eqb andb].

(* every DW_CFA opcode form, both vendors: the opcode byte selects the arm, and each operand reader
   reads back what the operand's encoder wrote *)
Theorem insn_decode_thm dbg be asize aa off w rest :
  valid_asize asize = true -> wire_ok asize w = true ->
  parse_insn dbg be asize aa off (enc_wire be asize w ++ rest) = decode_expect aa off w rest.
Proof.
  intros Hv Hw.
  destruct w; cbn [wire_ok] in Hw; unfold regb, u64b, i64b in Hw;
    cbn [enc_wire decode_expect wire_meaning app]; unfold parse_insn;
    rewrite ?N.mod_small by lia; rewrite read_u8_n2b by lia; cbn [bind]; cbv zeta.
  - (* advance_loc, delta in the opcode *)
    destruct (hi_bits d) as ((E1 & E2) & _); [lia|]. rewrite E1, E2. reflexivity.
  - (* offset, register in the opcode *)
    destruct (hi_bits r) as (_ & (E1 & E2) & _); [lia|]. rewrite E1, E2. opcode.
    rewrite read_uleb128_enc by lia. reflexivity.
  - (* restore, register in the opcode *)
    destruct (hi_bits r) as (_ & _ & (E1 & E2)); [lia|]. rewrite E1, E2. reflexivity.
  - (* nop *) opcode. reflexivity.
  - (* set_loc *) opcode. rewrite read_address_enc by (auto; lia). reflexivity.
  - (* advance_loc1 *)
    opcode. unfold fixed_enc. destruct be; cbn [le_enc rev app]; rewrite read_u8_n2b by lia; reflexivity.
  - (* advance_loc2 *)
    opcode. unfold read_u16. rewrite fixed_enc_un, read_un_enc_un_small by (change (p256 2) with two16; lia).
    reflexivity.
  - (* advance_loc4 *)
    opcode. unfold read_u32. rewrite fixed_enc_un, read_un_enc_un_small by (change (p256 4) with two32; lia).
    reflexivity.
  - (* offset_extended *)
    opcode. rewrite <- app_assoc, rd_reg_enc by lia. cbn [bind]. rewrite read_uleb128_enc by lia. reflexivity.
  - (* restore_extended *) opcode. rewrite rd_reg_enc by lia. reflexivity.
  - (* undefined *) opcode. rewrite rd_reg_enc by lia. reflexivity.
  - (* same_value *) opcode. rewrite rd_reg_enc by lia. reflexivity.
  - (* register *)
    opcode. rewrite <- app_assoc, rd_reg_enc by lia. cbn [bind]. rewrite rd_reg_enc by lia. reflexivity.
  - (* remember_state *) opcode. reflexivity.
  - (* restore_state *) opcode. reflexivity.
  - (* def_cfa *)
    opcode. rewrite <- app_assoc, rd_reg_enc by lia. cbn [bind]. rewrite read_uleb128_enc by lia. reflexivity.
  - (* def_cfa_register *) opcode. rewrite rd_reg_enc by lia. reflexivity.
  - (* def_cfa_offset *) opcode. rewrite read_uleb128_enc by lia. reflexivity.
  - (* def_cfa_expression *)
    opcode. rewrite (rd_expr_enc dbg off _ [n2b 15] e rest) by (auto; lia). reflexivity.
  - (* expression *)
    opcode. rewrite <- app_assoc, rd_reg_enc by lia. cbn [bind].
    rewrite (rd_expr_enc dbg off _ (n2b 16 :: enc_uleb r) e rest) by (auto; lia).
    cbn [bind length]. unfold ulen. do 4 f_equal. lia.
  - (* offset_extended_sf *)
    opcode. rewrite <- app_assoc, rd_reg_enc by lia. cbn [bind]. rewrite enc_sleb_read by apply (andb_prop _ _ Hw). reflexivity.
  - (* def_cfa_sf *)
    opcode. rewrite <- app_assoc, rd_reg_enc by lia. cbn [bind]. rewrite enc_sleb_read by apply (andb_prop _ _ Hw). reflexivity.
  - (* def_cfa_offset_sf *) opcode. rewrite enc_sleb_read by exact Hw. reflexivity.
  - (* val_offset *)
    opcode. rewrite <- app_assoc, rd_reg_enc by lia. cbn [bind]. rewrite read_uleb128_enc by lia. reflexivity.
  - (* val_offset_sf *)
    opcode. rewrite <- app_assoc, rd_reg_enc by lia. cbn [bind]. rewrite enc_sleb_read by apply (andb_prop _ _ Hw). reflexivity.
  - (* val_expression *)
    opcode. rewrite <- app_assoc, rd_reg_enc by lia. cbn [bind].
    rewrite (rd_expr_enc dbg off _ (n2b 22 :: enc_uleb r) e rest) by (auto; lia).
    cbn [bind length]. unfold ulen. do 4 f_equal. lia.
  - (* GNU_args_size *) opcode. rewrite read_uleb128_enc by lia. reflexivity.
  - (* AARCH64_negate_ra_state *) opcode. reflexivity.
Qed.

(* in particular for the 24 forms whose operands are unsigned *)
Theorem insn_decode_unsigned_thm dbg be asize aa off w rest :
  valid_asize asize = true -> wire_ok asize w = true -> unsigned_wire w = true ->
  parse_insn dbg be asize aa off (enc_wire be asize w ++ rest) = decode_expect aa off w rest.
Proof. intros Hv Hw _. apply insn_decode_thm; assumption. Qed.

Lemma uexpr_eqb_eq a b : uexpr_eqb a b = true <-> a = b.
Proof.
  destruct a as [o1 l1], b as [o2 l2]. unfold uexpr_eqb. cbn [ue_off ue_len].
  rewrite andb_true_iff, !N.eqb_eq. split; [intros [-> ->]; reflexivity|intros H; inversion H; auto].
Qed.

Lemma rule_eqb_eq a b : rule_eqb a b = true <-> a = b.
Proof.
  destruct a, b; cbn [rule_eqb]; split; intros H; try discriminate; try reflexivity;
    try (apply Z.eqb_eq in H; subst; reflexivity);
    try (apply N.eqb_eq in H; subst; reflexivity);
    try (apply uexpr_eqb_eq in H; subst; reflexivity);
    inversion H; subst;
    try apply Z.eqb_refl; try apply N.eqb_refl; try (apply uexpr_eqb_eq; reflexivity).
Qed.

Lemma lookup_in r x m : lookup r m = Some x -> In (r, x) m.
Proof.
  induction m as [|[k y] m IH]; cbn [lookup]; [discriminate|].
  destruct (N.eqb_spec k r) as [->|Hne]; [intros H; inversion H; left; reflexivity|].
  intros H. right. apply IH. exact H.
Qed.

Lemma in_lookup r x m : nodup m -> In (r, x) m -> lookup r m = Some x.
Proof.
  unfold nodup. induction m as [|[k y] m IH]; intros Hn Hi; [contradiction|].
  cbn [keys map fst] in Hn. inversion Hn as [|? ? Hk Hd]; subst. cbn [lookup].
  destruct Hi as [Hi|Hi].
  - inversion Hi; subst. rewrite N.eqb_refl. reflexivity.
  - destruct (N.eqb_spec k r) as [->|Hne]; [|apply IH; assumption].
    exfalso. apply Hk. change (In r (keys m)). apply (lookup_some_in r m x). apply IH; assumption.
Qed.

Lemma half_eq a b :
  forallb (fun p => orule_eqb (Some (snd p)) (rm_get (fst p) b)) a = true <->
  (forall r x, In (r, x) a -> lookup r b = Some x).
Proof.
  rewrite forallb_forall. split.
  - intros H r x Hi. specialize (H (r, x) Hi). cbn [fst snd] in H. unfold rm_get in H.
    destruct (lookup r b) as [y|]; cbn [orule_eqb] in H; [|discriminate].
    apply rule_eqb_eq in H. subst. reflexivity.
  - intros H [r x] Hi. cbn [fst snd]. unfold rm_get. rewrite (H r x Hi). cbn [orule_eqb].
    apply rule_eqb_eq. reflexivity.
Qed.
