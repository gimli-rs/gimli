(* Proofs/WriterGlueProofs.v — the glue between C11 (UnitWr), C15 (OpWr) and C16 (ListsWr):
   facts about the composed model Model/UnitGlueWr.v obtained by COMPOSING the theorems of the three
   properties (nothing about expressions, units or lists is re-proved here). *)
From Coq Require Import List NArith ZArith Bool Lia ZifyBool ZifyN ZifyNat.
From Coq.Strings Require Import Byte.
Require Import GV.Base.Res GV.Base.Byt GV.Base.Ints GV.Spec.LebSpec GV.Model.Leb GV.Model.Prim.
Require Import GV.Spec.UnitWrSpec GV.Model.UnitWr GV.Proofs.Lib GV.Proofs.UnitWrProofs GV.Proofs.UnitRoundtrip.
Require Import GV.Model.UnitGlueWr.
Require GV.Spec.OpEncSpec GV.Model.OpWr GV.Proofs.OpWrProofs GV.Proofs.OpWrDec GV.Proofs.OpWrTotal GV.Proofs.OpRoundtrip.
Require GV.Model.OpDec.
Require GV.Spec.ListWrSpec GV.Model.ListsWr GV.Model.ListsRd GV.Proofs.ListsWrProofs GV.Proofs.ListsRoundtrip.
Import ListNotations.
Local Open Scope N_scope.

Module OW := GV.Model.OpWr.
Module OP := GV.Proofs.OpWrProofs.
Module OD := GV.Proofs.OpWrDec.
Module OT := GV.Proofs.OpWrTotal.
Module ORT := GV.Proofs.OpRoundtrip.

Lemma blen_same (bs : list byte) : OW.blen bs = UnitWr.blen bs.
Proof. reflexivity. Qed.

(* OpWr and UnitWr each define `blen`; lia has to see that both are N.of_nat (length _) *)
Local Ltac blia := unfold OW.blen, UnitWr.blen in *; lia.

(* the table Operation::write sees while the DIEs of the unit described by `cx` are written *)
Definition cx_uo (cx : wcx) : OW.uoffs := ouo (wc_unit_off cx) (wc_entries cx).
Definition cx_oe (cx : wcx) : OW.enc := oenc (wc_enc cx) (wc_be cx).

(* the debug_assert_form! of the Exprloc arm compares form() with the same version test: it cannot fire *)
Lemma assert_exprloc dbg e x :
  (if 4 <=? e_ver e then assert_form dbg e (AvExprloc x) DW_FORM_exprloc
   else assert_form dbg e (AvExprloc x) DW_FORM_block) = Ok tt.
Proof.
  unfold assert_form, dassert. cbn [av_form fst]. destruct (4 <=? e_ver e); rewrite N.eqb_refl; destruct dbg; reflexivity.
Qed.

(* what AttributeValue::write does for Exprloc(ex), in the vocabulary of the three models: the emitted
   bytes are a ULEB prefix `l` and the bytes `body` Expression::write appends at pos + |l|; the UnitWr value
   with its opaque Expression instantiated by (size_expr, body) is written to the very same wops; the fix-ups
   are those Expression::write pushed. *)
Lemma gav_write_expr_inv dbg cx pos ex ops fx :
  gav_write dbg cx pos (GExpr ex) = Ok (ops, fx) ->
  exists size l body fx0,
    OW.size_expr dbg (cx_oe cx) (Some (cx_uo cx)) ex = Ok size /\
    write_uleb128 size = Ok l /\
    OW.write_expr dbg (cx_oe cx) (Some (cx_uo cx)) true (pos + UnitWr.blen l) ex = Ok (body, fx0) /\
    ops = [WB l; WB body] /\ fx = map gfix fx0 /\
    av_write dbg cx (inst dbg (cx_oe cx) (cx_uo cx) (pos + UnitWr.blen l) (GExpr ex)) = Ok ops.
Proof.
  intros H. unfold gav_write in H. fold (cx_oe cx) (cx_uo cx) in H.
  apply bind_ok in H. destruct H as [size [Es H]].
  apply bind_ok in H. destruct H as [l [El H]].
  apply bind_ok in H. destruct H as [[body fx0] [Ew H]].
  cbn [fst snd] in H. injection H as <- <-.
  exists size, l, body, fx0. repeat (split; [first [assumption|reflexivity]|]).
  unfold inst, av_write. cbn [x_size x_out]. rewrite assert_exprloc. cbn [bind]. rewrite Es. cbn [bind]. rewrite El. cbn [bind]. rewrite Ew. cbn [bind fst]. reflexivity.
Qed.

(* for every other value the composed writer is UnitWr's *)
Lemma gav_write_plain_inv dbg cx pos v ops fx :
  gav_write dbg cx pos (GV v) = Ok (ops, fx) -> av_write dbg cx v = Ok ops /\ fx = ops_fixups pos ops.
Proof.
  intros H. unfold gav_write in H. apply bind_ok in H. destruct H as [o [E H]]. injection H as <- <-. tauto.
Qed.

(* size() does not look at the bytes *)
Lemma av_size_inst_base dbg e lpv oe uo b1 b2 v :
  av_size dbg e lpv (inst dbg oe uo b1 v) = av_size dbg e lpv (inst dbg oe uo b2 v).
Proof. destruct v; reflexivity. Qed.

(* the hypothesis C11 carries about an opaque Expression ("predicted size = bytes written") is C15's expr_size
   for the instantiated one *)
Lemma inst_expr_ok dbg oe uo base ex :
  (forall bs fx, OW.write_expr dbg oe (Some uo) true base ex = Ok (bs, fx) -> OW.blen bs < 2 ^ 64) ->
  expr_ok (inst dbg oe uo base (GExpr ex)).
Proof.
  intros B. cbn [inst expr_ok x_out x_size]. intros bs H.
  apply bind_ok in H. destruct H as [[b f] [E H]]. cbn [fst] in H. injection H as <-.
  exact (OP.expr_size_write dbg oe (Some uo) true base ex b f E (B _ _ E)).
Qed.

(* opaque Exprloc values may still be mixed in (GV (AvExprloc x)); they keep C11's hypothesis *)
Definition gexpr_ok (v : gval) : Prop := match v with GV v => expr_ok v | GExpr _ => True end.

(* AttributeValue::Exprloc(ex) written by the composed model at position `pos` of .debug_info:
     * C03: Attr.parse_attribute under the specification the writer stores (form exprloc from version 4, block
       before) consumes exactly the written bytes and yields a value whose expression block is `body`;
     * C07: OpDec's OperationIter over `body` ends normally and yields the reader forms of the normal forms of
       the built operations (typed references carry entry_offset under the unit's table: see normal_form);
     * layout: `body` starts at pos + |prefix|, the k-th operation at offsets[k]; the fix-ups pushed to
       sections.debug_info_fixups are exactly those of that layout (laid), converted by gfix. *)
Theorem exprloc_attr_read_lemma dbg dbg' rdbg cx pos name ex ops fx rest :
  gav_write dbg cx pos (GExpr ex) = Ok (ops, fx) ->
  forallb OW.wf_op ex = true -> OW.wf_uoffs (Some (cx_uo cx)) = true -> forallb OD.decodable ex = true ->
  pos + ops_len ops < 2 ^ 63 -> AttrProofs.addr_size_ok (renc cx) ->
  exists l body fx0 offsets dl ros val,
    ops_bytes ops = l ++ body /\
    OpEncSpec.rd_uleb (l ++ body ++ rest) = Some (UnitWr.blen body, body ++ rest) /\
    AT.parse_attribute dbg' (renc cx)
       (AT.mkSpec name (if 4 <=? e_ver (wc_enc cx) then DW_FORM_exprloc else DW_FORM_block) 0)
       (ops_bytes ops ++ rest) = Ok (val, rest) /\
    AT.exprloc_value val = Some body /\
    OpDec.operations rdbg (ORT.renc (OP.dcfg_of (cx_oe cx))) body = (ros, None) /\
    map (fun x => ORT.tr (snd x)) dl = map Some ros /\
    OD.decoded (fun p o d => exists b, OD.normal_form dbg (cx_oe cx) (Some (cx_uo cx)) true offsets p o b d)
               (pos + UnitWr.blen l) ex offsets dl /\
    OP.laid (OW.write_op dbg (cx_oe cx) (Some (cx_uo cx)) true offsets) (pos + UnitWr.blen l) ex offsets body fx0 /\
    fx = map gfix fx0.
Proof.
  intros H Hwf Hu Hdec B HA.
  destruct (gav_write_expr_inv _ _ _ _ _ _ H) as [size [l [body [fx0 [Es [El [Ew [-> [-> W]]]]]]]]].
  rewrite !ops_len_cons, ops_len_nil in B. cbn [op_bytes] in B.
  assert (Bb : pos + UnitWr.blen l + OW.blen body < 2 ^ 63) by (blia).
  destruct (ORT.decode_written_by_reader_lemma dbg rdbg (cx_oe cx) (Some (cx_uo cx)) true (pos + UnitWr.blen l) ex body fx0
              Hwf Hu Hdec Bb Ew) as [offsets [dl [ros [Eo [Hd [Hops Htr]]]]]].
  destruct (OP.write_expr_laid dbg (cx_oe cx) (Some (cx_uo cx)) true (pos + UnitWr.blen l) ex body fx0 Ew ltac:(lia))
    as [offsets' [Eo' Hl]].
  rewrite Eo in Eo'. injection Eo' as <-.
  assert (Esz := OP.expr_size_write dbg (cx_oe cx) (Some (cx_uo cx)) true _ ex body fx0 Ew ltac:(blia)).
  rewrite Es in Esz. injection Esz as ->.
  set (v := inst dbg (cx_oe cx) (cx_uo cx) (pos + UnitWr.blen l) (GExpr ex)) in *.
  assert (Xo : x_out (match v with AvExprloc x => x | _ => mkX (Ok 0) (Ok []) end) = Ok body).
  { unfold v. cbn [inst x_out]. rewrite Ew. reflexivity. }
  destruct (attr_read_by_reader_lemma dbg dbg' cx (fun _ => zeros (wsz (wc_enc cx))) name v [WB l; WB body] rest W)
    as [val [Hp [Hv _]]].
  - apply (inst_expr_ok dbg (cx_oe cx) (cx_uo cx) (pos + UnitWr.blen l) ex).
    intros bs fx E. rewrite Ew in E. injection E as <- <-. lia.
  - unfold v. cbn [inst av_typed x_size x_out]. exists (OW.blen body), body. rewrite Es, Ew. cbn [bind fst].
    repeat split; try reflexivity. blia.
  - exact I.
  - intros _. apply zeros_blen.
  - exact HA.
  - exists l, body, fx0, offsets, dl, ros, val.
    assert (Eb : ops_bytes [WB l; WB body] = l ++ body).
    { unfold ops_bytes. cbn [flat_map op_bytes]. now rewrite app_nil_r. }
    assert (Er : ops_resolved (fun _ => zeros (wsz (wc_enc cx))) [WB l; WB body] = l ++ body).
    { unfold ops_resolved. cbn [flat_map op_resolved op_bytes]. now rewrite app_nil_r. }
    split; [exact Eb|]. split.
    { change (UnitWr.blen body) with (OW.blen body). apply OP.rd_uleb_written; [exact El|blia]. }
    split.
    { rewrite Eb, <- Er. unfold v in Hp. cbn [inst av_form fst snd ic_of] in Hp. exact Hp. }
    split.
    { unfold v in Hv. cbn [inst av_form av_fd fst snd ic_of x_out] in Hv. rewrite Ew in Hv. cbn [bind fst] in Hv.
      destruct (4 <=? e_ver (wc_enc cx)); cbn [FS.form_value] in Hv; injection Hv as <-; reflexivity. }
    repeat (split; [assumption|]). reflexivity.
Qed.

Lemma sum_sizes_app dbg szf : forall a acc b,
  OW.sum_sizes dbg szf acc (a ++ b) = (let* x := OW.sum_sizes dbg szf acc a in OW.sum_sizes dbg szf x b).
Proof.
  induction a as [|o r IH]; intros acc b; cbn [app].
  - rewrite OP.sum_sizes_nil. reflexivity.
  - rewrite !OP.sum_sizes_cons. destruct (szf o) as [s| | |]; cbn [bind]; try reflexivity.
    destruct (OW.uadd dbg acc s) as [a'| | |]; cbn [bind]; try reflexivity. apply IH.
Qed.

Module LR := GV.Model.ListsRd.
Module LW := GV.Model.ListsWr.

(* the values Dwarf::attr_ranges_offset / attr_locations_offset distinguish, from Attribute::value() *)
Definition lrd_aval (v : FS.attr_value) : LR.aval :=
  match v with
  | FS.VRangeListsRef o => LR.AvRangesRef o
  | FS.VDebugRngListsIndex i => LR.AvRnglistx i
  | FS.VLocationListsRef o => LR.AvLocRef o
  | FS.VDebugLocListsIndex i => LR.AvLoclistx i
  | FS.VAddr a => LR.AvAddr a
  | FS.VDebugAddrIndex i => LR.AvAddrx i
  | FS.VUdata n => LR.AvUdata n
  | _ => LR.AvOther
  end.

Definition DW_AT_location : N := 2.
Definition DW_AT_ranges : N := 85.

Definition list_ref (isloc : bool) (i : nat) : aval := if isloc then AvLocationListRef i else AvRangeListRef i.
Definition list_offs (isloc : bool) (cx : wcx) : list N := if isloc then wc_loc cx else wc_rng cx.
Definition list_at (isloc : bool) : N := if isloc then DW_AT_location else DW_AT_ranges.

(* DW_AT_ranges = RangeListRef(id) / DW_AT_location = LocationListRef(id): the attribute reader model, under the
   specification the writer stores (sec_offset; data4/data8 in DWARF 2/3), reads back a section offset that
   Attribute::value() turns into RangeListsRef(o) / LocationListsRef(o) with o = offsets.get(id): the number
   the list writer returned for that list *)
Theorem list_ref_attr_read_lemma dbg dbg' cx (isloc : bool) i ops rest :
  av_write dbg cx (list_ref isloc i) = Ok ops ->
  (forall o, nth_error (list_offs isloc cx) i = Some o -> o < 2 ^ 64) ->
  AttrProofs.addr_size_ok (renc cx) ->
  exists o val,
    nth_error (list_offs isloc cx) i = Some o /\
    AT.parse_attribute dbg' (renc cx)
       (AT.mkSpec (list_at isloc) (fst (av_form (wc_enc cx) (list_ref isloc i))) 0) (ops_bytes ops ++ rest) = Ok (val, rest) /\
    AT.attr_normalise (list_at isloc) val = (if isloc then FS.VLocationListsRef o else FS.VRangeListsRef o) /\
    lrd_aval (AT.attr_normalise (list_at isloc) val) = (if isloc then LR.AvLocRef o else LR.AvRangesRef o).
Proof.
  intros W Hb HA.
  assert (Hw : exists o b, nth_error (list_offs isloc cx) i = Some o /\ write_udata (wc_be cx) o (wsz (wc_enc cx)) = Ok b /\ ops = [WB b]).
  { destruct isloc; cbn [list_ref list_offs] in *; unfold av_write in W;
      apply bind_ok in W; destruct W as [_ [_ W]];
      apply bind_ok in W; destruct W as [o [Eo W]];
      apply bind_ok in W; destruct W as [b [Eb W]]; injection W as <-;
      unfold idx_get, unwrap in Eo.
    - destruct (nth_error (wc_loc cx) i) as [o'|]; [|discriminate]. injection Eo as ->. eauto.
    - destruct (nth_error (wc_rng cx) i) as [o'|]; [|discriminate]. injection Eo as ->. eauto. }
  destruct Hw as [o [b [Eo [Eb ->]]]].
  assert (Hf : fits o (wsz (wc_enc cx)) = None).
  { assert (F := write_udata_fits (wc_be cx) o (wsz (wc_enc cx))). destruct (fits o (wsz (wc_enc cx))); [congruence|reflexivity]. }
  destruct (attr_read_by_reader_lemma dbg dbg' cx (fun _ => zeros (wsz (wc_enc cx))) (list_at isloc) (list_ref isloc i) [WB b] rest W)
    as [val [Hp [Hv _]]].
  - destruct isloc; exact I.
  - destruct isloc; cbn [list_ref av_typed list_offs] in *; eauto.
  - destruct isloc; cbn [list_ref av_ranges list_offs] in *; unfold nth0; rewrite Eo; apply Hb; exact Eo.
  - intros _. apply zeros_blen.
  - exact HA.
  - exists o, val. split; [exact Eo|].
    assert (Er : ops_resolved (fun _ => zeros (wsz (wc_enc cx))) [WB b] = ops_bytes [WB b]) by reflexivity.
    rewrite Er in Hp.
    assert (Hic : ic_of (snd (av_form (wc_enc cx) (list_ref isloc i))) = 0%Z) by (destruct isloc; reflexivity).
    rewrite Hic in Hp, Hv. split; [exact Hp|].
    assert (Hval : val = FS.VSecOffset o).
    { destruct isloc; cbn [list_ref list_at av_fd fst snd list_offs] in *; unfold nth0 in Hv; rewrite Eo in Hv;
        unfold renc in Hv; destruct (wc_enc cx) as [ver fmt asz]; cbn [e_ver e_fmt64 e_asz] in Hv;
        unfold DW_AT_location, DW_AT_ranges in Hv;
        destruct ((ver =? 2) || (ver =? 3)) eqn:E23.
      all: try (destruct fmt; cbn [FS.form_value FS.fmt64 FS.version negb andb] in Hv;
                unfold FS.legacy_section_offset in Hv; cbn [existsb FS.legacy_pointer_names N.eqb Pos.eqb orb] in Hv;
                injection Hv as <-; reflexivity).
      all: cbn [FS.form_value] in Hv; injection Hv as <-; reflexivity. }
    subst val. destruct isloc; split; reflexivity.
Qed.

Module LP := GV.Proofs.ListsWrProofs.
Module LRT := GV.Proofs.ListsRoundtrip.

(* the attribute step in the vocabulary of the C08 reader helpers: Dwarf::attr_ranges_offset /
   attr_locations_offset on Attribute::value() of what the C03 reader parsed = the list writer's offset *)
Lemma list_ref_attr_offset dbg dbg' cx (isloc : bool) i ops rest (u : LR.uctx) :
  av_write dbg cx (list_ref isloc i) = Ok ops ->
  (forall o, nth_error (list_offs isloc cx) i = Some o -> o < 2 ^ 64) ->
  AttrProofs.addr_size_ok (renc cx) -> LR.u_dwo u = false ->
  exists o val,
    nth_error (list_offs isloc cx) i = Some o /\
    AT.parse_attribute dbg' (renc cx)
       (AT.mkSpec (list_at isloc) (fst (av_form (wc_enc cx) (list_ref isloc i))) 0) (ops_bytes ops ++ rest) = Ok (val, rest) /\
    (if isloc then LR.attr_locations_offset u (lrd_aval (AT.attr_normalise (list_at isloc) val))
     else LR.attr_ranges_offset u (lrd_aval (AT.attr_normalise (list_at isloc) val))) = Ok (Some o).
Proof.
  intros W Hb HA Hd. destruct (list_ref_attr_read_lemma dbg dbg' cx isloc i ops rest W Hb HA) as [o [val [Eo [Hp [_ Hl]]]]].
  exists o, val. split; [exact Eo|]. split; [exact Hp|]. rewrite Hl. destruct isloc; cbn [LR.attr_locations_offset LR.attr_ranges_offset].
  - reflexivity.
  - unfold LR.ranges_offset_from_raw. rewrite Hd. reflexivity.
Qed.

Section list_attrs.
  Variables (dbg dbg' rdbg be fmt64 : bool) (version asz : N) (attrs : list (N * ListWrSpec.attrval)) (rstart lstart : N)
            (rtbl : list (list ListWrSpec.wrange)) (ltbl : list (list ListWrSpec.wloc))
            (rb lb : list byte) (ro lo : list N) (rsec lsec other : list byte) (cx : wcx) (u : LR.uctx).
  Hypothesis Hw : LW.unit_write_lists be fmt64 version asz attrs rstart lstart rtbl ltbl = Ok ((rb, ro), (lb, lo)).
  Hypothesis Hrs : N.of_nat (length rsec) = rstart.
  Hypothesis Hls : N.of_nat (length lsec) = lstart.
  Hypothesis Hwf : LP.unit_wf rtbl ltbl.
  (* the DIE writer's context is the one Unit::write builds from the list writers' results *)
  Hypothesis Hcx : wc_enc cx = mkEnc version fmt64 asz /\ wc_be cx = be /\ wc_rng cx = ro /\ wc_loc cx = lo.
  Hypothesis Hfit : Forall (fun o => o < 2 ^ 64) (ro ++ lo).
  Hypothesis HA : AttrProofs.addr_size_ok (renc cx).
  Hypothesis Hd : LR.u_dwo u = false.

  Let offs_fit (isloc : bool) i : forall o, nth_error (list_offs isloc cx) i = Some o -> o < 2 ^ 64.
  Proof.
    destruct Hcx as [_ [_ [Er El]]]. rewrite Forall_forall in Hfit. intros o Ho. apply Hfit. apply in_or_app.
    destruct isloc; cbn [list_offs] in Ho; [right; rewrite <- El|left; rewrite <- Er]; eapply nth_error_In; exact Ho.
  Qed.

  (* DWARF 5 *)
  Theorem list_attrs_roundtrip_v5_lemma : version = 5 -> LP.size_ok asz ->
    (forall i l ops rest, nth_error rtbl i = Some l -> av_write dbg cx (AvRangeListRef i) = Ok ops ->
       exists o val es,
         AT.parse_attribute dbg' (renc cx) (AT.mkSpec DW_AT_ranges (fst (av_form (wc_enc cx) (AvRangeListRef i))) 0)
                            (ops_bytes ops ++ rest) = Ok (val, rest) /\
         LR.attr_ranges_offset u (lrd_aval (AT.attr_normalise DW_AT_ranges val)) = Ok (Some o) /\
         ListWrSpec.ents_of (map ListWrSpec.loc_of_range l) = Some es /\
         LR.raw_ranges_all rdbg (LRT.rd_cfg be asz 5) other (rsec ++ rb) o = Ok (map LR.EvItem (map LRT.tr_ent es)) /\
         forall x base, N.of_nat (length (LR.x_addr x)) < two64 ->
           exists rs, ListWrSpec.meaning_rng asz base l = Some rs /\
             LR.ranges_all rdbg (LRT.rd_cfg be asz 5) x other (rsec ++ rb) o base = Ok (map LR.EvItem rs)) /\
    (forall i l ops rest, nth_error ltbl i = Some l -> av_write dbg cx (AvLocationListRef i) = Ok ops ->
       exists o val es,
         AT.parse_attribute dbg' (renc cx) (AT.mkSpec DW_AT_location (fst (av_form (wc_enc cx) (AvLocationListRef i))) 0)
                            (ops_bytes ops ++ rest) = Ok (val, rest) /\
         LR.attr_locations_offset u (lrd_aval (AT.attr_normalise DW_AT_location val)) = Ok (Some o) /\
         ListWrSpec.ents_of l = Some es /\
         LR.raw_locations_all rdbg (LRT.rd_cfg be asz 5) false other (lsec ++ lb) o = Ok (map LR.EvItem (map LRT.tr_loc es)) /\
         forall x base, N.of_nat (length (LR.x_addr x)) < two64 ->
           exists rs, ListWrSpec.meaning_loc asz base l = Some rs /\
             LR.locations_all rdbg (LRT.rd_cfg be asz 5) false x other (lsec ++ lb) o base = Ok (map LR.EvItem rs)).
  Proof.
    intros Hv Hs. subst version.
    destruct (LRT.rt_unit_reader_v5 rdbg be fmt64 asz attrs rstart lstart rtbl ltbl rb ro lb lo rsec lsec other Hw Hs Hrs Hls Hwf)
      as [R L].
    destruct Hcx as [_ [_ [Er El]]]. split.
    - intros i l ops rest Hl W. destruct (R i l Hl) as [o [es [Ho [He [Hraw Hres]]]]].
      destruct (list_ref_attr_offset dbg dbg' cx false i ops rest u W (offs_fit false i) HA Hd) as [o' [val [Eo [Hp Hoff]]]].
      cbn [list_offs] in Eo. rewrite Er, Ho in Eo. injection Eo as <-. exists o, val, es. repeat (split; [assumption|]). exact Hres.
    - intros i l ops rest Hl W. destruct (L i l Hl) as [o [es [Ho [He [Hraw Hres]]]]].
      destruct (list_ref_attr_offset dbg dbg' cx true i ops rest u W (offs_fit true i) HA Hd) as [o' [val [Eo [Hp Hoff]]]].
      cbn [list_offs] in Eo. rewrite El, Ho in Eo. injection Eo as <-. exists o, val, es. repeat (split; [assumption|]). exact Hres.
  Qed.

  (* DWARF 2-4 *)
  Theorem list_attrs_roundtrip_v4_lemma : 2 <= version <= 4 ->
    (forall i l ops rest, nth_error rtbl i = Some l -> av_write dbg cx (AvRangeListRef i) = Ok ops ->
       exists o val ps,
         AT.parse_attribute dbg' (renc cx) (AT.mkSpec DW_AT_ranges (fst (av_form (wc_enc cx) (AvRangeListRef i))) 0)
                            (ops_bytes ops ++ rest) = Ok (val, rest) /\
         LR.attr_ranges_offset u (lrd_aval (AT.attr_normalise DW_AT_ranges val)) = Ok (Some o) /\
         ListWrSpec.pairs_of (map ListWrSpec.loc_of_range l) = Some ps /\
         LR.raw_ranges_all rdbg (LRT.rd_cfg be asz version) (rsec ++ rb) other o = Ok (map LR.EvItem (map LRT.tr_ent ps)) /\
         forall x, N.of_nat (length (LR.x_addr x)) < two64 ->
           exists rs, ListWrSpec.meaning_rng asz (ListWrSpec.unit_base attrs) l = Some rs /\
             LR.ranges_all rdbg (LRT.rd_cfg be asz version) x (rsec ++ rb) other o (ListWrSpec.unit_base attrs) = Ok (map LR.EvItem rs)) /\
    (forall i l ops rest, nth_error ltbl i = Some l -> av_write dbg cx (AvLocationListRef i) = Ok ops ->
       exists o val ps,
         AT.parse_attribute dbg' (renc cx) (AT.mkSpec DW_AT_location (fst (av_form (wc_enc cx) (AvLocationListRef i))) 0)
                            (ops_bytes ops ++ rest) = Ok (val, rest) /\
         LR.attr_locations_offset u (lrd_aval (AT.attr_normalise DW_AT_location val)) = Ok (Some o) /\
         ListWrSpec.pairs_of l = Some ps /\
         LR.raw_locations_all rdbg (LRT.rd_cfg be asz version) false (lsec ++ lb) other o = Ok (map LR.EvItem (map LRT.tr_loc ps)) /\
         forall x, N.of_nat (length (LR.x_addr x)) < two64 ->
           exists rs, ListWrSpec.meaning_loc asz (ListWrSpec.unit_base attrs) l = Some rs /\
             LR.locations_all rdbg (LRT.rd_cfg be asz version) false x (lsec ++ lb) other o (ListWrSpec.unit_base attrs) = Ok (map LR.EvItem rs)).
  Proof.
    intros Hv.
    destruct (LRT.rt_unit_reader_v4 rdbg be fmt64 version asz attrs rstart lstart rtbl ltbl rb ro lb lo rsec lsec other Hw Hv Hrs Hls Hwf)
      as [R L].
    destruct Hcx as [_ [_ [Er El]]]. split.
    - intros i l ops rest Hl W. destruct (R i l Hl) as [o [ps [Ho [He [Hraw Hres]]]]].
      destruct (list_ref_attr_offset dbg dbg' cx false i ops rest u W (offs_fit false i) HA Hd) as [o' [val [Eo [Hp Hoff]]]].
      cbn [list_offs] in Eo. rewrite Er, Ho in Eo. injection Eo as <-. exists o, val, ps. repeat (split; [assumption|]). exact Hres.
    - intros i l ops rest Hl W. destruct (L i l Hl) as [o [ps [Ho [He [Hraw Hres]]]]].
      destruct (list_ref_attr_offset dbg dbg' cx true i ops rest u W (offs_fit true i) HA Hd) as [o' [val [Eo [Hp Hoff]]]].
      cbn [list_offs] in Eo. rewrite El, Ho in Eo. injection Eo as <-. exists o, val, ps. repeat (split; [assumption|]). exact Hres.
  Qed.
End list_attrs.

Module WS := GV.Spec.ListWrSpec.

(* one expression inside a list entry that starts at section position `pos` with the bytes `h` before the
   expression: what loc.rs write_expression appends is what C16's raw model appends for the byte string `d`
   the expression is written as, and the operations (hence the fix-ups, C15.ref_fixups_at_operands) are laid out from
   pos + |h| + |length prefix| *)
Lemma gentry_tail_raw dbg oe uo pos h ex bs fx :
  gentry_tail dbg oe uo pos h ex = Ok (bs, fx) -> pos + OW.blen bs < 2 ^ 64 ->
  exists p d offsets,
    bs = h ++ p ++ d /\
    LW.opt_expression true (OW.e_be oe) (OW.e_version oe) d = Ok (p ++ d) /\
    OW.write_expr dbg oe (Some uo) true (pos + OW.blen h + OW.blen p) ex = Ok (d, fx) /\
    OP.laid (OW.write_op dbg oe (Some uo) true offsets) (pos + OW.blen h + OW.blen p) ex offsets d fx.
Proof.
  intros H B. unfold gentry_tail in H. apply bind_ok in H. destruct H as [[x fx'] [E H]].
  cbn [fst snd] in H. injection H as <- <-.
  unfold OW.write_loc_expression in E.
  apply bind_ok in E. destruct E as [size [Hs E]].
  apply bind_ok in E. destruct E as [p [Hp E]].
  apply bind_ok in E. destruct E as [[d f] [Hw E]]. injection E as <- <-.
  rewrite !OP.blen_app in B.
  rewrite (OP.expr_size_write _ _ _ _ _ _ _ _ Hw) in Hs by (blia). injection Hs as <-.
  destruct (OP.write_expr_laid dbg oe (Some uo) true _ ex d f Hw ltac:(blia)) as [offsets [_ Hl]].
  exists p, d, offsets. split; [reflexivity|]. split.
  - unfold LW.opt_expression, LW.write_expression. change (N.of_nat (length d)) with (OW.blen d). rewrite Hp. reflexivity.
  - split; [exact Hw|exact Hl].
Qed.

(* the C16 view of a location: the expression replaced by the bytes it is written as *)
Inductive raw_rel (dbg : bool) (oe : OW.enc) (uo : OW.uoffs) : gloc -> WS.wloc -> Prop :=
| rr_base a : raw_rel dbg oe uo (GLBase a) (WS.LBase a)
| rr_pair b e ex d base fx : OW.write_expr dbg oe (Some uo) true base ex = Ok (d, fx) ->
    raw_rel dbg oe uo (GLOffsetPair b e ex) (WS.LOffsetPair b e d)
| rr_se b e ex d base fx : OW.write_expr dbg oe (Some uo) true base ex = Ok (d, fx) ->
    raw_rel dbg oe uo (GLStartEnd b e ex) (WS.LStartEnd b e d)
| rr_sl b n ex d base fx : OW.write_expr dbg oe (Some uo) true base ex = Ok (d, fx) ->
    raw_rel dbg oe uo (GLStartLength b n ex) (WS.LStartLength b n d)
| rr_def ex d base fx : OW.write_expr dbg oe (Some uo) true base ex = Ok (d, fx) ->
    raw_rel dbg oe uo (GLDefault ex) (WS.LDefault d).

(* where the expression of an entry written at `pos` as `bs` sits, with the fix-ups it pushed *)
Definition entry_laid (dbg : bool) (oe : OW.enc) (uo : OW.uoffs) (pos : N) (g : gloc) (bs : list byte)
           (fx : list OW.fixup) : Prop :=
  match g with
  | GLBase _ => fx = []
  | GLOffsetPair _ _ ex | GLStartEnd _ _ ex | GLStartLength _ _ ex | GLDefault ex =>
      exists h p d offsets, bs = h ++ p ++ d /\
        OP.laid (OW.write_op dbg oe (Some uo) true offsets) (pos + OW.blen h + OW.blen p) ex offsets d fx
  end.

Lemma gwrite_entry_v5_raw dbg oe uo asz pos g bs fx :
  gwrite_entry_v5 dbg oe uo asz pos g = Ok (bs, fx) -> pos + OW.blen bs < 2 ^ 64 ->
  exists r, raw_rel dbg oe uo g r /\
            LW.write_entry_v5 true (OW.e_be oe) (OW.e_version oe) asz r = Ok bs /\
            entry_laid dbg oe uo pos g bs fx.
Proof.
  intros H B. destruct g as [a|b e ex|b e ex|b n ex|ex]; cbn [gwrite_entry_v5] in H.
  1:{ apply bind_ok in H. destruct H as [x [E H]]. injection H as <- <-.
      exists (WS.LBase a). split; [constructor|]. split; [|reflexivity]. cbn [LW.write_entry_v5]. rewrite E. reflexivity. }
  (* the entries with an expression: the header fields, then the tail *)
  1-3: apply bind_ok in H; destruct H as [b1 [E1 H]]; apply bind_ok in H; destruct H as [b2 [E2 H]].
  all: destruct (gentry_tail_raw _ _ _ _ _ _ _ _ H B) as [p [d [offsets [-> [Ho [Hw Hl]]]]]];
    (eexists; split; [econstructor; exact Hw|]); split;
    [|cbn [entry_laid]; do 4 eexists; split; [reflexivity|exact Hl]]; cbn [LW.write_entry_v5].
  1-3: rewrite E1, E2; cbn [bind].
  all: rewrite Ho; cbn [bind app]; rewrite <- ?app_assoc; reflexivity.
Qed.

(* a written list as consecutive entries: (start position, entry, its bytes, its fix-ups) *)
Inductive list_laid (dbg : bool) (oe : OW.enc) (uo : OW.uoffs) : N -> list gloc -> list (list byte) -> list OW.fixup -> Prop :=
| ll_nil pos : list_laid dbg oe uo pos [] [] []
| ll_cons pos g gs bs chunks fx fxs :
    entry_laid dbg oe uo pos g bs fx -> list_laid dbg oe uo (pos + OW.blen bs) gs chunks fxs ->
    list_laid dbg oe uo pos (g :: gs) (bs :: chunks) (fx ++ fxs).

Lemma gwrite_list_v5_raw dbg oe uo asz : forall l pos bs fx,
  gwrite_list_v5 dbg oe uo asz pos l = Ok (bs, fx) -> pos + OW.blen bs < 2 ^ 64 ->
  exists raws chunks,
    Forall2 (raw_rel dbg oe uo) l raws /\
    LW.write_list_v5 true (OW.e_be oe) (OW.e_version oe) asz raws = Ok bs /\
    bs = concat chunks ++ [n2b 0] /\ list_laid dbg oe uo pos l chunks fx.
Proof.
  induction l as [|g r IH]; intros pos bs fx H B; cbn [gwrite_list_v5] in H.
  - injection H as <- <-. exists [], []. repeat split; constructor.
  - apply bind_ok in H. destruct H as [[eb ef] [E H]]. apply bind_ok in H. destruct H as [[rb rf] [Er H]].
    cbn [fst snd] in *. injection H as <- <-. rewrite OP.blen_app in B.
    destruct (gwrite_entry_v5_raw _ _ _ _ _ _ _ _ E ltac:(blia)) as [x [Hx [Hwx Hel]]].
    destruct (IH _ _ _ Er ltac:(blia)) as [raws [chunks [HF [Hw [-> Hll]]]]].
    exists (x :: raws), (eb :: chunks). split; [constructor; assumption|]. split.
    + cbn [LW.write_list_v5]. rewrite Hwx. cbn [bind]. rewrite Hw. reflexivity.
    + split; [cbn [concat]; now rewrite app_assoc|]. constructor; assumption.
Qed.

(* the DIE tree: the composed passes are UnitWr's passes on the tree whose opaque Expressions are instantiated *)

Section gdie_induction.
  Variable P : gdie -> Prop.
  Hypothesis step : forall id tag sib attrs ch, Forall P ch -> P (GDie id tag sib attrs ch).
  Fixpoint gdie_ind2 (d : gdie) : P d :=
    match d with
    | GDie id tag sib attrs ch =>
        step id tag sib attrs ch
          ((fix go (l : list gdie) : Forall P l :=
              match l with
              | [] => Forall_nil P
              | c :: r => Forall_cons c (gdie_ind2 c) (go r)
              end) ch)
    end.
End gdie_induction.

Fixpoint gdie_ids (d : gdie) : list nat :=
  match d with GDie id _ _ _ ch => id :: flat_map gdie_ids ch end.
Definition gdies_ids (l : list gdie) : list nat := flat_map gdie_ids l.

(* opaque Exprloc values mixed into the tree keep C11's hypothesis *)
Fixpoint gdie_ok (d : gdie) : Prop :=
  match d with
  | GDie _ _ _ attrs ch =>
      Forall (fun p => gexpr_ok (snd p)) attrs /\
      (fix go (l : list gdie) : Prop := match l with [] => True | c :: r => gdie_ok c /\ go r end) ch
  end.
Fixpoint gdies_ok (l : list gdie) : Prop := match l with [] => True | c :: r => gdie_ok c /\ gdies_ok r end.
Lemma gdie_ok_unfold id tag sib attrs ch :
  gdie_ok (GDie id tag sib attrs ch) = (Forall (fun p => gexpr_ok (snd p)) attrs /\ gdies_ok ch).
Proof. reflexivity. Qed.

Section glue_tree.
  Variables (dbg : bool) (cx : wcx).

  Fixpoint gwrite_list (l : list gdie) (p : N) : res (list wop * list fixup) :=
    match l with
    | [] => Ok ([], [])
    | k :: r =>
        let* o := gwrite_die dbg cx k p in
        let* rest := gwrite_list r (p + ops_len (fst o)) in
        Ok (fst o ++ fst rest, snd o ++ snd rest)
    end.

  Lemma gwrite_die_unfold id tag sib attrs ch pos :
    gwrite_die dbg cx (GDie id tag sib attrs ch) pos =
    (let* _ := (if dbg
                then let* here := debug_info_offset dbg (wc_unit cx) (wc_entries cx) (mkEid (wc_unit cx) id) in
                     dassert dbg (match here with Some o => o =? pos | None => false end)
                else Ok tt) in
     let* code := idx_get (wc_codes cx) id in
     let* cb := write_uleb128 code in
     let w := wsz (wc_enc cx) in
     let has_sib := sib && ghas_kids ch in
     let head := UnitWr.blen cb + (if has_sib then w else 0) in
     let* a := gattrs_write dbg cx (pos + head) attrs in
     match ch with
     | [] => Ok (WMark id :: WB cb :: fst a, snd a)
     | _ =>
         let* c := gwrite_list ch (pos + head + ops_len (fst a)) in
         let after := pos + head + ops_len (fst a) + ops_len (fst c) + 1 in
         let* sibb := (if has_sib
                       then let* next := chk_sub 64 dbg after (wc_unit_off cx) in
                            let* b := write_udata (wc_be cx) next w in Ok [WB b]
                       else Ok []) in
         Ok (WMark id :: WB cb :: sibb ++ fst a ++ fst c ++ [WB [x00]], snd a ++ snd c)
     end).
  Proof. reflexivity. Qed.

  (* a UnitWr value that is the composed value with its Expression instantiated under the unit's complete table *)
  Definition vrel (gv : gval) (a : aval) : Prop :=
    match gv with
    | GV v => a = v
    | GExpr ex => exists base, a = inst dbg (cx_oe cx) (cx_uo cx) base (GExpr ex)
    end.
  Definition arel (ga : N * gval) (a : N * aval) : Prop :=
    fst ga = fst a /\ vrel (snd ga) (snd a) /\ expr_ok (snd a).

  Fixpoint xrel (g : gdie) (d : die) {struct g} : Prop :=
    match g, d with
    | GDie id tag sib gattrs gch, Die id' tag' sib' attrs ch =>
        id = id' /\ tag = tag' /\ sib = sib' /\ Forall2 arel gattrs attrs /\
        (fix go (l : list gdie) (m : list die) {struct l} : Prop :=
           match l, m with
           | [], [] => True
           | x :: r, y :: s => xrel x y /\ go r s
           | _, _ => False
           end) gch ch
    end.
  Fixpoint xrel_list (l : list gdie) (m : list die) {struct l} : Prop :=
    match l, m with
    | [], [] => True
    | x :: r, y :: s => xrel x y /\ xrel_list r s
    | _, _ => False
    end.
  Lemma xrel_unfold id tag sib gattrs gch id' tag' sib' attrs ch :
    xrel (GDie id tag sib gattrs gch) (Die id' tag' sib' attrs ch) =
    (id = id' /\ tag = tag' /\ sib = sib' /\ Forall2 arel gattrs attrs /\ xrel_list gch ch).
  Proof. reflexivity. Qed.

  Lemma xrel_list_kids l m : xrel_list l m -> has_kids m = ghas_kids l.
  Proof. destruct l, m; cbn; tauto. Qed.

  Lemma xrel_expr_ok : forall g d, xrel g d -> die_expr_ok d.
  Proof.
    induction g as [id tag sib gattrs gch IH] using gdie_ind2. intros [id' tag' sib' attrs ch] H.
    rewrite xrel_unfold in H. destruct H as [_ [_ [_ [Ha Hc]]]]. rewrite die_expr_ok_unfold. split.
    - clear - Ha. induction Ha as [|x y l l' [_ [_ Hx]] _ IHa]; constructor; assumption.
    - clear Ha. revert ch Hc. induction IH as [|c r Hc' _ IHr]; intros [|y s] H; cbn [xrel_list dies_expr_ok] in *; try tauto.
      destruct H as [H1 H2]. split; [apply Hc'; exact H1|apply IHr; exact H2].
  Qed.

  Lemma xrel_ids : forall g d, xrel g d -> die_ids d = gdie_ids g.
  Proof.
    induction g as [id tag sib gattrs gch IH] using gdie_ind2. intros [id' tag' sib' attrs ch] H.
    rewrite xrel_unfold in H. destruct H as [<- [_ [_ [_ Hc]]]]. cbn [die_ids gdie_ids]. f_equal.
    revert ch Hc. induction IH as [|c r Hc' _ IHr]; intros [|y s] H; cbn [xrel_list flat_map] in *; try tauto.
    destruct H as [H1 H2]. rewrite (Hc' _ H1), (IHr _ H2). reflexivity.
  Qed.

  Lemma gattrs_write_sim : forall attrs pos aops afx,
    gattrs_write dbg cx pos attrs = Ok (aops, afx) -> Forall (fun p => gexpr_ok (snd p)) attrs ->
    pos + ops_len aops < 2 ^ 64 ->
    exists attrs', Forall2 arel attrs attrs' /\ attrs_write dbg cx attrs' = Ok aops.
  Proof.
    induction attrs as [|[n v] r IH]; intros pos aops afx H X B; cbn [gattrs_write] in H.
    - injection H as <- <-. exists []. split; [constructor|reflexivity].
    - apply bind_ok in H. destruct H as [[o f] [E H]]. apply bind_ok in H. destruct H as [[ro rf] [Er H]].
      cbn [fst snd] in *. injection H as <- <-. rewrite ops_len_app in B.
      inversion X as [|? ? X1 X2]; subst. cbn [snd] in X1.
      destruct (IH _ _ _ Er X2 ltac:(lia)) as [r' [HF Hw]].
      destruct v as [v|ex].
      + destruct (gav_write_plain_inv _ _ _ _ _ _ E) as [W _].
        exists ((n, v) :: r'). split.
        * constructor; [|exact HF]. split; [reflexivity|]. split; [reflexivity|exact X1].
        * cbn [attrs_write]. rewrite W. cbn [bind]. rewrite Hw. reflexivity.
      + destruct (gav_write_expr_inv _ _ _ _ _ _ E) as [size [l [body [fx0 [Es [El [Ew [-> [-> W]]]]]]]]].
        exists ((n, inst dbg (cx_oe cx) (cx_uo cx) (pos + UnitWr.blen l) (GExpr ex)) :: r'). split.
        * constructor; [|exact HF]. split; [reflexivity|]. split; [eexists; reflexivity|].
          apply inst_expr_ok. intros bs fx Eb. rewrite Ew in Eb. injection Eb as <- <-.
          rewrite !ops_len_cons, ops_len_nil in B. cbn [op_bytes] in B. blia.
        * cbn [attrs_write]. rewrite W. cbn [bind]. rewrite Hw. reflexivity.
  Qed.

  Lemma gwrite_list_sim ch :
    Forall (fun g => forall pos ops fx, gwrite_die dbg cx g pos = Ok (ops, fx) -> gdie_ok g ->
                     pos + ops_len ops < 2 ^ 64 -> exists d, xrel g d /\ write_die dbg cx d pos = Ok ops) ch ->
    forall pos ops fx, gwrite_list ch pos = Ok (ops, fx) -> gdies_ok ch -> pos + ops_len ops < 2 ^ 64 ->
    exists ch', xrel_list ch ch' /\ write_list dbg cx ch' pos = Ok ops.
  Proof.
    induction 1 as [|c r Hc _ IH]; intros pos ops fx H X B; cbn [gwrite_list] in H.
    - injection H as <- <-. exists []. split; [exact I|reflexivity].
    - apply bind_ok in H. destruct H as [[o f] [E H]]. apply bind_ok in H. destruct H as [[ro rf] [Er H]].
      cbn [fst snd] in *. injection H as <- <-. rewrite ops_len_app in B. destruct X as [X1 X2].
      destruct (Hc _ _ _ E X1 ltac:(lia)) as [d [Hd Wd]].
      destruct (IH _ _ _ Er X2 ltac:(lia)) as [r' [Hr Wr]].
      exists (d :: r'). split; [split; assumption|]. cbn [write_list]. rewrite Wd. cbn [bind]. rewrite Wr. reflexivity.
  Qed.

  Lemma gwrite_die_sim : forall g pos ops fx,
    gwrite_die dbg cx g pos = Ok (ops, fx) -> gdie_ok g -> pos + ops_len ops < 2 ^ 64 ->
    exists d, xrel g d /\ write_die dbg cx d pos = Ok ops.
  Proof.
    induction g as [id tag sib gattrs gch IH] using gdie_ind2. intros pos ops fx H X B.
    rewrite gwrite_die_unfold in H. rewrite gdie_ok_unfold in X. destruct X as [Xa Xc].
    apply bind_ok in H. destruct H as [u0 [E0 H]].
    apply bind_ok in H. destruct H as [code [Ec H]].
    apply bind_ok in H. destruct H as [cb [Eb H]]. cbv zeta in H.
    apply bind_ok in H. destruct H as [[aops afx] [Ea H]]. cbn [fst snd] in H.
    destruct gch as [|c r].
    - injection H as <- <-. rewrite !ops_len_cons in B. cbn [op_bytes] in B. change (UnitWr.blen []) with 0 in B.
      cbn [ghas_kids] in *. rewrite andb_false_r in *.
      destruct (gattrs_write_sim _ _ _ _ Ea Xa ltac:(lia)) as [attrs' [HF Wa]].
      exists (Die id tag sib attrs' []). split.
      + rewrite xrel_unfold. repeat split; try assumption.
      + rewrite write_die_unfold. rewrite E0. cbn [bind]. rewrite Ec. cbn [bind]. rewrite Eb. cbn [bind].
        rewrite Wa. reflexivity.
    - apply bind_ok in H. destruct H as [[cops cfx] [Ech H]]. cbn [fst snd] in H.
      apply bind_ok in H. destruct H as [sibb [Es H]]. injection H as <- <-.
      rewrite !ops_len_cons, !ops_len_app in B. cbn [op_bytes] in B.
      change (UnitWr.blen []) with 0 in B. change (UnitWr.blen [x00]) with 1 in B. rewrite ?ops_len_nil in B.
      cbn [ghas_kids] in *. rewrite andb_true_r in *.
      rewrite (sib_patch_len dbg cx sib _ sibb Es) in B.
      destruct (gattrs_write_sim _ _ _ _ Ea Xa ltac:(lia)) as [attrs' [HF Wa]].
      destruct (gwrite_list_sim _ IH _ _ _ Ech Xc ltac:(lia)) as [ch' [Hch Wc]].
      exists (Die id tag sib attrs' ch'). split.
      + rewrite xrel_unfold. repeat split; assumption.
      + rewrite write_die_unfold. rewrite E0. cbn [bind]. rewrite Ec. cbn [bind]. rewrite Eb. cbn [bind].
        rewrite Wa. cbn [bind]. destruct ch' as [|y s]; [destruct Hch|]. cbv zeta. rewrite Wc. cbn [bind]. unfold sib_patch. now rewrite Es.
  Qed.
End glue_tree.

(* T1 is a less complete version of T2: every assigned (non-zero) offset of T1 is the same in T2 *)
Definition le_tab (T1 T2 : list N) : Prop := forall i o, nth_error T1 i = Some o -> o <> 0 -> nth_error T2 i = Some o.
(* none of `ids` has an offset yet *)
Definition fresh (ids : list nat) (T : list N) : Prop := forall i o, In i ids -> nth_error T i = Some o -> o = 0.

Lemma le_tab_trans a b c : le_tab a b -> le_tab b c -> le_tab a c.
Proof. intros H1 H2 i o Hi Ho. apply H2; [apply H1; assumption|assumption]. Qed.

Lemma le_tab_extends uoff T1 T2 : le_tab T1 T2 -> OT.extends (ouo uoff T1) (ouo uoff T2).
Proof.
  intros H. split; [reflexivity|]. cbn [OW.uo_entries ouo]. intros en off Hn Ho.
  rewrite OD.nth_N_nth_error in *. apply H; assumption.
Qed.

Section glue_calc.
  Variables (dbg : bool) (cx : wcx) (lpv : N).
  Notation e := (wc_enc cx).
  Notation be := (wc_be cx).
  Notation uoff := (wc_unit_off cx).

  Fixpoint gcalc_list (l : list gdie) (s : cst) : res cst :=
    match l with
    | [] => Ok s
    | c :: r => let* s' := gcalc dbg e be lpv uoff c s in gcalc_list r s'
    end.

  Lemma gcalc_unfold id tag sib attrs ch st :
    gcalc dbg e be lpv uoff (GDie id tag sib attrs ch) st =
    (let* ents := set_nth id (cs_off st) (cs_entries st) in
     let d0 := Die id tag sib (inst_attrs dbg (oenc e be) (ouo uoff ents) attrs) (map shell ch) in
     let* ab := die_abbrev dbg e d0 in
     let (code, tab) := abbrev_add (cs_abbrevs st) ab in
     let* codes := set_nth id code (cs_codes st) in
     let* sz := die_size dbg e lpv d0 code in
     let* off := chk_add 64 dbg (cs_off st) sz in
     let st1 := mkCst off ents tab codes in
     match ch with
     | [] => Ok st1
     | _ =>
         let* st2 := gcalc_list ch st1 in
         let* off2 := chk_add 64 dbg (cs_off st2) 1 in
         Ok (mkCst off2 (cs_entries st2) (cs_abbrevs st2) (cs_codes st2))
     end).
  Proof. reflexivity. Qed.

  Lemma gcalc_list_frame ch :
    Forall (fun g => forall st st', gcalc dbg e be lpv uoff g st = Ok st' -> calc_frame_stmt (gdie_ids g) st st') ch ->
    forall st st', gcalc_list ch st = Ok st' -> calc_frame_stmt (gdies_ids ch) st st'.
  Proof.
    induction 1 as [|c r Hc Hr IH]; intros st st' H; cbn [gcalc_list] in H.
    - injection H as <-. repeat split; reflexivity.
    - binds. unfold gdies_ids. cbn [flat_map]. eapply calc_frame_trans; [apply Hc; eassumption|apply IH; assumption].
  Qed.

  Lemma gcalc_frame : forall g st st',
    gcalc dbg e be lpv uoff g st = Ok st' -> calc_frame_stmt (gdie_ids g) st st'.
  Proof.
    induction g as [id tag sib attrs ch IH] using gdie_ind2. intros st st' H.
    rewrite gcalc_unfold in H. binds. cbv zeta in H. binds.
    destruct (abbrev_add (cs_abbrevs st) a0) as [code tab] eqn:EA. binds.
    destruct (set_nth_spec _ _ _ _ E) as [S1 [S2 S3]].
    destruct (set_nth_spec _ _ _ _ E1) as [T1 [T2 T3]].
    assert (F1 : calc_frame_stmt [id] st (mkCst a3 a tab a1)).
    { split; [exact S3|]. split; [exact T3|]. intros i Hi. cbn [cs_entries cs_codes].
      split; [apply S2|apply T2]; intros ->; apply Hi; now left. }
    destruct ch as [|c r].
    - injection H as <-. cbn [gdie_ids flat_map]. exact F1.
    - binds. injection H as <-.
      assert (F2 := gcalc_list_frame _ IH _ _ E4).
      assert (F := calc_frame_trans _ _ _ _ _ F1 F2).
      cbn [gdie_ids]. change (id :: flat_map gdie_ids (c :: r)) with ([id] ++ gdies_ids (c :: r)).
      destruct F as [G1 [G2 G3]]. split; [exact G1|]. split; [exact G2|]. exact G3.
  Qed.

  Lemma gcalc_list_frame_all ch st st' : gcalc_list ch st = Ok st' -> calc_frame_stmt (gdies_ids ch) st st'.
  Proof. apply gcalc_list_frame, Forall_forall. intros g _. apply gcalc_frame. Qed.

  Lemma frame_le ids st st' :
    calc_frame_stmt ids st st' -> fresh ids (cs_entries st) -> le_tab (cs_entries st) (cs_entries st').
  Proof.
    intros [_ [_ F]] Fr i o Hi Ho. destruct (in_dec Nat.eq_dec i ids) as [Hin|Hn].
    - exfalso. apply Ho. eapply Fr; eauto.
    - destruct (F i Hn) as [E _]. congruence.
  Qed.

  Lemma frame_fresh ids1 ids2 st st' :
    calc_frame_stmt ids1 st st' -> (forall i, In i ids1 -> ~ In i ids2) ->
    fresh ids2 (cs_entries st) -> fresh ids2 (cs_entries st').
  Proof.
    intros [_ [_ F]] D Fr i o Hi Ho. destruct (F i) as [E _]; [intros Hin; exact (D i Hin Hi)|].
    rewrite E in Ho. eapply Fr; eauto.
  Qed.

  (* abbreviation() and size() of an entry see the same thing in the composed tree and in its instance *)
  Lemma av_form_rel uo gv a : vrel dbg cx gv a -> av_form e (inst dbg (cx_oe cx) uo 0 gv) = av_form e a.
  Proof. destruct gv as [v|ex]; cbn [vrel]; [intros ->; reflexivity|intros [base ->]; reflexivity]. Qed.

  Lemma specs_rel uo : forall gattrs attrs, Forall2 (arel dbg cx) gattrs attrs ->
    attr_specs dbg e (inst_attrs dbg (cx_oe cx) uo gattrs) = attr_specs dbg e attrs.
  Proof.
    induction 1 as [|[n gv] [n' a] l l' [Hn [Hv _]] _ IH]; [reflexivity|].
    cbn [fst snd] in Hn, Hv. subst n'. unfold inst_attrs in *. cbn [map attr_specs fst snd].
    rewrite (av_form_rel uo gv a Hv). destruct (av_form e a) as [form ic]. rewrite IH. reflexivity.
  Qed.

  Lemma av_size_rel u1 gv a s : OT.extends u1 (cx_uo cx) -> vrel dbg cx gv a ->
    av_size dbg e lpv (inst dbg (cx_oe cx) u1 0 gv) = Ok s -> av_size dbg e lpv a = Ok s.
  Proof.
    intros X V H. destruct gv as [v|ex]; cbn [vrel] in V.
    - subst. exact H.
    - destruct V as [base ->]. cbn [inst] in *. unfold av_size in *. cbn [x_size] in *.
      rewrite assert_exprloc in *. cbn [bind] in *.
      apply bind_ok in H. destruct H as [n [En H]].
      rewrite (OT.size_expr_mono _ _ _ _ _ _ X En). cbn [bind]. exact H.
  Qed.

  Lemma sizes_rel u1 : OT.extends u1 (cx_uo cx) -> forall gattrs attrs, Forall2 (arel dbg cx) gattrs attrs ->
    forall acc sz, attrs_size dbg e lpv acc (inst_attrs dbg (cx_oe cx) u1 gattrs) = Ok sz ->
                   attrs_size dbg e lpv acc attrs = Ok sz.
  Proof.
    intros X. induction 1 as [|[n gv] [n' a] l l' [Hn [Hv _]] _ IH]; intros acc sz H; [exact H|].
    cbn [fst snd] in Hn, Hv. unfold inst_attrs in *. cbn [map attrs_size fst snd] in *.
    apply bind_ok in H. destruct H as [s [Es H]]. rewrite (av_size_rel _ _ _ _ X Hv Es). cbn [bind].
    apply bind_ok in H. destruct H as [acc' [Ea H]]. rewrite Ea. cbn [bind]. apply IH. exact H.
  Qed.

  Lemma kids_shell ch : has_kids (map shell ch) = ghas_kids ch.
  Proof. destruct ch; reflexivity. Qed.

  Definition sim_stmt (g : gdie) : Prop := forall st st',
    gcalc dbg e be lpv uoff g st = Ok st' -> le_tab (cs_entries st') (wc_entries cx) ->
    NoDup (gdie_ids g) -> fresh (gdie_ids g) (cs_entries st) ->
    forall d, xrel dbg cx g d -> calc dbg e lpv d st = Ok st'.

  Lemma gcalc_list_sim gch : Forall sim_stmt gch -> forall st st' ch,
    gcalc_list gch st = Ok st' -> le_tab (cs_entries st') (wc_entries cx) ->
    NoDup (gdies_ids gch) -> fresh (gdies_ids gch) (cs_entries st) ->
    xrel_list dbg cx gch ch -> calc_list dbg e lpv ch st = Ok st'.
  Proof.
    induction 1 as [|c r Hc Hr IH]; intros st st' ch H LE ND FR X.
    - destruct ch; [|destruct X]. exact H.
    - destruct ch as [|y s]; [destruct X|]. destruct X as [X1 X2]. cbn [gcalc_list] in H.
      apply bind_ok in H. destruct H as [s1 [E1 H]].
      unfold gdies_ids in ND, FR. cbn [flat_map] in ND, FR. destruct (NoDup_app_inv _ _ ND) as [N1 [N2 N3]].
      assert (F1 := gcalc_frame _ _ _ E1).
      assert (Fr2 : fresh (gdies_ids r) (cs_entries s1)).
      { eapply frame_fresh; [exact F1|exact N3|]. intros i o Hi. apply FR. apply in_or_app. now right. }
      assert (F2 := gcalc_list_frame_all _ _ _ H).
      cbn [calc_list]. rewrite (Hc st s1 E1); [cbn [bind]; apply IH; assumption| | | |exact X1].
      + eapply le_tab_trans; [eapply frame_le; eassumption|exact LE].
      + exact N1.
      + intros i o Hi. apply FR. apply in_or_app. now left.
  Qed.

  Lemma gcalc_sim : forall g, sim_stmt g.
  Proof.
    induction g as [id tag sib gattrs gch IH] using gdie_ind2. intros st st' H LE ND FR [id' tag' sib' attrs ch] X.
    rewrite xrel_unfold in X. destruct X as [<- [<- [<- [Ha Hc]]]].
    rewrite gcalc_unfold in H. rewrite calc_unfold.
    apply bind_ok in H. destruct H as [ents [E H]]. cbv zeta in H.
    apply bind_ok in H. destruct H as [ab [Eab H]].
    destruct (abbrev_add (cs_abbrevs st) ab) as [code tab] eqn:EA.
    apply bind_ok in H. destruct H as [codes [Ecd H]].
    apply bind_ok in H. destruct H as [sz [Esz H]].
    apply bind_ok in H. destruct H as [off [Eoff H]].
    cbn [gdie_ids] in ND, FR. inversion ND as [|? ? Nid Nch]; subst.
    destruct (set_nth_spec _ _ _ _ E) as [S1 [S2 S3]].
    assert (FRc : fresh (gdies_ids gch) ents).
    { intros i o Hi Ho. assert (Hne : i <> id) by (intros ->; exact (Nid Hi)).
      rewrite (S2 i Hne) in Ho. eapply FR; [right; exact Hi|exact Ho]. }
    (* the table size() saw is a less complete version of the final one *)
    assert (Hle : le_tab ents (wc_entries cx)).
    { destruct gch as [|c r].
      - injection H as <-. exact LE.
      - apply bind_ok in H. destruct H as [st2 [E2 H]]. apply bind_ok in H. destruct H as [off2 [_ H]].
        injection H as <-. cbn [cs_entries] in LE.
        eapply le_tab_trans; [|exact LE]. exact (frame_le _ _ _ (gcalc_list_frame_all _ _ _ E2) FRc). }
    assert (Hext := le_tab_extends uoff _ _ Hle). fold (cx_uo cx) in Hext.
    rewrite E. cbn [bind].
    assert (Hab : die_abbrev dbg e (Die id tag sib attrs ch) = Ok ab).
    { rewrite <- Eab. unfold die_abbrev. rewrite kids_shell, (xrel_list_kids _ _ _ _ Hc).
      fold (cx_oe cx). rewrite (specs_rel _ _ _ Ha). reflexivity. }
    rewrite Hab. cbn [bind]. rewrite EA. rewrite Ecd. cbn [bind].
    assert (Hsz : die_size dbg e lpv (Die id tag sib attrs ch) code = Ok sz).
    { unfold die_size in *. rewrite kids_shell in Esz. rewrite (xrel_list_kids _ _ _ _ Hc).
      apply bind_ok in Esz. destruct Esz as [s0 [Es0 Esz]]. rewrite Es0. cbn [bind].
      fold (cx_oe cx) in Esz. eapply sizes_rel; eassumption. }
    rewrite Hsz. cbn [bind]. rewrite Eoff. cbn [bind]. cbv zeta.
    destruct gch as [|c r]; destruct ch as [|y s]; try (destruct Hc; fail); [exact H|].
    apply bind_ok in H. destruct H as [st2 [E2 H]].
    rewrite (gcalc_list_sim (c :: r) IH _ _ (y :: s) E2); [exact H| |exact Nch|exact FRc|exact Hc].
    apply bind_ok in H. destruct H as [off2 [_ H]]. injection H as <-. exact LE.
  Qed.
End glue_calc.

(* The composed unit body.  Unit::write runs gcalc from an all-zero table and hands its result to the write pass
   (wc_entries / wc_codes).  Then there is ONE UnitWr tree `d` — the composed tree with every Expression
   instantiated under the complete table (xrel) — on which UnitWr's calculate_offsets and write produce the very
   same state and the very same output, so every C11 theorem applies to the composed output; in particular
   offsets_exact: the table under which the expressions were written (cx_uo cx) assigns to every entry of the tree
   the position at which its DIE was emitted. *)
Theorem glue_offsets_exact_lemma dbg cx g st0 st ops fx :
  gcalc dbg (wc_enc cx) (wc_be cx) (wc_lpv cx) (wc_unit_off cx) g st0 = Ok st ->
  wc_entries cx = cs_entries st -> wc_codes cx = cs_codes st ->
  gwrite_die dbg cx g (cs_off st0) = Ok (ops, fx) ->
  NoDup (gdie_ids g) -> gdie_ok g ->
  (forall j y, nth_error (cs_entries st0) j = Some y -> y = 0) ->
  cs_off st0 + ops_len ops < 2 ^ 64 ->
  exists d,
    xrel dbg cx g d /\ calc dbg (wc_enc cx) (wc_lpv cx) d st0 = Ok st /\ write_die dbg cx d (cs_off st0) = Ok ops /\
    die_expr_ok d /\ die_ids d = gdie_ids g /\
    cs_off st = cs_off st0 + ops_len ops /\
    map fst (ops_marks (cs_off st0) ops) = gdie_ids g /\
    (forall i p, In (i, p) (ops_marks (cs_off st0) ops) -> nth_error (wc_entries cx) i = Some p).
Proof.
  intros HC He Hc HW ND OK Z B.
  destruct (gwrite_die_sim dbg cx g _ _ _ HW OK B) as [d [X W]].
  assert (C : calc dbg (wc_enc cx) (wc_lpv cx) d st0 = Ok st).
  { apply (gcalc_sim dbg cx (wc_lpv cx) g st0 st HC).
    - rewrite He. intros i o H _. exact H.
    - exact ND.
    - intros i o _ H. eapply Z. exact H.
    - exact X. }
  assert (XO := xrel_expr_ok _ _ _ _ X). assert (XI := xrel_ids _ _ _ _ X).
  destruct (offsets_exact_lemma dbg cx d st0 st ops C Hc W ltac:(rewrite XI; exact ND) XO B) as [A1 [A2 A3]].
  exists d. rewrite He. repeat split; try assumption. rewrite <- XI. exact A2.
Qed.

Lemma gwrite_list_v4_raw dbg oe uo asz mk : forall l hb pos bs fx,
  gwrite_list_v4 dbg oe uo asz mk hb pos l = Ok (bs, fx) -> pos + OW.blen bs < 2 ^ 64 ->
  exists raws chunks tail,
    Forall2 (raw_rel dbg oe uo) l raws /\
    LW.write_list_v4 true (OW.e_be oe) (OW.e_version oe) asz mk hb raws = Ok bs /\
    bs = concat chunks ++ tail /\ list_laid dbg oe uo pos l chunks fx.
Proof.
  induction l as [|g r IH]; intros hb pos bs fx H B.
  - cbn [gwrite_list_v4] in H. apply bind_ok in H. destruct H as [z1 [E1 H]]. apply bind_ok in H. destruct H as [z2 [E2 H]].
    injection H as <- <-. rewrite E1 in E2. injection E2 as <-. exists [], [], (z1 ++ z1). split; [constructor|]. split.
    + cbn [LW.write_list_v4]. rewrite E1. reflexivity.
    + split; [reflexivity|constructor].
  - (* an entry with an expression: `mkraw d` is its C16 form, whose writer does the same after the guards and
       the two header fields b1 b2 *)
    assert (ENT : forall g0 (mkraw : list byte -> WS.wloc) b1 b2 ex hb',
              (forall d base f, OW.write_expr dbg oe (Some uo) true base ex = Ok (d, f) -> raw_rel dbg oe uo g0 (mkraw d)) ->
              (forall bs' fx', (exists h p d offsets, bs' = h ++ p ++ d /\
                   OP.laid (OW.write_op dbg oe (Some uo) true offsets) (pos + OW.blen h + OW.blen p) ex offsets d fx') ->
                 entry_laid dbg oe uo pos g0 bs' fx') ->
              (forall d raws, LW.write_list_v4 true (OW.e_be oe) (OW.e_version oe) asz mk hb (mkraw d :: raws) =
                 (let* x := LW.opt_expression true (OW.e_be oe) (OW.e_version oe) d in
                  let* rest := LW.write_list_v4 true (OW.e_be oe) (OW.e_version oe) asz mk hb' raws in
                  Ok (b1 ++ b2 ++ x ++ rest))) ->
              (let* en := gentry_tail dbg oe uo pos (b1 ++ b2) ex in
               let* rest := gwrite_list_v4 dbg oe uo asz mk hb' (pos + UnitWr.blen (fst en)) r in
               Ok (fst en ++ fst rest, snd en ++ snd rest)) = Ok (bs, fx) ->
              exists raws chunks tail,
                Forall2 (raw_rel dbg oe uo) (g0 :: r) raws /\
                LW.write_list_v4 true (OW.e_be oe) (OW.e_version oe) asz mk hb raws = Ok bs /\
                bs = concat chunks ++ tail /\ list_laid dbg oe uo pos (g0 :: r) chunks fx).
    { intros g0 mkraw b1 b2 ex hb' Hraw Hlaid Hlw H'. apply bind_ok in H'. destruct H' as [[eb ef] [Ee H']].
      apply bind_ok in H'. destruct H' as [[rb rf] [Er H']]. cbn [fst snd] in *. injection H' as <- <-.
      rewrite OP.blen_app in B.
      destruct (gentry_tail_raw _ _ _ _ _ _ _ _ Ee ltac:(blia)) as [p [d [offsets [-> [Ho [Hw Hl]]]]]].
      destruct (IH _ _ _ _ Er ltac:(blia)) as [raws [chunks [tail [HF [Hwr [-> Hll]]]]]].
      exists (mkraw d :: raws), (((b1 ++ b2) ++ p ++ d) :: chunks), tail.
      split; [constructor; [exact (Hraw _ _ _ Hw)|exact HF]|]. split; [|split].
      - rewrite Hlw, Ho. cbn [bind]. rewrite Hwr. cbn [bind]. f_equal. rewrite <- ?app_assoc. reflexivity.
      - cbn [concat]. rewrite <- ?app_assoc. reflexivity.
      - constructor; [|exact Hll]. apply Hlaid. do 4 eexists. split; [reflexivity|exact Hl]. }
    destruct g as [a|b e ex|b e ex|b n ex|ex]; cbn [gwrite_list_v4] in H.
    + apply bind_ok in H. destruct H as [b1 [E1 H]]. apply bind_ok in H. destruct H as [b2 [E2 H]].
      apply bind_ok in H. destruct H as [[rb rf] [Er H]]. cbn [fst snd] in H. injection H as <- <-.
      rewrite OP.blen_app in B.
      destruct (IH _ _ _ _ Er ltac:(blia)) as [raws [chunks [tail [HF [Hwr [-> Hll]]]]]].
      exists (WS.LBase a :: raws), ((b1 ++ b2) :: chunks), tail. split; [constructor; [constructor|exact HF]|]. split.
      * cbn [LW.write_list_v4]. rewrite E1, E2. cbn [bind]. rewrite Hwr. cbn [bind]. f_equal. rewrite <- ?app_assoc. reflexivity.
      * split; [cbn [concat]; rewrite <- ?app_assoc; reflexivity|].
        change rf with ([] ++ rf). constructor; [reflexivity|exact Hll].
    + destruct (b =? e) eqn:C1; [discriminate|]. destruct (negb hb) eqn:C2; [discriminate|]. destruct (b =? mk) eqn:C3; [discriminate|].
      apply bind_ok in H. destruct H as [b1 [E1 H]]. apply bind_ok in H. destruct H as [b2 [E2 H]].
      apply (ENT (GLOffsetPair b e ex) (WS.LOffsetPair b e) b1 b2 ex hb); [intros; econstructor; eassumption|auto| |exact H].
      intros d raws. cbn [LW.write_list_v4]. rewrite C1, C2, C3, E1, E2. reflexivity.
    + destruct (WS.addr_eqb b e) eqn:C1; [discriminate|]. destruct hb eqn:C2; [discriminate|].
      destruct (WS.addr_eqb b (WS.AConst mk)) eqn:C3; [discriminate|].
      apply bind_ok in H. destruct H as [b1 [E1 H]]. apply bind_ok in H. destruct H as [b2 [E2 H]].
      apply (ENT (GLStartEnd b e ex) (WS.LStartEnd b e) b1 b2 ex false); [intros; econstructor; eassumption|auto| |exact H].
      intros d raws. cbn [LW.write_list_v4]. rewrite C1, C3, E1, E2. reflexivity.
    + apply bind_ok in H. destruct H as [en [Een H]].
      destruct (WS.addr_eqb b en) eqn:C1; [discriminate|]. destruct hb eqn:C2; [discriminate|].
      destruct (WS.addr_eqb b (WS.AConst mk)) eqn:C3; [discriminate|].
      apply bind_ok in H. destruct H as [b1 [E1 H]]. apply bind_ok in H. destruct H as [b2 [E2 H]].
      apply (ENT (GLStartLength b n ex) (WS.LStartLength b n) b1 b2 ex false); [intros; econstructor; eassumption|auto| |exact H].
      intros d raws. cbn [LW.write_list_v4]. rewrite Een. cbn [bind]. rewrite C1, C3, E1, E2. reflexivity.
    + discriminate.
Qed.

Lemma gwrite_lists_v4_raw dbg oe uo asz mk hb : forall tbl pos bytes offs fx,
  gwrite_lists (gwrite_list_v4 dbg oe uo asz mk hb) pos tbl = Ok (bytes, offs, fx) -> pos + OW.blen bytes < 2 ^ 64 ->
  exists rtbl, Forall2 (Forall2 (raw_rel dbg oe uo)) tbl rtbl /\
    LW.write_lists_v4 true (OW.e_be oe) (OW.e_version oe) asz mk hb pos rtbl = Ok (bytes, offs).
Proof.
  induction tbl as [|l r IH]; intros pos bytes offs fx H B; cbn [gwrite_lists] in H.
  - injection H as <- <- <-. exists []. split; [constructor|reflexivity].
  - apply bind_ok in H. destruct H as [[lb lf] [El H]]. apply bind_ok in H. destruct H as [[[rb ro] rf] [Er H]].
    cbn [fst snd] in *. injection H as <- <- <-. rewrite OP.blen_app in B.
    destruct (gwrite_list_v4_raw _ _ _ _ _ _ _ _ _ _ El ltac:(blia)) as [raws [_ [_ [HF [Hw _]]]]].
    destruct (IH _ _ _ _ Er ltac:(blia)) as [rtbl [HFF Hwr]].
    exists (raws :: rtbl). split; [constructor; assumption|].
    cbn [LW.write_lists_v4]. rewrite Hw. cbn [bind]. change (N.of_nat (length lb)) with (UnitWr.blen lb). rewrite Hwr. reflexivity.
Qed.

Lemma gwrite_lists_v5_raw dbg oe uo asz : forall tbl pos bytes offs fx,
  gwrite_lists (gwrite_list_v5 dbg oe uo asz) pos tbl = Ok (bytes, offs, fx) -> pos + OW.blen bytes < 2 ^ 64 ->
  exists rtbl, Forall2 (Forall2 (raw_rel dbg oe uo)) tbl rtbl /\
    LW.write_lists_v5 true (OW.e_be oe) (OW.e_version oe) asz pos rtbl = Ok (bytes, offs).
Proof.
  induction tbl as [|l r IH]; intros pos bytes offs fx H B; cbn [gwrite_lists] in H.
  - injection H as <- <- <-. exists []. split; [constructor|reflexivity].
  - apply bind_ok in H. destruct H as [[lb lf] [El H]]. apply bind_ok in H. destruct H as [[[rb ro] rf] [Er H]].
    cbn [fst snd] in *. injection H as <- <- <-. rewrite OP.blen_app in B.
    destruct (gwrite_list_v5_raw _ _ _ _ _ _ _ _ El ltac:(blia)) as [raws [_ [HF [Hw _]]]].
    destruct (IH _ _ _ _ Er ltac:(blia)) as [rtbl [HFF Hwr]].
    exists (raws :: rtbl). split; [constructor; assumption|].
    cbn [LW.write_lists_v5]. rewrite Hw. cbn [bind]. change (N.of_nat (length lb)) with (UnitWr.blen lb). rewrite Hwr. reflexivity.
Qed.

(* LocationListTable::write of the composed model = C16's table_write on the raw view of the table: same bytes, same
   LocationListOffsets — so every C16 theorem (write_read_by_reader_v5/_v4, rejects, ambiguity, no_panic) applies to the
   location lists the composed model writes, with `d` = the bytes each expression is written as *)
Theorem gloc_table_write_raw dbg oe uo hb start tbl bytes offs fx :
  gloc_table_write dbg oe uo hb start tbl = Ok (bytes, offs, fx) -> start + 20 + OW.blen bytes < 2 ^ 64 ->
  exists rtbl, Forall2 (Forall2 (raw_rel dbg oe uo)) tbl rtbl /\
    LW.table_write true (OW.e_be oe) (OW.e_fmt64 oe) (OW.e_version oe) (OW.e_asize oe) hb start rtbl = Ok (bytes, offs).
Proof.
  intros H B. unfold gloc_table_write in H. destruct tbl as [|l r].
  - injection H as <- <- <-. exists []. split; [constructor|reflexivity].
  - destruct ((2 <=? OW.e_version oe) && (OW.e_version oe <=? 4)) eqn:V4.
    + apply bind_ok in H. destruct H as [mk [Em H]].
      destruct (gwrite_lists_v4_raw _ _ _ _ _ _ _ _ _ _ _ H ltac:(lia)) as [rtbl [HF Hw]].
      exists rtbl. split; [exact HF|]. inversion HF; subst. unfold LW.table_write. rewrite V4. unfold LW.write_tbl_v4. rewrite Em. exact Hw.
    + destruct (OW.e_version oe =? 5) eqn:V5; [|discriminate].
      apply bind_ok in H. destruct H as [[[body bo] bf] [Eb H]]. cbn [fst snd] in H.
      apply bind_ok in H. destruct H as [il [Ei H]]. injection H as <- <- <-.
      rewrite !OP.blen_app in B.
      destruct (gwrite_lists_v5_raw _ _ _ _ _ _ _ _ _ Eb) as [rtbl [HF Hw]].
      { unfold LW.initial_length_size. destruct (OW.e_fmt64 oe); lia. }
      exists rtbl. split; [exact HF|]. inversion HF; subst. unfold LW.table_write. rewrite V4, V5. unfold LW.write_tbl_v5. rewrite V5. cbn [negb].
      rewrite Hw. cbn [bind]. change (N.of_nat (length body)) with (UnitWr.blen body). rewrite Ei. reflexivity.
Qed.


