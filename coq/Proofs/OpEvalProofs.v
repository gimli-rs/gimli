(* Proofs/OpEvalProofs.v — lemmas about Model/OpEval.v (Evaluation). *)
From Coq Require Import List NArith ZArith Bool Lia ZifyBool ZifyN ZifyNat.
From Coq.Strings Require Import Byte.
Require Import GV.Base.Res GV.Base.Byt GV.Base.Ints GV.Model.Leb GV.Model.Prim
  GV.Model.OpDec GV.Model.OpVal GV.Model.OpEval GV.Spec.StackSpec GV.Proofs.Lib GV.Proofs.WidthProofs
  GV.Proofs.OpDecProofs GV.Proofs.OpValProofs.
Import ListNotations.
Local Open Scope N_scope.

(* ---------------------------------------------------------------- inversion of the primitives *)
Lemma push_inv c s v s' : push c s v = Ok s' -> s' = set_stack s (norm c v :: s_stack s).
Proof. unfold push. destruct (full _ _); [discriminate|]. now inversion 1. Qed.
Lemma pop_inv s v s' : pop s = Ok (v, s') -> exists r, s_stack s = v :: r /\ s' = set_stack s r.
Proof. unfold pop. destruct (s_stack s) as [|x r]; [discriminate|]. inversion 1; subst. now exists r. Qed.
Lemma push_piece_inv c s p s' : push_piece c s p = Ok s' -> s' = set_result s (p :: s_result s).
Proof. unfold push_piece. destruct (full _ _); [discriminate|]. now inversion 1. Qed.

(* the part of the state that only the control loop changes *)
Definition ctl (s : st) := (s_bytecode s, s_estack s, s_iter s, s_nops s, s_nparse s).

(* pc is inside the current bytecode, and so is every saved caller pc *)
Definition inv (s : st) : Prop :=
  sfx (s_pc s) (s_bytecode s) /\ Forall (fun p => sfx (fst p) (snd p)) (s_estack s).

Lemma sfx_skipn n (bs : list byte) : sfx (skipn n bs) bs.
Proof. exists (firstn n bs). now rewrite firstn_skipn. Qed.

Lemma compute_pc_ok s t pc' : compute_pc s t = Ok pc' -> sfx pc' (s_bytecode s).
Proof.
  unfold compute_pc. cbv zeta. destruct (_ <? _); [intros; discriminate|]. destruct (_ <? _); [intros; discriminate|].
  intros H. inversion H. apply sfx_skipn.
Qed.
Lemma compute_pc_no_panic s t : sfx (s_pc s) (s_bytecode s) ->
  compute_pc s t <> Panic /\ compute_pc s t <> OutOfFuel.
Proof.
  intros S. apply sfx_length in S. unfold compute_pc. cbv zeta.
  destruct (N.of_nat (length (s_bytecode s)) <? N.of_nat (length (s_pc s))) eqn:E; [lia|].
  match goal with |- context [if ?c then _ else _] => destruct c end; split; discriminate.
Qed.

Ltac peel :=
  repeat match goal with
  | H : Ok _ = Ok _ |- _ => inversion H; subst; clear H
  | H : Err _ = Ok _ |- _ => discriminate H
  | H : Panic = Ok _ |- _ => discriminate H
  | H : OutOfFuel = Ok _ |- _ => discriminate H
  | p : (_ * _)%type |- _ => destruct p
  | H : bind ?x _ = Ok _ |- _ => destruct x eqn:?; cbn [bind] in H
  | H : (if ?c then _ else _) = Ok _ |- _ => destruct c eqn:?
  | H : match ?x with _ => _ end = Ok _ |- _ => destruct x eqn:?
  end.
Ltac invert_prims :=
  repeat match goal with
  | H : push _ _ _ = Ok _ |- _ => apply push_inv in H; subst
  | H : pop _ = Ok (_, _) |- _ => apply pop_inv in H; destruct H as (? & ? & ?); subst
  | H : push_piece _ _ _ = Ok _ |- _ => apply push_piece_inv in H; subst
  | H : compute_pc _ _ = Ok _ |- _ => apply compute_pc_ok in H
  end.
Ltac fields := cbn [s_bytecode s_pc s_stack s_estack s_result s_iter s_vres s_nops s_nparse
                    set_stack set_pc set_result set_iter set_vres set_code count_op count_parse] in *.

Section Eval.
Variable F : fops.

Lemma eoo_ok dbg c mask s r s' :
  inv s -> evaluate_one_operation F dbg c mask s = Ok (r, s') ->
  inv s' /\ ctl s' = (s_bytecode s, s_estack s, s_iter s, s_nops s + 1, s_nparse s + 1).
Proof.
  intros [I1 I2] H. unfold evaluate_one_operation in H.
  destruct (parse_op dbg (c_enc c) (s_pc (count_op (count_parse s)))) as [[o pc']| | |] eqn:P; cbn [bind] in H; try discriminate H.
  destruct (parse_op_good dbg (c_enc c) (s_pc (count_op (count_parse s)))) as (_ & _ & G). specialize (G _ _ P).
  fields.
  destruct o; unfold binop, unop in H; peel; invert_prims; unfold inv, ctl; fields;
    (split; [split; [eauto using sfx_trans|assumption]|reflexivity]).
Qed.

Lemma eoe_loop_ok pc bc es :
  sfx pc bc -> Forall (fun p => sfx (fst p) (snd p)) es ->
  let '(b, (pc', bc', es')) := eoe_loop pc bc es in
  sfx pc' bc' /\ Forall (fun p => sfx (fst p) (snd p)) es' /\
  (b = false -> pc' <> []) /\ (b = true -> pc' = [] /\ es' = []).
Proof.
  revert pc bc. induction es as [|[npc nbc] es IH]; intros pc bc S Fo; destruct pc as [|x pc]; cbn [eoe_loop].
  - repeat split; auto; discriminate.
  - repeat split; auto; discriminate.
  - inversion Fo; subst. apply IH; auto.
  - repeat split; auto; discriminate.
Qed.

Lemma eoe_ok s : inv s ->
  inv (snd (end_of_expression s)) /\
  s_iter (snd (end_of_expression s)) = s_iter s /\ s_nops (snd (end_of_expression s)) = s_nops s /\
  s_nparse (snd (end_of_expression s)) = s_nparse s /\
  (fst (end_of_expression s) = false -> s_pc (snd (end_of_expression s)) <> []).
Proof.
  intros [I1 I2]. unfold end_of_expression. pose proof (eoe_loop_ok _ _ _ I1 I2) as H.
  destruct (eoe_loop (s_pc s) (s_bytecode s) (s_estack s)) as [b [[pc' bc'] es']].
  destruct H as (H1 & H2 & H3 & H4). unfold inv. fields. cbn [fst snd]. fields. repeat split; auto.
Qed.

Lemma eoe_result s : s_result (snd (end_of_expression s)) = s_result s /\ s_vres (snd (end_of_expression s)) = s_vres s.
Proof.
  unfold end_of_expression. destruct (eoe_loop _ _ _) as [b [[pc bc] es]]. cbn [snd]. fields. now split.
Qed.

Lemma eoe_stack s : s_stack (snd (end_of_expression s)) = s_stack s.
Proof. unfold end_of_expression. destruct (eoe_loop _ _ _) as [b [[pc bc] es]]. reflexivity. Qed.

Lemma eoe_loop_true pc bc es : forall b pc' bc' es', eoe_loop pc bc es = (b, (pc', bc', es')) ->
  b = true -> pc' = [] /\ es' = [].
Proof.
  revert pc bc. induction es as [|[npc nbc] es IH]; intros pc bc b pc' bc' es' H B; destruct pc as [|x pc]; cbn [eoe_loop] in H.
  - inversion H; subst. now split.
  - inversion H; subst. discriminate.
  - eapply IH; eauto.
  - inversion H; subst. discriminate.
Qed.

Lemma eoe_true s : fst (end_of_expression s) = true ->
  s_pc (snd (end_of_expression s)) = [] /\ s_estack (snd (end_of_expression s)) = [].
Proof.
  unfold end_of_expression. destruct (eoe_loop _ _ _) as [b [[pc bc] es]] eqn:E. cbn [fst snd]. fields.
  intros ->. eapply eoe_loop_true; eauto.
Qed.

Lemma resume_apply_ok c mask w a s s' :
  inv s -> resume_apply F c mask w a s = Ok s' ->
  inv s' /\ s_iter s' = s_iter s /\ s_nops s' = s_nops s /\ s_nparse s' = s_nparse s.
Proof.
  intros [I1 I2] H. unfold resume_apply in H.
  destruct w; peel; invert_prims; unfold inv; fields; repeat split; auto using sfx_refl.
Qed.
Lemma finish_ok c mask s o s' : inv s -> finish c mask s = Ok (o, s') ->
  inv s' /\ s_iter s' = s_iter s /\ s_nops s' = s_nops s /\ s_nparse s' = s_nparse s.
Proof.
  intros [I1 I2] H. unfold finish in H. peel; invert_prims; unfold inv; fields; repeat split; auto.
Qed.

Lemma push_piece_ok c s p s' : inv s -> push_piece c s p = Ok s' ->
  inv s' /\ s_iter s' = s_iter s /\ s_nops s' = s_nops s /\ s_nparse s' = s_nparse s.
Proof. intros [I1 I2] H. invert_prims. unfold inv; fields; repeat split; auto. Qed.

Lemma chk_add_iter dbg it : it < 4294967295 -> chk_add 32 dbg it 1 = Ok (it + 1).
Proof.
  intros H. unfold chk_add. change (2 ^ 32) with 4294967296.
  destruct (it + 1 <? 4294967296) eqn:E; [reflexivity|lia].
Qed.

(* what one call of evaluate_internal does to the counters *)
Definition counted (s s' : st) : Prop :=
  inv s' /\ s_iter s <= s_iter s' /\ s_nops s' + s_iter s = s_nops s + s_iter s' /\
  s_nparse s' + 2 * s_iter s <= s_nparse s + 2 * s_iter s' /\ s_nparse s <= s_nparse s'.

Lemma count_iteration_fields dbg c s s2 : count_iteration dbg c s = Ok s2 ->
  s_stack s2 = s_stack s /\ s_result s2 = s_result s /\ s_vres s2 = s_vres s /\ s_pc s2 = s_pc s /\
  s_bytecode s2 = s_bytecode s /\ s_estack s2 = s_estack s /\ s_nops s2 = s_nops s /\ s_nparse s2 = s_nparse s.
Proof.
  unfold count_iteration. intros H. destruct (c_max c) as [m|]; peel; fields; repeat split; reflexivity.
Qed.
Lemma ei_at_end dbg c mask fuel s : s_pc s = [] -> s_estack s = [] -> s_result s <> [] ->
  evaluate_internal F (S fuel) dbg c mask s = Ok (Done, set_code s (s_bytecode s) [] []).
Proof.
  intros P E R. cbn [evaluate_internal]. unfold end_of_expression. rewrite P, E. cbn [eoe_loop].
  unfold finish. fields. destruct (s_result s); [contradiction|reflexivity].
Qed.

(* size and bit offset of a DW_OP_piece / DW_OP_bit_piece; after a completed location evaluate_internal accepts no
   other operation *)
Definition as_piece (o : operation) : option (N * option N) :=
  match o with OPiece size off => Some (size, off) | _ => None end.
Lemma match_piece {A} o (f : N -> option N -> A) d :
  match o with OPiece size off => f size off | _ => d end =
  match as_piece o with Some (size, off) => f size off | None => d end.
Proof. now destruct o. Qed.

(* Partial correctness of the loop: a property I of the state that every step of evaluate_internal keeps
   gives Q for whatever it returns.  The loop is left through finish, through a request to the consumer, or,
   when a location was completed at the very end of the expression, with that location as the only piece. *)
Section Loop.
Variables (dbg : bool) (c : cfg) (mask : N) (I : st -> Prop) (Q : outcome -> st -> Prop).
Hypothesis I_eoe : forall s, I s -> I (snd (end_of_expression s)).
Hypothesis I_count : forall s s', I s -> count_iteration dbg c s = Ok s' -> I s'.
Hypothesis I_op : forall s r s', I s -> evaluate_one_operation F dbg c mask s = Ok (r, s') -> I s'.
Hypothesis I_next : forall s o pc', I s -> parse_op dbg (c_enc c) (s_pc (count_parse s)) = Ok (o, pc') ->
  I (set_pc (count_parse s) pc').
Hypothesis I_piece : forall s size off loc s', I s -> push_piece c s (mkPiece (Some size) off loc) = Ok s' -> I s'.
Hypothesis Q_finish : forall s o s', I s -> finish c mask s = Ok (o, s') -> Q o s'.
Hypothesis Q_need : forall s w rq, I s -> Q (Need w rq) s.
Hypothesis Q_last : forall s loc s', I s -> s_result s = [] -> push_piece c s (mkPiece None None loc) = Ok s' ->
  Q Done (set_code s' (s_bytecode s') [] []).

Lemma ei_ind : forall fuel s o s', I s -> evaluate_internal F fuel dbg c mask s = Ok (o, s') -> Q o s'.
Proof.
  induction fuel as [|fuel IH]; intros s o s' HI H; [discriminate H|].
  cbn [evaluate_internal] in H.
  pose proof (I_eoe s HI) as I1. destruct (end_of_expression s) as [e s1]. cbn [snd] in I1.
  destruct e; [exact (Q_finish _ _ _ I1 H)|].
  destruct (count_iteration dbg c s1) as [s2| | |] eqn:CI; cbn [bind] in H; try discriminate H.
  destruct (evaluate_one_operation F dbg c mask s2) as [[r s3]| | |] eqn:EO; cbn [bind] in H; try discriminate H.
  pose proof (I_op _ _ _ (I_count _ _ I1 CI) EO) as I3.
  pose proof (I_eoe s3 I3) as I4. pose proof (eoe_true s3) as ET.
  destruct r; [exact (IH _ _ _ I3 H)| | |inversion H; subst; exact (Q_need _ _ _ I3)];
    destruct (end_of_expression s3) as [e4 s4]; cbn [fst snd] in *.
  - destruct (e4 && _); [discriminate H|]. exact (IH _ _ _ I4 H).
  - destruct e4.
    + destruct (s_result s4) eqn:RS; [|discriminate H]. destruct (ET eq_refl) as [PC ES].
      destruct (push_piece c s4 _) as [s5| | |] eqn:PP; cbn [bind] in H; try discriminate H.
      destruct fuel; [discriminate H|].
      rewrite ei_at_end in H by (apply push_piece_inv in PP; subst s5; fields; auto; discriminate).
      inversion H; subst. exact (Q_last _ _ _ I4 RS PP).
    + cbv zeta in H.
      destruct (parse_op dbg (c_enc c) (s_pc (count_parse s4))) as [[o2 pc2]| | |] eqn:P2; cbn [bind] in H; try discriminate H.
      rewrite match_piece in H. destruct (as_piece o2) as [[size off]|]; [|peel].
      destruct (push_piece c _ _) as [s5| | |] eqn:PP; cbn [bind] in H; try discriminate H.
      exact (IH _ _ _ (I_piece _ _ _ _ _ (I_next _ _ _ I4 P2) PP) H).
Qed.
End Loop.
End Eval.

(* ---------------------------------------------------------------- no panic *)
Definition noP {A} (r : res A) : Prop := r <> Panic /\ r <> OutOfFuel.
Lemma noP_ok {A} (a : A) : noP (Ok a). Proof. split; discriminate. Qed.
Lemma noP_err {A} e : @noP A (Err e). Proof. split; discriminate. Qed.
Lemma noP_bind {A B} (m : res A) (f : A -> res B) : noP m -> (forall a, m = Ok a -> noP (f a)) -> noP (bind m f).
Proof. intros [H1 H2] Hf. destruct m; cbn [bind]; auto using noP_err; contradiction. Qed.
Lemma noP_if {A} (c : bool) (x y : res A) : noP x -> noP y -> noP (if c then x else y).
Proof. now destruct c. Qed.
Global Hint Resolve noP_ok noP_err : nop.

Ltac nop_step :=
  match goal with
  | |- noP (Ok _) => apply noP_ok
  | |- noP (Err _) => apply noP_err
  | |- noP (if _ then _ else _) => apply noP_if
  | |- noP (bind _ _) => apply noP_bind; [|intros ? ?]
  | |- noP (match ?x with _ => _ end) => destruct x
  | |- noP (let '(_, _) := ?p in _) => destruct p
  end.

Section NoPanic.
Variable F : fops.

Lemma to_u64_nop v mask : noP (to_u64 v mask).
Proof. unfold to_u64. repeat nop_step. Qed.
Lemma from_u64_nop t x : noP (from_u64 F t x).
Proof. unfold from_u64. repeat nop_step. Qed.
Lemma arith_nop i f a b mask : noP (arith i f a b mask).
Proof. unfold arith. repeat nop_step. Qed.
Lemma vdiv_nop a b mask : noP (vdiv F a b mask).
Proof. unfold vdiv. repeat nop_step. Qed.
Lemma vrem_nop a b mask : noP (vrem a b mask).
Proof. unfold vrem. repeat nop_step. Qed.
Lemma vnot_nop a mask : noP (vnot F a mask).
Proof. unfold vnot. repeat nop_step; auto using to_u64_nop, from_u64_nop. Qed.
Lemma bitop_nop op a b mask : noP (bitop F op a b mask).
Proof. unfold bitop. repeat nop_step; auto using to_u64_nop, from_u64_nop. Qed.
Lemma vabs_nop a mask : noP (vabs a mask).
Proof. unfold vabs. repeat nop_step. Qed.
Lemma vneg_nop a mask : noP (vneg a mask).
Proof. unfold vneg. repeat nop_step. Qed.
Lemma shift_length_nop b mask : noP (shift_length b mask).
Proof. unfold shift_length. repeat nop_step. Qed.
Lemma vshl_nop a b mask : noP (vshl a b mask).
Proof. unfold vshl. repeat nop_step; auto using shift_length_nop. Qed.
Lemma vshr_nop a b mask : noP (vshr a b mask).
Proof. unfold vshr. repeat nop_step; auto using shift_length_nop. Qed.
Lemma vshra_nop a b mask : noP (vshra a b mask).
Proof. unfold vshra. repeat nop_step; auto using shift_length_nop. Qed.
Lemma compare_nop z f a b mask : noP (compare_op z f a b mask).
Proof. unfold compare_op. repeat nop_step. Qed.
Lemma from_float_nop s t b : noP (from_float F s t b).
Proof. unfold from_float. repeat nop_step. Qed.
Lemma convert_nop a t mask : noP (convert F a t mask).
Proof. unfold convert. repeat nop_step; auto using to_u64_nop, from_u64_nop, from_float_nop. Qed.
Lemma reinterpret_nop a t mask : noP (reinterpret a t mask).
Proof. unfold reinterpret. repeat nop_step. Qed.
Lemma read_un_nop n be bs : noP (read_un n be bs).
Proof. destruct (read_un_good n be bs) as (A & B & _). now split. Qed.
Lemma value_parse_nop be t bs : noP (value_parse be t bs).
Proof.
  unfold value_parse. destruct t; try apply noP_err;
  (apply noP_bind; [apply read_un_nop|intros [? ?] _; apply noP_ok]).
Qed.
Lemma push_nop c s v : noP (push c s v).
Proof. unfold push. repeat nop_step. Qed.
Lemma pop_nop s : noP (pop s).
Proof. unfold pop. repeat nop_step. Qed.
Lemma push_piece_nop c s p : noP (push_piece c s p).
Proof. unfold push_piece. repeat nop_step. Qed.
Lemma parse_op_nop dbg e bs : noP (parse_op dbg e bs).
Proof. apply parse_op_no_panic_lemma. Qed.
End NoPanic.
Global Hint Resolve to_u64_nop from_u64_nop arith_nop vdiv_nop vrem_nop vnot_nop bitop_nop vabs_nop vneg_nop
  vshl_nop vshr_nop vshra_nop compare_nop convert_nop reinterpret_nop value_parse_nop push_nop pop_nop
  push_piece_nop parse_op_nop : nop.

Section NoPanic2.
Variable F : fops.

Lemma compute_pc_nop s t : sfx (s_pc s) (s_bytecode s) -> noP (compute_pc s t).
Proof. apply compute_pc_no_panic. Qed.

Ltac nop_auto := repeat (nop_step; auto with nop).

Lemma eoo_nop dbg c mask s : inv s -> noP (evaluate_one_operation F dbg c mask s).
Proof.
  intros [I1 I2]. unfold evaluate_one_operation.
  apply noP_bind; [apply parse_op_nop|]. intros [o pc'] P.
  destruct (parse_op_good dbg (c_enc c) (s_pc (count_op (count_parse s)))) as (_ & _ & G). specialize (G _ _ P). fields.
  assert (S : sfx pc' (s_bytecode s)) by eauto using sfx_trans.
  destruct o; unfold binop, unop, vadd, vsub, vmul, vand, vor, vxor, veq, vge, vgt, vle, vlt, vne; try solve [nop_auto].
  - (* Pick *)
    fields.
    destruct (N.of_nat (length (s_stack s)) <=? index) eqn:EI; [apply noP_err|].
    destruct (nth_error (s_stack s) (N.to_nat index)) eqn:E; [nop_auto|].
    apply nth_error_None in E. lia.
  - (* Bra *)
    apply noP_bind; [auto with nop|]. intros [entry s1] PO. apply pop_inv in PO. destruct PO as (r & _ & ->).
    nop_auto. apply compute_pc_nop. fields. exact S.
  - (* Skip *)
    nop_auto. apply compute_pc_nop. fields. exact S.
Qed.
End NoPanic2.

Section Total.
Variable F : fops.

Lemma finish_nop c mask s : noP (finish c mask s).
Proof. unfold finish. repeat (nop_step; auto with nop). Qed.

Lemma resume_apply_nop c mask w a s : noP (resume_apply F c mask w a s).
Proof.
  unfold resume_apply, vadd. destruct w; repeat (nop_step; auto with nop); auto with nop.
Qed.

(* the iteration limit is a u32; the counter never exceeds it *)
Definition lim_ok (c : cfg) (s : st) : Prop :=
  match c_max c with Some n => n <= 4294967295 /\ s_iter s <= n | None => True end.

Lemma count_iteration_spec dbg c s : lim_ok c s ->
  match count_iteration dbg c s with
  | Ok s2 => (c_max c = None /\ s2 = s) \/
             (exists n, c_max c = Some n /\ s_iter s < n /\ s2 = set_iter s (s_iter s + 1))
  | Err _ => True
  | _ => False
  end.
Proof.
  unfold lim_ok, count_iteration. destruct (c_max c) as [n|]; [|intros _; now left].
  intros [NB L]. destruct (n <=? s_iter s) eqn:E; [exact I|].
  rewrite chk_add_iter by lia. cbn [bind]. right. exists n. repeat split; auto. lia.
Qed.

(* postcondition of evaluate_internal started in s with the given fuel *)
Definition ei_post (c : cfg) (fuel : nat) (s : st) (r : res (outcome * st)) : Prop :=
  match r with
  | Ok (_, s') => inv s' /\
      match c_max c with
      | Some n => counted s s' /\ s_iter s' <= n
      | None => s_iter s' = s_iter s        (* no limit set: the counter is not touched *)
      end
  | Err _ => True
  | Panic => False
  | OutOfFuel => match c_max c with Some n => (fuel <= N.to_nat (n - s_iter s))%nat | None => True end
  end.

(* s4 is the state after one more iteration (and possibly one extra decode) *)
Definition adv (c : cfg) (s s4 : st) : Prop :=
  match c_max c with
  | Some n => s_iter s4 = s_iter s + 1 /\ s_iter s4 <= n /\ s_nops s4 = s_nops s + 1 /\
              s_nparse s + 1 <= s_nparse s4 <= s_nparse s + 2
  | None => s_iter s4 = s_iter s
  end.

Lemma ei_post_mono c fuel s s4 r : adv c s s4 -> ei_post c fuel s4 r -> ei_post c (S fuel) s r.
Proof.
  unfold adv, ei_post, counted. destruct r as [[o s']| e | |]; auto; destruct (c_max c) as [n|]; intros A P; auto.
  - destruct P as (I & (I' & K1 & K2 & K3 & K4) & K5). split; [exact I|]. split; [|exact K5].
    split; [exact I'|]. lia.
  - destruct P as (I & K). split; [exact I|]. lia.
  - lia.
Qed.

Lemma ei_gen dbg c mask : forall fuel s, inv s -> lim_ok c s ->
  ei_post c fuel s (evaluate_internal F fuel dbg c mask s).
Proof.
  induction fuel as [|fuel IH]; intros s I L.
  { cbn [evaluate_internal ei_post]. destruct (c_max c); [lia|exact Logic.I]. }
  cbn [evaluate_internal].
  destruct (eoe_ok s I) as (I1 & E1 & E2 & E3 & _).
  destruct (end_of_expression s) as [e s1]. cbn [fst snd] in *.
  destruct e.
  { pose proof (finish_nop c mask s1) as [NP NF].
    destruct (finish c mask s1) as [[o s']| x | |] eqn:FN; cbn [ei_post]; auto; try congruence.
    apply finish_ok in FN; [|exact I1]. destruct FN as (J & J1 & J2 & J3). split; [exact J|].
    unfold lim_ok in L. destruct (c_max c) as [n|]; [|lia]. destruct L as [L0 L].
    unfold counted. split; [split; [exact J|lia]|lia]. }
  assert (L1 : lim_ok c s1) by (unfold lim_ok in *; destruct (c_max c); [lia|exact Logic.I]).
  pose proof (count_iteration_spec dbg c s1 L1) as CS.
  destruct (count_iteration dbg c s1) as [s2| x | |]; cbn [bind ei_post]; auto; try contradiction.
  assert (I2 : inv s2).
  { destruct CS as [[_ ->]|(n & _ & _ & ->)]; [exact I1|]. destruct I1. unfold inv; fields; auto. }
  assert (A2 : ctl s2 = (s_bytecode s1, s_estack s1, s_iter s2, s_nops s1, s_nparse s1) /\
               match c_max c with Some n => s_iter s2 = s_iter s + 1 /\ s_iter s2 <= n | None => s_iter s2 = s_iter s end).
  { destruct CS as [[CN ->]|(n & CN & LT & ->)]; rewrite CN; unfold ctl; fields; (split; [reflexivity|]); lia. }
  destruct A2 as [C2 A2].
  pose proof (eoo_nop F dbg c mask s2 I2) as [NP NF].
  destruct (evaluate_one_operation F dbg c mask s2) as [[r s3]| x | |] eqn:EO; cbn [bind ei_post]; auto; try congruence.
  destruct (eoo_ok F dbg c mask s2 r s3 I2 EO) as (I3 & C3). unfold ctl in C2, C3.
  inversion C2 as [[C21 C22 C24 C25]]. inversion C3 as [[C31 C32 C33 C34 C35]]. clear C2 C3.
  assert (Step : forall s4, inv s4 -> s_iter s4 = s_iter s3 -> s_nops s4 = s_nops s3 ->
             s_nparse s3 <= s_nparse s4 <= s_nparse s3 + 1 ->
             ei_post c (S fuel) s (evaluate_internal F fuel dbg c mask s4)).
  { intros s4 I4 B1 B2 B3. apply (ei_post_mono c fuel s s4).
    - unfold adv. destruct (c_max c); lia.
    - apply IH; [exact I4|]. unfold lim_ok in *. destruct (c_max c); lia. }
  destruct r.
  - apply Step; auto; lia.
  - destruct (eoe_ok s3 I3) as (I4 & F1 & F2 & F3 & _).
    destruct (end_of_expression s3) as [e4 s4]. cbn [fst snd] in *.
    destruct (e4 && _); [exact Logic.I|]. apply Step; auto; lia.
  - destruct (eoe_ok s3 I3) as (I4 & F1 & F2 & F3 & _).
    destruct (end_of_expression s3) as [e4 s4]. cbn [fst snd] in *.
    destruct e4.
    + destruct (s_result s4); [|exact Logic.I].
      pose proof (push_piece_nop c s4 {| p_size := None; p_bit_offset := None; p_loc := l |}) as [PN PF].
      destruct (push_piece c s4 _) as [s5| x | |] eqn:PP; cbn [bind ei_post]; auto; try congruence.
      destruct (push_piece_ok c s4 _ s5 I4 PP) as (I5 & G1 & G2 & G3). apply Step; auto; lia.
    + cbv zeta. fields.
      pose proof (parse_op_nop dbg (c_enc c) (s_pc s4)) as [PN PF].
      destruct (parse_op dbg (c_enc c) (s_pc s4)) as [[o2 pc2]| x | |] eqn:P2; cbn [bind ei_post]; auto; try congruence.
      pose proof (parse_op_shorter _ _ _ _ _ P2) as SH.
      destruct (parse_op_good dbg (c_enc c) (s_pc s4)) as (_ & _ & G). specialize (G _ _ P2).
      assert (I5 : inv (set_pc (count_parse s4) pc2)) by
          (destruct I4; unfold inv; fields; split; eauto using sfx_trans).
      assert (LB : N.of_nat (length pc2) + 1 <= N.of_nat (length (s_bytecode s4))).
      { destruct I4 as [J _]. apply sfx_length in J. lia. }
      rewrite match_piece. destruct (as_piece o2) as [[size off]|]; fields;
        [|rewrite chk_sub_ok by lia; cbn [bind]; rewrite chk_sub_ok by lia; exact Logic.I].
      match goal with |- context [push_piece ?cc ?ss ?pp] =>
        pose proof (push_piece_nop cc ss pp) as [PN2 PF2];
        destruct (push_piece cc ss pp) as [s5| x | |] eqn:PP; cbn [bind ei_post]; auto; try congruence;
        destruct (push_piece_ok _ _ _ _ I5 PP) as (I6 & G1 & G2 & G3); fields; apply Step; auto; lia end.
  - cbn [ei_post]. split; [exact I3|]. destruct (c_max c) as [n|]; [|lia].
    unfold counted. split; [split; [exact I3|lia]|lia].
Qed.

(* ei_gen with a limit n set: the counters on return, and no panic or fuel exhaustion when the fuel exceeds the
   iterations the limit still allows *)
Lemma ei_ok dbg c mask n : c_max c = Some n -> n <= 4294967295 -> forall fuel s o s',
  inv s -> s_iter s <= n -> evaluate_internal F fuel dbg c mask s = Ok (o, s') ->
  counted s s' /\ s_iter s' <= n.
Proof.
  intros CM NB fuel s o s' I L H. pose proof (ei_gen dbg c mask fuel s I) as G.
  unfold lim_ok, ei_post in G. rewrite CM, H in G. now destruct (G (conj NB L)).
Qed.
Lemma ei_total dbg c mask n : c_max c = Some n -> n <= 4294967295 -> forall fuel s,
  inv s -> s_iter s <= n -> (N.to_nat (n - s_iter s) < fuel)%nat ->
  noP (evaluate_internal F fuel dbg c mask s).
Proof.
  intros CM NB fuel s I L FU. pose proof (ei_gen dbg c mask fuel s I) as G.
  unfold lim_ok, ei_post in G. rewrite CM in G. specialize (G (conj NB L)).
  destruct (evaluate_internal F fuel dbg c mask s) as [[o s']| x | |]; split; try discriminate; try contradiction; lia.
Qed.
End Total.

(* ---------------------------------------------------------------- compute_pc accepts exactly 0 <= target <= len *)
Lemma compute_pc_exact s t :
  sfx (s_pc s) (s_bytecode s) -> (- 32768 <= t < 32768)%Z -> N.of_nat (length (s_bytecode s)) < 2 ^ 63 ->
  let off := (Z.of_nat (length (s_bytecode s)) - Z.of_nat (length (s_pc s)))%Z in
  compute_pc s t =
    if ((0 <=? off + t) && (off + t <=? Z.of_nat (length (s_bytecode s))))%Z
    then Ok (skipn (Z.to_nat (off + t)) (s_bytecode s)) else Err EBadBranchTarget.
Proof.
  intros S T LB off. apply sfx_length in S. unfold compute_pc. cbv zeta.
  set (lb := length (s_bytecode s)) in *. set (lp := length (s_pc s)) in *.
  destruct (N.of_nat lb <? N.of_nat lp) eqn:E; [lia|clear E].
  rewrite w64_eq, usg_eq. unfold wrap64. rewrite two64_eq, add_of_signed. unfold of_signed.
  replace (Z.of_N (N.of_nat lb - N.of_nat lp)) with off by (unfold off; lia).
  (* the wrapped sum is off + t if that is not negative, else off + t + 2^64, which is beyond the bytecode *)
  assert (P : 2 ^ 15 <= 2 ^ 63) by (apply N.pow_le_mono_r; lia). change (2 ^ 15) with 32768 in P.
  rewrite (pow2_half 64) in * by lia. change (64 - 1) with 63. set (Q := 2 ^ 63) in *. clearbody Q.
  assert (M : ((off + t) mod Z.of_N (2 * Q) = if 0 <=? off + t then off + t else off + t + Z.of_N (2 * Q))%Z).
  { destruct (0 <=? off + t)%Z eqn:C; [apply Z.mod_small; lia|]. symmetry. apply Z.mod_unique_pos with (q := (-1)%Z); lia. }
  rewrite M. destruct (0 <=? off + t)%Z eqn:C1; cbn [andb].
  - destruct (off + t <=? Z.of_nat lb)%Z eqn:C2; destruct (N.of_nat lb <? Z.to_N (off + t)) eqn:E2; try lia; try reflexivity.
    f_equal. f_equal. lia.
  - destruct (N.of_nat lb <? _) eqn:E2; [reflexivity|lia].
Qed.

(* ---------------------------------------------------------------- the whole conversation *)
Section Run.
Variable F : fops.

(* the end of a conversation is read off the last result: the first one, or that of a resume *)
Definition final_of (r : res (outcome * st)) : final :=
  match r with
  | Ok (Done, s) => FComplete (rev (s_result s)) (s_vres s) (s_nops s) (s_nparse s)
  | Ok (Need _ _, _) => FStuck
  | Err e => FErr e
  | Panic => FPanic
  | OutOfFuel => FOutOfFuel
  end.
Lemma drive_last (J : res (outcome * st) -> Prop) fuel dbg c mask :
  (forall w rq s a, J (Ok (Need w rq, s)) -> J (resume F fuel dbg c mask w a s)) ->
  forall answers r, J r -> exists r', J r' /\ snd (drive F fuel dbg c mask r answers) = final_of r'.
Proof.
  intros JR. induction answers as [|a rest IH]; intros r HJ;
    destruct r as [[[|w rq] s]| e | |]; cbn [drive]; try (eexists; split; [exact HJ|reflexivity]).
  destruct (IH _ (JR w rq s a HJ)) as (r' & HJ' & E). exists r'. split; [exact HJ'|].
  destruct (drive F fuel dbg c mask _ rest). exact E.
Qed.

Definition bounded_final (n : N) (f : final) : Prop :=
  f <> FOutOfFuel /\ f <> FPanic /\
  forall ps vr nops nparse, f = FComplete ps vr nops nparse -> nops <= n /\ nparse <= 2 * n.

(* what holds of every state handed back to the consumer *)
Definition run_inv (n : N) (s : st) : Prop :=
  inv s /\ s_iter s <= n /\ s_nops s = s_iter s /\ s_nparse s <= 2 * s_iter s.

Lemma drive_bound dbg c mask n fuel :
  c_max c = Some n -> n <= 4294967295 -> (N.to_nat n < fuel)%nat ->
  forall answers r, noP r -> (forall o s, r = Ok (o, s) -> run_inv n s) ->
  bounded_final n (snd (drive F fuel dbg c mask r answers)).
Proof.
  intros CM NB FU answers r NP RI.
  destruct (drive_last (fun r => noP r /\ forall o s, r = Ok (o, s) -> run_inv n s) fuel dbg c mask) with (answers := answers) (r := r)
    as (r' & [NP' RI'] & ->); [|now split|].
  - intros w rq s a [_ RJ]. destruct (RJ _ _ eq_refl) as (I & L & A & B). unfold resume. split.
    + apply noP_bind; [apply resume_apply_nop|]. intros s1 RA.
      destruct (resume_apply_ok F c mask w a s s1 I RA) as (I1 & J1 & J2 & J3).
      apply (ei_total F dbg c mask n CM NB); auto; lia.
    + intros o s' E.
      destruct (resume_apply F c mask w a s) as [s1| | |] eqn:RA; cbn [bind] in E; try discriminate E.
      destruct (resume_apply_ok F c mask w a s s1 I RA) as (I1 & J1 & J2 & J3).
      destruct (ei_ok F dbg c mask n CM NB fuel s1 o s' I1 ltac:(lia) E) as ((K0 & K1 & K2 & K3 & K4) & K5).
      split; [exact K0|]. lia.
  - destruct NP'. destruct r' as [[[|w rq] s]| e | |]; try contradiction; (split; [discriminate|split; [discriminate|]]);
      try (intros; discriminate).
    destruct (RI' _ _ eq_refl) as (I & L & A & B). intros ps vr nops nparse E; inversion E; subst; lia.
Qed.

Lemma new_mask_ok dbg asz : asz <= 8 -> exists m, new_mask dbg asz = Ok m.
Proof.
  intros H. unfold new_mask. destruct (asz =? 8) eqn:E; [eauto|].
  destruct (64 <=? 8 * asz) eqn:E2; [lia|eauto].
Qed.

Lemma initial_inv bs : inv (initial_state bs).
Proof. unfold inv, initial_state; fields. split; [apply sfx_refl|constructor]. Qed.

(* evaluate: the loop is entered in the initial state with the initial value, if any, on the stack *)
Definition start (c : cfg) (program : list byte) : st :=
  set_stack (initial_state program) (match c_init c with Some v => [norm c (mkV TGeneric v)] | None => [] end).
Lemma evaluate_start fuel dbg c mask program :
  evaluate F fuel dbg c mask program = Err EStackFull \/
  evaluate F fuel dbg c mask program = evaluate_internal F fuel dbg c mask (start c program).
Proof. unfold evaluate, start, push. destruct (c_init c); [destruct (full _ _)|]; auto. Qed.
Lemma start_inv c program : inv (start c program).
Proof. exact (initial_inv program). Qed.

End Run.

(* ---------------------------------------------------------------- shape of the result (composite locations) *)
Definition sized (l : list piece) : Prop := Forall (fun p => p_size p <> None) l.

(* what Evaluation::result()/value_result() can return *)
Definition result_shape (mask : N) (ps : list piece) (vr : option value) : Prop :=
  ps <> [] /\
  ((vr = None /\ (sized ps \/ exists loc, ps = [mkPiece None None loc])) \/
   (exists v a, vr = Some v /\ to_u64 v mask = Ok a /\ ps = [mkPiece None None (LAddress a)])).

Lemma sized_cons p l : p_size p <> None -> sized l -> sized (p :: l).
Proof. intros. now constructor. Qed.
Lemma sized_rev l : sized l -> sized (rev l).
Proof. unfold sized. intros H. apply Forall_rev. exact H. Qed.

Section Pieces.
Variable F : fops.

Lemma eoo_result dbg c mask s r s' :
  evaluate_one_operation F dbg c mask s = Ok (r, s') ->
  s_vres s' = s_vres s /\
  match r with
  | RPiece => exists p, p_size p <> None /\ s_result s' = p :: s_result s
  | _ => s_result s' = s_result s
  end.
Proof.
  intros H. unfold evaluate_one_operation in H.
  destruct (parse_op dbg (c_enc c) (s_pc (count_op (count_parse s)))) as [[o pc']| | |] eqn:P; cbn [bind] in H; try discriminate H.
  destruct o; unfold binop, unop in H; peel; invert_prims; fields; (split; [reflexivity|]); try reflexivity.
  all: eexists; split; [|reflexivity]; cbn; discriminate.
Qed.

Lemma ei_pieces dbg c mask fuel s o s' :
  sized (s_result s) -> s_vres s = None -> evaluate_internal F fuel dbg c mask s = Ok (o, s') ->
  match o with
  | Need _ _ => sized (s_result s') /\ s_vres s' = None
  | Done => result_shape mask (rev (s_result s')) (s_vres s')
  end.
Proof.
  intros SZ VN.
  apply (ei_ind F dbg c mask (fun s => sized (s_result s) /\ s_vres s = None)
           (fun o s' => match o with Need _ _ => sized (s_result s') /\ s_vres s' = None
                                   | Done => result_shape mask (rev (s_result s')) (s_vres s') end)); [..|now split].
  - intros s0 [S V]. destruct (eoe_result s0) as [-> ->]. now split.
  - intros s0 s2 [S V] CI. destruct (count_iteration_fields _ _ _ _ CI) as (_ & -> & -> & _). now split.
  - intros s0 r s3 [S V] EO. destruct (eoo_result dbg c mask _ r s3 EO) as [-> R]. split; [|exact V].
    destruct r; try (rewrite R; exact S). destruct R as (p & PS & ->). now apply sized_cons.
  - intros s0 o2 pc' H _. exact H.
  - intros s0 size off loc s5 [S V] PP. apply push_piece_inv in PP. subst s5. fields.
    split; [|exact V]. apply sized_cons; [cbn; discriminate|exact S].
  - intros s0 o0 s0' [S V] H. unfold finish in H. destruct (s_result s0) as [|p l] eqn:RS.
    + peel; invert_prims; fields. unfold result_shape. rewrite RS. cbn [rev app]. split; [discriminate|]. right. eauto.
    + inversion H; subst. unfold result_shape. rewrite RS, V. split.
      * intros E. apply (f_equal (@length _)) in E. rewrite rev_length in E. discriminate E.
      * left. split; [reflexivity|]. left. apply sized_rev. exact S.
  - intros s0 w rq H. exact H.
  - intros s0 loc s5 [S V] RS PP. apply push_piece_inv in PP. subst s5. fields. rewrite RS. cbn [rev app].
    unfold result_shape. split; [discriminate|]. left. split; [exact V|]. right. eauto.
Qed.

Lemma resume_apply_result c mask w a s s' : resume_apply F c mask w a s = Ok s' ->
  s_result s' = s_result s /\ s_vres s' = s_vres s.
Proof. intros H. unfold resume_apply in H. destruct w; peel; invert_prims; fields; now split. Qed.

Lemma drive_pieces dbg c mask fuel : forall answers r,
  (forall o s, r = Ok (o, s) ->
     match o with Need _ _ => sized (s_result s) /\ s_vres s = None
                | Done => result_shape mask (rev (s_result s)) (s_vres s) end) ->
  forall ps vr a b, snd (drive F fuel dbg c mask r answers) = FComplete ps vr a b -> result_shape mask ps vr.
Proof.
  intros answers r HR ps vr a b.
  destruct (drive_last F (fun r => forall o s, r = Ok (o, s) ->
       match o with Need _ _ => sized (s_result s) /\ s_vres s = None
                  | Done => result_shape mask (rev (s_result s)) (s_vres s) end) fuel dbg c mask)
    with (answers := answers) (r := r) as (r' & HR' & ->); [|exact HR|].
  - intros w rq s ans HJ o s' ER. destruct (HJ _ _ eq_refl) as [SZ VN]. unfold resume in ER.
    destruct (resume_apply F c mask w ans s) as [s1| | |] eqn:RA; cbn [bind] in ER; try discriminate ER.
    destruct (resume_apply_result _ _ _ _ _ _ RA) as [R1 V1].
    apply (ei_pieces dbg c mask fuel s1 o s'); auto; congruence.
  - destruct r' as [[[|w rq] s]| e | |]; intros E; try discriminate E. inversion E; subst. exact (HR' _ _ eq_refl).
Qed.

End Pieces.

(* ---------------------------------------------------------------- the normalised machine keeps its stack canonical *)
Definition gcanon (bits : N) (v : value) : Prop := vty v = TGeneric -> vbits v < 2 ^ bits.
Definition canon_stack (c : cfg) (s : st) : Prop :=
  match c_canon c with
  | Some bits => Forall (gcanon bits) (s_stack s)
  | None => True
  end.

Lemma norm_gcanon c bits v : c_canon c = Some bits -> gcanon bits (norm c v).
Proof.
  intros E. unfold norm, gcanon. rewrite E. destruct (vty v) eqn:T; cbn [vty vbits]; intros H; try congruence.
  rewrite N.land_ones. apply N.mod_lt, N.pow_nonzero. lia.
Qed.

Ltac forall_inv :=
  repeat match goal with
  | H : _ :: _ = _ :: _ |- _ => inversion H; subst; clear H
  | H : Forall _ (_ :: _) |- _ => inversion H; subst; clear H
  end.

Section Canon.
Variable F : fops.

Lemma eoo_canon dbg c mask s r s' :
  canon_stack c s -> evaluate_one_operation F dbg c mask s = Ok (r, s') -> canon_stack c s'.
Proof.
  unfold canon_stack. destruct (c_canon c) as [bits|] eqn:CC; [|trivial]. intros CS H.
  unfold evaluate_one_operation in H.
  destruct (parse_op dbg (c_enc c) (s_pc (count_op (count_parse s)))) as [[o pc']| | |] eqn:P; cbn [bind] in H; try discriminate H.
  fields.
  destruct o; unfold binop, unop in H; peel; invert_prims; fields;
    repeat match goal with E : s_stack _ = _ |- _ => fields; rewrite E in *; clear E end; fields;
    forall_inv; repeat (apply Forall_cons; [apply (norm_gcanon c bits _ CC)|]); auto.
Qed.

Lemma resume_apply_canon c mask w a s s' :
  canon_stack c s -> resume_apply F c mask w a s = Ok s' -> canon_stack c s'.
Proof.
  unfold canon_stack. destruct (c_canon c) as [bits|] eqn:CC; [|trivial]. intros CS H.
  unfold resume_apply in H.
  destruct w; peel; invert_prims; fields;
    repeat match goal with E : s_stack _ = _ |- _ => fields; rewrite E in *; clear E end; fields;
    forall_inv; repeat (apply Forall_cons; [apply (norm_gcanon c bits _ CC)|]); auto.
Qed.
Lemma ei_canon dbg c mask fuel s o s' :
  canon_stack c s -> evaluate_internal F fuel dbg c mask s = Ok (o, s') -> canon_stack c s'.
Proof.
  apply (ei_ind F dbg c mask (canon_stack c) (fun _ => canon_stack c)); try apply eoo_canon; unfold canon_stack.
  - intros s0. now rewrite eoe_stack.
  - intros s0 s2 H CI. destruct (count_iteration_fields _ _ _ _ CI) as (-> & _). exact H.
  - intros s0 o2 pc' H _. exact H.
  - intros s0 size off loc s5 H PP. apply push_piece_inv in PP. now subst s5.
  - intros s0 o0 s0' CS H. unfold finish in H. destruct (c_canon c) as [bits|]; [|trivial].
    peel; invert_prims; fields;
      repeat match goal with E : s_stack _ = _ |- _ => fields; rewrite E in *; clear E end; fields; forall_inv; auto.
  - intros s0 w rq H. exact H.
  - intros s0 loc s5 H _ PP. apply push_piece_inv in PP. now subst s5.
Qed.

End Canon.

(* ---------------------------------------------------------------- max_iterations = u32::MAX bounds a loop (repair 273f60c) *)
(* DW_OP_skip -3: an expression that jumps to itself *)
Definition loop_prog : list byte := [x2f; xfd; xff].
Definition loop_cfg : cfg := mkCfg (mkEnc 8 false 4 false) None (Some 4294967295) None None None None None.
Definition loop_state (k m : N) : st := mkSt loop_prog loop_prog [] [] [] k None m m.
Definition loop_mask : N := 18446744073709551615.

Lemma loop_eoo dbg k m it :
  evaluate_one_operation no_fops dbg loop_cfg loop_mask (set_iter (loop_state k m) it) =
  Ok (RIncomplete, loop_state it (m + 1)).
Proof. reflexivity. Qed.

Lemma loop_step dbg fuel k m : k < 4294967295 ->
  evaluate_internal no_fops (S fuel) dbg loop_cfg loop_mask (loop_state k m) =
  evaluate_internal no_fops fuel dbg loop_cfg loop_mask (loop_state (k + 1) (m + 1)).
Proof.
  intros H. cbn [evaluate_internal].
  change (end_of_expression (loop_state k m)) with (false, loop_state k m).
  cbv iota beta. unfold count_iteration. change (c_max loop_cfg) with (Some 4294967295).
  change (s_iter (loop_state k m)) with k. cbv iota beta.
  destruct (4294967295 <=? k) eqn:E; [lia|]. rewrite chk_add_iter by lia. cbn [bind].
  rewrite loop_eoo. cbn [bind]. reflexivity.
Qed.

Lemma loop_many dbg fuel : forall j k m, k + N.of_nat j <= 4294967295 ->
  evaluate_internal no_fops (j + fuel) dbg loop_cfg loop_mask (loop_state k m) =
  evaluate_internal no_fops fuel dbg loop_cfg loop_mask (loop_state (k + N.of_nat j) (m + N.of_nat j)).
Proof.
  induction j as [|j IH]; intros k m H.
  - cbn [Nat.add N.of_nat]. now rewrite !N.add_0_r.
  - cbn [Nat.add]. rewrite loop_step by lia. rewrite IH by lia. f_equal. f_equal; lia.
Qed.

Lemma loop_limit dbg fuel m :
  evaluate_internal no_fops (S fuel) dbg loop_cfg loop_mask (loop_state 4294967295 m) = Err ETooManyIterations.
Proof. reflexivity. Qed.


(* ---------------------------------------------------------------- no panic for any iteration limit, or none *)
Section NoPanicRun.
Variable F : fops.

Definition lim_cfg (c : cfg) : Prop := match c_max c with Some n => n <= 4294967295 | None => True end.

Lemma ei_gen_inv dbg c mask fuel s : inv s -> lim_ok c s ->
  evaluate_internal F fuel dbg c mask s <> Panic /\
  forall o s', evaluate_internal F fuel dbg c mask s = Ok (o, s') ->
    inv s' /\ lim_ok c s' /\ (c_max c = None -> s_iter s' = s_iter s).
Proof.
  intros I L. pose proof (ei_gen F dbg c mask fuel s I L) as G. unfold ei_post, lim_ok in *.
  destruct (evaluate_internal F fuel dbg c mask s) as [[o s']| x | |]; split; try discriminate; try contradiction.
  intros o' s'' E. inversion E; subst. destruct G as [I' G]. split; [exact I'|].
  destruct (c_max c) as [n|]; [|split; [exact Logic.I|auto]].
  destruct G as [_ G]. split; [split; [apply L|exact G]|discriminate].
Qed.

Lemma drive_nopanic dbg c mask fuel : forall answers r,
  r <> Panic -> (forall o s, r = Ok (o, s) -> inv s /\ lim_ok c s) ->
  snd (drive F fuel dbg c mask r answers) <> FPanic.
Proof.
  intros answers r NP RI.
  destruct (drive_last F (fun r => r <> Panic /\ forall o s, r = Ok (o, s) -> inv s /\ lim_ok c s) fuel dbg c mask)
    with (answers := answers) (r := r) as (r' & [NP' _] & ->); [|now split|].
  - intros w rq s a [_ RJ]. destruct (RJ _ _ eq_refl) as [I L]. unfold resume.
    destruct (resume_apply_nop F c mask w a s) as [RN _].
    destruct (resume_apply F c mask w a s) as [s1| | |] eqn:RA; cbn [bind]; try contradiction; try (split; discriminate).
    destruct (resume_apply_ok F c mask w a s s1 I RA) as (I1 & J1 & _).
    assert (L1 : lim_ok c s1) by (unfold lim_ok in *; now rewrite J1).
    destruct (ei_gen_inv dbg c mask fuel s1 I1 L1) as [NP1 G]. split; [exact NP1|].
    intros o s' E. destruct (G o s' E) as (I' & L' & _). now split.
  - destruct r' as [[[|w rq] s]| e | |]; try discriminate. contradiction.
Qed.

End NoPanicRun.
