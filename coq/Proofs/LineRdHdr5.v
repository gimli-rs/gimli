(* Proofs/LineRdHdr5.v — version 5 header tables: entry formats (content types x forms), directory
   and file entries, MD5, LLVM source; then LineProgramHeader::parse inverts the reference unit encoder
   for every version 2-5, both formats, both byte orders, any bytes after the unit. *)
From Coq Require Import List NArith ZArith Bool Lia ZifyBool ZifyN ZifyNat.
From Coq.Strings Require Import Byte.
Require Import GV.Base.Res GV.Base.Byt GV.Base.Ints GV.Model.Leb GV.Model.Prim GV.Spec.LebSpec GV.Spec.LineSpec
               GV.Model.LineRd GV.Proofs.LebProofs GV.Proofs.PrimProofs GV.Proofs.LineRdBase GV.Proofs.LineRdHdr
               GV.Proofs.LineRdHdrSafe.
Import ListNotations.
Local Open Scope N_scope.

Definition word_lim (fmt64 : bool) : N := if fmt64 then two64 else 4294967296.

Definition val_ok (fmt64 : bool) (form : N) (v : form_val) : Prop :=
  match v with
  | VBlock bs =>
      (form = FORM_block1 /\ len_n bs < 256) \/ (form = FORM_block2 /\ len_n bs < 65536) \/
      (form = FORM_block4 /\ len_n bs < 4294967296) \/ (form = FORM_block /\ len_n bs < two64) \/
      (form = FORM_data16 /\ len_n bs = 16)
  | VData1 n => form = FORM_data1 /\ n < 256
  | VData2 n => form = FORM_data2 /\ n < 65536
  | VData4 n => form = FORM_data4 /\ n < 4294967296
  | VData8 n => form = FORM_data8 /\ n < two64
  | VUdata n => form = FORM_udata /\ n < two64
  | VSdata z => form = FORM_sdata /\ (-9223372036854775808 <= z < 9223372036854775808)%Z
  | VFlag _ => form = FORM_flag
  | VSecOffset n => form = FORM_sec_offset /\ n < word_lim fmt64
  | VString s => form = FORM_string /\ no_nul s = true
  | VStrRef n => form = FORM_strp /\ n < word_lim fmt64
  | VStrRefSup n => (form = FORM_strp_sup \/ form = FORM_GNU_strp_alt) /\ n < word_lim fmt64
  | VLineStrRef n => form = FORM_line_strp /\ n < word_lim fmt64
  | VStrOffsetsIndex n =>
      ((form = FORM_strx \/ form = FORM_GNU_str_index) /\ n < two64) \/ (form = FORM_strx1 /\ n < 256) \/
      (form = FORM_strx2 /\ n < 65536) \/ (form = FORM_strx3 /\ n < 16777216) \/
      (form = FORM_strx4 /\ n < 4294967296)
  end.

Lemma parse_attribute_enc dbg be fmt64 form v tail :
  val_ok fmt64 form v ->
  parse_attribute dbg be fmt64 form (enc_val be fmt64 form v ++ tail) = Ok (v, tail).
Proof.
  intros H. unfold parse_attribute, enc_val, word_lim, read_u16, read_u32, read_u64, read_uint in *.
  (* the form codes are numerals: once the form is known the dispatch computes *)
  destruct v; cbn [val_ok] in H;
    unfold FORM_block2, FORM_block4, FORM_data2, FORM_data4, FORM_data8, FORM_string, FORM_block,
      FORM_block1, FORM_data1, FORM_flag, FORM_sdata, FORM_strp, FORM_udata, FORM_sec_offset, FORM_strx,
      FORM_strp_sup, FORM_data16, FORM_line_strp, FORM_strx1, FORM_strx2, FORM_strx3, FORM_strx4,
      FORM_GNU_str_index, FORM_GNU_strp_alt in *.
  - (* VBlock: a length, then the bytes *)
    destruct H as [[-> H]|[[-> H]|[[-> H]|[[-> H]|[-> H]]]]]; cbn [N.eqb Pos.eqb orb]; rewrite <- ?app_assoc.
    + cbn [app]. rewrite read_u8_cons by exact H. cbn [bind]. rewrite split_n_app. reflexivity.
    + rewrite read_un_enc by exact H. cbn [bind]. rewrite split_n_app. reflexivity.
    + rewrite read_un_enc by exact H. cbn [bind]. rewrite split_n_app. reflexivity.
    + rewrite read_uleb128_enc by exact H. cbn [bind]. rewrite split_n_app. reflexivity.
    + rewrite <- H, split_n_app. reflexivity.
  - destruct H as [-> H]; cbn [N.eqb Pos.eqb orb app]. rewrite read_u8_cons by exact H. reflexivity.
  - destruct H as [-> H]; cbn [N.eqb Pos.eqb orb]. rewrite read_un_enc by exact H. reflexivity.
  - destruct H as [-> H]; cbn [N.eqb Pos.eqb orb]. rewrite read_un_enc by exact H. reflexivity.
  - destruct H as [-> H]; cbn [N.eqb Pos.eqb orb]. rewrite read_un_enc by exact H. reflexivity.
  - destruct H as [-> H]; cbn [N.eqb Pos.eqb orb]. rewrite read_uleb128_enc by exact H. reflexivity.
  - destruct H as [-> H]; cbn [N.eqb Pos.eqb orb]. rewrite read_sleb_enc by exact H. reflexivity.
  - subst form; cbn [N.eqb Pos.eqb orb app]. destruct b; reflexivity.
  - destruct H as [-> H]; cbn [N.eqb Pos.eqb orb]. rewrite read_word_enc by exact H. reflexivity.
  - destruct H as [-> H]; cbn [N.eqb Pos.eqb orb]. rewrite <- app_assoc. cbn [app].
    rewrite read_cstr_app by apply no_nul_free, H. reflexivity.
  - destruct H as [-> H]; cbn [N.eqb Pos.eqb orb]. rewrite read_word_enc by exact H. reflexivity.
  - destruct H as [[-> | ->] H]; cbn [N.eqb Pos.eqb orb]; rewrite read_word_enc by exact H; reflexivity.
  - destruct H as [-> H]; cbn [N.eqb Pos.eqb orb]. rewrite read_word_enc by exact H. reflexivity.
  - destruct H as [[[-> | ->] H]|[[-> H]|[[-> H]|[[-> H]|[-> H]]]]]; cbn [N.eqb Pos.eqb orb Nat.ltb Nat.leb].
    + rewrite read_uleb128_enc by exact H. reflexivity.
    + rewrite read_uleb128_enc by exact H. reflexivity.
    + cbn [app]. rewrite read_u8_cons by exact H. reflexivity.
    + rewrite read_un_enc by exact H. reflexivity.
    + rewrite read_un_enc by exact H. reflexivity.
    + rewrite read_un_enc by exact H. reflexivity.
Qed.

Inductive entry_ok (fmt64 : bool) : list entry_format -> list form_val -> Prop :=
| entry_ok_nil : entry_ok fmt64 [] []
| entry_ok_cons f ft v vt : val_ok fmt64 (ef_form f) v -> entry_ok fmt64 ft vt -> entry_ok fmt64 (f :: ft) (v :: vt).

Lemma parse_directory_loop_enc dbg be fmt64 : forall fmts vals path tail,
  entry_ok fmt64 fmts vals ->
  parse_directory_loop dbg be fmt64 fmts path (enc_entry be fmt64 fmts vals ++ tail) =
  Ok (dir_of_entry fmts vals path, tail).
Proof.
  intros fmts vals path tail H. revert path. induction H as [|f ft v vt Hv H IH]; intros path.
  - reflexivity.
  - cbn [enc_entry parse_directory_loop dir_of_entry]. rewrite <- app_assoc.
    rewrite parse_attribute_enc by exact Hv. cbn [bind]. apply IH.
Qed.

Lemma file_field_upd ct v f p : file_field ct v f p = upd_file ct v f p.
Proof. reflexivity. Qed.

Lemma parse_file_loop_enc dbg be fmt64 : forall fmts vals f path tail,
  entry_ok fmt64 fmts vals ->
  parse_file_loop dbg be fmt64 fmts f path (enc_entry be fmt64 fmts vals ++ tail) =
  Ok (file_of_entry fmts vals f path, tail).
Proof.
  intros fmts vals f path tail H. revert f path. induction H as [|fm ft v vt Hv H IH]; intros f path.
  - reflexivity.
  - cbn [enc_entry parse_file_loop file_of_entry]. rewrite <- app_assoc.
    rewrite parse_attribute_enc by exact Hv. cbn [bind]. rewrite file_field_upd.
    destruct (upd_file (ef_ct fm) v f path) as [f' p']. apply IH.
Qed.

(* `for _ in 0..count` *)
Lemma count_loop_enc {A} (one : list byte -> res (A * list byte)) (enc : list form_val -> list byte)
  (dec : list form_val -> A) :
  forall entries fuel tail,
  (forall e t, In e entries -> one (enc e ++ t) = Ok (dec e, t)) ->
  (length entries < fuel)%nat ->
  count_loop fuel (len_n entries) one (concat (map enc entries) ++ tail) = Ok (map dec entries, tail).
Proof.
  induction entries as [|e es IH]; intros fuel tail H Hf; destruct fuel as [|f]; try (simpl in Hf; lia).
  - reflexivity.
  - cbn [count_loop]. unfold len_n. cbn [length].
    destruct (N.of_nat (S (length es)) =? 0) eqn:E; [lia|].
    cbn [map concat]. rewrite <- app_assoc. rewrite H by (left; reflexivity). cbn [bind].
    replace (N.of_nat (S (length es)) - 1) with (len_n es) by (unfold len_n; lia).
    rewrite IH; [reflexivity| |simpl in Hf; lia]. intros e' t Hin. apply H. right. exact Hin.
Qed.

Definition fmt_ok (f : entry_format) : Prop := ef_ct f < 65536 /\ ef_form f < 16384.

Lemma parse_formats_loop_enc dbg : forall fmts pc tail,
  Forall fmt_ok fmts ->
  parse_formats_loop dbg (length fmts) pc
    (concat (map (fun f => enc_uleb (ef_ct f) ++ enc_uleb (ef_form f)) fmts) ++ tail) =
  Ok (fmts, pc + count_path fmts, tail).
Proof.
  induction fmts as [|f ft IH]; intros pc tail F.
  - cbn. rewrite N.add_0_r. reflexivity.
  - inversion F as [|? ? [Hc Hf] F']; subst. cbn [length parse_formats_loop map concat].
    rewrite <- !app_assoc. rewrite read_uleb128_enc by (unfold two64; lia). cbn [bind].
    destruct (65535 <? ef_ct f) eqn:E; [lia|].
    rewrite read_uleb128_u16_enc by (unfold two16; lia). cbn [bind].
    rewrite IH by exact F'. cbn [bind count_path]. destruct f as [ct fm]; cbn [ef_ct ef_form] in *.
    f_equal. f_equal. f_equal. destruct (ct =? LNCT_path); lia.
Qed.

Lemma parse_formats_enc dbg fmts tail :
  Forall fmt_ok fmts -> len_n fmts < 256 -> count_path fmts = 1 ->
  parse_formats dbg (enc_fmts fmts ++ tail) = Ok (fmts, tail).
Proof.
  intros F L C. unfold parse_formats, enc_fmts. cbn [app]. rewrite read_u8_cons by exact L. cbn [bind].
  unfold len_n. rewrite Nat2N.id. rewrite parse_formats_loop_enc by exact F. cbn [bind].
  rewrite C. reflexivity.
Qed.

(* exactly one DW_LNCT_path in the format gives a path component, so the unwrap succeeds *)
Lemma dir_of_entry_some : forall fmts vals path,
  length fmts = length vals -> (path <> None \/ 0 < count_path fmts) -> dir_of_entry fmts vals path <> None.
Proof.
  induction fmts as [|f ft IH]; intros vals path L H; destruct vals as [|v vt]; try discriminate.
  - cbn. destruct H as [H|H]; [exact H|cbn in H; lia].
  - cbn [dir_of_entry]. apply IH; [simpl in L; lia|]. exact (count_path_step _ _ _ _ H).
Qed.

Lemma entry_ok_len fmt64 fmts vals : entry_ok fmt64 fmts vals -> length fmts = length vals.
Proof. induction 1; simpl; congruence. Qed.

Lemma file_of_entry_some : forall fmts vals f path,
  length fmts = length vals -> (path <> None \/ 0 < count_path fmts) -> snd (file_of_entry fmts vals f path) <> None.
Proof.
  induction fmts as [|fm ft IH]; intros vals f path L H; destruct vals as [|v vt]; try discriminate.
  - cbn. destruct H as [H|H]; [exact H|cbn in H; lia].
  - cbn [file_of_entry]. pose proof (file_field_path (ef_ct fm) v f path) as U. rewrite file_field_upd in U.
    destruct (upd_file (ef_ct fm) v f path) as [f' p']. cbn [snd] in U. subst p'.
    apply IH; [simpl in L; lia|]. exact (count_path_step _ _ _ _ H).
Qed.

Definition dir_dec (fmts : list entry_format) (e : list form_val) : form_val :=
  match dir_of_entry fmts e None with Some v => v | None => VString [] end.
Definition file_dec (fmts : list entry_format) (e : list form_val) : file_entry :=
  let fp := file_of_entry fmts e file0 None in
  mk_file (match snd fp with Some v => v | None => VString [] end)
          (fe_dir (fst fp)) (fe_time (fst fp)) (fe_size (fst fp)) (fe_md5 (fst fp)) (fe_source (fst fp)).

Lemma parse_directory_v5_enc dbg be fmt64 fmts e t : entry_ok fmt64 fmts e -> 0 < count_path fmts ->
  parse_directory_v5 dbg be fmt64 fmts (enc_entry be fmt64 fmts e ++ t) = Ok (dir_dec fmts e, t).
Proof.
  intros He C. unfold parse_directory_v5, dir_dec. rewrite parse_directory_loop_enc by exact He. cbn [bind].
  pose proof (dir_of_entry_some fmts e None (entry_ok_len _ _ _ He) (or_intror C)) as S.
  destruct (dir_of_entry fmts e None); [reflexivity|contradiction].
Qed.

Lemma parse_file_v5_enc dbg be fmt64 fmts e t : entry_ok fmt64 fmts e -> 0 < count_path fmts ->
  parse_file_v5 dbg be fmt64 fmts (enc_entry be fmt64 fmts e ++ t) = Ok (file_dec fmts e, t).
Proof.
  intros He C. unfold parse_file_v5, file_dec. rewrite parse_file_loop_enc by exact He.
  pose proof (file_of_entry_some fmts e file0 None (entry_ok_len _ _ _ He) (or_intror C)) as S.
  destruct (file_of_entry fmts e file0 None) as [f p]. cbn [bind fst snd] in *.
  destruct p; [reflexivity|contradiction].
Qed.

(* when every entry has a path, the directory table is the list of the decoded entries *)
Lemma dir_table_some fmts : forall dirs, (forall e, In e dirs -> dir_of_entry fmts e None <> None) ->
  flat_map (fun o => match o with Some v => [v] | None => [] end) (map (fun vals => dir_of_entry fmts vals None) dirs) =
  map (dir_dec fmts) dirs.
Proof.
  induction dirs as [|e es IH]; intros H; [reflexivity|]. cbn [map flat_map]. unfold dir_dec at 1.
  pose proof (H e (or_introl eq_refl)) as S. destruct (dir_of_entry fmts e None); [|contradiction].
  cbn [app]. f_equal. apply IH. intros x Hx. apply H. right. exact Hx.
Qed.

Lemma enc_entry_nonempty be fmt64 fmts vals : entry_ok fmt64 fmts vals -> 0 < count_path fmts ->
  (1 <= length (enc_entry be fmt64 fmts vals))%nat.
Proof.
  intros H C. destruct H as [|f ft v vt Hv H]; [cbn in C; lia|].
  cbn [enc_entry]. rewrite app_length.
  pose proof (parse_attribute_enc false be fmt64 (ef_form f) v [] Hv) as E. rewrite app_nil_r in E.
  pose proof (eats_sg _ (enc_val be fmt64 (ef_form f) v) (parse_attribute_eats false be fmt64 (ef_form f))) as G.
  rewrite E in G. destruct G as [_ G]. cbn [snd length] in G. lia.
Qed.

(* the entries of versions 2-4 are entries under the implicit formats *)
Lemma dir_ok_entry fmt64 d : dir_ok d -> entry_ok fmt64 dir_fmt_v4 d.
Proof. intros (s & -> & _ & Hn). repeat constructor. exact Hn. Qed.
Lemma file_ok_entry fmt64 d : file_ok d -> entry_ok fmt64 file_fmt_v4 d.
Proof. intros (p & dd & t & z & -> & _ & Hn & Hd & Ht & Hz). repeat constructor; assumption. Qed.

Lemma table_v5_enc {A} dbg be fmt64 fmts (one : list entry_format -> list byte -> res (A * list byte))
  (dec : list form_val -> A) entries rest :
  Forall fmt_ok fmts -> len_n fmts < 256 -> count_path fmts = 1 ->
  Forall (entry_ok fmt64 fmts) entries -> len_n entries < two64 ->
  (forall e t, In e entries -> one fmts (enc_entry be fmt64 fmts e ++ t) = Ok (dec e, t)) ->
  (let* (fm, rest) := parse_formats dbg (enc_fmts fmts ++ enc_uleb (len_n entries) ++
                                         concat (map (enc_entry be fmt64 fmts) entries) ++ rest) in
   let* (count, rest) := read_uleb128 dbg rest in
   let* (es, rest) := count_loop (S (length rest)) count (one fm) rest in
   Ok (fm, es, rest)) = Ok (fmts, map dec entries, rest).
Proof.
  intros F L C E N One. rewrite parse_formats_enc by assumption. cbn [bind].
  rewrite read_uleb128_enc by exact N. cbn [bind].
  rewrite (count_loop_enc (one fmts) (enc_entry be fmt64 fmts) dec); [reflexivity|exact One|].
  rewrite Forall_forall in E. rewrite app_length.
  pose proof (entries_len (enc_entry be fmt64 fmts) entries
                (fun e He => enc_entry_nonempty be _ _ _ (E e He) ltac:(lia))). lia.
Qed.

Record raw_wf5 (be : bool) (r : raw_header) (prog : list byte) : Prop := mk_raw_wf5 {
  r5_ver : rh_version r = 5;
  r5_asz : rh_addr_size r = 1 \/ rh_addr_size r = 2 \/ rh_addr_size r = 4 \/ rh_addr_size r = 8;
  r5_mil : 1 <= rh_min_inst_len r < 256; r5_mops : 1 <= rh_max_ops r < 256;
  r5_lr : 1 <= rh_line_range r < 256; r5_ob : 1 <= rh_opcode_base r < 256;
  r5_lb : (-128 <= rh_line_base r < 128)%Z;
  r5_std : N.of_nat (length (rh_std_lengths r)) = rh_opcode_base r - 1;
  r5_dfmt : Forall fmt_ok (rh_dir_fmt r) /\ len_n (rh_dir_fmt r) < 256 /\ count_path (rh_dir_fmt r) = 1;
  r5_ffmt : Forall fmt_ok (rh_file_fmt r) /\ len_n (rh_file_fmt r) < 256 /\ count_path (rh_file_fmt r) = 1;
  r5_dirs : Forall (entry_ok (rh_fmt64 r) (rh_dir_fmt r)) (rh_dirs r) /\ len_n (rh_dirs r) < two64;
  r5_files : Forall (entry_ok (rh_fmt64 r) (rh_file_fmt r)) (rh_files r) /\ len_n (rh_files r) < two64;
  r5_len : len_n (enc_after_len be r prog) < (if rh_fmt64 r then two64 else 4294967280) }.

(* the parameters are read the same way in every version; only the two tables differ *)
Theorem header_roundtrip dbg be asz0 r prog tail :
  raw_wf4 be r prog \/ raw_wf5 be r prog ->
  parse_header dbg be asz0 (enc_unit be r prog ++ tail) = Ok (header_of_raw be asz0 r prog).
Proof.
  intros W.
  assert (P : 2 <= rh_version r <= 5 /\ 1 <= rh_min_inst_len r < 256 /\ 1 <= rh_max_ops r < 256 /\
              1 <= rh_line_range r < 256 /\ 1 <= rh_opcode_base r < 256 /\ (-128 <= rh_line_base r < 128)%Z /\
              N.of_nat (length (rh_std_lengths r)) = rh_opcode_base r - 1 /\
              len_n (enc_after_len be r prog) < (if rh_fmt64 r then two64 else 4294967280) /\
              (5 <= rh_version r -> (rh_addr_size r =? 1) || (rh_addr_size r =? 2) || (rh_addr_size r =? 4) ||
                                    (rh_addr_size r =? 8) = true)).
  { destruct W as [[]|[]]; repeat split; lia. }
  destruct P as (Hv & Hmil & Hmops & Hlr & Hob & Hlb & Hstd & Hlen & Hasz).
  unfold parse_header, enc_unit. rewrite <- !app_assoc.
  rewrite read_initial_length_enc by exact Hlen. cbn [bind]. rewrite split_n_app. cbn [bind].
  unfold header_of_raw, enc_after_len at 1. rewrite <- ?app_assoc.
  unfold read_u16. rewrite read_un_enc by (change (256 ^ N.of_nat 2) with 65536; lia). cbn [bind].
  rewrite (proj2 (orb_false_iff _ _)) by lia.
  (* address_size and segment_selector_size, version 5 only *)
  assert (A : forall rest,
    (if 5 <=? rh_version r
     then let* (a, rest) := read_address_size ((if 5 <=? rh_version r then [n2b (rh_addr_size r); x00] else []) ++ rest) in
          let* (seg, rest) := read_u8 rest in
          if negb (seg =? 0) then Err EUnsupportedSegmentSize else Ok (a, rest)
     else Ok (asz0, (if 5 <=? rh_version r then [n2b (rh_addr_size r); x00] else []) ++ rest)) =
    Ok (if 5 <=? rh_version r then rh_addr_size r else asz0, rest)).
  { intros rest. destruct (5 <=? rh_version r) eqn:V5; [|reflexivity].
    unfold read_address_size. cbn [app]. rewrite read_u8_cons by lia. cbn [bind]. rewrite Hasz by lia. reflexivity. }
  rewrite A. clear A. cbn [bind].
  assert (Hbl : len_n (enc_header_body be r) < (if rh_fmt64 r then two64 else 4294967296)).
  { unfold len_n, enc_after_len in *. rewrite !app_length in Hlen. destruct (rh_fmt64 r); unfold two64 in *; lia. }
  rewrite read_word_enc by exact Hbl. cbn [bind].
  unfold len_n at 1 2. rewrite skip_n_app, truncate_n_app. cbn [bind].
  unfold enc_header_body. cbn [app]. rewrite read_u8_cons by lia. cbn [bind].
  rewrite (proj2 (N.eqb_neq _ 0)) by lia.
  (* maximum_operations_per_instruction, version 4 and later *)
  assert (M : forall rest,
    (if 4 <=? rh_version r then read_u8 ((if 4 <=? rh_version r then [n2b (rh_max_ops r)] else []) ++ rest)
     else Ok (1, (if 4 <=? rh_version r then [n2b (rh_max_ops r)] else []) ++ rest)) =
    Ok (if 4 <=? rh_version r then rh_max_ops r else 1, rest)).
  { intros rest. destruct (4 <=? rh_version r); cbn [app]; [apply read_u8_cons; lia|reflexivity]. }
  rewrite M. clear M. cbn [bind].
  rewrite (proj2 (N.eqb_neq _ 0)) by (destruct (4 <=? rh_version r); lia).
  cbn [app]. rewrite read_u8_bool. cbn [bind]. rewrite read_i8_enc by exact Hlb. cbn [bind].
  rewrite read_u8_cons by lia. cbn [bind]. rewrite (proj2 (N.eqb_neq _ 0)) by lia.
  rewrite read_u8_cons by lia. cbn [bind]. rewrite (proj2 (N.eqb_neq _ 0)) by lia.
  rewrite <- Hstd. fold (len_n (rh_std_lengths r)). rewrite split_n_app. cbn [bind].
  unfold dirs_of_raw, files_of_raw.
  destruct W as [[V4 _ _ _ _ _ _ Hd Hf _]|[V5 _ _ _ _ _ _ _ (Fd & Ld & Cd) (Ff & Lf & Cf) (Ed & Nd) (Ef & Nf) _]].
  - (* versions 2-4: NUL-terminated lists with the implicit formats *)
    rewrite (proj2 (N.leb_le _ 4)), (proj2 (N.leb_gt 5 _)) by lia. cbn [app].
    pose proof (entries_len _ _ (fun e He => enc_entry_nonempty be (rh_fmt64 r) _ e
                  (dir_ok_entry _ e (proj1 (Forall_forall _ _) Hd e He)) eq_refl)) as Ld.
    pose proof (entries_len _ _ (fun e He => enc_entry_nonempty be (rh_fmt64 r) _ e
                  (file_ok_entry _ e (proj1 (Forall_forall _ _) Hf e He)) eq_refl)) as Lf.
    rewrite (dirs_v4_loop_enc be (rh_fmt64 r) (rh_dirs r)) by (try exact Hd; rewrite !app_length; cbn [length]; lia).
    cbn [bind].
    rewrite (files_v4_loop_enc dbg be (rh_fmt64 r) (rh_files r)) by (try exact Hf; rewrite !app_length; cbn [length]; lia).
    cbn [bind]. f_equal. f_equal. destruct (rh_default_is_stmt r); reflexivity.
  - (* version 5: entry formats, counts, entries *)
    rewrite V5. cbn [N.leb N.compare Pos.compare Pos.compare_cont]. rewrite <- ?app_assoc.
    rewrite (table_v5_enc dbg be (rh_fmt64 r) (rh_dir_fmt r) (parse_directory_v5 dbg be (rh_fmt64 r)) (dir_dec (rh_dir_fmt r)))
      by first [assumption|intros e t He; apply parse_directory_v5_enc; [exact (proj1 (Forall_forall _ _) Ed e He)|lia]].
    cbn [bind].
    rewrite <- (app_nil_r (concat (map (enc_entry be (rh_fmt64 r) (rh_file_fmt r)) (rh_files r)))).
    rewrite (table_v5_enc dbg be (rh_fmt64 r) (rh_file_fmt r) (parse_file_v5 dbg be (rh_fmt64 r)) (file_dec (rh_file_fmt r)))
      by first [assumption|intros e t He; apply parse_file_v5_enc; [exact (proj1 (Forall_forall _ _) Ef e He)|lia]].
    cbn [bind]. f_equal. f_equal.
    + destruct (rh_default_is_stmt r); reflexivity.
    + symmetry. apply dir_table_some. intros e He. rewrite Forall_forall in Ed.
      apply dir_of_entry_some; [exact (entry_ok_len _ _ _ (Ed e He))|right; lia].
    + rewrite map_map. reflexivity.
Qed.

Lemma header_roundtrip_v4_lemma dbg be asz0 r prog tail :
  raw_wf4 be r prog ->
  parse_header dbg be asz0 (enc_unit be r prog ++ tail) = Ok (header_of_raw be asz0 r prog).
Proof. intros H. apply header_roundtrip. left. exact H. Qed.

Lemma header_roundtrip_v5_lemma dbg be asz0 r prog tail :
  raw_wf5 be r prog ->
  parse_header dbg be asz0 (enc_unit be r prog ++ tail) = Ok (header_of_raw be asz0 r prog).
Proof. intros H. apply header_roundtrip. right. exact H. Qed.

(* a non-trivial version 5 instance: big-endian or little-endian, 32-bit format, address size 8;
   directory format (path: line_strp); file format (path: string, directory_index: udata,
   MD5: data16, size: data2, LLVM_source: string, an unknown content type 0x2000: block1) *)
Definition sample_raw5 : raw_header :=
  mk_raw false 5 8 1 4 true (-5)%Z 14 13 [x00; x01; x01; x01; x01; x00; x00; x00; x01; x00; x00; x01]
    [mk_ef LNCT_path FORM_line_strp] [[VLineStrRef 0]; [VLineStrRef 4294967295]]
    [mk_ef LNCT_path FORM_string; mk_ef LNCT_directory_index FORM_udata; mk_ef LNCT_MD5 FORM_data16;
     mk_ef LNCT_size FORM_data2; mk_ef LNCT_LLVM_source FORM_string; mk_ef 8192 FORM_block1]
    [[VString [x61; x2e; x63]; VUdata 1;
      VBlock [x00; x01; x02; x03; x04; x05; x06; x07; x08; x09; x0a; x0b; x0c; x0d; x0e; x0f];
      VData2 65535; VString [x69; x6e; x74]; VBlock [xff]]].
