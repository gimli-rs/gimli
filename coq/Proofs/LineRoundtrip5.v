(* program_roundtrip for the VERSION 5 header: LineProgram::write (entry formats,
   directory/file entries with the three string forms, optional timestamp/size/MD5/LLVM source) is C04's
   enc_unit of a raw_wf5 header; composition with header_roundtrip_v5 and program rows. Property C13. *)
From Coq Require Import List NArith ZArith Bool Lia ZifyBool ZifyN ZifyNat.
From Coq.Strings Require Import Byte.
Require Import GV.Base.Res GV.Base.Byt GV.Base.Ints GV.Model.Leb GV.Model.Prim GV.Spec.LebSpec GV.Proofs.LebProofs.
Require Import GV.Spec.LineSpec GV.Model.LineRd GV.Proofs.LineRdRefine GV.Proofs.LineRdInsn.
Require Import GV.Proofs.LineRdHdr GV.Proofs.LineRdHdrSafe GV.Proofs.LineRdHdr5.
Require GV.Spec.LineAdvSpec GV.Model.LineWr GV.Proofs.LineWrProofs GV.Proofs.LineWrSeqProofs.
Require Import GV.Proofs.LineRtBytes GV.Proofs.LineRtRows GV.Proofs.LineRtScript GV.Proofs.LineRoundtrip.
Import ListNotations.

Local Open Scope N_scope.

Definition toff (t : W.strtab) (id : N) : N :=
  match W.tab_offset t (N.to_nat id) with Ok o => o | _ => 0 end.

(* the value a reader must see for a LineString *)
Definition lstr_val5 (ls ss : W.strtab) (d : W.lstr) : form_val :=
  match d with
  | W.LStr s => VString s
  | W.LStrRef id => VStrRef (toff ss id)
  | W.LLineStrRef id => VLineStrRef (toff ls id)
  end.

Definition lstr_ok5 (fmt64 : bool) (ls ss : W.strtab) (d : W.lstr) : Prop :=
  match d with
  | W.LStr s => no_nul s = true
  | W.LStrRef id => exists o, W.tab_offset ss (N.to_nat id) = Ok o /\ o < word_lim fmt64
  | W.LLineStrRef id => exists o, W.tab_offset ls (N.to_nat id) = Ok o /\ o < word_lim fmt64
  end.

Lemma lstr_write5 dbg be e ls ss d :
  5 <= W.e_version e -> lstr_ok5 (W.e_fmt64 e) ls ss d ->
  W.lstr_write dbg be d (W.lstr_form d) e ls ss =
    Ok (enc_val be (W.e_fmt64 e) (W.lstr_form d) (lstr_val5 ls ss d)) /\
  val_ok (W.e_fmt64 e) (W.lstr_form d) (lstr_val5 ls ss d).
Proof.
  intros Hv Hok. unfold W.lstr_write. rewrite N.eqb_refl. cbn [negb].
  destruct d as [s|id|id]; cbn [W.lstr_form lstr_val5 lstr_ok5 enc_val val_ok] in *.
  - destruct (N.leb_spec (W.e_version e) 4) as [Hc|_]; [lia|]. rewrite andb_false_r. cbn [andb].
    split; [reflexivity|]. split; [reflexivity|exact Hok].
  - destruct (N.ltb_spec (W.e_version e) 5) as [Hc|_]; [lia|].
    destruct Hok as (o & Ho & Hlt). unfold toff. rewrite Ho. cbn [bind].
    change (W.DW_FORM_strp =? FORM_strp) with true. cbv iota.
    split; [apply enc_word_udata; exact Hlt|]. split; [reflexivity|exact Hlt].
  - destruct (N.ltb_spec (W.e_version e) 5) as [Hc|_]; [lia|].
    destruct Hok as (o & Ho & Hlt). unfold toff. rewrite Ho. cbn [bind].
    change (W.DW_FORM_line_strp =? FORM_line_strp) with true. cbv iota.
    split; [apply enc_word_udata; exact Hlt|]. split; [reflexivity|exact Hlt].
Qed.

Definition dir_fmt5 (form : N) : list entry_format := [mk_ef LNCT_path form].
Definition raw_dir5 (ls ss : W.strtab) (d : W.lstr) : list form_val := [lstr_val5 ls ss d].

Definition dir5_ok (fmt64 : bool) (ls ss : W.strtab) (form : N) (d : W.lstr) : Prop :=
  W.lstr_form d = form /\ lstr_ok5 fmt64 ls ss d.

Lemma dirs_write5 dbg be e ls ss form : forall ds,
  5 <= W.e_version e -> Forall (dir5_ok (W.e_fmt64 e) ls ss form) ds ->
  W.dirs_write dbg be form e ls ss ds =
    Ok (concat (map (enc_entry be (W.e_fmt64 e) (dir_fmt5 form)) (map (raw_dir5 ls ss) ds))) /\
  Forall (entry_ok (W.e_fmt64 e) (dir_fmt5 form)) (map (raw_dir5 ls ss) ds).
Proof.
  induction ds as [|d ds IH]; intros Hv F; [split; [reflexivity|constructor]|].
  inversion F as [|x xs [Hf Hok] F']; subst x xs.
  destruct (IH Hv F') as [IH1 IH2].
  destruct (lstr_write5 dbg be e ls ss d Hv Hok) as [Hw Hval]. rewrite Hf in Hw, Hval.
  cbn [W.dirs_write map concat]. rewrite Hw. cbn [bind]. rewrite IH1. cbn [bind].
  split.
  - cbn [raw_dir5 dir_fmt5 enc_entry ef_form]. now rewrite app_nil_r.
  - constructor; [|exact IH2]. constructor; [exact Hval|constructor].
Qed.

Definition file_fmt5 (p : W.prog) (file_form src_form : N) : list entry_format :=
  [mk_ef LNCT_path file_form; mk_ef LNCT_directory_index FORM_udata]
  ++ (if W.p_has_timestamp p then [mk_ef LNCT_timestamp FORM_udata] else [])
  ++ (if W.p_has_size p then [mk_ef LNCT_size FORM_udata] else [])
  ++ (if W.p_has_md5 p then [mk_ef LNCT_MD5 FORM_data16] else [])
  ++ (if W.p_has_source p then [mk_ef LNCT_LLVM_source src_form] else []).

Definition src_val5 (ls ss : W.strtab) (info : W.finfo) : form_val :=
  match W.fi_source info with Some s => lstr_val5 ls ss s | None => VString [] end.

Definition raw_file5 (p : W.prog) (ls ss : W.strtab) (f : (W.lstr * N) * W.finfo) : list form_val :=
  [lstr_val5 ls ss (fst (fst f)); VUdata (snd (fst f))]
  ++ (if W.p_has_timestamp p then [VUdata (W.fi_timestamp (snd f))] else [])
  ++ (if W.p_has_size p then [VUdata (W.fi_size (snd f))] else [])
  ++ (if W.p_has_md5 p then [VBlock (W.fi_md5 (snd f))] else [])
  ++ (if W.p_has_source p then [src_val5 ls ss (snd f)] else []).

Definition file5_ok (p : W.prog) (ls ss : W.strtab) (file_form src_form : N) (f : (W.lstr * N) * W.finfo) : Prop :=
  let fmt64 := W.e_fmt64 (W.p_enc p) in
  W.lstr_form (fst (fst f)) = file_form /\ lstr_ok5 fmt64 ls ss (fst (fst f)) /\
  snd (fst f) < two64 /\ W.fi_timestamp (snd f) < two64 /\ W.fi_size (snd f) < two64 /\
  length (W.fi_md5 (snd f)) = 16%nat /\
  (W.p_has_source p = true ->
   exists s, W.fi_source (snd f) = Some s /\ W.lstr_form s = src_form /\ lstr_ok5 fmt64 ls ss s).

(* one file entry: the pieces LineProgram::write emits are the reference encoding of the entry *)
Lemma file_entry5 be p ls ss file_form src_form fl dir info srcb :
  let fmt64 := W.e_fmt64 (W.p_enc p) in
  val_ok fmt64 file_form (lstr_val5 ls ss fl) ->
  dir < two64 -> W.fi_timestamp info < two64 -> W.fi_size info < two64 -> length (W.fi_md5 info) = 16%nat ->
  (W.p_has_source p = true ->
     srcb = enc_val be fmt64 src_form (src_val5 ls ss info) /\ val_ok fmt64 src_form (src_val5 ls ss info)) ->
  (W.p_has_source p = false -> srcb = []) ->
  enc_val be fmt64 file_form (lstr_val5 ls ss fl) ++ enc_uleb dir
    ++ (if W.p_has_timestamp p then enc_uleb (W.fi_timestamp info) else [])
    ++ (if W.p_has_size p then enc_uleb (W.fi_size info) else [])
    ++ (if W.p_has_md5 p then W.fi_md5 info else []) ++ srcb
  = enc_entry be fmt64 (file_fmt5 p file_form src_form) (raw_file5 p ls ss ((fl, dir), info)) /\
  entry_ok fmt64 (file_fmt5 p file_form src_form) (raw_file5 p ls ss ((fl, dir), info)).
Proof.
  intros fmt64 Hval Hd Ht Hz Hm Hs1 Hs0. unfold file_fmt5, raw_file5. cbn [fst snd].
  assert (Vd : val_ok fmt64 FORM_udata (VUdata dir)) by (split; [reflexivity|exact Hd]).
  assert (Vt : val_ok fmt64 FORM_udata (VUdata (W.fi_timestamp info))) by (split; [reflexivity|exact Ht]).
  assert (Vz : val_ok fmt64 FORM_udata (VUdata (W.fi_size info))) by (split; [reflexivity|exact Hz]).
  assert (Vm : val_ok fmt64 FORM_data16 (VBlock (W.fi_md5 info))).
  { cbn [val_ok]. right; right; right; right. split; [reflexivity|]. unfold len_n. rewrite Hm. reflexivity. }
  destruct (W.p_has_source p); [destruct (Hs1 eq_refl) as [-> Vs] | rewrite (Hs0 eq_refl)];
    destruct (W.p_has_timestamp p), (W.p_has_size p), (W.p_has_md5 p);
    cbn [app enc_entry ef_form enc_val]; change (FORM_udata =? FORM_udata) with true;
    change (FORM_data16 =? FORM_block1) with false; change (FORM_data16 =? FORM_block2) with false;
    change (FORM_data16 =? FORM_block4) with false; change (FORM_data16 =? FORM_block) with false;
    change (FORM_data16 =? FORM_data16) with true; cbv iota;
    (split; [rewrite ?app_nil_r, <- ?app_assoc; reflexivity | repeat (constructor; try assumption)]).
Qed.

Lemma files_write5 dbg be p ls ss file_form src_form : forall fs,
  5 <= W.e_version (W.p_enc p) -> Forall (file5_ok p ls ss file_form src_form) fs ->
  W.files_write_v5 dbg be p file_form src_form ls ss fs =
    Ok (concat (map (enc_entry be (W.e_fmt64 (W.p_enc p)) (file_fmt5 p file_form src_form))
                    (map (raw_file5 p ls ss) fs)), ls, ss) /\
  Forall (entry_ok (W.e_fmt64 (W.p_enc p)) (file_fmt5 p file_form src_form)) (map (raw_file5 p ls ss) fs).
Proof.
  induction fs as [|[[fl dir] info] fs IH]; intros Hv F; [split; [reflexivity|constructor]|].
  inversion F as [|x xs (Hf & Hok & Hd & Ht & Hz & Hm & Hs) F']; subst x xs. cbn [fst snd] in *.
  destruct (IH Hv F') as [IH1 IH2].
  destruct (lstr_write5 dbg be (W.p_enc p) ls ss fl Hv Hok) as [Hw Hval]. rewrite Hf in Hw, Hval.
  cbn [W.files_write_v5 map concat]. rewrite Hw. cbn [bind].
  rewrite (proj1 (write_uleb128_enc dir Hd)). cbn [bind].
  assert (Et : (if W.p_has_timestamp p then write_uleb128 (W.fi_timestamp info) else Ok [])
               = Ok (if W.p_has_timestamp p then enc_uleb (W.fi_timestamp info) else []))
    by (destruct (W.p_has_timestamp p); [apply write_uleb128_enc, Ht|reflexivity]).
  assert (Es : (if W.p_has_size p then write_uleb128 (W.fi_size info) else Ok [])
               = Ok (if W.p_has_size p then enc_uleb (W.fi_size info) else []))
    by (destruct (W.p_has_size p); [apply write_uleb128_enc, Hz|reflexivity]).
  rewrite Et, Es. cbn [bind].
  destruct (W.p_has_source p) eqn:Esrc.
  - destruct (Hs eq_refl) as (s & Hsome & Hsf & Hsok). rewrite Hsome.
    destruct (lstr_write5 dbg be (W.p_enc p) ls ss s Hv Hsok) as [Hws Hvals]. rewrite Hsf in Hws, Hvals.
    rewrite Hws. cbn [bind]. rewrite IH1. cbn [bind].
    destruct (file_entry5 be p ls ss file_form src_form fl dir info
                (enc_val be (W.e_fmt64 (W.p_enc p)) src_form (lstr_val5 ls ss s)) Hval Hd Ht Hz Hm) as [E1 E2].
    + intros _. unfold src_val5. rewrite Hsome. split; [reflexivity|exact Hvals].
    + intros Hc. rewrite Esrc in Hc. discriminate.
    + split; [|constructor; [exact E2|exact IH2]].
      rewrite <- E1. rewrite <- !app_assoc. reflexivity.
  - cbn [bind]. rewrite IH1. cbn [bind].
    destruct (file_entry5 be p ls ss file_form src_form fl dir info [] Hval Hd Ht Hz Hm) as [E1 E2].
    + intros Hc. rewrite Esrc in Hc. discriminate.
    + reflexivity.
    + split; [|constructor; [exact E2|exact IH2]].
      rewrite <- E1. rewrite <- !app_assoc. reflexivity.
Qed.

Definition dform_of (p : W.prog) : N := match W.p_dirs p with d0 :: _ => W.lstr_form d0 | [] => 0 end.
Definition fform_of (p : W.prog) : N := match W.p_files p with f0 :: _ => W.lstr_form (fst (fst f0)) | [] => 0 end.

Definition raw5 (p : W.prog) (ls ss : W.strtab) : raw_header :=
  let e := W.p_enc p in let l := W.p_lenc p in
  mk_raw (W.e_fmt64 e) (W.e_version e) (W.e_addr_size e) (W.le_min_len l) (W.le_max_ops l)
         (W.le_default_is_stmt l) (W.le_line_base l) (W.le_line_range l) 13 W.std_opcode_lengths
         (dir_fmt5 (dform_of p)) (map (raw_dir5 ls ss) (W.p_dirs p))
         (file_fmt5 p (fform_of p) (W.source_form (W.p_files p))) (map (raw_file5 p ls ss) (W.p_files p)).

Lemma lstr_form_small d : W.lstr_form d < 16384.
Proof. destruct d; cbn; unfold W.DW_FORM_string, W.DW_FORM_strp, W.DW_FORM_line_strp; lia. Qed.

Lemma source_form_small : forall fs, W.source_form fs < 16384.
Proof.
  induction fs as [|[k info] fs IH]; cbn [W.source_form]; [unfold W.DW_FORM_string; lia|].
  destruct (W.fi_source info); [apply lstr_form_small|exact IH].
Qed.

Lemma file_fmts_enc5 p fform sform :
  fform < 16384 -> sform < 16384 ->
  [n2b (2 + W.b2N (W.p_has_timestamp p) + W.b2N (W.p_has_size p) + W.b2N (W.p_has_md5 p) + W.b2N (W.p_has_source p))]
  ++ ([x01] ++ enc_uleb fform ++ [x02; n2b W.DW_FORM_udata]
      ++ (if W.p_has_timestamp p then [x03; n2b W.DW_FORM_udata] else [])
      ++ (if W.p_has_size p then [x04; n2b W.DW_FORM_udata] else [])
      ++ (if W.p_has_md5 p then [x05; n2b W.DW_FORM_data16] else [])
      ++ (if W.p_has_source p then enc_uleb 8193 ++ enc_uleb sform else []))
  = enc_fmts (file_fmt5 p fform sform) /\
  Forall fmt_ok (file_fmt5 p fform sform) /\ len_n (file_fmt5 p fform sform) < 256 /\
  count_path (file_fmt5 p fform sform) = 1.
Proof.
  intros Hf Hs. unfold file_fmt5, enc_fmts.
  destruct (W.p_has_timestamp p), (W.p_has_size p), (W.p_has_md5 p), (W.p_has_source p);
    cbn [app map concat ef_ct ef_form W.b2N len_n length];
    (split; [rewrite ?app_nil_r, <- ?app_assoc; reflexivity|]);
    (split; [|split; [vm_compute; reflexivity|reflexivity]]).
  all: repeat constructor; cbn; unfold LNCT_path, LNCT_directory_index, LNCT_timestamp, LNCT_size, LNCT_MD5,
       LNCT_LLVM_source, FORM_udata, FORM_data16; try lia.
Qed.

Lemma dir_fmts_enc5 form : form < 16384 ->
  [x01; x01] ++ enc_uleb form = enc_fmts (dir_fmt5 form) /\
  Forall fmt_ok (dir_fmt5 form) /\ len_n (dir_fmt5 form) < 256 /\ count_path (dir_fmt5 form) = 1.
Proof.
  intros Hf. unfold dir_fmt5, enc_fmts. cbn [map concat ef_ct ef_form len_n length].
  split; [rewrite app_nil_r; reflexivity|]. split; [|split; [vm_compute; reflexivity|reflexivity]].
  repeat constructor; cbn; unfold LNCT_path; lia.
Qed.

(* LineProgram::write for version 5 produces exactly the reference encoding of raw5 *)
Lemma write_v5 dbg be p unit_enc ls ss prog d0 ds f0 fs :
  W.e_version (W.p_enc p) = 5 -> 5 <= W.e_version unit_enc ->
  W.e_addr_size unit_enc = W.e_addr_size (W.p_enc p) ->
  W.p_dirs p = d0 :: ds -> W.p_files p = f0 :: fs ->
  Forall (dir5_ok (W.e_fmt64 (W.p_enc p)) ls ss (dform_of p)) (W.p_dirs p) ->
  Forall (file5_ok p ls ss (fform_of p) (W.source_form (W.p_files p))) (W.p_files p) ->
  len_n (W.p_dirs p) < two64 -> len_n (W.p_files p) < two64 ->
  W.insns_write dbg be (W.p_enc p) (W.p_insns p) = Ok prog ->
  len_n (enc_after_len be (raw5 p ls ss) prog) < (if W.e_fmt64 (W.p_enc p) then two64 else 4294967280) ->
  W.write dbg be p unit_enc ls ss = Ok (enc_unit be (raw5 p ls ss) prog, ls, ss).
Proof.
  intros Hv Huv Hasz Hd Hf Fd Ff Ld Lf Hins Hlen.
  set (e := W.p_enc p) in *. set (l := W.p_lenc p) in *.
  assert (Hv5 : 5 <= W.e_version e) by lia.
  destruct (dirs_write5 dbg be e ls ss (dform_of p) (W.p_dirs p) Hv5 Fd) as [Wd _].
  destruct (files_write5 dbg be p ls ss (fform_of p) (W.source_form (W.p_files p)) (W.p_files p) Hv5 Ff) as [Wf _].
  fold e in Wf.
  pose proof (lstr_form_small d0) as Sd. pose proof (lstr_form_small (fst (fst f0))) as Sf.
  pose proof (source_form_small (W.p_files p)) as Ss.
  assert (Edf : dform_of p = W.lstr_form d0) by (unfold dform_of; rewrite Hd; reflexivity).
  assert (Eff : fform_of p = W.lstr_form (fst (fst f0))) by (unfold fform_of; rewrite Hf; reflexivity).
  destruct (dir_fmts_enc5 (dform_of p) ltac:(rewrite Edf; exact Sd)) as [Ed _].
  destruct (file_fmts_enc5 p (fform_of p) (W.source_form (W.p_files p)) ltac:(rewrite Eff; exact Sf) Ss) as [Ef _].
  unfold W.write. fold e l.
  destruct (N.ltb_spec (W.e_version unit_enc) 5) as [Hc|_]; [lia|]. cbn [andb].
  rewrite Hasz, N.eqb_refl. cbn [negb orb].
  rewrite Hv. change (5 <? 2) with false. change (5 <? 5) with false. change (5 <=? 5) with true.
  change (4 <=? 5) with true. change (5 <=? 4) with false. cbn [orb bind]. cbv iota.
  rewrite Hd at 1. cbn [hd_error unwrap bind].
  rewrite <- Edf. rewrite (proj1 (write_uleb128_enc (dform_of p) ltac:(unfold two64; rewrite Edf; lia))). cbn [bind].
  change (N.of_nat (length (W.p_dirs p))) with (len_n (W.p_dirs p)).
  rewrite (proj1 (write_uleb128_enc _ Ld)). cbn [bind]. rewrite Wd. cbn [bind].
  rewrite Hf at 1. cbn [hd_error unwrap bind].
  rewrite <- Eff. rewrite (proj1 (write_uleb128_enc (fform_of p) ltac:(unfold two64; rewrite Eff; lia))). cbn [bind].
  rewrite (proj1 (write_uleb128_enc (W.source_form (W.p_files p)) ltac:(unfold two64; lia))). cbn [bind].
  rewrite (proj1 (write_uleb128_enc 8193 ltac:(unfold two64; lia))). cbn [bind].
  change (N.of_nat (length (W.p_files p))) with (len_n (W.p_files p)).
  rewrite (proj1 (write_uleb128_enc _ Lf)). cbn [bind]. rewrite Wf. cbn [bind].
  match goal with |- context [write_udata be (N.of_nat (length ?hd)) _] => set (hdr := hd) end.
  assert (Ehdr : hdr = enc_header_body be (raw5 p ls ss)).
  { unfold hdr, enc_header_body, raw5.
    cbn [rh_version rh_min_inst_len rh_max_ops rh_default_is_stmt rh_line_base rh_line_range rh_opcode_base
         rh_std_lengths rh_dirs rh_files rh_fmt64 rh_dir_fmt rh_file_fmt]. fold e l. rewrite Hv.
    change (4 <=? 5) with true. change (5 <=? 4) with false. cbv iota.
    rewrite <- Ed, <- Ef.
    replace (n2b (W.b2N (W.le_default_is_stmt l))) with (if W.le_default_is_stmt l then x01 else x00)
      by (destruct (W.le_default_is_stmt l); reflexivity).
    change (of_signed 8 (W.le_line_base l)) with (Z.to_N (W.le_line_base l mod 256)%Z).
    unfold W.OPCODE_BASE, len_n. rewrite !map_length. rewrite <- !app_assoc. reflexivity. }
  clearbody hdr. subst hdr.
  apply (write_framed dbg be e (raw5 p ls ss)); try assumption; [reflexivity|].
  cbn [raw5 rh_version rh_addr_size]. fold e. rewrite Hv. reflexivity.
Qed.

Definition file5_entry (p : W.prog) (ls ss : W.strtab) (f : (W.lstr * N) * W.finfo) : file_entry :=
  mk_file (lstr_val5 ls ss (fst (fst f))) (snd (fst f))
          (if W.p_has_timestamp p then W.fi_timestamp (snd f) else 0)
          (if W.p_has_size p then W.fi_size (snd f) else 0)
          (if W.p_has_md5 p then W.fi_md5 (snd f) else repeat x00 16)
          (if W.p_has_source p then Some (src_val5 ls ss (snd f)) else None).

Lemma dirs_of_raw5 ls ss form : forall ds,
  flat_map (fun o : option form_val => match o with Some v => [v] | None => [] end)
           (map (fun vals => dir_of_entry (dir_fmt5 form) vals None) (map (raw_dir5 ls ss) ds))
  = map (lstr_val5 ls ss) ds.
Proof. induction ds as [|d ds IH]; [reflexivity|]. cbn [map flat_map]. rewrite IH. reflexivity. Qed.

Lemma file_of_raw5 p ls ss ff sf f : length (W.fi_md5 (snd f)) = 16%nat ->
  (let fp := file_of_entry (file_fmt5 p ff sf) (raw_file5 p ls ss f) file0 None in
   mk_file (match snd fp with Some v => v | None => VString [] end)
           (fe_dir (fst fp)) (fe_time (fst fp)) (fe_size (fst fp)) (fe_md5 (fst fp)) (fe_source (fst fp)))
  = file5_entry p ls ss f.
Proof.
  intros Hm. unfold file_fmt5, raw_file5, file5_entry.
  assert (E16 : len_n (W.fi_md5 (snd f)) =? 16 = true) by (unfold len_n; rewrite Hm; reflexivity).
  (* sixteen selections of optional columns, each a closed computation up to the MD5 length test; the content-type
     comparisons are decided by `change` because a plain cbn over them is several times slower *)
  destruct (W.p_has_timestamp p), (W.p_has_size p), (W.p_has_md5 p), (W.p_has_source p);
    cbn [app file_of_entry upd_file ef_ct udata_of fst snd fe_path fe_dir fe_time fe_size fe_md5 fe_source file0];
    repeat (first [ change (LNCT_path =? LNCT_path) with true | change (LNCT_directory_index =? LNCT_path) with false
                  | change (LNCT_directory_index =? LNCT_directory_index) with true
                  | change (LNCT_timestamp =? LNCT_path) with false | change (LNCT_timestamp =? LNCT_directory_index) with false
                  | change (LNCT_timestamp =? LNCT_timestamp) with true ]; cbv iota);
    cbn; rewrite ?E16; reflexivity.
Qed.

(* program_roundtrip, version 5, both formats, both byte orders, address sizes 1/2/4/8: directory and file
   tables in any of the three string forms (one form per table, offsets into the given string tables),
   optional timestamp / size / MD5 / LLVM source columns; then any admissible script of row calls. *)
Theorem program_roundtrip_v5 dbg be e l p0 ops unit_enc ls ss d0 ds f0 fs :
  W.p_insns p0 = [] -> W.p_prev p0 = W.wrow_initial e l -> W.p_in_seq p0 = false ->
  W.p_enc p0 = e -> W.p_lenc p0 = l ->
  W.e_version e = 5 -> 5 <= W.e_version unit_enc ->
  enc_params_ok e l -> P1.enc_ok l -> W.e_addr_size unit_enc = W.e_addr_size e ->
  W.p_dirs p0 = d0 :: ds -> W.p_files p0 = f0 :: fs ->
  Forall (dir5_ok (W.e_fmt64 e) ls ss (dform_of p0)) (W.p_dirs p0) ->
  Forall (file5_ok p0 ls ss (fform_of p0) (W.source_form (W.p_files p0))) (W.p_files p0) ->
  len_n (W.p_dirs p0) < two64 -> len_n (W.p_files p0) < two64 ->
  P2.script_ok e l (W.wrow_initial e l) false ops ->
  script_enc_ok (hdr_of_asz (W.e_addr_size e)) (W.e_version e) (W.params_of l)
                (A.init_regs (W.params_of l), 0) ops ->
  (forall p' prog, P2.apply_rops dbg p0 ops = Ok p' -> W.insns_write dbg be e (W.p_insns p') = Ok prog ->
     len_n (enc_after_len be (raw5 p' ls ss) prog) < (if W.e_fmt64 e then two64 else 4294967280)) ->
  exists p' bytes h rs,
    P2.apply_rops dbg p0 ops = Ok p' /\
    W.write dbg be p' unit_enc ls ss = Ok (bytes, ls, ss) /\
    parse_header dbg be (W.e_addr_size e) bytes = Ok h /\
    rows_model dbg be h = (rs, SEnd) /\
    map rep rs = map r2s (fst (P2.meaning (W.e_version e) (W.params_of l) (A.init_regs (W.params_of l), 0) ops)) /\
    Forall (fun r => r_tomb r = false) rs /\
    h_dirs h = map (lstr_val5 ls ss) (W.p_dirs p0) /\ h_files h = map (file5_entry p0 ls ss) (W.p_files p0) /\
    hdr_matches e l h.
Proof.
  intros Ins Prev Seq Enc Lenc Hv Huv HP Hok Hasz Hd Hf Fd Ff Ld Lf Hscript Henc Hfits. subst e l.
  set (e := W.p_enc p0) in *. set (l := W.p_lenc p0) in *.
  assert (Hfresh : P2.fresh_prog e l p0) by (repeat split; assumption).
  assert (Hver : W.e_version e <= 5) by lia.
  destruct (script_writes dbg be e l (hdr_of_asz (W.e_addr_size e)) p0 ops HP Hok Hver Hfresh eq_refl Hscript Henc)
    as (p' & prog & Eap & Hprog).
  pose proof (Hfits p' prog Eap Hprog) as Hlen.
  (* raw5, dir5_ok and file5_ok only read the encodings, the tables and the flags *)
  destruct (apply_rops_frame dbg ops p0 p' Eap) as (prev & row & ins & b & Ep').
  assert (Eraw : raw5 p' ls ss = raw5 p0 ls ss) by (subst p'; reflexivity).
  assert (Hw : W.write dbg be p' unit_enc ls ss = Ok (enc_unit be (raw5 p' ls ss) prog, ls, ss))
    by (apply (write_v5 dbg be p' unit_enc ls ss prog d0 ds f0 fs); subst p'; assumption).
  rewrite Eraw in Hw, Hlen.
  pose proof (lstr_form_small d0) as Sd. pose proof (lstr_form_small (fst (fst f0))) as Sf.
  pose proof (source_form_small (W.p_files p0)) as Ss.
  assert (Edf : dform_of p0 = W.lstr_form d0) by (unfold dform_of; rewrite Hd; reflexivity).
  assert (Eff : fform_of p0 = W.lstr_form (fst (fst f0))) by (unfold fform_of; rewrite Hf; reflexivity).
  assert (Hv5 : 5 <= W.e_version e) by lia.
  assert (Hraw : raw_wf5 be (raw5 p0 ls ss) prog).
  { pose proof HP as (Hsz & Hmil & Hmops & Hlr & Hlb).
    destruct (dir_fmts_enc5 (dform_of p0) ltac:(rewrite Edf; exact Sd)) as (_ & D1 & D2 & D3).
    destruct (file_fmts_enc5 p0 (fform_of p0) (W.source_form (W.p_files p0)) ltac:(rewrite Eff; exact Sf) Ss)
      as (_ & F1 & F2 & F3).
    destruct (dirs_write5 dbg be e ls ss (dform_of p0) (W.p_dirs p0) Hv5 Fd) as [_ Ed2].
    destruct (files_write5 dbg be p0 ls ss (fform_of p0) (W.source_form (W.p_files p0)) (W.p_files p0) Hv5 Ff) as [_ Ef2].
    constructor; cbn [raw5 rh_version rh_addr_size rh_min_inst_len rh_max_ops rh_line_range rh_opcode_base rh_line_base
                      rh_std_lengths rh_dirs rh_files rh_fmt64 rh_dir_fmt rh_file_fmt]; fold e l; try lia;
      try reflexivity; try assumption.
    - repeat split; assumption.
    - repeat split; assumption.
    - split; [exact Ed2|]. unfold len_n in *. rewrite map_length. exact Ld.
    - split; [exact Ef2|]. unfold len_n in *. rewrite map_length. exact Lf. }
  pose proof (header_roundtrip_v5_lemma dbg be (W.e_addr_size e) (raw5 p0 ls ss) prog [] Hraw) as Hparse.
  rewrite app_nil_r in Hparse.
  set (h := header_of_raw be (W.e_addr_size e) (raw5 p0 ls ss) prog) in *.
  assert (HM : hdr_matches e l h).
  { unfold hdr_matches, h, header_of_raw. cbn. fold e l. rewrite Hv. repeat split. }
  destruct (rows_readback dbg be e l (hdr_of_asz (W.e_addr_size e)) p0 ops HP Hok Hver Hfresh eq_refl Hscript Henc h p' HM
              Eap Hprog) as (rs & R1 & R2 & R3).
  exists p', (enc_unit be (raw5 p0 ls ss) prog), h, rs.
  split; [exact Eap|]. split; [exact Hw|]. split; [exact Hparse|]. split; [exact R1|].
  split; [exact R2|]. split; [exact R3|]. split; [|split; [|exact HM]].
  - unfold h, header_of_raw. cbn [h_dirs]. unfold dirs_of_raw. cbn [raw5 rh_version rh_dirs rh_dir_fmt].
    fold e. rewrite Hv. change (5 <=? 4) with false. cbv iota. apply dirs_of_raw5.
  - unfold h, header_of_raw. cbn [h_files]. unfold files_of_raw. cbn [raw5 rh_version rh_files rh_file_fmt].
    fold e. rewrite Hv. change (5 <=? 4) with false. cbv iota. rewrite !map_map. apply map_ext_in.
    intros f Hin. apply file_of_raw5. rewrite Forall_forall in Ff. apply (Ff f Hin).
Qed.

Definition ex5_enc : W.enc := W.mkEnc true 5 4.
Definition ex5_ls : W.strtab := [[x64]; [x66; x2e; x63]; [x69; x6e; x63]].   (* .debug_line_str: "d" "f.c" "inc" *)
Definition ex5_md5 : list byte := [x00; x01; x02; x03; x04; x05; x06; x07; x08; x09; x0a; x0b; x0c; x0d; x0e; x0f].
Definition ex5_info (src : list byte) : W.finfo := W.mkFinfo 77 4096 ex5_md5 (Some (W.LStr src)).

(* new(v5, DWARF64, address size 4; names as .debug_line_str references; source_info with MD5 and source);
   file_has_* = true; add_directory("inc"); add_file("inc", dir 1, info) *)
Definition ex5_prog : res W.prog :=
  let* p := W.lp_new false ex5_enc ex_lenc (W.LLineStrRef 0) None (W.LLineStrRef 1)
              (Some (ex5_info [x69; x6e; x74; x0a])) in
  let p := W.set_flags true true true true p in
  let* (p, d) := W.add_directory p (W.LLineStrRef 2) in
  let* (p, _) := W.add_file p (W.LLineStrRef 2) d (Some (ex5_info [x79])) in
  Ok p.

Definition ex5_p0 : W.prog :=
  Eval vm_compute in match ex5_prog with Ok p => p | _ => P2.fresh ex_lenc end.
