(* Proofs/Lib.v — facts about lists, the result monad, checked arithmetic and bit operations
   that do not depend on any model. *)
From Coq Require Import List NArith ZArith Bool Lia ZifyBool.
From Coq.Strings Require Import Byte.
Require Import GV.Base.Res GV.Base.Byt GV.Base.Ints.
Import ListNotations.
Local Open Scope N_scope.

Lemma firstn_app_exact {A} (l r : list A) : firstn (length l) (l ++ r) = l.
Proof. rewrite firstn_app, Nat.sub_diag, firstn_all. cbn [firstn]. apply app_nil_r. Qed.

Lemma skipn_app_exact {A} (l r : list A) : skipn (length l) (l ++ r) = r.
Proof. rewrite skipn_app, Nat.sub_diag, skipn_all. reflexivity. Qed.

Lemma skipn_skipn {A} (x y : nat) (l : list A) : skipn x (skipn y l) = skipn (y + x) l.
Proof. revert l. induction y as [|y IH]; intros [|a l]; cbn [skipn Nat.add]; rewrite ?skipn_nil; auto. Qed.

Lemma Forall2_length {A B} (P : A -> B -> Prop) l l' : Forall2 P l l' -> length l = length l'.
Proof. induction 1; cbn [length]; congruence. Qed.

Lemma NoDup_snoc {A} (l : list A) (x : A) : NoDup l -> ~ In x l -> NoDup (l ++ [x]).
Proof.
  intros Hl Hx. induction l as [|y l IH]; cbn [app]; [constructor; [intros []|constructor]|].
  inversion Hl; subst. constructor.
  - rewrite in_app_iff. intros [H|[H|[]]]; [auto|subst; apply Hx; left; reflexivity].
  - apply IH; [assumption|intros H; apply Hx; right; exact H].
Qed.

Lemma NoDup_app_inv {A} : forall (a b : list A), NoDup (a ++ b) -> NoDup a /\ NoDup b /\ (forall x, In x a -> ~ In x b).
Proof.
  induction a as [|x r IH]; intros b H; cbn [app] in H.
  - split; [constructor|]. split; [exact H|]. intros x [].
  - inversion H as [|? ? Hx Hr]; subst. destruct (IH _ Hr) as [A1 [A2 A3]]. split.
    + constructor; [|exact A1]. intros Hin. apply Hx. apply in_or_app. now left.
    + split; [exact A2|]. intros y [<-|Hy]; [intros Hin; apply Hx; apply in_or_app; now right|now apply A3].
Qed.

Lemma NoDup_map_inj_on {A B} (f : A -> B) (l : list A) :
  (forall x y, In x l -> In y l -> f x = f y -> x = y) -> NoDup l -> NoDup (map f l).
Proof.
  induction l as [|a l IH]; intros Hinj ND; [constructor|].
  inversion ND as [|? ? Hnotin ND']; subst. cbn [map]. constructor.
  - intros Hin. apply in_map_iff in Hin. destruct Hin as (x & Hfx & Hx).
    assert (x = a) by (apply Hinj; [right; exact Hx|left; reflexivity|exact Hfx]). subst. contradiction.
  - apply IH; [|exact ND']. intros x y Hx Hy. apply Hinj; right; assumption.
Qed.

Lemma Forall_nth_error {A} (P : A -> Prop) l i x : Forall P l -> nth_error l i = Some x -> P x.
Proof. intros H Hn. rewrite Forall_forall in H. apply H. eapply nth_error_In. exact Hn. Qed.

Lemma in_firstn {A} (x : A) n l : In x (firstn n l) -> In x l.
Proof. revert l; induction n as [|n IH]; intros [|a l]; cbn; auto; try tauto. intros [H|H]; auto. Qed.
Lemma in_skipn {A} (x : A) n l : In x (skipn n l) -> In x l.
Proof. revert l; induction n as [|n IH]; intros [|a l]; cbn; auto. Qed.

Lemma Forall_firstn {A} (P : A -> Prop) n l : Forall P l -> Forall P (firstn n l).
Proof. intros H. apply Forall_forall. intros x Hx. eapply Forall_forall; [exact H|]. eapply in_firstn; exact Hx. Qed.
Lemma Forall_skipn {A} (P : A -> Prop) n l : Forall P l -> Forall P (skipn n l).
Proof. intros H. apply Forall_forall. intros x Hx. eapply Forall_forall; [exact H|]. eapply in_skipn; exact Hx. Qed.

Lemma Forall2_nth_ex {A B} (P : A -> B -> Prop) : forall la lb i a,
  Forall2 P la lb -> nth_error la i = Some a -> exists b, nth_error lb i = Some b /\ P a b.
Proof.
  intros la lb i a HF. revert i.
  induction HF as [|x y la lb Hxy HF IH]; intros i Hn; destruct i; cbn [nth_error] in *; try discriminate.
  - inversion Hn; subst. eauto.
  - apply IH. exact Hn.
Qed.

Lemma Forall2_nth {A B} (R : A -> B -> Prop) : forall l1 l2 j a b,
  Forall2 R l1 l2 -> nth_error l1 j = Some a -> nth_error l2 j = Some b -> R a b.
Proof.
  intros l1 l2 j a b H Ha Hb. destruct (Forall2_nth_ex R l1 l2 j a H Ha) as [b' [Hb' Hab]]. congruence.
Qed.

Lemma nth_error_skipn {A} (l : list A) n x : nth_error l n = Some x -> exists tl, skipn n l = x :: tl.
Proof.
  revert l. induction n as [|n IH]; intros [|y l]; cbn [nth_error skipn]; try discriminate.
  - intros H; injection H as ->. eexists; reflexivity.
  - apply IH.
Qed.

(* a boolean check evaluated on every number below a bound *)
Lemma forallb_below (P : N -> bool) (n : nat) :
  forallb P (map N.of_nat (seq 0 n)) = true -> forall x, x < N.of_nat n -> P x = true.
Proof.
  intros H x Hx. rewrite forallb_forall in H. apply H.
  apply in_map_iff. exists (N.to_nat x). split; [apply N2Nat.id|]. apply in_seq. lia.
Qed.

(* The result monad; bind_ok and bind_not_panic are in Base/Res.v. *)

Lemma bind_not_fuel {A B} (r : res A) (f : A -> res B) :
  r <> OutOfFuel -> (forall a, r = Ok a -> f a <> OutOfFuel) -> bind r f <> OutOfFuel.
Proof. destruct r; cbn [bind]; intros H1 H2; auto; discriminate. Qed.

(* A result [returns] when it is neither a panic nor the model's fuel artefact; [post P] says in addition
   that an Ok value satisfies P.  Both go through bind. *)
Definition returns {A} (r : res A) : Prop := r <> Panic /\ r <> OutOfFuel.

Definition post {A} (P : A -> Prop) (r : res A) : Prop :=
  match r with Ok a => P a | Err _ => True | Panic => False | OutOfFuel => False end.

Lemma returns_ok {A} (a : A) : returns (Ok a).
Proof. split; discriminate. Qed.
Lemma returns_err {A} e : returns (@Err A e).
Proof. split; discriminate. Qed.
Lemma returns_bind {A B} (r : res A) (f : A -> res B) :
  returns r -> (forall a, r = Ok a -> returns (f a)) -> returns (bind r f).
Proof. intros [H1 H2] Hf. destruct r; cbn [bind]; [apply Hf; reflexivity|apply returns_err|contradiction..]. Qed.

Lemma post_intro {A} (P : A -> Prop) (r : res A) : returns r -> (forall a, r = Ok a -> P a) -> post P r.
Proof. intros [H1 H2] H. destruct r; cbn [post]; auto. Qed.
Lemma post_returns {A} (P : A -> Prop) (r : res A) : post P r -> returns r.
Proof. destruct r; cbn [post]; intros H; try contradiction; split; discriminate. Qed.
Lemma post_ok {A} (P : A -> Prop) (r : res A) a : post P r -> r = Ok a -> P a.
Proof. intros H ->. exact H. Qed.
Lemma post_weaken {A} (P Q : A -> Prop) (r : res A) : post P r -> (forall a, P a -> Q a) -> post Q r.
Proof. destruct r; cbn [post]; auto. Qed.
Lemma post_bind {A B} (P : A -> Prop) (Q : B -> Prop) (r : res A) (f : A -> res B) :
  post P r -> (forall a, r = Ok a -> P a -> post Q (f a)) -> post Q (bind r f).
Proof. destruct r; cbn [post bind]; auto. Qed.

Lemma pow2_pos (s : N) : 0 < 2 ^ s.
Proof. apply N.neq_0_lt_0, N.pow_nonzero. discriminate. Qed.

Lemma wrapN_small bits x : x < 2 ^ bits -> wrapN bits x = x.
Proof. apply N.mod_small. Qed.
Lemma wrap16_small x : x < two16 -> wrap16 x = x.
Proof. apply N.mod_small. Qed.
Lemma wrap8_small x : x < 256 -> wrap8 x = x.
Proof. apply N.mod_small. Qed.

Lemma chk_add_ok bits dbg a b : a + b < 2 ^ bits -> chk_add bits dbg a b = Ok (a + b).
Proof. intros H. unfold chk_add. cbv zeta. destruct (a + b <? 2 ^ bits) eqn:E; [reflexivity|lia]. Qed.

Lemma chk_mul_ok bits dbg a b : a * b < 2 ^ bits -> chk_mul bits dbg a b = Ok (a * b).
Proof. intros H. unfold chk_mul. cbv zeta. destruct (a * b <? 2 ^ bits) eqn:E; [reflexivity|lia]. Qed.

Lemma chk_sub_ok bits dbg a b : b <= a -> chk_sub bits dbg a b = Ok (a - b).
Proof. intros H. unfold chk_sub. destruct (b <=? a) eqn:E; [reflexivity|lia]. Qed.

Lemma chk_s_ok dbg z : (- 9223372036854775808 <= z < 9223372036854775808)%Z -> chk_s 64 dbg z = Ok z.
Proof.
  intros H. unfold chk_s, in_signed.
  match goal with |- (if ?c then _ else _) = _ => destruct c eqn:C end; [reflexivity|].
  exfalso. change (Z.of_N (2 ^ (64 - 1))) with 9223372036854775808%Z in C. lia.
Qed.

Lemma n2b_mod v : n2b (v mod 256) = n2b v.
Proof. apply b2n_inj. rewrite !b2n_n2b. rewrite N.mod_mod by lia. reflexivity. Qed.

Lemma to_signed_range bits x : 1 <= bits ->
  (- Z.of_N (2 ^ (bits - 1)) <= to_signed bits x < Z.of_N (2 ^ (bits - 1)))%Z.
Proof.
  intros Hb. unfold to_signed, wrapN. cbv zeta.
  assert (H2 : 2 ^ bits = 2 * 2 ^ (bits - 1)).
  { rewrite <- N.pow_succ_r'. f_equal. lia. }
  pose proof (N.mod_lt x (2 ^ bits)) as Hm. pose proof (pow2_pos (bits - 1)).
  set (M := 2 ^ bits) in *. set (P := 2 ^ (bits - 1)) in *. set (m := x mod M) in *.
  destruct (m <? P) eqn:E; lia.
Qed.

Lemma to_i64_range x : (-9223372036854775808 <= to_i64 x < 9223372036854775808)%Z.
Proof. exact (to_signed_range 64 x ltac:(lia)). Qed.

(* bit operations as arithmetic *)

Lemma lor_shiftl_add (a x s : N) : a < 2 ^ s -> N.lor a (N.shiftl x s) = a + N.shiftl x s.
Proof.
  intros Ha.
  assert (Hl : N.land a (N.shiftl x s) = 0).
  { apply N.bits_inj_0. intros i. rewrite N.land_spec.
    destruct (N.lt_ge_cases i s) as [Hi|Hi].
    - rewrite (N.shiftl_spec_low x s i Hi). apply andb_false_r.
    - assert (Hb : N.testbit a i = false).
      { destruct (N.eq_dec a 0) as [->|Hz]; [apply N.bits_0|].
        apply N.bits_above_log2. apply N.log2_lt_pow2; [lia|].
        apply N.lt_le_trans with (2 ^ s); [exact Ha|]. apply N.pow_le_mono_r; lia. }
      rewrite Hb. reflexivity. }
  rewrite <- N.lxor_lor by exact Hl. symmetry. apply N.add_nocarry_lxor. exact Hl.
Qed.

Lemma lor_mul_add (a b k : N) : a < 2 ^ k -> N.lor a (b * 2 ^ k) = a + b * 2 ^ k.
Proof. intros H. rewrite <- N.shiftl_mul_pow2. apply lor_shiftl_add, H. Qed.

Lemma lor_lt (a b k : N) : a < 2 ^ k -> b < 2 ^ k -> N.lor a b < 2 ^ k.
Proof.
  intros Ha Hb.
  destruct (N.eq_dec a 0) as [->|Ha0]; [rewrite N.lor_0_l; exact Hb|].
  destruct (N.eq_dec b 0) as [->|Hb0]; [rewrite N.lor_0_r; exact Ha|].
  apply N.log2_lt_pow2; [pose proof (N.lor_eq_0_l a b); lia|].
  rewrite N.log2_lor. apply N.max_lub_lt; apply N.log2_lt_pow2; lia.
Qed.

Lemma land_le_r a b : N.land a b <= b.
Proof.
  assert (H : N.lor (N.ldiff b a) (N.land b a) = b) by apply N.lor_ldiff_and.
  assert (Hd : N.land (N.ldiff b a) (N.land b a) = 0).
  { apply N.bits_inj_0. intros i. rewrite !N.land_spec, N.ldiff_spec.
    destruct (N.testbit b i), (N.testbit a i); reflexivity. }
  rewrite <- N.lxor_lor in H by exact Hd.
  rewrite <- N.add_nocarry_lxor in H by exact Hd.
  rewrite N.land_comm. clear Hd.
  generalize dependent (N.ldiff b a). generalize (N.land b a). intros; lia.
Qed.

Lemma shiftr7 (v : N) : N.shiftr v 7 = v / 128.
Proof. rewrite N.shiftr_div_pow2. reflexivity. Qed.

