(* Proofs/ConvertListsProofs.v — C12, range and location lists: the converted list resolves (meaning of a
   written list, Spec/ListWrSpec.v, C16) to the address ranges the source list resolves to (Spec/ListSpec.v,
   C08), expressions mapped through the expression conversion; empty ranges are dropped on both sides. *)
From Coq Require Import List NArith ZArith Bool Lia ZifyBool ZifyN ZifyNat.
From Coq.Strings Require Import Byte.
Require Import GV.Base.Res GV.Base.Byt GV.Base.Ints GV.Spec.ListSpec GV.Model.ListsRd GV.Model.ConvertLists.
Require GV.Spec.ListWrSpec.
Import ListNotations.
Local Open Scope N_scope.

Ltac lbinds H :=
  repeat match type of H with
         | bind _ _ = Ok _ => let v := fresh "v" in let Hv := fresh "Hv" in
                              apply bind_ok in H; destruct H as [v [Hv H]]
         end.

Lemma keep_live asz r : W.keep asz r = live asz r.
Proof. unfold W.keep, live, W.tombstone, atomb, W.amod, amod. apply andb_comm. Qed.

Lemma tomb_atomb asz : W.tombstone asz = atomb asz.
Proof. reflexivity. Qed.

Lemma amod_ge asz : 1 <= asz -> 256 <= amod asz.
Proof.
  intros H. unfold amod. change 256 with (2 ^ 8). apply N.pow_le_mono_r; lia.
Qed.

(* what one source entry contributes to the resolved list *)
Definition out1 (asz : N) (o : option (N * N)) (d : list byte) : list ((N * N) * list byte) :=
  match o with Some r => if live asz r then [(r, d)] else [] | None => [] end.

Lemma resolve_loc_cons asz tbl base e d xs :
  resolve_loc asz tbl base ((e, d) :: xs) =
  match resolve1 asz tbl base e with
  | None => None
  | Some (base', o) =>
      match resolve_loc asz tbl base' xs with
      | None => None
      | Some rs => Some (out1 asz o d ++ rs)
      end
  end.
Proof.
  cbn [resolve_loc]. destruct (resolve1 asz tbl base e) as [[base' o]|]; [|reflexivity].
  destruct (resolve_loc asz tbl base' xs); [|reflexivity]. unfold out1.
  destruct o as [r|]; [destruct (live asz r)|]; reflexivity.
Qed.

Section Sound.
  Variable cvt : N -> option W.addr.
  Variable uaddr : N -> res N.
  Variable xconv : list byte -> res (list byte).
  Variable asz : N.
  Hypothesis Hasz : 1 <= asz.
  (* non-relocatable addresses: convert_address returns Address::Constant(address), or None *)
  Hypothesis Hcvt : forall a w, cvt a = Some w -> w = W.AConst a.

  Definition drel (x y : (N * N) * list byte) : Prop := fst x = fst y /\ xconv (snd x) = Ok (snd y).

  Lemma cva_const a w : cva cvt a = Ok w -> w = W.AConst a.
  Proof. unfold cva. destruct (cvt a) eqn:E; cbn; intros H; inversion H; subst. apply Hcvt. exact E. Qed.

  Lemma uaddr_tbl i v : uaddr i = Ok v -> tbl_of uaddr i = Some v.
  Proof. unfold tbl_of. intros ->. reflexivity. Qed.

  Lemma out1_rel o d d' : xconv d = Ok d' -> Forall2 drel (out1 asz o d) (out1 asz o d').
  Proof.
    intros H. unfold out1. destruct o as [r|]; [destruct (live asz r)|]; repeat constructor. cbn. exact H.
  Qed.

  Lemma emit_out1 r d rest : W.emit asz r d rest = out1 asz (Some r) d ++ rest.
  Proof. unfold W.emit, out1. rewrite keep_live. destruct (live asz r); reflexivity. Qed.

  Lemma not_live_eq a : live asz (a, a) = false.
  Proof. unfold live. cbn [fst snd]. lia. Qed.

  (* what one converted entry y of a source entry (e, d) has to satisfy: y denotes (C16) the range o the source entry
     resolves to (C08), with the converted expression, and a dropped y denoted nothing *)
  Definition entry_ok (hb' : bool) (base : N) (e : lent) (d : list byte) (y : W.wloc) : Prop :=
    exists base' o d',
      resolve1 asz (tbl_of uaddr) base e = Some (base', o) /\
      (hb' = false -> base' = 0) /\
      Forall2 drel (out1 asz o d) (out1 asz o d') /\
      (exists ey, W.ent_of y = Some ey /\
         forall rest, W.resolve asz base (ey :: rest) = out1 asz o d' ++ W.resolve asz base' rest) /\
      (keep_loc y = false -> base' = base /\ out1 asz o d' = []).

  (* an entry that denotes the range r and leaves the base address alone *)
  Lemma entry_ok_range hb base e d d' y ey r :
    resolve1 asz (tbl_of uaddr) base e = Some (base, Some r) -> (hb = false -> base = 0) -> xconv d = Ok d' ->
    W.ent_of y = Some ey ->
    (forall rest, W.resolve asz base (ey :: rest) = W.emit asz r d' (W.resolve asz base rest)) ->
    (keep_loc y = false -> live asz r = false) ->
    entry_ok hb base e d y.
  Proof.
    intros Hr Hinv Hd Hy Hres Hk. exists base, (Some r), d'. split; [exact Hr|]. split; [exact Hinv|].
    split; [apply out1_rel; exact Hd|]. split.
    - exists ey. split; [exact Hy|]. intros rest. rewrite Hres. apply emit_out1.
    - intros K. split; [reflexivity|]. unfold out1. rewrite (Hk K). reflexivity.
  Qed.

  (* an offset pair under a tombstoned base address denotes nothing *)
  Lemma entry_ok_dead hb base e y ey d :
    resolve1 asz (tbl_of uaddr) base e = Some (base, None) -> (hb = false -> base = 0) ->
    W.ent_of y = Some ey -> (forall rest, W.resolve asz base (ey :: rest) = W.resolve asz base rest) ->
    entry_ok hb base e d y.
  Proof.
    intros Hr Hinv Hy Hres. exists base, None, []. split; [exact Hr|]. split; [exact Hinv|]. split; [constructor|]. split.
    - exists ey. split; [exact Hy|]. exact Hres.
    - intros _. split; reflexivity.
  Qed.

  Lemma not_live_len b : live asz (b, wadd asz b 0) = false.
  Proof.
    unfold live, wadd. cbn [fst snd]. rewrite N.add_0_r.
    destruct ((b <? atomb asz) && (b <? b mod amod asz)) eqn:E; [|reflexivity].
    pose proof (N.mod_le b (amod asz)). lia.
  Qed.

  Lemma conv_loc1_sound hb base e d hb' y :
    (hb = false -> base = 0) -> lent_fits asz e ->
    conv_loc1 cvt uaddr xconv hb (e, d) = Ok (hb', y) -> entry_ok hb' base e d y.
  Proof.
    intros Hinv Hfit H. pose proof (amod_ge asz Hasz) as Ham.
    destruct e as [b e|a|i|i j|i len|b e| |b e|b len]; cbn [conv_loc1] in H; lbinds H;
      repeat match goal with Hc : cva cvt _ = Ok _ |- _ => apply cva_const in Hc; subst end.
    - (* address or offset pair *)
      destruct hb.
      + cbn [both_const bind] in H. inversion H; subst hb' y; clear H.
        destruct (W.tombstone asz <=? base) eqn:Et.
        * eapply entry_ok_dead; [cbn [resolve1]; rewrite <- tomb_atomb, Et; reflexivity|discriminate|reflexivity|].
          intros rest. cbn [W.resolve]. rewrite Et. reflexivity.
        * eapply entry_ok_range with (r := (wadd asz base b, wadd asz base e));
            [cbn [resolve1]; rewrite <- tomb_atomb, Et; reflexivity|discriminate|exact Hv1|reflexivity| |].
          -- intros rest. cbn [W.resolve]. rewrite Et. reflexivity.
          -- cbn [keep_loc]. intros Hk. assert (b = e) by lia. subst e. apply not_live_eq.
      + inversion H; subst hb' y; clear H. specialize (Hinv eq_refl). subst base.
        cbn [lent_fits] in Hfit. destruct Hfit as [Hb He].
        assert (Et : (atomb asz <=? 0) = false) by (unfold atomb; lia).
        assert (Hw : wadd asz 0 b = b /\ wadd asz 0 e = e).
        { unfold wadd. rewrite !N.add_0_l. split; apply N.mod_small; assumption. }
        eapply entry_ok_range with (r := (b, e));
          [cbn [resolve1]; rewrite Et; destruct Hw as [-> ->]; reflexivity|reflexivity|exact Hv1|reflexivity|reflexivity|].
        cbn [keep_loc W.addr_eqb]. intros Hk. assert (b = e) by lia. subst e. apply not_live_eq.
    - (* base address *)
      inversion H; subst hb' y; clear H.
      exists a, None, []. split; [reflexivity|]. split; [discriminate|]. split; [constructor|]. split.
      + eexists; split; [reflexivity|]. intros rest. reflexivity.
      + cbn [keep_loc]. discriminate.
    - (* base addressx *)
      inversion H; subst hb' y; clear H.
      exists v, None, []. split; [cbn [resolve1]; rewrite (uaddr_tbl _ _ Hv); reflexivity|]. split; [discriminate|].
      split; [constructor|]. split.
      + eexists; split; [reflexivity|]. intros rest. reflexivity.
      + cbn [keep_loc]. discriminate.
    - (* startx endx *)
      inversion H; subst hb' y; clear H.
      eapply entry_ok_range with (r := (v, v1));
        [cbn [resolve1]; rewrite (uaddr_tbl _ _ Hv), (uaddr_tbl _ _ Hv1); reflexivity|exact Hinv|exact Hv3|reflexivity|reflexivity|].
      cbn [keep_loc W.addr_eqb]. intros Hk. assert (v = v1) by lia. subst v1. apply not_live_eq.
    - (* startx length *)
      inversion H; subst hb' y; clear H.
      eapply entry_ok_range with (r := (v, wadd asz v len));
        [cbn [resolve1]; rewrite (uaddr_tbl _ _ Hv); reflexivity|exact Hinv|exact Hv1|reflexivity|reflexivity|].
      cbn [keep_loc]. intros Hk. assert (len = 0) by lia. subst len. apply not_live_len.
    - (* offset pair *)
      inversion H; subst hb' y; clear H.
      destruct (W.tombstone asz <=? base) eqn:Et.
      + eapply entry_ok_dead; [cbn [resolve1]; rewrite <- tomb_atomb, Et; reflexivity|exact Hinv|reflexivity|].
        intros rest. cbn [W.resolve]. rewrite Et. reflexivity.
      + eapply entry_ok_range with (r := (wadd asz base b, wadd asz base e));
          [cbn [resolve1]; rewrite <- tomb_atomb, Et; reflexivity|exact Hinv|exact Hv|reflexivity| |].
        * intros rest. cbn [W.resolve]. rewrite Et. reflexivity.
        * cbn [keep_loc]. intros Hk. assert (b = e) by lia. subst e. apply not_live_eq.
    - (* default location *)
      inversion H; subst hb' y; clear H.
      eapply entry_ok_range with (r := (0, u64_max)); [reflexivity|exact Hinv|exact Hv|reflexivity| |discriminate].
      intros rest. cbn [W.resolve]. unfold W.emit. rewrite keep_live.
      assert (L : live asz (0, u64_max) = true) by (unfold live, atomb, u64_max; cbn [fst snd]; lia).
      rewrite L. reflexivity.
    - (* start end *)
      inversion H; subst hb' y; clear H.
      eapply entry_ok_range with (r := (b, e)); [reflexivity|exact Hinv|exact Hv1|reflexivity|reflexivity|].
      cbn [keep_loc W.addr_eqb]. intros Hk. assert (b = e) by lia. subst e. apply not_live_eq.
    - (* start length *)
      inversion H; subst hb' y; clear H.
      eapply entry_ok_range with (r := (b, wadd asz b len)); [reflexivity|exact Hinv|exact Hv0|reflexivity|reflexivity|].
      cbn [keep_loc]. intros Hk. assert (len = 0) by lia. subst len. apply not_live_len.
  Qed.
End Sound.

(* ------------------------------------------------------------------ whole lists *)

Section SoundList.
  Variable cvt : N -> option W.addr.
  Variable uaddr : N -> res N.
  Variable xconv : list byte -> res (list byte).
  Variable asz : N.
  Hypothesis Hasz : 1 <= asz.
  Hypothesis Hcvt : forall a w, cvt a = Some w -> w = W.AConst a.

  Lemma conv_locs_sound : forall xs hb base l,
    (hb = false -> base = 0) ->
    Forall (fun x => lent_fits asz (fst x)) (items xs) ->
    conv_locs cvt uaddr xconv hb xs = Ok l ->
    exists ents rs0,
      W.ents_of l = Some ents /\
      resolve_loc asz (tbl_of uaddr) base (items xs) = Some rs0 /\
      Forall2 (drel xconv) rs0 (W.resolve asz base ents).
  Proof.
    induction xs as [|x xs IH]; intros hb base l Hinv Hfit H.
    - cbn in H. inversion H; subst. exists [], []. repeat split; constructor.
    - destruct x as [[e d]|er]; cbn [conv_locs] in H; [|discriminate].
      apply bind_ok in H. destruct H as [[hb' y] [Hv H]]. apply bind_ok in H. destruct H as [v0 [Hv0 H]].
      assert (Hl : l = if keep_loc y then y :: v0 else v0) by (inversion H; reflexivity). clear H. subst l.
      cbn [items] in Hfit. inversion Hfit as [|? ? Hf1 Hf2]; subst. cbn [fst] in Hf1.
      destruct (conv_loc1_sound cvt uaddr xconv asz Hasz Hcvt hb base e d hb' y Hinv Hf1 Hv)
        as [base' [o [d' [Hr1 [Hinv' [Hrel [[ey [Hey Hres]] Hdrop]]]]]]].
      destruct (IH hb' base' v0 Hinv' Hf2 Hv0) as [ents [rs0 [He [Hr Hall]]]].
      cbn [items]. rewrite resolve_loc_cons, Hr1, Hr.
      destruct (keep_loc y) eqn:Ek.
      + exists (ey :: ents), (out1 asz o d ++ rs0). split; [cbn [W.ents_of]; rewrite Hey, He; reflexivity|].
        split; [reflexivity|]. rewrite Hres. apply Forall2_app; assumption.
      + destruct (Hdrop eq_refl) as [-> Hnil]. exists ents, (out1 asz o d ++ rs0). split; [exact He|].
        split; [reflexivity|]. rewrite Hnil in Hrel. inversion Hrel. cbn [app]. exact Hall.
  Qed.

  Lemma loc_convert_sound_lemma low_pc xs l :
    Forall (fun x => lent_fits asz (fst x)) (items xs) ->
    conv_loc_list cvt uaddr xconv low_pc xs = Ok l ->
    exists rs rs0,
      W.meaning_loc asz low_pc l = Some rs /\
      resolve_loc asz (tbl_of uaddr) low_pc (items xs) = Some rs0 /\
      Forall2 (drel xconv) rs0 rs.
  Proof.
    intros Hfit H. unfold conv_loc_list in H.
    destruct (conv_locs_sound xs (negb (low_pc =? 0)) low_pc l) as [ents [rs0 [He [Hr Hall]]]]; auto.
    - intros Hz. destruct (low_pc =? 0) eqn:E; [lia|discriminate].
    - exists (W.resolve asz low_pc ents), rs0. unfold W.meaning_loc. rewrite He. auto.
  Qed.
End SoundList.

(* ------------------------------------------------------------------ ranges are locations without data *)

Section Ranges.
  Variable cvt : N -> option W.addr.
  Variable uaddr : N -> res N.
  Variable asz : N.

  Definition noexpr (d : list byte) : res (list byte) := Ok d.
  Definition as_loc (x : ev lent) : ev lloc :=
    match x with EvItem e => EvItem (e, []) | EvErr er => EvErr er end.

  Lemma conv_range1_loc hb e hb' r :
    conv_range1 cvt uaddr hb e = Ok (hb', r) ->
    conv_loc1 cvt uaddr noexpr hb (e, []) = Ok (hb', W.loc_of_range r) /\ keep_loc (W.loc_of_range r) = keep_range r.
  Proof.
    intros H. destruct e; cbn [conv_range1] in H; try discriminate; cbn [conv_loc1 noexpr];
      lbinds H;
      repeat match goal with Hx : ?t = Ok _ |- context [bind ?t _] => rewrite Hx; cbn [bind] end.
    - destruct hb.
      + lbinds H. destruct v1 as [bo eo]. inversion H; subst. rewrite Hv1. cbn [bind]. split; reflexivity.
      + inversion H; subst. split; reflexivity.
    - inversion H; subst. split; reflexivity.
    - inversion H; subst. split; reflexivity.
    - inversion H; subst. split; reflexivity.
    - inversion H; subst. split; reflexivity.
    - inversion H; subst. split; reflexivity.
    - inversion H; subst. split; reflexivity.
    - inversion H; subst. split; reflexivity.
  Qed.

  Lemma conv_ranges_locs : forall es hb l,
    conv_ranges cvt uaddr hb es = Ok l ->
    conv_locs cvt uaddr noexpr hb (map as_loc es) = Ok (map W.loc_of_range l).
  Proof.
    induction es as [|x es IH]; intros hb l H.
    - cbn in H. inversion H. reflexivity.
    - destruct x as [e|er]; cbn [conv_ranges] in H; [|discriminate].
      apply bind_ok in H. destruct H as [[hb' r] [Hv H]]. apply bind_ok in H. destruct H as [v0 [Hv0 H]].
      assert (Hl : l = if keep_range r then r :: v0 else v0) by (inversion H; reflexivity). clear H. subst l.
      destruct (conv_range1_loc _ _ _ _ Hv) as [H1 H2].
      cbn [map as_loc conv_locs]. rewrite H1. cbn [bind]. rewrite (IH _ _ Hv0). cbn [bind]. rewrite H2.
      destruct (keep_range r); reflexivity.
  Qed.

  Lemma items_as_loc : forall es, items (map as_loc es) = map (fun e => (e, [])) (items es).
  Proof. induction es as [|[e|er] es IH]; cbn [map as_loc items]; [reflexivity|rewrite IH; reflexivity|exact IH]. Qed.

  Lemma resolve_rng_loc tbl : forall es base,
    resolve_rng asz tbl base es = option_map (map fst) (resolve_loc asz tbl base (map (fun e => (e, [])) es)).
  Proof.
    induction es as [|e es IH]; intros base; [reflexivity|].
    cbn [map resolve_rng resolve_loc]. destruct (resolve1 asz tbl base e) as [[base' o]|]; [|reflexivity].
    rewrite IH. destruct (resolve_loc asz tbl base' (map (fun e0 => (e0, [])) es)); [|reflexivity].
    cbn [option_map]. destruct o as [r|]; [destruct (live asz r)|]; reflexivity.
  Qed.

  Lemma drel_noexpr_eq : forall a b, Forall2 (drel noexpr) a b -> a = b.
  Proof.
    induction 1 as [|[r1 d1] [r2 d2] a b [H1 H2] _ IH]; [reflexivity|].
    cbn [fst snd] in H1, H2. unfold noexpr in H2. inversion H2. subst. reflexivity.
  Qed.
End Ranges.

(* ------------------------------------------------------------------ normal form: a second conversion *)

(* the raw entry a reader yields for a decoded written entry (C16 decoders dec5 / dec4) *)
Definition raw_of_ent (x : W.ent) : lloc :=
  match x with
  | W.EBase a => (LBase a, [])
  | W.EOffsetPair b e d => (LOffsetPair b e, d)
  | W.EStartEnd b e d => (LStartEnd b e, d)
  | W.EStartLength b len d => (LStartLength b len, d)
  | W.EDefault d => (LDefault, d)
  | W.EPair b e d => (LPair b e, d)
  end.

Definition loc_data (y : W.wloc) : list byte :=
  match y with
  | W.LBase _ => []
  | W.LOffsetPair _ _ d | W.LStartEnd _ _ d | W.LStartLength _ _ d | W.LDefault d => d
  end.

Section NormalForm.
  Variable cvt : N -> option W.addr.
  Variable uaddr : N -> res N.
  Variable xconv2 : list byte -> res (list byte).
  Hypothesis Hcvt : forall a, cvt a = Some (W.AConst a).

  Lemma cva_id a : cva cvt a = Ok (W.AConst a).
  Proof. unfold cva. rewrite Hcvt. reflexivity. Qed.

  (* DWARF 5 entries: the image of the conversion (constant addresses, no empty range) is reproduced *)
  Lemma locs_normal_form_v5 : forall l ents hb,
    W.ents_of l = Some ents -> forallb (keep_loc) l = true ->
    Forall (fun y => xconv2 (loc_data y) = Ok (loc_data y)) l ->
    conv_locs cvt uaddr xconv2 hb (map (fun x => EvItem (raw_of_ent x)) ents) = Ok l.
  Proof.
    induction l as [|y l IH]; intros ents hb He Hk Hx.
    - cbn in He. inversion He. reflexivity.
    - cbn [W.ents_of] in He. destruct (W.ent_of y) as [ey|] eqn:Ey; [|discriminate].
      destruct (W.ents_of l) as [es|] eqn:Es; [|discriminate]. inversion He; subst ents; clear He.
      cbn [forallb] in Hk. apply andb_true_iff in Hk. destruct Hk as [Hk1 Hk2].
      inversion Hx as [|? ? Hx1 Hx2]; subst.
      cbn [map conv_locs].
      destruct y as [a|b e d|b e d|b len d|d]; cbn [W.ent_of] in Ey.
      + destruct a as [a|]; [|discriminate]. inversion Ey; subst ey. cbn [raw_of_ent conv_loc1].
        rewrite cva_id. cbn [bind]. rewrite (IH es true eq_refl Hk2 Hx2). reflexivity.
      + inversion Ey; subst ey. cbn [raw_of_ent conv_loc1 loc_data] in *. rewrite Hx1. cbn [bind].
        rewrite (IH es hb eq_refl Hk2 Hx2). cbn [bind]. rewrite Hk1. reflexivity.
      + destruct b as [b|]; [|discriminate]. destruct e as [e|]; [|discriminate]. inversion Ey; subst ey.
        cbn [raw_of_ent conv_loc1 loc_data] in *. rewrite !cva_id, Hx1. cbn [bind].
        rewrite (IH es hb eq_refl Hk2 Hx2). cbn [bind]. rewrite Hk1. reflexivity.
      + destruct b as [b|]; [|discriminate]. inversion Ey; subst ey.
        cbn [raw_of_ent conv_loc1 loc_data] in *. rewrite !cva_id, Hx1. cbn [bind].
        rewrite (IH es hb eq_refl Hk2 Hx2). cbn [bind]. rewrite Hk1. reflexivity.
      + inversion Ey; subst ey. cbn [raw_of_ent conv_loc1 loc_data] in *. rewrite Hx1. cbn [bind].
        rewrite (IH es hb eq_refl Hk2 Hx2). reflexivity.
  Qed.

  (* DWARF <= 4 pairs: a list that uses offset pairs exactly while a base address is in force and start/end
     pairs otherwise (what the conversion of a pair-format list produces, and what the pair writer accepts: C16
     `rejected`) is reproduced from the pairs it is written as *)
  Fixpoint pair_form (hb : bool) (l : list W.wloc) : bool :=
    match l with
    | [] => true
    | W.LBase _ :: r => pair_form true r
    | W.LOffsetPair _ _ _ :: r => hb && pair_form hb r
    | W.LStartEnd _ _ _ :: r => negb hb && pair_form hb r
    | _ => false
    end.

  Lemma locs_normal_form_v4 : forall l ps hb,
    W.pairs_of l = Some ps -> pair_form hb l = true -> forallb (keep_loc) l = true ->
    Forall (fun y => xconv2 (loc_data y) = Ok (loc_data y)) l ->
    conv_locs cvt uaddr xconv2 hb (map (fun x => EvItem (raw_of_ent x)) ps) = Ok l.
  Proof.
    induction l as [|y l IH]; intros ps hb He Hp Hk Hx.
    - cbn in He. inversion He. reflexivity.
    - cbn [W.pairs_of] in He. destruct (W.pair_of y) as [ey|] eqn:Ey; [|discriminate].
      destruct (W.pairs_of l) as [es|] eqn:Es; [|discriminate]. inversion He; subst ps; clear He.
      cbn [forallb] in Hk. apply andb_true_iff in Hk. destruct Hk as [Hk1 Hk2].
      inversion Hx as [|? ? Hx1 Hx2]; subst.
      cbn [map conv_locs].
      destruct y as [a|b e d|b e d|b len d|d]; cbn [W.pair_of pair_form] in Ey, Hp; try discriminate.
      + destruct a as [a|]; [|discriminate]. inversion Ey; subst ey. cbn [raw_of_ent conv_loc1].
        rewrite cva_id. cbn [bind]. rewrite (IH es true eq_refl Hp Hk2 Hx2). reflexivity.
      + apply andb_true_iff in Hp. destruct Hp as [-> Hp]. inversion Ey; subst ey.
        cbn [raw_of_ent conv_loc1 loc_data both_const] in *. rewrite !cva_id, Hx1. cbn [bind both_const].
        rewrite (IH es true eq_refl Hp Hk2 Hx2). cbn [bind]. rewrite Hk1. reflexivity.
      + apply andb_true_iff in Hp. destruct Hp as [Hb Hp]. destruct hb; [discriminate|].
        destruct b as [b|]; [|discriminate]. destruct e as [e|]; [|discriminate]. inversion Ey; subst ey.
        cbn [raw_of_ent conv_loc1 loc_data] in *. rewrite !cva_id, Hx1. cbn [bind].
        rewrite (IH es false eq_refl Hp Hk2 Hx2). cbn [bind]. rewrite Hk1. reflexivity.
  Qed.
End NormalForm.
