(* Proofs/CfiRdHdr.v — the .eh_frame_hdr path agrees with the linear search: an FDE the traversal
   reports is re-read identically at its offset, and a well-formed table designates, by binary search,
   the first FDE that covers the address. *)
From Coq Require Import List NArith ZArith Bool Lia ZifyBool ZifyN ZifyNat.
From Coq.Strings Require Import Byte.
Require Import GV.Base.Res GV.Base.Byt GV.Base.Ints GV.Model.Leb GV.Model.Prim GV.Spec.LebSpec.
Require Import GV.Spec.CfiSpec GV.Model.CfiRd GV.Proofs.Lib GV.Proofs.CfiRdBase GV.Proofs.CfiRdBs GV.Proofs.CfiRdIter
               GV.Proofs.CfiRdSafe.
Import ListNotations.
Local Open Scope N_scope.

Definition suffix_rd (sec : list byte) (r : rd) : Prop :=
  off r <= nlen sec /\ win r = skipn (N.to_nat (off r)) sec.

Lemma advanced_suffix : forall sec k r r', suffix_rd sec r -> advanced k r r' -> suffix_rd sec r'.
Proof.
  intros sec k r r' [H1 H2] (e & Hw & Ho & _). unfold suffix_rd. rewrite Ho.
  assert (Hl : nlen (win r) = nlen sec - off r).
  { rewrite H2. unfold nlen. rewrite skipn_length. lia. }
  rewrite Hw, nlen_app in Hl. split; [lia|].
  rewrite N2Nat.inj_add. rewrite <- skipn_skipn, <- H2, Hw.
  symmetry. apply skipn_nlen_app.
Qed.

(* an FDE item reported while standing on a suffix of the section is what
   partial_fde_from_offset reads at that offset *)
Lemma parse_cfi_entry_fde_offset : forall sec dbg c input p in',
  parse_cfi_entry dbg c input = Ok (Some (IFde p), in') -> suffix_rd sec input ->
  pfde_from_offset c sec (pf_off p) = Ok p.
Proof.
  intros sec dbg c input p in' H [Hs1 Hs2]. unfold parse_cfi_entry in H.
  apply bind_ok in H as ([opx in1] & Hp & H).
  destruct opx as [px|]; [|discriminate].
  destruct (is_cie (sc_eh c) (px_fmt64 px) (px_id px)) eqn:Ecie.
  { apply bind_ok in H as (ci & _ & H). discriminate. }
  apply bind_ok in H as (p0 & Hp0 & H). injection H as -> _.
  assert (Hoff : pf_off p = off input).
  { unfold pfde_from_prefix in Hp0. destruct (resolve_cie_offset _ _ _); [|discriminate]. injection Hp0 as <-.
    cbn [pf_off]. unfold parse_prefix in Hp.
    apply bind_ok in Hp as ([[len fmt64] in2] & _ & Hp). destruct (len =? 0); [discriminate|].
    apply bind_ok in Hp as ([rest in3] & _ & Hp). apply bind_ok in Hp as ([id rest1] & _ & Hp).
    injection Hp as <- _. reflexivity. }
  unfold pfde_from_offset. rewrite Hoff. unfold rd_skip. cbn [win off].
  destruct (nlen sec <? off input) eqn:E; [lia|]. cbn [bind]. rewrite N.add_0_l, <- Hs2.
  destruct input as [o w]. cbn [off win] in *. rewrite Hp. cbn [bind]. rewrite Ecie. exact Hp0.
Qed.

Lemma entries_loop_fde_offset : forall sec fuel dbg c input items e p,
  entries_loop fuel dbg c input = Ok (items, e) -> suffix_rd sec input ->
  In (IFde p) items -> pfde_from_offset c sec (pf_off p) = Ok p.
Proof.
  induction fuel as [|f IH]; intros dbg c input items e p H Hs Hin; [discriminate|].
  rewrite entries_loop_S in H.
  destruct (iter_next (iter_fuel input) dbg c input) as [[st in1]| | |] eqn:En; cbn [bind] in H; try discriminate.
  destruct st as [|it|e1].
  - injection H as <- _. destruct Hin.
  - destruct (entries_loop f dbg c in1) as [[l e2]| | |] eqn:El; cbn [bind] in H; try discriminate.
    injection H as <- _. destruct Hin as [Hit|Hin].
    + subst it. apply iter_next_some in En as (input' & Ha & Hp).
      eapply parse_cfi_entry_fde_offset; [exact Hp|]. eapply advanced_suffix; eassumption.
    + eapply IH; [exact El| |exact Hin]. eapply advanced_suffix; [exact Hs|]. eapply iter_next_advanced. exact En.
  - injection H as <- _. destruct Hin.
Qed.

Lemma suffix_start : forall sec, suffix_rd sec (mkrd 0 sec).
Proof. intros. split; cbn [off win]; [lia|reflexivity]. Qed.

(* every FDE the traversal reports is re-read identically by fde_from_offset at its offset *)
Lemma parsed_fdes_from_offset : forall dbg c sec items0 e items fds f,
  entries_all dbg c sec = Ok (items0, e) -> (forall it, In it items -> In it items0) ->
  parsed_fdes dbg c sec items = Some fds -> In f fds ->
  fde_from_offset dbg c sec (fd_off f) = Ok f.
Proof.
  intros dbg c sec items0 e items. induction items as [|it r IH]; intros fds f Hall Hsub Hp Hin.
  - injection Hp as <-. destruct Hin.
  - destruct it as [ci|p]; cbn [parsed_fdes] in Hp.
    + eapply IH; eauto. intros it Hit. apply Hsub. right. exact Hit.
    + destruct (fde_parse dbg c sec p) as [fd| | |] eqn:Efd; try discriminate.
      destruct (parsed_fdes dbg c sec r) as [l|] eqn:El; [|discriminate]. injection Hp as <-.
      destruct Hin as [Hf|Hin].
      * subst fd. unfold fde_from_offset.
        assert (Hoff : fd_off f = pf_off p).
        { unfold fde_parse in Efd. apply bind_ok in Efd as (ci & _ & Efd).
          apply bind_ok in Efd as ([[ia range] r1] & _ & Efd). apply bind_ok in Efd as ([ad r2] & _ & Efd).
          injection Efd as <-. reflexivity. }
        rewrite Hoff.
        rewrite (entries_loop_fde_offset sec _ dbg c _ items0 e p Hall (suffix_start sec)).
        -- cbn [bind]. exact Efd.
        -- apply Hsub. left. reflexivity.
      * eapply IH; eauto. intros it Hit. apply Hsub. right. exact Hit.
Qed.

Definition nowrap (f : fde) : Prop := fd_init f + fd_range f < 2 ^ (8 * ci_asz (fd_cie f)).

(* a well-formed header for the section: a table strictly sorted by location with one row per FDE
   (tfds = the FDEs in table order), each row holding the FDE's initial address and the address
   eh_frame_ptr + offset of that FDE; FDE ranges do not wrap and do not overlap *)
Record wf_hdr (dbg : bool) (hb : sbases) (h : hdr) (fds : list fde) (size o0 : N)
       (rows : list (list byte * list byte)) (locs : list N) (extra : list byte)
       (tfds : list fde) (e : N) : Prop := {
  wh_size : tbl_field_size (h_enc h) = Some size;
  wh_rows : wf_rows size rows;
  wh_ne : rows <> [];
  wh_count : h_count h = N.of_nat (length rows);
  wh_table : h_table h = mkrd o0 (flat rows ++ extra);
  wh_dec : rows_decode dbg hb h size o0 rows locs;
  wh_mul : N.of_nat (length rows) * (size * 2) < 2 ^ 64;
  wh_sorted : strictly_sorted locs;
  wh_ptr : h_ptr h = Direct e;
  wh_len : length tfds = length rows;
  wh_row : forall i r f, nth_error rows i = Some r -> nth_error tfds i = Some f ->
             nth i locs 0 = fd_init f /\
             decode_at dbg (h_be h) (h_enc h) (hdr_pp hb h) (o0 + N.of_nat i * (size * 2) + size) (snd r)
             = Ok (Direct (e + fd_off f));
  wh_in : forall f, In f tfds -> In f fds;
  wh_all : forall f, In f fds -> In f tfds;
  wh_nowrap : forall f, In f fds -> nowrap f;
  wh_disj : forall i j fi fj, (i < j)%nat -> nth_error tfds i = Some fi -> nth_error tfds j = Some fj ->
              fd_init fi + fd_range fi <= fd_init fj }.

Lemma covers_nowrap : forall f a, nowrap f -> covers f a = (fd_init f <=? a) && (a <? fd_init f + fd_range f).
Proof. intros f a H. unfold covers, nowrap in *. rewrite N.mod_small by exact H. reflexivity. Qed.

Lemma bs_index_last : forall locs a j, (j < length locs)%nat -> nth j locs 0 <= a ->
  (j <= bs_index locs a)%nat /\ (bs_index locs a < length locs)%nat /\ nth (bs_index locs a) locs 0 <= a.
Proof.
  intros locs a j Hj Hle. unfold bs_index.
  destruct (last_le_from_spec locs a 0 0) as [[Hk Hall]|(k & Hk1 & Hk2 & Hk3 & Hall)].
  - specialize (Hall j Hj). lia.
  - rewrite Hk2. cbn [Nat.add]. split; [|split; assumption].
    destruct (Nat.le_gt_cases j k) as [H|H]; [exact H|]. specialize (Hall j H Hj). lia.
Qed.

Lemma hdr_lookup_agrees_lem : forall dbg hb h c sec a items fds size o0 rows locs extra tfds e,
  asz_ok (sc_asz c) ->
  entries_all dbg c sec = Ok (items, None) ->
  parsed_fdes dbg c sec items = Some fds ->
  wf_hdr dbg hb h fds size o0 rows locs extra tfds e ->
  hdr_fde_for_address dbg hb h c sec a = fde_for_address dbg c sec a.
Proof.
  intros dbg hb h c sec a items fds size o0 rows locs extra tfds e Hc Hall Hp W.
  destruct W as [Hsize Hwf Hne Hcount Htable Hdec Hmul Hsorted Hptr Hlen Hrow Hin Hall' Hnw Hdisj].
  rewrite (linear_lookup_lem dbg c sec a items fds Hc Hall Hp).
  destruct (bsearch_spec_lem dbg hb h size a o0 rows locs extra Hsize Hwf Hne Hcount Htable Hdec Hmul Hsorted)
    as (r & Hr & Hlk).
  set (k := bs_index locs a) in *.
  assert (Hk : (k < length rows)%nat) by (apply nth_error_Some; congruence).
  destruct (nth_error tfds k) as [fk|] eqn:Efk; [|apply nth_error_None in Efk; lia].
  destruct (Hrow k r fk Hr Efk) as [Hloc Hptrk].
  assert (Hfk : In fk fds) by (apply Hin; eapply nth_error_In; exact Efk).
  assert (Hoffk : fde_from_offset dbg c sec (fd_off fk) = Ok fk).
  { eapply parsed_fdes_from_offset; eauto. }
  (* the header path *)
  rewrite hdr_fde_for_address_covers by exact Hc. rewrite Hlk, Hptrk. cbn [bind].
  unfold pointer_to_offset. rewrite Hptr. cbn [pointer_direct bind].
  destruct (e <=? e + fd_off fk) eqn:Ele; [|lia].
  replace (e + fd_off fk - e) with (fd_off fk) by lia. cbn [bind].
  rewrite Hoffk. cbn [bind].
  assert (Hlenl : length locs = length rows) by apply Hdec.
  (* every FDE of the section sits at some table index *)
  assert (Hidx : forall f, In f fds -> exists j, nth_error tfds j = Some f /\ (j < length rows)%nat /\ nth j locs 0 = fd_init f).
  { intros f Hf. apply Hall' in Hf. apply In_nth_error in Hf as (j & Hj). exists j. split; [exact Hj|].
    assert (Hjl : (j < length tfds)%nat) by (apply nth_error_Some; congruence).
    split; [lia|].
    destruct (nth_error rows j) as [rj|] eqn:Erj; [|apply nth_error_None in Erj; lia].
    apply (Hrow j rj f Erj Hj). }
  destruct (covers fk a) eqn:Ecov.
  - (* the chosen FDE covers a: the linear search finds the same one *)
    destruct (find (fun f => covers f a) fds) as [f'|] eqn:Ef.
    + apply find_some in Ef as [Hf' Hcov']. f_equal.
      destruct (Hidx f' Hf') as (j & Hj & Hjl & Hjloc).
      rewrite covers_nowrap in Ecov, Hcov' by (apply Hnw; assumption).
      destruct (Nat.lt_trichotomy j k) as [Hlt|[Heq|Hgt]].
      * specialize (Hdisj j k f' fk Hlt Hj Efk). lia.
      * subst j. congruence.
      * specialize (Hdisj k j fk f' Hgt Efk Hj). lia.
    + exfalso. eapply find_none in Ef; [|exact Hfk]. cbv beta in Ef. congruence.
  - (* it does not: no FDE covers a *)
    destruct (find (fun f => covers f a) fds) as [f'|] eqn:Ef; [|reflexivity].
    exfalso. apply find_some in Ef as [Hf' Hcov'].
    destruct (Hidx f' Hf') as (j & Hj & Hjl & Hjloc).
    rewrite covers_nowrap in Hcov' by (apply Hnw; assumption).
    rewrite covers_nowrap in Ecov by (apply Hnw; assumption).
    assert (Hja : nth j locs 0 <= a) by lia.
    destruct (bs_index_last locs a j) as (Hjk & _ & Hka); [lia|exact Hja|].
    fold k in Hjk, Hka.
    destruct (Nat.eq_dec j k) as [Heq|Hneq].
    + subst j. assert (f' = fk) by congruence. subst f'. lia.
    + assert (Hlt : (j < k)%nat) by lia. specialize (Hdisj j k f' fk Hlt Hj Efk). lia.
Qed.
