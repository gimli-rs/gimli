(* Proofs/CfiRdSafe.v — the CIE/FDE reader, the entry iterator, the header parser, the table
   iterator and the binary search never panic and never run out of their stated fuel, for EVERY
   byte string, in both build modes (the two EhHdrTable inputs that overflowed before gimli
   c0bb189 / f378977 included: Properties/C05.v states them as plain errors). The fuel arguments
   rest on `advanced`: every successful read leaves a reader that stands further on in the same
   window. *)
From Coq Require Import List NArith ZArith Bool Lia ZifyBool ZifyN ZifyNat.
From Coq.Strings Require Import Byte.
Require Import GV.Base.Res GV.Base.Byt GV.Base.Ints GV.Model.Leb GV.Model.Prim GV.Spec.LebSpec.
Require Import GV.Proofs.LebProofs GV.Proofs.PrimProofs.
Require Import GV.Spec.CfiSpec GV.Model.CfiRd GV.Proofs.CfiRdBase GV.Proofs.CfiRdIter GV.Proofs.CfiRdBs.
Import ListNotations.
Local Open Scope N_scope.

Lemma returns_if : forall A (b : bool) (x y : res A), returns x -> returns y -> returns (if b then x else y).
Proof. intros. destruct b; assumption. Qed.

Global Hint Resolve returns_ok returns_err : returns.

Lemma read_in_returns : forall n be bs, returns (read_in n be bs).
Proof. intros. unfold read_in. apply returns_bind; [apply read_un_returns|]. intros [v t] _. apply returns_ok. Qed.
Lemma read_address_returns : forall s be bs, returns (read_address s be bs).
Proof. intros. unfold read_address. repeat (apply returns_if; [apply read_un_returns|]). apply returns_err. Qed.

Lemma lift_returns : forall A (f : list byte -> res (A * list byte)) r, returns (f (win r)) -> returns (lift f r).
Proof. intros A f r H. unfold lift. apply returns_bind; [exact H|]. intros [a rest] _. apply returns_ok. Qed.

Lemma rd_split_returns : forall n r, returns (rd_split n r).
Proof. intros. unfold rd_split. apply returns_if; auto with returns. Qed.
Lemma rd_skip_returns : forall n r, returns (rd_skip n r).
Proof. intros. unfold rd_skip. apply returns_if; auto with returns. Qed.
Lemma rd_u8_returns : forall r, returns (rd_u8 r).
Proof. intros. unfold rd_u8. apply lift_returns, read_u8_returns. Qed.

Lemma parse_pointer_encoding_returns : forall r, returns (parse_pointer_encoding r).
Proof.
  intros. unfold parse_pointer_encoding. apply returns_bind; [apply rd_u8_returns|]. intros [e r1] _.
  apply returns_if; auto with returns.
Qed.

Lemma wadd_sized_returns : forall dbg a len asz, asz_ok asz -> returns (wadd_sized dbg a len asz).
Proof. intros. rewrite wadd_sized_ok by assumption. apply returns_ok. Qed.

Lemma pev_returns : forall dbg be enc pp r,
  pe_format_known (pe_format enc) = true -> returns (parse_encoded_value dbg be enc pp r).
Proof.
  intros dbg be enc pp r Hk. unfold parse_encoded_value. cbv zeta.
  set (f := pe_format enc) in *. clearbody f. unfold pe_format_known in Hk.
  assert (Hs : forall g : list byte -> res (Z * list byte), (forall bs, returns (g bs)) ->
                 returns (let* (z, r1) := lift g r in Ok (of_i64 z, r1))).
  { intros g Hg. apply returns_bind; [apply lift_returns, Hg|]. intros [z r1] _. apply returns_ok. }
  destruct (f =? 0) eqn:E0; [apply lift_returns, read_address_returns|].
  destruct (f =? 1) eqn:E1; [apply lift_returns, read_uleb128_total|].
  destruct (f =? 2) eqn:E2; [apply lift_returns, read_un_returns|].
  destruct (f =? 3) eqn:E3; [apply lift_returns, read_un_returns|].
  destruct (f =? 4) eqn:E4; [apply lift_returns, read_un_returns|].
  destruct (f =? 9) eqn:E9; [apply Hs, read_sleb128_total|].
  destruct (f =? 10) eqn:E10; [apply Hs, read_in_returns|].
  destruct (f =? 11) eqn:E11; [apply Hs, read_in_returns|].
  destruct (f =? 12) eqn:E12; [apply Hs, read_in_returns|exfalso; lia].
Qed.

Lemma valid_not_omit_known : forall enc, pe_is_valid enc = true -> (enc =? DW_EH_PE_omit) = false ->
  pe_format_known (pe_format enc) = true /\ pe_application_known (pe_application enc) = true.
Proof.
  intros enc Hv Ho. unfold pe_is_valid, pe_is_absent in Hv. rewrite Ho in Hv.
  destruct (pe_format_known (pe_format enc)); cbn [negb] in Hv; [|discriminate].
  destruct (pe_application_known (pe_application enc)); cbn [negb] in Hv; [|discriminate]. auto.
Qed.

Lemma pep_returns : forall dbg be enc pp r, asz_ok (pp_asz pp) -> returns (parse_encoded_pointer dbg be enc pp r).
Proof.
  intros dbg be enc pp r Hasz. unfold parse_encoded_pointer.
  destruct (pe_is_valid enc) eqn:Hv; cbn [negb]; [|apply returns_err].
  destruct (enc =? DW_EH_PE_omit) eqn:Ho; [apply returns_err|].
  destruct (valid_not_omit_known enc Hv Ho) as [Hf Ha].
  apply returns_bind.
  - unfold pe_application_known in Ha. set (ap := pe_application enc) in *. clearbody ap.
    destruct (ap =? 0) eqn:E0; [apply returns_ok|].
    destruct (ap =? 16) eqn:E1; [destruct (sb_section _); [apply wadd_sized_returns; exact Hasz|apply returns_err]|].
    destruct (ap =? 32) eqn:E2; [destruct (sb_text _); auto with returns|].
    destruct (ap =? 48) eqn:E3; [destruct (sb_data _); auto with returns|].
    destruct (ap =? 64) eqn:E4; [destruct (pp_func _); auto with returns|].
    destruct (ap =? 80) eqn:E5; [apply returns_err|exfalso; lia].
  - intros base _. apply returns_bind; [apply pev_returns; exact Hf|]. intros [offset r1] _.
    apply returns_bind; [apply wadd_sized_returns; exact Hasz|]. intros; apply returns_ok.
Qed.

(* a successfully parsed pointer had a known format (so the following parse_encoded_value with
   the same encoding cannot reach unreachable!()) *)
Lemma pep_ok_known : forall dbg be enc pp r x, parse_encoded_pointer dbg be enc pp r = Ok x ->
  pe_format_known (pe_format enc) = true.
Proof.
  intros dbg be enc pp r x H. unfold parse_encoded_pointer in H.
  destruct (pe_is_valid enc) eqn:Hv; cbn [negb] in H; [|discriminate].
  destruct (enc =? DW_EH_PE_omit) eqn:Ho; [discriminate|].
  apply (valid_not_omit_known enc Hv Ho).
Qed.

Lemma ppe_ok_valid : forall r e r1, parse_pointer_encoding r = Ok (e, r1) -> pe_is_valid e = true.
Proof.
  intros r e r1 H. unfold parse_pointer_encoding in H.
  apply bind_ok in H as ([e0 r0] & _ & H). destruct (pe_is_valid e0) eqn:E; [|discriminate].
  injection H as <- <-. exact E.
Qed.

Lemma parse_prefix_returns : forall c input, returns (parse_prefix c input).
Proof.
  intros. unfold parse_prefix.
  apply returns_bind; [apply lift_returns, read_initial_length_returns|]. intros [[len fmt64] in1] _.
  apply returns_if; [apply returns_ok|].
  apply returns_bind; [apply rd_split_returns|]. intros [rest in2] _.
  apply returns_bind; [apply returns_if; apply lift_returns, read_un_returns|]. intros [id rest1] _. apply returns_ok.
Qed.

Lemma aug_loop_returns : forall s dbg c asz first a data input,
  asz_ok asz -> returns (aug_loop dbg c asz s first a data input).
Proof.
  induction s as [|ch s IH]; intros dbg c asz first a data input Hasz; cbn [aug_loop]; [apply returns_ok|].
  destruct (b2n ch =? 122).
  { destruct first; [apply returns_err|].
    apply returns_bind; [apply lift_returns, read_uleb128_total|]. intros [alen in1] _.
    apply returns_bind; [apply rd_split_returns|]. intros [d in2] _. apply IH. exact Hasz. }
  destruct (b2n ch =? 76).
  { destruct data as [d|]; [|apply returns_err].
    apply returns_bind; [apply parse_pointer_encoding_returns|]. intros [e d1] _. apply IH. exact Hasz. }
  destruct (b2n ch =? 80).
  { destruct data as [d|]; [|apply returns_err].
    apply returns_bind; [apply parse_pointer_encoding_returns|]. intros [e d1] _.
    apply returns_bind; [apply pep_returns; exact Hasz|]. intros [p d2] _. apply IH. exact Hasz. }
  destruct (b2n ch =? 82).
  { destruct data as [d|]; [|apply returns_err].
    apply returns_bind; [apply parse_pointer_encoding_returns|]. intros [e d1] _. apply IH. exact Hasz. }
  destruct (b2n ch =? 83); [apply IH; exact Hasz|apply returns_err].
Qed.

Lemma cie_from_prefix_returns : forall dbg c px, asz_ok (sc_asz c) -> returns (cie_from_prefix dbg c px).
Proof.
  intros dbg c px Hc. unfold cie_from_prefix.
  apply returns_bind; [apply rd_u8_returns|]. intros [version r1] _.
  apply returns_if; [apply returns_err|].
  apply returns_bind; [apply lift_returns, read_cstr_total|]. intros [augstr r2] _.
  apply returns_bind.
  { apply returns_if; [|apply returns_ok].
    apply returns_bind; [apply lift_returns, read_address_size_returns|]. intros [a q1] _.
    apply returns_bind; [apply rd_u8_returns|]. intros [seg q2] _. apply returns_if; auto with returns. }
  intros [asz r3] Hasz.
  assert (Hok : asz_ok asz) by (eapply cie_asz_field_ok; eassumption).
  apply returns_bind; [apply lift_returns, read_uleb128_total|]. intros [caf r4] _.
  apply returns_bind; [apply lift_returns, read_sleb128_total|]. intros [daf r5] _.
  apply returns_bind.
  { apply returns_if; [apply rd_u8_returns|].
    apply returns_bind; [apply lift_returns, read_uleb128_total|]. intros [x q] _. apply returns_if; auto with returns. }
  intros [rar r6] _.
  apply returns_bind.
  { destruct augstr as [|ch s]; [apply returns_ok|].
    apply returns_bind; [apply aug_loop_returns; exact Hok|]. intros [a q] _. apply returns_ok. }
  intros [aug r7] _. apply returns_ok.
Qed.

Lemma cie_from_offset_returns : forall dbg c sec o, asz_ok (sc_asz c) -> returns (cie_from_offset dbg c sec o).
Proof.
  intros dbg c sec o Hc. unfold cie_from_offset.
  apply returns_bind; [apply rd_skip_returns|]. intros input _.
  apply returns_bind; [apply parse_prefix_returns|]. intros [opx r] _.
  destruct opx as [px|]; [|apply returns_err].
  apply returns_if; [apply returns_err|]. apply cie_from_prefix_returns. exact Hc.
Qed.

Lemma pfde_from_prefix_returns : forall c px, returns (pfde_from_prefix c px).
Proof. intros. unfold pfde_from_prefix. destruct (resolve_cie_offset _ _ _); auto with returns. Qed.

Lemma fde_addresses_returns : forall dbg c ci pp r, asz_ok (pp_asz pp) -> returns (fde_addresses dbg c ci pp r).
Proof.
  intros dbg c ci pp r Hasz. unfold fde_addresses.
  destruct (match ci_aug ci with Some a => a_fde_enc a | None => None end) as [enc|].
  - apply returns_bind; [apply pep_returns; exact Hasz|]. intros [p r1] Hp.
    apply returns_bind; [apply pev_returns; eapply pep_ok_known; exact Hp|]. intros [range r2] _. apply returns_ok.
  - apply returns_bind; [apply lift_returns, read_address_returns|]. intros [ia r1] _.
    apply returns_bind; [apply lift_returns, read_address_returns|]. intros [range r2] _. apply returns_ok.
Qed.

Lemma fde_aug_data_returns : forall dbg c a pp r, asz_ok (pp_asz pp) -> returns (fde_aug_data dbg c a pp r).
Proof.
  intros dbg c a pp r Hasz. unfold fde_aug_data.
  apply returns_bind; [apply lift_returns, read_uleb128_total|]. intros [alen r1] _.
  apply returns_bind; [apply rd_split_returns|]. intros [d r2] _.
  destruct (a_lsda a) as [enc|]; [|apply returns_ok].
  apply returns_bind; [apply pep_returns; exact Hasz|]. intros [p q] _. apply returns_ok.
Qed.

Lemma fde_parse_returns : forall dbg c sec p, asz_ok (sc_asz c) -> returns (fde_parse dbg c sec p).
Proof.
  intros dbg c sec p Hc. unfold fde_parse.
  apply returns_bind; [apply cie_from_offset_returns; exact Hc|]. intros ci Hci.
  assert (Hok : asz_ok (ci_asz ci)) by (eapply cie_from_offset_asz; eassumption).
  apply returns_bind; [apply fde_addresses_returns; exact Hok|]. intros [[ia range] r1] _.
  apply returns_bind.
  { destruct (ci_aug ci) as [a|]; [|apply returns_ok].
    apply returns_bind; [apply fde_aug_data_returns; exact Hok|]. intros [l q] _. apply returns_ok. }
  intros [ad r2] _. apply returns_ok.
Qed.

Lemma fde_contains_returns : forall dbg f a, asz_ok (ci_asz (fd_cie f)) -> returns (fde_contains dbg f a).
Proof. intros. rewrite fde_contains_covers by assumption. apply returns_ok. Qed.

Lemma parse_cfi_entry_returns : forall dbg c input, asz_ok (sc_asz c) -> returns (parse_cfi_entry dbg c input).
Proof.
  intros dbg c input Hc. unfold parse_cfi_entry.
  apply returns_bind; [apply parse_prefix_returns|]. intros [opx in1] _.
  destruct opx as [px|]; [|apply returns_ok].
  apply returns_if.
  - apply returns_bind; [apply cie_from_prefix_returns; exact Hc|]. intros; apply returns_ok.
  - apply returns_bind; [apply pfde_from_prefix_returns|]. intros; apply returns_ok.
Qed.

(* r' is what is left of r once e, at least k bytes long, has been read *)
Definition advanced (k : nat) (r r' : rd) : Prop :=
  exists e, win r = e ++ win r' /\ off r' = off r + nlen e /\ (k <= length e)%nat.

Lemma advanced_refl : forall r, advanced 0 r r.
Proof. intros r. exists []. cbn [app length]. change (nlen []) with 0. repeat split; lia. Qed.

Lemma advanced_trans : forall j k m r1 r2 r3,
  advanced j r1 r2 -> advanced k r2 r3 -> (m <= j + k)%nat -> advanced m r1 r3.
Proof.
  intros j k m r1 r2 r3 (e1 & H1 & O1 & L1) (e2 & H2 & O2 & L2) Hm. exists (e1 ++ e2).
  rewrite H1, H2, O2, O1, nlen_app, app_length, app_assoc. repeat split; lia.
Qed.

Lemma advanced_length : forall k r r', advanced k r r' -> (length (win r') + k <= length (win r))%nat.
Proof. intros k r r' (e & -> & _ & H). rewrite app_length. lia. Qed.

Lemma lift_advanced : forall A (f : list byte -> res (A * list byte)) k r a r',
  (forall bs x t, f bs = Ok (x, t) -> exists e, bs = e ++ t /\ (k <= length e)%nat) ->
  lift f r = Ok (a, r') -> advanced k r r'.
Proof.
  intros A f k r a r' Hf H. apply lift_ok in H as (rest & H & ->).
  destruct (Hf _ _ _ H) as (e & Hw & Hk). exists e. cbn [win off].
  rewrite Hw, nlen_app. repeat split; [lia|exact Hk].
Qed.

Lemma read_un_split : forall n be bs v r, read_un n be bs = Ok (v, r) -> exists e, bs = e ++ r /\ (n <= length e)%nat.
Proof. intros n be bs v r H. apply read_un_ok_inv in H as (e & -> & <- & _). exists e. split; [reflexivity|lia]. Qed.

Lemma read_uleb128_split : forall dbg bs x q, read_uleb128 dbg bs = Ok (x, q) ->
  exists e, bs = e ++ q /\ (1 <= length e)%nat.
Proof.
  intros dbg bs x q H. apply read_uleb128_ok in H as (e & Hs & _).
  exists e. split; [apply split_leb_app|eapply split_leb_nonempty]; exact Hs.
Qed.

Lemma read_sleb128_split : forall dbg bs x q, read_sleb128 dbg bs = Ok (x, q) ->
  exists e, bs = e ++ q /\ (1 <= length e)%nat.
Proof.
  intros dbg bs x q H. apply read_sleb128_ok in H as (e & Hs & _).
  exists e. split; [apply split_leb_app|eapply split_leb_nonempty]; exact Hs.
Qed.

Lemma read_in_split : forall n be bs z r, read_in n be bs = Ok (z, r) -> exists e, bs = e ++ r /\ (n <= length e)%nat.
Proof.
  intros n be bs z r H. unfold read_in in H. apply bind_ok in H as ([u t] & Hu & H).
  injection H as _ <-. eapply read_un_split. exact Hu.
Qed.

Lemma read_initial_length_split : forall be bs x r, read_initial_length be bs = Ok (x, r) ->
  exists e, bs = e ++ r /\ (4 <= length e)%nat.
Proof.
  intros be bs x r H. unfold read_initial_length in H.
  apply bind_ok in H as ([v r0] & Hv & H). apply read_un_split in Hv as (e0 & -> & H0).
  destruct (v <? 4294967280); [injection H as _ <-; eauto|].
  destruct (v =? 4294967295); [|discriminate].
  apply bind_ok in H as ([v8 r8] & Hv8 & H). apply read_un_split in Hv8 as (e8 & -> & H8).
  injection H as _ <-. exists (e0 ++ e8). rewrite app_assoc, app_length. split; [reflexivity|lia].
Qed.

Lemma rd_split_advanced : forall n r h t, rd_split n r = Ok (h, t) -> advanced 0 r t.
Proof.
  intros n r h t H. unfold rd_split in H. destruct (nlen (win r) <? n) eqn:E; [discriminate|].
  injection H as _ <-. exists (firstn (N.to_nat n) (win r)). cbn [win off].
  rewrite firstn_skipn. unfold nlen in *. rewrite firstn_length. repeat split; lia.
Qed.

Lemma parse_prefix_advanced : forall c input opx in', parse_prefix c input = Ok (opx, in') -> advanced 4 input in'.
Proof.
  intros c input opx in' H. unfold parse_prefix in H.
  apply bind_ok in H as ([[len fmt64] in1] & Hl & H).
  apply (lift_advanced _ _ 4) in Hl; [|apply read_initial_length_split].
  destruct (len =? 0); [injection H as _ <-; exact Hl|].
  apply bind_ok in H as ([rest in2] & Hs & H). apply rd_split_advanced in Hs.
  apply bind_ok in H as ([id rest1] & _ & H). injection H as _ <-.
  apply (advanced_trans 4 0 4 _ _ _ Hl Hs). lia.
Qed.

Lemma parse_cfi_entry_advanced : forall dbg c input o in', parse_cfi_entry dbg c input = Ok (o, in') -> advanced 4 input in'.
Proof.
  intros dbg c input o in' H. unfold parse_cfi_entry in H.
  apply bind_ok in H as ([opx in1] & Hp & H). apply parse_prefix_advanced in Hp.
  destruct opx as [px|]; [|injection H as _ <-; exact Hp].
  destruct (is_cie _ _ _).
  - apply bind_ok in H as (ci & _ & H). injection H as _ <-. exact Hp.
  - apply bind_ok in H as (p & _ & H). injection H as _ <-. exact Hp.
Qed.

Lemma iter_next_S : forall f dbg c input,
  iter_next (S f) dbg c input =
  if rd_is_empty input then Ok (SNone, input)
  else match parse_cfi_entry dbg c input with
       | Ok (Some it, in1) => Ok (SSome it, in1)
       | Err e => Ok (SErr e, rd_empty input)
       | Ok (None, in1) => if sc_eh c then Ok (SNone, rd_empty in1) else iter_next f dbg c in1
       | Panic => Panic
       | OutOfFuel => OutOfFuel
       end.
Proof. reflexivity. Qed.

(* an item CfiEntriesIter::next reports was parsed where skipping zero-length entries led *)
Lemma iter_next_some : forall fuel dbg c input it in1,
  iter_next fuel dbg c input = Ok (SSome it, in1) ->
  exists input', advanced 0 input input' /\ parse_cfi_entry dbg c input' = Ok (Some it, in1).
Proof.
  induction fuel as [|f IH]; intros dbg c input it in1 H; [discriminate|].
  rewrite iter_next_S in H. destruct (rd_is_empty input); [discriminate|].
  destruct (parse_cfi_entry dbg c input) as [[[it'|] in']|e| |] eqn:E; try discriminate.
  - injection H as -> ->. exists input. split; [apply advanced_refl|exact E].
  - destruct (sc_eh c); [discriminate|]. apply IH in H as (input' & Ha & Hp).
    exists input'. split; [|exact Hp]. apply parse_cfi_entry_advanced in E.
    apply (advanced_trans 4 0 0 _ _ _ E Ha). lia.
Qed.

Lemma iter_next_advanced : forall fuel dbg c input it in1,
  iter_next fuel dbg c input = Ok (SSome it, in1) -> advanced 4 input in1.
Proof.
  intros fuel dbg c input it in1 H. apply iter_next_some in H as (input' & Ha & Hp).
  apply parse_cfi_entry_advanced in Hp. apply (advanced_trans 0 4 4 _ _ _ Ha Hp). lia.
Qed.

(* CfiEntriesIter::next terminates within the stated fuel and never panics *)
Lemma iter_next_returns : forall fuel dbg c input,
  asz_ok (sc_asz c) -> (length (win input) < fuel)%nat -> returns (iter_next fuel dbg c input).
Proof.
  induction fuel as [|f IH]; intros dbg c input Hc Hf; [lia|].
  rewrite iter_next_S.
  destruct (rd_is_empty input); [apply returns_ok|].
  pose proof (parse_cfi_entry_returns dbg c input Hc) as [Hs1 Hs2].
  destruct (parse_cfi_entry dbg c input) as [[[it|] in1]|e| |] eqn:E; try congruence; try apply returns_ok.
  destruct (sc_eh c); [apply returns_ok|].
  apply parse_cfi_entry_advanced, advanced_length in E. apply IH; [exact Hc|lia].
Qed.

Lemma entries_loop_returns : forall fuel dbg c input,
  asz_ok (sc_asz c) -> (length (win input) < fuel)%nat -> returns (entries_loop fuel dbg c input).
Proof.
  induction fuel as [|f IH]; intros dbg c input Hc Hf; [lia|].
  rewrite entries_loop_S.
  apply returns_bind; [apply iter_next_returns; [exact Hc|unfold iter_fuel; lia]|]. intros [st in1] Hst.
  destruct st as [|it|e]; auto with returns.
  apply returns_bind; [|intros [l e] _; apply returns_ok].
  apply iter_next_advanced, advanced_length in Hst. apply IH; [exact Hc|lia].
Qed.

Lemma fde_for_address_loop_returns : forall fuel dbg c sec a input,
  asz_ok (sc_asz c) -> (length (win input) < fuel)%nat -> returns (fde_for_address_loop fuel dbg c sec a input).
Proof.
  induction fuel as [|f IH]; intros dbg c sec a input Hc Hf; [lia|].
  rewrite fde_for_address_loop_S.
  apply returns_bind; [apply iter_next_returns; [exact Hc|unfold iter_fuel; lia]|]. intros [st in1] Hst.
  destruct st as [|it|e]; auto with returns.
  apply iter_next_advanced, advanced_length in Hst.
  destruct it as [ci|p]; [apply IH; [exact Hc|lia]|].
  apply returns_bind; [apply fde_parse_returns; exact Hc|]. intros fd Hfd.
  apply returns_bind; [apply fde_contains_returns; eapply fde_parse_asz; eassumption|]. intros b _.
  destruct b; [apply returns_ok|]. apply IH; [exact Hc|lia].
Qed.

Lemma fde_for_address_returns : forall dbg c sec a, asz_ok (sc_asz c) -> returns (fde_for_address dbg c sec a).
Proof. intros. unfold fde_for_address. apply fde_for_address_loop_returns; [assumption|cbn [win]; lia]. Qed.

Lemma hdr_parse_asz : forall dbg be hb asz sec h, hdr_parse dbg be hb asz sec = Ok h -> h_asz h = asz.
Proof.
  intros dbg be hb asz sec h H. unfold hdr_parse in H.
  apply bind_ok in H as ([version r1] & _ & H). destruct (negb _); [discriminate|].
  apply bind_ok in H as ([ptr_enc r2] & _ & H).
  apply bind_ok in H as ([cnt_enc r3] & _ & H).
  apply bind_ok in H as ([tbl_enc r4] & _ & H).
  destruct (ptr_enc =? DW_EH_PE_omit); [discriminate|].
  apply bind_ok in H as ([p r5] & _ & H).
  apply bind_ok in H as ([count r6] & _ & H). injection H as <-. reflexivity.
Qed.

(* every successfully parsed value or pointer consumes at least one byte *)
Lemma pev_advanced : forall dbg be enc pp r v r1, asz_ok (pp_asz pp) ->
  parse_encoded_value dbg be enc pp r = Ok (v, r1) -> advanced 1 r r1.
Proof.
  intros dbg be enc pp r v r1 Hasz H. unfold parse_encoded_value in H. cbv zeta in H.
  assert (Hun : forall n, (0 < n)%nat -> forall bs x t, read_un n be bs = Ok (x, t) -> exists e, bs = e ++ t /\ (1 <= length e)%nat).
  { intros n Hn bs x t Hx. apply read_un_split in Hx as (e & -> & He). exists e. split; [reflexivity|lia]. }
  assert (Hin : forall n, (0 < n)%nat -> forall bs x t, read_in n be bs = Ok (x, t) -> exists e, bs = e ++ t /\ (1 <= length e)%nat).
  { intros n Hn bs x t Hx. apply read_in_split in Hx as (e & -> & He). exists e. split; [reflexivity|lia]. }
  assert (Hsg : forall f : list byte -> res (Z * list byte),
            (forall bs x t, f bs = Ok (x, t) -> exists e, bs = e ++ t /\ (1 <= length e)%nat) ->
            (let* (z, q) := lift f r in Ok (of_i64 z, q)) = Ok (v, r1) -> advanced 1 r r1).
  { intros f Hf Hz. apply bind_ok in Hz as ([z q] & Hz & Hq). injection Hq as _ <-. eapply lift_advanced; eassumption. }
  destruct (pe_format enc =? 0).
  { rewrite read_address_ok_fun in H by exact Hasz. eapply lift_advanced; [apply Hun|exact H].
    destruct Hasz as [->|[->|[->| ->]]]; cbn; lia. }
  destruct (pe_format enc =? 1); [eapply lift_advanced; [apply read_uleb128_split|exact H]|].
  destruct (pe_format enc =? 2); [eapply lift_advanced; [apply (Hun 2%nat); lia|exact H]|].
  destruct (pe_format enc =? 3); [eapply lift_advanced; [apply (Hun 4%nat); lia|exact H]|].
  destruct (pe_format enc =? 4); [eapply lift_advanced; [apply (Hun 8%nat); lia|exact H]|].
  destruct (pe_format enc =? 9); [eapply Hsg; [apply read_sleb128_split|exact H]|].
  destruct (pe_format enc =? 10); [eapply Hsg; [apply (Hin 2%nat); lia|exact H]|].
  destruct (pe_format enc =? 11); [eapply Hsg; [apply (Hin 4%nat); lia|exact H]|].
  destruct (pe_format enc =? 12); [eapply Hsg; [apply (Hin 8%nat); lia|exact H]|discriminate].
Qed.

Lemma pep_advanced : forall dbg be enc pp r p r1, asz_ok (pp_asz pp) ->
  parse_encoded_pointer dbg be enc pp r = Ok (p, r1) -> advanced 1 r r1.
Proof.
  intros dbg be enc pp r p r1 Hasz H. unfold parse_encoded_pointer in H.
  destruct (negb _); [discriminate|]. destruct (enc =? DW_EH_PE_omit); [discriminate|].
  apply bind_ok in H as (base & _ & H).
  apply bind_ok in H as ([offset q] & Hv & H).
  apply bind_ok in H as (a & _ & H). injection H as _ <-. eapply pev_advanced; eassumption.
Qed.

Lemma tbl_next_returns : forall dbg hb h st, asz_ok (h_asz h) -> returns (tbl_next dbg hb h st).
Proof.
  intros dbg hb h [t remain] Hasz. unfold tbl_next.
  apply returns_if; [apply returns_ok|].
  pose proof (pep_returns dbg (h_be h) (h_enc h) (hdr_pp hb h) t Hasz) as [H1 H2].
  destruct (parse_encoded_pointer dbg (h_be h) (h_enc h) (hdr_pp hb h) t) as [[from t1]|e| |]; try congruence;
    [|apply returns_ok].
  pose proof (pep_returns dbg (h_be h) (h_enc h) (hdr_pp hb h) t1 Hasz) as [H3 H4].
  destruct (parse_encoded_pointer dbg (h_be h) (h_enc h) (hdr_pp hb h) t1) as [[to t2]|e| |]; try congruence;
    apply returns_ok.
Qed.

Lemma tbl_next_advanced : forall dbg hb h t remain row t2 remain2, asz_ok (h_asz h) ->
  tbl_next dbg hb h (t, remain) = Ok (SSome row, (t2, remain2)) -> advanced 2 t t2.
Proof.
  intros dbg hb h t remain row t2 remain2 Hasz H. unfold tbl_next in H.
  destruct (remain =? 0); [discriminate|].
  destruct (parse_encoded_pointer dbg (h_be h) (h_enc h) (hdr_pp hb h) t) as [[from t1]|e| |] eqn:E1; try discriminate.
  destruct (parse_encoded_pointer dbg (h_be h) (h_enc h) (hdr_pp hb h) t1) as [[to t2']|e| |] eqn:E2; try discriminate.
  injection H as _ <- _.
  apply pep_advanced in E1; [|exact Hasz]. apply pep_advanced in E2; [|exact Hasz].
  apply (advanced_trans 1 1 2 _ _ _ E1 E2). lia.
Qed.

Lemma tbl_all_loop_returns : forall fuel dbg hb h t remain, asz_ok (h_asz h) ->
  (length (win t) < fuel)%nat -> returns (tbl_all_loop fuel dbg hb h (t, remain)).
Proof.
  induction fuel as [|f IH]; intros dbg hb h t remain Hasz Hf; [lia|].
  cbn [tbl_all_loop].
  apply returns_bind; [apply tbl_next_returns; exact Hasz|]. intros [s [t2 remain2]] Hs.
  destruct s as [|row|e]; auto with returns.
  apply tbl_next_advanced, advanced_length in Hs; [|exact Hasz].
  apply returns_bind; [apply IH; [exact Hasz|lia]|]. intros [l e] _. apply returns_ok.
Qed.

Lemma tbl_nth_st_returns : forall dbg hb h st n, asz_ok (h_asz h) -> returns (tbl_nth_st dbg hb h st n).
Proof.
  intros dbg hb h [t remain] n Hasz. unfold tbl_nth_st.
  destruct (tbl_field_size (h_enc h)) as [size|]; [|apply returns_ok].
  apply returns_if; [apply returns_ok|].
  pose proof (rd_skip_returns (n * (size * 2)) t) as [H1 H2].
  destruct (rd_skip (n * (size * 2)) t) as [t'|e| |]; try congruence; [|apply returns_ok].
  apply tbl_next_returns. exact Hasz.
Qed.

Lemma pointer_direct_returns : forall p, returns (pointer_direct p).
Proof. intros [a|a]; cbn [pointer_direct]; auto with returns. Qed.

(* the loop halves len: it returns within log2(len)+1 steps on every table, sorted or not, and
   has no panic site *)
Lemma lookup_loop_returns : forall k dbg hb h row a len reader,
  asz_ok (h_asz h) -> len <= 2 ^ N.of_nat k ->
  returns (lookup_loop (S k) dbg hb h row a len reader).
Proof.
  induction k as [|k IH]; intros dbg hb h row a len reader Hasz Hlen; rewrite lookup_loop_S.
  - change (2 ^ N.of_nat 0) with 1 in Hlen. destruct (len <=? 1) eqn:E; [apply returns_ok|lia].
  - destruct (len <=? 1) eqn:E; [apply returns_ok|].
    rewrite Nat2N.inj_succ, N.pow_succ_r' in Hlen.
    apply returns_bind; [apply returns_if; auto with returns|].
    intros kk _. apply returns_bind; [apply rd_split_returns|]. intros [head tail] _.
    apply returns_bind; [apply pep_returns; exact Hasz|]. intros [p q] _.
    apply returns_bind; [apply pointer_direct_returns|]. intros pivot _.
    apply returns_if; [apply returns_ok|].
    apply returns_if; apply IH; try exact Hasz; lia.
Qed.

Lemma pointer_to_offset_returns : forall dbg h p, returns (pointer_to_offset dbg h p).
Proof.
  intros dbg h p. unfold pointer_to_offset.
  apply returns_bind; [apply pointer_direct_returns|]. intros a _.
  apply returns_bind; [apply pointer_direct_returns|]. intros e _. apply returns_if; auto with returns.
Qed.

Lemma pfde_from_offset_returns : forall c sec o, returns (pfde_from_offset c sec o).
Proof.
  intros. unfold pfde_from_offset.
  apply returns_bind; [apply rd_skip_returns|]. intros input _.
  apply returns_bind; [apply parse_prefix_returns|]. intros [opx r] _.
  destruct opx as [px|]; [|apply returns_err]. apply returns_if; [apply returns_err|apply pfde_from_prefix_returns].
Qed.

Lemma fde_from_offset_returns : forall dbg c sec o, asz_ok (sc_asz c) -> returns (fde_from_offset dbg c sec o).
Proof.
  intros. unfold fde_from_offset. apply returns_bind; [apply pfde_from_offset_returns|]. intros p _.
  apply fde_parse_returns. assumption.
Qed.
