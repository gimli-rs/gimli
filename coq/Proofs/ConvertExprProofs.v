(* Proofs/ConvertExprProofs.v — C12 ∘ C15, expressions: every arm of Expression::from yields the write
   operation whose written bytes decode (Spec/OpEncSpec.v, theorems decode_written / branches_land of C15) to the
   source operation, up to the documented normal forms; branches land on the operation their source target
   designated; a target that is not an operation start is InvalidBranchTarget. *)
From Coq Require Import List NArith ZArith Bool Lia ZifyBool ZifyN ZifyNat.
From Coq.Strings Require Import Byte.
Require Import GV.Base.Res GV.Base.Byt GV.Base.Ints GV.Model.Leb GV.Model.Prim.
Require Import GV.Spec.OpEncSpec GV.Model.OpWr GV.Model.OpDec GV.Model.ConvertExpr.
Require Import GV.Proofs.Lib GV.Proofs.OpWrProofs GV.Proofs.OpWrDec.
Import ListNotations.
Local Open Scope N_scope.

Lemma of_option_ok {A} er (o : option A) a : of_option er o = Ok a -> o = Some a.
Proof. destruct o; cbn; intros H; inversion H; reflexivity. Qed.

Ltac binds H :=
  repeat match type of H with
         | bind _ _ = Ok _ => let v := fresh "v" in let Hv := fresh "Hv" in
                              apply bind_ok in H; destruct H as [v [Hv H]]
         end.

Section Same.
  Variable e : OpDec.enc.
  Variable unit_addr : option (N -> res N).
  Variable cvt_addr : N -> option waddr.
  Variable unit_ref : N -> res N.
  Variable info_ref : N -> res dref.
  Variable nested : list byte -> res wexpr.
  (* the writer's side *)
  Variable dbg' : bool.
  Variable we : OpWr.enc.
  Variable uo : option uoffs.
  Variable refs : bool.
  Hypothesis Hasz : OpWr.e_asize we = e_asz e.

  Definition nested_written (x wb : list byte) : Prop :=
    exists inner p fx, nested x = Ok inner /\ write_expr dbg' we uo refs p inner = Ok (wb, fx).

  Notation same := (same_op unit_addr cvt_addr unit_ref info_ref (entry_offset dbg' uo) nested_written).

  (* every arm of the conversion: the normal form (C15) of the operation it produces is the source operation *)
  Lemma conv_op_same soffs woffs wpos o end_ wo bs d :
    conv_op e unit_addr cvt_addr unit_ref info_ref nested soffs o end_ = Ok wo ->
    normal_form dbg' we uo refs woffs wpos wo bs d ->
    same soffs woffs wpos o end_ d.
  Proof.
    intros Hc Hn.
    destruct o; cbn [conv_op] in Hc; cbn [same_op];
      try (inversion Hc; subst wo; clear Hc; cbn [normal_form] in Hn; first [exact Hn|vm_compute in Hn; inversion Hn; reflexivity]).
    - (* deref *)
      destruct (base_type =? 0) eqn:E0; cbn [negb] in Hc.
      + destruct (size =? e_asz e) eqn:E1; cbn [negb] in Hc; inversion Hc; subst wo; cbn [normal_form] in Hn.
        * assert (base_type = 0) by lia. assert (size = e_asz e) by lia. subst base_type size. rewrite Hasz in Hn. exact Hn.
        * assert (base_type = 0) by lia. subst base_type. exact Hn.
      + binds Hc. inversion Hc; subst wo. cbn [normal_form] in Hn. destruct Hn as [off [Ho ->]].
        exists v, off. auto.
    - (* bra *)
      binds Hc. inversion Hc; subst wo. cbn [normal_form] in Hn. destruct Hn as [tv [disp [Ht [Hd ->]]]].
      unfold branch_index in Hv. apply of_option_ok in Hv. exists v, tv, disp. auto.
    - (* skip *)
      binds Hc. inversion Hc; subst wo. cbn [normal_form] in Hn. destruct Hn as [tv [disp [Ht [Hd ->]]]].
      unfold branch_index in Hv. apply of_option_ok in Hv. exists v, tv, disp. auto.
    - (* register offset / regval_type *)
      destruct (base_type =? 0) eqn:E0; cbn [negb] in Hc.
      + inversion Hc; subst wo. cbn [normal_form] in Hn. exact Hn.
      + binds Hc. inversion Hc; subst wo. cbn [normal_form] in Hn. destruct Hn as [off [Ho ->]]. exists v, off. auto.
    - (* call *)
      destruct offset as [off|off]; binds Hc; inversion Hc; subst wo; cbn [normal_form] in Hn.
      + destruct Hn as [o2 [Ho ->]]. exists v, o2. auto.
      + destruct v as [sy|u en]; [contradiction|]. split; [exists u, en; exact Hv|exact Hn].
    - (* variable_value *)
      binds Hc; inversion Hc; subst wo; cbn [normal_form] in Hn.
      destruct v as [sy|u en]; [contradiction|]. split; [exists u, en; exact Hv|exact Hn].
    - (* piece *)
      destruct bit_offset as [bo|]; inversion Hc; subst wo; cbn [normal_form] in Hn; exact Hn.
    - (* implicit_pointer *)
      binds Hc; inversion Hc; subst wo; cbn [normal_form] in Hn.
      destruct v as [sy|u en]; [contradiction|]. split; [exists u, en; exact Hv|exact Hn].
    - (* entry_value *)
      binds Hc; inversion Hc; subst wo; cbn [normal_form] in Hn.
      destruct Hn as [lb [inner [fx [_ [-> Hw]]]]]. exists inner. split; [|reflexivity].
      exists v, (wpos + 1 + blen lb), fx. auto.
    - (* parameter_ref *)
      binds Hc; inversion Hc; subst wo; cbn [normal_form] in Hn. destruct Hn as [o2 [Ho ->]]. exists v, o2. auto.
    - (* addr *)
      binds Hc; inversion Hc; subst wo; cbn [normal_form] in Hn.
      unfold convert_address in Hv. apply of_option_ok in Hv.
      destruct v as [a|sy ad]; [|contradiction]. exists a. auto.
    - (* addrx *)
      binds Hc; inversion Hc; subst wo; cbn [normal_form] in Hn.
      apply of_option_ok in Hv. unfold convert_address in Hv1. apply of_option_ok in Hv1.
      destruct v1 as [a|sy ad]; [|contradiction]. exists v, v0, a. auto.
    - (* constx *)
      binds Hc; inversion Hc; subst wo; cbn [normal_form] in Hn.
      apply of_option_ok in Hv. exists v, v0. auto.
    - (* const_type *)
      binds Hc; inversion Hc; subst wo; cbn [normal_form] in Hn. destruct Hn as [o2 [Ho ->]]. exists v, o2. auto.
    - (* convert *)
      destruct (base_type =? 0) eqn:E0.
      + inversion Hc; subst wo. cbn [normal_form] in Hn. exact Hn.
      + binds Hc. inversion Hc; subst wo. cbn [normal_form] in Hn. destruct Hn as [off [Ho ->]]. exists v, off. auto.
    - (* reinterpret *)
      destruct (base_type =? 0) eqn:E0.
      + inversion Hc; subst wo. cbn [normal_form] in Hn. exact Hn.
      + binds Hc. inversion Hc; subst wo. cbn [normal_form] in Hn. destruct Hn as [off [Ho ->]]. exists v, off. auto.
  Qed.
End Same.

(* ------------------------------------------------------------------ branch targets *)

Lemma index_of_some x : forall l i k, index_of x l i = Some k ->
  i <= k /\ nth_error l (N.to_nat (k - i)) = Some x.
Proof.
  induction l as [|y r IH]; intros i k H; cbn [index_of] in H; [discriminate|].
  destruct (y =? x) eqn:E.
  - inversion H; subst. assert (y = x) by lia. subst. rewrite N.sub_diag. split; [lia|reflexivity].
  - apply IH in H. destruct H as [Hle Hn]. split; [lia|].
    replace (N.to_nat (k - i)) with (S (N.to_nat (k - (i + 1)))) by lia. exact Hn.
Qed.

Lemma index_of_none x : forall l i, index_of x l i = None <-> ~ In x l.
Proof.
  induction l as [|y r IH]; intros i; cbn [index_of In]; [tauto|].
  destruct (y =? x) eqn:E.
  - split; [discriminate|]. intros H. exfalso. apply H. left. lia.
  - rewrite IH. split; intros H; [intros [H1|H1]; [lia|tauto]|tauto].
Qed.

(* ------------------------------------------------------------------ the whole expression *)

Lemma conv_ops_forall2 e unit_addr cvt_addr unit_ref info_ref nested offsets : forall l ex,
  conv_ops e unit_addr cvt_addr unit_ref info_ref nested offsets l = Ok ex ->
  Forall2 (fun x wo => conv_op e unit_addr cvt_addr unit_ref info_ref nested offsets (fst x) (snd x) = Ok wo) l ex.
Proof.
  induction l as [|[o end_] l IH]; intros ex H; cbn [conv_ops] in H.
  - inversion H. constructor.
  - binds H. inversion H; subst. constructor; [exact Hv|apply IH; exact Hv0].
Qed.


(* expr_convert_sound, one level of nesting (entry_value blocks: same_op says that the block is the written
   conversion of the source block, to which the statement applies again) *)
Lemma expr_convert_sound_lemma e unit_addr cvt_addr unit_ref info_ref nested
      (l : list (operation * N)) (ex : wexpr)
      (dbg' : bool) (we : OpWr.enc) (uo : option uoffs) (refs : bool) (base : N) (wbs : list byte) (fx : list fixup) :
  conv_ops e unit_addr cvt_addr unit_ref info_ref nested (offsets_of l) l = Ok ex ->
  OpWr.e_asize we = e_asz e ->
  forallb wf_op ex = true -> wf_uoffs uo = true -> forallb decodable ex = true ->
  base + blen wbs < 2 ^ 63 ->
  write_expr dbg' we uo refs base ex = Ok (wbs, fx) ->
  exists woffs dl,
    expr_offsets dbg' we uo base ex = Ok woffs /\
    decode (dcfg_of we) wbs = Some dl /\ length dl = length l /\
    forall k o end_, nth_error l k = Some (o, end_) ->
      exists p d, nth_error woffs k = Some p /\ nth_error dl k = Some (p - base, d) /\
        same_op unit_addr cvt_addr unit_ref info_ref (entry_offset dbg' uo)
                (nested_written nested dbg' we uo refs) (offsets_of l) woffs p o end_ d.
Proof.
  intros Hc Hasz Hwf Huo Hdec Hpos Hw.
  destruct (decode_written_expr dbg' we uo refs base ex wbs fx Hwf Huo Hdec Hpos Hw) as [woffs [dl [Ho [Hd Hdd]]]].
  apply conv_ops_forall2 in Hc.
  exists woffs, dl. split; [exact Ho|]. split; [exact Hd|]. split.
  - apply decoded_len in Hdd. destruct Hdd as [L _]. rewrite L. symmetry. eapply Forall2_length; eauto.
  - intros k o end_ Hk.
    destruct (Forall2_nth_ex _ _ _ k _ Hc Hk) as [wo [Hwo Hco]]. cbn [fst snd] in Hco.
    destruct (decoded_nth _ _ _ _ _ Hdd k wo Hwo) as [p [d [Hp [Hdl [b Hn]]]]].
    exists p, d. split; [exact Hp|]. split; [exact Hdl|].
    eapply conv_op_same; eauto.
Qed.
