(* Proofs/EntryBufProofs.v — lemmas about Model/EntryBuf.v (reused entry buffers, cursor cache,
   EntriesTree re-rooting, clones). *)
From Coq Require Import List NArith ZArith Bool Lia.
From Coq.Strings Require Import Byte.
Require Import GV.Base.Res GV.Base.Byt GV.Base.Ints GV.Model.Leb GV.Model.Prim GV.Spec.FormSpec
               GV.Model.Attr GV.Spec.Forest GV.Model.AbbrevRd GV.Model.DieRd GV.Model.EntryBuf.
Import ListNotations.
Local Open Scope N_scope.

Lemma combine_snoc {A B} (l1 : list A) (l2 : list B) a b :
  length l1 = length l2 -> combine (l1 ++ [a]) (l2 ++ [b]) = combine l1 l2 ++ [(a, b)].
Proof.
  revert l2. induction l1 as [|x l1 IH]; intros [|y l2] H; cbn in *; try discriminate; auto.
  f_equal. apply IH. lia.
Qed.

Lemma read_attrs_into_spec dbg e : forall specs bs acc,
  match read_attrs_into dbg e specs bs acc, read_attributes dbg e specs bs with
  | (l, Ok rest), Ok (vs, rest') => rest = rest' /\ l = acc ++ combine specs vs /\ length vs = length specs
  | (l, Err x), Err y => x = y /\ exists k vs, l = acc ++ combine (firstn k specs) vs
  | (_, Panic), Panic => True
  | (_, OutOfFuel), OutOfFuel => True
  | _, _ => False
  end.
Proof.
  induction specs as [|s t IH]; intros bs acc; cbn [read_attrs_into read_attributes].
  - repeat split; auto. rewrite app_nil_r. reflexivity.
  - destruct (parse_attribute dbg e s bs) as [[v r]|x| |]; cbn [bind]; auto.
    + specialize (IH r (acc ++ [(s, v)])).
      destruct (read_attrs_into dbg e t r (acc ++ [(s, v)])) as [l [rest|x| |]];
        destruct (read_attributes dbg e t r) as [[vs rest']|y| |]; cbn [bind]; try contradiction; auto.
      * destruct IH as (-> & -> & Hl). repeat split; auto.
        -- rewrite <- app_assoc. reflexivity.
        -- cbn. lia.
      * destruct IH as (-> & k & vs & ->). split; auto.
        exists (S k), (v :: vs). rewrite <- app_assoc. reflexivity.
    + split; auto. exists O, []. cbn. rewrite app_nil_r. reflexivity.
Qed.

Theorem read_entry_buf_agrees dbg e tbl r b :
  match read_entry_buf dbg e tbl r b with
  | RdOk k b' r' => read_entry dbg e tbl r = Ok (k, b', r')
  | RdErr x _ _ _ => read_entry dbg e tbl r = Err x
  | RdPanic => read_entry dbg e tbl r = Panic
  | RdFuel => read_entry dbg e tbl r = OutOfFuel
  end.
Proof.
  unfold read_entry_buf, read_entry, read_abbreviation, read_attrs.
  destruct (next_offset dbg r) as [off|x| |]; cbn [bind]; auto.
  destruct (read_uleb128 dbg (r_in r)) as [[code rest]|x| |]; cbn [bind]; auto.
  destruct (code =? 0).
  - destruct (chk_s 64 dbg (r_depth r - 1)) as [d|x| |]; cbn [bind]; auto.
  - destruct (tbl_get tbl code) as [a|]; cbn [bind]; auto.
    destruct (if ab_children a then chk_s 64 dbg (r_depth r + 1) else Ok (r_depth r)) as [d|x| |];
      cbn [bind r_in r_end r_depth]; auto.
    pose proof (read_attrs_into_spec dbg e (ab_specs a) rest []) as H.
    destruct (read_attrs_into dbg e (ab_specs a) rest []) as [l [rest'|x| |]];
      destruct (read_attributes dbg e (ab_specs a) rest) as [[vs rest2]|y| |]; cbn [bind]; try contradiction; auto.
    + destruct H as (-> & -> & _). reflexivity.
    + destruct H as (-> & _). reflexivity.
Qed.

Lemma read_entry_buf_indep dbg e tbl r b1 b2 :
  match read_entry_buf dbg e tbl r b1, read_entry_buf dbg e tbl r b2 with
  | RdOk k1 c1 r1, RdOk k2 c2 r2 => k1 = k2 /\ c1 = c2 /\ r1 = r2
  | RdErr x1 _ e1 d1, RdErr x2 _ e2 d2 => x1 = x2 /\ e1 = e2 /\ d1 = d2
  | RdPanic, RdPanic => True
  | RdFuel, RdFuel => True
  | _, _ => False
  end.
Proof.
  unfold read_entry_buf.
  destruct (next_offset dbg r) as [off|x| |]; auto.
  destruct (read_uleb128 dbg (r_in r)) as [[code rest]|x| |]; auto.
  destruct (code =? 0).
  - destruct (chk_s 64 dbg (r_depth r - 1)) as [d|x| |]; auto.
  - destruct (tbl_get tbl code) as [a|]; auto.
    destruct (if ab_children a then chk_s 64 dbg (r_depth r + 1) else Ok (r_depth r)) as [d|x| |]; auto.
    destruct (read_attrs_into dbg e (ab_specs a) rest []) as [l [rest'|x| |]]; auto.
Qed.

(* a read never changes the end offset of the reader *)
Lemma read_entry_buf_end dbg e tbl r b :
  match read_entry_buf dbg e tbl r b with
  | RdOk _ _ r' => r_end r' = r_end r
  | RdErr _ _ en _ => en = r_end r
  | _ => True
  end.
Proof.
  unfold read_entry_buf.
  destruct (next_offset dbg r) as [off|x| |]; auto.
  destruct (read_uleb128 dbg (r_in r)) as [[code rest]|x| |]; auto.
  destruct (code =? 0).
  - destruct (chk_s 64 dbg (r_depth r - 1)) as [d|x| |]; auto.
  - destruct (tbl_get tbl code) as [a|]; auto.
    destruct (if ab_children a then chk_s 64 dbg (r_depth r + 1) else Ok (r_depth r)) as [d|x| |]; auto.
    destruct (read_attrs_into dbg e (ab_specs a) rest []) as [l [rest'|x| |]]; auto.
Qed.

Lemma rstep_indep dbg h tbl o s1 s2 :
  rs_rd s1 = rs_rd s2 ->
  rs_rd (fst (rstep dbg h tbl s1 o)) = rs_rd (fst (rstep dbg h tbl s2 o)) /\
  clean (snd (rstep dbg h tbl s1 o)) = clean (snd (rstep dbg h tbl s2 o)).
Proof.
  intros Hr. destruct s1 as [rd1 b1], s2 as [rd2 b2]. cbn [rs_rd] in Hr. subst rd2.
  destruct o; cbn [rstep rs_rd rs_buf].
  - (* read *)
    destruct rd1 as [r|en d]; [|split; reflexivity].
    pose proof (read_entry_buf_indep dbg (u_enc h) tbl r b1 b2) as H.
    destruct (read_entry_buf dbg (u_enc h) tbl r b1) as [k1 c1 r1|x1 c1 e1 d1| |];
      destruct (read_entry_buf dbg (u_enc h) tbl r b2) as [k2 c2 r2|x2 c2 e2 d2| |]; try contradiction;
      cbn [fst snd rs_rd clean].
    + destruct H as (-> & -> & ->). split; reflexivity.
    + destruct H as (-> & -> & ->). split; reflexivity.
    + split; reflexivity.
    + split; reflexivity.
  - (* skip *)
    destruct rd1 as [r|en d]; [|split; reflexivity].
    destruct (read_abbreviation dbg tbl r) as [[[a|] r1]|x| |]; cbn [fst snd rs_rd]; try (split; reflexivity).
    destruct (skip_attributes dbg (u_enc h) (ab_specs a) (r_in r1)) as [rest|x| |]; cbn [fst snd rs_rd];
      split; reflexivity.
  - (* reopen *)
    destruct (entries_raw dbg h (Some off)) as [r|x| |]; cbn [fst snd rs_rd]; split; reflexivity.
Qed.

Theorem buf_equals_fresh_thm dbg h tbl : forall ops s1 s2,
  rs_rd s1 = rs_rd s2 ->
  map clean (rrun dbg h tbl ops s1) = map clean (rrun_fresh dbg h tbl ops s2).
Proof.
  induction ops as [|o ops IH]; intros s1 s2 Hr; [reflexivity|].
  cbn [rrun rrun_fresh].
  pose proof (rstep_indep dbg h tbl o s1 (fresh_buf s2) Hr) as (H1 & H2).
  destruct (rstep dbg h tbl s1 o) as [s1' o1]. destruct (rstep dbg h tbl (fresh_buf s2) o) as [s2' o2].
  cbn [fst snd map] in *. rewrite H2. f_equal. apply IH. exact H1.
Qed.

Definition is_crash {A} (r : res A) : bool := match r with Panic | OutOfFuel => true | _ => false end.

Lemma next_entry_buf_indep dbg e tbl c1 c2 :
  c_raw c1 = c_raw c2 ->
  fst (next_entry_buf dbg e tbl c1) = fst (next_entry_buf dbg e tbl c2) /\
  c_raw (snd (next_entry_buf dbg e tbl c1)) = c_raw (snd (next_entry_buf dbg e tbl c2)) /\
  (is_crash (fst (next_entry_buf dbg e tbl c1)) = false ->
   current (snd (next_entry_buf dbg e tbl c1)) = current (snd (next_entry_buf dbg e tbl c2))) /\
  (fst (next_entry_buf dbg e tbl c1) = Ok true ->
   snd (next_entry_buf dbg e tbl c1) = snd (next_entry_buf dbg e tbl c2)).
Proof.
  intros Hr. destruct c1 as [r b1], c2 as [r2 b2]. cbn [c_raw] in Hr. subst r2.
  unfold next_entry_buf. cbn [c_raw c_cur].
  destruct (raw_is_empty r).
  - cbn [fst snd c_raw]. split; [reflexivity|]. split; [reflexivity|]. split; [reflexivity|].
    intros X; discriminate X.
  - pose proof (read_entry_buf_indep dbg e tbl r b1 b2) as H.
    destruct (read_entry_buf dbg e tbl r b1) as [k1 d1 r1|x1 d1 e1 z1| |];
      destruct (read_entry_buf dbg e tbl r b2) as [k2 d2 r2|x2 d2 e2 z2| |]; try contradiction;
      cbn [fst snd c_raw].
    + destruct H as (-> & -> & ->). repeat split; auto.
    + destruct H as (-> & -> & ->). split; [reflexivity|]. split; [reflexivity|]. split; [reflexivity|].
      intros X; discriminate X.
    + split; [reflexivity|]. split; [reflexivity|]. split; [intros X; discriminate X|]. intros X; discriminate X.
    + split; [reflexivity|]. split; [reflexivity|]. split; [intros X; discriminate X|]. intros X; discriminate X.
Qed.

Lemma next_dfs_buf_indep dbg e tbl : forall fuel c1 c2,
  c_raw c1 = c_raw c2 ->
  fst (next_dfs_buf fuel dbg e tbl c1) = fst (next_dfs_buf fuel dbg e tbl c2) /\
  c_raw (snd (next_dfs_buf fuel dbg e tbl c1)) = c_raw (snd (next_dfs_buf fuel dbg e tbl c2)) /\
  (is_crash (fst (next_dfs_buf fuel dbg e tbl c1)) = false ->
   current (snd (next_dfs_buf fuel dbg e tbl c1)) = current (snd (next_dfs_buf fuel dbg e tbl c2))).
Proof.
  induction fuel as [|k IH]; intros c1 c2 Hr.
  - cbn. split; [reflexivity|]. split; [exact Hr|]. intros X; discriminate X.
  - cbn [next_dfs_buf].
    destruct (next_entry_buf_indep dbg e tbl c1 c2 Hr) as (H1 & H2 & H3 & H4).
    destruct (next_entry_buf dbg e tbl c1) as [[[|]|x| |] c1'];
      destruct (next_entry_buf dbg e tbl c2) as [[[|]|y| |] c2']; cbn [fst snd is_crash] in *; try discriminate;
      try (inversion H1; subst); try (split; [reflexivity|split; [assumption|assumption]]).
    specialize (H4 eq_refl). subst c2'.
    destruct (negb (is_null (c_cur c1'))); [split; [reflexivity|split; [reflexivity|reflexivity]]|].
    apply IH. reflexivity.
Qed.

(* what an observer of next_entry / next_dfs sees, apart from offset()/depth() of the cached entry, which
   at the end of the input are by design those of the entry the cursor was left on *)
Definition cview (o : cout) : res bool * option die * res N * Z :=
  (co_res o, if is_crash (co_res o) then None else co_cur o, co_noff o, co_ndepth o).
Definition no_sibling (o : cop) : bool := match o with CSibling => false | _ => true end.

Theorem cursor_cache_irrelevant_thm dbg e tbl : forall ops c1 c2,
  c_raw c1 = c_raw c2 -> forallb no_sibling ops = true ->
  map cview (crun dbg e tbl ops c1) = map cview (crun dbg e tbl ops c2).
Proof.
  induction ops as [|o ops IH]; intros c1 c2 Hr Hs; [reflexivity|].
  cbn [forallb] in Hs. apply andb_prop in Hs. destruct Hs as (Ho & Hs).
  cbn [crun]. unfold cstep.
  destruct o; [| |discriminate].
  - destruct (next_entry_buf_indep dbg e tbl c1 c2 Hr) as (H1 & H2 & H3 & _).
    destruct (next_entry_buf dbg e tbl c1) as [r1 c1']. destruct (next_entry_buf dbg e tbl c2) as [r2 c2'].
    cbn [fst snd map cview co_res co_cur co_noff co_ndepth] in *. subst r2.
    rewrite H2. f_equal; [|apply IH; auto].
    unfold cview; cbn [co_res co_cur co_noff co_ndepth].
    destruct (is_crash r1); [reflexivity|]. rewrite H3; reflexivity.
  - assert (Hf : cursor_fuel c1 = cursor_fuel c2) by (unfold cursor_fuel; rewrite Hr; reflexivity).
    rewrite <- Hf.
    destruct (next_dfs_buf_indep dbg e tbl (cursor_fuel c1) c1 c2 Hr) as (H1 & H2 & H3).
    destruct (next_dfs_buf (cursor_fuel c1) dbg e tbl c1) as [r1 c1'].
    destruct (next_dfs_buf (cursor_fuel c1) dbg e tbl c2) as [r2 c2'].
    cbn [fst snd map cview co_res co_cur co_noff co_ndepth] in *. subst r2.
    rewrite H2. f_equal; [|apply IH; auto].
    unfold cview; cbn [co_res co_cur co_noff co_ndepth].
    destruct (is_crash r1); [reflexivity|]. rewrite H3; reflexivity.
Qed.

Definition bt_key (t : btree) : list byte * N := (bt_root t, reader_end (bt_rd t)).

Lemma seek_forward_end dbg r o d b r' : seek_forward dbg r o d = Ok (b, r') -> r_end r' = r_end r.
Proof.
  unfold seek_forward. destruct (next_offset dbg r) as [no|x| |]; cbn [bind]; try discriminate.
  destruct (o <? no); [intros H; inversion H; reflexivity|].
  destruct (skip_n (o - no) (r_in r)); intros H; inversion H; reflexivity.
Qed.

Lemma sibling_jump_end dbg r cur r' : sibling_jump dbg r cur = Ok r' -> r_end r' = r_end r.
Proof.
  unfold sibling_jump. destruct (d_children cur); [|intros H; inversion H; reflexivity].
  destruct (die_sibling cur) as [o|]; [|intros H; inversion H; reflexivity].
  destruct (seek_forward dbg r o (d_depth cur)) as [[b r1]|x| |] eqn:E; cbn [bind]; try discriminate.
  intros H; inversion H; subst. eapply seek_forward_end; eauto.
Qed.

Lemma bt_next_loop_key dbg e tbl depth : forall fuel t r,
  r_end r = reader_end (bt_rd t) ->
  bt_key (snd (bt_next_loop fuel dbg e tbl depth t r)) = bt_key t.
Proof.
  induction fuel as [|k IH]; intros t r Hr; [reflexivity|].
  cbn [bt_next_loop].
  destruct (sibling_jump dbg r (bt_entry t)) as [r1|x| |] eqn:Ej; try reflexivity.
  apply sibling_jump_end in Ej.
  destruct (raw_is_empty r1).
  - cbn [snd]. unfold bt_key. cbn [bt_root bt_rd reader_end]. congruence.
  - pose proof (read_entry_buf_end dbg e tbl r1 (bt_entry t)) as He.
    destruct (read_entry_buf dbg e tbl r1 (bt_entry t)) as [ok b r2|x b en d| |]; try reflexivity.
    + destruct (d_depth b =? depth)%Z.
      * cbn [snd]. unfold bt_key. cbn [bt_root bt_rd reader_end]. congruence.
      * rewrite IH; [|cbn [bt_rd reader_end]; reflexivity].
        unfold bt_key. cbn [bt_root bt_rd reader_end]. congruence.
    + cbn [snd]. unfold bt_key, bt_fail. cbn [bt_root bt_rd reader_end r_end]. congruence.
Qed.

Lemma bt_next_key fuel dbg e tbl depth t :
  bt_key (snd (bt_next fuel dbg e tbl depth t)) = bt_key t.
Proof.
  unfold bt_next. destruct (bt_rd t) as [r|en d] eqn:Er; [|reflexivity].
  destruct (d_depth (bt_entry t) <? depth)%Z.
  - destruct (dbg && negb (d_depth (bt_entry t) + 1 =? depth)%Z); [reflexivity|].
    destruct (negb (d_children (bt_entry t))); [reflexivity|].
    destruct (raw_is_empty r).
    + cbn [snd]. unfold bt_key. cbn [bt_root bt_rd reader_end]. rewrite Er. reflexivity.
    + pose proof (read_entry_buf_end dbg e tbl r (bt_entry t)) as He.
      destruct (read_entry_buf dbg e tbl r (bt_entry t)) as [ok b r2|x b en d| |]; try reflexivity;
        cbn [snd]; unfold bt_key, bt_fail; cbn [bt_root bt_rd reader_end r_end]; rewrite Er; cbn [reader_end]; congruence.
  - apply bt_next_loop_key. rewrite Er. reflexivity.
Qed.

Lemma walk_kids_key dbg e tbl k : forall fuel budget depth t,
  bt_key (snd (walk_kids fuel dbg e tbl k budget depth t)) = bt_key t.
Proof.
  induction fuel as [|f IH]; intros budget depth t; [reflexivity|].
  cbn [walk_kids].
  pose proof (bt_next_key (bt_fuel t) dbg e tbl depth t) as Hk.
  destruct (bt_next (bt_fuel t) dbg e tbl depth t) as [[[|]|x| |] t1]; cbn [snd] in *; try exact Hk.
  destruct budget as [|[|b]]; try exact Hk.
  destruct (descend k (bt_entry t1)).
  - pose proof (IH (S b) (depth + 1)%Z t1) as H1.
    destruct (walk_kids f dbg e tbl k (S b) (depth + 1) t1) as [[[sub b1] go] t2]. cbn [snd] in H1.
    destruct go.
    + pose proof (IH b1 depth t2) as H2.
      destruct (walk_kids f dbg e tbl k b1 depth t2) as [[[rest b2] go2] t3]. cbn [snd] in *. congruence.
    + cbn [snd]. congruence.
  - pose proof (IH (S b) depth t1) as H2.
    destruct (walk_kids f dbg e tbl k (S b) depth t1) as [[[rest b2] go2] t3]. cbn [snd] in *. congruence.
Qed.

Lemma root_buf_indep dbg e tbl t1 t2 :
  bt_key t1 = bt_key t2 ->
  fst (root_buf dbg e tbl t1) = fst (root_buf dbg e tbl t2) /\
  bt_key (snd (root_buf dbg e tbl t1)) = bt_key t1 /\
  (fst (root_buf dbg e tbl t1) = Ok tt -> snd (root_buf dbg e tbl t1) = snd (root_buf dbg e tbl t2)).
Proof.
  unfold bt_key. intros Hk. inversion Hk as [[H1 H2]]. unfold root_buf. rewrite <- H1, <- H2.
  set (r0 := mkRaw (bt_root t1) (reader_end (bt_rd t1)) 0).
  pose proof (read_entry_buf_indep dbg e tbl r0 (bt_entry t1) (bt_entry t2)) as Hi.
  pose proof (read_entry_buf_end dbg e tbl r0 (bt_entry t1)) as He.
  destruct (read_entry_buf dbg e tbl r0 (bt_entry t1)) as [k1 c1 r1|x1 c1 e1 d1| |];
    destruct (read_entry_buf dbg e tbl r0 (bt_entry t2)) as [k2 c2 r2|x2 c2 e2 d2| |]; try contradiction.
  - destruct Hi as (-> & -> & ->). destruct k2; cbn [fst snd bt_root bt_rd reader_end];
      (split; [reflexivity|]); (split; [subst r0; cbn [r_end] in He; congruence|]);
      [intros _; reflexivity|intros X; discriminate X].
  - destruct Hi as (-> & -> & ->). cbn [fst snd bt_root bt_rd reader_end].
    split; [reflexivity|]. split; [subst r0; cbn [r_end] in He; congruence|]. intros X; discriminate X.
  - cbn [fst snd]. split; [reflexivity|]. split; [reflexivity|]. intros X; discriminate X.
  - cbn [fst snd]. split; [reflexivity|]. split; [reflexivity|]. intros X; discriminate X.
Qed.

Lemma walk_from_root_indep dbg e tbl k budget t1 t2 :
  bt_key t1 = bt_key t2 ->
  fst (walk_from_root dbg e tbl k budget t1) = fst (walk_from_root dbg e tbl k budget t2) /\
  bt_key (snd (walk_from_root dbg e tbl k budget t1)) = bt_key t1.
Proof.
  intros Hk. unfold walk_from_root.
  destruct (root_buf_indep dbg e tbl t1 t2 Hk) as (H1 & H2 & H3).
  assert (Hroot : bt_root t1 = bt_root t2) by (unfold bt_key in Hk; congruence).
  destruct (root_buf dbg e tbl t1) as [[[]|x| |] u1]; destruct (root_buf dbg e tbl t2) as [[[]|y| |] u2];
    cbn [fst snd] in *; try discriminate; try (inversion H1; subst); try (split; [reflexivity|exact H2]).
  specialize (H3 eq_refl). subst u2. rewrite <- Hroot.
  destruct budget as [|[|b]]; try (split; [reflexivity|exact H2]).
  destruct (descend k (bt_entry u1)); [|split; [reflexivity|exact H2]].
  pose proof (walk_kids_key dbg e tbl k (S (S (length (bt_root t1)))) (S b) 1%Z u1) as Hw.
  destruct (walk_kids (S (S (length (bt_root t1)))) dbg e tbl k (S b) 1 u1) as [[[evs b1] go] u3].
  cbn [fst snd] in *. split; [reflexivity|congruence].
Qed.

Section TwoCopies.
Variables (S Op Out : Type) (step : S -> Op -> S * Out).

Fixpoint run1 (ops : list Op) (s : S) : list Out :=
  match ops with
  | [] => []
  | o :: t => let '(s', out) := step s o in out :: run1 t s'
  end.

(* two copies of a state; each operation names the copy it is applied to *)
Fixpoint run2 (ops : list (bool * Op)) (a b : S) : list (bool * Out) :=
  match ops with
  | [] => []
  | (false, o) :: t => let '(a', out) := step a o in (false, out) :: run2 t a' b
  | (true, o) :: t => let '(b', out) := step b o in (true, out) :: run2 t a b'
  end.

Definition side {A} (w : bool) (l : list (bool * A)) : list A :=
  map snd (filter (fun p => Bool.eqb (fst p) w) l).

Theorem two_copies_independent : forall ops a b,
  side false (run2 ops a b) = run1 (side false ops) a /\
  side true (run2 ops a b) = run1 (side true ops) b.
Proof.
  induction ops as [|[[|] o] ops IH]; intros a b; [split; reflexivity| |].
  - cbn [run2]. destruct (step b o) as [b' out] eqn:E. destruct (IH a b') as (I1 & I2).
    unfold side in *. cbn [filter fst Bool.eqb map snd run1]. rewrite E. split; [exact I1|f_equal; exact I2].
  - cbn [run2]. destruct (step a o) as [a' out] eqn:E. destruct (IH a' b) as (I1 & I2).
    unfold side in *. cbn [filter fst Bool.eqb map snd run1]. rewrite E. split; [f_equal; exact I1|exact I2].
Qed.
End TwoCopies.
Arguments run1 {S Op Out} step ops s.
Arguments run2 {S Op Out} step ops a b.

(* the drivers of Model/EntryBuf.v are run1 of their step functions *)
Lemma crun_run1 dbg e tbl : forall l c, crun dbg e tbl l c = run1 (cstep dbg e tbl) l c.
Proof.
  induction l as [|o l IH]; intros c; [reflexivity|]. cbn [run1 crun].
  destruct (cstep dbg e tbl c o) as [c' out]. rewrite IH. reflexivity.
Qed.

Lemma rrun_run1 dbg h tbl : forall l s, rrun dbg h tbl l s = run1 (rstep dbg h tbl) l s.
Proof.
  induction l as [|o l IH]; intros s; [reflexivity|]. cbn [run1 rrun].
  destruct (rstep dbg h tbl s o) as [s' out]. rewrite IH. reflexivity.
Qed.
