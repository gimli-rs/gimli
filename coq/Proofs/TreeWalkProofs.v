(* Proofs/TreeWalkProofs.v — PARTIAL traversals of a well-formed unit with the tree iterator
   (EntriesTree::next through EntriesTreeIter::next): whatever subtrees the caller skipped or left
   half-visited, the next call on an enclosing list finds the following sibling.

   The invariant (`Within D ts m`): the tree's current entry x is some event of the unit at depth >= D,
   the reader stands right behind x, and the events `mid` that remain before the next depth-D event are
   a `span` of Proofs/EventWalk.v: all deeper than D, leading back to depth D, every DW_AT_sibling among
   x and `mid` landing inside `mid` at an event boundary where the depth it sets is the true depth.
   EventWalk.tree_next_skip shows that EntriesTree::next(D) then returns the first event after `mid`, on
   the fast and on the slow path; `walk_list2` / `walk_tree_claim2` carry the invariant through the
   recursion of Model/TreeWalk.v for every selection strategy. *)
From Coq Require Import List NArith ZArith Bool Lia ZifyBool ZifyN ZifyNat.
From Coq.Strings Require Import Byte.
Require Import GV.Base.Res GV.Base.Byt GV.Base.Ints GV.Model.Leb GV.Model.Prim
               GV.Spec.LebSpec GV.Spec.FormSpec GV.Model.Attr GV.Spec.Forest GV.Spec.ForestSel GV.Model.AbbrevRd
               GV.Model.DieRd GV.Model.TreeWalk GV.Proofs.AttrProofs GV.Proofs.AbbrevRdProofs GV.Proofs.DieRdProofs
               GV.Proofs.EventWalk GV.Proofs.SibOvProofs GV.Proofs.SibOvTreeProofs GV.Proofs.SibOvSibProofs
               GV.Proofs.NavProofs.
Import ListNotations.
Local Open Scope N_scope.

(* a list of children at depth D with its terminator, seen from the level of the parent *)
Lemma kids_below e tbl codes E D off ks oN :
  Forall (placed_ok e tbl codes) (on_list (placed codes) (tree_size codes) off ks) ->
  jumps_ok E (evs_list codes (be e) D off ks ++ [null_ev oN D]) /\
  Forall (fun z => (D - 1 < d_depth (x_die z))%Z) (evs_list codes (be e) D off ks ++ [null_ev oN D]) /\
  end_depth D (evs_list codes (be e) D off ks ++ [null_ev oN D]) = (D - 1)%Z.
Proof.
  intros Hp. rewrite <- evs_list_ov_none.
  destruct (evs_list_ov_facts codes (fun _ => None) (be e) D ks off) as (_ & _ & _ & Ee & Dp).
  split; [|split].
  - apply jumps_ok_app; [|split; [left; apply null_ev_ignored|exact I]].
    exact (evs_list_ov_jumps codes _ e tbl E D ks off (pk_none e tbl codes E _ Hp)).
  - apply Forall_app. split; [|constructor; [cbn; lia|constructor]].
    eapply Forall_impl; [|exact Dp]. intros z Hz. cbv beta in *. lia.
  - rewrite end_depth_app, Ee. reflexivity.
Qed.

Lemma on_first_nil {A} (f : N -> tree -> list A) size n off : on_first f size n off [] = [].
Proof. reflexivity. Qed.
Lemma on_first_0 {A} (f : N -> tree -> list A) size off l : on_first f size 0 off l = [].
Proof. destruct l; reflexivity. Qed.
Lemma on_first_S {A} (f : N -> tree -> list A) size n off t r :
  on_first f size (S n) off (t :: r) = f off t ++ on_first f size n (off + size t) r.
Proof. reflexivity. Qed.

Lemma sel_tree_unfold codes sel D off t :
  sel_tree codes sel D off t =
  root_die codes off D t ::
  match sel (root_die codes off D t) with
  | None => []
  | Some n => on_first (sel_tree codes sel (D + 1)) (tree_size codes) n (kids_off codes off t) (t_kids t)
  end.
Proof. destruct t. reflexivity. Qed.

(* ------------------------------------------------------------------ *)
(** * The tree iterator from any position inside a subtree *)

Section Walk.
  Variables (dbg : bool) (e : enc) (tbl : abbrevs) (codes : coding) (E : N) (rest : list byte)
            (sel : die -> option nat).

  (* the tree's entry is the event x and the reader stands right behind it, in front of l *)
  Definition pos0 (ts : tree_st) (x : xev) (l : list xev) : Prop :=
    tr_entry ts = x_die x /\ behind dbg e tbl E rest (tr_raw ts) x l.

  Lemma pos0_step root r z l :
    at_chain dbg e tbl E rest r (z :: l) ->
    pos0 (mkTree root (mkRaw (xbytes l ++ rest) E (x_post z)) (x_die z)) z l.
  Proof. intros Hat. split; [reflexivity|]. exact (behind_step dbg e tbl E rest r z l Hat). Qed.

  (* positions from which EntriesTree::next(D) is called by the recursion *)
  Definition Within (D : Z) (ts : tree_st) (m : list xev) : Prop :=
    exists x mid, pos0 ts x (mid ++ m) /\ span E D x mid /\ (D <= d_depth (x_die x))%Z.

  Definition AtHead (D : Z) (ts : tree_st) (m : list xev) : Prop :=
    exists x, pos0 ts x m /\ (d_depth (x_die x) + 1 = D)%Z /\ d_children (x_die x) = true /\ x_post x = D.

  Lemma next_at D ts y l2 : Within D ts (y :: l2) \/ AtHead D ts (y :: l2) ->
    tree_next (tree_fuel ts) dbg e tbl D ts =
      Ok (TOk (negb (is_null (x_die y))) (mkTree (tr_root ts) (mkRaw (xbytes l2 ++ rest) E (x_post y)) (x_die y))) /\
    pos0 (mkTree (tr_root ts) (mkRaw (xbytes l2 ++ rest) E (x_post y)) (x_die y)) y l2.
  Proof.
    intros [(x & mid & [He Hb] & Hsp & Hge)|(x & [He Hb] & Hdep & Hc & Hpost)].
    - split; [exact (tree_next_skip dbg e tbl E rest D x mid y l2 ts He Hb Hsp Hge)|].
      destruct Hb as (_ & Hat & _). apply at_chain_drop in Hat. exact (pos0_step _ _ y l2 Hat).
    - destruct Hb as (Hd & Hat & _). split; [|exact (pos0_step _ _ y l2 Hat)].
      apply (tree_next_read dbg e tbl E rest D ts y l2); [exact Hat|rewrite Hd; exact Hpost| |unfold tree_fuel; lia].
      left. rewrite He. repeat split; [lia|exact Hdep|exact Hc].
  Qed.

  (* on the root entry of a subtree, nothing below it read yet *)
  Lemma within_head D off k m ts :
    pos0 ts (head_ev codes (be e) D off k) (tail_evs codes (be e) D off k ++ m) ->
    Forall (placed_ok e tbl codes) (placed codes off k) -> Within D ts m.
  Proof.
    intros Hpos Hp. exists (head_ev codes (be e) D off k), (tail_evs codes (be e) D off k).
    split; [exact Hpos|]. split; [exact (tail_span e tbl codes E D off k Hp)|cbn; lia].
  Qed.

  (* a list of children at depth D: either somewhere inside an earlier child (or on the list's
     terminator-to-be), or still on the parent's entry *)
  Definition Pre (D : Z) (ts : tree_st) (L : list xev) (oN : N) (m : list xev) : Prop :=
    Within D ts (L ++ null_ev oN D :: m) \/
    exists x, pos0 ts x (L ++ null_ev oN D :: m) /\ (d_depth (x_die x) + 1 = D)%Z /\
              d_children (x_die x) = true /\ x_post x = D /\ jump_at E x (L ++ [null_ev oN D]).

  Lemma pre_next D ts L oN m : Pre D ts L oN m ->
    Within D ts (L ++ null_ev oN D :: m) \/ AtHead D ts (L ++ null_ev oN D :: m).
  Proof.
    intros [H|(x & H1 & H2 & H3 & H4 & _)]; [left; exact H|right]. exists x. split; [exact H1|]. split; [exact H2|]. split; [exact H3|exact H4].
  Qed.

  (* leaving the list: seen from the parent's level the tree is inside the parent's subtree *)
  Lemma pre_lift D ts ks off' oN m :
    Pre D ts (evs_list codes (be e) D off' ks) oN m ->
    Forall (placed_ok e tbl codes) (on_list (placed codes) (tree_size codes) off' ks) ->
    Within (D - 1) ts m.
  Proof.
    intros HP Hp. destruct (kids_below e tbl codes E D off' ks oN Hp) as (HJ & HL & HE).
    set (L := evs_list codes (be e) D off' ks) in *.
    assert (EL : (L ++ [null_ev oN D]) ++ m = L ++ null_ev oN D :: m) by (rewrite <- app_assoc; reflexivity).
    destruct HP as [(x & mid & Hpos & Hsp & Hge)|(x & Hpos & Hdep & Hc & Hpost & Hj)].
    - exists x, (mid ++ L ++ [null_ev oN D]). rewrite <- app_assoc, EL. split; [exact Hpos|].
      split; [exact (span_app E D (D - 1) x mid _ Hsp HJ HL HE ltac:(lia))|lia].
    - exists x, (L ++ [null_ev oN D]). rewrite EL. split; [exact Hpos|].
      split; [|lia]. split; [exact Hj|]. split; [exact HJ|]. split; [exact HL|rewrite Hpost; exact HE].
  Qed.

  Definition walk_claim2 (k : tree) : Prop :=
    forall D off m ts n fuel,
      pos0 ts (head_ev codes (be e) D off k) (tail_evs codes (be e) D off k ++ m) ->
      Forall (placed_ok e tbl codes) (placed codes off k) ->
      (length (forest_nodes (t_kids k)) < fuel)%nat ->
      exists ts', walk_plan fuel dbg e tbl sel (D + 1) n ts =
                    Ok (on_first (sel_tree codes sel (D + 1)) (tree_size codes) n (kids_off codes off k) (t_kids k),
                        None, ts') /\
                  tr_root ts' = tr_root ts /\ Within D ts' m.

  Lemma walk_list2 : forall ks D off' oN m ts n fuel,
    Forall walk_claim2 ks ->
    Pre D ts (evs_list codes (be e) D off' ks) oN m ->
    Forall (placed_ok e tbl codes) (on_list (placed codes) (tree_size codes) off' ks) ->
    (length (forest_nodes ks) < fuel)%nat ->
    exists ts', walk_plan fuel dbg e tbl sel D n ts =
                  Ok (on_first (sel_tree codes sel D) (tree_size codes) n off' ks, None, ts') /\
                tr_root ts' = tr_root ts /\ Within (D - 1) ts' m.
  Proof.
    induction ks as [|k ks IH]; intros D off' oN m ts n fuel Hcl HP Hp Hf;
      (destruct fuel as [|fuel]; [lia|]); cbn [walk_plan];
      (destruct n as [|b];
       [exists ts; rewrite on_first_0; split; [reflexivity|]; split; [reflexivity|];
        apply (pre_lift D ts _ off' oN m HP Hp)|]).
    - (* the terminator of the list *)
      cbn [evs_list on_list app] in HP.
      destruct (next_at D ts (null_ev oN D) m (pre_next D ts [] oN m HP)) as [Hn Hpos1]. rewrite Hn.
      cbn [bind null_ev x_die null_at is_null d_tag N.eqb negb].
      eexists. split; [reflexivity|]. split; [reflexivity|].
      exists (null_ev oN D), []. split; [exact Hpos1|]. split; [|cbn; lia].
      split; [left; apply null_ev_ignored|]. split; [exact I|]. split; [constructor|reflexivity].
    - (* the next child k *)
      apply Forall_cons_iff in Hcl. destruct Hcl as [Hk Hks].
      pose proof Hp as Hp0.
      rewrite on_list_cons in Hp. apply Forall_app in Hp. destruct Hp as [Hpk Hpks].
      destruct (placed_root codes _ _ k Hpk) as (_ & Hnk & _).
      assert (EL : evs_list codes (be e) D off' (k :: ks) ++ null_ev oN D :: m =
                   head_ev codes (be e) D off' k ::
                   tail_evs codes (be e) D off' k ++
                   (evs_list codes (be e) D (off' + tree_size codes k) ks ++ null_ev oN D :: m)).
      { unfold evs_list. rewrite on_list_cons, evs_tail. rewrite <- !app_assoc. reflexivity. }
      pose proof (pre_next D ts _ oN m HP) as HN. rewrite EL in HN.
      destruct (next_at D ts _ _ HN) as [Hn Hpos1]. rewrite Hn.
      cbn [head_ev x_die x_post]. rewrite (root_die_not_null codes e off' D k Hnk). cbn [negb bind tr_entry].
      set (M := evs_list codes (be e) D (off' + tree_size codes k) ks ++ null_ev oN D :: m) in *.
      set (t1 := mkTree (tr_root ts) (mkRaw (xbytes (tail_evs codes (be e) D off' k ++ M) ++ rest) E (post_depth D k))
                        (root_die codes off' D k)) in *.
      rewrite forest_nodes_cons_length in Hf.
      assert (Hsub : exists t2,
                (match sel (root_die codes off' D k) with
                 | Some n0 => walk_plan fuel dbg e tbl sel (D + 1) n0 t1
                 | None => Ok ([], None, t1)
                 end) =
                Ok (match sel (root_die codes off' D k) with
                    | Some n0 => on_first (sel_tree codes sel (D + 1)) (tree_size codes) n0 (kids_off codes off' k) (t_kids k)
                    | None => []
                    end, None, t2) /\ tr_root t2 = tr_root ts /\ Within D t2 M).
      { destruct (sel (root_die codes off' D k)) as [n0|].
        - destruct (Hk D off' M t1 n0 fuel Hpos1 Hpk ltac:(lia)) as (t2 & E2 & R2 & W2).
          exists t2. split; [exact E2|]. split; [exact R2|exact W2].
        - exists t1. split; [reflexivity|]. split; [reflexivity|].
          exact (within_head D off' k M t1 Hpos1 Hpk). }
      destruct Hsub as (t2 & E2 & R2 & W2). rewrite E2. cbn [bind].
      destruct (IH D (off' + tree_size codes k) oN m t2 b fuel Hks (or_introl W2) Hpks ltac:(lia)) as (t3 & E3 & R3 & W3).
      rewrite E3. cbn [bind]. exists t3. split; [|split; [rewrite R3; exact R2|exact W3]].
      rewrite on_first_S, sel_tree_unfold. reflexivity.
  Qed.

  Lemma walk_tree_claim2 : forall k, walk_claim2 k.
  Proof.
    induction k as [tag flag items kids IH] using tree_ind'.
    set (k := Node tag flag items kids) in *.
    intros D off m ts n fuel Hpos Hp Hf.
    pose proof Hp as Hp0. rewrite placed_unfold in Hp. apply Forall_cons_iff in Hp. destruct Hp as [_ Hpk].
    change (t_kids k) with kids in *.
    destruct (has_children k) eqn:Hc.
    - destruct (tail_span e tbl codes E D off k Hp0) as [Hj _].
      unfold tail_evs in Hpos, Hj. rewrite Hc in Hpos, Hj. change (t_kids k) with kids in Hpos, Hj.
      rewrite <- app_assoc in Hpos. cbn [app] in Hpos.
      destruct (walk_list2 kids (D + 1)%Z (kids_off codes off k) (off + tree_size codes k - 1) m ts n fuel IH)
        as (ts' & E1 & R1 & W1); [|exact Hpk|exact Hf|].
      + right. exists (head_ev codes (be e) D off k). split; [exact Hpos|].
        cbn [head_ev x_die x_post root_die d_depth d_children]. unfold post_depth. rewrite Hc.
        split; [reflexivity|]. split; [reflexivity|]. split; [reflexivity|exact Hj].
      + exists ts'. split; [exact E1|]. split; [exact R1|]. replace (D + 1 - 1)%Z with D in W1 by lia. exact W1.
    - apply no_children_no_kids in Hc as Hk0. change (t_kids k) with kids in Hk0. subst kids.
      exists ts. split; [|split; [reflexivity|exact (within_head D off k m ts Hpos Hp0)]].
      destruct fuel as [|fuel]; [lia|]. cbn [walk_plan]. rewrite on_first_nil.
      destruct n as [|b]; [reflexivity|].
      destruct Hpos as (He & _). unfold tree_next. rewrite He. cbn [head_ev x_die root_die d_depth d_children].
      replace (D <? D + 1)%Z with true by lia. replace (D + 1 =? D + 1)%Z with true by lia.
      rewrite andb_false_r, Hc. cbn [negb bind]. reflexivity.
  Qed.
End Walk.

(* ------------------------------------------------------------------ *)
(** * Theorem: every partial traversal of a unit's tree reports the selected sub-forest *)

Section UnitWalk.
  Variables (dbg bigend types : bool) (uoff : N) (h : uheader) (codes : coding) (f : list tree) (pad : nat)
            (tbl : abbrevs).
  Let e := unit_enc bigend h.
  Let hl := header_len h.
  Let body := enc_forest codes bigend hl f pad.
  Let hdr := parsed_header bigend types uoff h body.
  Hypothesis He : addr_size_ok e.
  Hypothesis Hlen : hl + nlen body < two63.
  Hypothesis Hcov : all_covered tbl codes f.
  Hypothesis Hok : forest_ok codes e f.
  Hypothesis Hfit : sibs_fit codes hl f.

  Lemma tree_any_walk sel o t :
    In (o, t) (on_list (placed codes) (tree_size codes) hl f) ->
    exists ts, entries_tree dbg hdr (Some o) = Ok ts /\
               walk_tree_plan dbg e tbl sel ts = Ok (sel_tree codes sel 0 o t, None).
  Proof.
    intros Hin.
    destruct (at_entry dbg bigend types uoff h codes f pad tbl He Hlen Hcov Hok Hfit o t Hin)
      as (l1 & l2 & dd & _ & Hraw & Hat & Hpt & Hsz).
    fold e hl body hdr in Hraw, Hat. set (E := hl + nlen body) in *.
    destruct (placed_root codes _ _ t Hpt) as (_ & Hn & _).
    eexists. split; [apply entries_tree_raw; exact Hraw|].
    cbn [r_in]. unfold walk_tree_plan, tree_root. cbn [tr_root tr_raw r_end].
    change bigend with (be e) in Hat |- *.
    destruct (at_chain_step _ _ _ _ _ _ _ _ Hat) as (Hr & _ & _).
    pose proof (pos0_step dbg e tbl E [] (xbytes (head_ev codes (be e) dd o t :: tail_evs codes (be e) dd o t ++ l2)) _ _ _ Hat)
      as Hpos.
    rewrite Hr. clear Hr.
    cbn [head_ev x_die x_post bind] in Hpos |- *. rewrite (root_die_not_null codes e o 0 t Hn). cbn [negb tr_entry].
    rewrite sel_tree_unfold.
    destruct (sel (root_die codes o 0 t)) as [n|]; [|reflexivity].
    match type of Hpos with pos0 _ _ _ _ _ ?t1 _ _ => set (ts1 := t1) in * end.
    destruct (walk_tree_claim2 dbg e tbl codes E [] sel t 0%Z o (map (shift dd) l2) ts1 n
                (S (S (length (xbytes (head_ev codes (be e) dd o t :: tail_evs codes (be e) dd o t ++ l2))))) Hpos Hpt)
      as (ts' & E1 & _ & _).
    - pose proof (kids_lt_size codes t) as Hs. change (be e) with bigend. unfold nlen in Hsz. lia.
    - change (0 + 1)%Z with 1%Z in E1. rewrite E1. reflexivity.
  Qed.
End UnitWalk.
