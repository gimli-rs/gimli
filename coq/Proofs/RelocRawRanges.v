(* The pair lists of .debug_ranges / .debug_loc (C18): every read of `p_raw_ranges` is an address read at a multiple of
   the address size, so explicit-addend relocations of that width at such offsets are acceptable whatever the bytes. *)
From Coq Require Import List NArith ZArith Bool Lia ZifyBool ZifyN ZifyNat.
From Coq.Strings Require Import Byte.
Require Import GV.Base.Res GV.Base.Byt GV.Base.Ints GV.Model.Prim GV.Model.Reloc GV.Proofs.RelocProofs.
Import ListNotations.
Local Open Scope N_scope.

Lemma read_address_valid asz be : valid_asz asz -> forall w, read_address asz be w = read_un (N.to_nat asz) be w.
Proof. intros [->|[->|[->| ->]]]; reflexivity. Qed.

Lemma rr_rel_addr_mkst be dbg base sec o l asz hook :
  valid_asz asz -> (o + l <= length sec)%nat ->
  rr_rel dbg asz (read_address asz be) hook (mkRrd (mkRd base sec) (mkst base sec o l)) =
  if (N.to_nat asz <=? l)%nat then
    ([EvRel (N.of_nat o) asz (dec_un be (slice sec o (N.to_nat asz)))],
     let* v' := hook (N.of_nat o) (dec_un be (slice sec o (N.to_nat asz))) in
     Ok (v', mkRrd (mkRd base sec) (mkst base sec (o + N.to_nat asz) (l - N.to_nat asz))))
  else ([], Err EUnexpectedEof).
Proof.
  intros Hv Hb. rewrite rr_rel_mkst, (rd_lift_ext _ _ _ (read_address_valid asz be Hv)), rd_lift_read_un by auto.
  destruct (_ <=? _)%nat; reflexivity.
Qed.

(* in a .debug_ranges/.debug_loc pair list every read is an address read at a multiple of the address size *)
Definition aligned_ev (asz : N) (e : ev) : Prop :=
  match e with EvRel pos w _ => w = asz /\ pos mod asz = 0 | EvPlain _ _ => False end.

Lemma raw_ranges_trace be dbg (R : list rrel) sec base asz :
  valid_asz asz -> forall fuel acc o l,
  (o + l <= length sec)%nat -> N.of_nat o mod asz = 0 ->
  Forall (aligned_ev asz)
    (fst (run_reloc_rd be dbg (map_relocator R) (p_raw_ranges fuel asz acc)
            (mkRrd (mkRd base sec) (mkst base sec o l)))).
Proof.
  intros Hv. assert (Hz : asz <> 0) by (destruct Hv as [->|[->|[->| ->]]]; discriminate).
  assert (Hstep : forall o, N.of_nat o mod asz = 0 -> N.of_nat (o + N.to_nat asz) mod asz = 0).
  { intros o Ho. rewrite Nat2N.inj_add, N2Nat.id, <- N.add_mod_idemp_l, Ho by auto. now apply N.mod_same. }
  induction fuel as [|fuel IH]; intros acc o l Hb Ho; cbn [p_raw_ranges run_reloc_rd].
  - cbn. constructor.
  - cbn [reader]. rewrite (rd_len_mkst base sec o l Hb).
    destruct (N.of_nat l =? 0); [cbn; constructor|].
    cbn [run_reloc_rd]. rewrite (rr_rel_addr_mkst be dbg base sec o l asz _ Hv Hb).
    destruct (Nat.leb_spec (N.to_nat asz) l) as [Hk|Hk]; [|cbn; constructor].
    unfold tbind at 1. cbn [map_relocator rl_addr bind fst snd].
    apply Forall_app. split.
    { constructor; [|constructor]. cbn. auto. }
    cbn [run_reloc_rd].
    rewrite (rr_rel_addr_mkst be dbg base sec _ _ asz _ Hv) by lia.
    destruct (Nat.leb_spec (N.to_nat asz) (l - N.to_nat asz)) as [Hk2|Hk2]; [|cbn; constructor].
    unfold tbind at 1. cbn [map_relocator rl_addr bind fst snd].
    apply Forall_app. split.
    { constructor; [|constructor]. cbn. auto. }
    set (b := relocate R (N.of_nat o) _). set (e := relocate R (N.of_nat (o + N.to_nat asz)) _).
    destruct ((b =? 0) && (e =? 0)); [cbn; constructor|].
    destruct (b =? mask_of asz); apply IH; auto; lia.
Qed.

Lemma multiples_apart a x y : a <> 0 -> x mod a = 0 -> y mod a = 0 -> x <> y -> x + a <= y \/ y + a <= x.
Proof.
  intros Ha Hx Hy Hn. apply N.mod_divide in Hx as [p ->], Hy as [q ->]; auto.
  destruct (N.lt_trichotomy p q) as [H|[->|H]]; [left|congruence|right].
  - replace (p * a + a) with ((p + 1) * a) by lia. apply N.mul_le_mono_r. lia.
  - replace (q * a + a) with ((q + 1) * a) by lia. apply N.mul_le_mono_r. lia.
Qed.

(* explicit-addend relocations of the address width at multiples of it accept every aligned trace *)
Lemma aligned_trace_ok (R : list rrel) asz t :
  valid_asz asz ->
  (forall r, In r R -> rr_w r = asz /\ rr_pos r mod asz = 0 /\ rr_impl r = false /\ rr_add r < 2 ^ (8 * asz)) ->
  Forall (aligned_ev asz) t -> trace_ok R t.
Proof.
  intros Hv HR Ht. assert (Hz : asz <> 0) by (destruct Hv as [->|[->|[->| ->]]]; discriminate).
  unfold trace_ok. eapply Forall_impl; [|exact Ht].
  intros [pos n|pos w v]; cbn [aligned_ev ev_ok]; [contradiction|].
  intros [-> Hp]. split; intros r Hr Hpos; destruct (HR r Hr) as (Hw & Hm & Hi & Ha).
  - split; auto. unfold rrel_value. now rewrite Hi.
  - unfold site_disjoint. rewrite Hw. now apply multiples_apart.
Qed.
