(* Proofs/ConvertExprTyped.v — C12, expressions: the operations Operation::parse returns are values of the Rust
   field types, hence what Expression::from builds from them is a well-typed, decodable write::Expression
   (the hypotheses `wf_op` / `decodable` of the C15 theorems); the stated fuels suffice. *)
From Coq Require Import List NArith ZArith Bool Lia ZifyBool ZifyN ZifyNat Sorted.
From Coq.Strings Require Import Byte.
Require Import GV.Base.Res GV.Base.Byt GV.Base.Ints GV.Spec.LebSpec GV.Model.Leb GV.Model.Prim.
Require Import GV.Spec.OpEncSpec GV.Model.OpWr GV.Model.OpDec GV.Model.ConvertExpr.
Require Import GV.Proofs.LebProofs GV.Proofs.PrimProofs GV.Proofs.OpDecProofs GV.Proofs.OpWrProofs GV.Proofs.OpWrDec
               GV.Proofs.ConvertExprProofs.
Require GV.Spec.StackSpec GV.Proofs.OpParseWf.
Import ListNotations.
Local Open Scope N_scope.
Local Arguments N.add : simpl never.
Local Arguments N.sub : simpl never.
Local Arguments N.mul : simpl never.
Local Arguments N.div : simpl never.
Local Arguments N.pow : simpl never.

Ltac pbinds H :=
  repeat match type of H with
         | bind _ _ = Ok _ => let v := fresh "v" in let Hv := fresh "Hv" in
                              apply bind_ok in H; destruct H as [v [Hv H]]; try (destruct v as [? ?])
         end.

(* ------------------------------------------------------------------ the fields of a parsed operation *)

Definition rd_typed (e : OpDec.enc) (o : operation) : Prop :=
  match o with
  | ODeref bt size _ => size < 256 \/ (bt = 0 /\ size = e_asz e)
  | OPick i => i < 256
  | OPlusConstant v | OUnsignedConstant v => v < 2 ^ 64
  | OSignedConstant v | OFrameOffset v => in_i64 v = true
  | ORegister r => r < 65536
  | ORegisterOffset r off _ => r < 65536 /\ in_i64 off = true
  | OPiece s None => s < 2 ^ 64
  | OPiece s (Some off) => s < 2 ^ 64 /\ off < 2 ^ 64
  | OImplicitPointer _ off => in_i64 off = true
  | OWasmLocal i | OWasmGlobal i | OWasmStack i => i < 2 ^ 32
  | _ => True
  end.

(* the field ranges of a parsed operation, from the walk of C07's OpParseWf *)
Lemma parse_typed dbg e bs o r : parse_op dbg e bs = Ok (o, r) -> rd_typed e o.
Proof.
  intros H. apply OpParseWf.parse_wf_parsed in H.
  destruct o; try exact I; try (destruct bit_offset);
    cbn [OpParseWf.wf_parsed StackSpec.wf_op rd_typed] in *; unfold StackSpec.u64 in *; tauto.
Qed.

Lemma split_n_app_eq len bs h t : split_n len bs = Ok (h, t) -> bs = h ++ t.
Proof.
  unfold split_n. destruct (N.of_nat (length bs) <? len); [discriminate|]. intros H; inversion H.
  symmetry. apply firstn_skipn.
Qed.

(* the block of a DW_OP_entry_value is a proper part of the input: the recursion of Expression::from terminates *)
Definition block_shorter (n : nat) (o : operation) : Prop :=
  match o with OEntryValue x => (length x < n)%nat | _ => True end.

(* only the two entry_value opcodes build an OEntryValue, from a block split off the input *)
Lemma parse_block_shorter dbg e bs o r : parse_op dbg e bs = Ok (o, r) -> block_shorter (length bs) o.
Proof.
  destruct bs as [|opc t]; [discriminate|]. cbn [parse_op]. intros H.
  destruct opc; cbn [parse_opcode] in H; try discriminate; pbinds H; try (inversion H; subst; exact I).
  - (* piece *) destruct (_ <? two64); inversion H; subst. exact I.
  - (* entry_value *)
    inversion H; subst. apply split_n_app_eq in Hv0. apply read_uleb128_ok in Hv. destruct Hv as (en & Hv & _).
    apply split_leb_app in Hv. subst. cbn [block_shorter length]. rewrite !app_length. lia.
  - (* wasm *) unfold parse_wasm in H. pbinds H.
    repeat match type of H with (if ?c then _ else _) = _ => destruct c end; pbinds H; inversion H; subst; exact I.
  - (* GNU entry_value *)
    inversion H; subst. apply split_n_app_eq in Hv0. apply read_uleb128_ok in Hv. destruct Hv as (en & Hv & _).
    apply split_leb_app in Hv. subst. cbn [block_shorter length]. rewrite !app_length. lia.
Qed.

Lemma op_ends_facts dbg e : forall fuel bs pos l,
  op_ends dbg e fuel bs pos = Ok l ->
  Forall (fun x => rd_typed e (fst x) /\ block_shorter (length bs) (fst x)) l /\ (length l <= length bs)%nat.
Proof.
  induction fuel as [|f IH]; intros bs pos l H.
  - destruct bs; cbn [op_ends] in H; [inversion H; split; [constructor|cbn; lia]|discriminate].
  - destruct bs as [|b t]; cbn [op_ends] in H; [inversion H; split; [constructor|cbn; lia]|].
    pbinds H. inversion H; subst; clear H.
    match goal with Hp : parse_op _ _ _ = Ok (?o, ?r), Hl : op_ends _ _ _ _ _ = Ok ?l1 |- _ =>
      pose proof (parse_typed _ _ _ _ _ Hp) as Ht; pose proof (parse_block_shorter _ _ _ _ _ Hp) as Hb;
      pose proof (parse_op_shorter _ _ _ _ _ Hp) as Hs;
      destruct (IH _ _ _ Hl) as [Hf Hlen]
    end.
    split; [|cbn [length] in *; lia].
    constructor; [cbn [fst]; split; assumption|].
    eapply Forall_impl; [|exact Hf]. intros [o' p'] [H1 H2]. cbn [fst] in *. split; [exact H1|].
    destruct o'; cbn [block_shorter] in *; auto. lia.
Qed.

Lemma op_ends_fuel dbg e : forall fuel bs pos, (length bs < fuel)%nat -> op_ends dbg e fuel bs pos <> OutOfFuel.
Proof.
  induction fuel as [|f IH]; intros bs pos Hf; [lia|].
  destruct bs as [|b t]; cbn [op_ends]; [discriminate|].
  destruct (parse_op dbg e (b :: t)) as [[o r]|er| |] eqn:E; cbn [bind]; try discriminate.
  - pose proof (parse_op_shorter _ _ _ _ _ E) as Hs.
    specialize (IH r (pos + (blen (b :: t) - blen r)) ltac:(lia)).
    destruct (op_ends dbg e f r (pos + (blen (b :: t) - blen r))); cbn [bind]; congruence.
  - exfalso. exact (proj2 (parse_op_no_panic_lemma dbg e (b :: t)) E).
Qed.

(* ------------------------------------------------------------------ the converted expression is well-typed *)

Lemma index_of_lt x l k : index_of x l 0 = Some k -> k < N.of_nat (length l).
Proof.
  intros H. apply index_of_some in H. destruct H as [_ H]. rewrite N.sub_0_r in H.
  assert (N.to_nat k < length l)%nat by (apply nth_error_Some; congruence). lia.
Qed.

Section Wf.
  Variable e : OpDec.enc.
  Variable unit_addr : option (N -> res N).
  Variable cvt_addr : N -> option waddr.
  Variable unit_ref : N -> res N.
  Variable info_ref : N -> res dref.
  (* the conversion callbacks return values of their Rust types *)
  Hypothesis Hur : forall x en, unit_ref x = Ok en -> en < 2 ^ 64.
  Hypothesis Hir : forall x r, info_ref x = Ok r -> wf_ref r = true.
  Hypothesis Hca : forall a w, cvt_addr a = Some w -> wf_op (WoAddress w) = true.
  Hypothesis Hua : forall ua i v, unit_addr = Some ua -> ua i = Ok v -> v < 2 ^ 64.

  Lemma is_u64_intro n : n < 2 ^ 64 -> is_u64 n = true.
  Proof. unfold is_u64, two64. change (2 ^ 64) with 18446744073709551616. lia. Qed.

  Lemma conv_op_wf nested offsets o end_ wo :
    rd_typed e o -> N.of_nat (length offsets) < 2 ^ 64 ->
    (forall x inner, o = OEntryValue x -> nested x = Ok inner ->
       forallb wf_op inner = true /\ forallb decodable inner = true) ->
    conv_op e unit_addr cvt_addr unit_ref info_ref nested offsets o end_ = Ok wo ->
    wf_op wo = true /\ decodable wo = true.
  Proof.
    intros Ht Hlen Hnest Hc.
    destruct o; cbn [conv_op rd_typed] in *;
      try (inversion Hc; subst wo; cbn [wf_op decodable]; split; [|reflexivity];
           first [reflexivity|apply is_u64_intro; assumption|assumption|lia]).
    - (* deref *)
      destruct (base_type =? 0) eqn:E0; cbn [negb] in Hc.
      + destruct (size =? e_asz e) eqn:E1; cbn [negb] in Hc; inversion Hc; subst wo; cbn [wf_op decodable]; split; auto.
        destruct Ht as [Ht|[_ Ht]]; lia.
      + binds Hc. inversion Hc; subst wo. cbn [wf_op decodable]. split; [|reflexivity].
        apply Hur in Hv. rewrite (is_u64_intro _ Hv). destruct Ht as [Ht|[Ht _]]; lia.
    - binds Hc. inversion Hc; subst wo. cbn [wf_op decodable]. split; [|reflexivity].
      unfold branch_index in Hv. apply of_option_ok in Hv. apply index_of_lt in Hv. apply is_u64_intro. lia.
    - binds Hc. inversion Hc; subst wo. cbn [wf_op decodable]. split; [|reflexivity].
      unfold branch_index in Hv. apply of_option_ok in Hv. apply index_of_lt in Hv. apply is_u64_intro. lia.
    - (* register offset *)
      destruct Ht as [Hr Ho]. destruct (base_type =? 0) eqn:E0; cbn [negb] in Hc.
      + inversion Hc; subst wo. cbn [wf_op decodable]. split; [|reflexivity]. rewrite Ho. lia.
      + binds Hc. inversion Hc; subst wo. cbn [wf_op decodable]. split; [|reflexivity].
        apply Hur in Hv. rewrite (is_u64_intro _ Hv). lia.
    - (* call *)
      destruct offset as [off|off]; binds Hc; inversion Hc; subst wo; cbn [wf_op decodable]; split; try reflexivity.
      + apply is_u64_intro. eapply Hur; eauto.
      + eapply Hir; eauto.
    - binds Hc; inversion Hc; subst wo; cbn [wf_op decodable]; split; try reflexivity. eapply Hir; eauto.
    - (* piece *)
      destruct bit_offset as [bo|]; inversion Hc; subst wo; cbn [wf_op decodable].
      + destruct Ht as [H1 H2]. rewrite !is_u64_intro by assumption. auto.
      + assert (size_in_bits / 8 * 8 <= size_in_bits) by (pose proof (N.div_mod size_in_bits 8); lia).
        split; [apply is_u64_intro; lia|lia].
    - binds Hc; inversion Hc; subst wo; cbn [wf_op decodable]; split; try reflexivity.
      rewrite (Hir _ _ Hv), Ht. reflexivity.
    - (* entry_value *)
      binds Hc; inversion Hc; subst wo; cbn [wf_op decodable]. eapply Hnest; eauto.
    - binds Hc; inversion Hc; subst wo; cbn [wf_op decodable]; split; try reflexivity. apply is_u64_intro. eapply Hur; eauto.
    - binds Hc; inversion Hc; subst wo. split; [|reflexivity].
      unfold convert_address in Hv. apply of_option_ok in Hv. eapply Hca; eauto.
    - binds Hc; inversion Hc; subst wo. split; [|reflexivity].
      unfold convert_address in Hv1. apply of_option_ok in Hv1. eapply Hca; eauto.
    - binds Hc; inversion Hc; subst wo; cbn [wf_op decodable]; split; try reflexivity.
      apply of_option_ok in Hv. apply is_u64_intro. eapply Hua; eauto.
    - binds Hc; inversion Hc; subst wo; cbn [wf_op decodable]; split; try reflexivity. apply is_u64_intro. eapply Hur; eauto.
    - destruct (base_type =? 0); [inversion Hc; subst wo; split; reflexivity|].
      binds Hc; inversion Hc; subst wo; cbn [wf_op decodable]; split; try reflexivity. apply is_u64_intro. eapply Hur; eauto.
    - destruct (base_type =? 0); [inversion Hc; subst wo; split; reflexivity|].
      binds Hc; inversion Hc; subst wo; cbn [wf_op decodable]; split; try reflexivity. apply is_u64_intro. eapply Hur; eauto.
    - inversion Hc; subst wo; cbn [wf_op decodable]; split; [|reflexivity];
      unfold two32; change (2 ^ 32) with 4294967296 in Ht; lia.
    - inversion Hc; subst wo; cbn [wf_op decodable]; split; [|reflexivity];
      unfold two32; change (2 ^ 32) with 4294967296 in Ht; lia.
    - inversion Hc; subst wo; cbn [wf_op decodable]; split; [|reflexivity];
      unfold two32; change (2 ^ 32) with 4294967296 in Ht; lia.
  Qed.
End Wf.

Section WfExpr.
  Variable dbg : bool.
  Variable e : OpDec.enc.
  Variable unit_addr : option (N -> res N).
  Variable cvt_addr : N -> option waddr.
  Variable unit_ref : N -> res N.
  Variable info_ref : N -> res dref.
  Hypothesis Hur : forall x en, unit_ref x = Ok en -> en < 2 ^ 64.
  Hypothesis Hir : forall x r, info_ref x = Ok r -> wf_ref r = true.
  Hypothesis Hca : forall a w, cvt_addr a = Some w -> wf_op (WoAddress w) = true.
  Hypothesis Hua : forall ua i v, unit_addr = Some ua -> ua i = Ok v -> v < 2 ^ 64.

  Lemma conv_ops_wf nested offsets n : N.of_nat (length offsets) < 2 ^ 64 ->
    forall l ex,
    Forall (fun x => rd_typed e (fst x) /\ block_shorter n (fst x)) l ->
    (forall x inner, (length x < n)%nat -> nested x = Ok inner ->
       forallb wf_op inner = true /\ forallb decodable inner = true) ->
    conv_ops e unit_addr cvt_addr unit_ref info_ref nested offsets l = Ok ex ->
    forallb wf_op ex = true /\ forallb decodable ex = true.
  Proof.
    intros Hlen. induction l as [|[o end_] l IH]; intros ex Hf Hn H; cbn [conv_ops] in H.
    - inversion H. split; reflexivity.
    - binds H. inversion H; subst ex. inversion Hf as [|? ? [Ht Hb] Hf']; subst. cbn [fst] in *.
      destruct (IH _ Hf' Hn Hv0) as [I1 I2].
      destruct (conv_op_wf e unit_addr cvt_addr unit_ref info_ref Hur Hir Hca Hua nested offsets o end_ v Ht Hlen) as [W1 W2];
        [|exact Hv|].
      + intros x inner -> Hx. apply (Hn x inner); [exact Hb|exact Hx].
      + cbn [forallb]. rewrite W1, W2, I1, I2. split; reflexivity.
  Qed.

  (* Expression::from returns a well-typed, decodable expression (the hypotheses of the C15 theorems) *)
  Lemma conv_expr_fuel_wf : forall fuel bs ex,
    blen bs < 2 ^ 64 - 1 ->
    conv_expr_fuel dbg e unit_addr cvt_addr unit_ref info_ref fuel bs = Ok ex ->
    forallb wf_op ex = true /\ forallb decodable ex = true.
  Proof.
    induction fuel as [|f IH]; intros bs ex Hb H; [discriminate|]. cbn [conv_expr_fuel] in H. binds H.
    destruct (op_ends_facts dbg e _ _ _ _ Hv) as [Hf Hlen].
    apply (conv_ops_wf (conv_expr_fuel dbg e unit_addr cvt_addr unit_ref info_ref f) (offsets_of v) (length bs))
      with (l := v); [| exact Hf | | exact H].
    - unfold offsets_of. cbn [length]. rewrite map_length. unfold blen in Hb. lia.
    - intros x inner Hx Hi. eapply IH; [|exact Hi]. unfold blen in *. lia.
  Qed.

End WfExpr.

Section FuelExpr.
  Variable dbg : bool.
  Variable e : OpDec.enc.
  Variable unit_addr : option (N -> res N).
  Variable cvt_addr : N -> option waddr.
  Variable unit_ref : N -> res N.
  Variable info_ref : N -> res dref.
  (* fuel: the callbacks terminate, the nesting depth is below the length *)
  Hypothesis Fur : forall x, unit_ref x <> OutOfFuel.
  Hypothesis Fir : forall x, info_ref x <> OutOfFuel.
  Hypothesis Fua : forall ua i, unit_addr = Some ua -> ua i <> OutOfFuel.

  Lemma of_option_fuel {A} er (o : option A) : of_option er o <> OutOfFuel.
  Proof. destruct o; discriminate. Qed.

  Lemma conv_op_fuel nested offsets o end_ :
    (forall x, o = OEntryValue x -> nested x <> OutOfFuel) ->
    conv_op e unit_addr cvt_addr unit_ref info_ref nested offsets o end_ <> OutOfFuel.
  Proof.
    intros Hn. destruct o; cbn [conv_op]; try discriminate;
      repeat first [ discriminate
                   | match goal with |- (if ?c then _ else _) <> _ => destruct c end
                   | match goal with |- (match ?x with UnitRef _ => _ | DebugInfoRef _ => _ end) <> _ => destruct x end
                   | match goal with |- (match ?x with Some _ => _ | None => _ end) <> _ => destruct x end
                   | apply bind_not_fuel; [|intros ? ?]
                   | apply Fur | apply Fir | apply of_option_fuel | (unfold branch_index, convert_address; apply of_option_fuel)
                   | (apply Hn; reflexivity)
                   | (match goal with H : of_option _ unit_addr = Ok _ |- _ => apply of_option_ok in H; eapply Fua; exact H end) ].
  Qed.

  Lemma conv_ops_fuel nested offsets n : forall l,
    Forall (fun x => block_shorter n (fst x)) l ->
    (forall x, (length x < n)%nat -> nested x <> OutOfFuel) ->
    conv_ops e unit_addr cvt_addr unit_ref info_ref nested offsets l <> OutOfFuel.
  Proof.
    induction l as [|[o end_] l IH]; intros Hf Hn; cbn [conv_ops]; [discriminate|].
    inversion Hf as [|? ? Hb Hf']; subst. cbn [fst] in Hb.
    apply bind_not_fuel.
    - apply conv_op_fuel. intros x ->. apply Hn. exact Hb.
    - intros w _. apply bind_not_fuel; [apply IH; assumption|]. intros; discriminate.
  Qed.
End FuelExpr.

(* the offsets vector is strictly increasing and ends with the length: binary_search finds the unique index *)
Lemma op_ends_sorted dbg e : forall fuel bs pos l,
  op_ends dbg e fuel bs pos = Ok l ->
  StronglySorted N.lt (pos :: map snd l) /\ last (pos :: map snd l) 0 = pos + blen bs.
Proof.
  induction fuel as [|f IH]; intros bs pos l H.
  - destruct bs; cbn [op_ends] in H; [|discriminate]. inversion H; subst. cbn. split; [repeat constructor|unfold blen; cbn; lia].
  - destruct bs as [|b t]; cbn [op_ends] in H.
    + inversion H; subst. cbn. split; [repeat constructor|unfold blen; cbn; lia].
    + apply bind_ok in H. destruct H as [[o r] [Hp H]].
      apply bind_ok in H. destruct H as [l1 [Hl H]]. inversion H; subst; clear H.
      pose proof (parse_op_consumes _ _ _ _ _ Hp) as [b0 [u Hu]]. destruct (IH _ _ _ Hl) as [Hs Hlast].
      assert (Hlt : pos < pos + (blen (b :: t) - blen r)).
      { rewrite Hu. unfold blen. cbn [length]. rewrite app_length. lia. }
      cbn [map snd]. split.
      * constructor; [exact Hs|].
        apply StronglySorted_inv in Hs. destruct Hs as [_ Hall].
        constructor; [exact Hlt|]. eapply Forall_impl; [|exact Hall]. cbv beta. intros a Ha. lia.
      * change (last (pos :: (pos + (blen (b :: t) - blen r)) :: map snd l1) 0)
          with (last ((pos + (blen (b :: t) - blen r)) :: map snd l1) 0).
        rewrite Hlast. rewrite Hu. unfold blen. cbn [length]. rewrite app_length. lia.
Qed.
