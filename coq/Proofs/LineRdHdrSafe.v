(* Proofs/LineRdHdrSafe.v — LineProgramHeader::parse on ANY byte string: no panic (the two
   `path_name.unwrap()`s, the u16 LEB accumulation, read_uint(3)) and the fuel of the model loops
   (directory/file tables of versions 2-4, `for _ in 0..count` over a u64 count in version 5)
   suffices, in both build modes; and the header it returns satisfies `hdr_ok`. *)
From Coq Require Import List NArith ZArith Bool Lia ZifyBool ZifyN ZifyNat.
From Coq.Strings Require Import Byte.
Require Import GV.Base.Res GV.Base.Byt GV.Base.Ints GV.Model.Leb GV.Model.Prim GV.Spec.LineSpec GV.Model.LineRd
               GV.Proofs.LineRdBase GV.Proofs.LineRdMono.
Import ListNotations.
Local Open Scope N_scope.

(* a framed reader that takes at least one byte whenever it succeeds *)
Definition eats {A} (p : list byte -> res (A * list byte)) : Prop := framed (fun c _ => c <> []) p.

Lemma eats_sg {A} (p : list byte -> res (A * list byte)) inp : eats p -> post (sg inp) (p inp).
Proof. intros E. exact (framed_sg _ _ inp E (fun _ _ H => H)). Qed.

Lemma read_u8_eats : eats read_u8.
Proof. eapply framed_weaken; [apply read_u8_framed|]. now intros c v [H _]. Qed.
Lemma read_un_eats n be : (0 < n)%nat -> eats (read_un n be).
Proof. intros Hn. eapply framed_weaken; [apply read_un_framed|]. intros c v [L _] ->. simpl in L. lia. Qed.
Lemma split_n_eats n : 0 < n -> eats (split_n n).
Proof. intros Hn. eapply framed_weaken; [apply split_n_framed|]. intros c v [-> L] ->. simpl in L. lia. Qed.

(* a reader, then the constructor of the value *)
Lemma eats_scalar {A B} (p : list byte -> res (A * list byte)) (mk : A -> B) :
  eats p -> eats (fun inp => let* (v, r) := p inp in Ok (mk v, r)).
Proof. intros E. eapply framed_operand; [exact E|]. auto. Qed.

(* a length, then that many bytes *)
Lemma eats_block (p : list byte -> res (N * list byte)) :
  eats p -> eats (fun inp => let* (len, r) := p inp in let* (b, r) := split_n len r in Ok (VBlock b, r)).
Proof.
  intros E. eapply framed_bind; [exact E|]. intros c1 len H1.
  eapply framed_operand; [apply split_n_framed|]. intros c2 v _ H. apply app_eq_nil in H as [-> _]. now apply H1.
Qed.

(* every component consumes input, whatever its form *)
Lemma parse_attribute_eats dbg be fmt64 form : eats (parse_attribute dbg be fmt64 form).
Proof.
  unfold parse_attribute, read_u16, read_u32, read_u64, read_uint. cbn [Nat.ltb Nat.leb].
  destruct (form =? FORM_block1); [apply eats_block, read_u8_eats|].
  destruct (form =? FORM_block2); [apply eats_block, read_un_eats; lia|].
  destruct (form =? FORM_block4); [apply eats_block, read_un_eats; lia|].
  destruct (form =? FORM_block); [apply eats_block, read_uleb128_framed|].
  destruct (form =? FORM_data1); [apply eats_scalar, read_u8_eats|].
  destruct (form =? FORM_data2); [apply eats_scalar, read_un_eats; lia|].
  destruct (form =? FORM_data4); [apply eats_scalar, read_un_eats; lia|].
  destruct (form =? FORM_data8); [apply eats_scalar, read_un_eats; lia|].
  destruct (form =? FORM_data16); [apply eats_scalar, split_n_eats; lia|].
  destruct (form =? FORM_udata); [apply eats_scalar, read_uleb128_framed|].
  destruct (form =? FORM_sdata); [apply eats_scalar, read_sleb128_framed|].
  destruct (form =? FORM_flag); [apply eats_scalar, read_u8_eats|].
  destruct (form =? FORM_sec_offset); [apply eats_scalar, read_word_framed|].
  destruct (form =? FORM_string); [apply eats_scalar, read_cstr_framed|].
  destruct (form =? FORM_strp); [apply eats_scalar, read_word_framed|].
  destruct ((form =? FORM_strp_sup) || (form =? FORM_GNU_strp_alt)); [apply eats_scalar, read_word_framed|].
  destruct (form =? FORM_line_strp); [apply eats_scalar, read_word_framed|].
  destruct ((form =? FORM_strx) || (form =? FORM_GNU_str_index)); [apply eats_scalar, read_uleb128_framed|].
  destruct (form =? FORM_strx1); [apply eats_scalar, read_u8_eats|].
  destruct (form =? FORM_strx2); [apply eats_scalar, read_un_eats; lia|].
  destruct (form =? FORM_strx3); [apply eats_scalar, read_un_eats; lia|].
  destruct (form =? FORM_strx4); [apply eats_scalar, read_un_eats; lia|].
  intros inp. exact I.
Qed.

(* DW_LNCT_path components in an entry format; FileEntryFormat::parse insists on exactly one *)
Fixpoint count_path (fmts : list entry_format) : N :=
  match fmts with
  | [] => 0
  | f :: tl => (if ef_ct f =? LNCT_path then 1 else 0) + count_path tl
  end.

(* a component of a format with a path either sets the path or leaves one to come *)
Lemma count_path_step f ft (path : option form_val) v :
  path <> None \/ 0 < count_path (f :: ft) ->
  (if ef_ct f =? LNCT_path then Some v else path) <> None \/ 0 < count_path ft.
Proof.
  cbn [count_path]. destruct (ef_ct f =? LNCT_path); [left; discriminate|].
  intros [H|H]; [left; exact H|right; lia].
Qed.

Lemma parse_formats_loop_good dbg : forall count pc inp,
  post (fun p => let '(fs, pc', r) := p in sfx r inp /\ pc' = pc + count_path fs)
       (parse_formats_loop dbg count pc inp).
Proof.
  induction count as [|k IH]; intros pc inp; cbn [parse_formats_loop].
  - cbn. split; [apply sfx_refl|lia].
  - eapply post_bind; [apply (framed_sfx _ _ inp (read_uleb128_framed dbg))|]. intros [ct r] _ S1; cbn [snd] in *.
    eapply post_bind; [apply (framed_sfx _ _ r read_uleb128_u16_framed)|]. intros [form r'] _ S2; cbn [snd] in *.
    eapply post_bind; [apply IH|]. intros [[fs pc'] r''] _ [S3 Hpc]. cbn [post count_path ef_ct].
    split; [eapply sfx_trans; [exact S3|eapply sfx_trans; eauto]|].
    rewrite Hpc. destruct ((if 65535 <? ct then 65535 else ct) =? LNCT_path); lia.
Qed.

Lemma parse_formats_good dbg inp :
  post (fun p => sfx (snd p) inp /\ 0 < count_path (fst p)) (parse_formats dbg inp).
Proof.
  unfold parse_formats.
  eapply post_bind; [apply (framed_sfx _ _ inp read_u8_framed)|]. intros [count r] _ S1; cbn [snd] in *.
  eapply post_bind; [apply parse_formats_loop_good|]. intros [[fs pc] r'] _ [S2 Hpc].
  destruct (pc =? 1) eqn:E; [|exact I]. cbn. split; [eapply sfx_trans; eauto|lia].
Qed.

Lemma parse_directory_loop_good dbg be fmt64 : forall fmts path inp,
  post (fun p => sfx (snd p) inp /\ (fmts <> [] -> (length (snd p) < length inp)%nat) /\
                 (path <> None \/ 0 < count_path fmts -> fst p <> None))
       (parse_directory_loop dbg be fmt64 fmts path inp).
Proof.
  induction fmts as [|f ft IH]; intros path inp; cbn [parse_directory_loop].
  - cbn. split; [apply sfx_refl|]. split; [congruence|]. intros [H|H]; [exact H|lia].
  - eapply post_bind; [apply eats_sg, parse_attribute_eats|]. intros [v r] _ [S1 L1]; cbn [fst snd] in *.
    eapply post_weaken; [apply IH|]. intros [p r'] (S2 & L2 & P2); cbn [fst snd] in *.
    split; [eapply sfx_trans; eauto|]. split; [intros _; apply sfx_len in S2; lia|].
    intros HP. exact (P2 (count_path_step _ _ _ _ HP)).
Qed.

Lemma parse_directory_v5_good dbg be fmt64 fmts inp : 0 < count_path fmts ->
  post (sg inp) (parse_directory_v5 dbg be fmt64 fmts inp).
Proof.
  intros HP. unfold parse_directory_v5.
  eapply post_bind; [apply parse_directory_loop_good|]. intros [p r] _ (S1 & L1 & P1); cbn [fst snd] in *.
  destruct p as [p|]; [|exfalso; apply P1; [right; exact HP|reflexivity]].
  cbn. split; [exact S1|]. apply L1. intros ->. cbn in HP. lia.
Qed.

(* only a DW_LNCT_path component touches the path *)
Lemma file_field_path ct v f p : snd (file_field ct v f p) = if ct =? LNCT_path then Some v else p.
Proof.
  unfold file_field. destruct (ct =? LNCT_path); [reflexivity|].
  destruct (ct =? LNCT_directory_index); [reflexivity|]. destruct (ct =? LNCT_timestamp); [reflexivity|].
  destruct (ct =? LNCT_size); [reflexivity|]. destruct (ct =? LNCT_MD5); [reflexivity|].
  destruct (ct =? LNCT_LLVM_source); reflexivity.
Qed.

Lemma parse_file_loop_good dbg be fmt64 : forall fmts f path inp,
  post (fun p => let '(f', p', r) := p in
                 sfx r inp /\ (fmts <> [] -> (length r < length inp)%nat) /\
                 (path <> None \/ 0 < count_path fmts -> p' <> None))
       (parse_file_loop dbg be fmt64 fmts f path inp).
Proof.
  induction fmts as [|fm ft IH]; intros f path inp; cbn [parse_file_loop].
  - cbn. split; [apply sfx_refl|]. split; [congruence|]. intros [H|H]; [exact H|lia].
  - eapply post_bind; [apply eats_sg, parse_attribute_eats|]. intros [v r] _ [S1 L1]; cbn [fst snd] in *.
    pose proof (file_field_path (ef_ct fm) v f path) as FP.
    destruct (file_field (ef_ct fm) v f path) as [f' p']. cbn [snd] in FP. subst p'.
    eapply post_weaken; [apply IH|]. intros [[f'' p''] r'] (S2 & L2 & P2).
    split; [eapply sfx_trans; eauto|]. split; [intros _; apply sfx_len in S2; lia|].
    intros HP. exact (P2 (count_path_step _ _ _ _ HP)).
Qed.

Lemma parse_file_v5_good dbg be fmt64 fmts inp : 0 < count_path fmts ->
  post (sg inp) (parse_file_v5 dbg be fmt64 fmts inp).
Proof.
  intros HP. unfold parse_file_v5.
  eapply post_bind; [apply parse_file_loop_good|]. intros [[f p] r] _ (S1 & L1 & P1).
  destruct p as [p|]; [|exfalso; apply P1; [right; exact HP|reflexivity]].
  cbn. split; [exact S1|]. apply L1. intros ->. cbn in HP. lia.
Qed.

(* `for _ in 0..count`: fuel beyond the input length suffices when every iteration consumes *)
Lemma count_loop_good {A} (one : list byte -> res (A * list byte)) :
  (forall inp, post (sg inp) (one inp)) ->
  forall fuel count inp, (length inp < fuel)%nat ->
  post (fun p => sfx (snd p) inp) (count_loop fuel count one inp).
Proof.
  intros G. induction fuel as [|f IH]; intros count inp Hf; [lia|].
  cbn [count_loop]. destruct (count =? 0); [cbn; apply sfx_refl|].
  eapply post_bind; [apply G|]. intros [a r] _ [S1 L1]; cbn [fst snd] in *.
  eapply post_bind; [apply IH; lia|]. intros [tl r'] _ S2; cbn [fst snd] in *.
  cbn. eapply sfx_trans; eauto.
Qed.

Lemma dirs_v4_loop_good : forall fuel inp, (length inp < fuel)%nat ->
  post (fun p => sfx (snd p) inp) (dirs_v4_loop fuel inp).
Proof.
  induction fuel as [|f IH]; intros inp Hf; [lia|]. cbn [dirs_v4_loop].
  eapply post_bind; [apply eats_sg, read_cstr_framed|]. intros [d r] _ [S1 L1]; cbn [fst snd] in *.
  destruct d; [cbn; exact S1|].
  eapply post_bind; [apply IH; lia|]. intros [tl r'] _ S2; cbn [fst snd] in *. cbn. eapply sfx_trans; eauto.
Qed.

Lemma files_v4_loop_good dbg : forall fuel inp, (length inp < fuel)%nat ->
  post (fun p => sfx (snd p) inp) (files_v4_loop fuel dbg inp).
Proof.
  induction fuel as [|f IH]; intros inp Hf; [lia|]. cbn [files_v4_loop].
  eapply post_bind; [apply eats_sg, read_cstr_framed|]. intros [d r] _ [S1 L1]; cbn [fst snd] in *.
  destruct d; [cbn; exact S1|].
  eapply post_bind; [apply (framed_sfx _ _ r (file_entry_parse_framed dbg _))|]. intros [fe r1] _ S2; cbn [snd] in *.
  apply sfx_len in S2 as S2'.
  eapply post_bind; [apply IH; lia|]. intros [tl r'] _ S3; cbn [fst snd] in *. cbn.
  eapply sfx_trans; [exact S3|]. eapply sfx_trans; eauto.
Qed.

(* all that is asked of most steps: they return *)
Lemma any_post {A} (P : A -> Prop) (x : res A) : post P x -> post (fun _ => True) x.
Proof. intros H. eapply post_weaken; [exact H|auto]. Qed.

Lemma read_initial_length_np be bs : post (fun _ => True) (read_initial_length be bs).
Proof.
  unfold read_initial_length.
  eapply post_bind; [apply (read_un_framed 4)|]. intros [v r] _ _.
  destruct (v <? 4294967280); [exact I|]. destruct (v =? 4294967295); [|exact I].
  eapply post_bind; [apply (read_un_framed 8)|]. intros [v8 r8] _ _. exact I.
Qed.

(* one walk over LineProgramHeader::parse: every step returns, and the checks it makes are what
   `hdr_ok` asks for when the caller's address size is a real one *)
Lemma parse_header_good dbg be asz0 bs :
  post (fun h => 1 <= asz0 <= 8 -> hdr_ok h) (parse_header dbg be asz0 bs).
Proof.
  unfold parse_header.
  eapply post_bind; [apply read_initial_length_np|]. intros [[ul f64] r0] _ _.
  eapply post_bind; [apply (split_n_framed ul r0)|]. intros [rest0 r1] _ _.
  eapply post_bind; [apply (read_un_framed 2 be rest0)|]. intros [version rest1] _ _.
  destruct ((version <? 2) || (5 <? version)); [exact I|].
  eapply post_bind with (P := fun p => 1 <= asz0 <= 8 -> 1 <= fst p <= 8).
  { destruct (5 <=? version); [|exact (fun H => H)].
    eapply post_bind with (P := fun p => 1 <= fst p <= 8).
    { unfold read_address_size.
      eapply post_bind; [apply (read_u8_framed rest1)|]. intros [s' r'] _ _.
      destruct ((s' =? 1) || (s' =? 2) || (s' =? 4) || (s' =? 8)) eqn:E; [cbn; lia|exact I]. }
    intros [a' r''] _ Ha.
    eapply post_bind; [apply (read_u8_framed r'')|]. intros [seg r3] _ _.
    destruct (negb (seg =? 0)); [exact I|exact (fun _ => Ha)]. }
  intros [asz rest2] _ Hasz; cbn [fst] in Hasz.
  eapply post_bind; [apply (read_word_framed f64 be rest2)|]. intros [hl rest3] _ _.
  eapply post_bind; [apply (skip_n_good hl rest3)|]. intros prog _ _.
  eapply post_bind with (P := fun _ => True).
  { unfold truncate_n. destruct (N.of_nat (length rest3) <? hl); exact I. }
  intros rest4 _ _.
  eapply post_bind; [apply (read_u8_framed rest4)|]. intros [mil rest5] _ _.
  destruct (mil =? 0); [exact I|].
  eapply post_bind with (P := fun _ => True).
  { destruct (4 <=? version); [apply (any_post _ _ (read_u8_framed rest5))|exact I]. }
  intros [mops rest6] _ _.
  destruct (mops =? 0) eqn:Emops; [exact I|].
  eapply post_bind; [apply (read_u8_framed rest6)|]. intros [dis rest7] _ _.
  eapply post_bind with (P := fun _ => True).
  { unfold read_in. eapply post_bind; [apply (read_un_framed 1)|]. intros [v r] _ _. exact I. }
  intros [lb rest8] _ _.
  eapply post_bind; [apply (read_u8_framed rest8)|]. intros [lr rest9] _ _.
  destruct (lr =? 0) eqn:Elr; [exact I|].
  eapply post_bind; [apply (read_u8_framed rest9)|]. intros [ob rest10] _ (_ & _ & [_ Hob] & _); cbn [fst] in Hob.
  destruct (ob =? 0); [exact I|].
  eapply post_bind; [apply (split_n_framed (ob - 1) rest10)|]. intros [std rest11] _ _.
  eapply post_bind with (P := fun _ => True).
  { destruct (version <=? 4).
    - eapply post_bind; [apply dirs_v4_loop_good; lia|]. intros [ds r] _ _. exact I.
    - eapply post_bind; [apply parse_formats_good|]. intros [fm r] _ [_ HP]; cbn [fst snd] in *.
      eapply post_bind; [apply (read_uleb128_framed dbg r)|]. intros [count r'] _ _.
      eapply post_bind; [apply count_loop_good; [intros; apply parse_directory_v5_good; exact HP|lia]|].
      intros [ds r''] _ _. exact I. }
  intros [[dfmt dirs] rest12] _ _.
  eapply post_bind with (P := fun _ => True).
  { destruct (version <=? 4).
    - eapply post_bind; [apply files_v4_loop_good; lia|]. intros [fs r] _ _. exact I.
    - eapply post_bind; [apply parse_formats_good|]. intros [fm r] _ [_ HP]; cbn [fst snd] in *.
      eapply post_bind; [apply (read_uleb128_framed dbg r)|]. intros [count r'] _ _.
      eapply post_bind; [apply count_loop_good; [intros; apply parse_file_v5_good; exact HP|lia]|].
      intros [fs r''] _ _. exact I. }
  intros [[ffmt files] rest13] _ _ Hz. unfold hdr_ok, asz_ok. cbn. specialize (Hasz Hz). lia.
Qed.

Lemma parse_header_np dbg be asz0 bs :
  parse_header dbg be asz0 bs <> Panic /\ parse_header dbg be asz0 bs <> OutOfFuel.
Proof. exact (post_returns _ _ (parse_header_good dbg be asz0 bs)). Qed.
