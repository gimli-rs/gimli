(* Proofs/ConvertLineReplay.v — property C12, ConvertLineProgram::convert = the read_row events replayed through the
   writer API (set_address / generate_row / end_sequence): read_row does not depend on the writer's row machinery
   (prev_row, row, instructions, in_sequence), only on the tables and encodings of the program. *)
From Coq Require Import List NArith ZArith Bool Lia.
From Coq.Strings Require Import Byte.
Require Import GV.Base.Res GV.Base.Byt GV.Base.Ints GV.Spec.LineSpec GV.Model.LineRd GV.Model.LineWr
               GV.Model.ConvertLine GV.Proofs.ConvertLineProofs.
Require GV.Proofs.LineWrSeqProofs.
Import ListNotations.
Local Open Scope N_scope.

(* p's tables and encodings with q's row machinery *)
Definition swap_rows (q p : prog) : prog :=
  mkProg (p_enc p) (p_lenc p) (p_dirs p) (p_files p) (p_has_timestamp p) (p_has_size p) (p_has_md5 p) (p_has_source p)
         (p_prev q) (p_row q) (p_insns q) (p_in_seq q).
Definition reprog (q : prog) (c : cl) : cl := with_prog (swap_rows q (cl_prog c)) c.
Definition map_out {A} (q : prog) (o : res A * cl) : res A * cl := (fst o, reprog q (snd o)).

Lemma add_file_swap q p name d info :
  LineWr.add_file (swap_rows q p) name d info =
  match LineWr.add_file p name d info with
  | Ok (p', id) => Ok (swap_rows q p', id) | Err e => Err e | Panic => Panic | OutOfFuel => OutOfFuel
  end.
Proof.
  unfold LineWr.add_file. cbn [p_enc swap_rows p_files].
  destruct (match name with
            | LStr val =>
                if (e_version (p_enc p) <=? 4) && (match val with [] => true | _ => false end) then Panic
                else if has_nul val then Panic else Ok tt
            | _ => Ok tt
            end) as [[]|e| |]; cbn [bind]; try reflexivity.
  destruct (file_find (p_files p) (name, d) 0); destruct info; reflexivity.
Qed.

Section Replay.
Variables (dbg be : bool) (sx : secs) (h : header).

Lemma ret_row_reprog q c : ret_row h (reprog q c) = map_out q (ret_row h c).
Proof.
  unfold ret_row. change (convert_row h (reprog q c)) with (convert_row h c).
  destruct (convert_row h c); reflexivity.
Qed.

Lemma emit_row_reprog q c : emit_row h (reprog q c) = map_out q (emit_row h c).
Proof.
  unfold emit_row. change (r_end (cl_row (reprog q c))) with (r_end (cl_row c)). destruct (r_end (cl_row c)).
  - change (convert_address_offset (reprog q c)) with (convert_address_offset c).
    destruct (convert_address_offset c); reflexivity.
  - change (cl_addr (reprog q c)) with (cl_addr c). destruct (cl_addr c); [reflexivity|].
    exact (ret_row_reprog q (with_st CSReadRow c)).
Qed.

Lemma after_exec_reprog f q c tomb x :
  (forall c tomb q, read_loop f dbg be sx h (reprog q c) tomb = map_out q (read_loop f dbg be sx h c tomb)) ->
  after_exec dbg be sx h f (reprog q c) tomb x = map_out q (after_exec dbg be sx h f c tomb x).
Proof.
  intros IH. unfold after_exec. destruct x as [[r' [| |e]]|e| |]; try reflexivity.
  - cbv zeta. destruct tomb; [|exact (emit_row_reprog q (with_row r' c))].
    destruct (r_end r'); [exact (IH (with_row (row_reset h r') (with_addr None (with_row r' c))) false q)
                         |exact (IH (with_row (row_reset h r') (with_row r' c)) true q)].
  - exact (IH (with_row r' c) tomb q).
Qed.

Lemma read_loop_reprog : forall f c tomb q,
  read_loop f dbg be sx h (reprog q c) tomb = map_out q (read_loop f dbg be sx h c tomb).
Proof.
  induction f as [|f IH]; intros c tomb q; [reflexivity|].
  destruct (cl_inp c) as [|b input] eqn:Einp;
    [rewrite (read_loop_nil dbg be sx h f c tomb Einp), (read_loop_nil dbg be sx h f (reprog q c) tomb Einp); reflexivity|].
  destruct (parse_insn dbg be h (b :: input)) as [[i rest]|e| |] eqn:EP;
    try (rewrite (read_loop_stop dbg be sx h f c tomb b input Einp), (read_loop_stop dbg be sx h f (reprog q c) tomb b input Einp), EP
           by (rewrite EP; discriminate); reflexivity).
  set (c1 := with_inp rest c).
  destruct (insn_classes i) as [Hp|[[a ->]|[fe ->]]].
  - rewrite (read_loop_plain dbg be sx h f c tomb b input rest Einp i EP Hp),
            (read_loop_plain dbg be sx h f (reprog q c) tomb b input rest Einp i EP Hp).
    exact (after_exec_reprog f q c1 tomb _ IH).
  - rewrite (read_loop_set_address dbg be sx h f c tomb b input rest Einp a EP),
            (read_loop_set_address dbg be sx h f (reprog q c) tomb b input rest Einp a EP).
    change (with_inp rest (reprog q c)) with (reprog q c1). fold c1. unfold after_set_address.
    change (cl_row (reprog q c1)) with (cl_row c1).
    destruct (execute dbg h (cl_row c1) (LineSpec.ISetAddress 0)) as [[r' [| |e]]|e| |]; try reflexivity;
      (destruct (ones_sized dbg (h_addr_size h)) as [ta|e1| |]; try reflexivity; cbv zeta;
       destruct (a =? ta); [exact (IH (with_row r' c1) true q)|exact (IH (with_addr (Some a) (with_row r' c1)) false q)]).
  - rewrite (read_loop_define_file dbg be sx h f c tomb b input rest Einp fe EP),
            (read_loop_define_file dbg be sx h f (reprog q c) tomb b input rest Einp fe EP).
    change (with_inp rest (reprog q c)) with (reprog q c1). fold c1. unfold after_define_file.
    change (p_enc (cl_prog (reprog q c1))) with (p_enc (cl_prog c1)).
    change (cl_dirs (reprog q c1)) with (cl_dirs c1). change (cl_ls (reprog q c1)) with (cl_ls c1).
    destruct (convert_file sx (p_enc (cl_prog c1)) (cl_dirs c1) (cl_ls c1) fe) as [[[[name d] info] ls']|e| |];
      try reflexivity.
    change (cl_prog (reprog q c1)) with (swap_rows q (cl_prog c1)). rewrite add_file_swap.
    destruct (LineWr.add_file (cl_prog c1) name d info) as [[p' id]|e| |]; try reflexivity.
    exact (IH (with_file p' ls' id c1) tomb q).
Qed.

Lemma read_row_reprog q c : read_row dbg be sx h (reprog q c) = map_out q (read_row dbg be sx h c).
Proof.
  unfold read_row. change (cl_st (reprog q c)) with (cl_st c). destruct (cl_st c).
  - exact (read_loop_reprog _ (with_row (row_reset h (cl_row c)) (with_addr None c)) false q).
  - change (cl_addr (reprog q c)) with (cl_addr c). destruct (cl_addr c); [reflexivity|].
    exact (ret_row_reprog q (with_st CSReadRow c)).
  - exact (ret_row_reprog q (with_st CSReadRow c)).
Qed.

(* read_row keeps the encodings of the program *)
Definition same_enc (c c' : cl) : Prop :=
  p_enc (cl_prog c') = p_enc (cl_prog c) /\ p_lenc (cl_prog c') = p_lenc (cl_prog c).

Lemma read_row_enc c : same_enc c (snd (read_row dbg be sx h c)).
Proof.
  refine (proj1 (read_row_inv dbg be sx h (same_enc c) (fun _ => True) _ _ _ _ _ _ _ _ _ c _)); auto.
  - intros c0 name d info ls p id [A B] EA.
    destruct (LineWrSeqProofs.add_file_same_rows _ _ _ _ _ _ EA) as (_ & _ & _ & _ & E1 & E2).
    split; cbn; congruence.
  - split; reflexivity.
Qed.

(* ------------------------------------------------------------------ convert = replay *)

Lemma apply_event_swap caddr q p ev : p_enc p = p_enc q -> p_lenc p = p_lenc q ->
  apply_event dbg caddr (swap_rows q p) ev =
  match apply_event dbg caddr q ev with
  | Ok q' => Ok (swap_rows q' p) | Err e => Err e | Panic => Panic | OutOfFuel => OutOfFuel
  end.
Proof.
  intros E1 E2. destruct ev as [a|r|n]; cbn [apply_event].
  - destruct (caddr a); reflexivity.
  - unfold generate_row. cbn [p_row p_prev p_lenc set_row swap_rows]. rewrite E2.
    destruct (line_chunks 3 (Z.of_N (w_line (clear_row_flags r)) - Z.of_N (w_line (p_prev q)))) as [[ch d]|e| |];
      cbn [bind]; try reflexivity.
    destruct (op_advance dbg (p_lenc q) (clear_row_flags r) (p_prev q)); cbn [bind]; try reflexivity.
    destruct (advance_insns dbg (p_lenc q) (wrap_signed 64 d) a); reflexivity.
  - unfold end_sequence. cbn [p_row p_prev p_lenc p_enc swap_rows]. rewrite E1, E2.
    match goal with |- context [op_advance ?a ?b ?c ?d] => destruct (op_advance a b c d) end; reflexivity.
Qed.

Lemma apply_event_enc caddr q ev q' : apply_event dbg caddr q ev = Ok q' -> p_enc q' = p_enc q /\ p_lenc q' = p_lenc q.
Proof.
  destruct ev as [a|r|n]; cbn [apply_event].
  - destruct (caddr a); intros E; inversion E; split; reflexivity.
  - unfold generate_row. cbn [p_row p_prev p_lenc set_row].
    destruct (line_chunks 3 (Z.of_N (w_line (clear_row_flags r)) - Z.of_N (w_line (p_prev q)))) as [[ch d]|e| |];
      cbn [bind]; try discriminate.
    destruct (op_advance dbg (p_lenc q) (clear_row_flags r) (p_prev q)); cbn [bind]; try discriminate.
    destruct (advance_insns dbg (p_lenc q) (wrap_signed 64 d) a); cbn [bind]; try discriminate.
    intros E; inversion E; split; reflexivity.
  - unfold end_sequence.
    match goal with |- context [op_advance ?a ?b ?c ?d] => destruct (op_advance a b c d) end; cbn [bind]; try discriminate.
    intros E; inversion E; split; reflexivity.
Qed.

(* the writer calls of the documented loop, on the row machinery alone *)
Fixpoint replay (caddr : N -> option waddr) (q : prog) (evs : list clrow) : res prog :=
  match evs with
  | [] => Ok q
  | ev :: r => let* q' := apply_event dbg caddr q ev in replay caddr q' r
  end.

Lemma convert_loop_replay caddr : forall f c q,
  p_enc (cl_prog c) = p_enc q -> p_lenc (cl_prog c) = p_lenc q ->
  convert_loop f dbg be sx h caddr (reprog q c) =
  let '(evs, s, cf) := events_loop f dbg be sx h c in
  match replay caddr q evs with
  | Ok q' => match s with
             | SEnd => if p_in_seq q' then Err CMissingLineEndSequence else Ok (reprog q' cf)
             | SErr e => Err e | SPanic => Panic | SFuel => OutOfFuel
             end
  | Err e => Err e | Panic => Panic | OutOfFuel => OutOfFuel
  end.
Proof.
  induction f as [|f IH]; intros c q E1 E2; [reflexivity|].
  cbn [convert_loop events_loop]. rewrite read_row_reprog.
  destruct (read_row_enc c) as [A1 A2].
  destruct (read_row dbg be sx h c) as [[[ev|]|e| |] c']; cbn [map_out fst snd] in *; try reflexivity.
  change (cl_prog (reprog q c')) with (swap_rows q (cl_prog c')).
  rewrite apply_event_swap by congruence.
  destruct (apply_event dbg caddr q ev) as [q'|e| |] eqn:EA; cbn [bind].
  - change (with_prog (swap_rows q' (cl_prog c')) (reprog q c')) with (reprog q' c').
    destruct (apply_event_enc _ _ _ _ EA) as [B1 B2].
    rewrite (IH c' q') by congruence.
    destruct (events_loop f dbg be sx h c') as [[evs0 s0] cf0]. cbn [replay]. rewrite EA. reflexivity.
  - destruct (events_loop f dbg be sx h c') as [[evs0 s0] cf0]. cbn [replay]. rewrite EA. reflexivity.
  - destruct (events_loop f dbg be sx h c') as [[evs0 s0] cf0]. cbn [replay]. rewrite EA. reflexivity.
  - destruct (events_loop f dbg be sx h c') as [[evs0 s0] cf0]. cbn [replay]. rewrite EA. reflexivity.
Qed.

Lemma reprog_self c : reprog (cl_prog c) c = c.
Proof. destruct c as [r i f d p l a s]. destruct p. reflexivity. Qed.

(* ConvertLineProgram::convert is the read_row iteration replayed through set_address / generate_row /
   end_sequence: the events do not depend on the writer calls made in between *)
Lemma convert_is_replay caddr c :
  convert dbg be sx h caddr c =
  let '(evs, s, cf) := events dbg be sx h c in
  match replay caddr (cl_prog c) evs with
  | Ok q' => match s with
             | SEnd => if p_in_seq q' then Err CMissingLineEndSequence else Ok (reprog q' cf)
             | SErr e => Err e | SPanic => Panic | SFuel => OutOfFuel
             end
  | Err e => Err e | Panic => Panic | OutOfFuel => OutOfFuel
  end.
Proof.
  unfold convert, events.
  pose proof (convert_loop_replay caddr (seq_fuel c) c (cl_prog c) eq_refl eq_refl) as H.
  rewrite reprog_self in H. exact H.
Qed.

(* ------------------------------------------------------------------ the events as a C13 writer script *)

(* `opi` = op_index of the writer's current row (end_sequence reuses it) *)
Fixpoint script_of (opi : N) (evs : list clrow) : list LineWrSeqProofs.rop :=
  match evs with
  | [] => []
  | CRSetAddress a :: r => LineWrSeqProofs.RSetAddr a :: script_of opi r
  | CRRow w :: r => LineWrSeqProofs.RRow w :: script_of (w_op_index w) r
  | CREndSequence n :: r => LineWrSeqProofs.REnd n opi :: script_of 0 r
  end.

Lemma set_row_self p : set_row (with_op_index (p_row p) (w_op_index (p_row p))) p = p.
Proof. destruct p as [e l d f a b c0 d0 pv rw ins sq]. destruct rw. reflexivity. Qed.

Lemma replay_is_script : forall evs q,
  replay (fun a => Some (AConst a)) q evs =
  LineWrSeqProofs.apply_rops dbg q (script_of (w_op_index (p_row q)) evs).
Proof.
  induction evs as [|ev evs IH]; intros q; [reflexivity|].
  destruct ev as [a|w|n]; cbn [replay script_of LineWrSeqProofs.apply_rops LineWrSeqProofs.apply_rop apply_event].
  - cbn [bind option_map]. rewrite IH. reflexivity.
  - destruct (generate_row dbg (set_row w q)) as [q'|e| |] eqn:EG; cbn [bind]; try reflexivity.
    rewrite IH. f_equal. f_equal.
    unfold generate_row in EG. cbn [p_row p_prev p_lenc set_row] in EG.
    destruct (line_chunks 3 (Z.of_N (w_line (clear_row_flags w)) - Z.of_N (w_line (p_prev q)))) as [[ch d]|e| |];
      cbn [bind] in EG; try discriminate EG.
    destruct (op_advance dbg (p_lenc q) (clear_row_flags w) (p_prev q)); cbn [bind] in EG; try discriminate EG.
    destruct (advance_insns dbg (p_lenc q) (wrap_signed 64 d) a); cbn [bind] in EG; try discriminate EG.
    inversion EG. reflexivity.
  - rewrite set_row_self.
    destruct (end_sequence dbg q n) as [q'|e| |] eqn:EG; cbn [bind]; try reflexivity.
    rewrite IH. f_equal. f_equal.
    unfold end_sequence in EG.
    match type of EG with context [op_advance ?a ?b ?c ?d] => destruct (op_advance a b c d) end;
      cbn [bind] in EG; try discriminate EG.
    inversion EG. reflexivity.
Qed.

End Replay.

(* convert() composed with C13 (LineWrSeqProofs.script_correct): for a converter state whose program is fresh
   (no instruction yet, prev_row/row initial — what ConvertLineProgram::new returns) and the identity address
   conversion: IF the read_row iteration ends normally and the event script is admissible for the writer (C13's
   script_ok: offsets monotone and aligned, op_index below max_ops and not going back, advance < 2^64 — it fails exactly
   in the VLIW known-finding class), THEN convert() does not panic, its result is Ok or MissingLineEndSequence, and
   the instructions it emitted, executed on the DWARF line state machine (Spec/LineAdvSpec), yield exactly C13's
   meaning of the event script. *)
Lemma convert_emits_meaning dbg be sx h c evs cf :
  let p := cl_prog c in
  p_insns p = [] -> p_prev p = wrow_initial (p_enc p) (p_lenc p) -> p_row p = wrow_initial (p_enc p) (p_lenc p) ->
  p_in_seq p = false ->
  LineWrProofs.enc_ok (p_lenc p) -> (e_version (p_enc p) <= 5)%N ->
  events dbg be sx h c = (evs, SEnd, cf) ->
  LineWrSeqProofs.script_ok (p_enc p) (p_lenc p) (wrow_initial (p_enc p) (p_lenc p)) false (script_of 0 evs) ->
  exists q',
    convert dbg be sx h (fun a => Some (AConst a)) c =
      (if p_in_seq q' then Err CMissingLineEndSequence else Ok (reprog q' cf)) /\
    Forall LineWrProofs.special_ok (p_insns q') /\
    LineAdvSpec.rows_of (params_of (p_lenc p)) (map (denote (e_version (p_enc p))) (p_insns q')) =
      fst (LineWrSeqProofs.meaning (e_version (p_enc p)) (params_of (p_lenc p))
             (LineAdvSpec.init_regs (params_of (p_lenc p)), 0%N) (script_of 0 evs)).
Proof.
  intros p Hins Hprev Hrow Hseq Hok Hver Hev Hscript.
  destruct (LineWrSeqProofs.script_correct dbg (script_of 0 evs) p (LineAdvSpec.init_regs (params_of (p_lenc p))))
    as (q' & new & Eap & Eins & _ & _ & Fnew & Rnew).
  - exact Hok.
  - exact Hver.
  - rewrite Hprev. apply LineWrSeqProofs.seq_reset. exact Hver.
  - rewrite Hprev, Hseq. exact Hscript.
  - exists q'. rewrite (convert_is_replay dbg be sx h). rewrite Hev.
    rewrite (replay_is_script dbg). fold p. rewrite Hrow. cbn [wrow_initial w_op_index]. rewrite Eap.
    split; [reflexivity|]. rewrite Eins, Hins. cbn [app]. split; [exact Fnew|].
    unfold LineAdvSpec.rows_of. rewrite Rnew. rewrite Hprev. reflexivity.
Qed.

(* the hypotheses of convert_emits_meaning on a concrete two-sequence program (ConvertLineSim.wit_plain) *)
Require Import GV.Proofs.ConvertLineSim.
Definition plain_c0 (dbg : bool) : option cl := match cl_new dbg wit_sx (mk_src wit_plain None None) [] with Ok c => Some c | _ => None end.
