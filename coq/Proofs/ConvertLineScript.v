(* Proofs/ConvertLineScript.v — property C12: C13's script_ok for the converter's event script reduced to a
   first-order predicate on the event list (maximum_operations_per_instruction = 1): offsets non-decreasing within a
   sequence, multiples of minimum_instruction_length and below 2^64, lines below 2^64, op_index 0. *)
From Coq Require Import List NArith ZArith Bool Lia.
Require Import GV.Base.Res GV.Base.Ints GV.Model.LineWr GV.Model.ConvertLine GV.Proofs.LineWrProofs
               GV.Proofs.LineWrSeqProofs GV.Proofs.ConvertLineReplay.
Import ListNotations.
Local Open Scope N_scope.

Fixpoint evs_ok (mil pao : N) (evs : list clrow) : Prop :=
  match evs with
  | [] => True
  | CRSetAddress _ :: r => evs_ok mil pao r
  | CRRow w :: r =>
      pao <= w_address_offset w /\ w_address_offset w mod mil = 0 /\ w_address_offset w < two64 /\
      w_line w < two64 /\ w_op_index w = 0 /\ evs_ok mil (w_address_offset w) r
  | CREndSequence n :: r => pao <= n /\ n mod mil = 0 /\ n < two64 /\ evs_ok mil 0 r
  end.

Lemma div_small a mil : 1 <= mil -> a < two64 -> a / mil * 1 + 0 < 18446744073709551616.
Proof.
  intros Hm Ha. unfold two64 in Ha.
  assert (a / mil <= a) by (apply N.div_le_upper_bound; [lia|nia]). lia.
Qed.

Lemma evs_script_ok e l : le_max_ops l = 1 -> 1 <= le_min_len l -> le_min_len l <> 0 ->
  forall evs prev b opi,
  opi = 0 -> w_op_index prev = 0 -> w_line prev < two64 -> w_address_offset prev mod le_min_len l = 0 ->
  evs_ok (le_min_len l) (w_address_offset prev) evs ->
  script_ok e l prev b (script_of opi evs).
Proof.
  intros Hmo Hmil Hnz. induction evs as [|ev evs IH]; intros prev b opi Eo Po Pl Pa H; [exact I|].
  destruct ev as [a|w|n]; cbn [script_of script_ok evs_ok] in *.
  - apply IH; auto.
  - destruct H as (H1 & H2 & H3 & H4 & H5 & H6). split.
    + unfold row_ok, step_ok. rewrite Hmo, Po, H5. unfold two64 in *.
      repeat split; try assumption; try lia; try (apply div_small; [exact Hmil|unfold two64; lia]).
    + apply IH; cbn; auto.
  - destruct H as (H1 & H2 & H3 & H4). subst opi. split.
    + unfold end_ok, step_ok. rewrite Hmo, Po. unfold two64 in *.
      repeat split; try assumption; try lia; try (apply div_small; [exact Hmil|unfold two64; lia]).
    + apply IH; cbn; auto; try (unfold two64; lia); try (apply N.mod_0_l; exact Hnz).
Qed.
