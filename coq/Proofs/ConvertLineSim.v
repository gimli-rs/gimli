(* Proofs/ConvertLineSim.v — property C12, ConvertLineProgram: the converter's events against the reader's rows.
   A lock-step simulation between C04's reader (LineRows::next_row over the real row) and the converter
   (read_row over its private row), instruction by instruction: for every program outside the F10 class, if the
   reader's rows() and the converter's event iteration both run to the end, the events denote the reader's rows:
   address = (last SetAddress event of the sequence) + address_offset, every other register verbatim, the file
   register mapped through the FileId table, one EndSequence per sequence. A sequence whose DW_LNE_set_address
   operand is the tombstone -1 is dropped by both sides; one whose operand is -2 is dropped by the reader only and
   shows up as a ghost sequence of events (ev_match2), unless the class excludes that operand (ev_match). *)
From Coq Require Import List NArith ZArith Bool Lia ZifyBool ZifyN ZifyNat.
From Coq.Strings Require Import Byte.
Require Import GV.Base.Res GV.Base.Byt GV.Base.Ints GV.Model.Leb GV.Model.Prim GV.Spec.LineSpec GV.Model.LineRd
               GV.Proofs.LineRdBase GV.Proofs.LineRdMono GV.Model.LineWr GV.Model.ConvertLine
               GV.Proofs.ConvertLineProofs.
Import ListNotations.
Local Open Scope N_scope.
Local Arguments N.add : simpl never.
Local Arguments N.sub : simpl never.
Local Arguments N.mul : simpl never.
Local Arguments N.land : simpl never.
Local Arguments N.modulo : simpl never.
Local Arguments N.div : simpl never.
Local Arguments N.ltb : simpl never.
Local Arguments N.leb : simpl never.
Local Arguments N.eqb : simpl never.
Local Arguments N.of_nat : simpl never.

(* ------------------------------------------------------------------ the class of programs *)

(* min_tombstone for a validated address size *)
Definition mtomb (h : header) : N := N.land (two64 - 2) (mask_of (h_addr_size h)).

(* outside the F10 class (midseq_scan) AND no DW_LNE_set_address operand equal to `mt` (the -2 tombstone, which the
   reader drops but the converter keeps); the DWARF tombstone -1 (all ones) is inside the class *)
Fixpoint plain_scan (strict : bool) (mt : N) (is : list insn) (moved : bool) : bool :=
  match is with
  | [] => true
  | LineSpec.ISetAddress a :: r => negb moved && (negb strict || negb (a =? mt)) && plain_scan strict mt r true
  | LineSpec.IEndSequence :: r => plain_scan strict mt r false
  | LineSpec.ICopy :: r | LineSpec.ISpecial _ :: r | LineSpec.IAdvancePc _ :: r | LineSpec.IConstAddPc :: r
  | LineSpec.IFixedAddPc _ :: r => plain_scan strict mt r true
  | _ :: r => plain_scan strict mt r moved
  end.

Definition addrs_below (mt : N) (is : list insn) : bool :=
  forallb (fun i => match i with LineSpec.ISetAddress a => negb (a =? mt) | _ => true end) is.

Lemma plain_scan_iff strict mt : forall is moved,
  plain_scan strict mt is moved = negb (midseq_scan is moved) && (negb strict || addrs_below mt is).
Proof.
  induction is as [|i is IH]; intros moved; [destruct strict; reflexivity|].
  destruct i; cbn [plain_scan midseq_scan addrs_below forallb]; fold (addrs_below mt is);
    rewrite ?IH; try reflexivity.
  destruct moved; cbn [negb andb]; [reflexivity|].
  destruct strict; destruct (a =? mt); destruct (midseq_scan is true); destruct (addrs_below mt is); reflexivity.
Qed.

(* ------------------------------------------------------------------ small facts *)

Lemma min_tombstone_mtomb dbg h : asz_ok h -> min_tombstone_g dbg (h_addr_size h) = Ok (mtomb h).
Proof. intros Hs. unfold min_tombstone_g. rewrite ones_sized_ok by exact Hs. reflexivity. Qed.

Lemma rebase_reset h b r : r_end r = false -> row_reset h (rebase b r) = rebase b (row_reset h r).
Proof. intros E. unfold row_reset, rebase. cbn [r_end set_addr]. rewrite E. reflexivity. Qed.

Lemma rebase_0_new h : rebase 0 (row_new h) = row_new h.
Proof. reflexivity. Qed.

Lemma insns_step dbg be h f inp i rest :
  inp <> [] -> parse_insn dbg be h inp = Ok (i, rest) ->
  fst (insns_loop (S f) dbg be h inp) = i :: fst (insns_loop f dbg be h rest).
Proof.
  intros Hne EP. cbn [insns_loop]. destruct inp as [|b input]; [contradiction|]. rewrite EP.
  destruct (insns_loop f dbg be h rest). reflexivity.
Qed.

(* ------------------------------------------------------------------ what the events denote *)

(* a reader row against a converted row: address = base + offset, file through the FileId table, rest verbatim *)
Definition row_match (files : list N) (base : N) (r : row) (w : wrow) : Prop :=
  r_addr r = base + w_address_offset w /\ r_opi r = w_op_index w /\
  nth_error files (N.to_nat (r_file r)) = Some (w_file w) /\
  r_line r = w_line w /\ r_col r = w_column w /\ r_disc r = w_discriminator w /\
  r_stmt r = w_is_statement w /\ r_bb r = w_basic_block w /\ r_pe r = w_prologue_end w /\
  r_eb r = w_epilogue_begin w /\ r_isa r = w_isa w.

(* the event list against the reader's rows; `base` = the last SetAddress event of the sequence (0 if none),
   `hasrow` = a row of the current sequence has been seen (an empty sequence keeps only its end_sequence) *)
Fixpoint ev_match (files : list N) (base : N) (hasrow : bool) (evs : list clrow) (rs : list row) : Prop :=
  match evs with
  | [] => rs = []
  | CRSetAddress a :: evs' => ev_match files a hasrow evs' rs
  | CRRow w :: evs' =>
      match rs with
      | r :: rs' => r_end r = false /\ row_match files base r w /\ ev_match files base true evs' rs'
      | [] => False
      end
  | CREndSequence off :: evs' =>
      match rs with
      | r :: rs' => r_end r = true /\ (hasrow = true -> r_addr r = base + off) /\ ev_match files 0 false evs' rs'
      | [] => False
      end
  end.

Lemma row_match_app files extra base r w : row_match files base r w -> row_match (files ++ extra) base r w.
Proof.
  unfold row_match. intros (A & B & C & D). repeat split; try tauto.
  rewrite nth_error_app1; [exact C|]. apply nth_error_Some. rewrite C. discriminate.
Qed.

Lemma ev_match_app files extra : forall evs base hasrow rs,
  ev_match files base hasrow evs rs -> ev_match (files ++ extra) base hasrow evs rs.
Proof.
  induction evs as [|ev evs IH]; intros base hasrow rs H; [exact H|].
  destruct ev as [a|w|off]; cbn [ev_match] in *.
  - apply IH. exact H.
  - destruct rs as [|r rs]; [exact H|]. destruct H as (A & B & C).
    split; [exact A|]. split; [apply row_match_app; exact B|apply IH; exact C].
  - destruct rs as [|r rs]; [exact H|]. destruct H as (A & B & C).
    split; [exact A|]. split; [exact B|apply IH; exact C].
Qed.

(* ev_match extended by ghost sequences: a sequence headed by the event SetAddress(mt) (mt = the -2 value) and,
   for an empty one, a lone EndSequence, correspond to NO reader row *)
Fixpoint ev_match2 (files : list N) (mt base : N) (hasrow ghost : bool) (evs : list clrow) (rs : list row) : Prop :=
  match evs with
  | [] => rs = []
  | CRSetAddress a :: evs' =>
      ev_match2 files mt a hasrow false evs' rs \/ (a = mt /\ ev_match2 files mt a hasrow true evs' rs)
  | CRRow w :: evs' =>
      if ghost then ev_match2 files mt base hasrow true evs' rs
      else match rs with
           | r :: rs' => r_end r = false /\ row_match files base r w /\ ev_match2 files mt base true false evs' rs'
           | [] => False
           end
  | CREndSequence off :: evs' =>
      if ghost then ev_match2 files mt 0 false false evs' rs
      else (match rs with
            | r :: rs' => r_end r = true /\ (hasrow = true -> r_addr r = base + off) /\
                          ev_match2 files mt 0 false false evs' rs'
            | [] => False
            end) \/ (hasrow = false /\ ev_match2 files mt 0 false false evs' rs)
  end.

Lemma ev_match2_app files extra mt : forall evs base hasrow ghost rs,
  ev_match2 files mt base hasrow ghost evs rs -> ev_match2 (files ++ extra) mt base hasrow ghost evs rs.
Proof.
  induction evs as [|ev evs IH]; intros base hasrow ghost rs H; [exact H|].
  destruct ev as [a|w|off]; cbn [ev_match2] in *.
  - destruct H as [B|[A B]]; [left; apply IH; exact B|right; split; [exact A|apply IH; exact B]].
  - destruct ghost; [apply IH; exact H|].
    destruct rs as [|r rs]; [exact H|]. destruct H as (A & B & C).
    split; [exact A|]. split; [apply row_match_app; exact B|apply IH; exact C].
  - destruct ghost; [apply IH; exact H|].
    destruct H as [H|[A B]]; [left|right; split; [exact A|apply IH; exact B]].
    destruct rs as [|r rs]; [exact H|]. destruct H as (A & B & C).
    split; [exact A|]. split; [exact B|apply IH; exact C].
Qed.

(* ------------------------------------------------------------------ the simulation *)

(* the real row r and the private row q of a sequence based at `base` *)
Definition LIVE (r q : row) (base : N) : Prop := r_tomb r = false /\ q = rebase base r /\ base <= r_addr r.

Lemma live_reset h r q base : LIVE r q base -> r_end r = false -> LIVE (row_reset h r) (row_reset h q) base.
Proof.
  intros (Ht & Eq & Hb) Ee. subst q. rewrite (rebase_reset h base r Ee).
  unfold LIVE, row_reset. rewrite Ee. cbn. repeat split; assumption.
Qed.

Lemma convert_row_match h c r base w :
  LIVE r (cl_row c) base -> convert_row h c = Ok w -> row_match (cl_files c) base r w.
Proof.
  intros (Ht & Eq & Hb) EC. pose proof (convert_row_exact h c) as X. rewrite EC in X.
  destruct X as ((A & B & C & D & E & F & G & H1 & I1 & J) & Fi & _ & _).
  rewrite Eq in *. unfold row_match. cbn in *. repeat split; try congruence. rewrite A. clear - Hb. lia.
Qed.

(* how an instruction other than set_address / define_file changes "the address has moved in this sequence" *)
Definition scan_moved (i : insn) (moved : bool) : bool :=
  match i with
  | LineSpec.IEndSequence => false
  | LineSpec.ICopy | LineSpec.ISpecial _ | LineSpec.IAdvancePc _ | LineSpec.IConstAddPc | LineSpec.IFixedAddPc _ => true
  | _ => moved
  end.

Lemma plain_scan_plain strict mt i is moved :
  plain_insn i = true -> plain_scan strict mt (i :: is) moved = plain_scan strict mt is (scan_moved i moved).
Proof. destruct i; try discriminate; reflexivity. Qed.

Lemma plain_not_set_address i : plain_insn i = true -> forall a, i <> LineSpec.ISetAddress a.
Proof. intros H a ->. discriminate H. Qed.

Section Sim.
Variables (dbg be : bool) (sx : secs) (h : header).
Hypothesis Hh : hdr_ok h.
Variable strict : bool.     (* true: the -2 operand is excluded from the class; false: only F10 is *)

(* ev_match2 with its ghost clauses open only when the class admits the -2 operand *)
Fixpoint ev_sim (files : list N) (base : N) (hasrow ghost : bool) (evs : list clrow) (rs : list row) : Prop :=
  match evs with
  | [] => rs = []
  | CRSetAddress a :: evs' =>
      ev_sim files a hasrow false evs' rs \/ (strict = false /\ a = mtomb h /\ ev_sim files a hasrow true evs' rs)
  | CRRow w :: evs' =>
      if ghost then ev_sim files base hasrow true evs' rs
      else match rs with
           | r :: rs' => r_end r = false /\ row_match files base r w /\ ev_sim files base true false evs' rs'
           | [] => False
           end
  | CREndSequence off :: evs' =>
      if ghost then ev_sim files 0 false false evs' rs
      else (match rs with
            | r :: rs' => r_end r = true /\ (hasrow = true -> r_addr r = base + off) /\ ev_sim files 0 false false evs' rs'
            | [] => False
            end) \/ (strict = false /\ hasrow = false /\ ev_sim files 0 false false evs' rs)
  end.

Lemma ev_sim_match2 files : forall evs base hasrow ghost rs,
  ev_sim files base hasrow ghost evs rs -> ev_match2 files (mtomb h) base hasrow ghost evs rs.
Proof.
  induction evs as [|ev evs IH]; intros base hasrow ghost rs H; [exact H|].
  destruct ev as [a|w|off]; cbn [ev_sim ev_match2] in *.
  - destruct H as [H|(_ & A & H)]; [left|right; split; [exact A|]]; apply IH, H.
  - destruct ghost; [apply IH, H|]. destruct rs as [|r rs]; [exact H|].
    destruct H as (A & B & C). split; [exact A|]. split; [exact B|apply IH, C].
  - destruct ghost; [apply IH, H|]. destruct H as [H|(_ & A & H)]; [left|right; split; [exact A|apply IH, H]].
    destruct rs as [|r rs]; [exact H|]. destruct H as (A & B & C). split; [exact A|]. split; [exact B|apply IH, C].
Qed.

Lemma ev_sim_match files : strict = true -> forall evs base hasrow rs,
  ev_sim files base hasrow false evs rs -> ev_match files base hasrow evs rs.
Proof.
  intros Hs. induction evs as [|ev evs IH]; intros base hasrow rs H; [exact H|].
  destruct ev as [a|w|off]; cbn [ev_sim ev_match] in *.
  - destruct H as [H|(E & _)]; [apply IH, H|congruence].
  - destruct rs as [|r rs]; [exact H|]. destruct H as (A & B & C). split; [exact A|]. split; [exact B|apply IH, C].
  - destruct H as [H|(E & _)]; [|congruence].
    destruct rs as [|r rs]; [exact H|]. destruct H as (A & B & C). split; [exact A|]. split; [exact B|apply IH, C].
Qed.

Definition PS (f : nat) (inp : list byte) (moved : bool) : Prop :=
  plain_scan strict (mtomb h) (fst (insns_loop f dbg be h inp)) moved = true.

(* ---- facts about execute *)

(* execute on a tombstoned reader row keeps it tombstoned *)
Lemma execute_tomb r i r' x :
  r_tomb r = true -> (forall a, i <> LineSpec.ISetAddress a) ->
  execute dbg h r i = Ok (r', x) -> r_tomb r' = true.
Proof.
  intros Ht Hi.
  assert (A : forall adv k, adv_result (apply_operation_advance dbg h r adv) k = Ok (r', x) -> r_tomb r' = true).
  { intros adv k. unfold apply_operation_advance. rewrite Ht. cbn. intros E; inversion E; subst; exact Ht. }
  destruct i; cbn [execute]; try (intros E; inversion E; subst; cbn; exact Ht).
  - destruct (adjust_opcode dbg h op); cbn [bind]; try discriminate.
    destruct (h_line_range h =? 0); [discriminate|].
    unfold apply_operation_advance. rewrite tomb_line_advance, Ht. cbn. intros E; inversion E; subst.
    rewrite tomb_line_advance. exact Ht.
  - apply A.
  - intros E; inversion E; subst. rewrite tomb_line_advance. exact Ht.
  - destruct (adjust_opcode dbg h 255); cbn [bind]; try discriminate.
    destruct (h_line_range h =? 0); [discriminate|]. apply A.
  - rewrite Ht. intros E; inversion E; subst; exact Ht.
  - exfalso. eapply Hi. reflexivity.
Qed.

(* the outcome kind and the end_sequence flag depend on the instruction only *)
Lemma aoa_end r adv r' e : apply_operation_advance dbg h r adv = Ok (r', e) -> r_end r' = r_end r.
Proof.
  unfold apply_operation_advance. destruct (r_tomb r); [intros E; inversion E; reflexivity|].
  destruct (h_max_ops h =? 1); [|destruct (h_max_ops h =? 0); [discriminate|]]; cbn [bind];
    match goal with |- context [add_sized_g ?d ?a ?b ?c] => destruct (add_sized_g d a b c) end;
    intros E; inversion E; reflexivity.
Qed.

Lemma adv_result_shape r adv k r' x :
  adv_result (apply_operation_advance dbg h r adv) k = Ok (r', x) -> (forall e, x <> XErr e) ->
  x = k /\ r_end r' = r_end r.
Proof.
  unfold adv_result. destruct (apply_operation_advance dbg h r adv) as [[r0 [e|]]|e| |] eqn:EA; cbn;
    intros E Hx; inversion E; subst; [exfalso; eapply Hx; reflexivity|].
  split; [reflexivity|eapply aoa_end; exact EA].
Qed.

Lemma execute_shape r q i r' x q' y :
  (forall a, i <> LineSpec.ISetAddress a) ->
  execute dbg h r i = Ok (r', x) -> execute dbg h q i = Ok (q', y) ->
  (forall e, x <> XErr e) -> (forall e, y <> XErr e) -> r_end r = r_end q ->
  x = y /\ r_end r' = r_end q'.
Proof.
  intros Hi. destruct i; cbn [execute];
    try solve [intros E1 E2 _ _ He; inversion E1; inversion E2; subst; cbn; auto].
  - destruct (adjust_opcode dbg h op); cbn [bind]; try discriminate.
    destruct (h_line_range h =? 0); [discriminate|].
    intros E1 E2 H1 H2 He. destruct (adv_result_shape _ _ _ _ _ E1 H1) as [-> A1].
    destruct (adv_result_shape _ _ _ _ _ E2 H2) as [-> A2]. rewrite A1, A2, !end_line_advance. auto.
  - intros E1 E2 H1 H2 He. destruct (adv_result_shape _ _ _ _ _ E1 H1) as [-> A1].
    destruct (adv_result_shape _ _ _ _ _ E2 H2) as [-> A2]. rewrite A1, A2. auto.
  - intros E1 E2 _ _ He; inversion E1; inversion E2; subst. rewrite !end_line_advance. auto.
  - destruct (adjust_opcode dbg h 255); cbn [bind]; try discriminate.
    destruct (h_line_range h =? 0); [discriminate|].
    intros E1 E2 H1 H2 He. destruct (adv_result_shape _ _ _ _ _ E1 H1) as [-> A1].
    destruct (adv_result_shape _ _ _ _ _ E2 H2) as [-> A2]. rewrite A1, A2. auto.
  - intros E1 E2 H1 H2 He.
    destruct (r_tomb r); [inversion E1; subst|
      destruct (add_sized_g dbg (r_addr r) n (h_addr_size h)); inversion E1; subst; [|exfalso; eapply H1; reflexivity]];
    (destruct (r_tomb q); [inversion E2; subst|
      destruct (add_sized_g dbg (r_addr q) n (h_addr_size h)); inversion E2; subst; [|exfalso; eapply H2; reflexivity]]);
    cbn; auto.
  - exfalso. eapply Hi. reflexivity.
Qed.

(* an instruction after which the address has not moved ends the sequence or keeps the address *)
Lemma execute_unmoved r i moved r' x :
  plain_insn i = true -> scan_moved i moved = false -> execute dbg h r i = Ok (r', x) ->
  match x with XRow => r_end r' = true | XNoRow => r_addr r' = r_addr r /\ moved = false | XErr _ => True end.
Proof.
  intros Hp Hs. destruct i; cbn [scan_moved] in Hs; try discriminate Hs; try discriminate Hp; cbn [execute];
    intros E; inversion E; subst; cbn; auto using addr_line_advance.
Qed.

(* DW_LNE_set_address on a row at address 0 *)
Lemma execute_set_address_first r a : r_addr r = 0 ->
  execute dbg h r (LineSpec.ISetAddress a) =
    Ok (if mtomb h <=? a then set_tomb r true else set_opi (set_addr (set_tomb r false) a) 0, XNoRow).
Proof.
  destruct Hh as (_ & _ & _ & Hsz). intros R0. cbn [execute]. rewrite R0.
  replace (a <? 0) with false by (symmetry; apply N.ltb_ge; lia).
  rewrite (min_tombstone_mtomb dbg h Hsz). cbn [bind]. destruct (mtomb h <=? a); reflexivity.
Qed.

(* ---- one step of LineRows::next_row; the rows and events still to come *)

Definition row_step (f : nat) (r : row) (rest : list byte) (added : list file_entry) (inseq : bool) (i : insn)
  : nr_out * lr_state :=
  match execute dbg h r i with
  | Panic => (NPanic, mk_st r rest added inseq)
  | OutOfFuel => (NFuel, mk_st r rest added inseq)
  | Err e => (NErr e, mk_st r rest added inseq)
  | Ok (r', XErr e) => (NErr e, mk_st r' rest (LineRd.add_file false i added) inseq)
  | Ok (r', XNoRow) => next_row_loop f dbg be false h r' rest (LineRd.add_file false i added) inseq
  | Ok (r', XRow) =>
      if r_tomb r' && negb (r_end r' && inseq) then next_row_loop f dbg be false h (row_reset h r') rest added inseq
      else (NRow, mk_st r' rest added (negb (r_end r')))
  end.

Lemma next_row_loop_S f r b input added inseq i rest :
  parse_insn dbg be h (b :: input) = Ok (i, rest) ->
  next_row_loop (S f) dbg be false h r (b :: input) added inseq = row_step f r rest added inseq i.
Proof. intros P. cbn [next_row_loop]. rewrite P. reflexivity. Qed.

Definition rows_after (fr : nat) (ro : nr_out * lr_state) : list row * status * lr_state :=
  match ro with
  | (NRow, st') => let '(rs, s, stf) := rows_loop fr dbg be false h st' in (st_row st' :: rs, s, stf)
  | (NNone, st') => ([], SEnd, st')
  | (NErr e, st') => ([], SErr e, st')
  | (NPanic, st') => ([], SPanic, st')
  | (NFuel, st') => ([], SFuel, st')
  end.
Lemma rows_loop_S fr st : rows_loop (S fr) dbg be false h st = rows_after fr (next_row dbg be false h st).
Proof. cbn [rows_loop]. destruct (next_row dbg be false h st) as [[| | | |] st']; reflexivity. Qed.

Definition events_after (fe : nat) (co : rr_out) : list clrow * status * cl :=
  match co with
  | (Ok None, c') => ([], SEnd, c')
  | (Ok (Some ev), c') => let '(evs, s, cf) := events_loop fe dbg be sx h c' in (ev :: evs, s, cf)
  | (Err e, c') => ([], SErr e, c')
  | (Panic, c') => ([], SPanic, c')
  | (OutOfFuel, c') => ([], SFuel, c')
  end.
Lemma events_loop_S fe c : events_loop (S fe) dbg be sx h c = events_after fe (read_row dbg be sx h c).
Proof. reflexivity. Qed.

(* a returned row, then the next call *)
Lemma rows_after_row fr r' rest added inseq rs stf :
  rows_after fr (NRow, mk_st r' rest added inseq) = (rs, SEnd, stf) ->
  exists fr' rs', rs = r' :: rs' /\
    rows_after fr' (next_row_loop (S (length rest)) dbg be false h (row_reset h r') rest added inseq) = (rs', SEnd, stf).
Proof.
  cbn [rows_after]. destruct fr as [|fr]; [discriminate|]. rewrite rows_loop_S. unfold next_row. cbn [st_row st_inp st_added st_inseq].
  destruct (rows_after fr _) as [[rs0 s0] st0] eqn:ER. intros E; injection E as <- -> ->. eauto.
Qed.

(* a returned event, then the next call *)
Definition renew (c : cl) : cl := with_row (row_reset h (cl_row c)) (with_addr None c).

Lemma events_after_event fe ev c evs cf :
  events_after fe (Ok (Some ev), c) = (evs, SEnd, cf) ->
  exists evs', evs = ev :: evs' /\ events_loop fe dbg be sx h c = (evs', SEnd, cf).
Proof. cbn [events_after]. destruct (events_loop fe dbg be sx h c) as [[e0 s0] c0] eqn:EE. intros E; injection E as <- -> ->. eauto. Qed.

Lemma events_loop_next fe c evs cf :
  cl_st c = CSReadRow -> events_loop fe dbg be sx h c = (evs, SEnd, cf) ->
  exists fe', events_after fe' (read_loop (S (length (cl_inp c))) dbg be sx h (renew c) false) = (evs, SEnd, cf).
Proof. intros Hst. destruct fe as [|fe]; [discriminate|]. rewrite events_loop_S. unfold read_row. rewrite Hst. eauto. Qed.

Lemma events_after_ret_row fe c evs cf :
  events_after fe (ret_row h c) = (evs, SEnd, cf) ->
  exists w evs', convert_row h c = Ok w /\ evs = CRRow w :: evs' /\ events_loop fe dbg be sx h c = (evs', SEnd, cf).
Proof.
  unfold ret_row. destruct (convert_row h c) as [w|e| |]; try discriminate.
  intros H. apply events_after_event in H. destruct H as (evs' & -> & H). eauto.
Qed.

(* ---- the relation *)

(* reader inside next_row at row r, converter inside read_row at state c with its local `tombstone`; `moved` as in
   plain_scan; `base`, `inseq` (= hasrow) and `ghost` are the arguments of ev_sim for what is still to come *)
Inductive SYNC (r : row) (c : cl) : bool -> bool -> bool -> N -> bool -> Prop :=
| sync_live b inseq moved base :
    LIVE r (cl_row c) b ->
    (* the SetAddress event is still pending, or has been returned *)
    (cl_addr c = Some b /\ inseq = false /\ moved = true \/ cl_addr c = None /\ b = base) ->
    (moved = false -> r_addr r = 0 /\ b = 0) -> (inseq = true -> moved = true) ->
    SYNC r c inseq false moved base false
| sync_tomb :    (* operand -1: both sides skip the sequence *)
    r_tomb r = true -> r_end r = r_end (cl_row c) -> SYNC r c false true true 0 false
| sync_ghost base (ghost : bool) :    (* operand -2: the reader skips the sequence, the converter keeps it *)
    strict = false -> r_tomb r = true -> r_end r = r_end (cl_row c) ->
    cl_addr c = (if ghost then None else Some (mtomb h)) -> SYNC r c false false true base ghost.

Lemma sync_fresh c moved : cl_row c = row_new h -> cl_addr c = None -> SYNC (row_new h) c false false moved 0 false.
Proof.
  intros Er Ea. apply sync_live with (b := 0); [rewrite Er; repeat split; apply N.le_0_l|auto|auto|discriminate].
Qed.

Lemma sync_ext r c c' inseq tomb moved base ghost :
  cl_row c' = cl_row c -> cl_addr c' = cl_addr c ->
  SYNC r c inseq tomb moved base ghost -> SYNC r c' inseq tomb moved base ghost.
Proof. intros Er Ea []; [eapply sync_live|apply sync_tomb|apply sync_ghost]; rewrite ?Er, ?Ea; eassumption. Qed.

Definition MATCH (ro : nr_out * lr_state) (co : rr_out) (base : N) (hasrow ghost : bool) : Prop :=
  forall fr fe rs stf evs cf,
    rows_after fr ro = (rs, SEnd, stf) -> events_after fe co = (evs, SEnd, cf) ->
    ev_sim (cl_files cf) base hasrow ghost evs rs.

Lemma match_rd_stop o st co base hasrow ghost : o <> NRow -> o <> NNone -> MATCH (o, st) co base hasrow ghost.
Proof. intros H1 H2 fr fe rs stf evs cf Hr _. destruct o; try discriminate Hr; contradiction. Qed.

Lemma match_cv_stop ro o c base hasrow ghost : (forall x, o <> Ok x) -> MATCH ro (o, c) base hasrow ghost.
Proof. intros H fr fe rs stf evs cf _ He. destruct o as [x| | |]; try discriminate He. destruct (H x eq_refl). Qed.

Section Step.
Variables (rest : list byte) (scan : bool -> Prop).
(* both sides inside their loops over the rest of the input, whatever the fuels *)
Hypothesis K : forall f1 f2 r added inseq c tomb moved base ghost,
  cl_inp c = rest -> cl_st c = CSReadRow -> scan moved -> SYNC r c inseq tomb moved base ghost ->
  MATCH (next_row_loop f1 dbg be false h r rest added inseq) (read_loop f2 dbg be sx h c tomb) base inseq ghost.

(* the converter starts its next call, the reader is where it was *)
Lemma cont_next_call f1 r added inseq c moved base ghost fr fe rs stf evs cf :
  cl_inp c = rest -> cl_st c = CSReadRow -> scan moved -> SYNC r (renew c) inseq false moved base ghost ->
  rows_after fr (next_row_loop f1 dbg be false h r rest added inseq) = (rs, SEnd, stf) ->
  events_loop fe dbg be sx h c = (evs, SEnd, cf) ->
  ev_sim (cl_files cf) base inseq ghost evs rs.
Proof.
  intros Ei Hst Hsc HS Hr He. destruct (events_loop_next fe c evs cf Hst He) as [fe' He'].
  rewrite Ei in He'. exact (K f1 _ r added inseq (renew c) false moved base ghost Ei Hst Hsc HS fr fe' rs stf evs cf Hr He').
Qed.

(* the reader returns the row r', the converter its Row event *)
Lemma live_row_event r' c b added hasrow fr fe rs stf evs cf :
  LIVE r' (cl_row c) b -> r_end r' = false -> cl_inp c = rest -> scan true ->
  rows_after fr (NRow, mk_st r' rest added true) = (rs, SEnd, stf) ->
  events_after fe (ret_row h (with_st CSReadRow c)) = (evs, SEnd, cf) ->
  ev_sim (cl_files cf) b hasrow false evs rs.
Proof.
  intros HL Ee Ei Hsc Hr He.
  destruct (rows_after_row _ _ _ _ _ _ _ Hr) as (fr' & rs' & -> & Hr').
  destruct (events_after_ret_row _ _ _ _ He) as (w & evs' & EC & -> & He').
  cbn [ev_sim]. split; [exact Ee|]. split.
  - destruct (events_loop_files dbg be sx h fe (with_st CSReadRow c)) as [extra Hx]. rewrite He' in Hx. cbn [snd] in Hx.
    rewrite Hx. apply row_match_app. exact (convert_row_match h c r' b w HL EC).
  - refine (cont_next_call _ _ _ true (with_st CSReadRow c) true b false fr' fe rs' stf evs' cf Ei eq_refl Hsc _ Hr' He').
    apply sync_live with (b := b); [apply live_reset; assumption|auto|discriminate|auto].
Qed.

(* both sides have executed an instruction of a live sequence that yields a row *)
Lemma live_row r' c b base added inseq moved1 :
  LIVE r' (cl_row c) b -> cl_inp c = rest -> cl_st c = CSReadRow ->
  (cl_addr c = Some b /\ inseq = false \/ cl_addr c = None /\ b = base) ->
  scan moved1 -> (moved1 = false -> r_end r' = true) ->
  MATCH (NRow, mk_st r' rest added (negb (r_end r'))) (emit_row h c) base inseq false.
Proof.
  intros HL Ei Hst Hp Hsc Hm fr fe rs stf evs cf Hr He.
  assert (Ee : r_end (cl_row c) = r_end r') by (destruct HL as (_ & -> & _); reflexivity).
  unfold emit_row in He. rewrite Ee in He. destruct (r_end r') eqn:Er.
  - (* end of sequence: both restart from the initial registers *)
    pose proof (address_offset_exact c) as AO.
    destruct (convert_address_offset c) as [ao|e| |]; try discriminate He.
    destruct AO as [-> _]. apply events_after_event in He. destruct He as (evs' & -> & He).
    destruct (rows_after_row _ _ _ _ _ _ _ Hr) as (fr' & rs' & -> & Hr').
    assert (R1 : row_reset h r' = row_new h) by (unfold row_reset; rewrite Er; reflexivity).
    rewrite R1 in Hr'.
    cbn [ev_sim]. left. split; [exact Er|]. split.
    + intros Hi. destruct Hp as [(_ & Hp)|(_ & <-)]; [congruence|].
      destruct HL as (_ & -> & Hle). cbn. lia.
    + refine (cont_next_call _ _ _ false c moved1 0 false fr' fe rs' stf evs' cf Ei Hst Hsc _ Hr' He).
      apply sync_fresh; [|reflexivity]. cbn. unfold row_reset. rewrite Ee. reflexivity.
  - assert (Hm1 : moved1 = true) by (destruct moved1; [reflexivity|discriminate (Hm eq_refl)]). subst moved1.
    destruct Hp as [(Ea & ->)|(Ea & <-)]; rewrite Ea in He.
    + (* the pending address first, then the row *)
      apply events_after_event in He. destruct He as (evs' & -> & He).
      destruct fe as [|fe]; [discriminate He|]. rewrite events_loop_S in He.
      cbn [ev_sim]. left.
      exact (live_row_event r' (with_st CSConvertRow (with_addr None c)) b added false fr fe rs stf evs' cf HL Er Ei Hsc Hr He).
    + exact (live_row_event r' c b added inseq fr fe rs stf evs cf HL Er Ei Hsc Hr He).
Qed.

(* ---- one instruction, by class of instruction and state *)

Lemma live_plain f1 f2 r c b base added inseq moved i :
  plain_insn i = true -> LIVE r (cl_row c) b -> cl_inp c = rest -> cl_st c = CSReadRow ->
  (cl_addr c = Some b /\ inseq = false /\ moved = true \/ cl_addr c = None /\ b = base) ->
  (moved = false -> r_addr r = 0 /\ b = 0) -> (inseq = true -> moved = true) ->
  scan (scan_moved i moved) ->
  MATCH (row_step f1 r rest added inseq i) (after_exec dbg be sx h f2 c false (execute dbg h (cl_row c) i)) base inseq false.
Proof.
  intros Hp (Ht & Eq & Hb) Ei Hst Ha Hm Hi Hsc. unfold row_step.
  destruct (execute dbg h r i) as [[r' x]|e| |] eqn:EX; try (apply match_rd_stop; discriminate).
  destruct x as [| |e]; [| |apply match_rd_stop; discriminate].
  - (* a row: returned by both *)
    destruct (execute_rebase dbg h r i b r' XRow Hh Ht Hb (plain_not_set_address i Hp) EX ltac:(discriminate)) as (ER & Tr & Br).
    rewrite Eq, ER, Tr. cbn [andb]. unfold after_exec. cbv beta iota zeta.
    apply live_row with (b := b) (moved1 := scan_moved i moved); auto.
    + repeat split; assumption.
    + destruct Ha as [(A & B & _)|A]; auto.
    + intros M. exact (execute_unmoved r i moved r' XRow Hp M EX).
  - (* no row: both go on *)
    destruct (execute_rebase dbg h r i b r' XNoRow Hh Ht Hb (plain_not_set_address i Hp) EX ltac:(discriminate)) as (ER & Tr & Br).
    rewrite Eq, ER. unfold after_exec. cbv beta iota.
    pose proof (fun M => execute_unmoved r i moved r' XNoRow Hp M EX) as U. cbv beta iota in U.
    apply K with (moved := scan_moved i moved); [exact Ei|exact Hst|exact Hsc|].
    apply sync_live with (b := b).
    + repeat split; assumption.
    + destruct Ha as [(A & B & C)|A]; [left|right; exact A]. split; [exact A|]. split; [exact B|].
      destruct (scan_moved i moved); [reflexivity|]. destruct (U eq_refl) as [_ M0]. congruence.
    + intros M. destruct (U M) as [A0 M0]. rewrite A0. exact (Hm M0).
    + intros I1. destruct (scan_moved i moved); [reflexivity|]. destruct (U eq_refl) as [_ M0]. specialize (Hi I1). congruence.
Qed.

(* DW_LNE_set_address, first address of its sequence: a live address, the tombstone -1, or the value -2 *)
Lemma step_set_address f1 f2 r c added a b0 input :
  cl_inp c = b0 :: input -> parse_insn dbg be h (b0 :: input) = Ok (LineSpec.ISetAddress a, rest) -> a <= amask h ->
  cl_st c = CSReadRow -> LIVE r (cl_row c) 0 -> r_addr r = 0 ->
  (strict = true -> a <> mtomb h) -> scan true ->
  MATCH (row_step f1 r rest added false (LineSpec.ISetAddress a)) (read_loop (S f2) dbg be sx h c false) 0 false false.
Proof.
  intros Ei EP Ga Hst (Ht & Eq & _) R0 Hs Hsc. pose proof Hh as (_ & _ & _ & Hsz).
  destruct (min_tombstone_val _ Hsz) as [Ms M0]. fold (mtomb h) in Ms, M0. unfold amask in Ga.
  unfold row_step. rewrite (execute_set_address_first r a R0).
  rewrite (read_loop_set_address dbg be sx h f2 c false b0 input rest Ei a EP). unfold after_set_address.
  assert (Q0 : r_addr (cl_row (with_inp rest c)) = 0) by (cbn; rewrite Eq; cbn; lia).
  rewrite (set_address_zero dbg h _ Hh Q0), (ones_sized_ok dbg _ Hsz). cbv zeta.
  destruct (N.lt_trichotomy a (mtomb h)) as [Hlt|[He|Hgt]].
  - (* a live address *)
    replace (mtomb h <=? a) with false by lia. replace (a =? mask_of (h_addr_size h)) with false by lia.
    apply K with (moved := true); [reflexivity|exact Hst|exact Hsc|].
    apply sync_live with (b := a); [|left; repeat split|discriminate|reflexivity].
    repeat split; cbn; try lia. rewrite Eq. unfold rebase, set_opi, set_addr, set_tomb. cbn. f_equal. lia.
  - (* the value -2: the reader drops the sequence, the converter keeps it *)
    replace (mtomb h <=? a) with true by lia. replace (a =? mask_of (h_addr_size h)) with false by lia.
    apply K with (moved := true); [reflexivity|exact Hst|exact Hsc|].
    apply (sync_ghost _ _ 0 false); [destruct strict; [destruct (Hs eq_refl He)|reflexivity]|reflexivity| |cbn; congruence].
    cbn. rewrite Eq. reflexivity.
  - (* the DWARF tombstone -1 *)
    replace (mtomb h <=? a) with true by lia. replace (a =? mask_of (h_addr_size h)) with true by lia.
    apply K with (moved := true); [reflexivity|exact Hst|exact Hsc|].
    apply sync_tomb; [reflexivity|]. cbn. rewrite Eq. reflexivity.
Qed.

(* DW_LNE_define_file, in every state *)
Lemma step_define_file f1 f2 r c added inseq tomb moved base ghost fe b0 input :
  cl_inp c = b0 :: input -> parse_insn dbg be h (b0 :: input) = Ok (LineSpec.IDefineFile fe, rest) ->
  cl_st c = CSReadRow -> scan moved -> SYNC r c inseq tomb moved base ghost ->
  MATCH (row_step f1 r rest added inseq (LineSpec.IDefineFile fe)) (read_loop (S f2) dbg be sx h c tomb) base inseq ghost.
Proof.
  intros Ei EP Hst Hsc HS. unfold row_step. cbn [execute].
  rewrite (read_loop_define_file dbg be sx h f2 c tomb b0 input rest Ei fe EP). unfold after_define_file.
  destruct (convert_file sx _ _ _ fe) as [[[[name d] info] ls']|e| |]; try (apply match_cv_stop; discriminate).
  destruct (LineWr.add_file _ name d info) as [[p' id]|e| |]; try (apply match_cv_stop; discriminate).
  apply K with (moved := moved); [reflexivity|exact Hst|exact Hsc|]. revert HS. apply sync_ext; reflexivity.
Qed.

(* the converter returns the Row event of a ghost sequence; the reader is still skipping *)
Lemma ghost_row_event f1 r c b added fr fe rs stf evs cf :
  strict = false -> r_tomb r = true -> r_end r = false -> r_end (cl_row c) = false -> cl_inp c = rest -> scan true ->
  rows_after fr (next_row_loop f1 dbg be false h r rest added false) = (rs, SEnd, stf) ->
  events_after fe (ret_row h (with_st CSReadRow c)) = (evs, SEnd, cf) ->
  ev_sim (cl_files cf) b false true evs rs.
Proof.
  intros Es Ht Er Eq Ei Hsc Hr He.
  destruct (events_after_ret_row _ _ _ _ He) as (w & evs' & _ & -> & He'). cbn [ev_sim].
  refine (cont_next_call f1 r added false (with_st CSReadRow c) true b true fr fe rs stf evs' cf Ei eq_refl Hsc _ Hr He').
  apply (sync_ghost _ _ b true); [exact Es|exact Ht| |reflexivity].
  change (r_end r = r_end (row_reset h (cl_row c))). unfold row_reset. rewrite Eq. cbn [r_end]. congruence.
Qed.

(* a tombstoned reader row and any converter row with the same end_sequence flag execute an instruction with the same
   kind of outcome; the reader skips a row it is due *)
Lemma skip_step f1 r q added i (P : nr_out * lr_state -> res (row * xout) -> Prop) :
  plain_insn i = true -> r_tomb r = true -> r_end r = r_end q ->
  (forall o st y, o <> NRow -> o <> NNone -> P (o, st) y) ->
  (forall ro y, (forall q', y <> Ok (q', XRow)) -> (forall q', y <> Ok (q', XNoRow)) -> P ro y) ->
  (forall r' q', execute dbg h r i = Ok (r', XRow) -> execute dbg h q i = Ok (q', XRow) ->
     r_tomb r' = true -> r_end r' = r_end q' ->
     P (next_row_loop f1 dbg be false h (row_reset h r') rest added false) (Ok (q', XRow))) ->
  (forall r' q', execute dbg h r i = Ok (r', XNoRow) -> execute dbg h q i = Ok (q', XNoRow) ->
     r_tomb r' = true -> r_end r' = r_end q' ->
     P (next_row_loop f1 dbg be false h r' rest (LineRd.add_file false i added) false) (Ok (q', XNoRow))) ->
  P (row_step f1 r rest added false i) (execute dbg h q i).
Proof.
  intros Hp Ht Hee Prd Pcv Prow Pno. pose proof (plain_not_set_address i Hp) as Hns. unfold row_step.
  destruct (execute dbg h r i) as [[r' x]|e| |] eqn:EX; try (apply Prd; discriminate).
  destruct (execute dbg h q i) as [[q' y]|e| |] eqn:EY; try (apply Pcv; discriminate).
  destruct x as [| |e]; [| |apply Prd; discriminate];
    (destruct y as [| |e]; [| |apply Pcv; discriminate]);
    pose proof (execute_tomb r i r' _ Ht Hns EX) as Tr;
    destruct (execute_shape r q i r' _ q' _ Hns EX EY ltac:(discriminate) ltac:(discriminate) Hee) as [Ek Eend];
    try discriminate Ek.
  - rewrite Tr, andb_false_r. cbn [negb andb]. apply Prow; auto.
  - apply Pno; auto.
Qed.

(* an instruction executed in a sequence whose address has moved leaves it moved unless it ends the sequence *)
Lemma moved_stays q i q' x :
  plain_insn i = true -> execute dbg h q i = Ok (q', x) -> (forall e, x <> XErr e) -> (x = XRow -> r_end q' = false) ->
  scan_moved i true = true.
Proof.
  intros Hp EX Hx Hr. destruct (scan_moved i true) eqn:M; [reflexivity|].
  pose proof (execute_unmoved q i true q' x Hp M EX) as U.
  destruct x as [| |e]; [rewrite (Hr eq_refl) in U; discriminate U|destruct U as [_ U]; discriminate U|destruct (Hx e eq_refl)].
Qed.

Lemma tomb_plain f1 f2 r c added i :
  plain_insn i = true -> r_tomb r = true -> r_end r = r_end (cl_row c) -> cl_inp c = rest -> cl_st c = CSReadRow ->
  scan (scan_moved i true) ->
  MATCH (row_step f1 r rest added false i) (after_exec dbg be sx h f2 c true (execute dbg h (cl_row c) i)) 0 false false.
Proof.
  intros Hp Ht Hee Ei Hst Hsc.
  apply (skip_step f1 r (cl_row c) added i (fun ro y => MATCH ro (after_exec dbg be sx h f2 c true y) 0 false false) Hp Ht Hee).
  - intros. apply match_rd_stop; assumption.
  - intros ro y H1 H2. unfold after_exec. destruct y as [[q' [| |e]]|e| |]; try (apply match_cv_stop; discriminate).
    + destruct (H1 q' eq_refl). + destruct (H2 q' eq_refl).
  - (* a row of the tombstoned sequence: skipped by both *)
    intros r' q' EX EY Tr Eend. unfold after_exec. cbv beta iota zeta. destruct (r_end q') eqn:Eq'.
    + (* its end_sequence: both restart from the initial registers *)
      assert (R1 : row_reset h r' = row_new h) by (unfold row_reset; rewrite Eend; reflexivity). rewrite R1.
      apply K with (moved := scan_moved i true); [exact Ei|exact Hst|exact Hsc|].
      apply sync_fresh; [cbn; unfold row_reset; rewrite Eq'; reflexivity|reflexivity].
    + rewrite (moved_stays _ i q' XRow Hp EY ltac:(discriminate) (fun _ => Eq')) in Hsc.
      apply K with (moved := true); [exact Ei|exact Hst|exact Hsc|].
      apply sync_tomb; cbn [cl_row with_row]; unfold row_reset; rewrite Eend, ?Eq'; [exact Tr|reflexivity].
  - intros r' q' EX EY Tr Eend. unfold after_exec. cbv beta iota.
    rewrite (moved_stays _ i q' XNoRow Hp EY ltac:(discriminate) ltac:(discriminate)) in Hsc.
    apply K with (moved := true); [exact Ei|exact Hst|exact Hsc|]. apply sync_tomb; assumption.
Qed.

Lemma ghost_plain f1 f2 r c added base (ghost : bool) i :
  strict = false -> plain_insn i = true -> r_tomb r = true -> r_end r = r_end (cl_row c) ->
  cl_addr c = (if ghost then None else Some (mtomb h)) -> cl_inp c = rest -> cl_st c = CSReadRow ->
  scan (scan_moved i true) ->
  MATCH (row_step f1 r rest added false i) (after_exec dbg be sx h f2 c false (execute dbg h (cl_row c) i)) base false ghost.
Proof.
  intros Es Hp Ht Hee Ha Ei Hst Hsc.
  apply (skip_step f1 r (cl_row c) added i (fun ro y => MATCH ro (after_exec dbg be sx h f2 c false y) base false ghost) Hp Ht Hee).
  - intros. apply match_rd_stop; assumption.
  - intros ro y H1 H2. unfold after_exec. destruct y as [[q' [| |e]]|e| |]; try (apply match_cv_stop; discriminate).
    + destruct (H1 q' eq_refl). + destruct (H2 q' eq_refl).
  - (* a row: skipped by the reader, an event of the converter *)
    intros r' q' EX EY Tr Eend. unfold after_exec. cbv beta iota zeta. intros fr fe rs stf evs cf Hr He.
    unfold emit_row in He. cbn [cl_row with_row cl_addr] in He. destruct (r_end q') eqn:Eq'.
    + (* the ghost sequence ends; if its address is still pending, it is swallowed *)
      destruct (convert_address_offset (with_row q' c)) as [ao|e| |]; try discriminate He.
      apply events_after_event in He. destruct He as (evs' & -> & He).
      assert (R1 : row_reset h r' = row_new h) by (unfold row_reset; rewrite Eend; reflexivity). rewrite R1 in Hr.
      assert (G : ev_sim (cl_files cf) 0 false false evs' rs).
      { refine (cont_next_call f1 _ added false (with_row q' c) (scan_moved i true) 0 false fr fe rs stf evs' cf Ei Hst Hsc _ Hr He).
        apply sync_fresh; [cbn; unfold row_reset; rewrite Eq'; reflexivity|reflexivity]. }
      cbn [ev_sim]. destruct ghost; [exact G|right; auto].
    + rewrite (moved_stays _ i q' XRow Hp EY ltac:(discriminate) (fun _ => Eq')) in Hsc.
      assert (Rr : r_tomb (row_reset h r') = true /\ r_end (row_reset h r') = false)
        by (unfold row_reset; rewrite Eend; cbn; auto).
      rewrite Ha in He. destruct ghost.
      * exact (ghost_row_event f1 _ (with_row q' c) base added fr fe rs stf evs cf Es (proj1 Rr) (proj2 Rr) Eq' Ei Hsc Hr He).
      * (* the pending SetAddress(-2) first, then the row *)
        apply events_after_event in He. destruct He as (evs' & -> & He).
        destruct fe as [|fe]; [discriminate He|]. rewrite events_loop_S in He.
        cbn [ev_sim]. right. split; [exact Es|]. split; [reflexivity|].
        exact (ghost_row_event f1 _ (with_st CSConvertRow (with_addr None (with_row q' c))) (mtomb h) added fr fe rs stf evs' cf
                 Es (proj1 Rr) (proj2 Rr) Eq' Ei Hsc Hr He).
  - intros r' q' EX EY Tr Eend. unfold after_exec. cbv beta iota.
    rewrite (moved_stays _ i q' XNoRow Hp EY ltac:(discriminate) ltac:(discriminate)) in Hsc.
    apply K with (moved := true); [exact Ei|exact Hst|exact Hsc|]. apply sync_ghost; assumption.
Qed.

End Step.

(* the lock-step simulation: induction on a bound of the remaining input *)
Lemma sim_all : forall f3 inp, (length inp < f3)%nat ->
  forall f1 f2 r added inseq c tomb moved base ghost,
  cl_inp c = inp -> cl_st c = CSReadRow -> PS f3 inp moved -> SYNC r c inseq tomb moved base ghost ->
  MATCH (next_row_loop f1 dbg be false h r inp added inseq) (read_loop f2 dbg be sx h c tomb) base inseq ghost.
Proof.
  induction f3 as [|f3 IH]; intros inp Hlen f1 f2 r added inseq c tomb moved base ghost Ei Hst HPS HS; [lia|].
  destruct f1 as [|f1]; [apply match_rd_stop; discriminate|].
  destruct f2 as [|f2]; [apply match_cv_stop; discriminate|].
  destruct inp as [|b input].
  { cbn [next_row_loop read_loop]. rewrite Ei. intros fr fe rs stf evs cf Hr He.
    injection Hr as <- _. injection He as <- _. reflexivity. }
  destruct (parse_insn dbg be h (b :: input)) as [[i rest]|e| |] eqn:EP;
    try (cbn [next_row_loop]; rewrite EP; apply match_rd_stop; discriminate).
  pose proof (parse_insn_good dbg be h (b :: input)) as G. rewrite EP in G. destruct G as (_ & Gl & Gi); cbn [fst snd] in Gl, Gi.
  assert (Lr : (length rest < f3)%nat) by (cbn [length] in Hlen, Gl; lia).
  pose proof (IH rest Lr) as K.
  rewrite (next_row_loop_S f1 r b input added inseq i rest EP).
  unfold PS in HPS. rewrite (insns_step dbg be h f3 (b :: input) i rest ltac:(discriminate) EP) in HPS.
  destruct (insn_classes i) as [Hp|[[a ->]|[fe ->]]].
  - rewrite (read_loop_plain dbg be sx h f2 c tomb b input rest Ei i EP Hp). rewrite plain_scan_plain in HPS by exact Hp.
    change (cl_row c) with (cl_row (with_inp rest c)).
    destruct HS as [b1 inseq moved base HL Ha Hm Hi|HT HE|base ghost Es HT HE Ha].
    + apply (live_plain rest _ K f1 f2 r _ b1 base added inseq moved i); auto.
    + apply (tomb_plain rest _ K f1 f2 r _ added i); auto.
    + apply (ghost_plain rest _ K f1 f2 r _ added base ghost i); auto.
  - (* set_address: only the first address of a sequence is in the class *)
    cbn [plain_scan] in HPS.
    apply andb_true_iff in HPS. destruct HPS as [HPS Hsc]. apply andb_true_iff in HPS. destruct HPS as [Hmv Hst2].
    destruct HS as [b1 inseq moved base HL Ha Hm Hi|HT HE|base ghost Es HT HE Ha]; try discriminate Hmv.
    destruct moved; [discriminate Hmv|]. destruct (Hm eq_refl) as [R0 ->].
    destruct Ha as [(_ & _ & Ha)|(Ha & <-)]; [discriminate Ha|].
    destruct inseq; [discriminate (Hi eq_refl)|].
    apply (step_set_address rest _ K f1 f2 r c added a b input); auto.
    + destruct Gi as [Ga _]. exact Ga.
    + intros ->. cbn [negb orb] in Hst2. intros ->. rewrite N.eqb_refl in Hst2. discriminate Hst2.
  - cbn [plain_scan] in HPS. apply (step_define_file rest _ K f1 f2 r c added inseq tomb moved base ghost fe b input); auto.
Qed.

(* from the states LineRows::new / ConvertLineProgram::new build *)
Lemma sim_program c0 rs evs cf :
  PS (S (length (h_program h))) (h_program h) false ->
  cl_inp c0 = h_program h -> cl_row c0 = row_new h -> cl_st c0 = CSReadRow ->
  rows_model dbg be h = (rs, SEnd) -> events dbg be sx h c0 = (evs, SEnd, cf) ->
  ev_sim (cl_files cf) 0 false false evs rs.
Proof.
  intros HPS Ei Er Est Hr He. unfold rows_model, rows_full in Hr.
  destruct (rows_loop (S (length (h_program h))) dbg be false h (st_init h (h_program h))) as [[rs1 s1] stf] eqn:ER.
  injection Hr as -> ->. rewrite rows_loop_S in ER. unfold next_row in ER. cbn [st_init st_row st_inp st_added st_inseq] in ER.
  unfold events in He. destruct (events_loop_next _ _ _ _ Est He) as [fe He']. rewrite Ei in He'.
  refine (sim_all (S (length (h_program h))) (h_program h) (Nat.lt_succ_diag_r _) _ _ _ [] false (renew c0) false false 0 false
            Ei Est HPS _ _ fe rs stf evs cf ER He').
  apply sync_fresh; [cbn; rewrite Er; reflexivity|reflexivity].
Qed.

End Sim.

(* ------------------------------------------------------------------ witnesses *)

(* a non-trivial instance of the hypotheses: two sequences (the second without any set_address), special opcodes,
   advance_pc, fixed_advance_pc, a file change, big-endian 4-byte addresses *)
Definition wit_plain : header :=
  mk_header false 3 4 0 0 1 1 true (-5)%Z 14 13 wit_std13 [] [VString [x64]] [] [wit_f1; wit_f2]
    [x00;x05;x02;x00;x00;x30;x00; x21; x02;x05; x04;x02; x01; x09;x00;x10; x5b; x00;x01;x01;
     x14; x02;x03; x00;x01;x01].

Definition plain_summary (dbg : bool) : option (status * list N * status * list (N * N)) :=
  match cl_new dbg wit_sx (mk_src wit_plain None None) [] with
  | Ok c0 =>
      Some (snd (rows_model dbg true wit_plain), map r_addr (fst (rows_model dbg true wit_plain)),
            snd (fst (events dbg true wit_sx wit_plain c0)),
            map (fun e => match e with
                          | CRSetAddress a => (0, a) | CRRow w => (1, w_address_offset w) | CREndSequence n => (2, n)
                          end) (fst (fst (events dbg true wit_sx wit_plain c0))))
  | _ => None
  end.

(* ------------------------------------------------------------------ tombstone operands, as witnesses *)
Definition tomb_prog (b0 : byte) : list byte :=
  [x00;x05;x02;xff;xff;xff;b0; x21; x02;x05; x00;x01;x01;          (* set_address -1 / -2; special; advance_pc 5; end *)
   x00;x05;x02;x00;x00;x30;x00; x01; x02;x03; x00;x01;x01].        (* set_address 0x3000; copy; advance_pc 3; end *)
Definition wit_tomb (b0 : byte) : header :=
  mk_header false 3 4 0 0 1 1 true (-5)%Z 14 13 wit_std13 [] [VString [x64]] [] [wit_f1; wit_f2] (tomb_prog b0).
Definition wit_tomb_empty : header :=
  mk_header false 3 4 0 0 1 1 true (-5)%Z 14 13 wit_std13 [] [VString [x64]] [] [wit_f1; wit_f2]
    [x00;x05;x02;xff;xff;xff;xfe; x02;x04; x00;x01;x01].
Definition tomb_summary (dbg : bool) (h : header) : option (status * list N * status * list (N * N)) :=
  match cl_new dbg wit_sx (mk_src h None None) [] with
  | Ok c0 =>
      Some (snd (rows_model dbg true h), map r_addr (fst (rows_model dbg true h)),
            snd (fst (events dbg true wit_sx h c0)),
            map (fun e => match e with
                          | CRSetAddress a => (0, a) | CRRow w => (1, w_address_offset w) | CREndSequence n => (2, n)
                          end) (fst (fst (events dbg true wit_sx h c0))))
  | _ => None
  end.
