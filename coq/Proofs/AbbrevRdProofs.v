(* Proofs/AbbrevRdProofs.v — lemmas about Model/AbbrevRd.v (abbreviation tables). *)
From Coq Require Import List NArith ZArith Bool Lia ZifyBool ZifyN ZifyNat.
From Coq.Strings Require Import Byte.
Require Import GV.Base.Res GV.Base.Byt GV.Base.Ints GV.Model.Leb GV.Model.Prim
               GV.Spec.LebSpec GV.Spec.FormSpec GV.Model.Attr GV.Spec.Forest GV.Model.AbbrevRd
               GV.Proofs.LebProofs GV.Proofs.AttrProofs.
Import ListNotations.
Local Open Scope N_scope.

Lemma enc_uleb_0 : enc_uleb 0 = [x00]. Proof. reflexivity. Qed.

Lemma parse_attr_spec_enc dbg s rest : spec_ok s ->
  parse_attr_spec dbg (enc_spec s ++ rest) = Ok (Some s, rest).
Proof.
  intros (Hn & Hf & Hi & Hz). destruct s as [name form implicit]. cbn [at_name at_form at_implicit] in *.
  unfold parse_attr_spec, enc_spec. cbn [at_name at_form at_implicit].
  rewrite <- !app_assoc. rewrite read_uleb128_u16_enc by lia. cbn [bind].
  rewrite read_uleb128_u16_enc by lia. cbn [bind].
  replace (name =? 0) with false by (symmetry; apply N.eqb_neq; lia).
  replace (form =? 0) with false by (symmetry; apply N.eqb_neq; lia).
  cbn [andb]. unfold DW_FORM_implicit_const.
  destruct (N.eqb_spec form 33) as [E|E].
  - rewrite read_sleb128_enc_sleb by lia. cbn [bind]. unfold aspec_new. reflexivity.
  - cbn [app]. unfold aspec_new. rewrite (Hz E). reflexivity.
Qed.

Lemma parse_attr_spec_null dbg rest : parse_attr_spec dbg (x00 :: x00 :: rest) = Ok (None, rest).
Proof. reflexivity. Qed.

Lemma parse_attr_specs_enc : forall specs fuel dbg rest,
  Forall spec_ok specs -> (length specs < fuel)%nat ->
  parse_attr_specs fuel dbg (concat (map enc_spec specs) ++ x00 :: x00 :: rest) = Ok (specs, rest).
Proof.
  induction specs as [|s specs IH]; intros fuel dbg rest Hok Hfuel.
  - destruct fuel; [cbn in Hfuel; lia|]. reflexivity.
  - destruct fuel; [cbn in Hfuel; lia|]. inversion Hok; subst.
    cbn [map concat parse_attr_specs]. rewrite <- app_assoc.
    rewrite parse_attr_spec_enc by assumption. cbn [bind].
    rewrite IH by (try assumption; cbn in Hfuel; lia). reflexivity.
Qed.

Lemma enc_spec_length s : (2 <= length (enc_spec s))%nat.
Proof.
  unfold enc_spec. rewrite !app_length.
  pose proof (enc_uleb_length (at_name s)). pose proof (enc_uleb_length (at_form s)). lia.
Qed.

Lemma concat_enc_spec_length specs : (2 * length specs <= length (concat (map enc_spec specs)))%nat.
Proof.
  induction specs as [|s specs IH]; cbn [map concat length]; [lia|].
  rewrite app_length. pose proof (enc_spec_length s). lia.
Qed.

Lemma parse_abbrev_enc dbg a rest : abbrev_ok a ->
  parse_abbrev dbg (enc_abbrev a ++ rest) = Ok (Some a, rest).
Proof.
  intros (Hc & Ht & Hs). destruct a as [code tag hc specs]. cbn [ab_code ab_tag ab_children ab_specs] in *.
  unfold parse_abbrev, enc_abbrev. cbn [ab_code ab_tag ab_children ab_specs].
  destruct (enc_uleb_cons code) as (b & r & E).
  replace (is_nil ((enc_uleb code ++ enc_uleb tag ++ [if hc then x01 else x00] ++
                    concat (map enc_spec specs) ++ [x00; x00]) ++ rest)) with false
    by (rewrite E; reflexivity).
  rewrite <- !app_assoc. rewrite read_uleb128_enc by lia. cbn [bind].
  replace (code =? 0) with false by (symmetry; apply N.eqb_neq; lia).
  unfold parse_tag. rewrite read_uleb128_u16_enc by lia. cbn [bind].
  replace (tag =? 0) with false by (symmetry; apply N.eqb_neq; lia).
  cbn [bind]. unfold parse_has_children. cbn [app read_u8 bind].
  assert (Hhc : (if b2n (if hc then x01 else x00) =? 0 then Ok (false, concat (map enc_spec specs) ++ [x00; x00] ++ rest)
                 else if b2n (if hc then x01 else x00) =? 1
                      then Ok (true, concat (map enc_spec specs) ++ [x00; x00] ++ rest)
                      else Err EInvalidAbbreviationChildren)
                = Ok (hc, concat (map enc_spec specs) ++ [x00; x00] ++ rest)).
  { destruct hc; reflexivity. }
  cbn [app] in Hhc |- *. rewrite Hhc. cbn [bind].
  rewrite parse_attr_specs_enc; [reflexivity|assumption|].
  rewrite app_length. pose proof (concat_enc_spec_length specs). cbn [length]. lia.
Qed.

Lemma enc_abbrev_length a : (1 <= length (enc_abbrev a))%nat.
Proof. unfold enc_abbrev. rewrite app_length. pose proof (enc_uleb_length (ab_code a)). lia. Qed.

Lemma enc_decls_length ds : (length ds <= length (enc_decls ds))%nat.
Proof.
  unfold enc_decls. induction ds as [|a ds IH]; cbn [map concat length]; [lia|].
  rewrite app_length. pose proof (enc_abbrev_length a). lia.
Qed.

Definition find_code (c : N) (l : list abbrev) : option abbrev := find (fun a => ab_code a =? c) l.

Definition has_code (c : N) (l : list abbrev) : bool :=
  match find_code c l with Some _ => true | None => false end.

(* the table answers lookups like the list of the declarations inserted so far *)
Definition tbl_inv (t : abbrevs) (l : list abbrev) : Prop := forall c, tbl_get t c = find_code c l.

Lemma tbl_inv_empty : tbl_inv tbl_empty [].
Proof.
  intros c. unfold tbl_get, tbl_empty. cbn [t_vec t_map]. destruct (c =? 0); [reflexivity|].
  unfold nlen. cbn [length]. destruct (c - 1 <? N.of_nat 0) eqn:E; [lia|]. reflexivity.
Qed.

Lemma find_code_app c l a :
  find_code c (l ++ [a]) =
  match find_code c l with Some x => Some x | None => if ab_code a =? c then Some a else None end.
Proof.
  unfold find_code. induction l as [|x l IH]; cbn [app find].
  - destruct (ab_code a =? c); reflexivity.
  - destruct (ab_code x =? c); [reflexivity|exact IH].
Qed.

Lemma map_get_some m c a : map_get m c = Some a -> exists c', In (c', a) m /\ c' = c.
Proof.
  unfold map_get. destruct (find (fun p => fst p =? c) m) as [[c' a']|] eqn:F; [|discriminate].
  intros H. inversion H; subst. apply find_some in F. destruct F as [Hin Heq].
  cbn [fst] in Heq. apply N.eqb_eq in Heq. eauto.
Qed.

Lemma map_get_cons m c c' a :
  map_get ((c', a) :: m) c = if c' =? c then Some a else map_get m c.
Proof. unfold map_get. cbn [find fst snd]. destruct (c' =? c); reflexivity. Qed.

(* Abbreviations::insert accepts exactly the codes that are not yet present *)
Lemma tbl_insert_spec dbg t l a :
  tbl_inv t l -> 0 < ab_code a < two64 ->
  if has_code (ab_code a) l
  then tbl_insert dbg t a = Ok None
  else exists t', tbl_insert dbg t a = Ok (Some t') /\ tbl_inv t' (l ++ [a]).
Proof.
  intros Hget Hc. set (c := ab_code a) in *.
  (* the new table has to keep what the old one finds, and find a, and nothing else, in addition *)
  assert (G : forall t', (forall c' x, tbl_get t c' = Some x -> tbl_get t' c' = Some x) ->
              (forall c', tbl_get t c' = None -> tbl_get t' c' = if c =? c' then Some a else None) ->
              tbl_inv t' (l ++ [a])).
  { intros t' Hold Hnew c'. rewrite find_code_app, <- Hget.
    destruct (tbl_get t c') eqn:E; [apply Hold|apply Hnew]; exact E. }
  unfold has_code. rewrite <- Hget. unfold tbl_insert. fold c.
  rewrite chk_sub_ok by lia. cbn [bind].
  unfold tbl_get in *. replace (c =? 0) with false by lia. unfold nlen in *.
  destruct (N.ltb_spec (c - 1) (N.of_nat (length (t_vec t)))) as [L1|L1].
  { destruct (nth_error (t_vec t) (N.to_nat (c - 1))) eqn:E; [reflexivity|].
    apply nth_error_None in E. lia. }
  destruct (map_get (t_map t) c) as [x|] eqn:M.
  { destruct (c - 1 =? N.of_nat (length (t_vec t))); [|reflexivity].
    destruct (t_map t); [discriminate|reflexivity]. }
  destruct (N.eqb_spec (c - 1) (N.of_nat (length (t_vec t)))) as [L2|L2].
  - (* the next sequential code goes to the Vec *)
    replace (negb (is_nil (t_map t)) && false) with false by (destruct (t_map t); reflexivity).
    eexists. split; [reflexivity|].
    apply G; intros c'; cbn [t_vec t_map]; rewrite app_length; cbn [length];
      (destruct (N.eqb_spec c' 0); [intros; subst; try discriminate; replace (c =? 0) with false by lia; reflexivity|]);
      destruct (N.ltb_spec (c' - 1) (N.of_nat (length (t_vec t)))) as [A|A].
    + intros x E. replace (c' - 1 <? N.of_nat (length (t_vec t) + 1)) with true by lia.
      rewrite nth_error_app1 by lia. exact E.
    + intros x E. assert (c' <> c) by congruence.
      replace (c' - 1 <? N.of_nat (length (t_vec t) + 1)) with false by lia. exact E.
    + intros E. apply nth_error_None in E. lia.
    + intros E. destruct (N.eqb_spec c c') as [<-|Ne].
      * replace (c - 1 <? N.of_nat (length (t_vec t) + 1)) with true by lia.
        rewrite nth_error_app2 by lia. replace (N.to_nat (c - 1) - length (t_vec t))%nat with O by lia.
        reflexivity.
      * replace (c' - 1 <? N.of_nat (length (t_vec t) + 1)) with false by lia. exact E.
  - (* any other code goes to the map *)
    eexists. split; [reflexivity|].
    apply G; intros c'; cbn [t_vec t_map]; rewrite map_get_cons;
      (destruct (N.eqb_spec c' 0); [intros; subst; try discriminate; replace (c =? 0) with false by lia; reflexivity|]);
      destruct (N.ltb_spec (c' - 1) (N.of_nat (length (t_vec t)))) as [A|A].
    + intros x E. exact E.
    + intros x E. destruct (N.eqb_spec c c') as [<-|Ne]; [congruence|exact E].
    + intros E. apply nth_error_None in E. lia.
    + intros E. destruct (N.eqb_spec c c'); [reflexivity|exact E].
Qed.

Definition codes_of (l : list abbrev) : list N := map ab_code l.

Lemma has_code_in c l : has_code c l = true <-> In c (codes_of l).
Proof.
  unfold has_code, find_code, codes_of. split.
  - destruct (find (fun a => ab_code a =? c) l) eqn:F; [|discriminate]. intros _.
    apply find_some in F. destruct F as [Hin Heq]. apply N.eqb_eq in Heq. subst.
    apply in_map. assumption.
  - intros Hin. apply in_map_iff in Hin. destruct Hin as (a & E & Hin).
    destruct (find (fun a => ab_code a =? c) l) eqn:F; [reflexivity|].
    apply (find_none _ _ F) in Hin. lia.
Qed.

(* one declaration: rejected if its code is present, else inserted and the loop goes on *)
Lemma parse_loop_step fuel dbg t l a rest : abbrev_ok a -> tbl_inv t l ->
  if has_code (ab_code a) l
  then parse_abbrevs_loop (S fuel) dbg t (enc_abbrev a ++ rest) = Err EDuplicateAbbreviationCode
  else exists t', tbl_inv t' (l ++ [a]) /\
         parse_abbrevs_loop (S fuel) dbg t (enc_abbrev a ++ rest) = parse_abbrevs_loop fuel dbg t' rest.
Proof.
  intros Ha Hinv. cbn [parse_abbrevs_loop]. rewrite parse_abbrev_enc by assumption. cbn [bind].
  pose proof (tbl_insert_spec dbg t l a Hinv (proj1 Ha)) as Hins.
  destruct (has_code (ab_code a) l).
  - rewrite Hins. reflexivity.
  - destruct Hins as (t' & E & Hinv'). exists t'. rewrite E. auto.
Qed.

(* the loop over a well-formed, duplicate-free list of declarations; `stop` is what ends the table *)
Lemma parse_loop_ok : forall ds fuel dbg t l stop rest,
  Forall abbrev_ok ds -> NoDup (codes_of l ++ codes_of ds) -> tbl_inv t l ->
  (length ds < fuel)%nat ->
  parse_abbrev dbg stop = Ok (None, rest) ->
  exists t', parse_abbrevs_loop fuel dbg t (enc_decls ds ++ stop) = Ok (t', rest) /\ tbl_inv t' (l ++ ds).
Proof.
  induction ds as [|a ds IH]; intros fuel dbg t l stop rest Hok Hnd Hinv Hfuel Hstop.
  - destruct fuel; [cbn in Hfuel; lia|]. cbn [enc_decls map concat app parse_abbrevs_loop].
    rewrite Hstop. cbn [bind]. exists t. rewrite app_nil_r. auto.
  - destruct fuel; [cbn in Hfuel; lia|]. inversion Hok as [|? ? Ha Hds]; subst.
    change (enc_decls (a :: ds)) with (enc_abbrev a ++ enc_decls ds). rewrite <- app_assoc.
    pose proof (parse_loop_step fuel dbg t l a (enc_decls ds ++ stop) Ha Hinv) as Hs.
    destruct (has_code (ab_code a) l) eqn:Hhas.
    + exfalso. apply has_code_in in Hhas. cbn [codes_of map] in Hnd.
      apply NoDup_remove_2 in Hnd. apply Hnd. apply in_or_app. left. exact Hhas.
    + destruct Hs as (t' & Hinv' & ->).
      destruct (IH fuel dbg t' (l ++ [a]) stop rest) as (t'' & E' & Hinv''); try assumption.
      * unfold codes_of in *. rewrite map_app. cbn [map]. rewrite <- app_assoc. exact Hnd.
      * cbn in Hfuel. lia.
      * exists t''. split; [exact E'|]. rewrite <- app_assoc in Hinv''. exact Hinv''.
Qed.

Lemma parse_abbrev_nil dbg : parse_abbrev dbg [] = Ok (None, []).
Proof. reflexivity. Qed.
Lemma parse_abbrev_null dbg rest : parse_abbrev dbg (x00 :: rest) = Ok (None, rest).
Proof. reflexivity. Qed.

Lemma find_code_nodup c l a : NoDup (codes_of l) -> In a l -> ab_code a = c -> find_code c l = Some a.
Proof.
  unfold find_code, codes_of. induction l as [|x l IH]; intros Hnd Hin Hc; [destruct Hin|].
  cbn [find]. destruct Hin as [->|Hin].
  - rewrite Hc, N.eqb_refl. reflexivity.
  - inversion Hnd as [|? ? Hx Hl]; subst.
    destruct (N.eqb_spec (ab_code x) (ab_code a)) as [E|E].
    + exfalso. apply Hx. rewrite E. apply in_map. exact Hin.
    + apply IH; auto.
Qed.

(* C02 (1): a duplicate-free table parses to a table whose lookup is the declared map *)
Lemma abbrev_get_full dbg ds tail rest :
  Forall abbrev_ok ds -> NoDup (codes_of ds) ->
  (tail = [] /\ rest = [] \/ tail = x00 :: rest) ->
  exists t, parse_abbrevs dbg (enc_decls ds ++ tail) = Ok (t, rest) /\
            (forall c, tbl_get t c = find_code c ds) /\
            (forall a, In a ds -> tbl_get t (ab_code a) = Some a) /\
            (forall c a, tbl_get t c = Some a -> In a ds /\ ab_code a = c).
Proof.
  intros Hok Hnd Htail. unfold parse_abbrevs.
  destruct (parse_loop_ok ds (S (length (enc_decls ds ++ tail))) dbg tbl_empty [] tail rest)
    as (t & E & Hinv); try assumption.
  - exact tbl_inv_empty.
  - rewrite app_length. pose proof (enc_decls_length ds). lia.
  - destruct Htail as [[-> ->]| ->]; reflexivity.
  - exists t. split; [exact E|]. pose proof Hinv as Hget. cbn [app] in Hget.
    split; [exact Hget|]. split.
    + intros a Hin. rewrite Hget. apply find_code_nodup; auto.
    + intros c a H. rewrite Hget in H. unfold find_code in H. apply find_some in H.
      destruct H as [Hin Heq]. apply N.eqb_eq in Heq. auto.
Qed.

(* C02 (1): a table with a repeated code is rejected, whatever follows the repeated declaration *)
Lemma parse_loop_dup : forall ds fuel dbg t l rest,
  Forall abbrev_ok ds -> NoDup (codes_of l) -> ~ NoDup (codes_of l ++ codes_of ds) -> tbl_inv t l ->
  (length ds < fuel)%nat ->
  parse_abbrevs_loop fuel dbg t (enc_decls ds ++ rest) = Err EDuplicateAbbreviationCode.
Proof.
  induction ds as [|a ds IH]; intros fuel dbg t l rest Hok Hl Hnd Hinv Hfuel.
  - exfalso. apply Hnd. cbn [codes_of map]. rewrite app_nil_r. exact Hl.
  - destruct fuel; [cbn in Hfuel; lia|]. inversion Hok as [|? ? Ha Hds]; subst.
    change (enc_decls (a :: ds)) with (enc_abbrev a ++ enc_decls ds). rewrite <- app_assoc.
    pose proof (parse_loop_step fuel dbg t l a (enc_decls ds ++ rest) Ha Hinv) as Hs.
    destruct (has_code (ab_code a) l) eqn:Hhas; [exact Hs|].
    destruct Hs as (t' & Hinv' & ->).
    apply (IH fuel dbg t' (l ++ [a])); try assumption.
    + unfold codes_of. rewrite map_app. cbn [map].
      apply NoDup_snoc; [exact Hl|].
      intros Hin. apply has_code_in in Hin. congruence.
    + unfold codes_of in *. rewrite map_app. cbn [map]. rewrite <- app_assoc. exact Hnd.
    + cbn in Hfuel. lia.
Qed.

Lemma abbrev_dup_rejected dbg ds rest :
  Forall abbrev_ok ds -> ~ NoDup (codes_of ds) ->
  parse_abbrevs dbg (enc_decls ds ++ rest) = Err EDuplicateAbbreviationCode.
Proof.
  intros Hok Hnd. unfold parse_abbrevs. apply (parse_loop_dup ds _ dbg tbl_empty []); try assumption.
  - constructor.
  - exact tbl_inv_empty.
  - rewrite app_length. pose proof (enc_decls_length ds). lia.
Qed.

Lemma parse_attr_spec_ok dbg bs o r :
  parse_attr_spec dbg bs = Ok (o, r) ->
  (length r < length bs)%nat /\
  match o with Some s => at_name s <> 0 /\ at_form s <> 0 | None => True end.
Proof.
  unfold parse_attr_spec.
  destruct (read_uleb128_u16 bs) as [[name r1]| | |] eqn:E1; cbn [bind]; try discriminate.
  destruct (read_uleb128_u16 r1) as [[form r2]| | |] eqn:E2; cbn [bind]; try discriminate.
  apply read_u16leb_shrinks in E1. apply read_u16leb_shrinks in E2.
  destruct (N.eqb_spec name 0) as [N0|N0]; destruct (N.eqb_spec form 0) as [F0|F0]; cbn [andb];
    try discriminate.
  - intros H. inversion H; subst. split; [lia|exact I].
  - destruct (form =? DW_FORM_implicit_const).
    + destruct (read_sleb128 dbg r2) as [[z r3]| | |] eqn:E3; cbn [bind]; try discriminate.
      intros H. inversion H; subst. apply read_sleb128_skip, skip_leb_shrinks in E3.
      cbn [aspec_new at_name at_form]. split; [lia|auto].
    + intros H. inversion H; subst. cbn [aspec_new at_name at_form]. split; [lia|auto].
Qed.

Lemma parse_attr_spec_res dbg bs : returns (parse_attr_spec dbg bs).
Proof.
  unfold parse_attr_spec.
  apply returns_bind; [apply read_uleb128_u16_no_panic|]. intros [name r1] _.
  apply returns_bind; [apply read_uleb128_u16_no_panic|]. intros [form r2] _.
  destruct ((name =? 0) && (form =? 0)); [apply returns_ok|].
  destruct (name =? 0); [apply returns_err|].
  destruct (form =? 0); [apply returns_err|].
  destruct (form =? DW_FORM_implicit_const); [|apply returns_ok].
  apply returns_bind; [apply read_sleb128_total|]. intros [z r3] _. apply returns_ok.
Qed.

Lemma parse_attr_specs_sound : forall fuel dbg bs specs r,
  parse_attr_specs fuel dbg bs = Ok (specs, r) ->
  Forall (fun s => at_name s <> 0 /\ at_form s <> 0) specs /\ (length r < length bs)%nat.
Proof.
  induction fuel as [|fuel IH]; intros dbg bs specs r; cbn [parse_attr_specs]; [discriminate|].
  destruct (parse_attr_spec dbg bs) as [[[s|] r1]| | |] eqn:E; cbn [bind]; try discriminate.
  - destruct (parse_attr_specs fuel dbg r1) as [[l r2]| | |] eqn:E2; cbn [bind]; try discriminate.
    intros H. inversion H; subst. apply IH in E2. destruct E2 as [F L].
    apply parse_attr_spec_ok in E. destruct E as [C A].
    split; [constructor; auto|lia].
  - intros H. inversion H; subst. apply parse_attr_spec_ok in E. split; [constructor|apply E].
Qed.

Lemma parse_attr_specs_res : forall fuel dbg bs, (length bs < fuel)%nat ->
  returns (parse_attr_specs fuel dbg bs).
Proof.
  induction fuel as [|fuel IH]; intros dbg bs Hf; [lia|]. cbn [parse_attr_specs].
  apply returns_bind; [apply parse_attr_spec_res|]. intros [[s|] r1] E; [|apply returns_ok].
  apply parse_attr_spec_ok in E. destruct E as [L _].
  apply returns_bind; [apply IH; lia|]. intros [l r2] _. apply returns_ok.
Qed.

Lemma parse_tag_ok bs tag r : parse_tag bs = Ok (tag, r) -> tag <> 0 /\ (length r < length bs)%nat.
Proof.
  unfold parse_tag. destruct (read_uleb128_u16 bs) as [[v t]| | |] eqn:E; cbn [bind]; try discriminate.
  destruct (N.eqb_spec v 0); [discriminate|]. intros H. inversion H; subst.
  apply read_u16leb_shrinks in E. auto.
Qed.

Lemma parse_has_children_ok bs hc r : parse_has_children bs = Ok (hc, r) -> (length r < length bs)%nat.
Proof.
  unfold parse_has_children. destruct bs as [|b t]; cbn [read_u8 bind]; [discriminate|].
  destruct (b2n b =? 0); [|destruct (b2n b =? 1); [|discriminate]];
    intros H; inversion H; subst; cbn [length]; lia.
Qed.

Lemma parse_abbrev_sound dbg bs a r :
  parse_abbrev dbg bs = Ok (Some a, r) ->
  0 < ab_code a < two64 /\ ab_tag a <> 0 /\
  Forall (fun s => at_name s <> 0 /\ at_form s <> 0) (ab_specs a) /\ (length r < length bs)%nat.
Proof.
  unfold parse_abbrev. destruct (is_nil bs); [discriminate|].
  destruct (read_uleb128 dbg bs) as [[code r1]| | |] eqn:E1; cbn [bind]; try discriminate.
  destruct (N.eqb_spec code 0) as [C0|C0]; [discriminate|].
  destruct (parse_tag r1) as [[tag r2]| | |] eqn:E2; cbn [bind]; try discriminate.
  destruct (parse_has_children r2) as [[hc r3]| | |] eqn:E3; cbn [bind]; try discriminate.
  destruct (parse_attr_specs (S (length r3)) dbg r3) as [[specs r4]| | |] eqn:E4; cbn [bind];
    try discriminate.
  intros H. inversion H; subst. cbn [ab_code ab_tag ab_specs].
  assert (Lt : code < two64) by (apply read_uleb128_ok in E1; destruct E1 as (_ & _ & _ & _ & Lt); exact Lt).
  apply read_uleb128_skip, skip_leb_shrinks in E1. apply parse_tag_ok in E2.
  apply parse_has_children_ok in E3. apply parse_attr_specs_sound in E4.
  repeat split; try tauto; lia.
Qed.

Lemma parse_abbrev_none_length dbg bs r : parse_abbrev dbg bs = Ok (None, r) -> (length r <= length bs)%nat.
Proof.
  unfold parse_abbrev. destruct bs as [|b0 bs0]; cbn [is_nil]; [intros H; inversion H; lia|].
  set (bs := b0 :: bs0).
  destruct (read_uleb128 dbg bs) as [[code r1]| | |] eqn:E1; cbn [bind]; try discriminate.
  apply read_uleb128_skip, skip_leb_shrinks in E1.
  destruct (code =? 0); [intros H; inversion H; subst; lia|].
  destruct (parse_tag r1) as [[tag r2]| | |]; cbn [bind]; try discriminate.
  destruct (parse_has_children r2) as [[hc r3]| | |]; cbn [bind]; try discriminate.
  destruct (parse_attr_specs (S (length r3)) dbg r3) as [[specs r4]| | |]; cbn [bind]; discriminate.
Qed.

Lemma parse_tag_res bs : returns (parse_tag bs).
Proof.
  apply returns_bind; [apply read_uleb128_u16_no_panic|]. intros [tag r] _.
  destruct (tag =? 0); [apply returns_err|apply returns_ok].
Qed.

Lemma parse_has_children_res bs : returns (parse_has_children bs).
Proof.
  destruct bs as [|b r]; [apply returns_err|]. cbn [parse_has_children read_u8 bind].
  destruct (b2n b =? 0); [apply returns_ok|]. destruct (b2n b =? 1); [apply returns_ok|apply returns_err].
Qed.

Lemma parse_abbrev_res dbg bs : returns (parse_abbrev dbg bs).
Proof.
  unfold parse_abbrev. destruct (is_nil bs); [apply returns_ok|].
  apply returns_bind; [apply read_uleb128_total|]. intros [code r1] _.
  destruct (code =? 0); [apply returns_ok|].
  apply returns_bind; [apply parse_tag_res|]. intros [tag r2] _.
  apply returns_bind; [apply parse_has_children_res|]. intros [hc r3] _.
  apply returns_bind; [apply parse_attr_specs_res; lia|]. intros [specs r4] _. apply returns_ok.
Qed.

Lemma tbl_insert_res dbg t a : ab_code a <> 0 -> returns (tbl_insert dbg t a).
Proof.
  intros Hc. unfold tbl_insert. rewrite chk_sub_ok by lia. cbn [bind].
  destruct (ab_code a - 1 <? nlen (t_vec t)); [apply returns_ok|].
  destruct (ab_code a - 1 =? nlen (t_vec t)).
  - destruct (negb (is_nil (t_map t)) && _); apply returns_ok.
  - destruct (map_get (t_map t) (ab_code a)); apply returns_ok.
Qed.

Lemma parse_abbrevs_loop_res : forall fuel dbg t bs, (length bs < fuel)%nat ->
  returns (parse_abbrevs_loop fuel dbg t bs).
Proof.
  induction fuel as [|fuel IH]; intros dbg t bs Hf; [lia|]. cbn [parse_abbrevs_loop].
  apply returns_bind; [apply parse_abbrev_res|]. intros [[a|] r] E; [|apply returns_ok].
  apply parse_abbrev_sound in E. destruct E as (Hc & _ & _ & L).
  apply returns_bind; [apply tbl_insert_res; lia|]. intros [t'|] _; [|apply returns_err].
  apply IH. lia.
Qed.

Lemma parse_abbrevs_res dbg bs : parse_abbrevs dbg bs <> Panic /\ parse_abbrevs dbg bs <> OutOfFuel.
Proof. unfold parse_abbrevs. apply parse_abbrevs_loop_res. lia. Qed.

Lemma abbreviations_at_res dbg sec off :
  abbreviations_at dbg sec off <> Panic /\ abbreviations_at dbg sec off <> OutOfFuel.
Proof.
  apply returns_bind; [apply skip_n_res|]. intros r _.
  apply returns_bind; [apply parse_abbrevs_res|]. intros [t r'] _. apply returns_ok.
Qed.

(* everything a parsed table returns obeys the format rules, for every input *)
Definition decl_rules (a : abbrev) : Prop :=
  0 < ab_code a < two64 /\ ab_tag a <> 0 /\ Forall (fun s => at_name s <> 0 /\ at_form s <> 0) (ab_specs a).

Definition tbl_all (P : abbrev -> Prop) (t : abbrevs) : Prop :=
  Forall P (t_vec t) /\ Forall (fun p => P (snd p)) (t_map t).

Lemma tbl_get_all P t c a : tbl_all P t -> tbl_get t c = Some a -> P a.
Proof.
  intros [Hv Hm]. unfold tbl_get. destruct (c =? 0); [discriminate|].
  destruct (c - 1 <? nlen (t_vec t)).
  - intros H. apply nth_error_In in H. rewrite Forall_forall in Hv. auto.
  - intros H. apply map_get_some in H. destruct H as (c' & Hin & _).
    rewrite Forall_forall in Hm. apply (Hm _ Hin).
Qed.

Lemma tbl_insert_all P dbg t a t' : tbl_all P t -> P a -> tbl_insert dbg t a = Ok (Some t') -> tbl_all P t'.
Proof.
  intros [Hv Hm] Pa. unfold tbl_insert.
  destruct (chk_sub 64 dbg (ab_code a) 1) as [idx| | |]; cbn [bind]; try discriminate.
  destruct (idx <? nlen (t_vec t)); [discriminate|].
  destruct (idx =? nlen (t_vec t)).
  - destruct (negb (is_nil (t_map t)) && _); [discriminate|].
    intros H. inversion H; subst. split; cbn [t_vec t_map]; [|assumption].
    apply Forall_app. split; [assumption|constructor; [assumption|constructor]].
  - destruct (map_get (t_map t) (ab_code a)); [discriminate|].
    intros H. inversion H; subst. split; cbn [t_vec t_map]; [assumption|].
    constructor; assumption.
Qed.

Lemma parse_abbrevs_loop_all : forall fuel dbg t bs t' r,
  tbl_all decl_rules t -> parse_abbrevs_loop fuel dbg t bs = Ok (t', r) -> tbl_all decl_rules t'.
Proof.
  induction fuel as [|fuel IH]; intros dbg t bs t' r Ht; cbn [parse_abbrevs_loop]; [discriminate|].
  destruct (parse_abbrev dbg bs) as [[[a|] r1]| | |] eqn:E; cbn [bind]; try discriminate.
  - destruct (tbl_insert dbg t a) as [[t1|]| | |] eqn:E2; cbn [bind]; try discriminate.
    apply IH. apply (tbl_insert_all _ _ _ _ _ Ht) in E2; [assumption|].
    apply parse_abbrev_sound in E. destruct E as (A & B & C & _). repeat split; tauto.
  - intros H. inversion H; subst. assumption.
Qed.
