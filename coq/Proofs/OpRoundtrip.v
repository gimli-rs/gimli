(* Proofs/OpRoundtrip.v — C15 composed with the expression READER / evaluator models of C07
   (Model/OpDec.v, Model/OpEval.v, Spec/StackSpec.v):
     * the independent opcode table of Spec/OpEncSpec.v and the reader model OpDec.parse_op agree: whatever the
       table decodes, parse_op decodes to the corresponding operation and leaves the same rest (every opcode);
     * hence iterating parse_op over the bytes write::Expression emits yields the built operations in normal form;
     * every written skip/bra, fed to OpEval.compute_pc, lands on the first byte of the intended operation. *)
From Coq Require Import List NArith ZArith Bool Lia ZifyBool ZifyN ZifyNat.
From Coq.Strings Require Import Byte.
Require Import GV.Base.Res GV.Base.Byt GV.Base.Ints GV.Spec.LebSpec GV.Model.Leb GV.Model.Prim.
Require Import GV.Spec.OpEncSpec GV.Model.OpWr GV.Proofs.LebProofs GV.Proofs.OpWrProofs GV.Proofs.OpWrDec.
Require Import GV.Model.OpDec GV.Model.OpVal GV.Model.OpEval GV.Spec.StackSpec GV.Proofs.PrimProofs GV.Proofs.OpDecProofs GV.Proofs.OpEvalProofs.
Import ListNotations.
Local Open Scope N_scope.
Local Arguments N.mul : simpl never.
Local Arguments N.pow : simpl never.

(* the reader's view of a decoding configuration *)
Definition renc (c : dcfg) : OpDec.enc := mkEnc (d_asize c) (d_fmt64 c) (d_version c) (d_be c).

(* ---- translation: decoded form of Spec/OpEncSpec.v -> read::Operation of Model/OpDec.v ---- *)
Definition tr_simple (opc : N) : option operation :=
  if opc =? 19 then Some ODrop else if opc =? 22 then Some OSwap else if opc =? 23 then Some ORot
  else if opc =? 25 then Some OAbs else if opc =? 26 then Some OAnd else if opc =? 27 then Some ODiv
  else if opc =? 28 then Some OMinus else if opc =? 29 then Some OMod else if opc =? 30 then Some OMul
  else if opc =? 31 then Some ONeg else if opc =? 32 then Some ONot else if opc =? 33 then Some OOr
  else if opc =? 34 then Some OPlus else if opc =? 36 then Some OShl else if opc =? 37 then Some OShr
  else if opc =? 38 then Some OShra else if opc =? 39 then Some OXor else if opc =? 41 then Some OEq
  else if opc =? 42 then Some OGe else if opc =? 43 then Some OGt else if opc =? 44 then Some OLe
  else if opc =? 45 then Some OLt else if opc =? 46 then Some ONe else if opc =? 150 then Some ONop
  else if opc =? 151 then Some OPushObjectAddress else if opc =? 155 then Some OTLS
  else if opc =? 156 then Some OCallFrameCFA else if opc =? 159 then Some OStackValue
  else if opc =? 240 then Some OUninitialized else None.

Definition tr (d : dop) : option operation :=
  match d with
  | DoSimple opc => tr_simple opc
  | DoAddress a => Some (OAddress a)
  | DoUConst v => Some (OUnsignedConstant v)
  | DoSConst v => Some (OSignedConstant v)
  | DoPick i => Some (OPick i)
  | DoDeref b s sp => Some (ODeref b s sp)
  | DoPlusConst v => Some (OPlusConstant v)
  | DoBra t => Some (OBra t)
  | DoSkip t => Some (OSkip t)
  | DoRegister r => Some (ORegister r)
  | DoRegOffset r off b => Some (ORegisterOffset r off b)
  | DoFrameOffset off => Some (OFrameOffset off)
  | DoPiece bits off => Some (OPiece bits off)
  | DoCallUnit o => Some (OCall (UnitRef o))
  | DoCallRef o => Some (OCall (DebugInfoRef o))
  | DoVarValue o => Some (OVariableValue o)
  | DoImplicitValue d => Some (OImplicitValue d)
  | DoImplicitPointer o b => Some (OImplicitPointer o b)
  | DoAddrIndex i => Some (OAddressIndex i)
  | DoConstIndex i => Some (OConstantIndex i)
  | DoEntryValue e => Some (OEntryValue e)
  | DoParameterRef o => Some (OParameterRef o)
  | DoTypedLiteral b v => Some (OTypedLiteral b v)
  | DoConvert b => Some (OConvert b)
  | DoReinterpret b => Some (OReinterpret b)
  | DoWasmLocal i => Some (OWasmLocal i)
  | DoWasmGlobal i => Some (OWasmGlobal i)
  | DoWasmStack i => Some (OWasmStack i)
  end.

(* ================= the operand readers of the table and of the reader model agree ================= *)

Lemma val_le_le_val : forall bs, val_le bs = le_val bs.
Proof. induction bs as [|b r IH]; [reflexivity|]. change (b2n b + 256 * val_le r = b2n b + 256 * le_val r). rewrite IH. reflexivity. Qed.

Lemma rd_block_split len bs b r : rd_block len bs = Some (b, r) -> split_n len bs = Ok (b, r).
Proof.
  unfold rd_block, split_n. destruct (N.of_nat (length bs) <? len) eqn:E; [discriminate|].
  change takeb with take. rewrite take_exact. destruct (length bs <? N.to_nat len)%nat eqn:E2; [lia|].
  intros H; injection H as <- <-. reflexivity.
Qed.

(* what one operand of the table means for the reader's primitives *)
Definition rfacts (dbg : bool) (c : dcfg) (k : OpEncSpec.okind) (a : oarg) (t t' : list byte) : Prop :=
  let e := renc c in
  match k with
  | K_u8 => exists v, a = AU v /\ read_u8 t = Ok (v, t') /\ read_u 1 e t = Ok (v, t')
  | K_u16 => exists v, a = AU v /\ read_u 2 e t = Ok (v, t')
  | K_u32 => exists v, a = AU v /\ read_u 4 e t = Ok (v, t')
  | K_u64 => exists v, a = AU v /\ read_u 8 e t = Ok (v, t')
  | K_i8 => exists z, a = AS z /\ read_i 1 e t = Ok (z, t')
  | K_i16 => exists z, a = AS z /\ read_i 2 e t = Ok (z, t')
  | K_i32 => exists z, a = AS z /\ read_i 4 e t = Ok (z, t')
  | K_i64 => exists z, a = AS z /\ read_i 8 e t = Ok (z, t')
  | K_uleb => exists v, a = AU v /\ read_uleb128 dbg t = Ok (v, t')
  | K_sleb => exists z, a = AS z /\ read_sleb128 dbg t = Ok (z, t')
  | K_addr => exists v, a = AU v /\ read_address (e_asz e) (OpDec.e_be e) t = Ok (v, t')
  | K_off => exists v, a = AU v /\ read_offset e t = Ok (v, t')
  | K_ref => exists v, a = AU v /\
               (if e_ver e =? 2 then read_address (e_asz e) (OpDec.e_be e) t else read_offset e t) = Ok (v, t')
  | K_blk_uleb => exists (len : N) (t1 b : list byte), a = OpEncSpec.AB b /\ read_uleb128 dbg t = Ok (len, t1) /\ split_n len t1 = Ok (b, t')
  | K_blk_u8 => exists (len : N) (t1 b : list byte), a = OpEncSpec.AB b /\ read_u8 t = Ok (len, t1) /\ split_n len t1 = Ok (b, t')
  end.

(* every operand reader of the table is `opt` of a primitive of the reader model (OpWrProofs.rd_*_eq) *)
Lemma rd_kind_reader dbg c k t a t' : rd_kind c k t = Some (a, t') -> rfacts dbg c k a t t'.
Proof.
  unfold rfacts, read_u, read_i, read_offset, read_word, renc. cbn [OpDec.e_be e_asz e_ver OpDec.e_fmt64].
  rewrite !(read_u8_un (d_be c)).
  destruct k; cbn [rd_kind]; repeat match goal with |- context [if ?b then _ else _] => destruct b end;
    rewrite ?rd_fixed_eq, ?rd_signed_eq, ?rd_sized_eq, ?(rd_uleb_eq dbg), ?(rd_sleb_eq dbg);
    match goal with |- context [opt ?r] => destruct r as [[v t1]|?| |] end; cbn [opt]; intros H; try discriminate H.
  all: try (injection H as <- <-; eauto).
  all: destruct (rd_block v t1) as [[b r]|] eqn:E; [|discriminate]; injection H as <- <-;
    exists v, t1, b; auto using rd_block_split.
Qed.

(* ---- inversion of the table decoder ---- *)
Lemma decode_one_inv c o t d rest :
  decode_one c (o :: t) = Some (d, rest) ->
  (b2n o = 237 /\ decode_wasm c t = Some (d, rest)) \/
  (exists ks args, layout (b2n o) = Some ks /\ rd_kinds c ks t = Some (args, rest) /\ meaning c (b2n o) args = Some d).
Proof.
  unfold decode_one. destruct (b2n o =? 237) eqn:E.
  - intros H. left. split; [lia|exact H].
  - destruct (layout (b2n o)) as [ks|]; [|discriminate].
    destruct (rd_kinds c ks t) as [[args t']|] eqn:ER; [|discriminate].
    destruct (meaning c (b2n o) args) as [d'|] eqn:EM; [|discriminate].
    intros H; inversion H; subst. right. exists ks, args. auto.
Qed.

Lemma rd_kinds_cons_inv c k ks t args r :
  rd_kinds c (k :: ks) t = Some (args, r) ->
  exists a t1 args', rd_kind c k t = Some (a, t1) /\ rd_kinds c ks t1 = Some (args', r) /\ args = a :: args'.
Proof.
  cbn [rd_kinds]. destruct (rd_kind c k t) as [[a t1]|] eqn:E1; [|discriminate].
  destruct (rd_kinds c ks t1) as [[args' t2]|] eqn:E2; [|discriminate]. intros H; injection H as <- <-. exists a, t1, args'. auto.
Qed.

(* ================= the table and the reader agree, opcode by opcode ================= *)

Lemma wasm_agree dbg c t d rest :
  decode_wasm c t = Some (d, rest) -> exists o, tr d = Some o /\ parse_wasm dbg (renc c) t = Ok (o, rest).
Proof.
  unfold decode_wasm, parse_wasm. destruct t as [|k t0]; [discriminate|]. cbn [read_u8 bind].
  destruct (b2n k <? 3) eqn:E3.
  - destruct (rd_uleb t0) as [[i t']|] eqn:Eu; [|discriminate].
    destruct (i <? 2 ^ 32) eqn:Ei; [|discriminate]. intros H; inversion H; subst. clear H.
    rewrite (rd_uleb_eq dbg) in Eu. apply opt_some in Eu. unfold read_uleb128_u32. rewrite Eu. cbn [bind].
    change (2 ^ 32) with two32 in Ei. rewrite Ei.
    destruct (b2n k =? 0) eqn:E0; [eexists; split; reflexivity|].
    destruct (b2n k =? 1) eqn:E1; [eexists; split; reflexivity|].
    destruct (b2n k =? 2) eqn:E2; [eexists; split; reflexivity|lia].
  - destruct (b2n k =? 3) eqn:E; [|discriminate].
    destruct (rd_fixed (d_be c) 4 t0) as [[i t']|] eqn:Ef; [|discriminate]. intros H; inversion H; subst. clear H.
    destruct (b2n k =? 0) eqn:E0; [lia|]. destruct (b2n k =? 1) eqn:E1; [lia|]. destruct (b2n k =? 2) eqn:E2; [lia|].
    rewrite rd_fixed_eq in Ef. apply opt_some in Ef. unfold read_u, renc. cbn [OpDec.e_be]. rewrite Ef. eexists; split; reflexivity.
Qed.

(* the operands of one opcode, each as a fact about the reader's primitives *)
Ltac facts dbg HR :=
  repeat (apply rd_kinds_cons_inv in HR;
          let Ha := fresh "Ha" in destruct HR as (? & ? & ? & Ha & HR & ->);
          apply (rd_kind_reader dbg) in Ha; cbn [rfacts] in Ha);
  cbn [rd_kinds] in HR; injection HR as <- <-;
  repeat match goal with
         | H : exists _, _ |- _ => destruct H
         | H : _ /\ _ |- _ => destruct H
         end; subst.

Ltac one_opcode dbg HR HM :=
  facts dbg HR;
  match type of HM with meaning _ ?n _ = _ => let v := eval vm_compute in n in change n with v in HM end;
  cbn in HM;
  repeat match type of HM with context [if ?c then _ else _] => destruct c eqn:? end;
  try discriminate HM;
  inversion HM; subst; clear HM;
  eexists; split; [reflexivity|];
  cbn [parse_op parse_opcode]; unfold read_register, register_from_u64, two16, two64;
  change (2 ^ 64) with 18446744073709551616 in *;
  repeat (match goal with
          | Hf : ?lhs = Ok _ |- context [?lhs] => rewrite Hf
          | E : ?c = true |- context [if ?c then _ else _] => rewrite E
          end; cbn [bind]);
  reflexivity.

(* Whatever the independent table decodes, the reader model decodes to the corresponding operation, consuming the
   same bytes: every opcode, every encoding, both build modes, every operand byte string. *)
Theorem table_agrees_with_reader dbg c bs d rest :
  decode_one c bs = Some (d, rest) ->
  exists o, tr d = Some o /\ parse_op dbg (renc c) bs = Ok (o, rest).
Proof.
  destruct bs as [|o t]; [discriminate|]. intros H.
  apply decode_one_inv in H. destruct H as [[E W]|[ks [args [HL [HR HM]]]]].
  - assert (o = xed) by (apply b2n_inj; exact E). subst o. cbn [parse_op parse_opcode]. apply wasm_agree. exact W.
  - destruct o; vm_compute in HL; try discriminate HL; inversion HL; subst ks; clear HL.
    all: one_opcode dbg HR HM.
Qed.

(* ================= (a) the reader over the written bytes ================= *)

Lemma decode_from_operations rdbg c : forall fuel off bs dl,
  decode_from fuel c off bs = Some dl ->
  forall fuel2, (length bs < fuel2)%nat ->
  exists ros, operations_fuel fuel2 rdbg (renc c) bs = (ros, None) /\ map (fun x => tr (snd x)) dl = map Some ros.
Proof.
  induction fuel as [|fuel IH]; intros off bs dl H fuel2 Hf.
  - destruct bs as [|b r]; [|discriminate]. inversion H; subst.
    destruct fuel2 as [|f2]; [cbn in Hf; lia|]. exists []. split; reflexivity.
  - destruct bs as [|b r].
    + inversion H; subst. destruct fuel2 as [|f2]; [cbn in Hf; lia|]. exists []. split; reflexivity.
    + cbn [decode_from] in H.
      destruct (decode_one c (b :: r)) as [[d t]|] eqn:Ed; [|discriminate].
      destruct (decode_from fuel c (off + (N.of_nat (length (b :: r)) - N.of_nat (length t))) t) as [l|] eqn:El; [|discriminate].
      inversion H; subst. clear H.
      destruct (table_agrees_with_reader rdbg c _ _ _ Ed) as [o [Ho Hp]].
      pose proof (parse_op_shorter _ _ _ _ _ Hp) as Hs.
      destruct fuel2 as [|f2]; [lia|].
      destruct (IH _ _ _ El f2) as [ros [Hr Hm]]; [lia|].
      exists (o :: ros). split.
      * cbn [operations_fuel]. rewrite Hp, Hr. reflexivity.
      * cbn [map snd]. rewrite Ho, Hm. reflexivity.
Qed.

(* (a) For every expression decode_written covers: OperationIter over the written bytes (the reader model, in
   either build mode) ends normally and yields, operation by operation, the reader's form (tr) of the built
   operations' normal forms. *)
Theorem decode_written_by_reader_lemma dbg rdbg e uo refs base ex bs fx :
  forallb OpWr.wf_op ex = true -> wf_uoffs uo = true -> forallb decodable ex = true ->
  base + blen bs < 2 ^ 63 ->
  write_expr dbg e uo refs base ex = Ok (bs, fx) ->
  exists offsets dl ros,
    expr_offsets dbg e uo base ex = Ok offsets /\
    decoded (fun p o d => exists b, normal_form dbg e uo refs offsets p o b d) base ex offsets dl /\
    operations rdbg (renc (dcfg_of e)) bs = (ros, None) /\
    map (fun x => tr (snd x)) dl = map Some ros.
Proof.
  intros Hwf Huo Hdec Hpos H.
  destruct (decode_written_expr _ _ _ _ _ _ _ _ Hwf Huo Hdec Hpos H) as [offsets [dl [Ho [Hd Hdd]]]].
  unfold decode in Hd.
  destruct (decode_from_operations rdbg _ _ _ _ _ Hd (S (length bs))) as [ros [Hr Hm]]; [lia|].
  exists offsets, dl, ros. auto.
Qed.

(* ================= (b) branches, through the evaluator's compute_pc ================= *)

(* A written skip (wo = WoSkip, ro = OSkip) or bra: the reader parses its three bytes b to ro disp, and compute_pc,
   standing just after them, moves the pc to post_t, where pre_t is the emission of the first t operations. *)
Lemma branch_lands_gen (wo : N -> wop) (ro : Z -> operation) :
  (wo = WoSkip /\ ro = OSkip) \/ (wo = WoBranch /\ ro = OBra) ->
  forall dbg rdbg e uo refs base ex bs fx,
  base + blen bs < 2 ^ 63 ->
  write_expr dbg e uo refs base ex = Ok (bs, fx) ->
  forall k t, nth_error ex k = Some (wo t) ->
  exists pre_k b post_k disp pre_t post_t offsets offs' fx',
    bs = pre_k ++ b ++ post_k /\ length b = 3%nat /\
    parse_op rdbg (renc (dcfg_of e)) (b ++ post_k) = Ok (ro disp, post_k) /\
    bs = pre_t ++ post_t /\
    expr_offsets dbg e uo base ex = Ok offsets /\
    laid (write_op dbg e uo refs offsets) base (firstn (N.to_nat t) ex) offs' pre_t fx' /\
    forall s, s_bytecode s = bs -> s_pc s = post_k -> compute_pc s disp = Ok post_t.
Proof.
  intros Hwo dbg rdbg e uo refs base ex bs fx Hpos H k t Hk.
  destruct (write_expr_laid _ _ _ _ _ _ _ _ H) as [offsets [Ho Hl]]; [lia|].
  pose proof (laid_offsets_bound _ _ _ _ _ _ Hl _ Hpos) as Hob.
  pose proof (laid_length _ _ _ _ _ _ Hl) as Hlen.
  (* the operation itself: opcode, then the i16 displacement to offsets[t] *)
  assert (Hkl : (k <= length ex)%nat) by (apply Nat.lt_le_incl; apply nth_error_Some; congruence).
  destruct (laid_split _ _ _ _ _ _ Hl k Hkl) as (pre_k & post & fpre & fpost & -> & E2 & E3 & E4 & E5).
  destruct (nth_error_skipn _ _ _ Hk) as [tl Etl]. rewrite Etl in E5.
  inversion E5 as [|p0 o0 r0 offs0 b f post_k fx'' Hw Hl'' Ea Eb Ec Ed Ee]; subst. clear E5.
  rewrite !blen_app in Hpos. set (p := base + blen pre_k) in *.
  assert (Hb : exists opc bo d, b = n2b opc :: bo /\ branch_operand dbg (OpWr.e_be e) offsets t (p + 1) = Ok bo /\
                 (forall x, tr (d x) = Some (ro x)) /\ opc < 256 /\ opc <> 237 /\ layout opc = Some [K_i16] /\
                 forall c x, meaning c opc [AS x] = Some (d x)).
  { destruct Hwo as [[-> ->]|[-> ->]]; cbn [write_op] in Hw; apply only_ok in Hw as [Hw _];
      apply bind_ok in Hw as (bo & Hbo & Hw); injection Hw as <-;
      [exists 47, bo, DoSkip|exists 40, bo, DoBra]; repeat split; trivial; lia. }
  destruct Hb as (opc & bo & d & -> & Hbo & Htr & Ho1 & Ho2 & Hlay & Hmean).
  pose proof (branch_operand_len _ _ _ _ _ _ Hbo) as Hbl. rewrite blen_cons, Hbl in Hpos.
  destruct (branch_operand_reads dbg e offsets t p bo) as (tv & disp & Et & Hd & Ei & R); [lia|assumption..|].
  (* where offsets[t] lies in the bytes *)
  rewrite nth_N_nth_error in Et.
  assert (Htl : (N.to_nat t <= length ex)%nat).
  { assert (N.to_nat t < length offsets)%nat by (apply nth_error_Some; congruence). lia. }
  destruct (laid_split _ _ _ _ _ _ Hl (N.to_nat t) Htl) as (pre_t & post_t & fpt & fpo & T1 & T2 & T3 & T4 & T5).
  rewrite Et in T3. injection T3 as ->.
  exists pre_k, (n2b opc :: bo), post_k, disp, pre_t, post_t, offsets, (firstn (N.to_nat t) offsets ++ [base + blen pre_t]), fpt.
  assert (Hbo3 : length (n2b opc :: bo) = 3%nat) by (unfold blen in Hbl; cbn [length]; lia).
  split; [reflexivity|]. split; [exact Hbo3|]. split.
  { destruct (table_agrees_with_reader rdbg (dcfg_of e) ((n2b opc :: bo) ++ post_k) (d disp) post_k) as (o & To & Po).
    - apply decode_op1 with (k := K_i16) (a := AS disp); auto.
    - rewrite Htr in To. injection To as <-. exact Po. }
  split; [exact T1|]. split; [exact Ho|]. split; [exact T4|].
  intros s Hbc Hpc.
  assert (Hd16 : (- 32768 <= disp < 32768)%Z).
  { unfold in_signed in Ei. change (Z.of_N (2 ^ (16 - 1))) with 32768%Z in Ei. lia. }
  assert (Hlens : length (pre_k ++ (n2b opc :: bo) ++ post_k) = (length pre_k + 3 + length post_k)%nat)
    by (rewrite !app_length, Hbo3; lia).
  rewrite compute_pc_exact.
  - cbv zeta. rewrite Hbc, Hpc, Hlens.
    assert (Hlt : (length pre_k + 3 + length post_k = length pre_t + length post_t)%nat)
      by (rewrite <- Hlens, T1; apply app_length).
    replace (Z.of_nat (length pre_k + 3 + length post_k) - Z.of_nat (length post_k) + disp)%Z with (Z.of_nat (length pre_t))
      by (unfold p, blen in Hd; lia).
    destruct ((0 <=? Z.of_nat (length pre_t))%Z && (Z.of_nat (length pre_t) <=? Z.of_nat (length pre_k + 3 + length post_k))%Z) eqn:C; [|lia].
    rewrite Nat2Z.id, T1, skipn_app_exact. reflexivity.
  - rewrite Hbc, Hpc. exists (pre_k ++ n2b opc :: bo). rewrite <- app_assoc. reflexivity.
  - exact Hd16.
  - rewrite Hbc, Hlens. unfold blen in Hpos. lia.
Qed.
